(* Proofs about Model/Mono.v: the monomial types are commutative monoids (MultiDeg: on reduced values,
   which every operation returns), and cmp_lex / cmp_grlex are total orders compatible with the product.
   Exponent types are handled uniformly through an order-embedding into Z ([exp_laws]). *)
From Coq Require Import List Bool Arith NArith ZArith Lia.
Require Import Yui.Model.Mono.
Import ListNotations.

Record exp_laws {I : Type} (e : exp_ops I) (eZ : I -> Z) : Prop := mk_exp_laws {
  eZ_inj : forall a b, eZ a = eZ b -> a = b;
  eZ_0 : eZ (ezero e) = 0%Z;
  eZ_add : forall a b, eZ (eadd e a b) = (eZ a + eZ b)%Z;
  ecmp_Z : forall a b, ecmp e a b = (eZ a ?= eZ b)%Z;
  eeqb_Z : forall a b, eeqb e a b = (eZ a =? eZ b)%Z;
  esub_some : forall a b c, esub e a b = Some c -> eZ c = (eZ a - eZ b)%Z;
  esub_none : forall a b, esub e a b = None <-> (esigned e = false /\ (eZ a < eZ b)%Z);
  eneg_Z : esigned e = true -> forall a, eZ (eneg e a) = (- eZ a)%Z;
  eunsigned : esigned e = false -> forall a, (0 <= eZ a)%Z;
}.

Lemma N_exp_laws : exp_laws N_exp Z.of_N.
Proof.
  constructor; cbn.
  - intros a b. apply N2Z.inj.
  - reflexivity.
  - intros. lia.
  - intros. symmetry. apply N2Z.inj_compare.
  - intros a b. destruct (N.eqb_spec a b), (Z.eqb_spec (Z.of_N a) (Z.of_N b)); lia.
  - intros a b c H. destruct (N.leb_spec b a); [|discriminate]. injection H as <-. lia.
  - intros a b. destruct (N.leb_spec b a); split; intros H0; try discriminate; try lia; try (split; [reflexivity|lia]); try reflexivity.
  - discriminate.
  - intros. lia.
Qed.

Lemma Z_exp_laws : exp_laws Z_exp (fun z => z).
Proof.
  constructor; cbn.
  - auto.
  - reflexivity.
  - reflexivity.
  - reflexivity.
  - reflexivity.
  - intros a b c [= <-]. reflexivity.
  - intros a b. split; [discriminate|]. intros [H _]. discriminate.
  - reflexivity.
  - discriminate.
Qed.

Lemma Zadd_compare_mono_r n m p : (n + p ?= m + p)%Z = (n ?= m)%Z.
Proof. rewrite (Z.add_comm n), (Z.add_comm m). apply Z.add_compare_mono_l. Qed.

Lemma Zcompare_shift x y x' y' k : x' = (x + k)%Z -> y' = (y + k)%Z -> (x' ?= y')%Z = (x ?= y)%Z.
Proof. intros -> ->. apply Zadd_compare_mono_r. Qed.

Definition ord_laws {A : Type} (P : A -> Prop) (cmp : A -> A -> comparison) : Prop :=
  (forall x y, P x -> P y -> (cmp x y = Eq <-> x = y)) /\
  (forall x y, P x -> P y -> cmp y x = CompOpp (cmp x y)) /\
  (forall x y z, P x -> P y -> P z -> cmp x y = Lt -> cmp y z = Lt -> cmp x z = Lt).

Lemma then_with_Eq c1 c2 : then_with c1 c2 = Eq <-> c1 = Eq /\ c2 = Eq.
Proof. destruct c1, c2; cbn; intuition congruence. Qed.
Lemma then_with_opp c1 c2 : CompOpp (then_with c1 c2) = then_with (CompOpp c1) (CompOpp c2).
Proof. now destruct c1, c2. Qed.
Lemma then_with_Lt c1 c2 : then_with c1 c2 = Lt <-> c1 = Lt \/ (c1 = Eq /\ c2 = Lt).
Proof. destruct c1, c2; cbn; intuition congruence. Qed.
Lemma then_with_Eq_r c : then_with c Eq = c.
Proof. now destruct c. Qed.
Lemma then_with_assoc a b c : then_with (then_with a b) c = then_with a (then_with b c).
Proof. now destruct a. Qed.

Lemma ord_pair {A B} (P1 : A -> Prop) (P2 : B -> Prop) c1 c2 :
  ord_laws P1 c1 -> ord_laws P2 c2 ->
  ord_laws (fun p => P1 (fst p) /\ P2 (snd p)) (fun x y => then_with (c1 (fst x) (fst y)) (c2 (snd x) (snd y))).
Proof.
  intros (E1 & A1 & T1) (E2 & A2 & T2). split; [|split].
  - intros [x1 x2] [y1 y2] [Px1 Px2] [Py1 Py2]. cbn in *. rewrite then_with_Eq. split.
    + intros [Ha Hb]. apply E1 in Ha; try assumption. apply E2 in Hb; try assumption. congruence.
    + intros [= <- <-]. split; [now apply E1|now apply E2].
  - intros x y [Px1 Px2] [Py1 Py2]. now rewrite then_with_opp, <- A1, <- A2.
  - intros [x1 x2] [y1 y2] [z1 z2] [Px1 Px2] [Py1 Py2] [Pz1 Pz2] Hxy Hyz. cbn in *.
    apply then_with_Lt in Hxy, Hyz. apply then_with_Lt.
    destruct Hxy as [Hxy|[Hxy Hxy']], Hyz as [Hyz|[Hyz Hyz']].
    + left. now apply (T1 x1 y1 z1).
    + left. apply E1 in Hyz; try assumption. now subst.
    + left. apply E1 in Hxy; try assumption. now subst.
    + right. apply E1 in Hxy, Hyz; try assumption. subst. split; [now apply E1|]. now apply (T2 x2 y2 z2).
Qed.

Lemma ord_graded {A B} (P : A -> Prop) (PB : B -> Prop) (g : A -> B) cB cA :
  ord_laws PB cB -> ord_laws P cA -> (forall x, P x -> PB (g x)) ->
  ord_laws P (fun x y => then_with (cB (g x) (g y)) (cA x y)).
Proof.
  intros (E1 & A1 & T1) (E2 & A2 & T2) G. split; [|split].
  - intros x y Px Py. rewrite then_with_Eq. split.
    + intros [_ Hb]. now apply E2 in Hb.
    + intros <-. split; [apply E1; auto|now apply E2].
  - intros x y Px Py. rewrite then_with_opp, <- A1, <- A2; auto.
  - intros x y z Px Py Pz Hxy Hyz. apply then_with_Lt in Hxy, Hyz. apply then_with_Lt.
    destruct Hxy as [Hxy|[Hxy Hxy']], Hyz as [Hyz|[Hyz Hyz']].
    + left. apply (T1 (g x) (g y) (g z)); auto.
    + left. apply E1 in Hyz; auto. now rewrite <- Hyz.
    + left. apply E1 in Hxy; auto. now rewrite Hxy.
    + right. apply E1 in Hxy, Hyz; auto. split; [apply E1; auto; congruence|]. now apply (T2 x y z).
Qed.

Lemma ord_iso {A B} (P : A -> Prop) (Q : B -> Prop) (f : A -> B) cB :
  ord_laws Q cB -> (forall x, P x -> Q (f x)) -> (forall x y, P x -> P y -> f x = f y -> x = y) ->
  ord_laws P (fun x y => cB (f x) (f y)).
Proof.
  intros (E & A0 & T) HQ Hinj. split; [|split].
  - intros x y Px Py. split.
    + intros H1. apply E in H1; auto.
    + intros <-. apply E; auto.
  - intros x y Px Py. apply A0; auto.
  - intros x y z Px Py Pz. apply (T (f x) (f y) (f z)); auto.
Qed.

(* Iterator::max_by: a fold that keeps the later of two equal elements *)
Section MaxFold.
  Context {T A : Type} (key : T -> A) (P : A -> Prop) (cmp : A -> A -> comparison) (O : ord_laws P cmp).
  Definition maxstep (best t' : T) : T := match cmp (key best) (key t') with Gt => best | _ => t' end.

  Lemma not_gt_refl x : P x -> cmp x x <> Gt.
  Proof. intros Hx. destruct O as (OE & _ & _). rewrite (proj2 (OE x x Hx Hx) eq_refl). discriminate. Qed.

  Lemma not_gt_trans x y z : P x -> P y -> P z -> cmp x y <> Gt -> cmp y z <> Gt -> cmp x z <> Gt.
  Proof.
    intros Hx Hy Hz Hxy Hyz. destruct O as (OE & _ & OT).
    destruct (cmp x y) eqn:C1; [apply OE in C1; [now subst|assumption|assumption]| |congruence].
    destruct (cmp y z) eqn:C2; [apply OE in C2; [subst; congruence|assumption|assumption]| |congruence].
    rewrite (OT x y z Hx Hy Hz C1 C2). discriminate.
  Qed.

  (* one step returns one of its arguments, and neither argument is above it *)
  Lemma maxstep_spec b t : P (key b) -> P (key t) ->
    (maxstep b t = b \/ maxstep b t = t) /\
    cmp (key b) (key (maxstep b t)) <> Gt /\ cmp (key t) (key (maxstep b t)) <> Gt.
  Proof.
    intros Hb Ht. unfold maxstep. destruct (cmp (key b) (key t)) eqn:C.
    1-2: split; [now right|]; split; [congruence|now apply not_gt_refl].
    split; [now left|]. split; [now apply not_gt_refl|].
    destruct O as (_ & OA & _). rewrite (OA _ _ Hb Ht), C. discriminate.
  Qed.

  Lemma max_fold (r : list T) t :
    P (key t) -> Forall (fun t' => P (key t')) r ->
    let res := fold_left maxstep r t in
    P (key res) /\ In res (t :: r) /\ forall s, In s (t :: r) -> cmp (key s) (key res) <> Gt.
  Proof.
    revert t. induction r as [|t' r IH]; intros t Ht Hr; cbn [fold_left].
    - split; [assumption|]. split; [now left|]. intros s [<-|[]]. now apply not_gt_refl.
    - inversion Hr as [|? ? Ht' Hr']; subst.
      destruct (maxstep_spec t t' Ht Ht') as (Hm & Lt & Lt').
      assert (Pm : P (key (maxstep t t'))) by (destruct Hm as [->| ->]; assumption).
      destruct (IH _ Pm Hr') as (Pres & I1 & I2). set (res := fold_left maxstep r (maxstep t t')) in *.
      pose proof (I2 _ (or_introl eq_refl)) as Lm. split; [assumption|]. split.
      + destruct I1 as [<-|I1]; [destruct Hm as [->| ->]; [now left|right; now left]|right; now right].
      + intros s [<-|[<-|Is]]; [| |apply I2; now right]; now apply (not_gt_trans _ (key (maxstep t t'))).
  Qed.
End MaxFold.

Lemma ord_rev {A} (P : A -> Prop) cmp : ord_laws P cmp -> ord_laws P (fun x y => cmp y x).
Proof.
  intros (OE & OA & OT). split; [|split].
  - intros x y Hx Hy. rewrite (OE y x Hy Hx). split; congruence.
  - intros x y Hx Hy. now apply OA.
  - intros x y z Hx Hy Hz C1 C2. now apply (OT z y x).
Qed.

Lemma Z_ord : ord_laws (fun _ : Z => True) Z.compare.
Proof.
  split; [|split].
  - intros x y _ _. split; [apply Z.compare_eq|intros <-; apply Z.compare_refl].
  - intros x y _ _. apply Z.compare_antisym.
  - intros x y z _ _ _. rewrite !Z.compare_lt_iff. lia.
Qed.

Section Vars.
  Context {I : Type} (e : exp_ops I) (eZ : I -> Z) (EL : exp_laws e eZ).

  Lemma ecmp_ord : ord_laws (fun _ : I => True) (ecmp e).
  Proof.
    assert (H : ord_laws (fun _ : I => True) (fun x y => Z.compare (eZ x) (eZ y))).
    { apply (ord_iso _ (fun _ => True)); auto using Z_ord. intros x y _ _. apply (eZ_inj e eZ EL). }
    destruct H as (E & A & T). repeat split; intros; rewrite ?(ecmp_Z e eZ EL) in *; auto.
    - now apply E.
    - apply E; auto.
    - now apply (T x y z).
  Qed.

  Lemma ecmp_add a b c : ecmp e (eadd e a c) (eadd e b c) = ecmp e a b.
  Proof. rewrite !(ecmp_Z e eZ EL), !(eZ_add e eZ EL). apply Zadd_compare_mono_r. Qed.

  Lemma eeqb_eq a b : eeqb e a b = true <-> a = b.
  Proof.
    rewrite (eeqb_Z e eZ EL), Z.eqb_eq. split; [apply (eZ_inj e eZ EL)|congruence].
  Qed.
  Lemma eis_zero_iff a : eis_zero e a = true <-> a = ezero e.
  Proof. apply eeqb_eq. Qed.
  Lemma eis_zero_false a : eis_zero e a = false <-> a <> ezero e.
  Proof. rewrite <- eis_zero_iff. destruct (eis_zero e a); intuition congruence. Qed.

  (* an equation between exponents: map it into Z by the embedding eZ (additive, injective) and use lia *)
  Ltac ez := apply (eZ_inj e eZ EL); rewrite ?(eZ_add e eZ EL), ?(eZ_0 e eZ EL); try lia.
  Lemma eadd_comm a b : eadd e a b = eadd e b a. Proof. ez. Qed.
  Lemma eadd_assoc a b c : eadd e a (eadd e b c) = eadd e (eadd e a b) c. Proof. ez. Qed.
  Lemma eadd_0_l a : eadd e (ezero e) a = a. Proof. ez. Qed.
  Lemma eadd_0_r a : eadd e a (ezero e) = a. Proof. ez. Qed.

  Record mono_laws {X : Type} (m : mono_ops X) (ok : X -> Prop) : Prop := mk_mono_laws {
    meqb_eq : forall x y, meqb m x y = true <-> x = y;
    mone_ok : ok (mone m);
    mmul_ok : forall x y, ok x -> ok y -> ok (mmul m x y);
    mmul_comm : forall x y, ok x -> ok y -> mmul m x y = mmul m y x;
    mmul_assoc : forall x y z, ok x -> ok y -> ok z -> mmul m x (mmul m y z) = mmul m (mmul m x y) z;
    mmul_1_l : forall x, ok x -> mmul m (mone m) x = x;
    mdiv_sound : forall x y z, ok x -> ok y -> mdiv m x y = Some z -> ok z /\ mmul m z y = x;
    mlex_ord : ord_laws ok (mcmp_lex m);
    mgrlex_ord : ord_laws ok (mcmp_grlex m);
    mlex_mul : forall x y z, ok x -> ok y -> ok z -> mcmp_lex m (mmul m x z) (mmul m y z) = mcmp_lex m x y;
    mgrlex_mul : forall x y z, ok x -> ok y -> ok z -> mcmp_grlex m (mmul m x z) (mmul m y z) = mcmp_grlex m x y;
  }.

  Definition any {A} (_ : A) : Prop := True.

  Lemma esub_sound x y z : esub e x y = Some z -> eadd e z y = x.
  Proof. intros H. apply (esub_some e eZ EL) in H. ez. Qed.

  Theorem var_laws : mono_laws (var_mono e) any.
  Proof.
    constructor; cbn; unfold any; intros; auto.
    - apply eeqb_eq.
    - apply eadd_comm.
    - apply eadd_assoc.
    - apply eadd_0_l.
    - split; [exact Logic.I|now apply esub_sound].
    - apply ecmp_ord.
    - apply ecmp_ord.
    - apply ecmp_add.
    - apply ecmp_add.
  Qed.

  Lemma ord_any2 {A B} (c : A * B -> A * B -> comparison) :
    ord_laws (fun p => True /\ True) c -> ord_laws any c.
  Proof. intros (E & A0 & T). unfold any. repeat split; intros; try (apply E; auto); try (apply A0; auto). now apply (T x y z). Qed.

  Lemma v2_lex_ord : ord_laws any (v2_cmp_lex e).
  Proof. apply ord_any2. apply (ord_pair _ _ _ _ ecmp_ord ecmp_ord). Qed.
  Lemma v2_grlex_ord : ord_laws any (v2_cmp_grlex e).
  Proof. apply (ord_graded any (fun _ => True) (v2_total e) _ _ ecmp_ord v2_lex_ord). auto. Qed.

  Theorem var2_laws : mono_laws (var2_mono e) any.
  Proof.
    constructor; cbn; unfold any; intros; auto.
    - destruct x, y. cbn. rewrite andb_true_iff, !eeqb_eq. split; [intros []|intros [=]]; subst; auto.
    - destruct x, y. cbn. f_equal; apply eadd_comm.
    - destruct x, y, z. cbn. f_equal; apply eadd_assoc.
    - destruct x. cbn. f_equal; apply eadd_0_l.
    - split; [exact Logic.I|]. destruct x as [x1 x2], y as [y1 y2]. cbn in *.
      destruct (esub e x1 y1) eqn:E1; [|discriminate]. destruct (esub e x2 y2) eqn:E2; [|discriminate].
      cbn in H1. injection H1 as <-. cbn. f_equal; now apply esub_sound.
    - apply v2_lex_ord.
    - apply v2_grlex_ord.
    - unfold v2_cmp_lex. cbn. now rewrite !ecmp_add.
    - unfold v2_cmp_grlex, v2_cmp_lex, v2_total. cbn. rewrite !ecmp_add. f_equal.
      rewrite !(ecmp_Z e eZ EL), !(eZ_add e eZ EL).
      apply (Zcompare_shift _ _ _ _ (eZ (fst z) + eZ (snd z))); lia.
  Qed.

  Lemma v3_lex_ord : ord_laws any (v3_cmp_lex e).
  Proof.
    apply ord_any2.
    pose proof (ord_pair _ _ _ _ (ord_pair _ _ _ _ ecmp_ord ecmp_ord) ecmp_ord) as (E & A0 & T).
    unfold v3_cmp_lex, v3_0, v3_1, v3_2. repeat split; intros.
    - apply E in H1; auto.
    - apply E; auto.
    - apply A0; auto.
    - apply (T x y z); auto.
  Qed.
  Lemma v3_grlex_ord : ord_laws any (v3_cmp_grlex e).
  Proof. apply (ord_graded any (fun _ => True) (v3_total e) _ _ ecmp_ord v3_lex_ord). auto. Qed.

  Theorem var3_laws : mono_laws (var3_mono e) any.
  Proof.
    constructor; cbn; unfold any; intros; auto.
    - destruct x as [[x0 x1] x2], y as [[y0 y1] y2]. unfold v3_0, v3_1, v3_2. cbn.
      rewrite !andb_true_iff, !eeqb_eq. split; [intros [[] ?]|intros [=]]; subst; auto.
    - destruct x as [[x0 x1] x2], y as [[y0 y1] y2]. unfold v3_0, v3_1, v3_2. cbn. f_equal; [f_equal|]; apply eadd_comm.
    - destruct x as [[x0 x1] x2], y as [[y0 y1] y2], z as [[z0 z1] z2]. unfold v3_0, v3_1, v3_2. cbn.
      f_equal; [f_equal|]; apply eadd_assoc.
    - destruct x as [[x0 x1] x2]. unfold v3_0, v3_1, v3_2. cbn. f_equal; [f_equal|]; apply eadd_0_l.
    - split; [exact Logic.I|]. destruct x as [[x0 x1] x2], y as [[y0 y1] y2]. unfold v3_0, v3_1, v3_2 in *. cbn in *.
      destruct (esub e x0 y0) eqn:E0; [|discriminate]. destruct (esub e x1 y1) eqn:E1; [|discriminate].
      destruct (esub e x2 y2) eqn:E2; [|discriminate].
      cbn in H1. injection H1 as <-. cbn. f_equal; [f_equal|]; now apply esub_sound.
    - apply v3_lex_ord.
    - apply v3_grlex_ord.
    - unfold v3_cmp_lex, v3_0, v3_1, v3_2. cbn. now rewrite !ecmp_add.
    - unfold v3_cmp_grlex, v3_cmp_lex, v3_total, v3_0, v3_1, v3_2. cbn. rewrite !ecmp_add. f_equal.
      rewrite !(ecmp_Z e eZ EL), !(eZ_add e eZ EL).
      destruct x as [[x0 x1] x2], y as [[y0 y1] y2], z as [[z0 z1] z2]. cbn.
      apply (Zcompare_shift _ _ _ _ (eZ z0 + eZ z1 + eZ z2)); lia.
  Qed.
End Vars.
