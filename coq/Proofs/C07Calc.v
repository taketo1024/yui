(* C07, part 2: the executable model (Model/HomologyCalc.v) computes what part 1 (C07Algebra.v) describes.
   Everything is proved for an arbitrary SNF routine [snf] that meets the contract [snf_contract]
   (the specification proved for the mirror of snf.rs in property C09, plus its zero-input shortcut). *)
From Coq Require Import Arith List Lia Ring Bool.
Require Import Yui.Base.Ring Yui.Base.MatF Yui.Base.MatL Yui.Model.HomologyCalc Yui.Proofs.C07Algebra.
Require Import Yui.Base.ListFacts.
Import ListNotations.

(* H : obind x _ = Some _  -  case on x (equation named E, E0, ..), discharge the None case, simplify H *)
Ltac inv_bind H :=
  match type of H with
  | obind ?x _ = Some _ => let E := fresh "E" in destruct x eqn:E; cbn [obind] in H; [|discriminate H]
  end.
(* the same, naming the value and the equation *)
Ltac inv_bind_as H x E :=
  match type of H with
  | obind ?y _ = Some _ => destruct y as [x|] eqn:E; cbn [obind] in H; [|discriminate H]
  end.
(* a guard  if negb c then None else ..  that did not fire *)
Ltac inv_guard H G :=
  match type of H with
  | (if negb ?c then None else _) = Some _ => destruct c eqn:G; cbn [negb] in H; [|discriminate H]
  end.

Section C07Calc.
  Context {R : Type} (o : ring_ops R) (L : ring_laws o) (Hint : integral o).
  Variable isu : R -> bool.
  Hypothesis isu_complete : forall a b, rmul o a b = rone o -> isu a = true.
  Variable snf : dmat R -> bool -> bool -> bool -> bool -> option (snf_result R).

  Local Notation "0" := (rzero o).
  Local Notation "1" := (rone o).
  Local Infix "+" := (radd o).
  Local Infix "*" := (rmul o).
  Local Notation mg := (mget o).

  Add Ring Rring07c : (ring_theory_of_laws o L).

  Definition mwf (A : dmat R) : Prop := wf (nr A) (nc A) (ent A).

  Lemma mget_dmk m n f i j : (i < m)%nat -> (j < n)%nat -> mg (dmk m n f) i j = f i j.
  Proof. intros Hi Hj. unfold mget, dmk. cbn [ent]. now apply lget_lmk. Qed.

  Lemma mwf_dmk m n f : mwf (dmk m n f).
  Proof. unfold mwf, dmk. cbn [nr nc ent]. apply wf_lmk. Qed.

  (* The dense operations under their guards.  The result is given as an equation [M = dmk ..], so that after
     substitution the shapes of all later blocks are read off the terms. *)
  Lemma submat_inv A i0 i1 j0 j1 M :
    submat o A i0 i1 j0 j1 = Some M ->
    (i0 <= i1 <= nr A)%nat /\ (j0 <= j1 <= nc A)%nat /\
    M = dmk (i1 - i0) (j1 - j0) (fun i j => mg A (i0 + i)%nat (j0 + j)%nat).
  Proof.
    unfold submat. intros H.
    destruct ((i0 <=? i1) && (i1 <=? nr A) && (j0 <=? j1) && (j1 <=? nc A)) eqn:E; [|discriminate].
    injection H as <-. rewrite !andb_true_iff, !Nat.leb_le in E. destruct E as [[[E1 E2] E3] E4]. now repeat split.
  Qed.

  Lemma submat_rows_inv A i0 i1 M :
    submat_rows o A i0 i1 = Some M ->
    (i0 <= i1 <= nr A)%nat /\ M = dmk (i1 - i0) (nc A) (fun i j => mg A (i0 + i)%nat j).
  Proof. intros H. apply submat_inv in H as [H [_ ->]]. now rewrite Nat.sub_0_r. Qed.

  Lemma submat_cols_inv A j0 j1 M :
    submat_cols o A j0 j1 = Some M ->
    (j0 <= j1 <= nc A)%nat /\ M = dmk (nr A) (j1 - j0) (fun i j => mg A i (j0 + j)%nat).
  Proof. intros H. apply submat_inv in H as [_ [H ->]]. now rewrite Nat.sub_0_r. Qed.

  Lemma dmul_inv A B C :
    dmul o A B = Some C -> nc A = nr B /\ C = dmk (nr A) (nc B) (mmul o (nc A) (mg A) (mg B)).
  Proof.
    unfold dmul. intros H. destruct (Nat.eqb_spec (nc A) (nr B)) as [E|]; [|discriminate].
    injection H as <-. now split.
  Qed.

  Lemma stack_inv A B C :
    stack o A B = Some C ->
    nc A = nc B /\
    C = dmk (nr A + nr B) (nc A) (fun i j => if i <? nr A then mg A i j else mg B (i - nr A)%nat j).
  Proof.
    unfold stack. intros H. destruct (Nat.eqb_spec (nc A) (nc B)) as [E|]; [|discriminate].
    injection H as <-. now split.
  Qed.

  Lemma concat_inv A B C :
    concat o A B = Some C ->
    nr A = nr B /\
    C = dmk (nr A) (nc A + nc B) (fun i j => if j <? nc A then mg A i j else mg B i (j - nc A)%nat).
  Proof.
    unfold concat. intros H. destruct (Nat.eqb_spec (nr A) (nr B)) as [E|]; [|discriminate].
    injection H as <-. now split.
  Qed.

  Lemma submat_some A i0 i1 j0 j1 M :
    submat o A i0 i1 j0 j1 = Some M ->
    (i0 <= i1 <= nr A)%nat /\ (j0 <= j1 <= nc A)%nat /\ nr M = (i1 - i0)%nat /\ nc M = (j1 - j0)%nat /\ mwf M /\
    forall i j, (i < i1 - i0)%nat -> (j < j1 - j0)%nat -> mg M i j = mg A (i0 + i)%nat (j0 + j)%nat.
  Proof.
    intros H. apply submat_inv in H as [H1 [H2 ->]].
    repeat split; try apply H1; try apply H2; try apply mwf_dmk.
    intros i j Hi Hj. now rewrite mget_dmk.
  Qed.

  (* The same operations in the other direction: under its guard each returns the matrix it builds. *)
  Lemma submat_eq A i0 i1 j0 j1 :
    (i0 <= i1 <= nr A)%nat -> (j0 <= j1 <= nc A)%nat ->
    submat o A i0 i1 j0 j1 = Some (dmk (i1 - i0) (j1 - j0) (fun i j => mg A (i0 + i)%nat (j0 + j)%nat)).
  Proof.
    intros H1 H2. unfold submat.
    replace ((i0 <=? i1) && (i1 <=? nr A) && (j0 <=? j1) && (j1 <=? nc A)) with true; [reflexivity|].
    symmetry. rewrite !andb_true_iff, !Nat.leb_le. lia.
  Qed.

  Lemma dmul_eq A B : nc A = nr B -> dmul o A B = Some (dmk (nr A) (nc B) (mmul o (nc A) (mg A) (mg B))).
  Proof. intros H. unfold dmul. apply Nat.eqb_eq in H. now rewrite H. Qed.

  Lemma stack_eq A B :
    nc A = nc B ->
    stack o A B = Some (dmk (nr A + nr B) (nc A) (fun i j => if i <? nr A then mg A i j else mg B (i - nr A)%nat j)).
  Proof. intros H. unfold stack. apply Nat.eqb_eq in H. now rewrite H. Qed.

  Lemma concat_eq A B :
    nr A = nr B ->
    concat o A B = Some (dmk (nr A) (nc A + nc B) (fun i j => if j <? nc A then mg A i j else mg B i (j - nc A)%nat)).
  Proof. intros H. unfold concat. apply Nat.eqb_eq in H. now rewrite H. Qed.

  Lemma d_is_zero_spec A :
    d_is_zero o A = true <-> forall i j, (i < nr A)%nat -> (j < nc A)%nat -> mg A i j = 0.
  Proof.
    unfold d_is_zero. rewrite forallb_forall. split.
    - intros H i j Hi Hj. specialize (H i). rewrite in_seq in H. specialize (H ltac:(lia)).
      rewrite forallb_forall in H. specialize (H j). rewrite in_seq in H. specialize (H ltac:(lia)).
      now apply (reqb_eq o L).
    - intros H i Hi. rewrite in_seq in Hi. apply forallb_forall. intros j Hj. rewrite in_seq in Hj.
      apply (reqb_eq o L). apply H; lia.
  Qed.

  (* SnfResult::rank / factors on a diagonal with its non-zero entries first *)
  Lemma rank_loop_spec D k i :
    let r := rank_loop o D k i in
    (i <= r <= i + k)%nat /\ (forall j, (i <= j < r)%nat -> mg D j j <> 0) /\ ((r < i + k)%nat -> mg D r r = 0).
  Proof.
    revert i. induction k as [|k IH]; intros i; cbn [rank_loop].
    - split; [lia|split]; intros; lia.
    - destruct (ris_zero o (mg D i i)) eqn:E.
      + split; [lia|split]; [intros; lia|]. intros _. now apply (ris_zero_true o L).
      + specialize (IH (S i)). cbn zeta in IH. destruct IH as [H1 [H2 H3]].
        split; [lia|split].
        * intros j Hj. destruct (Nat.eq_dec j i) as [->|Hne].
          -- intros Z. apply (ris_zero_true o L) in Z. congruence.
          -- apply H2. lia.
        * intros Hlt. apply H3. lia.
  Qed.

  Section RankFactors.
    Variable s : snf_result R.
    Let D := sr_d s.
    Let N := Nat.min (nr D) (nc D).
    Hypothesis nz_first : forall i j, (i <= j)%nat -> (j < N)%nat -> mg D i i = 0 -> mg D j j = 0.

    Lemma sr_rank_spec :
      (sr_rank o s <= N)%nat /\ (forall i, (i < sr_rank o s)%nat -> mg D i i <> 0) /\
      (forall i, (sr_rank o s <= i)%nat -> (i < N)%nat -> mg D i i = 0).
    Proof.
      unfold sr_rank. fold D. fold N.
      destruct (rank_loop_spec D N O) as [H1 [H2 H3]]. cbn zeta in *.
      repeat split; try lia.
      - intros i Hi. apply H2. lia.
      - intros i Hi HN. apply (nz_first (rank_loop o D N 0) i); try assumption. apply H3. lia.
    Qed.

    Lemma sr_factors_spec : sr_factors o s = map (fun i => mg D i i) (seq 0 (sr_rank o s)).
    Proof.
      destruct sr_rank_spec as [H1 [H2 H3]].
      unfold sr_factors. fold D. fold N.
      replace N with (sr_rank o s + (N - sr_rank o s))%nat at 1 by lia.
      rewrite seq_app, map_app, filter_app. cbn [Nat.add].
      rewrite filter_all, filter_none; [apply app_nil_r| |].
      - intros x Hx. apply in_map_iff in Hx. destruct Hx as [i [<- Hi]]. apply in_seq in Hi.
        apply negb_false_iff. apply (ris_zero_true o L). apply H3; lia.
      - intros x Hx. apply in_map_iff in Hx. destruct Hx as [i [<- Hi]]. apply in_seq in Hi.
        apply negb_true_iff. destruct (ris_zero o (mg D i i)) eqn:E; [|reflexivity].
        apply (ris_zero_true o L) in E. exfalso. apply (H2 i); [lia|assumption].
    Qed.
  End RankFactors.

  Hypothesis isu_sound : forall a, isu a = true -> exists b, a * b = 1.

  (* On a divisibility chain a unit is preceded by units only, so the non-units are a final segment. *)
  Lemma units_first (a : nat -> R) r :
    (forall i, (S i < r)%nat -> exists c, a (S i) = a i * c) ->
    let tl := non_units isu (map a (seq 0 r)) in
    let t := length tl in
    (t <= r)%nat /\ tl = map a (seq (r - t) t) /\
    (forall i, (i < r - t)%nat -> isu (a i) = true) /\
    (forall i, (r - t <= i < r)%nat -> isu (a i) = false).
  Proof.
    induction r as [|r IH]; intros Hch; cbn zeta.
    - cbn. repeat split; intros; lia.
    - destruct (IH ltac:(intros i Hi; apply Hch; lia)) as [Ht [Etl [Hu Hn]]].
      unfold non_units in *. rewrite seq_S, map_app, filter_app. cbn [map filter Nat.add].
      revert Ht Etl Hu Hn. generalize (filter (fun x => negb (isu x)) (map a (seq 0 r))). intros tl Ht Etl Hu Hn.
      destruct (isu (a r)) eqn:Er; cbn [negb]; rewrite ?app_nil_r, ?app_length; cbn [length].
      + (* a r is a unit, hence so is a (r - 1): there was no non-unit so far *)
        assert (T0 : tl = []).
        { destruct tl as [|x tl']; [reflexivity|exfalso]. cbn [length] in *.
          destruct r as [|r']; [lia|].
          destruct (Hch r' ltac:(lia)) as [c Hc]. destruct (isu_sound _ Er) as [b Hb].
          specialize (Hn r' ltac:(lia)).
          rewrite (isu_complete (a r') (c * b)) in Hn by (rewrite <- Hb, Hc; ring). discriminate. }
        rewrite T0 in *. cbn [length] in *. rewrite Nat.sub_0_r in *.
        repeat split; [lia|intros i Hi|intros; lia].
        destruct (Nat.eq_dec i r) as [->|]; [exact Er|apply Hu; lia].
      + replace (S r - (length tl + 1))%nat with (r - length tl)%nat by lia.
        split; [lia|]. split; [|split].
        * rewrite Nat.add_1_r, seq_S, map_app, <- Etl. cbn [map]. repeat f_equal. lia.
        * exact Hu.
        * intros i Hi. destruct (Nat.eq_dec i r) as [->|]; [exact Er|apply Hn; lia].
  Qed.

  Definition opt_shape (b : bool) (x : option (dmat R)) (k : nat) : Prop :=
    if b then exists M, x = Some M /\ nr M = k /\ nc M = k else x = None.
  Definition opt_agrees (k : nat) (x : option (dmat R)) (F : mat R) : Prop :=
    forall M, x = Some M -> meq k k (mg M) F.

  Definition snf_ok (A : dmat R) (fp fpi fq fqi : bool) (s : snf_result R) : Prop :=
    let m := nr A in
    let n := nc A in
    let D := sr_d s in
    nr D = m /\ nc D = n /\
    opt_shape fp (sr_p s) m /\ opt_shape fpi (sr_pinv s) m /\ opt_shape fq (sr_q s) n /\ opt_shape fqi (sr_qinv s) n /\
    exists P Pi Q Qi : mat R,
      opt_agrees m (sr_p s) P /\ opt_agrees m (sr_pinv s) Pi /\ opt_agrees n (sr_q s) Q /\ opt_agrees n (sr_qinv s) Qi /\
      meq m n (mg D) (mmul o m P (mmul o n (mg A) Q)) /\
      inv_pair o m P Pi /\ inv_pair o n Q Qi /\
      is_diag o m n (mg D) /\
      (forall i j, (i <= j)%nat -> (j < Nat.min m n)%nat -> mg D i i = 0 -> mg D j j = 0) /\
      (forall i, (S i < Nat.min m n)%nat -> exists c, mg D (S i) (S i) = mg D i i * c) /\
      ((forall i j, (i < m)%nat -> (j < n)%nat -> mg A i j = 0) ->
       meq m m P (mid o) /\ meq m m Pi (mid o) /\ meq n n Q (mid o) /\ meq n n Qi (mid o)).

  Definition snf_contract : Prop :=
    forall A fp fpi fq fqi s, mwf A -> snf A fp fpi fq fqi = Some s -> snf_ok A fp fpi fq fqi s.

  (* what the homology computation uses of one SNF call *)
  Set Implicit Arguments.
  Record snf_use (A : dmat R) (fp fpi fq fqi : bool) (s : snf_result R) (P Pi Q Qi : mat R) : Prop := mk_use {
    us_nr : nr (sr_d s) = nr A;
    us_nc : nc (sr_d s) = nc A;
    us_smith : smith o (nr A) (nc A) (mg A) P Pi Q Qi (mg (sr_d s)) (sr_rank o s);
    us_sp : opt_shape fp (sr_p s) (nr A);
    us_spi : opt_shape fpi (sr_pinv s) (nr A);
    us_sq : opt_shape fq (sr_q s) (nc A);
    us_sqi : opt_shape fqi (sr_qinv s) (nc A);
    us_ap : opt_agrees (nr A) (sr_p s) P;
    us_api : opt_agrees (nr A) (sr_pinv s) Pi;
    us_aq : opt_agrees (nc A) (sr_q s) Q;
    us_aqi : opt_agrees (nc A) (sr_qinv s) Qi;
    us_chain : forall i, (S i < sr_rank o s)%nat ->
               exists c, mg (sr_d s) (S i) (S i) = mg (sr_d s) i i * c;
    us_factors : sr_factors o s = map (fun i => mg (sr_d s) i i) (seq O (sr_rank o s));
    us_zero : (forall i j, (i < nr A)%nat -> (j < nc A)%nat -> mg A i j = 0) ->
              meq (nr A) (nr A) P (mid o) /\ meq (nr A) (nr A) Pi (mid o) /\
              meq (nc A) (nc A) Q (mid o) /\ meq (nc A) (nc A) Qi (mid o);
  }.
  Unset Implicit Arguments.

  Lemma snf_ok_use A fp fpi fq fqi s :
    snf_ok A fp fpi fq fqi s -> exists P Pi Q Qi, snf_use A fp fpi fq fqi s P Pi Q Qi.
  Proof.
    intros H. unfold snf_ok in H. cbn zeta in H.
    destruct H as [Hnr [Hnc [Sp [Spi [Sq [Sqi [P [Pi [Q [Qi H]]]]]]]]]].
    destruct H as [Ap [Api [Aq [Aqi [Heq [HP [HQ [Hd [Hnz [Hch Hz]]]]]]]]]].
    exists P, Pi, Q, Qi.
    assert (Hnz' : forall i j, (i <= j)%nat -> (j < Nat.min (nr (sr_d s)) (nc (sr_d s)))%nat ->
                   mg (sr_d s) i i = 0 -> mg (sr_d s) j j = 0).
    { rewrite Hnr, Hnc. exact Hnz. }
    destruct (sr_rank_spec s Hnz') as [R1 [R2 R3]]. rewrite Hnr, Hnc in R1, R3.
    constructor; try assumption.
    - constructor; assumption.
    - intros i Hi. apply Hch. lia.
    - now apply sr_factors_spec.
  Qed.

  Lemma smith_rank0_zero m n A P Pi Q Qi D :
    smith o m n A P Pi Q Qi D O -> forall i j, (i < m)%nat -> (j < n)%nat -> A i j = 0.
  Proof.
    intros S i j Hi Hj.
    rewrite <- (mmul_cancel_l o L m Pi P A i j) by (try assumption; apply (sm_P _ _ _ _ _ _ _ _ _ _ S)).
    apply (mmul_zero_col o L). intros l Hl.
    rewrite (smith_PA_entry o L _ _ _ _ _ _ _ _ _ S) by assumption. reflexivity.
  Qed.

  Definition zero_prod (d1 d2 : dmat R) : Prop :=
    meq (nr d2) (nc d1) (mmul o (nr d1) (mg d2) (mg d1)) (mzero o).

  (* the matrix handed to the second SNF is d2 * B[:, r1..] *)
  Lemma restrict_d2_spec d1 d2 wt s1 d2r P1 B Q1 Q1i :
    snf_use d1 wt true false false s1 P1 B Q1 Q1i -> mwf d2 -> nr d1 = nc d2 ->
    restrict_d2 o (nr d1) s1 d2 = Some d2r ->
    let r1 := sr_rank o s1 in
    nr d2r = nr d2 /\ nc d2r = (nr d1 - r1)%nat /\ mwf d2r /\
    meq (nr d2) (nr d1 - r1) (mg d2r) (d2' o (nr d1) (mg d2) B r1).
  Proof.
    intros U1 W2 Hn E. cbn zeta. pose proof (us_smith U1) as S1. unfold restrict_d2 in E.
    destruct (Nat.ltb_spec O (sr_rank o s1)) as [Hpos|Hzero].
    - inv_bind_as E p1inv Ep. inv_bind_as E t2 Et.
      apply submat_cols_inv in Et as [Hc ->]. apply dmul_inv in E as [M1 ->]. cbn [nr nc dmk] in *.
      split; [reflexivity|]. split; [reflexivity|]. split; [apply mwf_dmk|].
      intros i j Hi Hj. rewrite mget_dmk by assumption.
      unfold d2'. rewrite <- Hn.
      apply (mmul_ext_r o). intros l Hl. rewrite mget_dmk by lia.
      unfold Bc. apply (us_api U1 Ep); lia.
    - injection E as <-. assert (E : sr_rank o s1 = O) by lia. rewrite E in *.
      split; [reflexivity|]. split; [lia|]. split; [exact W2|].
      intros i j Hi Hj. unfold d2'.
      destruct (us_zero U1 (smith_rank0_zero _ _ _ _ _ _ _ _ S1)) as [_ [HB _]].
      rewrite (mmul_ext_r o (nr d1) _ _ (mid o)).
      + symmetry. apply (mmul_id_r o L). lia.
      + intros l Hl. unfold Bc. cbn [Nat.add]. apply HB; lia.
  Qed.

  Lemma process_snf_spec d1 d2 wt s1 s2 :
    snf_contract -> mwf d1 -> mwf d2 -> nr d1 = nc d2 -> zero_prod d1 d2 ->
    process_snf o snf d1 d2 wt = Some (s1, s2) ->
    exists (d2r : dmat R) P1 B Q1 Q1i P2 P2i Q2 Q2i,
      snf d1 wt true false false = Some s1 /\ snf d2r false false wt wt = Some s2 /\
      nr d2r = nr d2 /\ nc d2r = (nr d1 - sr_rank o s1)%nat /\
      snf_use d1 wt true false false s1 P1 B Q1 Q1i /\
      snf_use d2r false false wt wt s2 P2 P2i Q2 Q2i /\
      smith o (nr d2) (nr d1 - sr_rank o s1) (d2' o (nr d1) (mg d2) B (sr_rank o s1)) P2 P2i Q2 Q2i
            (mg (sr_d s2)) (sr_rank o s2).
  Proof.
    intros HC W1 W2 Hn Hdd H. unfold process_snf in H.
    inv_bind_as H s1' E1. inv_bind_as H d2r Er. inv_bind_as H s2' E2. injection H as <- <-.
    destruct (snf_ok_use _ _ _ _ _ _ (HC _ _ _ _ _ _ W1 E1)) as [P1 [B [Q1 [Q1i U1]]]].
    destruct (restrict_d2_spec _ _ _ _ _ _ _ _ _ U1 W2 Hn Er) as [D1' [D2' [W2r Hmeq]]].
    destruct (snf_ok_use _ _ _ _ _ _ (HC _ _ _ _ _ _ W2r E2)) as [P2 [P2i [Q2 [Q2i U2]]]].
    exists d2r, P1, B, Q1, Q1i, P2, P2i, Q2, Q2i.
    split; [reflexivity|]. split; [exact E2|]. split; [exact D1'|]. split; [exact D2'|].
    split; [exact U1|]. split; [exact U2|].
    pose proof (us_smith U2) as S2. rewrite D1', D2' in S2.
    exact (smith_ext o _ _ _ _ _ _ _ _ _ _ Hmeq S2).
  Qed.
  Lemma calc_trans_spec s1 s2 tr n (P1 B Q2 Q2i : mat R) :
    nr (sr_d s1) = n ->
    opt_agrees n (sr_p s1) P1 -> opt_agrees n (sr_pinv s1) B ->
    opt_agrees (n - sr_rank o s1) (sr_q s2) Q2 -> opt_agrees (n - sr_rank o s1) (sr_qinv s2) Q2i ->
    calc_trans o isu s1 s2 = Some tr ->
    let r1 := sr_rank o s1 in
    let r2 := sr_rank o s2 in
    let t := length (non_units isu (sr_factors o s1)) in
    let r := (n - r1 - r2)%nat in
    exists p q,
      tr = mk_trans n (r + t) [p] [q] /\ nr p = (r + t)%nat /\ nc p = n /\ nr q = n /\ nc q = (r + t)%nat /\
      (t <= r1)%nat /\ (r1 + r2 <= n)%nat /\
      meq (r + t) n (mg p) (pF o n P1 r1 Q2i r2 t) /\
      meq n (r + t) (mg q) (qF o n B r1 Q2 r2 t).
  Proof.
    intros Hn Ap Api Aq Aqi H. cbn zeta. unfold calc_trans in H. rewrite Hn in H.
    set (r1 := sr_rank o s1) in *. set (r2 := sr_rank o s2) in *.
    set (t := length (non_units isu (sr_factors o s1))) in *.
    inv_guard H G1. apply Nat.leb_le in G1.
    inv_bind_as H p1 E1. inv_bind_as H p11 E. apply submat_rows_inv in E as [A1 ->].
    inv_bind_as H p2 E2. inv_bind_as H p22 E. apply submat_rows_inv in E as [B1 ->].
    inv_bind_as H pf E. apply dmul_inv in E as [C1 ->].
    inv_guard H G2. apply Nat.leb_le in G2.
    inv_bind_as H pt E. apply submat_rows_inv in E as [D1 ->].
    inv_bind_as H p E. apply stack_inv in E as [_ ->].
    cbn [nr nc dmk] in H, C1.
    inv_guard H G3. apply andb_true_iff in G3. destruct G3 as [G3 G3']. apply Nat.eqb_eq in G3, G3'.
    match type of H with context [trans_new ?x] => set (p := x) in * end.
    assert (Hp : meq (n - r1 - r2 + t) n (mg p) (pF o n P1 r1 Q2i r2 t)).
    { intros i j Hi Hj. unfold p. rewrite mget_dmk by lia.
      destruct (Nat.ltb_spec i (n - r1 - r2)) as [Hir|Hir].
      - rewrite pF_free, mget_dmk by lia. unfold mmul. rewrite C1. apply (sum_ext o). intros l Hl.
        rewrite !mget_dmk by lia. unfold P1r.
        now rewrite (Aqi _ eq_refl), (Ap _ eq_refl) by lia.
      - rewrite pF_tor, mget_dmk by lia. apply (Ap _ eq_refl); lia. }
    inv_bind_as H q1 F1. inv_bind_as H q12 E. apply submat_cols_inv in E as [A1' ->].
    inv_bind_as H q2 F2. inv_bind_as H q22 E. apply submat_cols_inv in E as [B1' ->].
    inv_bind_as H qf E. apply dmul_inv in E as [C1' ->].
    inv_bind_as H qt E. apply submat_cols_inv in E as [D1' ->].
    inv_bind_as H q E. apply concat_inv in E as [_ ->].
    cbn [nr nc dmk] in H, C1'.
    inv_guard H G4. apply andb_true_iff in G4. destruct G4 as [G4 G4']. apply Nat.eqb_eq in G4, G4'.
    match type of H with trans_new p ?x = _ => set (q := x) in * end.
    unfold trans_new, trans_append in H. cbn [tgt_dim trans_id src_dim f_mats b_mats app] in H.
    destruct ((nc p =? nr q) && (nr p =? nc q) && (nc p =? nc p)) eqn:G5; [|discriminate].
    injection H as <-.
    exists p, q. unfold p at 1 2 3, q at 1 2 3. cbn [nr nc dmk]. rewrite G3, G3'.
    repeat (split; [assumption || reflexivity|]).
    intros i j Hi Hj. unfold q. rewrite mget_dmk by lia.
    destruct (Nat.ltb_spec j (n - r1 - r2)) as [Hjr|Hjr].
    - rewrite qF_free, mget_dmk by lia. unfold mmul. rewrite C1'. apply (sum_ext o). intros l Hl.
      rewrite !mget_dmk by lia. unfold Bc.
      now rewrite (Api _ eq_refl), (Aq _ eq_refl) by lia.
    - rewrite qF_tor, mget_dmk by lia. apply (Api _ eq_refl); lia.
  Qed.
  Lemma calculate_core d1 d2 wt rank tors tr :
    snf_contract -> mwf d1 -> mwf d2 -> zero_prod d1 d2 ->
    calculate o isu snf d1 d2 wt = Some (rank, tors, tr) ->
    d_is_zero o d1 && d_is_zero o d2 = false ->
    nr d1 = nc d2 /\
    exists s1 s2 P1 B Q1 Q1i P2 P2i Q2 Q2i,
      let n := nr d1 in
      let r1 := sr_rank o s1 in
      let r2 := sr_rank o s2 in
      let D1 := mg (sr_d s1) in
      let t := length tors in
      smith o n (nc d1) (mg d1) P1 B Q1 Q1i D1 r1 /\
      smith o (nr d2) (n - r1) (d2' o n (mg d2) B r1) P2 P2i Q2 Q2i (mg (sr_d s2)) r2 /\
      (forall i, (S i < r1)%nat -> exists c, D1 (S i) (S i) = D1 i i * c) /\
      (r1 + r2 <= n)%nat /\ rank = (n - r1 - r2)%nat /\
      tors = non_units isu (map (fun i => D1 i i) (seq O r1)) /\
      ((t <= r1)%nat /\ tors = map (fun i => D1 i i) (seq (r1 - t) t) /\
       (forall i, (i < r1 - t)%nat -> isu (D1 i i) = true) /\
       (forall i, (r1 - t <= i < r1)%nat -> isu (D1 i i) = false)) /\
      (wt = false -> tr = None) /\
      (wt = true -> exists p q,
         tr = Some (mk_trans n (rank + t) [p] [q]) /\
         nr p = (rank + t)%nat /\ nc p = n /\ nr q = n /\ nc q = (rank + t)%nat /\
         meq (rank + t) n (mg p) (pF o n P1 r1 Q2i r2 t) /\
         meq n (rank + t) (mg q) (qF o n B r1 Q2 r2 t)).
  Proof.
    intros HC W1 W2 Hdd H Hz. unfold calculate in H.
    destruct (nr d1 =? nc d2) eqn:En; cbn [negb] in H; [|discriminate].
    apply Nat.eqb_eq in En. split; [exact En|].
    rewrite Hz in H.
    inv_bind H. destruct p as [s1 s2]. cbn [fst snd] in H.
    destruct (process_snf_spec d1 d2 wt s1 s2 HC W1 W2 En Hdd E)
      as [d2r [P1 [B [Q1 [Q1i [P2 [P2i [Q2 [Q2i [Es1 [Es2 [Hr1 [Hr2 [U1 [U2 S2]]]]]]]]]]]]]]].
    exists s1, s2, P1, B, Q1, Q1i, P2, P2i, Q2, Q2i. cbn zeta.
    pose proof (us_smith U1) as S1.
    inv_bind H. destruct p as [rk ts]. cbn [fst snd] in H.
    unfold result in E0. rewrite (us_nr U1) in E0.
    destruct (sr_rank o s1 + sr_rank o s2 <=? nr d1) eqn:G; [|discriminate].
    apply Nat.leb_le in G. injection E0 as <- <-.
    rewrite (us_factors U1) in H.
    split; [exact S1|]. split; [exact S2|]. split; [apply (us_chain U1)|].
    split; [exact G|].
    pose proof (units_first (fun i => mg (sr_d s1) i i) _ (us_chain U1)) as HU. cbn zeta in HU.
    destruct wt.
    - inv_bind H. injection H as <- <- <-.
      split; [reflexivity|]. split; [reflexivity|]. split; [exact HU|].
      split; [discriminate|]. intros _.
      assert (Aq : opt_agrees (nr d1 - sr_rank o s1) (sr_q s2) Q2).
      { rewrite <- Hr2. apply (us_aq U2). }
      assert (Aqi : opt_agrees (nr d1 - sr_rank o s1) (sr_qinv s2) Q2i).
      { rewrite <- Hr2. apply (us_aqi U2). }
      pose proof (calc_trans_spec s1 s2 t (nr d1) P1 B Q2 Q2i (us_nr U1)
                    (us_ap U1) (us_api U1) Aq Aqi E0) as HT.
      cbn zeta in HT. rewrite (us_factors U1) in HT.
      destruct HT as [p [q [T1 [T2 [T3 [T4 [T5 [T6 [T7 [T8 T9]]]]]]]]]].
      exists p, q. rewrite T1.
      repeat (split; [first [reflexivity|assumption]|]). assumption.
    - injection H as <- <- <-.
      split; [reflexivity|]. split; [reflexivity|]. split; [exact HU|].
      split; [reflexivity|discriminate].
  Qed.
  Lemma inv_pair_id k : inv_pair o k (mid o) (mid o).
  Proof. split; intros i j Hi Hj; now apply (mmul_id_l o L). Qed.

  Lemma zero_smith_form m n (A : mat R) :
    (forall i j, (i < m)%nat -> (j < n)%nat -> A i j = 0) -> smith_form o m n A O (fun _ => 0).
  Proof.
    intros HA. exists (mid o), (mid o), (mid o), (mid o).
    split; [apply inv_pair_id|]. split; [apply inv_pair_id|].
    split; [|split; [intros; lia|lia]].
    intros i j Hi Hj. rewrite (mmul_id_l o L) by assumption. rewrite (mmul_id_r o L) by assumption.
    rewrite HA by assumption. destruct (i =? j); reflexivity.
  Qed.

  Lemma calculate_true_some d1 d2 rank tors tr :
    calculate o isu snf d1 d2 true = Some (rank, tors, tr) -> exists t, tr = Some t.
  Proof.
    unfold calculate. intros H. destruct (negb (nr d1 =? nc d2)); [discriminate|].
    destruct (d_is_zero o d1 && d_is_zero o d2).
    - injection H as _ _ <-. eexists; reflexivity.
    - inv_bind H. inv_bind H. inv_bind H. injection H as _ _ <-. eexists; reflexivity.
  Qed.

  Lemma calculate_trivial d1 d2 wt res :
    calculate o isu snf d1 d2 wt = Some res -> d_is_zero o d1 && d_is_zero o d2 = true ->
    nr d1 = nc d2 /\ res = (nr d1, [], if wt then Some (trans_id (nr d1)) else None) /\
    (forall i j, (i < nr d1)%nat -> (j < nc d1)%nat -> mg d1 i j = 0) /\
    (forall i j, (i < nr d2)%nat -> (j < nc d2)%nat -> mg d2 i j = 0).
  Proof.
    unfold calculate. intros H Hz.
    destruct (Nat.eqb_spec (nr d1) (nc d2)) as [En|]; cbn [negb] in H; [|discriminate].
    rewrite Hz in H. injection H as <-.
    apply andb_true_iff in Hz. now rewrite !d_is_zero_spec in Hz.
  Qed.

  Theorem calculate_rank_tors d1 d2 wt rank tors tr :
    snf_contract -> mwf d1 -> mwf d2 -> zero_prod d1 d2 ->
    calculate o isu snf d1 d2 wt = Some (rank, tors, tr) ->
    nr d1 = nc d2 /\
    exists (r1 r2 : nat) (a b : nat -> R) (t : nat),
      smith_form o (nr d1) (nc d1) (mg d1) r1 a /\
      smith_form o (nr d2) (nc d2) (mg d2) r2 b /\
      (rank + r1 + r2 = nr d1)%nat /\
      (forall i, (S i < r1)%nat -> exists c, a (S i) = a i * c) /\
      tors = non_units isu (map a (seq O r1)) /\
      t = length tors /\ (t <= r1)%nat /\ tors = map a (seq (r1 - t) t) /\
      (forall i, (i < r1 - t)%nat -> isu (a i) = true) /\
      (forall i, (r1 - t <= i < r1)%nat -> isu (a i) = false).
  Proof.
    intros HC W1 W2 Hdd H.
    destruct (d_is_zero o d1 && d_is_zero o d2) eqn:Hz.
    - (* both maps are zero *)
      destruct (calculate_trivial _ _ _ _ H Hz) as [En [E [Z1 Z2]]]. injection E as -> -> _.
      split; [exact En|].
      exists O, O, (fun _ => 0), (fun _ => 0), O.
      split; [now apply zero_smith_form|]. split; [now apply zero_smith_form|].
      split; [lia|]. split; [intros; lia|].
      split; [reflexivity|]. split; [reflexivity|]. split; [lia|]. split; [reflexivity|].
      split; intros; lia.
    - destruct (calculate_core d1 d2 wt rank tors tr HC W1 W2 Hdd H Hz)
        as [En [s1 [s2 [P1 [B [Q1 [Q1i [P2 [P2i [Q2 [Q2i HH]]]]]]]]]]].
      cbn zeta in HH. destruct HH as [S1 [S2 [Hch [Hle [Hrk [Htors [HU _]]]]]]].
      split; [exact En|].
      exists (sr_rank o s1), (sr_rank o s2), (fun i => mg (sr_d s1) i i), (fun i => mg (sr_d s2) i i), (length tors).
      split; [exact (smith_to_form o _ _ _ _ _ _ _ _ _ S1)|].
      split.
      { rewrite <- En. exact (smith_form_d2 o L Hint _ _ _ _ _ Hdd _ _ _ _ _ _ S1 _ _ _ _ _ _ S2). }
      split; [lia|]. split; [exact Hch|]. split; [exact Htors|]. split; [reflexivity|exact HU].
  Qed.
  Lemma mget_d_id n i j : (i < n)%nat -> (j < n)%nat -> mg (d_id o n) i j = mid o i j.
  Proof. intros Hi Hj. unfold d_id. now rewrite mget_dmk. Qed.

  Definition gens_ok (d1 d2 : dmat R) (rank : nat) (tors : list R) (p q : dmat R) : Prop :=
    let h := (rank + length tors)%nat in
    let n := nr d1 in
    nr p = h /\ nc p = n /\ nr q = n /\ nc q = h /\
    (* the generators are cycles *)
    meq (nr d2) h (mmul o n (mg d2) (mg q)) (mzero o) /\
    (* their coordinates are the standard basis *)
    meq h h (mmul o n (mg p) (mg q)) (mid o) /\
    (* every boundary has coordinates 0 (free part) / multiples of the torsion orders (torsion part) *)
    (forall (x : nat -> R) i, (i < h)%nat ->
       let y := mvec o n (mg p) (mvec o (nc d1) (mg d1) x) in
       ((i < rank)%nat -> y i = 0) /\
       ((rank <= i)%nat -> exists c, y i = nth (i - rank) tors 0 * c)).

  Lemma finite_choice {A : Type} (P : nat -> A -> Prop) (d : A) N :
    (forall l, (l < N)%nat -> exists a, P l a) -> exists f : nat -> A, forall l, (l < N)%nat -> P l (f l).
  Proof.
    induction N as [|N IH]; intros H.
    - exists (fun _ => d). intros l Hl. lia.
    - destruct (IH ltac:(intros l Hl; apply H; lia)) as [f Hf].
      destruct (H N ltac:(lia)) as [a Ha].
      exists (fun l => if l =? N then a else f l). intros l Hl.
      destruct (Nat.eqb_spec l N) as [->|Hne]; [exact Ha|apply Hf; lia].
  Qed.

  Definition complete_ok (d1 d2 : dmat R) (rank : nat) (tors : list R) (p q : dmat R) : Prop :=
    let h := (rank + length tors)%nat in
    let n := nr d1 in
    forall z : nat -> R,
      (forall i, (i < nr d2)%nat -> mvec o n (mg d2) z i = 0) ->              (* z is a cycle *)
      (* z is homologous to the combination of the generators given by its coordinates *)
      (exists x : nat -> R, forall i, (i < n)%nat ->
         z i = mvec o h (mg q) (mvec o n (mg p) z) i + mvec o (nc d1) (mg d1) x i) /\
      (* and z is a boundary as soon as its coordinates vanish modulo the torsion orders *)
      ((forall i, (i < rank)%nat -> mvec o n (mg p) z i = 0) ->
       (forall s, (s < length tors)%nat -> exists c, mvec o n (mg p) z (rank + s)%nat = nth s tors 0 * c) ->
       exists x : nat -> R, forall i, (i < n)%nat -> z i = mvec o (nc d1) (mg d1) x i).

  (* generators, coordinates and completeness: the generators are cycles that span the homology, the coordinates
     detect the boundaries *)
  Theorem calculate_gens_complete d1 d2 rank tors tr :
    snf_contract -> mwf d1 -> mwf d2 -> zero_prod d1 d2 ->
    calculate o isu snf d1 d2 true = Some (rank, tors, tr) ->
    exists t p q,
      tr = Some t /\ forward_mat o t = Some p /\ backward_mat o t = Some q /\
      src_dim t = nr d1 /\ tgt_dim t = (rank + length tors)%nat /\
      gens_ok d1 d2 rank tors p q /\ complete_ok d1 d2 rank tors p q.
  Proof.
    intros HC W1 W2 Hdd H.
    destruct (d_is_zero o d1 && d_is_zero o d2) eqn:Hz.
    - destruct (calculate_trivial _ _ _ _ H Hz) as [En [E [Z1 Z2]]]. injection E as -> -> ->.
      exists (trans_id (nr d1)), (d_id o (nr d1)), (d_id o (nr d1)).
      unfold gens_ok, complete_ok. cbn zeta. cbn [length]. rewrite Nat.add_0_r.
      do 5 (split; [reflexivity|]).
      assert (Ed1 : forall (x : nat -> R) i, (i < nr d1)%nat -> mvec o (nc d1) (mg d1) x i = 0).
      { intros x i Hi. unfold mvec. apply (sum_zero_ext o L). intros l Hl. rewrite Z1 by assumption. ring. }
      split.
      + do 4 (split; [reflexivity|]).
        split; [|split].
        * intros i j Hi Hj. unfold mzero. apply (mmul_zero_row o L). intros l Hl. apply Z2; [assumption|lia].
        * intros i j Hi Hj. rewrite (mmul_ext_l o _ _ (mid o)) by (intros; now apply mget_d_id).
          rewrite (mmul_id_l o L) by assumption. now apply mget_d_id.
        * intros x i Hi. split; [|intros; lia]. intros _.
          unfold mvec at 1. apply (sum_zero_ext o L). intros l Hl. rewrite Ed1 by assumption. ring.
      + intros z Hzc.
        assert (Eid : forall (v : nat -> R) i, (i < nr d1)%nat -> mvec o (nr d1) (mg (d_id o (nr d1))) v i = v i).
        { intros v i Hi. rewrite (mvec_ext_row o _ (mid o)) by (intros l Hl; now apply mget_d_id).
          now apply (mvec_id o L). }
        split.
        * exists (fun _ => 0). intros i Hi. rewrite !Eid, Ed1 by assumption. ring.
        * intros Hfree _. exists (fun _ => 0). intros i Hi. rewrite Ed1 by assumption.
          rewrite <- (Eid z i Hi). now apply Hfree.
    - destruct (calculate_core d1 d2 true rank tors tr HC W1 W2 Hdd H Hz)
        as [En [s1 [s2 [P1 [B [Q1 [Q1i [P2 [P2i [Q2 [Q2i HH]]]]]]]]]]].
      cbn zeta in HH. destruct HH as [S1 [S2 [Hch [Hle [Hrk [_ [[T6 [HU1 [HU2 _]]] [_ HT]]]]]]]].
      destruct (HT eq_refl) as [p [q [T1 [T2 [T3 [T4 [T5 [T7 T8]]]]]]]].
      exists (mk_trans (nr d1) (rank + length tors) [p] [q]), p, q.
      split; [exact T1|]. do 4 (split; [reflexivity|]).
      unfold gens_ok, complete_ok. cbn zeta.
      set (t := length tors) in *. set (r1 := sr_rank o s1) in *. set (r2 := sr_rank o s2) in *.
      set (n := nr d1) in *.
      assert (Hrk' : (rank + t = n - r1 - r2 + t)%nat) by lia.
      assert (Htors : forall s, (s < t)%nat ->
                 nth s tors 0 = mg (sr_d s1) (r1 - t + s)%nat (r1 - t + s)%nat).
      { intros s Hs. rewrite HU1. now rewrite nth_map_seq. }
      split.
      + split; [exact T2|]. split; [exact T3|]. split; [exact T4|]. split; [exact T5|].
        split; [|split].
        * intros i j Hi Hj.
          rewrite (mmul_ext_r o n _ _ (qF o n B r1 Q2 r2 t)) by (intros l Hl; now apply T8).
          apply (gen_cycles o L Hint _ _ _ _ _ Hdd _ _ _ _ _ _ S1 _ _ _ _ _ _ S2 t T6); [assumption|lia].
        * intros i j Hi Hj.
          rewrite (mmul_ext_l o n _ (pF o n P1 r1 Q2i r2 t)) by (intros l Hl; now apply T7).
          rewrite (mmul_ext_r o n _ _ (qF o n B r1 Q2 r2 t)) by (intros l Hl; now apply T8).
          apply (gen_coords o L _ _ _ _ _ _ _ _ _ _ _ S1 _ _ _ _ _ _ S2 t T6); lia.
        * intros x i Hi. cbn zeta.
          rewrite (mvec_ext_row o _ (pF o n P1 r1 Q2i r2 t)) by (intros l Hl; now apply T7).
          rewrite (gen_boundary o L _ _ _ _ _ _ _ _ _ _ _ S1 _ _ _ _ _ _ S2 t T6) by lia.
          rewrite <- Hrk.
          split.
          -- intros Hlt. destruct (Nat.ltb_spec i rank); [reflexivity|lia].
          -- intros Hge. destruct (Nat.ltb_spec i rank); [lia|].
             eexists. f_equal. rewrite Htors by lia. reflexivity.
      + (* inverses of the unit entries *)
        destruct (finite_choice (fun l u => mg (sr_d s1) l l * u = 1) 0 (r1 - t)) as [uinv Hu].
        { intros l Hl. apply isu_sound. now apply HU2. }
        intros z Hzc.
        assert (Ep : forall i, (i < rank + t)%nat ->
                   mvec o n (mg p) z i = mvec o n (pF o n P1 r1 Q2i r2 t) z i).
        { intros i Hi. apply mvec_ext_row. intros l Hl. now apply T7. }
        assert (Eq : forall i, (i < n)%nat ->
                   mvec o (rank + t) (mg q) (mvec o n (mg p) z) i
                   = mvec o (n - r1 - r2 + t) (qF o n B r1 Q2 r2 t) (mvec o n (pF o n P1 r1 Q2i r2 t) z) i).
        { intros i Hi. rewrite <- Hrk.
          rewrite (mvec_ext_row o _ (qF o n B r1 Q2 r2 t)) by (intros l Hl; now apply T8).
          apply mvec_ext. intros l Hl. now apply Ep. }
        split.
        * destruct (cycle_decomp o L Hint _ _ _ _ _ Hdd _ _ _ _ _ _ S1 _ _ _ _ _ _ S2 t T6 uinv Hu z Hzc) as [x Hx].
          exists x. intros i Hi. rewrite Eq by assumption. now apply Hx.
        * intros Hfree Htor.
          destruct (finite_choice (fun s c => mvec o n (mg p) z (rank + s)%nat = nth s tors 0 * c) 0 t Htor) as [cf Hcf].
          apply (cycle_boundary o L Hint _ _ _ _ _ Hdd _ _ _ _ _ _ S1 _ _ _ _ _ _ S2 t T6 uinv Hu z Hzc cf).
          -- intros i Hi. fold n. rewrite <- Ep by lia. apply Hfree. lia.
          -- intros s Hs. fold n. rewrite <- Hrk. rewrite <- Ep by lia. rewrite Hcf by assumption.
             f_equal. now apply Htors.
  Qed.

  Theorem calculate_generators d1 d2 rank tors tr :
    snf_contract -> mwf d1 -> mwf d2 -> zero_prod d1 d2 ->
    calculate o isu snf d1 d2 true = Some (rank, tors, tr) ->
    exists t p q,
      tr = Some t /\ forward_mat o t = Some p /\ backward_mat o t = Some q /\
      src_dim t = nr d1 /\ tgt_dim t = (rank + length tors)%nat /\
      gens_ok d1 d2 rank tors p q.
  Proof.
    intros HC W1 W2 Hdd H.
    destruct (calculate_gens_complete d1 d2 rank tors tr HC W1 W2 Hdd H) as [t [p [q HH]]].
    exists t, p, q. tauto.
  Qed.
  Lemma non_units_length l : (length (non_units isu l) <= length l)%nat.
  Proof.
    unfold non_units. induction l as [|x l IH]; cbn [filter length]; [lia|].
    destruct (negb (isu x)); cbn [length]; lia.
  Qed.

  Lemma restrict_d2_total d1 d2 wt s1 :
    snf_contract -> mwf d1 -> nr d1 = nc d2 -> snf d1 wt true false false = Some s1 ->
    exists d2r, restrict_d2 o (nr d1) s1 d2 = Some d2r.
  Proof.
    intros HC W1 Hn E. destruct (snf_ok_use _ _ _ _ _ _ (HC _ _ _ _ _ _ W1 E)) as [P1 [B [Q1 [Q1i U1]]]].
    pose proof (sm_r _ _ _ _ _ _ _ _ _ _ (us_smith U1)) as Hr.
    unfold restrict_d2. destruct (0 <? sr_rank o s1); [|eexists; reflexivity].
    destruct (us_spi U1) as [p1inv [-> [Hp1 Hp2]]]. cbn [obind]. unfold submat_cols.
    rewrite submat_eq by lia. cbn [obind]. rewrite dmul_eq by (cbn [nr nc dmk]; lia). eexists; reflexivity.
  Qed.

  (* [calc_trans] returns as soon as the four transformation matrices are present and square of the right
     sizes, the two ranks fit into n and there are at most r1 torsion factors *)
  Lemma calc_trans_total s1 s2 e1 f1 e2 f2 :
    let n := nr (sr_d s1) in
    let r1 := sr_rank o s1 in
    let r2 := sr_rank o s2 in
    (r1 + r2 <= n)%nat -> (length (non_units isu (sr_factors o s1)) <= r1)%nat ->
    sr_p s1 = Some (mkm n n e1) -> sr_pinv s1 = Some (mkm n n f1) ->
    sr_qinv s2 = Some (mkm (n - r1) (n - r1) e2) -> sr_q s2 = Some (mkm (n - r1) (n - r1) f2) ->
    exists tr, calc_trans o isu s1 s2 = Some tr.
  Proof.
    cbn zeta. unfold calc_trans, submat_rows, submat_cols.
    set (n := nr (sr_d s1)). set (r1 := sr_rank o s1). set (r2 := sr_rank o s2).
    set (t := length (non_units isu (sr_factors o s1))).
    intros G Ht -> -> -> ->. cbn [obind nr nc].
    apply Nat.leb_le in G, Ht. rewrite G, Ht. apply Nat.leb_le in G, Ht. cbn [negb].
    (* the six sub-blocks are cut out of the four given matrices; then the products and the two assemblies *)
    rewrite !submat_eq by (cbn [nr nc]; lia). cbn [obind].
    rewrite dmul_eq by (cbn [nr nc dmk]; lia). cbn [obind].
    rewrite stack_eq by reflexivity. cbn [obind nr nc dmk].
    replace ((n - r1 - r2 + (r1 - (r1 - t)) =? n - r1 - r2 + t) && (n - 0 =? n)) with true
      by (symmetry; apply andb_true_iff; split; apply Nat.eqb_eq; lia).
    cbn [negb].
    rewrite dmul_eq by (cbn [nr nc dmk]; lia). cbn [obind].
    rewrite concat_eq by reflexivity. cbn [obind nr nc dmk].
    replace ((n - 0 =? n) && (n - r1 - r2 + (r1 - (r1 - t)) =? n - r1 - r2 + t)) with true
      by (symmetry; apply andb_true_iff; split; apply Nat.eqb_eq; lia).
    cbn [negb]. unfold trans_new, trans_append. cbn [tgt_dim trans_id nr nc dmk].
    rewrite !Nat.eqb_refl. eexists; reflexivity.
  Qed.

  (* totality: under the contract no assert of the homology code fires - [calculate] is [None] only when
     the shapes do not match or one of the two SNF calls is [None] *)
  Theorem calculate_total d1 d2 wt s1 d2r s2 :
    snf_contract -> mwf d1 -> mwf d2 -> nr d1 = nc d2 ->
    snf d1 wt true false false = Some s1 ->
    restrict_d2 o (nr d1) s1 d2 = Some d2r ->
    snf d2r false false wt wt = Some s2 ->
    exists res, calculate o isu snf d1 d2 wt = Some res.
  Proof.
    intros HC W1 W2 Hn E1 Er E2.
    unfold calculate. apply Nat.eqb_eq in Hn. rewrite Hn. cbn [negb]. apply Nat.eqb_eq in Hn.
    destruct (d_is_zero o d1 && d_is_zero o d2); [eexists; reflexivity|].
    unfold process_snf. rewrite E1. cbn [obind]. rewrite Er. cbn [obind]. rewrite E2. cbn [obind fst snd].
    destruct (snf_ok_use _ _ _ _ _ _ (HC _ _ _ _ _ _ W1 E1)) as [P1 [B [Q1 [Q1i U1]]]].
    destruct (restrict_d2_spec _ _ _ _ _ _ _ _ _ U1 W2 Hn Er) as [_ [Hc [W2r _]]].
    destruct (snf_ok_use _ _ _ _ _ _ (HC _ _ _ _ _ _ W2r E2)) as [P2 [P2i [Q2 [Q2i U2]]]].
    pose proof (sm_r _ _ _ _ _ _ _ _ _ _ (us_smith U1)) as Hr1.
    pose proof (sm_r _ _ _ _ _ _ _ _ _ _ (us_smith U2)) as Hr2.
    rewrite Hc in Hr2.
    assert (G : (sr_rank o s1 + sr_rank o s2 <= nr (sr_d s1))%nat) by (rewrite (us_nr U1); lia).
    unfold result. apply Nat.leb_le in G. rewrite G. apply Nat.leb_le in G. cbn [obind fst snd].
    destruct wt; [|eexists; reflexivity].
    assert (Ht : (length (non_units isu (sr_factors o s1)) <= sr_rank o s1)%nat).
    { rewrite (us_factors U1).
      etransitivity; [apply non_units_length|]. now rewrite map_length, seq_length. }
    destruct (us_sp U1) as [[a1 b1 e1] [Ep1 [? ?]]].
    destruct (us_spi U1) as [[a2 b2 f1] [Eq1 [? ?]]].
    destruct (us_sq U2) as [[a3 b3 f2] [Eq2 [? ?]]].
    destruct (us_sqi U2) as [[a4 b4 e2] [Ep2 [? ?]]].
    cbn [nr nc] in *. subst. rewrite Hc, <- (us_nr U1) in *.
    destruct (calc_trans_total s1 s2 e1 f1 e2 f2 G Ht Ep1 Eq1 Ep2 Eq2) as [tr ->]. eexists; reflexivity.
  Qed.
End C07Calc.
