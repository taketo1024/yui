(* Tangle layer, part 8: the statements that combine the previous parts (order independence of gluing, components of
   the tangle of a diagram, Euler number). *)
From Coq Require Import List Arith Bool Lia Permutation Sorted Relations.
Import ListNotations.
Require Import Yui.Model.Link Yui.Model.Tng Yui.Proofs.TngPBase Yui.Proofs.TngPSegs Yui.Proofs.TngPDeg
  Yui.Proofs.TngPJoin Yui.Proofs.TngPStep Yui.Proofs.TngPSeq Yui.Proofs.TngPConn.
Require Import Yui.Base.ListFacts.

Lemma labels_le2_perm : forall xs ys, Permutation xs ys -> labels_le2 xs -> labels_le2 ys.
Proof.
  intros xs ys Hp Hl v. rewrite <- (count_perm (edge_labels xs) (edge_labels ys) v); auto.
  unfold edge_labels. apply Permutation_flat_map. exact Hp.
Qed.

(* both orders end in normal forms with the same segments, hence in tangles related by any [R] that holds between
   such: the same components ([normal_form_unique]), or the library's == (TngPEq.normal_form_eqb) *)
Section Order.
  Variable R : tng -> tng -> Prop.
  Hypothesis R_nf : forall t1 t2, tng_ok t1 -> tng_ok t2 -> Permutation (tsegs t1) (tsegs t2) -> R t1 t2.

  Lemma crossings_order : forall xs ys, Permutation xs ys ->
    Forall (fun x => is_resolved x = true) xs -> labels_le2 xs ->
    exists t1 t2, tng_of_crossings xs = Some t1 /\ tng_of_crossings ys = Some t2 /\
                  tng_ok t1 /\ tng_ok t2 /\ R t1 t2.
  Proof.
    intros xs ys Hp Hr Hl.
    destruct (tng_of_crossings_ok xs Hr Hl) as (t1 & E1 & O1 & P1).
    destruct (tng_of_crossings_ok ys (Permutation_Forall Hp Hr) (labels_le2_perm _ _ Hp Hl)) as (t2 & E2 & O2 & P2).
    exists t1, t2. repeat (split; [assumption|]). apply R_nf; auto.
    exact (perm_trans P1 (perm_trans (Permutation_flat_map _ Hp) (Permutation_sym P2))).
  Qed.

  Lemma arcs_order : forall arcs arcs', Permutation arcs arcs' ->
    Forall simple_arc arcs -> deg_le2 (flat_map segs arcs) ->
    exists t1 t2, append_all [] arcs = Some t1 /\ append_all [] arcs' = Some t2 /\
                  tng_ok t1 /\ tng_ok t2 /\ R t1 t2.
  Proof.
    intros arcs arcs' Hp Ha Hd. pose proof (Permutation_flat_map segs Hp) as Ps.
    destruct (append_all_ok arcs [] ok_nil Ha Hd) as (t1 & E1 & O1 & P1).
    destruct (append_all_ok arcs' [] ok_nil (Permutation_Forall Hp Ha) (deg_le2_perm _ _ Ps Hd))
      as (t2 & E2 & O2 & P2).
    exists t1, t2. repeat (split; [assumption|]). apply R_nf; auto.
    exact (perm_trans P1 (perm_trans Ps (Permutation_sym P2))).
  Qed.
End Order.

Theorem crossings_order_independent : forall xs ys, Permutation xs ys ->
  Forall (fun x => is_resolved x = true) xs -> labels_le2 xs ->
  exists t1 t2, tng_of_crossings xs = Some t1 /\ tng_of_crossings ys = Some t2 /\
                tng_ok t1 /\ tng_ok t2 /\ Forall2 same_comp t1 t2.
Proof. exact (crossings_order _ normal_form_unique). Qed.

Theorem arcs_order_independent : forall arcs arcs', Permutation arcs arcs' ->
  Forall simple_arc arcs -> deg_le2 (flat_map segs arcs) ->
  exists t1 t2, append_all [] arcs = Some t1 /\ append_all [] arcs' = Some t2 /\
                tng_ok t1 /\ tng_ok t2 /\ Forall2 same_comp t1 t2.
Proof. exact (arcs_order _ normal_form_unique). Qed.

Theorem crossings_components : forall xs, Forall (fun x => is_resolved x = true) xs -> labels_le2 xs ->
  exists t, tng_of_crossings xs = Some t /\ tng_ok t /\
    (forall v, In v (verts t) <-> In v (edge_labels xs)) /\
    (forall u v, In u (edge_labels xs) ->
       (conn (flat_map crossing_segs xs) u v <-> exists c, In c t /\ In u (pedges c) /\ In v (pedges c))).
Proof.
  intros xs Hr Hl. destruct (tng_of_crossings_ok xs Hr Hl) as (t & E & O & P).
  exists t. split; auto. split; auto.
  assert (Hv : forall v, In v (verts t) <-> In v (edge_labels xs)).
  { intros v. rewrite (verts_ends t v (proj1 (proj1 O))). apply perm_in_iff.
    exact (perm_trans (Permutation_flat_map _ P) (crossings_ends xs)). }
  split; auto. intros u v Hu.
  rewrite <- (components_are_connected_components t u v (proj1 O)) by (apply Hv; auto).
  split; apply conn_incl; intros s; apply (perm_in_iff _ _ s P).
Qed.

(* a closed diagram: every label occurs exactly twice -> only circles *)
Lemma twice_le2 : forall xs, (forall v, In v (edge_labels xs) -> count_occ Nat.eq_dec (edge_labels xs) v = 2) ->
  labels_le2 xs.
Proof.
  intros xs Hl v. destruct (in_dec Nat.eq_dec v (edge_labels xs)) as [Hi|Hn]; [rewrite Hl; auto|].
  rewrite count_notin; auto.
Qed.

Theorem closed_diagram_circles : forall xs t, Forall (fun x => is_resolved x = true) xs ->
  (forall v, In v (edge_labels xs) -> count_occ Nat.eq_dec (edge_labels xs) v = 2) ->
  tng_of_crossings xs = Some t -> tng_is_closed t = true.
Proof.
  intros xs t Hr Hl E.
  destruct (tng_of_crossings_ok xs Hr (twice_le2 xs Hl)) as (t' & E' & O & P). rewrite E in E'. inversion E'; subst t'.
  unfold tng_is_closed. apply forallb_forall. intros c Hc. unfold p_is_circle.
  destruct (pclosed c) eqn:Ec; auto. exfalso.
  pose proof (deg_arc_end t c _ (proj1 O) Hc Ec (or_introl eq_refl)) as Hd.
  rewrite (deg_perm _ _ _ P) in Hd. unfold deg in Hd.
  rewrite (count_perm _ _ _ (crossings_ends xs)) in Hd.
  assert (Hin : In (hd 0 (pedges c)) (edge_labels xs)).
  { apply (count_occ_In Nat.eq_dec). lia. }
  rewrite (Hl _ Hin) in Hd. discriminate.
Qed.

Lemma arc_segs_length : forall l, l <> [] -> length l = length (arc_segs l) + 1.
Proof.
  induction l as [|a l IH]; intros Hl; [contradiction|].
  destruct l as [|b l]; [reflexivity|]. rewrite arc_segs_cons2. cbn [length]. rewrite IH at 1 by discriminate.
  cbn [length]. lia.
Qed.
Lemma circ_segs_length : forall l, length (circ_segs l) = length l.
Proof.
  intros [|x l]; [reflexivity|]. unfold circ_segs.
  pose proof (arc_segs_length ((x :: l) ++ [x])) as Hl. rewrite app_length in Hl. cbn [length] in *.
  assert (x :: l ++ [x] <> []) by discriminate. specialize (Hl H). lia.
Qed.

Theorem euler_num_spec : forall t, twf t ->
  length (verts t) = length (tsegs t) + tng_euler_num t.
Proof.
  induction t as [|c t IH]; intros Hw; [reflexivity|].
  inversion Hw as [|? ? Wc Wt]; subst. specialize (IH Wt).
  unfold tng_euler_num in *. cbn [verts tsegs flat_map filter]. rewrite !app_length.
  fold (verts t). fold (tsegs t). unfold segs.
  assert (Ea : p_is_arc c = negb (pclosed c)) by reflexivity. rewrite Ea.
  destruct (pclosed c) eqn:Ec; cbn [negb].
  - rewrite circ_segs_length. lia.
  - rewrite (arc_segs_length (pedges c)) by (apply pwf_arc_ne; auto). cbn [length]. lia.
Qed.
