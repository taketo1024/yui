(* Lemmas about Model/Lc.v: the free-module structure of linear combinations.
   Main tool: [lsum h l], the sum of h(x, r) over the stored terms.  For an additive h it is a linear
   functional of the formal sum, invariant under every map primitive (accumulate, clean), which gives
   all coefficient formulas at once ([rcoeff l z] is the instance h = delta z). *)
From Coq Require Import List Bool Arith Lia Permutation Ring.
Require Import Yui.Base.Ring Yui.Model.Lc.
Require Import Yui.Base.ListFacts.
Import ListNotations.

Section LcProofs.
  Context {X R : Type}.
  Context (xeqb : X -> X -> bool) (o : ring_ops R).
  Context (xeqb_eq : forall x y, xeqb x y = true <-> x = y).
  Context (L : ring_laws o).

  Add Ring Rr : (ring_theory_of_laws o L).

  Notation "0" := (rzero o).
  Notation "1" := (rone o).
  Infix "+" := (radd o).
  Infix "*" := (rmul o).
  Notation "- x" := (rneg o x).
  Notation lc := (lc X R).
  Notation get := (get xeqb).
  Notation coeff := (coeff xeqb o).
  Notation upd_add := (upd_add xeqb o).
  Notation add_pair := (add_pair xeqb o).
  Notation clean := (@clean X R o).
  Notation from_iter := (from_iter xeqb o).
  Notation lsum := (@lsum X R o).
  Notation rcoeff := (rcoeff xeqb o).
  Notation delta := (delta xeqb o).
  Notation keys := (@keys X R).

  Lemma xeqb_refl x : xeqb x x = true.
  Proof. now apply xeqb_eq. Qed.
  Lemma xeqb_neq x y : x <> y -> xeqb x y = false.
  Proof. intros H. destruct (xeqb x y) eqn:E; [|reflexivity]. apply xeqb_eq in E. contradiction. Qed.
  Lemma xeqb_spec x y : reflect (x = y) (xeqb x y).
  Proof. destruct (xeqb x y) eqn:E; constructor; [now apply xeqb_eq|]. intros H. apply xeqb_eq in H. congruence. Qed.

  Definition additive (h : X -> R -> R) : Prop :=
    (forall x, h x 0 = 0) /\ (forall x r s, h x (r + s) = h x r + h x s).

  Lemma additive_neg h : additive h -> forall x r, h x (- r) = - h x r.
  Proof.
    intros [H0 Ha] x r.
    assert (E : h x r + h x (- r) = 0) by (rewrite <- Ha; replace (r + - r) with 0 by ring; apply H0).
    replace (h x (- r)) with (h x r + h x (- r) + - h x r) by ring. rewrite E. ring.
  Qed.

  Lemma delta_additive z : additive (delta z).
  Proof. split; intros; unfold delta; destruct (xeqb x z); ring. Qed.

  Lemma lsum_nil h : lsum h [] = 0.
  Proof. reflexivity. Qed.
  Lemma lsum_cons h e l : lsum h (e :: l) = h (fst e) (snd e) + lsum h l.
  Proof. reflexivity. Qed.
  Lemma lsum_app h a b : lsum h (a ++ b) = lsum h a + lsum h b.
  Proof. induction a as [|e a IH]; cbn [app]; rewrite ?lsum_nil, ?lsum_cons, ?IH; ring. Qed.
  Lemma lsum_ext h h' l : (forall x r, h x r = h' x r) -> lsum h l = lsum h' l.
  Proof. intros E. induction l as [|e l IH]; [reflexivity|]. now rewrite !lsum_cons, IH, E. Qed.
  Lemma lsum_plus h1 h2 l : lsum (fun x r => h1 x r + h2 x r) l = lsum h1 l + lsum h2 l.
  Proof. induction l as [|e l IH]; [cbn; ring|]. rewrite !lsum_cons, IH. ring. Qed.
  (* an additive map of the ring commutes with the sum *)
  Lemma lsum_hom (f : R -> R) h l :
    f 0 = 0 -> (forall a b, f (a + b) = f a + f b) -> lsum (fun x r => f (h x r)) l = f (lsum h l).
  Proof. intros F0 Fa. induction l as [|e l IH]; [symmetry; exact F0|]. now rewrite !lsum_cons, IH, Fa. Qed.
  Lemma lsum_zero l : lsum (fun _ _ => 0) l = 0.
  Proof. apply (lsum_hom (fun _ => 0) (fun _ _ => 0)); intros; ring. Qed.
  Lemma lsum_scal_r h c l : lsum (fun x r => h x r * c) l = lsum h l * c.
  Proof. apply (lsum_hom (fun t => t * c)); intros; ring. Qed.
  Lemma lsum_scal_l h c l : lsum (fun x r => c * h x r) l = c * lsum h l.
  Proof. apply (lsum_hom (fun t => c * t)); intros; ring. Qed.
  Lemma lsum_opp h l : lsum (fun x r => - h x r) l = - lsum h l.
  Proof. apply (lsum_hom (fun t => - t)); intros; ring. Qed.

  (* Fubini for two term lists *)
  Lemma lsum_swap (g : X -> R -> X -> R -> R) (a b : lc) :
    lsum (fun x r => lsum (fun y s => g x r y s) b) a = lsum (fun y s => lsum (fun x r => g x r y s) a) b.
  Proof.
    induction a as [|e a IH].
    - cbn [Lc.lsum map rsum]. symmetry. apply lsum_zero.
    - rewrite lsum_cons, IH. rewrite <- lsum_plus. apply lsum_ext. intros y s. now rewrite lsum_cons.
  Qed.

  Lemma lsum_perm h a b : Permutation a b -> lsum h a = lsum h b.
  Proof.
    induction 1 as [|e a b _ IH|e e' a|a b c _ IH1 _ IH2].
    - reflexivity.
    - now rewrite !lsum_cons, IH.
    - rewrite !lsum_cons. ring.
    - congruence.
  Qed.

  (* the map primitives are invisible to additive functionals *)
  Lemma lsum_upd_add h l x r : additive h -> lsum h (upd_add l x r) = lsum h l + h x r.
  Proof.
    intros [H0 Ha]. induction l as [|[y s] l IH]; cbn [Lc.upd_add].
    - rewrite !lsum_cons, lsum_nil. cbn [fst snd]. ring.
    - destruct (xeqb_spec y x) as [->|N].
      + rewrite !lsum_cons. cbn [fst snd]. rewrite Ha. ring.
      + rewrite !lsum_cons, IH. ring.
  Qed.

  Lemma lsum_add_pair h l e : additive h -> lsum h (add_pair l e) = lsum h l + h (fst e) (snd e).
  Proof.
    intros A. unfold Lc.add_pair. destruct (ris_zero_spec o L (snd e)) as [E|N].
    - rewrite E. destruct A as [H0 _]. rewrite H0. ring.
    - now apply lsum_upd_add.
  Qed.

  Lemma lsum_clean h l : (forall x, h x 0 = 0) -> lsum h (clean l) = lsum h l.
  Proof.
    intros H0. induction l as [|e l IH]; [reflexivity|]. cbn [Lc.clean filter].
    destruct (ris_zero_spec o L (snd e)) as [E|N]; cbn [negb].
    - fold (clean l). rewrite lsum_cons, IH, E, H0. ring.
    - fold (clean l). now rewrite !lsum_cons, IH.
  Qed.

  Lemma lsum_fold_gen {T} (F : T -> X * R) h (it : list T) l : additive h ->
    lsum h (fold_left (fun acc t => add_pair acc (F t)) it l) = lsum h l + lsum h (map F it).
  Proof.
    intros A. revert l. induction it as [|e it IH]; intros l; cbn [fold_left map].
    - rewrite lsum_nil. ring.
    - rewrite IH, lsum_add_pair, lsum_cons by assumption. ring.
  Qed.

  Lemma lsum_fold_add_pair h it l : additive h ->
    lsum h (fold_left add_pair it l) = lsum h l + lsum h it.
  Proof. intros A. rewrite <- (map_id it) at 2. exact (lsum_fold_gen (fun e => e) h it l A). Qed.

  Lemma lsum_map_terms h (F : X * R -> X * R) l :
    lsum h (map F l) = lsum (fun x r => h (fst (F (x, r))) (snd (F (x, r)))) l.
  Proof. induction l as [|[x r] l IH]; [reflexivity|]. cbn [map]. now rewrite !lsum_cons, IH. Qed.

  Theorem lsum_from_iter h it : additive h -> lsum h (from_iter it) = lsum h it.
  Proof.
    intros A. unfold Lc.from_iter. rewrite lsum_clean by apply A.
    rewrite lsum_fold_add_pair, lsum_nil by assumption. ring.
  Qed.

  Theorem lsum_add h a b : additive h -> lsum h (add xeqb o a b) = lsum h a + lsum h b.
  Proof. intros A. unfold add. rewrite lsum_clean by apply A. now apply lsum_fold_add_pair. Qed.

  Theorem lsum_sub h a b : additive h -> lsum h (sub xeqb o a b) = lsum h a + - lsum h b.
  Proof.
    intros A. unfold sub. rewrite lsum_clean by apply A.
    rewrite (lsum_fold_gen (fun e => (fst e, - snd e))) by assumption.
    rewrite lsum_map_terms. cbn [fst snd]. f_equal.
    rewrite <- lsum_opp. apply lsum_ext. intros. now apply additive_neg.
  Qed.

  Theorem lsum_neg h a : additive h -> lsum h (neg xeqb o a) = - lsum h a.
  Proof.
    intros A. unfold neg, map_coeffs. rewrite lsum_from_iter by assumption.
    rewrite lsum_map_terms. cbn [fst snd]. rewrite <- lsum_opp. apply lsum_ext. intros. now apply additive_neg.
  Qed.

  Theorem lsum_smul h a c : additive h -> lsum h (smul o a c) = lsum (fun x r => h x (r * c)) a.
  Proof.
    intros A. unfold smul. destruct (ris_one_spec o L c) as [->|N].
    - apply lsum_ext. intros. f_equal. ring.
    - rewrite lsum_clean by apply A. now rewrite lsum_map_terms.
  Qed.

  Lemma lsum_fold_inner h (f : X -> X -> X) (e1 : X * R) b l : additive h ->
    lsum h (fold_left (fun acc2 e2 => add_pair acc2 (f (fst e1) (fst e2), snd e1 * snd e2)) b l)
    = lsum h l + lsum (fun y s => h (f (fst e1) y) (snd e1 * s)) b.
  Proof.
    intros A. rewrite (lsum_fold_gen (fun e2 => (f (fst e1) (fst e2), snd e1 * snd e2))) by assumption.
    now rewrite lsum_map_terms.
  Qed.

  Theorem lsum_combine h f a b : additive h ->
    lsum h (lc_combine xeqb o f a b) = lsum (fun x r => lsum (fun y s => h (f x y) (r * s)) b) a.
  Proof.
    intros A. unfold lc_combine. rewrite lsum_clean by apply A.
    assert (G : forall l, lsum h (fold_left (fun acc e1 =>
                 fold_left (fun acc2 e2 => add_pair acc2 (f (fst e1) (fst e2), snd e1 * snd e2)) b acc) a l)
              = lsum h l + lsum (fun x r => lsum (fun y s => h (f x y) (r * s)) b) a).
    { induction a as [|e1 a IH]; intros l; cbn [fold_left].
      - rewrite lsum_nil. ring.
      - rewrite IH, lsum_fold_inner, lsum_cons by assumption. ring. }
    rewrite G, lsum_nil. ring.
  Qed.

  Theorem lsum_raw_mul h f a b :
    lsum h (raw_mul o f a b) = lsum (fun x r => lsum (fun y s => h (f x y) (r * s)) b) a.
  Proof.
    unfold raw_mul. induction a as [|e1 a IH]; [reflexivity|].
    cbn [flat_map]. rewrite lsum_app, IH, lsum_cons. f_equal.
    now rewrite lsum_map_terms.
  Qed.

  Theorem lsum_filter_gens h p a : additive h ->
    lsum h (filter_gens xeqb o p a) = lsum (fun x r => if p x then h x r else 0) a.
  Proof.
    intros A. unfold filter_gens. rewrite lsum_from_iter by assumption.
    induction a as [|e a IH]; [reflexivity|]. cbn [filter]. rewrite lsum_cons.
    destruct (p (fst e)); rewrite ?lsum_cons, IH; ring.
  Qed.

  Theorem lsum_map_gens h f a : additive h ->
    lsum h (map_gens xeqb o f a) = lsum (fun x r => h (f x) r) a.
  Proof. intros A. unfold map_gens. rewrite lsum_from_iter by assumption. now rewrite lsum_map_terms. Qed.

  Lemma lsum_flat_map h (F : X * R -> lc) a :
    lsum h (flat_map F a) = lsum (fun x r => lsum h (F (x, r))) a.
  Proof.
    induction a as [|[x r] a IH]; [reflexivity|]. cbn [flat_map]. now rewrite lsum_app, IH, lsum_cons.
  Qed.

  Theorem lsum_apply h f a : additive h ->
    lsum h (apply xeqb o f a) = lsum (fun x r => lsum (fun y s => h y (r * s)) (f x)) a.
  Proof.
    intros A. unfold apply. rewrite lsum_from_iter by assumption. rewrite lsum_flat_map.
    apply lsum_ext. intros x r. cbn [fst snd]. now rewrite lsum_map_terms.
  Qed.

  Definition NoZero (l : lc) : Prop := NoDup (keys l) /\ Forall (fun e => snd e <> 0) l.

  Lemma keys_upd_add l x r : keys (upd_add l x r) = if existsb (fun y => xeqb y x) (keys l) then keys l else keys l ++ [x].
  Proof.
    induction l as [|[y s] l IH]; [reflexivity|]. cbn [Lc.upd_add Lc.keys map existsb fst].
    destruct (xeqb y x) eqn:E; cbn [orb]; [reflexivity|].
    cbn [map fst]. fold (keys (upd_add l x r)). rewrite IH. fold (keys l).
    now destruct (existsb (fun y0 => xeqb y0 x) (keys l)).
  Qed.

  Lemma existsb_keys_false l x : existsb (fun y => xeqb y x) l = false -> ~ In x l.
  Proof.
    intros H I. assert (existsb (fun y => xeqb y x) l = true); [|congruence].
    apply existsb_exists. exists x. split; [assumption|apply xeqb_refl].
  Qed.

  Lemma NoDup_upd_add l x r : NoDup (keys l) -> NoDup (keys (upd_add l x r)).
  Proof.
    intros H. rewrite keys_upd_add. destruct (existsb (fun y => xeqb y x) (keys l)) eqn:E; [assumption|].
    apply existsb_keys_false in E.
    apply NoDup_rev in H. rewrite <- (rev_involutive (keys l ++ [x])). apply NoDup_rev.
    rewrite rev_app_distr. cbn. constructor; [|assumption]. now rewrite <- in_rev.
  Qed.

  Lemma NoDup_add_pair l e : NoDup (keys l) -> NoDup (keys (add_pair l e)).
  Proof. intros H. unfold Lc.add_pair. destruct (ris_zero o (snd e)); [assumption|now apply NoDup_upd_add]. Qed.

  Lemma NoDup_fold_gen {T} (F : T -> X * R) (it : list T) l :
    NoDup (keys l) -> NoDup (keys (fold_left (fun acc t => add_pair acc (F t)) it l)).
  Proof. revert l. induction it as [|e it IH]; intros l H; cbn [fold_left]; [assumption|]. apply IH. now apply NoDup_add_pair. Qed.

  Lemma NoDup_fold_add_pair it l : NoDup (keys l) -> NoDup (keys (fold_left add_pair it l)).
  Proof. exact (NoDup_fold_gen (fun e => e) it l). Qed.

  Lemma keys_clean_incl l : forall x, In x (keys (clean l)) -> In x (keys l).
  Proof.
    intros x H. unfold Lc.keys in *. apply in_map_iff in H as [e [E I]]. apply filter_In in I as [I _].
    apply in_map_iff. now exists e.
  Qed.

  Lemma NoZero_clean l : NoDup (keys l) -> NoZero (clean l).
  Proof.
    intros H. split; [now apply NoDup_map_filter|].
    apply Forall_forall. intros e I. apply filter_In in I as [_ I].
    destruct (ris_zero_spec o L (snd e)); [discriminate|assumption].
  Qed.

  Lemma NoZero_nil : NoZero [].
  Proof. split; constructor. Qed.

  Theorem NoZero_from_iter it : NoZero (from_iter it).
  Proof. apply NoZero_clean, NoDup_fold_add_pair. constructor. Qed.
  Theorem NoZero_add a b : NoZero a -> NoZero (add xeqb o a b).
  Proof. intros [H _]. now apply NoZero_clean, NoDup_fold_add_pair. Qed.
  Theorem NoZero_sub a b : NoZero a -> NoZero (sub xeqb o a b).
  Proof. intros [H _]. apply NoZero_clean. now apply (NoDup_fold_gen (fun e => (fst e, - snd e))). Qed.
  Theorem NoZero_neg a : NoZero (neg xeqb o a).
  Proof. apply NoZero_from_iter. Qed.
  Lemma keys_map_snd (F : X -> R -> R) (a : lc) : keys (map (fun e => (fst e, F (fst e) (snd e))) a) = keys a.
  Proof. unfold Lc.keys. rewrite map_map. now apply map_ext. Qed.
  Theorem NoZero_smul a c : NoZero a -> NoZero (smul o a c).
  Proof.
    intros H. unfold smul. destruct (ris_one o c); [assumption|]. apply NoZero_clean.
    rewrite (keys_map_snd (fun _ r => r * c)). apply H.
  Qed.
  Theorem NoZero_combine f a b : NoZero (lc_combine xeqb o f a b).
  Proof.
    apply NoZero_clean.
    assert (G : forall l, NoDup (keys l) -> NoDup (keys (fold_left (fun acc e1 =>
                 fold_left (fun acc2 e2 => add_pair acc2 (f (fst e1) (fst e2), snd e1 * snd e2)) b acc) a l))).
    { induction a as [|e1 a IH]; intros l H; cbn [fold_left]; [assumption|]. apply IH.
      now apply (NoDup_fold_gen (fun e2 => (f (fst e1) (fst e2), snd e1 * snd e2))). }
    apply G. constructor.
  Qed.
  Theorem NoZero_filter_gens p a : NoZero (filter_gens xeqb o p a).
  Proof. apply NoZero_from_iter. Qed.
  Theorem NoZero_map_gens f a : NoZero (map_gens xeqb o f a).
  Proof. apply NoZero_from_iter. Qed.
  Theorem NoZero_apply f a : NoZero (apply xeqb o f a).
  Proof. apply NoZero_from_iter. Qed.

  (* coeff (hash-map lookup) = coefficient of the formal sum *)
  Lemma get_none l x : ~ In x (keys l) -> get l x = None.
  Proof.
    induction l as [|[y s] l IH]; intros H; [reflexivity|]. cbn [Lc.get].
    destruct (xeqb_spec y x) as [->|N]; [exfalso; apply H; now left|]. apply IH. intros I. apply H. now right.
  Qed.

  Lemma rcoeff_notin l z : ~ In z (keys l) -> rcoeff l z = 0.
  Proof.
    induction l as [|[y s] l IH]; intros H; [reflexivity|]. unfold Lc.rcoeff in *. rewrite lsum_cons. cbn [fst snd].
    unfold Lc.delta at 1. destruct (xeqb_spec y z) as [->|N]; [exfalso; apply H; now left|].
    rewrite IH; [ring|]. intros I. apply H. now right.
  Qed.

  Theorem coeff_rcoeff l z : NoDup (keys l) -> coeff l z = rcoeff l z.
  Proof.
    induction l as [|[y s] l IH]; intros H; [reflexivity|]. inversion H as [|? ? Hn Hd]; subst.
    unfold Lc.coeff, Lc.rcoeff in *. cbn [Lc.get]. rewrite lsum_cons. cbn [fst snd]. unfold Lc.delta at 1.
    destruct (xeqb_spec y z) as [->|N].
    - fold (rcoeff l z). rewrite rcoeff_notin by assumption. ring.
    - rewrite IH by assumption. ring.
  Qed.

  Lemma get_in l x r : NoDup (keys l) -> (get l x = Some r <-> In (x, r) l).
  Proof.
    induction l as [|[y s] l IH]; intros H; cbn [Lc.get]; [split; [discriminate|intros []]|].
    inversion H as [|? ? Hn Hd]; subst. destruct (xeqb_spec y x) as [->|N].
    - split; [intros [= ->]; now left|]. intros [[= ->]|I]; [reflexivity|].
      exfalso. apply Hn. unfold Lc.keys. apply in_map_iff. now exists (x, r).
    - rewrite IH by assumption. split; [now right|]. intros [[= -> ->]|I]; [congruence|assumption].
  Qed.

  Lemma coeff_in l x r : NoDup (keys l) -> In (x, r) l -> coeff l x = r.
  Proof. intros H I. unfold Lc.coeff. apply get_in in I; [|assumption]. now rewrite I. Qed.

  Lemma coeff_notin l x : ~ In x (keys l) -> coeff l x = 0.
  Proof. intros H. unfold Lc.coeff. now rewrite get_none. Qed.

  Lemma key_in_dec (x : X) l : {In x l} + {~ In x l}.
  Proof. apply in_dec. intros a b. destruct (xeqb_spec a b); [now left|now right]. Qed.

  (* support = key set *)
  Theorem support_keys l : NoZero l -> forall x, In x (keys l) <-> coeff l x <> 0.
  Proof.
    intros [Hd Hz] x. split.
    - intros I. unfold Lc.keys in I. apply in_map_iff in I as [[y r] [E I]]. cbn in E. subst y.
      rewrite (coeff_in _ _ _ Hd I). rewrite Forall_forall in Hz. apply (Hz _ I).
    - intros Hc. destruct (key_in_dec x (keys l)) as [I|N]; [assumption|].
      exfalso. apply Hc. now apply coeff_notin.
  Qed.

  Theorem is_zero_iff l : NoZero l -> (is_zero l = true <-> forall x, coeff l x = 0).
  Proof.
    intros H. split.
    - destruct l; [|discriminate]. intros _ x. reflexivity.
    - intros Hc. destruct l as [|[x r] l]; [reflexivity|]. exfalso.
      apply (proj1 (support_keys _ H x)); [now left|apply Hc].
  Qed.

  (* the stored terms are exactly the pairs (x, coeff x) with a non-zero coefficient *)
  Lemma in_terms_iff l x r : NoZero l -> (In (x, r) l <-> coeff l x = r /\ r <> 0).
  Proof.
    intros [Hd Hz]. split.
    - intros I. split; [now apply coeff_in|]. rewrite Forall_forall in Hz. apply (Hz _ I).
    - intros [E N]. unfold Lc.coeff in E. destruct (get l x) as [s|] eqn:G; [|congruence].
      subst s. now apply get_in in G.
  Qed.

  Lemma NoDup_terms l : NoDup (keys l) -> NoDup l.
  Proof. unfold Lc.keys. apply NoDup_map_inv. Qed.

  (* canonical up to the iteration order *)
  Theorem NoZero_perm a b : NoZero a -> NoZero b -> (forall x, coeff a x = coeff b x) -> Permutation a b.
  Proof.
    intros Ha Hb E. apply NoDup_Permutation; [apply NoDup_terms, Ha|apply NoDup_terms, Hb|].
    intros [x r]. rewrite !in_terms_iff by assumption. now rewrite E.
  Qed.

  Theorem lsum_coeff_ext h a b : NoZero a -> NoZero b -> (forall x, coeff a x = coeff b x) -> lsum h a = lsum h b.
  Proof. intros Ha Hb E. apply lsum_perm. now apply NoZero_perm. Qed.

  Theorem nterms_support a s : NoZero a -> NoDup s -> (forall x, In x s <-> coeff a x <> 0) -> nterms a = length s.
  Proof.
    intros Ha Hs E. unfold nterms. rewrite <- (map_length fst a). apply Permutation_length.
    apply NoDup_Permutation; [apply Ha|assumption|]. intros x. fold (keys a). rewrite (support_keys a Ha x). symmetry. apply E.
  Qed.

  (* equality of hash maps = equality of coefficient functions *)
  Theorem lc_eqb_iff a b : NoZero a -> NoZero b -> (lc_eqb xeqb o a b = true <-> forall x, coeff a x = coeff b x).
  Proof.
    intros Ha Hb. unfold lc_eqb. rewrite andb_true_iff, Nat.eqb_eq, forallb_forall. split.
    - intros [El Hall].
      assert (Hin : forall x r, In (x, r) a -> In (x, r) b).
      { intros x r I. specialize (Hall _ I). cbn [fst snd] in Hall. destruct (get b x) as [s|] eqn:G; [|discriminate].
        apply (reqb_eq o L) in Hall. subst s. apply get_in in G; [assumption|apply Hb]. }
      assert (Hk : incl (keys b) (keys a)).
      { apply NoDup_length_incl; [apply Ha|unfold Lc.keys; rewrite !map_length; lia|].
        intros x I. unfold Lc.keys in *. apply in_map_iff in I as [[y r] [E I]]. cbn in E. subst y.
        apply in_map_iff. exists (x, r). split; [reflexivity|now apply Hin]. }
      intros x. destruct (key_in_dec x (keys a)) as [I|N].
      + unfold Lc.keys in I. apply in_map_iff in I as [[y r] [E I]]. cbn in E. subst y.
        rewrite (coeff_in a x r) by (try apply Ha; assumption). symmetry. apply coeff_in; [apply Hb|now apply Hin].
      + rewrite coeff_notin by assumption. symmetry. apply coeff_notin. intros I. apply N. now apply Hk.
    - intros E. pose proof (NoZero_perm a b Ha Hb E) as P. split; [now apply Permutation_length|].
      intros [x r] I. cbn [fst snd]. apply (Permutation_in _ P) in I. apply get_in in I; [|apply Hb].
      rewrite I. apply reqb_refl, L.
  Qed.

  Theorem coeff_from_iter it z : coeff (from_iter it) z = rcoeff it z.
  Proof. rewrite coeff_rcoeff by apply NoZero_from_iter. apply lsum_from_iter, delta_additive. Qed.

  Theorem coeff_add a b z : NoZero a -> NoZero b -> coeff (add xeqb o a b) z = coeff a z + coeff b z.
  Proof.
    intros Ha Hb. rewrite !coeff_rcoeff by (try apply NoZero_add; try apply Ha; try apply Hb; assumption).
    apply lsum_add, delta_additive.
  Qed.

  Theorem coeff_sub a b z : NoZero a -> NoZero b -> coeff (sub xeqb o a b) z = coeff a z + - coeff b z.
  Proof.
    intros Ha Hb. rewrite !coeff_rcoeff by (try apply NoZero_sub; try apply Ha; try apply Hb; assumption).
    apply lsum_sub, delta_additive.
  Qed.

  Theorem coeff_neg a z : NoZero a -> coeff (neg xeqb o a) z = - coeff a z.
  Proof.
    intros Ha. rewrite !coeff_rcoeff by (try apply NoZero_neg; apply Ha). apply lsum_neg, delta_additive.
  Qed.

  Lemma delta_scal z x r c : delta z x (r * c) = delta z x r * c.
  Proof. unfold Lc.delta. destruct (xeqb x z); ring. Qed.

  Theorem coeff_smul a c z : NoZero a -> coeff (smul o a c) z = coeff a z * c.
  Proof.
    intros Ha. rewrite !coeff_rcoeff by (try apply NoZero_smul; try apply Ha; assumption).
    unfold Lc.rcoeff. rewrite lsum_smul by apply delta_additive. rewrite <- lsum_scal_r.
    apply lsum_ext. intros. apply delta_scal.
  Qed.

  (* the product: coefficient of z = sum over the stored terms x of a and y of b with f x y = z *)
  Theorem coeff_combine_terms f a b z :
    coeff (lc_combine xeqb o f a b) z = lsum (fun x r => lsum (fun y s => delta z (f x y) (r * s)) b) a.
  Proof. rewrite coeff_rcoeff by apply NoZero_combine. apply lsum_combine, delta_additive. Qed.

  Lemma lsum_keys (g : X -> R -> R) l : NoDup (keys l) ->
    lsum g l = rsum o (map (fun x => g x (coeff l x)) (keys l)).
  Proof.
    intros H. unfold Lc.lsum, Lc.keys. rewrite map_map. f_equal. apply map_ext_in. intros [x r] I. cbn [fst snd].
    now rewrite (coeff_in l x r H I).
  Qed.

  (* ... stated over the finite supports *)
  Theorem coeff_combine f a b z : NoZero a -> NoZero b ->
    coeff (lc_combine xeqb o f a b) z =
    rsum o (map (fun x => rsum o (map (fun y => if xeqb (f x y) z then coeff a x * coeff b y else 0) (keys b))) (keys a)).
  Proof.
    intros Ha Hb. rewrite coeff_combine_terms. rewrite lsum_keys by apply Ha. f_equal. apply map_ext. intros x.
    rewrite lsum_keys by apply Hb. reflexivity.
  Qed.

  Theorem coeff_filter_gens p a z : NoZero a -> coeff (filter_gens xeqb o p a) z = if p z then coeff a z else 0.
  Proof.
    intros Ha. rewrite !coeff_rcoeff by (try apply NoZero_filter_gens; apply Ha).
    unfold Lc.rcoeff. rewrite lsum_filter_gens by apply delta_additive.
    destruct (p z) eqn:Pz.
    - apply lsum_ext. intros x r. unfold Lc.delta. destruct (xeqb_spec x z) as [->|N]; [now rewrite Pz|now destruct (p x)].
    - transitivity (lsum (fun _ _ => 0) a); [|apply lsum_zero]. apply lsum_ext. intros x r. unfold Lc.delta.
      destruct (xeqb_spec x z) as [->|N]; [now rewrite Pz|now destruct (p x)].
  Qed.

  Theorem coeff_map_gens f a z : coeff (map_gens xeqb o f a) z = lsum (fun x r => delta z (f x) r) a.
  Proof. rewrite coeff_rcoeff by apply NoZero_map_gens. apply lsum_map_gens, delta_additive. Qed.

  Theorem coeff_apply f a z :
    coeff (apply xeqb o f a) z = lsum (fun x r => lsum (fun y s => delta z y (r * s)) (f x)) a.
  Proof. rewrite coeff_rcoeff by apply NoZero_apply. apply lsum_apply, delta_additive. Qed.

  (* a formal sum and its normal form have the same coefficients *)
  Theorem rcoeff_from_iter it z : rcoeff (from_iter it) z = rcoeff it z.
  Proof. apply lsum_from_iter, delta_additive. Qed.

  (* linear functionals only see the coefficient function (raw sums included) *)
  Theorem lsum_rcoeff_ext h a b : additive h -> (forall x, rcoeff a x = rcoeff b x) -> lsum h a = lsum h b.
  Proof.
    intros A E. rewrite <- (lsum_from_iter h a A), <- (lsum_from_iter h b A).
    apply lsum_coeff_ext; try apply NoZero_from_iter. intros x. now rewrite !coeff_from_iter.
  Qed.

  Lemma lsum_ext_in h h' l : (forall e, In e l -> h (fst e) (snd e) = h' (fst e) (snd e)) -> lsum h l = lsum h' l.
  Proof.
    intros E. induction l as [|e l IH]; [reflexivity|]. rewrite !lsum_cons, IH, E; [reflexivity|now left|].
    intros e' I. apply E. now right.
  Qed.

  Lemma lsum_ext_keys h h' l : (forall x r, In x (keys l) -> h x r = h' x r) -> lsum h l = lsum h' l.
  Proof.
    intros E. apply lsum_ext_in. intros e I. apply E. unfold Lc.keys. apply in_map_iff. now exists e.
  Qed.

  Lemma keys_add_pair_incl l e x : In x (keys (add_pair l e)) -> In x (keys l) \/ x = fst e.
  Proof.
    unfold Lc.add_pair. destruct (ris_zero o (snd e)); [now left|]. rewrite keys_upd_add.
    destruct (existsb (fun y => xeqb y (fst e)) (keys l)); [now left|]. intros I. apply in_app_or in I as [I|[<-|[]]]; auto.
  Qed.

  Lemma keys_fold_gen_incl {T} (F : T -> X * R) (it : list T) l x :
    In x (keys (fold_left (fun acc t => add_pair acc (F t)) it l)) -> In x (keys l) \/ In x (map (fun t => fst (F t)) it).
  Proof.
    revert l. induction it as [|t it IH]; intros l; cbn [fold_left map]; [now left|]. intros I.
    apply IH in I as [I|I]; [|right; now right]. apply keys_add_pair_incl in I as [I| ->]; [now left|right; now left].
  Qed.

  Definition KeysOk (P : X -> Prop) (l : lc) : Prop := Forall P (keys l).

  Lemma KeysOk_terms P l : KeysOk P l <-> Forall (fun e => P (fst e)) l.
  Proof. unfold KeysOk, Lc.keys. apply Forall_map. Qed.
  Lemma KeysOk_in P l x : KeysOk P l -> In x (keys l) -> P x.
  Proof. unfold KeysOk. rewrite Forall_forall. auto. Qed.

  Lemma KeysOk_clean P l : KeysOk P l -> KeysOk P (clean l).
  Proof. unfold KeysOk. rewrite !Forall_forall. intros H x I. apply H. now apply keys_clean_incl. Qed.

  Lemma KeysOk_fold_gen {T} P (F : T -> X * R) (it : list T) l :
    KeysOk P l -> Forall (fun t => P (fst (F t))) it -> KeysOk P (fold_left (fun acc t => add_pair acc (F t)) it l).
  Proof.
    unfold KeysOk. rewrite !Forall_forall. intros Hl Hit x I. apply keys_fold_gen_incl in I as [I|I]; [now apply Hl|].
    apply in_map_iff in I as [t [<- I]]. now apply Hit.
  Qed.

  Lemma KeysOk_nil P : KeysOk P [].
  Proof. constructor. Qed.

  Theorem KeysOk_from_iter P it : Forall P (map fst it) -> KeysOk P (from_iter it).
  Proof.
    intros H. apply KeysOk_clean. apply (KeysOk_fold_gen P (fun e => e)); [apply KeysOk_nil|].
    now rewrite Forall_map in H.
  Qed.
  Theorem KeysOk_add P a b : KeysOk P a -> KeysOk P b -> KeysOk P (add xeqb o a b).
  Proof.
    intros Ha Hb. apply KeysOk_clean. apply (KeysOk_fold_gen P (fun e => e)); [assumption|].
    now apply KeysOk_terms.
  Qed.
  Theorem KeysOk_sub P a b : KeysOk P a -> KeysOk P b -> KeysOk P (sub xeqb o a b).
  Proof.
    intros Ha Hb. apply KeysOk_clean. apply (KeysOk_fold_gen P (fun e => (fst e, - snd e))); [assumption|].
    now apply KeysOk_terms.
  Qed.
  Theorem KeysOk_neg P a : KeysOk P a -> KeysOk P (neg xeqb o a).
  Proof.
    intros Ha. apply KeysOk_from_iter. rewrite map_map. cbn [fst]. exact Ha.
  Qed.
  Theorem KeysOk_smul P a c : KeysOk P a -> KeysOk P (smul o a c).
  Proof.
    intros Ha. unfold smul. destruct (ris_one o c); [assumption|]. apply KeysOk_clean.
    unfold KeysOk. rewrite (keys_map_snd (fun _ r => r * c)). exact Ha.
  Qed.
  Theorem KeysOk_combine (P : X -> Prop) f a b : (forall x y, P x -> P y -> P (f x y)) -> KeysOk P a -> KeysOk P b ->
    KeysOk P (lc_combine xeqb o f a b).
  Proof.
    intros Hf Ha Hb. apply KeysOk_clean.
    assert (G : forall l, KeysOk P l -> KeysOk P (fold_left (fun acc e1 =>
                 fold_left (fun acc2 e2 => add_pair acc2 (f (fst e1) (fst e2), snd e1 * snd e2)) b acc) a l)).
    { apply KeysOk_terms in Ha.
      induction a as [|e1 a IH]; intros l Hl; cbn [fold_left]; [assumption|]. inversion Ha; subst. apply IH; [assumption|].
      apply (KeysOk_fold_gen P (fun e2 => (f (fst e1) (fst e2), snd e1 * snd e2))); [assumption|].
      apply KeysOk_terms in Hb. cbn [fst]. revert Hb. apply Forall_impl. intros e2. now apply Hf. }
    apply G, KeysOk_nil.
  Qed.
  Theorem KeysOk_filter_gens P p a : KeysOk P a -> KeysOk P (filter_gens xeqb o p a).
  Proof.
    intros Ha. apply KeysOk_from_iter. apply KeysOk_terms in Ha. rewrite Forall_map, Forall_forall in *. intros e I. apply filter_In in I as [I _]. now apply Ha.
  Qed.
  Theorem KeysOk_map_gens (P : X -> Prop) f a : (forall x, P x -> P (f x)) -> KeysOk P a -> KeysOk P (map_gens xeqb o f a).
  Proof.
    intros Hf Ha. apply KeysOk_from_iter. rewrite map_map. cbn [fst]. apply KeysOk_terms in Ha.
    rewrite Forall_map. revert Ha. apply Forall_impl. intros e. apply Hf.
  Qed.
  Theorem KeysOk_apply (P : X -> Prop) f a : (forall x, P x -> KeysOk P (f x)) -> KeysOk P a -> KeysOk P (apply xeqb o f a).
  Proof.
    intros Hf Ha. apply KeysOk_from_iter. rewrite Forall_forall. intros x I. apply in_map_iff in I as [e' [<- I]].
    apply in_flat_map in I as [e [Ie I]]. apply in_map_iff in I as [e2 [<- I2]]. cbn [fst].
    apply (KeysOk_in P (f (fst e))); [apply Hf, (KeysOk_in P a)|]; try assumption; now apply in_map.
  Qed.
End LcProofs.
