(* Soundness of the sparse Smith diagonalisation of Model/KhHomology.v: the loop.
   Invariant of [smith_loop] (working rows W, accumulator acc, ghost list pl of (pivot column, factor)):
     original  ~  [ W ; one row  d * e_c  per finished pivot (c, d) ]        ([equiv], KhSmithMat.v)
     every finished pivot column is zero in W, the pivot columns are pairwise different,
     every finished factor divides every entry of W, and each factor divides the later ones.
   Main theorem [smith_diag_sound]: whenever [smith_diag] answers [Some ds] on well-formed rows, ds is a
   Smith form of the dense matrix: positive entries, d_k | d_(k+1), and P A Q = diag(ds) with P, Q
   invertible over Z.  (Termination / sufficiency of the fuel is not claimed.) *)
From Coq Require Import List Arith Bool ZArith Lia.
Require Import Yui.Base.Ring Yui.Base.MatF Yui.Proofs.C07Algebra.
Require Import Yui.Model.KhCube Yui.Model.KhHomology.
Require Import Yui.Proofs.KhSmithRows Yui.Proofs.KhSmithMat Yui.Proofs.KhSmithSteps.
Import ListNotations.
Open Scope Z_scope.

Definition diagZ (ds : list Z) : zmat :=
  fun i j => if (i =? j)%nat && (i <? length ds)%nat then nth i ds 0 else 0.

Definition SmithOf (m n : nat) (A : zmat) (ds : list Z) : Prop :=
  (forall d, In d ds -> 0 < d) /\
  (forall t, (S t < length ds)%nat -> (nth t ds 0 | nth (S t) ds 0)) /\
  (length ds <= Nat.min m n)%nat /\
  equiv m n A (diagZ ds).

(* newest factor first: every older factor divides it *)
Fixpoint chain_rev (acc : list Z) : Prop :=
  match acc with
  | [] => True
  | d :: rest => (forall e, In e rest -> (e | d)) /\ chain_rev rest
  end.

Record Inv (m0 n : nat) (A : zmat) (W : list row) (acc : list Z) (pl : list (nat * Z)) : Prop := mk_Inv {
  inv_acc : map snd pl = acc;
  inv_len : (length W + length pl = m0)%nat;
  inv_wf : rows_wf n W;
  inv_eq : equiv m0 n A (full W pl);
  inv_piv : forall c d, In (c, d) pl -> (c < n)%nat /\ 0 < d;
  inv_zero : forall c d, In (c, d) pl -> forall x, dense W x c = 0;
  inv_nodup : NoDup (map fst pl);
  inv_div : forall d, In d acc -> forall x c, (d | dense W x c);
  inv_chain : chain_rev acc;
}.

Lemma Inv_init n rows : rows_wf n rows -> Inv (length rows) n (dense rows) rows [] [].
Proof.
  intros H. constructor.
  - reflexivity.
  - cbn [length]; lia.
  - exact H.
  - apply equiv_of_meq. intros x c Hx Hc. unfold full, fullD.
    destruct (Nat.ltb_spec x (length rows)); [reflexivity|lia].
  - intros c d [].
  - intros c d [].
  - constructor.
  - intros d [].
  - exact I.
Qed.

(* replacing the working rows, same finished pivots *)
Lemma Inv_step m0 n A W W' acc pl :
  Inv m0 n A W acc pl -> length W' = length W -> rows_wf n W' ->
  equiv m0 n (full W pl) (full W' pl) ->
  (forall c, (forall x, dense W x c = 0) -> forall x, dense W' x c = 0) ->
  (forall d, (forall x c, (d | dense W x c)) -> forall x c, (d | dense W' x c)) ->
  Inv m0 n A W' acc pl.
Proof.
  intros I Hlen Hwf Heq Hz Hd. destruct I as [I1 I2 I3 I4 I5 I6 I7 I8 I9].
  constructor; try assumption.
  - now rewrite Hlen.
  - eapply equiv_trans; eassumption.
  - intros c d Hin. apply Hz. exact (I6 c d Hin).
  - intros d Hin. apply Hd. exact (I8 d Hin).
Qed.

Lemma smith_loop_inv m0 n A fuel : forall W acc pl ds,
  Inv m0 n A W acc pl -> smith_loop fuel W acc = Some ds ->
  exists W' acc' pl', ds = rev acc' /\ Inv m0 n A W' acc' pl' /\ forall x c, dense W' x c = 0.
Proof.
  induction fuel as [|f IH]; intros W acc pl ds I H; [discriminate|].
  rewrite smith_loop_S in H.
  destruct (find_pivot W) as [[[i j] a]|] eqn:Ep.
  2:{ injection H as <-. exists W, acc, pl. split; [reflexivity|]. split; [exact I|].
      now apply find_pivot_none_dense. }
  destruct (find_pivot_some_wf n W i j a (inv_wf _ _ _ _ _ _ I) Ep) as [Hi [Hj [Ha Hija]]].
  cbv zeta in H.
  set (rows1 := row_phase i j a W) in *.
  assert (Hm : (length W <= m0)%nat) by (pose proof (inv_len _ _ _ _ _ _ I); lia).
  pose proof (row_phase_dense n i j a W (inv_wf _ _ _ _ _ _ I)) as HD1. fold rows1 in HD1.
  assert (Hlen1 : length rows1 = length W) by apply row_phase_length.
  assert (Hnp : forall d, ~ In (j, d) pl).
  { intros d Hin. apply Ha. rewrite <- Hija. exact (inv_zero _ _ _ _ _ _ I j d Hin i). }
  (* the row phase keeps the invariant *)
  assert (I1 : Inv m0 n A rows1 acc pl).
  { apply (Inv_step m0 n A W rows1 acc pl I Hlen1).
    - now apply row_phase_wf, (inv_wf _ _ _ _ _ _ I).
    - unfold full. rewrite Hlen1.
      apply (step_rowphase m0 n (length W) (dense W) (dense rows1) pl i j a Hi Hm);
        [intros x c Hx; now apply dense_overflow|exact HD1].
    - intros c Hz x. rewrite HD1, !Hz. destruct (x =? i)%nat; ring.
    - intros d Hd x c. rewrite HD1. apply Z.divide_sub_r; [apply Hd|].
      destruct (x =? i)%nat; [apply Z.divide_0_r|]. apply Z.divide_mul_r, Hd. }
  destruct (col_dirty i j rows1) eqn:Edirty.
  { exact (IH rows1 acc pl ds I1 H). }
  pose proof (col_dirty_false i j rows1 Edirty) as Hclear.
  assert (Hi1 : (i < length rows1)%nat) by lia.
  assert (Hrow_i : nth i rows1 [] = nth i W []) by (apply row_phase_pivot_row; exact Hi).
  assert (Hija1 : dense rows1 i j = a) by (unfold dense; rewrite Hrow_i; exact Hija).
  set (ri' := col_reduce j a (nth i W [])) in *.
  pose proof (rows_wf_nth n W i (inv_wf _ _ _ _ _ _ I)) as Wri.
  assert (Wri' : row_wf n ri') by (apply col_reduce_wf; exact Wri).
  assert (Hri' : forall c, row_get ri' c = if (c =? j)%nat then dense rows1 i c else dense rows1 i c mod a).
  { intros c. unfold ri', dense. rewrite Hrow_i. apply (col_reduce_get j a 0). apply Wri. }
  (* the column phase keeps the invariant *)
  set (W2 := replace_nth i ri' rows1).
  assert (HD2 : forall x c, dense W2 x c
                = if (x =? i)%nat && negb (c =? j)%nat then dense rows1 i c mod a else dense rows1 x c).
  { intros x c. unfold W2. rewrite dense_replace by exact Hi1. rewrite Hri'.
    destruct (Nat.eqb_spec x i) as [->|]; destruct (c =? j)%nat; reflexivity. }
  assert (Hlen2 : length W2 = length rows1) by apply replace_nth_length.
  assert (I2 : Inv m0 n A W2 acc pl).
  { apply (Inv_step m0 n A rows1 W2 acc pl I1 Hlen2).
    - apply replace_nth_Forall; [exact Wri'|exact (inv_wf _ _ _ _ _ _ I1)].
    - unfold full. rewrite Hlen2, Hlen1.
      apply (step_colphase m0 n (length W) (dense rows1) (dense W2) pl i j a Hj Ha Hija1 Hclear);
        [intros t; now apply pivrow_zero|exact HD2].
    - intros c Hz x. rewrite HD2, !Hz. rewrite Zmod_0_l. destruct (_ && _); reflexivity.
    - intros d Hd x c. rewrite HD2. destruct (_ && _); [|apply Hd].
      rewrite (Z.mod_eq _ _ Ha). apply Z.divide_sub_r; [apply Hd|].
      apply Z.divide_mul_l. rewrite <- Hija1. apply Hd. }
  destruct (1 <? length ri')%nat eqn:Elen.
  { exact (IH W2 acc pl ds I2 H). }
  apply Nat.ltb_ge in Elen.
  destruct (find_nondivisible a i rows1) as [r|] eqn:End.
  - (* a row with an entry that a does not divide is added to the pivot row *)
    destruct (find_nondiv_some a i rows1 r End) as [Hri Hr].
    set (W3 := replace_nth i (row_add (nth r rows1 []) ri') rows1) in *.
    assert (HD3 : forall x c, dense W3 x c = dense W2 x c + (if (x =? i)%nat then dense W2 r c else 0)).
    { intros x c. unfold W3, W2. rewrite !dense_replace by exact Hi1.
      destruct (Nat.eqb_spec r i); [contradiction|].
      destruct (x =? i)%nat; [|ring].
      rewrite (row_add_get 0) by (try apply Wri'; apply (rows_wf_nth n), (inv_wf _ _ _ _ _ _ I1)).
      unfold dense. ring. }
    assert (Hlen3 : length W3 = length W2) by (unfold W3, W2; now rewrite !replace_nth_length).
    assert (I3 : Inv m0 n A W3 acc pl).
    { apply (Inv_step m0 n A W2 W3 acc pl I2 Hlen3).
      - apply replace_nth_Forall; [|exact (inv_wf _ _ _ _ _ _ I1)].
        apply row_add_wf; [apply rows_wf_nth; exact (inv_wf _ _ _ _ _ _ I1)|exact Wri'].
      - unfold full. rewrite Hlen3, Hlen2, Hlen1.
        apply (step_rowadd m0 n (length W) (dense W2) (dense W3) pl i r Hi); [lia|exact Hm|exact Hri|exact HD3].
      - intros c Hz x. rewrite HD3, !Hz. destruct (x =? i)%nat; reflexivity.
      - intros d Hd x c. rewrite HD3. apply Z.divide_add_r; [apply Hd|].
        destruct (x =? i)%nat; [apply Hd|apply Z.divide_0_r]. }
    exact (IH W3 acc pl ds I3 H).
  - (* the pivot is finished *)
    pose proof (find_nondiv_none a i rows1 Ha End) as Hdiv.
    set (W4 := remove_nth i rows1) in *.
    assert (Hlen4 : length W4 = (length W - 1)%nat).
    { pose proof (remove_nth_length i rows1 Hi1) as Hr. fold W4 in Hr. lia. }
    assert (Hrow2 : forall c, dense W2 i c = if (c =? j)%nat then a else 0).
    { intros c. unfold W2. rewrite dense_replace by exact Hi1. rewrite Nat.eqb_refl.
      apply short_row; [exact Elen| |exact Ha]. rewrite Hri', Nat.eqb_refl. exact Hija1. }
    assert (Hidx : forall x, (if (x <? i)%nat then x else S x) <> i) by (intros x; dcase; lia).
    assert (HD4 : forall x c, dense W4 x c = dense W2 (if (x <? i)%nat then x else S x) c).
    { intros x c. unfold W4. rewrite dense_remove, HD2.
      destruct (Nat.eqb_spec (if (x <? i)%nat then x else S x) i) as [E|_]; [now apply Hidx in E|reflexivity]. }
    assert (HD41 : forall x c, dense W4 x c = dense rows1 (if (x <? i)%nat then x else S x) c).
    { intros x c. unfold W4. now rewrite dense_remove. }
    apply (IH W4 (Z.abs a :: acc) ((j, Z.abs a) :: pl) ds); [|exact H].
    destruct I1 as [J1 J2 J3 J4 J5 J6 J7 J8 J9].
    constructor.
    + cbn [map snd]. now rewrite J1.
    + cbn [length]. lia.
    + now apply remove_nth_Forall.
    + apply (equiv_trans m0 n A (full W2 pl)); [exact (inv_eq _ _ _ _ _ _ I2)|].
      unfold full. rewrite Hlen4, Hlen2, Hlen1.
      apply (step_final m0 n (length W) (dense W2) (dense W4) pl i j a Hi Hm Hrow2).
      intros x c _. apply HD4.
    + intros c d [E|Hin]; [|now apply J5]. injection E as <- <-. split; [exact Hj|lia].
    + intros c d [E|Hin] x.
      * injection E as <- <-. rewrite HD41. apply Hclear, Hidx.
      * rewrite HD41. exact (J6 c d Hin _).
    + cbn [map fst]. constructor; [|exact J7].
      intros Hin. apply in_map_iff in Hin. destruct Hin as [[c d] [E Hin]]. cbn [fst] in E. subst c.
      exact (Hnp d Hin).
    + intros d [<-|Hin] x c.
      * rewrite HD41. apply Z.divide_abs_l. apply Hdiv, Hidx.
      * rewrite HD41. exact (J8 d Hin _ _).
    + cbn [chain_rev]. split; [|exact J9].
      intros e He. apply Z.divide_abs_r. rewrite <- Hija. exact (inv_div _ _ _ _ _ _ I e He i j).
Qed.

(* reading off the diagonal form at the end *)
Lemma chain_rev_nth acc : chain_rev acc ->
  forall s t, (s < t)%nat -> (t < length acc)%nat -> (nth t acc 0 | nth s acc 0).
Proof.
  induction acc as [|d rest IH]; intros H s t Hst Ht; cbn [length] in Ht; [lia|].
  cbn [chain_rev] in H. destruct H as [H1 H2].
  destruct t as [|t]; [lia|]. destruct s as [|s]; cbn [nth].
  - apply H1. apply nth_In. lia.
  - apply IH; [exact H2|lia|lia].
Qed.

Lemma Inv_final m0 n A W acc pl :
  Inv m0 n A W acc pl -> (forall x c, dense W x c = 0) -> SmithOf m0 n A (rev acc).
Proof.
  intros [I1 I2 I3 I4 I5 I6 I7 I8 I9] Hzero.
  set (k := length pl).
  assert (Hk : length acc = k) by (rewrite <- I1; apply map_length).
  assert (Hkn : (k <= n)%nat).
  { unfold k. rewrite <- (map_length fst), <- (seq_length n 0).
    apply NoDup_incl_length; [exact I7|].
    intros c Hin. apply in_map_iff in Hin. destruct Hin as [[c' d] [E Hin]]. cbn [fst] in E. subst c'.
    apply in_seq. destruct (I5 c d Hin). lia. }
  split; [|split; [|split]].
  - intros d Hd. apply in_rev in Hd. rewrite <- I1 in Hd. apply in_map_iff in Hd.
    destruct Hd as [[c d'] [E Hin]]. cbn [snd] in E. subst d'. exact (proj2 (I5 c d Hin)).
  - intros t Ht. rewrite rev_length in Ht. rewrite !rev_nth by lia.
    apply (chain_rev_nth acc I9); lia.
  - rewrite rev_length, Hk. lia.
  - apply (equiv_trans m0 n A (full W pl) _ I4).
    (* reverse the rows: the finished pivots come first, in the order they were found *)
    apply (equiv_trans m0 n _ (fun x c => full W pl (m0 - 1 - x)%nat c)).
    { apply (equiv_row_perm m0 n _ _ (fun x => m0 - 1 - x)%nat (fun x => m0 - 1 - x)%nat); [|apply meq_refl].
      intros x Hx. lia. }
    (* a column permutation that sends the t-th pivot column to position t *)
    assert (Hnd : NoDup (map fst (rev pl))) by (rewrite map_rev; apply NoDup_rev; exact I7).
    destruct (perm_of_list n (map fst (rev pl)) Hnd) as [f [g [Hfg Hf]]].
    { intros c Hin. rewrite map_rev in Hin. apply in_rev in Hin. apply in_map_iff in Hin.
      destruct Hin as [[c' d] [E Hin]]. cbn [fst] in E. subst c'. exact (proj1 (I5 c d Hin)). }
    rewrite map_length, rev_length in Hf. fold k in Hf.
    apply (equiv_col_perm m0 n _ _ f g Hfg).
    intros x c Hx Hc. unfold diagZ, full, fullD. rewrite rev_length, Hk.
    destruct (Nat.ltb_spec x k) as [Hxk|Hxk].
    + destruct (Nat.ltb_spec (m0 - 1 - x) (length W)) as [|_]; [lia|].
      replace (m0 - 1 - x - length W)%nat with (k - S x)%nat by lia.
      unfold pivrow. cbv zeta. fold k in I2.
      assert (Ep : nth (k - S x) pl (O, 0) = nth x (rev pl) (O, 0)) by (rewrite rev_nth by exact Hxk; reflexivity).
      rewrite Ep.
      assert (Efx : f x = fst (nth x (rev pl) (O, 0))).
      { rewrite (Hf x Hxk). exact (map_nth fst (rev pl) (O, 0) x). }
      rewrite <- Efx.
      assert (Ed : nth x (rev acc) 0 = snd (nth x (rev pl) (O, 0))).
      { rewrite <- I1, <- map_rev. exact (map_nth snd (rev pl) (O, 0) x). }
      destruct (Nat.eqb_spec x c) as [<-|Hne]; cbn [andb].
      * now rewrite Nat.eqb_refl.
      * destruct (Nat.eqb_spec (f c) (f x)) as [E|_]; [|reflexivity].
        exfalso. apply Hne. destruct (Hfg c Hc) as [_ [_ [G1 _]]].
        destruct (Hfg x ltac:(lia)) as [_ [_ [G2 _]]]. congruence.
    + rewrite andb_false_r.
      destruct (Nat.ltb_spec (m0 - 1 - x) (length W)) as [_|]; [|lia]. now rewrite Hzero.
Qed.

Theorem smith_diag_sound n fuel rows ds :
  rows_wf n rows -> smith_diag fuel rows = Some ds -> SmithOf (length rows) n (dense rows) ds.
Proof.
  intros Hwf H. unfold smith_diag in H.
  destruct (smith_loop_inv (length rows) n (dense rows) fuel rows [] [] ds (Inv_init n rows Hwf) H)
    as [W' [acc' [pl' [-> [I Hz]]]]].
  exact (Inv_final _ _ _ _ _ _ I Hz).
Qed.

(* the explicit form: invertible P, Q with P A Q = diag(ds) on the m x n window *)
Corollary smith_diag_sound_PQ n fuel rows ds :
  rows_wf n rows -> smith_diag fuel rows = Some ds ->
  let m := length rows in
  (forall d, In d ds -> 0 < d) /\
  (forall t, (S t < length ds)%nat -> (nth t ds 0 | nth (S t) ds 0)) /\
  (length ds <= Nat.min m n)%nat /\
  exists P P' Q Q' : zmat,
    meq m m (zmul m P P') zid /\ meq m m (zmul m P' P) zid /\
    meq n n (zmul n Q Q') zid /\ meq n n (zmul n Q' Q) zid /\
    forall i j, (i < m)%nat -> (j < n)%nat ->
      zmul m P (zmul n (dense rows) Q) i j
      = if (i =? j)%nat && (i <? length ds)%nat then nth i ds 0 else 0.
Proof.
  intros Hwf H m. destruct (smith_diag_sound n fuel rows ds Hwf H) as [H1 [H2 [H3 [P [Pi [Q [Qi [[A1 A2] [[B1 B2] E]]]]]]]]].
  split; [exact H1|]. split; [exact H2|]. split; [exact H3|].
  exists P, Pi, Q, Qi. repeat (split; [assumption|]). exact E.
Qed.

(* the same in the vocabulary of C07 (Proofs/C07Algebra.v): a diagonal form with non-zero diagonal of size [length ds] *)
Corollary SmithOf_smith_form m n A ds :
  SmithOf m n A ds -> smith_form Z_ring m n A (length ds) (fun i => nth i ds 0).
Proof.
  intros [H1 [_ [H3 [P [Pi [Q [Qi [HP [HQ E]]]]]]]]]. exists P, Pi, Q, Qi.
  split; [exact HP|]. split; [exact HQ|]. split; [exact E|]. split; [|exact H3].
  intros i Hi. pose proof (H1 (nth i ds 0) (nth_In ds 0 Hi)). cbn. lia.
Qed.
