(* C18 - basic facts about the link model: half-edges, the two involutions (other end of an edge,
   passage through a crossing) and the successor map on half-edges of a valid code. *)
From Coq Require Import List Arith Bool Lia.
Require Import Yui.Model.Link.
Require Import Yui.Base.ListFacts.
Import ListNotations.

Lemma pos_eqb_spec : forall p q, pos_eqb p q = true <-> p = q.
Proof.
  intros [a b] [c d]. unfold pos_eqb. cbn. rewrite andb_true_iff, !Nat.eqb_eq.
  split; [intros [-> ->]; auto | intros E; inversion E; auto].
Qed.
Lemma pos_eqb_neq : forall p q, pos_eqb p q = false <-> p <> q.
Proof.
  intros. destruct (pos_eqb p q) eqn:E.
  - apply pos_eqb_spec in E. split; [discriminate | intros; contradiction].
  - split; auto. intros _ E'. apply pos_eqb_spec in E'. congruence.
Qed.
Lemma pos_eq_dec : forall p q : pos, {p = q} + {p <> q}.
Proof. decide equality; apply Nat.eq_dec. Qed.

Lemma mem_spec : forall e s, mem e s = true <-> In e s.
Proof. exact existsb_eqb_In. Qed.
Lemma mem_false : forall e s, mem e s = false <-> ~ In e s.
Proof. exact existsb_eqb_not_In. Qed.

(* pass is a fixed-point free involution of the four slots *)
Lemma lt_4_cases : forall j, j < 4 -> j = 0 \/ j = 1 \/ j = 2 \/ j = 3.
Proof. intros j H. do 4 (destruct j as [|j]; [auto|]). lia. Qed.

Lemma pass_props : forall t j, j < 4 -> pass t j < 4 /\ pass t (pass t j) = j /\ pass t j <> j.
Proof.
  intros t j Hj. destruct (lt_4_cases j Hj) as [->|[->|[->| ->]]]; destruct t; cbn; repeat split; auto with arith; discriminate.
Qed.
Lemma pass_lt : forall t j, j < 4 -> pass t j < 4.
Proof. apply pass_props. Qed.
Lemma pass_invol : forall t j, j < 4 -> pass t (pass t j) = j.
Proof. apply pass_props. Qed.
Lemma pass_neq : forall t j, j < 4 -> pass t j <> j.
Proof. apply pass_props. Qed.

Definition InR (l : link) (p : pos) : Prop := fst p < length l /\ snd p < 4.

Lemma in_range_spec : forall l p, in_range l p = true <-> InR l p.
Proof.
  intros. unfold in_range, InR. rewrite andb_true_iff, !Nat.ltb_lt. reflexivity.
Qed.

Lemma hedges_from_spec : forall l i0 i j e,
  In ((i, j), e) (hedges_from i0 l) <->
  exists k, i = i0 + k /\ k < length l /\ j < 4 /\ e = edge (nth k l dummy_c) j.
Proof.
  induction l as [|c l IH]; intros i0 i j e; cbn [hedges_from In length].
  - split; [intros [] | intros (k & _ & H & _); inversion H].
  - rewrite IH. split.
    + intros [E|[E|[E|[E|(k & -> & Hk & Hj & ->)]]]].
      1-4: injection E as <- <- <-; exists 0; rewrite Nat.add_0_r; cbn; auto 7 with arith.
      exists (S k). rewrite <- Nat.add_succ_comm. cbn [nth]. auto with arith.
    + intros ([|k] & -> & Hk & Hj & ->).
      * rewrite Nat.add_0_r. cbn [nth].
        destruct (lt_4_cases j Hj) as [->|[->|[->| ->]]]; cbn [edge]; auto 6.
      * do 4 right. exists k. rewrite Nat.add_succ_comm. cbn [nth]. auto with arith.
Qed.

Lemma hedges_spec : forall l p e, In (p, e) (hedges l) <-> (InR l p /\ e = edge_at l p).
Proof.
  intros l [i j] e. unfold hedges, InR, edge_at, cross_at. rewrite hedges_from_spec. cbn [fst snd].
  split; [intros (k & -> & A & B & C) | intros ((A & B) & C); exists i]; auto.
Qed.

Lemma hedges_from_NoDup : forall l i0, NoDup (map fst (hedges_from i0 l)).
Proof.
  induction l as [|c l IH]; intros i0; cbn [hedges_from map fst].
  - constructor.
  - assert (Hn : forall j, ~ In (i0, j) (map fst (hedges_from (S i0) l))).
    { intros j Hin. apply in_map_iff in Hin. destruct Hin as [[p e] [E Hin]]. cbn in E. subst p.
      apply hedges_from_spec in Hin. destruct Hin as (k & E & _). lia. }
    constructor; [|constructor; [|constructor; [|constructor; [|apply IH]]]]; cbn [In]; intros Hx;
      repeat (destruct Hx as [Hx|Hx]; [inversion Hx|]); eapply Hn; eauto.
Qed.
Lemma hedges_NoDup : forall l, NoDup (map fst (hedges l)).
Proof. intros. apply hedges_from_NoDup. Qed.

Lemma hedges_from_length : forall l i0, length (hedges_from i0 l) = 4 * length l.
Proof. induction l as [|c l IH]; intros; cbn [hedges_from length]; auto. rewrite IH. lia. Qed.

Lemma hedges_from_labels : forall l i0, map snd (hedges_from i0 l) = edge_labels l.
Proof.
  induction l as [|c l IH]; intros; cbn [hedges_from map snd]; auto.
  unfold edge_labels in *. cbn [flat_map cedges app]. rewrite IH. reflexivity.
Qed.
Lemma hedges_labels : forall l, map snd (hedges l) = edge_labels l.
Proof. intros. apply hedges_from_labels. Qed.

Lemma edge_at_in_labels : forall l p, InR l p -> In (edge_at l p) (edge_labels l).
Proof.
  intros l p Hp. rewrite <- hedges_labels. apply in_map_iff. exists (p, edge_at l p).
  split; auto. apply hedges_spec; auto.
Qed.
Lemma in_labels_edge_at : forall l e, In e (edge_labels l) -> exists p, InR l p /\ edge_at l p = e.
Proof.
  intros l e He. rewrite <- hedges_labels in He. apply in_map_iff in He.
  destruct He as [[p e'] [E Hin]]. cbn in E. subst e'. apply hedges_spec in Hin.
  exists p. destruct Hin; split; auto.
Qed.

(* a bound on duplicate-free lists of half-edges (pigeonhole) *)
Lemma InR_bound : forall l ps, NoDup ps -> (forall p, In p ps -> InR l p) -> length ps <= 4 * length l.
Proof.
  intros l ps Hnd Hin.
  rewrite <- (hedges_from_length l 0). rewrite <- (map_length fst).
  apply NoDup_incl_length; auto.
  intros p Hp. apply in_map_iff. exists (p, edge_at l p). split; auto.
  apply hedges_spec. split; auto.
Qed.

Definition Valid (l : link) : Prop :=
  forall e, In e (edge_labels l) -> count_label e (edge_labels l) = 2.

Lemma valid_spec : forall l, valid l = true <-> Valid l.
Proof.
  intros. unfold valid, Valid. rewrite forallb_forall.
  split; intros Hv e He; specialize (Hv e He); apply Nat.eqb_eq; auto.
Qed.

Lemma count_label_occ : forall e es, count_label e es = count_occ Nat.eq_dec es e.
Proof.
  intros e es. unfold count_label. induction es as [|x es IH]; [reflexivity|].
  cbn [filter count_occ]. destruct (Nat.eq_dec x e) as [->|Hne].
  - rewrite Nat.eqb_refl. cbn [length]. rewrite IH. reflexivity.
  - assert (e =? x = false) as -> by (apply Nat.eqb_neq; auto). exact IH.
Qed.

Definition same_label (l : link) (e : nat) (h : pos * nat) : bool := snd h =? e.

Lemma count_label_hedges : forall l e,
  count_label e (edge_labels l) = length (filter (same_label l e) (hedges l)).
Proof.
  intros. unfold count_label. rewrite <- hedges_labels. rewrite filter_map_comm, map_length.
  f_equal. apply filter_ext. intros h. unfold same_label. apply Nat.eqb_sym.
Qed.

Lemma pass_edge_some : forall l p q, pass_edge l p = Some q ->
  InR l q /\ edge_at l q = edge_at l p /\ q <> p.
Proof.
  intros l p q Hpe. unfold pass_edge in Hpe.
  destruct (find _ (hedges l)) as [[q' e]|] eqn:F; cbn in Hpe; [|discriminate].
  inversion Hpe; subst q'; clear Hpe.
  apply find_some in F. destruct F as [Hin Hb]. cbn [fst snd] in Hb.
  apply andb_true_iff in Hb. destruct Hb as [He Hn].
  apply Nat.eqb_eq in He. apply negb_true_iff, pos_eqb_neq in Hn.
  apply hedges_spec in Hin. destruct Hin as [Hr Hl]. split; [exact Hr|]. split; [congruence|exact Hn].
Qed.

Lemma pass_edge_none : forall l p q, pass_edge l p = None -> InR l q -> edge_at l q = edge_at l p -> q = p.
Proof.
  intros l p q Hpe Hq He. unfold pass_edge in Hpe.
  destruct (find _ (hedges l)) eqn:F; cbn in Hpe; [discriminate|].
  destruct (pos_eq_dec q p) as [|Hne]; auto. exfalso.
  eapply find_none in F. 2: { apply hedges_spec. split; [exact Hq|reflexivity]. }
  cbn [fst snd] in F. rewrite He, Nat.eqb_refl in F. cbn in F.
  apply negb_false_iff, pos_eqb_spec in F. contradiction.
Qed.

(* the half-edges that carry a given label, without repetition *)
Lemma label_positions : forall l e, exists ps, NoDup ps /\ length ps = count_label e (edge_labels l) /\
  forall r, In r ps <-> InR l r /\ edge_at l r = e.
Proof.
  intros l e. exists (map fst (filter (same_label l e) (hedges l))). split; [|split].
  - pose proof (hedges_NoDup l) as ND. induction (hedges l) as [|a x IH]; cbn; [constructor|].
    inversion ND; subst. destruct (same_label l e a); cbn; auto.
    constructor; auto. intros Hx. apply H1. apply in_map_iff in Hx. destruct Hx as [y [E Hy]].
    apply filter_In in Hy. apply in_map_iff. exists y. tauto.
  - rewrite map_length. symmetry. apply count_label_hedges.
  - intros r. rewrite in_map_iff. split.
    + intros [[r' e'] [<- H]]. apply filter_In in H. destruct H as [H E]. apply hedges_spec in H.
      apply Nat.eqb_eq in E. cbn [fst snd] in *. destruct H. split; congruence.
    + intros [Hr <-]. exists (r, edge_at l r). split; auto. apply filter_In.
      split; [apply hedges_spec; auto|apply Nat.eqb_refl].
Qed.

(* where a label has exactly the two ends a and b, pass_edge exchanges them *)
Lemma pass_edge_other : forall l a b, InR l b -> b <> a -> edge_at l b = edge_at l a ->
  (forall r, InR l r -> edge_at l r = edge_at l a -> r = a \/ r = b) -> pass_edge l a = Some b.
Proof.
  intros l a b Hb Hne He U. destruct (pass_edge l a) as [q|] eqn:E.
  - apply pass_edge_some in E. destruct E as (Hq & Eq & Nq).
    destruct (U q Hq Eq) as [->| ->]; [contradiction|reflexivity].
  - destruct Hne. apply (pass_edge_none l a b E Hb He).
Qed.

Lemma valid_two : forall l p, Valid l -> InR l p ->
  exists q, q <> p /\ InR l q /\ edge_at l q = edge_at l p /\
            pass_edge l p = Some q /\ pass_edge l q = Some p /\
            (forall r, InR l r -> edge_at l r = edge_at l p -> r = p \/ r = q).
Proof.
  intros l p Hv Hp. destruct (label_positions l (edge_at l p)) as (ps & ND & Len & Hin).
  rewrite (Hv _ (edge_at_in_labels l p Hp)) in Len.
  destruct ps as [|p1 [|p2 [|]]]; try discriminate Len.
  assert (N : p2 <> p1).
  { inversion ND as [|? ? N1 _]; subst. intros E. apply N1. left. exact E. }
  destruct (proj1 (Hin p1) (or_introl eq_refl)) as [R1 L1].
  destruct (proj1 (Hin p2) (or_intror (or_introl eq_refl))) as [R2 L2].
  assert (U : forall r, InR l r -> edge_at l r = edge_at l p -> r = p1 \/ r = p2).
  { intros r Hr Hre. destruct (proj2 (Hin r) (conj Hr Hre)) as [<-|[<-|[]]]; auto. }
  assert (PE1 : pass_edge l p1 = Some p2).
  { apply pass_edge_other; auto; [congruence|rewrite L1; exact U]. }
  assert (PE2 : pass_edge l p2 = Some p1).
  { apply pass_edge_other; auto; [congruence|].
    intros r Hr Hre. rewrite L2 in Hre. destruct (U r Hr Hre); auto. }
  destruct (U p Hp eq_refl) as [-> | ->]; [exists p2|exists p1];
    (split; [auto|]); (split; [assumption|]); (split; [assumption|]); (split; [assumption|]);
    (split; [assumption|]); intros r Hr Hre; destruct (U r Hr Hre); auto.
Qed.

Definition tau (l : link) (p : pos) : pos := match pass_edge l p with Some q => q | None => p end.
Definition sigma (l : link) (p : pos) : pos := tau l (exit_of l p).

Lemma exit_InR : forall l p, InR l p -> InR l (exit_of l p).
Proof. intros l [i j] [A B]. unfold exit_of, InR in *. cbn in *. split; auto. apply pass_lt; auto. Qed.
Lemma exit_invol : forall l p, InR l p -> exit_of l (exit_of l p) = p.
Proof. intros l [i j] [A B]. unfold exit_of. cbn in *. rewrite pass_invol; auto. Qed.
Lemma exit_neq : forall l p, InR l p -> exit_of l p <> p.
Proof.
  intros l [i j] [A B] E. unfold exit_of in E. cbn in *. inversion E. eapply pass_neq; eauto.
Qed.

Section ValidCode.
  Variable l : link.
  Hypothesis Hv : Valid l.

  Lemma tau_some : forall p, InR l p -> pass_edge l p = Some (tau l p).
  Proof.
    intros p Hp. destruct (valid_two l p Hv Hp) as (q & _ & _ & _ & E & _). unfold tau. rewrite E. auto.
  Qed.
  Lemma tau_InR : forall p, InR l p -> InR l (tau l p).
  Proof. intros p Hp. pose proof (tau_some p Hp) as E. apply pass_edge_some in E. tauto. Qed.
  Lemma tau_label : forall p, InR l p -> edge_at l (tau l p) = edge_at l p.
  Proof. intros p Hp. pose proof (tau_some p Hp) as E. apply pass_edge_some in E. tauto. Qed.
  Lemma tau_neq : forall p, InR l p -> tau l p <> p.
  Proof. intros p Hp. pose proof (tau_some p Hp) as E. apply pass_edge_some in E. tauto. Qed.
  Lemma tau_invol : forall p, InR l p -> tau l (tau l p) = p.
  Proof.
    intros p Hp. destruct (valid_two l p Hv Hp) as (q & _ & _ & _ & E1 & E2 & _).
    unfold tau. rewrite E1, E2. auto.
  Qed.
  Lemma same_label_cases : forall p r, InR l p -> InR l r -> edge_at l r = edge_at l p -> r = p \/ r = tau l p.
  Proof.
    intros p r Hp Hr He. destruct (valid_two l p Hv Hp) as (q & _ & _ & _ & E1 & _ & U).
    unfold tau. rewrite E1. auto.
  Qed.

  Lemma succ_sigma : forall p, InR l p -> succ l p = Some (sigma l p).
  Proof. intros p Hp. unfold succ, sigma. apply tau_some. apply exit_InR; auto. Qed.
  Lemma sigma_InR : forall p, InR l p -> InR l (sigma l p).
  Proof. intros p Hp. unfold sigma. apply tau_InR, exit_InR; auto. Qed.
  Lemma sigma_label : forall p, InR l p -> edge_at l (sigma l p) = edge_at l (exit_of l p).
  Proof. intros p Hp. unfold sigma. apply tau_label, exit_InR; auto. Qed.
  (* the inverse of sigma is exit o tau *)
  Lemma sigma_inv : forall p, InR l p -> exit_of l (tau l (sigma l p)) = p.
  Proof.
    intros p Hp. unfold sigma. rewrite tau_invol by (apply exit_InR; auto). apply exit_invol; auto.
  Qed.
  Lemma sigma_inv' : forall p, InR l p -> sigma l (exit_of l (tau l p)) = p.
  Proof.
    intros p Hp. unfold sigma. rewrite exit_invol by (apply tau_InR; auto). apply tau_invol; auto.
  Qed.
  Lemma sigma_inj : forall p q, InR l p -> InR l q -> sigma l p = sigma l q -> p = q.
  Proof. intros p q Hp Hq E. rewrite <- (sigma_inv p Hp), <- (sigma_inv q Hq), E. reflexivity. Qed.

  Fixpoint sig (k : nat) (p : pos) : pos := match k with 0 => p | S k' => sigma l (sig k' p) end.
  Lemma sig_InR : forall k p, InR l p -> InR l (sig k p).
  Proof. induction k; intros; cbn; auto. apply sigma_InR; auto. Qed.
  Lemma sig_add : forall a b p, sig (a + b) p = sig a (sig b p).
  Proof. induction a; intros; cbn; auto. rewrite IHa; auto. Qed.
  Lemma sig_S_r : forall k p, sig (S k) p = sig k (sigma l p).
  Proof. intros. replace (S k) with (k + 1) by lia. rewrite sig_add. reflexivity. Qed.
  Lemma sig_inj : forall k p q, InR l p -> InR l q -> sig k p = sig k q -> p = q.
  Proof.
    induction k; intros p q Hp Hq E; cbn in E; auto.
    apply IHk; auto. apply sigma_inj; auto; apply sig_InR; auto.
  Qed.

  (* an edge is never traversed in both directions by one orbit:
     the other end of p does not lie on the forward orbit of p *)
  Lemma tau_not_on_orbit : forall d,
    (forall q, InR l q -> tau l q <> sig d q) /\ (forall q, InR l q -> tau l q <> sig (S d) q).
  Proof.
    induction d as [|d [IH0 IH1]].
    - split; intros q Hq; cbn.
      + apply tau_neq; auto.
      + unfold sigma. intros E.
        assert (q = exit_of l q) as E2.
        { assert (E3 : tau l (tau l q) = tau l (tau l (exit_of l q))) by congruence.
          rewrite tau_invol in E3 by auto. rewrite tau_invol in E3 by (apply exit_InR; auto). exact E3. }
        symmetry in E2. eapply exit_neq; eauto.
    - split; auto. intros q Hq E.
      apply (IH0 (sigma l q) (sigma_InR q Hq)).
      (* tau (sigma q) = exit q ; sig d (sigma q) = sig (S d) q = sigma^-1 (tau q) = exit q *)
      assert (T1 : tau l (sigma l q) = exit_of l q).
      { unfold sigma. apply tau_invol, exit_InR; auto. }
      assert (T2 : sig d (sigma l q) = exit_of l q).
      { rewrite <- sig_S_r.
        assert (InR l (sig (S d) q)) as HR by (apply sig_InR; auto).
        rewrite <- (sigma_inv (sig (S d) q) HR).
        change (sigma l (sig (S d) q)) with (sig (S (S d)) q). rewrite <- E.
        rewrite tau_invol; auto. }
      congruence.
  Qed.
End ValidCode.
