(* C09 - the hypotheses [snf_laws] hold for the ring dictionaries of Model/Snf.v:
   Z (i64 / i128 / BigInt), and - through a generic proof about EucRing::gcdx (generic_gcdx) -
   every field dictionary (Q, F_2) and the quadratic integers Z[i], Z[omega].
   Also: the fuel of the integer extended gcd is sufficient (Z_gcdx never returns None). *)
From Coq Require Import ZArith List Bool Arith Lia Ring QArith Qcanon.
Require Import Yui.Base.Ring Yui.Base.MatF Yui.Base.MatL Yui.Model.Snf Yui.Proofs.C09Inv.
Import ListNotations.
Close Scope Qc_scope.
Close Scope Q_scope.

Section ZLaws.
  Open Scope Z_scope.

  (* Bezout coefficients and "every common divisor of the state divides x and y" *)
  Lemma Z_egcd_loop_spec x y fuel : forall r0 r1 s0 s1 t0 t1 g s t,
    r0 = s0 * x + t0 * y -> r1 = s1 * x + t1 * y ->
    (forall c, (c | r0) -> (c | r1) -> (c | x) /\ (c | y)) ->
    Z_egcd_loop fuel r0 r1 s0 s1 t0 t1 = Some (g, s, t) ->
    g = s * x + t * y /\ (g | x) /\ (g | y).
  Proof.
    induction fuel as [|f IH]; intros r0 r1 s0 s1 t0 t1 g s t H0 H1 HD H; cbn [Z_egcd_loop] in H; [discriminate|].
    destruct (Z.eqb_spec r0 0) as [E|E].
    - injection H as <- <- <-. split; [exact H1|]. apply HD; [rewrite E; apply Z.divide_0_r|apply Z.divide_refl].
    - apply IH in H; [exact H| | |].
      + rewrite H0, H1. ring.
      + exact H0.
      + intros c C1 C2. apply HD; [exact C2|].
        replace r1 with ((r1 - Z.quot r1 r0 * r0) + Z.quot r1 r0 * r0) by ring.
        apply Z.divide_add_r; [exact C1|]. now apply Z.divide_mul_r.
  Qed.

  Lemma Z_gcdx_spec x y d s t :
    Z_gcdx x y = Some (d, s, t) -> d = s * x + t * y /\ (d | x) /\ (d | y) /\ 0 <= d.
  Proof.
    unfold Z_gcdx. destruct (Z_egcd_loop _ y x 0 1 1 0) as [[[g s'] t']|] eqn:E; [|discriminate].
    apply (Z_egcd_loop_spec x y) in E; [|ring|ring|tauto]. destruct E as (E1 & E2 & E3).
    destruct (Z.leb_spec 0 g) as [Hg|Hg]; intros H; injection H as <- <- <-.
    - repeat split; assumption.
    - repeat split; [rewrite E1; ring|now apply Z.divide_opp_l|now apply Z.divide_opp_l|lia].
  Qed.

  Lemma log2_half a b : 0 < a -> 2 * a <= b -> Z.log2 a + 1 <= Z.log2 b.
  Proof.
    intros Ha H. pose proof (Z.log2_double a Ha) as E.
    assert (Z.log2 (2 * a) <= Z.log2 b) by (apply Z.log2_le_mono; lia). lia.
  Qed.

  (* |a| = |b| * |q| + |rem| with |q| >= 1 and |rem| < |b| *)
  Lemma rem_half a b : b <> 0 -> Z.abs b <= Z.abs a -> 2 * Z.abs (Z.rem a b) <= Z.abs a.
  Proof.
    intros Hb H. rewrite <- Z.rem_abs by exact Hb.
    assert (HB : 0 < Z.abs b) by lia. set (A := Z.abs a) in *. set (B := Z.abs b) in *. clearbody A B.
    pose proof (Z.rem_bound_pos A B ltac:(lia) HB). pose proof (Z.quot_rem' A B).
    assert (1 <= Z.quot A B) by (apply Z.quot_le_lower_bound; lia). nia.
  Qed.

  (* the fuel of the integer extended gcd suffices *)
  Lemma Z_egcd_loop_total fuel : forall r0 r1 s0 s1 t0 t1,
    Z.abs r0 <= Z.abs r1 ->
    (Z.to_nat (Z.log2 (Z.abs r0) + Z.log2 (Z.abs r1)) + 2 <= fuel)%nat ->
    exists res, Z_egcd_loop fuel r0 r1 s0 s1 t0 t1 = Some res.
  Proof.
    induction fuel as [|f IH]; intros r0 r1 s0 s1 t0 t1 Hle Hf; [lia|].
    cbn [Z_egcd_loop]. destruct (Z.eqb_spec r0 0) as [E|E]; [eexists; reflexivity|].
    replace (r1 - Z.quot r1 r0 * r0) with (Z.rem r1 r0) by (rewrite (Z.quot_rem' r1 r0) at 2; ring).
    pose proof (Z.rem_bound_abs r1 r0 E) as Hb.
    pose proof (Z.log2_nonneg (Z.abs r0)) as L0. pose proof (Z.log2_nonneg (Z.abs r1)) as L1.
    destruct (Z.eq_dec (Z.rem r1 r0) 0) as [Er|Er].
    - rewrite Er. destruct f as [|f]; [lia|]. cbn [Z_egcd_loop Z.eqb]. eexists; reflexivity.
    - apply IH; [lia|].
      pose proof (rem_half r1 r0 E Hle) as H2.
      pose proof (log2_half (Z.abs (Z.rem r1 r0)) (Z.abs r1) ltac:(lia) H2) as H3.
      pose proof (Z.log2_nonneg (Z.abs (Z.rem r1 r0))) as L2.
      lia.
  Qed.

  Lemma Z_gcdx_total x y : exists res, Z_gcdx x y = Some res.
  Proof.
    unfold Z_gcdx, Z_egcd_fuel.
    set (fuel := (Z.to_nat (2 * Z.log2 (Z.abs x) + 2 * Z.log2 (Z.abs y)) + 5)%nat).
    pose proof (Z.log2_nonneg (Z.abs x)) as Lx. pose proof (Z.log2_nonneg (Z.abs y)) as Ly.
    assert (Hex : exists res, Z_egcd_loop fuel y x 0 1 1 0 = Some res).
    { destruct fuel as [|f] eqn:Ef; [unfold fuel in Ef; lia|]. cbn [Z_egcd_loop].
      destruct (Z.eqb_spec y 0) as [E|E]; [eexists; reflexivity|].
      replace (x - Z.quot x y * y) with (Z.rem x y) by (rewrite (Z.quot_rem' x y) at 2; ring).
      pose proof (Z.rem_bound_abs x y E) as Hb.
      apply Z_egcd_loop_total; [lia|].
      assert (Z.log2 (Z.abs (Z.rem x y)) <= Z.log2 (Z.abs y)) by (apply Z.log2_le_mono; lia).
      unfold fuel in Ef. lia. }
    destruct Hex as [[[g s] t] ->]. destruct (0 <=? g); eexists; reflexivity.
  Qed.

  Lemma Z_is_unit_iff a : Z_is_unit a = true <-> a = 1 \/ a = -1.
  Proof. unfold Z_is_unit. rewrite orb_true_iff, !Z.eqb_eq. lia. Qed.

  Theorem Zpre_snf_laws pre : snf_laws (Zpre_dict pre).
  Proof.
    constructor; cbn [Zpre_dict ed_ring ed_unit ed_euc ed_gcdx Z_ring Z_units Z_euc rinv rnunit rdiv rrem rmul radd rzero rone].
    - exact Z_ring_laws.
    - exact Z_integral.
    - exact (rinv_some _ _ (Z_unit_laws_of _ Z_is_unit_iff)).
    - intros a. destruct (Z.ltb_spec a 0); eexists; reflexivity.
    - exact (rnunit_idem _ _ (Z_unit_laws_of _ Z_is_unit_iff)).
    - intros a d Hd. now apply Z.quot_mul.
    - intros a b Hb H. exists (Z.quot a b). rewrite (Z.quot_rem' a b) at 1. rewrite H. ring.
    - intros x y d s t H. apply Z_gcdx_spec in H. destruct H as (H1 & [a Ha] & [b Hb] & _).
      split; [exact H1|]. split; [now exists a|now exists b].
  Qed.

  Corollary Z_snf_laws : snf_laws Z_dict.
  Proof. apply Zpre_snf_laws. Qed.
End ZLaws.

(* the generic EucRing::gcdx (yui/src/abst/euc_ring.rs), for every fuel *)
Section GenericGcdx.
  Context {R : Type} (o : ring_ops R) (L : ring_laws o) (u : unit_ops R) (e : euc_ops R).
  Add Ring RringG : (ring_theory_of_laws o L).
  Local Notation "0" := (rzero o).
  Local Notation "1" := (rone o).
  Local Infix "+" := (radd o).
  Local Infix "*" := (rmul o).
  Local Notation "- x" := (rneg o x).

  Hypothesis Hdivrem : forall a b, b <> 0 -> a = rdiv e a b * b + rrem e a b.
  Hypothesis Hnu : forall a, exists vi, rnunit u a * vi = 1.

  Definition dvd (d x : R) : Prop := exists a, x = a * d.

  Lemma gcdx_loop_spec X Y fuel : forall x y s0 s1 t0 t1 d s t,
    x = s0 * X + t0 * Y -> y = s1 * X + t1 * Y ->
    (forall c, dvd c x -> dvd c y -> dvd c X /\ dvd c Y) ->
    gcdx_loop o e fuel x y s0 s1 t0 t1 = Some (d, s, t) ->
    d = s * X + t * Y /\ dvd d X /\ dvd d Y.
  Proof.
    induction fuel as [|f IH]; intros x y s0 s1 t0 t1 d s t Hx Hy HD H; cbn [gcdx_loop] in H; [discriminate|].
    destruct (ris_zero o y) eqn:Z.
    - apply (reqb_eq o L) in Z. injection H as <- <- <-. split; [exact Hx|].
      apply HD; [exists 1; ring|exists 0; rewrite Z; ring].
    - apply (reqb_false o L) in Z. cbv zeta in H.
      pose proof (Hdivrem x y Z) as E.
      set (q := rdiv e x y) in *. set (r := rrem e x y) in *. clearbody q r.
      assert (Hr : r = x + - (q * y)) by (rewrite E; ring).
      apply IH in H; [exact H|exact Hy| |].
      + unfold rsub. rewrite Hr, Hx, Hy. ring.
      + intros c [a Ha] [b Hb]. apply HD; [|now exists a].
        exists (q * a + b). rewrite E, Ha, Hb. ring.
  Qed.

  (* x | y: x times its normalizing unit divides both *)
  Lemma divides_nunit x y : divides o e x y = true -> dvd (x * rnunit u x) x /\ dvd (x * rnunit u x) y.
  Proof.
    unfold divides. intros D1. apply andb_true_iff in D1. destruct D1 as [Nx Ry].
    apply negb_true_iff, (reqb_false o L) in Nx. apply (reqb_eq o L) in Ry.
    destruct (Hnu x) as [vi Hvi]. pose proof (Hdivrem y x Nx) as E. rewrite Ry in E. split.
    - exists vi. transitivity (x * (rnunit u x * vi)); [rewrite Hvi|]; ring.
    - exists (rdiv e y x * vi). rewrite E at 1.
      transitivity (rdiv e y x * x * (rnunit u x * vi)); [rewrite Hvi|]; ring.
  Qed.

  Theorem generic_gcdx_spec fuel x y d s t :
    generic_gcdx o u e fuel x y = Some (d, s, t) ->
    d = s * x + t * y /\ (exists a, x = a * d) /\ (exists b, y = b * d).
  Proof.
    unfold generic_gcdx.
    destruct (ris_zero o x && ris_zero o y) eqn:Z0.
    { apply andb_true_iff in Z0. destruct Z0 as [Zx Zy]. apply (reqb_eq o L) in Zx, Zy.
      intros H. injection H as <- <- <-. split; [ring|]. split; exists 0; [rewrite Zx|rewrite Zy]; ring. }
    destruct (divides o e x y) eqn:D1.
    { cbv zeta. intros H. injection H as <- <- <-. destruct (divides_nunit x y D1) as [Hx Hy].
      split; [ring|]. split; assumption. }
    destruct (divides o e y x) eqn:D2.
    { cbv zeta. intros H. injection H as <- <- <-. destruct (divides_nunit y x D2) as [Hy Hx].
      split; [ring|]. split; assumption. }
    destruct (gcdx_loop o e (fuel x y) x y 1 0 0 1) as [[[d0 s0] t0]|] eqn:G; [|discriminate].
    apply (gcdx_loop_spec x y) in G; [|ring|ring|tauto].
    destruct G as (G1 & [a Ha] & [b Hb]). cbv zeta.
    destruct (ris_one o (rnunit u d0)); intros H; injection H as <- <- <-.
    - split; [exact G1|]. split; [now exists a|now exists b].
    - destruct (Hnu d0) as [vi Hvi]. split; [rewrite G1; ring|]. split.
      + exists (a * vi). rewrite Ha at 1.
        transitivity (a * d0 * (rnunit u d0 * vi)); [rewrite Hvi|]; ring.
      + exists (b * vi). rewrite Hb at 1.
        transitivity (b * d0 * (rnunit u d0 * vi)); [rewrite Hvi|]; ring.
  Qed.
End GenericGcdx.

Section FieldLaws.
  Context {F : Type} (o : ring_ops F) (finv : F -> F) (L : ring_laws o).
  Add Ring RringF : (ring_theory_of_laws o L).
  Local Notation "0" := (rzero o).
  Local Notation "1" := (rone o).
  Local Infix "+" := (radd o).
  Local Infix "*" := (rmul o).
  Hypothesis one_neq_zero : 1 <> 0.
  Hypothesis finv_r : forall a, a <> 0 -> a * finv a = 1.

  Lemma field_integral : integral o.
  Proof.
    split; [exact one_neq_zero|]. intros a b H.
    destruct (reqb_spec o L a 0) as [E|E]; [now left|right].
    transitivity (finv a * a * b); [rewrite (rmul_comm o L (finv a) a), (finv_r a E); ring|].
    transitivity (finv a * (a * b)); [ring|]. rewrite H. ring.
  Qed.

  Lemma finv_neq_0 a : a <> 0 -> finv a <> 0.
  Proof. intros Ha E. apply one_neq_zero. rewrite <- (finv_r a Ha), E. ring. Qed.

  Lemma finv_one : finv 1 = 1.
  Proof. transitivity (1 * finv 1); [ring|]. now apply finv_r. Qed.

  Theorem field_snf_laws : snf_laws (field_dict o finv).
  Proof.
    constructor; cbn [field_dict ed_ring ed_unit ed_euc ed_gcdx field_units field_euc rinv rnunit rdiv rrem].
    - exact L.
    - exact field_integral.
    - intros a b. destruct (ris_zero o a) eqn:Z; [discriminate|]. apply (reqb_false o L) in Z.
      intros H. injection H as <-. now apply finv_r.
    - intros a. destruct (ris_zero o a) eqn:Z.
      + destruct (ris_zero o 1) eqn:Z1; [apply (reqb_eq o L) in Z1; contradiction|]. eexists; reflexivity.
      + apply (reqb_false o L) in Z. destruct (ris_zero o (finv a)) eqn:Z1; [|eexists; reflexivity].
        apply (reqb_eq o L) in Z1. exfalso. now apply (finv_neq_0 a).
    - intros a. destruct (ris_zero o a) eqn:Z.
      + apply (reqb_eq o L) in Z. subst a. replace (0 * 1) with 0 by ring.
        destruct (ris_zero o 0) eqn:Z1; [reflexivity|]. apply (reqb_false o L) in Z1. contradiction.
      + apply (reqb_false o L) in Z. rewrite (finv_r a Z).
        destruct (ris_zero o 1) eqn:Z1; [reflexivity|]. apply finv_one.
    - intros a d Hd. transitivity (a * (d * finv d)); [ring|]. rewrite (finv_r d Hd). ring.
    - intros a b Hb _. exists (a * finv b). transitivity (a * (b * finv b)); [rewrite (finv_r b Hb)|]; ring.
    - intros x y d s t H. apply (generic_gcdx_spec o L) in H; [exact H| |].
      + intros a b Hb. cbn [field_euc rdiv rrem].
        transitivity (a * (b * finv b)); [rewrite (finv_r b Hb)|]; ring.
      + intros a. cbn [field_units rnunit]. destruct (ris_zero o a) eqn:Z.
        * exists 1. ring.
        * apply (reqb_false o L) in Z. exists a. rewrite (rmul_comm o L). now apply finv_r.
  Qed.
End FieldLaws.

Lemma Q_ring_laws : ring_laws Q_ring.
Proof.
  constructor; cbn [Q_ring radd rneg rmul rzero rone reqb]; intros.
  - apply Qcplus_comm.
  - apply Qcplus_assoc.
  - apply Qcplus_0_l.
  - apply Qcplus_opp_r.
  - apply Qcmult_comm.
  - apply Qcmult_assoc.
  - apply Qcmult_1_l.
  - apply Qcmult_plus_distr_l.
  - split; [apply Qc_eq_bool_correct|]. intros ->. unfold Qc_eq_bool. now destruct (Qc_eq_dec b b).
Qed.

Lemma Q_one_neq_zero : rone Q_ring <> rzero Q_ring.
Proof. cbn. intros H. apply (f_equal this) in H. discriminate H. Qed.

Lemma Q_inv_r a : a <> rzero Q_ring -> rmul Q_ring a (Qcinv a) = rone Q_ring.
Proof. intros Ha. cbn. now apply Qcmult_inv_r. Qed.

Theorem Q_snf_laws : snf_laws Q_dict.
Proof. exact (field_snf_laws Q_ring Qcinv Q_ring_laws Q_one_neq_zero Q_inv_r). Qed.

Lemma F2_ring_laws : ring_laws F2_ring.
Proof. exact bool_ring_laws. Qed.

Lemma F2_inv_r (a : bool) : a <> rzero F2_ring -> rmul F2_ring a a = rone F2_ring.
Proof. intros Ha. destruct a; [reflexivity|]. exfalso. now apply Ha. Qed.

Theorem F2_snf_laws : snf_laws F2_dict.
Proof. exact (field_snf_laws F2_ring (fun a => a) F2_ring_laws Bool.diff_true_false F2_inv_r). Qed.

(* quadratic integers Z[omega], omega^2 = t*omega + e :  Z[i] (0, -1) and Z[omega] (1, -1) *)
Section QuadLaws.
  Open Scope Z_scope.
  Variables t e : Z.
  Variable eisen : bool.
  Local Notation qmul := (q_mul t e).
  Local Notation qring := (q_ring t e).

  Lemma quad_eq (x y : quad) : fst x = fst y -> snd x = snd y -> x = y.
  Proof. destruct x, y; cbn; intros -> ->; reflexivity. Qed.

  Lemma q_ring_laws : ring_laws qring.
  Proof.
    constructor; cbn [q_ring radd rneg rmul rzero rone reqb];
      try (intros; apply quad_eq; unfold q_add, q_neg, q_mul; cbn [fst snd]; ring).
    intros a b. unfold q_eqb. rewrite andb_true_iff, !Z.eqb_eq. split.
    - intros [H1 H2]. now apply quad_eq.
    - intros ->. split; reflexivity.
  Qed.

  Lemma q_norm_mul x y : q_norm t e (qmul x y) = q_norm t e x * q_norm t e y.
  Proof. unfold q_norm, q_mul. cbn [fst snd]. ring. Qed.

  Lemma q_mul_conj x : qmul x (q_conj t x) = (q_norm t e x, 0).
  Proof. apply quad_eq; unfold q_mul, q_conj, q_norm; cbn [fst snd]; ring. Qed.

  Lemma q_norm_conj x : q_norm t e (q_conj t x) = q_norm t e x.
  Proof. unfold q_norm, q_conj. cbn [fst snd]. ring. Qed.

  (* N(x - y q) N(y) = N(x conj(y) - N(y) q): the remainder of a division, seen in the coordinates in which
     the quotient was rounded *)
  Lemma q_rem_norm x y q :
    q_norm t e (q_add x (q_neg (qmul y q))) * q_norm t e y
    = q_norm t e (q_add (qmul x (q_conj t y)) (q_neg (qmul (q_norm t e y, 0) q))).
  Proof.
    rewrite <- (q_norm_conj y) at 1. rewrite <- q_norm_mul, <- q_mul_conj. f_equal.
    apply quad_eq; unfold q_add, q_neg, q_mul, q_conj; cbn [fst snd]; ring.
  Qed.

  Hypothesis norm_zero : forall x, q_norm t e x = 0 -> x = (0, 0).

  Lemma q_integral : integral qring.
  Proof.
    split; [cbn; discriminate|]. cbn [q_ring rmul rzero]. intros a b H.
    assert (N : q_norm t e a * q_norm t e b = 0).
    { rewrite <- q_norm_mul, H. unfold q_norm. cbn. ring. }
    apply Z.mul_eq_0 in N. destruct N as [N|N]; [left|right]; now apply norm_zero.
  Qed.

  Lemma q_inv_spec a b : q_inv t e a = Some b -> qmul a b = (1, 0).
  Proof.
    unfold q_inv. destruct (Z_is_unit (q_norm t e a)) eqn:U; [|discriminate].
    intros H. injection H as <-. apply Z_is_unit_iff in U.
    transitivity (qmul (q_norm t e a, 0) (qmul a (q_conj t a))).
    { apply quad_eq; unfold q_mul; cbn [fst snd]; ring. }
    rewrite q_mul_conj. apply quad_eq; unfold q_mul; cbn [fst snd]; destruct U as [-> | ->]; ring.
  Qed.

  Lemma Z_div_round_mul k nm : nm <> 0 -> Z_div_round (k * nm) nm = k.
  Proof.
    intros H. unfold Z_div_round. rewrite Z.rem_mul by exact H. cbn [Z.eqb]. now apply Z.quot_mul.
  Qed.

  Lemma q_div_exact a d : d <> (0, 0) -> q_div t e eisen (qmul a d) d = a.
  Proof.
    intros Hd. unfold q_div.
    assert (Hn : q_norm t e d <> 0) by (intros E; now apply Hd, norm_zero).
    assert (W : qmul (qmul a d) (q_conj t d) = (fst a * q_norm t e d, snd a * q_norm t e d)).
    { transitivity (qmul a (qmul d (q_conj t d))).
      - apply quad_eq; unfold q_mul; cbn [fst snd]; ring.
      - rewrite q_mul_conj. apply quad_eq; unfold q_mul; cbn [fst snd]; ring. }
    rewrite W. cbn [fst snd]. destruct eisen.
    - replace (fst a * q_norm t e d + snd a * q_norm t e d) with ((fst a + snd a) * q_norm t e d) by ring.
      rewrite !Z_div_round_mul by exact Hn. apply quad_eq; cbn [fst snd]; ring.
    - rewrite !Z_div_round_mul by exact Hn. now destruct a.
  Qed.
End QuadLaws.

Section QuadInst.
  Open Scope Z_scope.

  Lemma quad_norm_zero (eisen : bool) x : q_norm (if eisen then 1 else 0) (-1) x = 0 -> x = (0, 0).
  Proof. destruct x as [a b]. unfold q_norm. cbn [fst snd]. intros H. destruct eisen; f_equal; nia. Qed.


  (* the normalizing unit is 1 exactly on the sector 0 < x, 0 <= y (and at zero), for Z[i] and Z[omega] alike *)
  Lemma q_nunit_one eisen y :
    q_nunit eisen y = (1, 0) <-> (0 < fst y /\ 0 <= snd y) \/ (fst y = 0 /\ snd y = 0).
  Proof.
    destruct y as [a b]. unfold q_nunit. cbn [fst snd]. split.
    - destruct eisen; ltb_cases; intros E; try discriminate E; lia.
    - intros H. destruct eisen; ltb_cases; try reflexivity; lia.
  Qed.

  (* multiplying by the normalizing unit moves every element into that sector *)
  Lemma q_nunit_idem (eisen : bool) a :
    q_nunit eisen (q_mul (if eisen then 1 else 0) (-1) a (q_nunit eisen a)) = (1, 0).
  Proof.
    apply q_nunit_one. destruct a as [x y]. unfold q_nunit. cbn [fst snd].
    destruct eisen; ltb_cases; unfold q_mul; cbn [fst snd]; lia.
  Qed.

  Lemma q_nunit_inv (eisen : bool) a : exists v, q_inv (if eisen then 1 else 0) (-1) (q_nunit eisen a) = Some v.
  Proof.
    destruct a as [x y]. unfold q_nunit. cbn [fst snd]. destruct eisen; ltb_cases; eexists; vm_compute; reflexivity.
  Qed.

  Lemma quad_snf_laws t e eisen pre :
    (forall x, q_norm t e x = 0 -> x = (0, 0)) ->
    (forall a, exists v, q_inv t e (q_nunit eisen a) = Some v) ->
    (forall a, q_nunit eisen (q_mul t e a (q_nunit eisen a)) = (1, 0)) ->
    snf_laws (quad_dict t e eisen pre).
  Proof.
    intros Hnz Hninv Hidem.
    pose proof (q_ring_laws t e) as L.
    assert (Hdr : forall a b : quad, b <> rzero (q_ring t e) ->
              a = radd (q_ring t e) (rmul (q_ring t e) (q_div t e eisen a b) b) (q_rem t e eisen a b)).
    { intros a b _. unfold q_rem. cbn [q_ring radd rmul].
      apply quad_eq; unfold q_add, q_neg, q_mul; cbn [fst snd]; ring. }
    constructor; cbn [quad_dict ed_ring ed_unit ed_euc ed_gcdx q_units q_euc rinv rnunit rdiv rrem].
    - exact L.
    - now apply q_integral.
    - intros a b H. now apply q_inv_spec.
    - exact Hninv.
    - exact Hidem.
    - intros a d Hd. now apply q_div_exact.
    - intros a b Hb H. exists (q_div t e eisen a b). unfold q_rem in H. cbn [q_ring rmul rzero] in *.
      injection H as H1 H2. unfold q_mul, q_neg in *. cbn [fst snd] in *.
      apply quad_eq; unfold q_mul; cbn [fst snd]; lia.
    - intros x y d s t0 H. apply (generic_gcdx_spec (q_ring t e) L) in H; [exact H|exact Hdr|].
      intros a. cbn [q_units rnunit]. destruct (Hninv a) as [v Hv]. exists v.
      apply q_inv_spec in Hv. exact Hv.
  Qed.

  Theorem gauss_snf_laws pre : snf_laws (gausspre_dict pre).
  Proof.
    apply quad_snf_laws; [exact (quad_norm_zero false)|exact (q_nunit_inv false)|exact (q_nunit_idem false)].
  Qed.

  Theorem eisen_snf_laws pre : snf_laws (eisenpre_dict pre).
  Proof.
    apply quad_snf_laws; [exact (quad_norm_zero true)|exact (q_nunit_inv true)|exact (q_nunit_idem true)].
  Qed.
End QuadInst.

(* F_p = FF<p>, p prime *)
Section FpLaws.
  Open Scope Z_scope.
  Variable p : Z.
  Hypothesis Hp : Znumtheory.prime p.

  Lemma p_gt_1 : 1 < p.
  Proof. now destruct Hp. Qed.

  Lemma fp_eq (a b : fp p) : fp_val a = fp_val b -> a = b.
  Proof.
    destruct a as [va ca], b as [vb cb]. cbn [fp_val]. intros E. subst vb.
    f_equal. apply Eqdep_dec.UIP_dec. apply Z.eq_dec.
  Qed.

  Lemma fp_val_mk x : fp_val (fp_mk p x) = x mod p.
  Proof. reflexivity. Qed.

  Lemma fp_val_mod (a : fp p) : fp_val a mod p = fp_val a.
  Proof. now destruct a. Qed.

  Lemma fp_val_bound (a : fp p) : 0 <= fp_val a < p.
  Proof. rewrite <- fp_val_mod. apply Z.mod_pos_bound. pose proof p_gt_1. lia. Qed.

  Lemma fp_ring_laws : ring_laws (fp_ring p).
  Proof.
    pose proof p_gt_1 as P1.
    constructor; cbn [fp_ring radd rneg rmul rzero rone reqb]; intros.
    - apply fp_eq. rewrite !fp_val_mk. f_equal. ring.
    - apply fp_eq. rewrite !fp_val_mk. rewrite Zplus_mod_idemp_r, Zplus_mod_idemp_l. f_equal. ring.
    - apply fp_eq. rewrite !fp_val_mk. rewrite Zmod_0_l. cbn [Z.add]. apply fp_val_mod.
    - apply fp_eq. rewrite !fp_val_mk. rewrite Zplus_mod_idemp_r. f_equal. ring.
    - apply fp_eq. rewrite !fp_val_mk. f_equal. ring.
    - apply fp_eq. rewrite !fp_val_mk. rewrite Zmult_mod_idemp_r, Zmult_mod_idemp_l. f_equal. ring.
    - apply fp_eq. rewrite !fp_val_mk. rewrite Zmult_mod_idemp_l. rewrite Z.mul_1_l. apply fp_val_mod.
    - apply fp_eq. rewrite !fp_val_mk. rewrite Zmult_mod_idemp_l.
      rewrite <- Zplus_mod. f_equal. ring.
    - rewrite Z.eqb_eq. split; [apply fp_eq|now intros ->].
  Qed.

  Lemma fp_one_neq_zero : rone (fp_ring p) <> rzero (fp_ring p).
  Proof.
    pose proof p_gt_1 as P1. cbn. intros H. apply (f_equal fp_val) in H. rewrite !fp_val_mk in H.
    rewrite Zmod_0_l, Z.mod_1_l in H by lia. discriminate.
  Qed.

  Lemma fp_inv_r (a : fp p) : a <> rzero (fp_ring p) -> rmul (fp_ring p) a (fp_inv p a) = rone (fp_ring p).
  Proof.
    pose proof p_gt_1 as P1. intros Ha. cbn [fp_ring rmul rone]. unfold fp_inv.
    destruct (Z_gcdx_total (fp_val a) p) as [[[g x] y] G]. rewrite G.
    apply Z_gcdx_spec in G. destruct G as (Hb & Hda & Hdp & Hg).
    pose proof (fp_val_bound a) as Ba.
    assert (Hva : fp_val a <> 0).
    { intros E. apply Ha. apply fp_eq. cbn [fp_ring rzero]. rewrite fp_val_mk, Zmod_0_l. exact E. }
    assert (Hg1 : g = 1).
    { destruct (Znumtheory.prime_divisors p Hp g Hdp) as [E|[E|[E|E]]]; try lia.
      subst g. exfalso. apply Z.divide_pos_le in Hda; lia. }
    apply fp_eq. rewrite !fp_val_mk. rewrite Zmult_mod_idemp_r.
    replace (fp_val a * x) with (1 + (- y) * p) by lia.
    now rewrite Z_mod_plus_full.
  Qed.

  Theorem fp_snf_laws : snf_laws (fp_dict p).
  Proof.
    apply (field_snf_laws (fp_ring p) (fp_inv p) fp_ring_laws fp_one_neq_zero fp_inv_r).
  Qed.
End FpLaws.
