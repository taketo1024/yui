(* C03Big: into_bigraded only moves summands: total rank and the multiset of torsion orders are conserved
   (by the table always; by the grid when all q-degrees have one parity), per homological degree and in total. *)
From Coq Require Import List ZArith Bool Lia Permutation.
Require Import Yui.Model.IntoBigraded Yui.Proofs.C03BigTable Yui.Proofs.C03BigGrid.
Import ListNotations.
Open Scope Z_scope.

(* sums over a duplicate-free list of keys that covers the keys of the generators *)
Fixpoint ksum (f : key -> nat) (S : list key) : nat :=
  match S with [] => O | k :: S' => (f k + ksum f S')%nat end.

Lemma ksum_add : forall f g S, ksum (fun k => (f k + g k)%nat) S = (ksum f S + ksum g S)%nat.
Proof. intros f g S. induction S as [|k S IH]; [reflexivity|]. cbn [ksum] in *. rewrite IH. lia. Qed.

Lemma ksum_ext : forall f g S, (forall k, f k = g k) -> ksum f S = ksum g S.
Proof. intros f g S H. induction S as [|k S IH]; [reflexivity|]. cbn [ksum] in *. rewrite H, IH. reflexivity. Qed.

Lemma ksum_zero : forall f S, (forall k, In k S -> f k = O) -> ksum f S = O.
Proof.
  intros f S H. induction S as [|k S IH]; [reflexivity|]. cbn [ksum].
  rewrite (H k) by (left; reflexivity). apply IH. intros k' Hk'. apply H. right. exact Hk'.
Qed.

Lemma ksum_indicator : forall k0 (c : bool) S, NoDup S -> In k0 S ->
  ksum (fun k => if key_eqb k k0 && c then 1%nat else O) S = if c then 1%nat else O.
Proof.
  intros k0 c S Hnd. induction Hnd as [|k S Hn Hnd IH]; intros Hin; [destruct Hin|].
  cbn [ksum]. destruct (key_eqb k k0) eqn:E.
  - apply key_eqb_spec in E. subst k. rewrite ksum_zero.
    + cbn [andb]. destruct c; reflexivity.
    + intros k' Hk'. destruct (key_eqb k' k0) eqn:E'; [|reflexivity].
      apply key_eqb_spec in E'. subst. contradiction.
  - cbn [andb]. apply key_eqb_false in E. destruct Hin as [Hin|Hin]; [congruence|]. apply IH. exact Hin.
Qed.

Lemma flat_map_nil : forall (f : key -> list Z) S, (forall k, In k S -> f k = []) -> flat_map f S = [].
Proof.
  intros f S H. induction S as [|k S IH]; [reflexivity|]. cbn [flat_map].
  rewrite (H k) by (left; reflexivity). apply IH. intros k' Hk'. apply H. right. exact Hk'.
Qed.

Lemma flat_map_indicator : forall k0 (l : list Z) S, NoDup S -> In k0 S ->
  flat_map (fun k => if key_eqb k k0 then l else []) S = l.
Proof.
  intros k0 l S Hnd. induction Hnd as [|k S Hn Hnd IH]; intros Hin; [destruct Hin|].
  cbn [flat_map]. destruct (key_eqb k k0) eqn:E.
  - apply key_eqb_spec in E. subst k. rewrite flat_map_nil; [apply app_nil_r|].
    intros k' Hk'. destruct (key_eqb k' k0) eqn:E'; [|reflexivity].
    apply key_eqb_spec in E'. subst. contradiction.
  - apply key_eqb_false in E. destruct Hin as [Hin|Hin]; [congruence|]. apply IH. exact Hin.
Qed.

Lemma flat_map_app_perm : forall (f g : key -> list Z) S,
  Permutation (flat_map (fun k => f k ++ g k) S) (flat_map f S ++ flat_map g S).
Proof.
  intros f g S. induction S as [|k S IH]; [constructor|]. cbn [flat_map].
  rewrite IH. rewrite <- !app_assoc. apply Permutation_app_head.
  rewrite !app_assoc. apply Permutation_app_tail. apply Permutation_app_comm.
Qed.

Lemma partition_rank : forall S L, NoDup S -> (forall x, In x L -> In (fst x) S) ->
  ksum (fun k => fst (loc_cell k L)) S = length (filter (fun x => is_free_b (snd x)) L).
Proof.
  intros S L Hnd. induction L as [|x L IH]; intros Hc.
  - apply ksum_zero. intros; reflexivity.
  - rewrite (ksum_ext (fun k => fst (loc_cell k (x :: L)))
               (fun k => ((if key_eqb k (fst x) && is_free_b (snd x) then 1 else 0) + fst (loc_cell k L))%nat) S).
    2: { intros k. rewrite loc_cell_cons. reflexivity. }
    rewrite ksum_add, IH by (intros y Hy; apply Hc; right; exact Hy).
    rewrite ksum_indicator by (try exact Hnd; apply Hc; left; reflexivity).
    cbn [filter]. destruct (is_free_b (snd x)); reflexivity.
Qed.

Lemma partition_tors : forall S L, NoDup S -> (forall x, In x L -> In (fst x) S) ->
  Permutation (flat_map (fun k => snd (loc_cell k L)) S) (flat_map (fun x => tor_list (snd x)) L).
Proof.
  intros S L Hnd. induction L as [|x L IH]; intros Hc.
  - rewrite flat_map_nil; [constructor | intros; reflexivity].
  - rewrite (flat_map_ext (fun k => snd (loc_cell k (x :: L)))
               (fun k => (if key_eqb k (fst x) then tor_list (snd x) else []) ++ snd (loc_cell k L))).
    2: { intros k. rewrite loc_cell_cons. reflexivity. }
    rewrite flat_map_app_perm. cbn [flat_map].
    rewrite flat_map_indicator by (try exact Hnd; apply Hc; left; reflexivity).
    apply Permutation_app_head. apply IH. intros y Hy. apply Hc. right. exact Hy.
Qed.

(* totals of a list of cells given by a key list *)
Lemma total_rank_map : forall (f : key -> cell) S,
  total_rank (map (fun idx => (idx, f idx)) S) = ksum (fun k => fst (f k)) S.
Proof.
  intros f S. induction S as [|k S IH]; [reflexivity|]. unfold total_rank in *. cbn [map fold_right ksum snd].
  rewrite IH. reflexivity.
Qed.

Lemma all_tors_map : forall (f : key -> cell) S,
  all_tors (map (fun idx => (idx, f idx)) S) = flat_map (fun k => snd (f k)) S.
Proof.
  intros f S. induction S as [|k S IH]; [reflexivity|]. unfold all_tors in *. cbn [map flat_map snd].
  rewrite IH. reflexivity.
Qed.

(* cells read off at a duplicate-free list of keys that covers the keys of the located generators L and
   that agree there with the regrouping of L: nothing is lost *)
Lemma cells_conservation : forall (f : key -> cell) S L,
  NoDup S -> (forall x, In x L -> In (fst x) S) -> (forall k, In k S -> f k = loc_cell k L) ->
  total_rank (map (fun idx => (idx, f idx)) S) = length (filter (fun x => is_free_b (snd x)) L) /\
  Permutation (all_tors (map (fun idx => (idx, f idx)) S)) (flat_map (fun x => tor_list (snd x)) L).
Proof.
  intros f S L Hnd Hc Hf.
  rewrite (map_ext_in _ (fun idx => (idx, loc_cell idx L))) by (intros k Hk; now rewrite Hf).
  rewrite total_rank_map, all_tors_map. split; [now apply partition_rank|now apply partition_tors].
Qed.

(* the input totals in terms of located generators *)
Lemma free_count_locate : forall i gs,
  length (filter (fun x => is_free_b (snd x)) (locate i gs)) = length (filter (fun g => is_free_b (fst g)) gs).
Proof.
  intros i gs. induction gs as [|[g qs] gs IH]; [reflexivity|].
  change (locate i ((g, qs) :: gs)) with (((i, chain_q_deg qs), g) :: locate i gs). cbn [filter fst snd].
  destruct (is_free_b g); cbn [length]; rewrite IH; reflexivity.
Qed.

Lemma tors_locate : forall i gs,
  flat_map (fun x => tor_list (snd x)) (locate i gs) = flat_map (fun g => tor_list (fst g)) gs.
Proof.
  intros i gs. induction gs as [|[g qs] gs IH]; [reflexivity|].
  change (locate i ((g, qs) :: gs)) with (((i, chain_q_deg qs), g) :: locate i gs). cbn [flat_map fst snd].
  rewrite IH. reflexivity.
Qed.

Lemma free_count_tagged : forall s, length (filter (fun g => is_free_b (fst g)) (tagged s)) = length (si_free s).
Proof.
  intros s. unfold tagged. rewrite filter_app, app_length.
  assert (A : forall l : list (list Z), length (filter (fun g => is_free_b (fst g)) (map (fun qs => (GFree, qs)) l)) = length l).
  { induction l as [|qs l IH]; [reflexivity|]. cbn [map filter fst is_free_b length]. rewrite IH. reflexivity. }
  assert (B : forall l : list (Z * list Z),
     filter (fun g => is_free_b (fst g)) (map (fun p => (GTor (fst p), snd p)) l) = []).
  { induction l as [|p l IH]; [reflexivity|]. cbn [map filter fst is_free_b]. exact IH. }
  rewrite A, B. cbn [length]. lia.
Qed.

Lemma tors_tagged : forall s, flat_map (fun g => tor_list (fst g)) (tagged s) = map fst (si_tors s).
Proof.
  intros s. unfold tagged. rewrite flat_map_app.
  assert (A : forall l : list (list Z), flat_map (fun g => tor_list (fst g)) (map (fun qs => (GFree, qs)) l) = []).
  { induction l as [|qs l IH]; [reflexivity|]. cbn [map flat_map fst tor_list app]. exact IH. }
  assert (B : forall l : list (Z * list Z),
     flat_map (fun g => tor_list (fst g)) (map (fun p => (GTor (fst p), snd p)) l) = map fst l).
  { induction l as [|p l IH]; [reflexivity|]. cbn [map flat_map fst tor_list app]. rewrite IH. reflexivity. }
  rewrite A, B. reflexivity.
Qed.

Lemma free_count_all_located : forall hs,
  length (filter (fun x => is_free_b (snd x)) (all_located hs)) = sum_ranks hs.
Proof.
  intros hs. induction hs as [|[i s] hs IH]; [reflexivity|].
  change (all_located ((i, s) :: hs)) with (locate i (tagged s) ++ all_located hs).
  change (sum_ranks ((i, s) :: hs)) with ((length (si_free s) + sum_ranks hs)%nat).
  rewrite filter_app, app_length, free_count_locate, free_count_tagged, IH. reflexivity.
Qed.

Lemma tors_all_located : forall hs, flat_map (fun x => tor_list (snd x)) (all_located hs) = sum_tors hs.
Proof.
  intros hs. induction hs as [|[i s] hs IH]; [reflexivity|].
  change (all_located ((i, s) :: hs)) with (locate i (tagged s) ++ all_located hs).
  change (sum_tors ((i, s) :: hs)) with (map fst (si_tors s) ++ sum_tors hs).
  rewrite flat_map_app, tors_locate, tors_tagged, IH. reflexivity.
Qed.

(* the table conserves everything (no hypothesis) *)
Lemma cellv_notin : forall k k1 e t, k <> k1 -> cellv k ((k1, e) :: t) = cellv k t.
Proof. intros k k1 e t H. unfold cellv. cbn [tbl_find]. apply key_eqb_false in H. rewrite H. reflexivity. Qed.

Lemma tbl_cells_as_map : forall t, NoDup (map fst t) ->
  tbl_cells t = map (fun k => (k, cellv k t)) (map fst t).
Proof.
  intros t. induction t as [|[k1 e] t IH]; intros Hnd; [reflexivity|].
  cbn [map fst] in Hnd. inversion Hnd as [|? ? Hn Hd]; subst.
  cbn [tbl_cells map fst snd]. f_equal.
  - unfold cellv. cbn [tbl_find]. rewrite key_eqb_refl. reflexivity.
  - fold (tbl_cells t). rewrite (IH Hd). apply map_ext_in. intros k Hk.
    rewrite cellv_notin; [reflexivity|]. intros E. subst. contradiction.
Qed.

Lemma cellv_loc : forall k hs, cellv k (collect_gen_info hs) = loc_cell k (all_located hs).
Proof. intros k hs. rewrite cellv_collect_gen_info. apply gather_zero. Qed.

Lemma collect_gen_info_conservation : forall hs,
  total_rank (tbl_cells (collect_gen_info hs)) = sum_ranks hs /\
  Permutation (all_tors (tbl_cells (collect_gen_info hs))) (sum_tors hs).
Proof.
  intros hs. pose proof (collect_gen_info_keys_nodup hs) as Hnd. rewrite (tbl_cells_as_map _ Hnd).
  rewrite <- free_count_all_located, <- tors_all_located. apply cells_conservation; [exact Hnd| |].
  - intros x Hx. apply keys_collect_gen_info. apply in_map. exact Hx.
  - intros k _. apply cellv_loc.
Qed.

(* the grid conserves everything when the q-degrees have one parity *)
Lemma same_parity_covers : forall hs, same_parity hs ->
  forall x, In x (all_located hs) -> In (fst x) (ib_support (collect_gen_info hs)).
Proof.
  intros hs Hp [[i j] g] Hx. apply in_all_located in Hx. destruct Hx as [qs [Hin Hq]]. cbn [fst snd] in *.
  subst j. apply (same_parity_on_grid hs i g qs Hp Hin).
Qed.

Lemma into_bigraded_conservation : forall hs, same_parity hs ->
  total_rank (into_bigraded hs) = sum_ranks hs /\ Permutation (all_tors (into_bigraded hs)) (sum_tors hs).
Proof.
  intros hs Hp. unfold into_bigraded. rewrite <- free_count_all_located, <- tors_all_located.
  apply cells_conservation; [apply ib_support_nodup|apply (same_parity_covers hs Hp)|].
  intros k _. apply cellv_loc.
Qed.

(* conservation in one homological degree: row i of the new grid against the generators of degree i *)
Lemma ib_row_map : forall i (f : key -> cell) S,
  ib_row i (map (fun idx => (idx, f idx)) S) = map (fun idx => (idx, f idx)) (filter (fun k => fst k =? i) S).
Proof.
  intros i f S. induction S as [|k S IH]; [reflexivity|]. cbn [map ib_row filter fst] in *.
  destruct (fst k =? i); [cbn [map]; f_equal|]; exact IH.
Qed.

Lemma into_bigraded_conservation_degree : forall hs i, same_parity hs ->
  total_rank (ib_row i (into_bigraded hs)) = length (filter (fun g => is_free_b (fst g)) (gens_at hs i)) /\
  Permutation (all_tors (ib_row i (into_bigraded hs))) (flat_map (fun g => tor_list (fst g)) (gens_at hs i)).
Proof.
  intros hs i Hp. unfold into_bigraded.
  rewrite (ib_row_map i (fun idx => cell_of (tbl_find idx (collect_gen_info hs)))).
  rewrite <- free_count_locate with (i := i), <- tors_locate with (i := i), <- at_deg_all_located.
  apply cells_conservation; [apply NoDup_filter, ib_support_nodup| |].
  - intros x Hx. unfold at_deg in Hx. apply filter_In in Hx. destruct Hx as [Hx Hi].
    apply filter_In. split; [apply (same_parity_covers hs Hp x Hx) | exact Hi].
  - intros k Hk. apply filter_In in Hk. destruct Hk as [_ Hi]. apply Z.eqb_eq in Hi.
    fold (cellv k (collect_gen_info hs)). rewrite cellv_loc, (loc_cell_at_deg k), Hi. reflexivity.
Qed.

(* one summand of the total homology: its rank and its torsion orders are those of the row of the new grid *)
Lemma into_bigraded_conservation_summand : forall hs i s,
  NoDup (map fst hs) -> In (i, s) hs -> same_parity hs ->
  total_rank (ib_row i (into_bigraded hs)) = length (si_free s) /\
  Permutation (all_tors (ib_row i (into_bigraded hs))) (map fst (si_tors s)).
Proof.
  intros hs i s Hnd Hin Hp. destruct (into_bigraded_conservation_degree hs i Hp) as [H1 H2].
  rewrite (gens_at_nodup hs i s Hnd Hin) in H1, H2. rewrite free_count_tagged in H1. rewrite tors_tagged in H2.
  auto.
Qed.

(* the three conservation statements as one conjunction; the homogeneous case joined with its summand *)
Lemma into_bigraded_conservation_full : forall hs, same_parity hs ->
  (total_rank (into_bigraded hs) = sum_ranks hs /\ Permutation (all_tors (into_bigraded hs)) (sum_tors hs)) /\
  (forall i,
     total_rank (ib_row i (into_bigraded hs)) = length (filter (fun g => is_free_b (fst g)) (gens_at hs i)) /\
     Permutation (all_tors (ib_row i (into_bigraded hs))) (flat_map (fun g => tor_list (fst g)) (gens_at hs i))) /\
  (forall i s, NoDup (map fst hs) -> In (i, s) hs ->
     total_rank (ib_row i (into_bigraded hs)) = length (si_free s) /\
     Permutation (all_tors (ib_row i (into_bigraded hs))) (map fst (si_tors s))).
Proof.
  intros hs Hp. split; [|split].
  - apply into_bigraded_conservation. exact Hp.
  - intros i. apply into_bigraded_conservation_degree. exact Hp.
  - intros i s Hnd Hin. apply into_bigraded_conservation_summand; assumption.
Qed.

Lemma into_bigraded_homogeneous_full : forall hs i s,
  NoDup (map fst hs) -> In (i, s) hs -> same_parity hs -> all_homogeneous s ->
  (forall j, ib_get (i, j) (into_bigraded hs)
             = (length (filter (lives_in j) (si_free s)), map fst (filter (fun p => lives_in j (snd p)) (si_tors s)))) /\
  total_rank (ib_row i (into_bigraded hs)) = length (si_free s) /\
  Permutation (all_tors (ib_row i (into_bigraded hs))) (map fst (si_tors s)).
Proof.
  intros hs i s Hnd Hin Hp Hh. split.
  - intros j. apply into_bigraded_homogeneous; assumption.
  - apply into_bigraded_conservation_summand; assumption.
Qed.
