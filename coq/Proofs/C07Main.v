(* C07, part 5: corollaries that combine the previous parts - the rank formula against ANY diagonal forms of
   the two differentials (the rank is an invariant, C07Rank.v), and the statement for the public route
   ChainComplexBase::homology_at. *)
From Coq Require Import ZArith Arith List Lia Bool.
Require Import Yui.Base.Ring Yui.Base.MatF Yui.Base.MatL Yui.Model.HomologyCalc.
Require Import Yui.Proofs.C07Algebra Yui.Proofs.C07Calc Yui.Proofs.C07Rank Yui.Proofs.C07Complex.
Import ListNotations.

Section C07Main.
  Context {R : Type} (o : ring_ops R) (L : ring_laws o) (Hint : integral o).
  Variable isu : R -> bool.
  Hypothesis isu_complete : forall a b, rmul o a b = rone o -> isu a = true.
  Variable snf : dmat R -> bool -> bool -> bool -> bool -> option (snf_result R).
  Hypothesis isu_sound : forall a, isu a = true -> exists b, rmul o a b = rone o.
  Hypothesis HC : snf_contract o snf.

  (* rank = n - rank d_in - rank d_out for whatever diagonal forms the two ranks are read off *)
  Theorem calculate_rank_formula d1 d2 wt rank tors tr :
    mwf d1 -> mwf d2 -> zero_prod o d1 d2 ->
    calculate o isu snf d1 d2 wt = Some (rank, tors, tr) ->
    forall rho1 a rho2 b,
      smith_form o (nr d1) (nc d1) (mget o d1) rho1 a ->
      smith_form o (nr d2) (nc d2) (mget o d2) rho2 b ->
      (rank + rho1 + rho2 = nr d1)%nat.
  Proof.
    intros W1 W2 Hdd H rho1 a rho2 b F1 F2.
    destruct (calculate_rank_tors o L Hint isu isu_complete snf isu_sound d1 d2 wt rank tors tr HC W1 W2 Hdd H)
      as [_ [r1 [r2 [a' [b' [t [G1 [G2 [Hr _]]]]]]]]].
    rewrite (smith_form_rank_unique o L Hint _ _ _ _ _ _ _ F1 G1).
    rewrite (smith_form_rank_unique o L Hint _ _ _ _ _ _ _ F2 G2).
    exact Hr.
  Qed.

  (* the public route: the summand reported in degree i *)
  Theorem homology_at_correct C i h :
    homology_at o isu snf C i = Some h ->
    exists d_in d_out,
      d_matrix o C (i - c_ddeg C)%Z = Some d_in /\ d_matrix o C i = Some d_out /\
      s_ngens h = c_rank C i /\ nr d_in = c_rank C i /\ nc d_out = c_rank C i /\
      (zero_prod o d_in d_out ->
       (forall rho1 a rho2 b,
          smith_form o (nr d_in) (nc d_in) (mget o d_in) rho1 a ->
          smith_form o (nr d_out) (nc d_out) (mget o d_out) rho2 b ->
          (s_rank h + rho1 + rho2 = c_rank C i)%nat) /\
       (exists (r1 : nat) (a : nat -> R),
          smith_form o (nr d_in) (nc d_in) (mget o d_in) r1 a /\
          (forall k, (S k < r1)%nat -> exists c, a (S k) = rmul o (a k) c) /\
          s_tors h = non_units isu (map a (seq O r1))) /\
       exists p q,
         forward_mat o (s_trans h) = Some p /\ backward_mat o (s_trans h) = Some q /\
         gens_ok o d_in d_out (s_rank h) (s_tors h) p q /\
         complete_ok o d_in d_out (s_rank h) (s_tors h) p q).
  Proof.
    intros H.
    destruct (homology_at_calc o isu snf C i h H)
      as [d0 [d1 [t [E0 [E1 [W0 [W1 [S0 [S1 [Hcalc [Hng [Hsrc [Htgt [Hf Hb]]]]]]]]]]]]]].
    exists d0, d1.
    split; [exact E0|]. split; [exact E1|]. split; [exact Hng|]. split; [exact S0|]. split; [exact S1|].
    intros Hdd. split; [|split].
    - intros rho1 a rho2 b F1 F2. rewrite <- S0.
      exact (calculate_rank_formula d0 d1 true _ _ _ W0 W1 Hdd Hcalc rho1 a rho2 b F1 F2).
    - destruct (calculate_rank_tors o L Hint isu isu_complete snf isu_sound d0 d1 true _ _ _ HC W0 W1 Hdd Hcalc)
        as [_ [r1 [r2 [a [b [t' [G1 [_ [_ [Hch [Ht _]]]]]]]]]]].
      exists r1, a. split; [exact G1|]. split; [exact Hch|exact Ht].
    - destruct (calculate_gens_complete o L Hint isu isu_complete snf isu_sound d0 d1 _ _ _ HC W0 W1 Hdd Hcalc)
        as [t1 [p [q [Et [Ep [Eq [_ [_ Hgc]]]]]]]].
      injection Et as <-.
      exists p, q. rewrite Hf, Hb. split; [exact Ep|]. split; [exact Eq|exact Hgc].
  Qed.
End C07Main.
