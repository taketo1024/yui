(* Invariant of the chain reducer ([Inv]) and its preservation by ONE reduction step ([step_inv]; sequences of
   steps are in C08Run.v): the (ghost) accumulated
   transfer maps F, B and homotopies H form a strong deformation retraction of the original complex
   onto the current one; the stored Trans and the tracked vectors agree with them. *)
From Coq Require Import Arith List Lia Bool Ring Permutation.
Require Import Yui.Base.Ring Yui.Base.MatF Yui.Base.MatL Yui.Model.Reducer.
Require Import Yui.Proofs.C08Mat Yui.Proofs.C08Perm Yui.Proofs.C08Tri Yui.Proofs.C08Block Yui.Proofs.C08Step.
Import ListNotations.

(* stp: close a premise left by eapply;  sd: close a well-formedness or shape side condition *)
Ltac stp := first [eassumption | reflexivity].
Ltac sd := solve [dwfs | assumption | shapes; lia | dims; congruence].

Section Compose.
  Context {R : Type} (o : ring_ops R) (L : ring_laws o).
  Add Ring RringA : (ring_theory_of_laws o L).
  Local Notation dmat := (dmat R).
  Local Notation dwf := (@dwf R).

  Lemma shuffle4 (X1 X2 Lo Y : dmat) m n :
    dr X1 = m -> dc X1 = n -> dr X2 = m -> dc X2 = n -> dr Lo = m -> dc Lo = n -> dr Y = m -> dc Y = n ->
    dadd o X1 (dadd o Lo (dadd o Y X2)) = dadd o (dadd o X1 X2) (dadd o Lo Y).
  Proof.
    intros. apply (dmat_ext o); dwfs; try sd. intros i j Hi Hj. simpl dr in Hi, Hj; simpl dc in Hi, Hj.
    rewrite !(dget_dadd o) by (shapes; lia). ring.
  Qed.

  Lemma shuffle4' (X1 X2 Hi Y : dmat) m n :
    dr X1 = m -> dc X1 = n -> dr X2 = m -> dc X2 = n -> dr Hi = m -> dc Hi = n -> dr Y = m -> dc Y = n ->
    dadd o X1 (dadd o (dadd o Y X2) Hi) = dadd o (dadd o X1 X2) (dadd o Y Hi).
  Proof.
    intros. apply (dmat_ext o); dwfs; try sd. intros i j Hi' Hj. simpl dr in Hi', Hj; simpl dc in Hi', Hj.
    rewrite !(dget_dadd o) by (shapes; lia). ring.
  Qed.

  (* homotopy at the source space of the step:
     B b1 f1 F + Lo + (H + B h F2) D = B F + Lo + H D   when  b1 f1 + h a = 1  and  F2 D = a F *)
  Lemma comp_hom_src (B F F2 D H Lo a b1 f1 h : dmat) N n :
    dwf F -> dr B = N -> dc B = n -> dr F = n -> dc F = N -> dr b1 = n -> dc b1 = dr f1 -> dc f1 = n ->
    dr h = n -> dc h = dr a -> dc a = n -> dc h = dr F2 -> dc F2 = dr D -> dc D = N ->
    dr H = N -> dc H = dr D -> dr Lo = N -> dc Lo = N ->
    dmul o F2 D = dmul o a F ->
    dadd o (dmul o b1 f1) (dmul o h a) = did o n ->
    dadd o (dmul o (dmul o B b1) (dmul o f1 F))
      (dadd o Lo (dmul o (dadd o H (dmul o B (dmul o h F2))) D)) =
    dadd o (dmul o B F) (dadd o Lo (dmul o H D)).
  Proof.
    intros WF; intros.
    rewrite (dmul_add_l o L) by sd.
    rewrite (dmul_assoc o L B (dmul o h F2)) by sd. rewrite (dmul_assoc o L h) by sd.
    match goal with E : dmul o F2 D = _ |- _ => rewrite E end.
    rewrite <- (dmul_assoc o L h) by sd.
    rewrite (dmul_assoc o L B b1) by sd. rewrite <- (dmul_assoc o L b1) by sd.
    rewrite (shuffle4 _ _ _ _ N N) by sd.
    rewrite <- (dmul_add_r o L) by sd. rewrite <- (dmul_add_l o L) by sd.
    match goal with E : dadd o _ _ = did o n |- _ => rewrite E end.
    now rewrite (dmul_id_l o L) by sd.
  Qed.

  (* homotopy at the target space of the step:
     B2 b2 f2 F2 + D (H + B h F2) + Hi = B2 F2 + D H + Hi   when  b2 f2 + a h = 1  and  D B = B2 a *)
  Lemma comp_hom_tgt (B B2 F2 D H Hi a b2 f2 h : dmat) N m :
    dwf F2 -> dr B2 = N -> dc B2 = m -> dr F2 = m -> dc F2 = N -> dr b2 = m -> dc b2 = dr f2 -> dc f2 = m ->
    dr a = m -> dc a = dr h -> dc h = m -> dc D = dr B -> dc B = dr h -> dr D = N ->
    dc D = dr H -> dc H = N -> dr Hi = N -> dc Hi = N ->
    dmul o D B = dmul o B2 a ->
    dadd o (dmul o b2 f2) (dmul o a h) = did o m ->
    dadd o (dmul o (dmul o B2 b2) (dmul o f2 F2))
      (dadd o (dmul o D (dadd o H (dmul o B (dmul o h F2)))) Hi) =
    dadd o (dmul o B2 F2) (dadd o (dmul o D H) Hi).
  Proof.
    intros WF; intros.
    rewrite (dmul_add_r o L) by sd.
    rewrite <- (dmul_assoc o L D B) by sd.
    match goal with E : dmul o D B = _ |- _ => rewrite E end.
    rewrite (dmul_assoc o L B2 a) by sd. rewrite <- (dmul_assoc o L a) by sd.
    rewrite (dmul_assoc o L B2 b2) by sd. rewrite <- (dmul_assoc o L b2) by sd.
    rewrite (shuffle4' _ _ _ _ N N) by sd.
    rewrite <- (dmul_add_r o L) by sd. rewrite <- (dmul_add_l o L) by sd.
    match goal with E : dadd o _ _ = did o m |- _ => rewrite E end.
    now rewrite (dmul_id_l o L) by sd.
  Qed.
End Compose.

Section Specs.
  Context {R : Type} (o : ring_ops R) (u : unit_ops R).
  Local Notation dmat := (dmat R).

  Lemma fupd_eq {A} (f : nat -> A) p x : fupd f p x p = x.
  Proof. unfold fupd. now rewrite Nat.eqb_refl. Qed.
  Lemma fupd_neq {A} (f : nat -> A) p x q : q <> p -> fupd f p x q = f q.
  Proof. intros H. unfold fupd. destruct (Nat.eqb_spec q p); [contradiction|reflexivity]. Qed.

  (* indices away from the two positions p, S p that a step touches *)
  Lemma far_below q p : S q = p -> q <> p /\ q <> S p. Proof. lia. Qed.
  Lemma far_above p : S (S p) <> p /\ S (S p) <> S p. Proof. lia. Qed.
  Lemma far_succ q p : q <> p -> S q <> p -> S q <> p /\ S q <> S p. Proof. lia. Qed.

  Lemma some_below {A} (f : nat -> option A) n : (forall p, n <= p -> f p = None) -> forall p x, f p = Some x -> p < n.
  Proof.
    intros H p x E. destruct (Nat.lt_ge_cases p n) as [Hlt|Hge]; [exact Hlt|]. rewrite (H p Hge) in E. discriminate.
  Qed.

  Lemma update_mats_spec ms p vp vq r s ms' :
    update_mats o ms p vp vq r s = Some ms' ->
    ms' p = Some s /\
    (forall q, q <> p -> S q <> p -> q <> S p -> ms' q = ms q) /\
    (forall p0, p = S p0 -> match ms p0 with
                            | None => ms' p0 = None
                            | Some a0 => dr a0 = length vq /\ ms' p0 = Some (reduce_mat_rows o a0 vq r)
                            end) /\
    (match ms (S p) with
     | None => ms' (S p) = None
     | Some a2 => dc a2 = length vp /\ ms' (S p) = Some (reduce_mat_cols o a2 vp r)
     end).
  Proof.
    unfold update_mats. intros E.
    match type of E with obind ?X _ = _ => destruct X as [ms1|] eqn:E1; [|discriminate] end. cbn [obind] in E.
    assert (H1 : (forall q, S q <> p -> ms1 q = ms q) /\
                 (forall p0, p = S p0 -> match ms p0 with
                            | None => ms1 p0 = None
                            | Some a0 => dr a0 = length vq /\ ms1 p0 = Some (reduce_mat_rows o a0 vq r)
                            end)).
    { destruct p as [|p0].
      - injection E1 as <-. split; [reflexivity|]. intros p0 Hp. discriminate.
      - destruct (ms p0) as [a0|] eqn:Ea0.
        + destruct (Nat.eqb_spec (dr a0) (length vq)) as [Hd|]; [|discriminate]. injection E1 as <-. split.
          * intros q Hq. apply fupd_neq. intros ->. now apply Hq.
          * intros p1 [= <-]. rewrite Ea0. split; [exact Hd|]. apply fupd_eq.
        + injection E1 as <-. split; [reflexivity|]. intros p1 [= <-]. now rewrite Ea0. }
    destruct H1 as [H1a H1b].
    assert (E2 : fupd ms1 p (Some s) (S p) = ms (S p)).
    { rewrite fupd_neq by lia. apply H1a. lia. }
    rewrite E2 in E.
    destruct (ms (S p)) as [a2|] eqn:Ea2.
    - destruct (Nat.eqb_spec (dc a2) (length vp)) as [Hd|]; [|discriminate]. injection E as <-.
      split; [rewrite fupd_neq by lia; apply fupd_eq|]. split; [|split].
      + intros q Hq1 Hq2 Hq3. rewrite !fupd_neq by lia. apply H1a. lia.
      + intros p0 Hp0. specialize (H1b p0 Hp0). rewrite !fupd_neq by lia. exact H1b.
      + split; [exact Hd|]. apply fupd_eq.
    - injection E as <-.
      split; [apply fupd_eq|]. split; [|split].
      + intros q Hq1 Hq2 Hq3. rewrite !fupd_neq by lia. apply H1a. lia.
      + intros p0 Hp0. specialize (H1b p0 Hp0). rewrite !fupd_neq by lia. exact H1b.
      + rewrite fupd_neq by lia. rewrite H1a by lia. exact Ea2.
  Qed.

  Lemma update_mats_some ms p vp vq r s :
    (forall p0 a0, p = S p0 -> ms p0 = Some a0 -> dr a0 = length vq) ->
    (forall a2, ms (S p) = Some a2 -> dc a2 = length vp) ->
    exists ms', update_mats o ms p vp vq r s = Some ms'.
  Proof.
    intros H0 H2. unfold update_mats. cbv zeta.
    match goal with |- context [obind ?X _] =>
      assert (E1 : exists ms1, X = Some ms1 /\ ms1 (S p) = ms (S p)) end.
    { destruct p as [|p0]; [eauto|]. destruct (ms p0) as [a0|] eqn:Ea0; [|eauto].
      rewrite (H0 p0 a0 eq_refl Ea0), Nat.eqb_refl. eexists. split; [reflexivity|]. apply fupd_neq. lia. }
    destruct E1 as (ms1 & -> & E2). cbn [obind]. rewrite fupd_neq by lia. rewrite E2.
    destruct (ms (S p)) as [a2|]; [|eauto]. rewrite (H2 a2 eq_refl), Nat.eqb_refl. eauto.
  Qed.

  Lemma update_trans_spec ts p vp vq t_s t_t ts' :
    update_trans o ts p vp vq t_s t_t = Some ts' ->
    (forall q, q <> p -> q <> S p -> ts' q = ts q) /\
    (match ts p with
     | None => ts' p = None
     | Some t1 => exists t1' t1'', t_append_perm o t1 vq = Some t1' /\ t_merge o t1' t_s = Some t1'' /\ ts' p = Some t1''
     end) /\
    (match ts (S p) with
     | None => ts' (S p) = None
     | Some t2 => exists t2' t2'', t_append_perm o t2 vp = Some t2' /\ t_merge o t2' t_t = Some t2'' /\ ts' (S p) = Some t2''
     end).
  Proof.
    unfold update_trans. intros E.
    match type of E with obind ?X _ = _ => destruct X as [ts1|] eqn:E1; [|discriminate] end. cbn [obind] in E.
    assert (H1 : (forall q, q <> p -> ts1 q = ts q) /\
                 match ts p with
                 | None => ts1 p = None
                 | Some t1 => exists t1' t1'', t_append_perm o t1 vq = Some t1' /\ t_merge o t1' t_s = Some t1'' /\ ts1 p = Some t1''
                 end).
    { destruct (ts p) as [t1|] eqn:Et1.
      - destruct (t_append_perm o t1 vq) as [t1'|] eqn:Ea; [|discriminate]. cbn [obind] in E1.
        destruct (t_merge o t1' t_s) as [t1''|] eqn:Em; [|discriminate]. cbn [obind] in E1. injection E1 as <-.
        split; [intros q Hq; now apply fupd_neq|]. exists t1', t1''. split; [reflexivity|]. split; [exact Em|].
        apply fupd_eq.
      - injection E1 as <-. split; [reflexivity|exact Et1]. }
    destruct H1 as [H1a H1b].
    rewrite (H1a (S p)) in E by lia.
    destruct (ts (S p)) as [t2|] eqn:Et2.
    - destruct (t_append_perm o t2 vp) as [t2'|] eqn:Ea; [|discriminate]. cbn [obind] in E.
      destruct (t_merge o t2' t_t) as [t2''|] eqn:Em; [|discriminate]. cbn [obind] in E. injection E as <-.
      split; [|split].
      + intros q Hq1 Hq2. rewrite fupd_neq by lia. now apply H1a.
      + rewrite fupd_neq by lia. exact H1b.
      + exists t2', t2''. split; [reflexivity|]. split; [exact Em|]. apply fupd_eq.
    - injection E as <-. split; [|split].
      + intros q Hq1 Hq2. now apply H1a.
      + exact H1b.
      + rewrite H1a by lia. exact Et2.
  Qed.

  Lemma omap_Forall2 {A B} (f : A -> option B) l l' :
    omap f l = Some l' -> Forall2 (fun x y => f x = Some y) l l'.
  Proof.
    revert l'. induction l as [|x l IH]; intros l' E; cbn [omap] in E.
    - injection E as <-. constructor.
    - destruct (f x) as [y|] eqn:Ey; [|discriminate]. cbn [obind] in E.
      destruct (omap f l) as [ys|]; [|discriminate]. cbn [obind] in E. injection E as <-.
      constructor; [exact Ey|]. now apply IH.
  Qed.

  Lemma update_vecs_spec vs p vp vq r sc vs' :
    update_vecs o vs p vp vq r sc = Some vs' ->
    (forall q, q <> p -> q <> S p -> vs' q = vs q) /\
    Forall2 (fun v w => vec_src o vq r (length vq) v = Some w) (vs p) (vs' p) /\
    Forall2 (fun v w => vec_tgt o vp r (length vp) sc v = Some w) (vs (S p)) (vs' (S p)).
  Proof.
    unfold update_vecs. intros E.
    destruct (omap (vec_src o vq r (length vq)) (vs p)) as [v1|] eqn:E1; [|discriminate]. cbn [obind] in E.
    rewrite fupd_neq in E by lia.
    destruct (omap (vec_tgt o vp r (length vp) sc) (vs (S p))) as [v2|] eqn:E2; [|discriminate].
    cbn [obind] in E. injection E as <-. split; [|split].
    - intros q H1 H2. now rewrite !fupd_neq by lia.
    - rewrite fupd_neq by lia. rewrite fupd_eq. now apply omap_Forall2.
    - rewrite fupd_eq. now apply omap_Forall2.
  Qed.

  Lemma omap_some {A B} (f : A -> option B) (P : A -> Prop) l :
    (forall x, P x -> exists y, f x = Some y) -> Forall P l -> exists l', omap f l = Some l'.
  Proof.
    intros H HF. induction HF as [|x l Hx HF IH]; cbn [omap]; [eauto|].
    destruct (H x Hx) as [y ->]. destruct IH as [ys ->]. cbn [obind]. eauto.
  Qed.

  Lemma update_vecs_some vs p vp vq r sc :
    Forall (fun v => length v = length vq) (vs p) -> Forall (fun v => length v = length vp) (vs (S p)) ->
    exists vs', update_vecs o vs p vp vq r sc = Some vs'.
  Proof.
    intros F1 F2. unfold update_vecs.
    assert (G1 : forall v, length v = length vq -> exists w, vec_src o vq r (length vq) v = Some w).
    { intros v Hv. unfold vec_src. rewrite Hv, Nat.eqb_refl. eauto. }
    assert (G2 : forall v, length v = length vp -> exists w, vec_tgt o vp r (length vp) sc v = Some w).
    { intros v Hv. unfold vec_tgt. rewrite Hv, Nat.eqb_refl. eauto. }
    destruct (omap_some _ _ _ G1 F1) as [v1 ->]. cbn [obind]. rewrite fupd_neq by lia.
    destruct (omap_some _ _ _ G2 F2) as [v2 ->].
    cbn [obind]. eauto.
  Qed.

  (* append_perm followed by merge composes the step's maps with the stored ones *)
  Lemma trans_step_spec (t : trans R) v (ts : trans R) t' t'' :
    t_append_perm o t v = Some t' -> t_merge o t' ts = Some t'' ->
    length v = t_tgt t /\ t_tgt t = t_src ts /\
    t'' = mkT (t_src t) (t_tgt ts) (dmul o (t_f ts) (dmul o (row_perm_mat o v) (t_f t)))
              (dmul o (dmul o (t_b t) (col_perm_mat o v)) (t_b ts)).
  Proof.
    unfold t_append_perm, t_append, t_merge.
    destruct (Nat.eqb_spec (length v) (t_tgt t)) as [H1|]; [|discriminate].
    destruct (_ && _ && _); [|discriminate]. intros [= <-]. cbn [t_tgt t_src t_f t_b].
    shapes.
    destruct (Nat.eqb_spec (length v) (t_src ts)) as [H2|]; [|discriminate]. intros [= <-].
    repeat split; congruence.
  Qed.

  Lemma trans_step_some (t : trans R) v (ts : trans R) :
    length v = t_tgt t -> length v = t_src ts ->
    exists t'', (do t' <- t_append_perm o t v; t_merge o t' ts) = Some t''.
  Proof.
    intros H1 H2. unfold t_append_perm, t_append. shapes. rewrite <- H1, !Nat.eqb_refl. cbn [andb obind].
    unfold t_merge. cbn [t_tgt]. shapes. rewrite H2, Nat.eqb_refl. eauto.
  Qed.

  Lemma update_trans_some ts p vp vq t_s t_t :
    (forall t1, ts p = Some t1 -> length vq = t_tgt t1) -> length vq = t_src t_s ->
    (forall t2, ts (S p) = Some t2 -> length vp = t_tgt t2) -> length vp = t_src t_t ->
    exists ts', update_trans o ts p vp vq t_s t_t = Some ts'.
  Proof.
    intros H1 Hs H2 Ht. unfold update_trans.
    match goal with |- context [obind ?X _] =>
      assert (E1 : exists ts1, X = Some ts1 /\ ts1 (S p) = ts (S p)) end.
    { destruct (ts p) as [t1|]; [|eauto].
      destruct (trans_step_some t1 vq t_s (H1 t1 eq_refl) Hs) as [t1'' E].
      destruct (t_append_perm o t1 vq) as [t1'|]; [|discriminate]. cbn [obind] in *. rewrite E. cbn [obind].
      eexists. split; [reflexivity|]. apply fupd_neq. lia. }
    destruct E1 as (ts1 & -> & E2). cbn [obind]. rewrite E2.
    destruct (ts (S p)) as [t2|]; [|eauto].
    destruct (trans_step_some t2 vp t_t (H2 t2 eq_refl) Ht) as [t2'' E].
    destruct (t_append_perm o t2 vp) as [t2'|]; [|discriminate]. cbn [obind] in *. rewrite E. cbn [obind]. eauto.
  Qed.

  Lemma schur_t_some m n r sc :
    dr (sc_ainvb sc) = r -> dc (sc_ainvb sc) = n - r -> dr (sc_cainv sc) = m - r -> dc (sc_cainv sc) = r ->
    r <= m -> r <= n ->
    exists t_s t_t, schur_t_src o n r sc = Some t_s /\ t_src t_s = n /\
                    schur_t_tgt o m r sc = Some t_t /\ t_src t_t = m.
  Proof.
    intros H1 H2 H3 H4 Hm Hn. unfold schur_t_src, schur_t_tgt, t_new. shapes. rewrite H1, H2, H3, H4.
    rewrite (Nat.eqb_refl (n - r)), (Nat.eqb_refl (m - r)), (proj2 (Nat.eqb_eq n (r + (n - r)))) by lia.
    rewrite (proj2 (Nat.eqb_eq (r + (m - r)) m)) by lia. cbn [andb].
    eexists _, _. repeat split. cbn [t_src]. lia.
  Qed.
End Specs.

Section Invariant.
  Context {R : Type} (o : ring_ops R) (L : ring_laws o) (u : unit_ops R) (UL : unit_laws o u).
  Local Notation dmat := (dmat R).
  Local Notation dwf := (@dwf R).
  Local Notation state := (state R).

  (* ghost data: current ranks, accumulated forward / backward maps (p <= M), homotopies (p < M) *)
  Record ghost := mkG { gn : nat -> nat; gF : nat -> dmat; gB : nat -> dmat; gH : nat -> dmat }.

  (* the original complex: M differentials D_p : C_p -> C_{p+1} (p < M), ranks N_p (p <= M),
     tracked vectors V0_p *)
  Context (M : nat) (N : nat -> nat) (D : nat -> dmat) (V0 : nat -> list (list R)).
  Context (HD : forall p, p < M -> dwf (D p) /\ dr (D p) = N (S p) /\ dc (D p) = N p).

  Definition Hlo (g : ghost) (p : nat) : dmat :=
    match p with O => dzero o (N 0) (N 0) | S q => dmul o (D q) (gH g q) end.
  Definition Hhi (g : ghost) (p : nat) : dmat :=
    if p <? M then dmul o (gH g p) (D p) else dzero o (N p) (N p).

  Record Inv (st : state) (g : ghost) : Prop := mkInv {
    inv_mats : forall p, p < M -> exists d, mats st p = Some d /\ dwf d /\ dr d = gn g (S p) /\ dc d = gn g p;
    inv_none : forall p, M <= p -> mats st p = None;
    inv_cpx : forall p d0 d1, mats st p = Some d0 -> mats st (S p) = Some d1 ->
              dmul o d1 d0 = dzero o (dr d1) (dc d0);
    inv_F : forall p, p <= M -> dwf (gF g p) /\ dr (gF g p) = gn g p /\ dc (gF g p) = N p;
    inv_B : forall p, p <= M -> dwf (gB g p) /\ dr (gB g p) = N p /\ dc (gB g p) = gn g p;
    inv_FB : forall p, p <= M -> dmul o (gF g p) (gB g p) = did o (gn g p);
    inv_Fc : forall p d, mats st p = Some d -> dmul o (gF g (S p)) (D p) = dmul o d (gF g p);
    inv_Bc : forall p d, mats st p = Some d -> dmul o (D p) (gB g p) = dmul o (gB g (S p)) d;
    inv_H : forall p, p < M -> dwf (gH g p) /\ dr (gH g p) = N p /\ dc (gH g p) = N (S p);
    inv_hom : forall p, p <= M ->
              dadd o (dmul o (gB g p) (gF g p)) (dadd o (Hlo g p) (Hhi g p)) = did o (N p);
    inv_trs : forall p t, trs st p = Some t -> p < M /\ t = mkT (N p) (gn g p) (gF g p) (gB g p);
    inv_vcs : forall p, p <= M ->
              Forall2 (fun v v0 => length v = gn g p /\ vmat o v = dmul o (gF g p) (vmat o v0)) (vcs st p) (V0 p)
  }.

  Lemma Forall2_compose {A B C} (P : A -> C -> Prop) (Q : A -> B -> Prop) (P' : B -> C -> Prop) l l1 l0 :
    (forall x y z, Q x y -> P x z -> P' y z) -> Forall2 Q l l1 -> Forall2 P l l0 -> Forall2 P' l1 l0.
  Proof.
    intros H HQ. revert l0. induction HQ as [|x y l l1 Hxy HQ IH]; intros l0 HP; inversion HP; subst.
    - constructor.
    - constructor; [eapply H; eassumption|]. now apply IH.
  Qed.

  Lemma Hhi_lt g p : p < M -> Hhi g p = dmul o (gH g p) (D p).
  Proof. intros H. unfold Hhi. now rewrite (proj2 (Nat.ltb_lt p M) H). Qed.

  Lemma Hlo_shape st g (I : Inv st g) p : p <= M -> dr (Hlo g p) = N p /\ dc (Hlo g p) = N p.
  Proof.
    intros Hp. destruct p as [|q]; cbn [Hlo]; shapes; [now split|].
    split; [now destruct (HD q Hp) as (_ & ? & _)|now destruct (inv_H st g I q Hp) as (_ & _ & ?)].
  Qed.

  Lemma Hhi_shape st g (I : Inv st g) p : dr (Hhi g p) = N p /\ dc (Hhi g p) = N p.
  Proof.
    unfold Hhi. destruct (Nat.ltb_spec p M) as [H|H]; shapes; [|now split].
    split; [now destruct (inv_H st g I p H) as (_ & ? & _)|now destruct (HD p H) as (_ & _ & ?)].
  Qed.

  Lemma inv_mat_at st g (I : Inv st g) p d : mats st p = Some d ->
    p < M /\ dwf d /\ dr d = gn g (S p) /\ dc d = gn g p.
  Proof.
    intros E. pose proof (some_below _ _ (inv_none st g I) p d E) as Hp.
    destruct (inv_mats st g I p Hp) as (d' & Ed & H). rewrite E in Ed. injection Ed as <-. auto.
  Qed.

  Section StepInv.
    Context (st : state) (g : ghost) (I : Inv st g).
    Context (p : nat) (a1 : dmat) (Ha : mats st p = Some a1).
    Context (vp vq : list nat) (r : nat) (t : ttype) (sc : schur R).
    Local Notation m := (dr a1).
    Local Notation n := (dc a1).
    Context (Hvp : is_perm m vp) (Hvq : is_perm n vq)
            (Htri : tri_ok o t (dblock o (permute o a1 vp vq) 0 0 r r) r)
            (Hsc : schur_of o u t (permute o a1 vp vq) r = Some sc).
    Context (ms : nat -> option dmat) (Ems : update_mats o (mats st) p vp vq r (sc_s sc) = Some ms).
    Context (ts : nat -> option (trans R))
            (Hts : (trs st p = None /\ trs st (S p) = None /\ ts = trs st) \/
                   (exists t_s t_t, schur_t_src o n r sc = Some t_s /\ schur_t_tgt o m r sc = Some t_t /\
                                    update_trans o (trs st) p vp vq t_s t_t = Some ts)).
    Context (vs : nat -> list (list R)) (Evs : update_vecs o (vcs st) p vp vq r sc = Some vs).

    Local Notation f1 := (step_f1 o n r vq).
    Local Notation b1 := (step_b1 o n r vq sc).
    Local Notation f2 := (step_f2 o m r vp sc).
    Local Notation b2 := (step_b2 o m r vp).
    Local Notation h := (step_h o m n r vp vq sc).
    Local Notation s := (sc_s sc).

    Definition g' : ghost :=
      mkG (fupd (fupd (gn g) p (n - r)) (S p) (m - r))
          (fupd (fupd (gF g) p (dmul o f1 (gF g p))) (S p) (dmul o f2 (gF g (S p))))
          (fupd (fupd (gB g) p (dmul o (gB g p) b1)) (S p) (dmul o (gB g (S p)) b2))
          (fupd (gH g) p (dadd o (gH g p) (dmul o (gB g p) (dmul o h (gF g (S p)))))).

    Lemma pM : p < M.
    Proof. exact (proj1 (inv_mat_at st g I p a1 Ha)). Qed.

    Lemma pM_le : p <= M.
    Proof. exact (Nat.lt_le_incl _ _ pM). Qed.

    Lemma a1_facts : dwf a1 /\ m = gn g (S p) /\ n = gn g p.
    Proof. exact (proj2 (inv_mat_at st g I p a1 Ha)). Qed.

    Lemma SD : 
      dr f1 = n - r /\ dc f1 = n /\ dr b1 = n /\ dc b1 = n - r /\
      dr f2 = m - r /\ dc f2 = m /\ dr b2 = m /\ dc b2 = m - r /\
      dr h = n /\ dc h = m /\ dr s = m - r /\ dc s = n - r /\ dwf s /\ r <= m /\ r <= n.
    Proof.
      eapply (step_dims o L u UL a1 m n r vp vq t sc); stp.
    Qed.

    Lemma S_fc : dmul o f2 a1 = dmul o s f1.
    Proof. eapply (step_f_chain o L u UL a1 m n r vp vq t sc); stp. Qed.
    Lemma S_bc : dmul o a1 b1 = dmul o b2 s.
    Proof. eapply (step_b_chain o L u UL a1 m n r vp vq t sc); stp. Qed.
    Lemma S_fb1 : dmul o f1 b1 = did o (n - r).
    Proof. eapply (step_fb_src o L u UL a1 m n r vp vq t sc); stp. Qed.
    Lemma S_fb2 : dmul o f2 b2 = did o (m - r).
    Proof. eapply (step_fb_tgt o L u UL a1 m n r vp vq t sc); stp. Qed.
    Lemma S_h1 : dadd o (dmul o b1 f1) (dmul o h a1) = did o n.
    Proof. eapply (step_homotopy_src o L u UL a1 m n r vp vq t sc); stp. Qed.
    Lemma S_h2 : dadd o (dmul o b2 f2) (dmul o a1 h) = did o m.
    Proof. eapply (step_homotopy_tgt o L u UL a1 m n r vp vq t sc); stp. Qed.

    Lemma gn'_p : gn g' p = n - r. Proof. cbn [g' gn]. rewrite fupd_neq by lia. apply fupd_eq. Qed.
    Lemma gn'_Sp : gn g' (S p) = m - r. Proof. cbn [g' gn]. apply fupd_eq. Qed.
    Lemma gn'_other q : q <> p -> q <> S p -> gn g' q = gn g q.
    Proof. intros. cbn [g' gn]. now rewrite !fupd_neq. Qed.
    Lemma gF'_p : gF g' p = dmul o f1 (gF g p). Proof. cbn [g' gF]. rewrite fupd_neq by lia. apply fupd_eq. Qed.
    Lemma gF'_Sp : gF g' (S p) = dmul o f2 (gF g (S p)). Proof. cbn [g' gF]. apply fupd_eq. Qed.
    Lemma gF'_other q : q <> p -> q <> S p -> gF g' q = gF g q.
    Proof. intros. cbn [g' gF]. now rewrite !fupd_neq. Qed.
    Lemma gB'_p : gB g' p = dmul o (gB g p) b1. Proof. cbn [g' gB]. rewrite fupd_neq by lia. apply fupd_eq. Qed.
    Lemma gB'_Sp : gB g' (S p) = dmul o (gB g (S p)) b2. Proof. cbn [g' gB]. apply fupd_eq. Qed.
    Lemma gB'_other q : q <> p -> q <> S p -> gB g' q = gB g q.
    Proof. intros. cbn [g' gB]. now rewrite !fupd_neq. Qed.
    Lemma gH'_p : gH g' p = dadd o (gH g p) (dmul o (gB g p) (dmul o h (gF g (S p)))).
    Proof. cbn [g' gH]. apply fupd_eq. Qed.
    Lemma gH'_other q : q <> p -> gH g' q = gH g q.
    Proof. intros. cbn [g' gH]. now rewrite fupd_neq. Qed.

    Lemma ms_p : ms p = Some s.
    Proof. now destruct (update_mats_spec o _ _ _ _ _ _ _ Ems) as (H & _). Qed.

    Lemma ms_other q : q <> p -> S q <> p -> q <> S p -> ms q = mats st q.
    Proof. destruct (update_mats_spec o _ _ _ _ _ _ _ Ems) as (_ & H & _). apply H. Qed.

    Lemma ms_prev p0 : p = S p0 ->
      exists a0, mats st p0 = Some a0 /\ dwf a0 /\ dr a0 = n /\ dc a0 = gn g p0 /\
                 dmul o a1 a0 = dzero o m (dc a0) /\ ms p0 = Some (reduce_mat_rows o a0 vq r).
    Proof.
      intros Hp0. destruct (update_mats_spec o _ _ _ _ _ _ _ Ems) as (_ & _ & H & _).
      specialize (H p0 Hp0). pose proof pM as HpM.
      destruct (inv_mats st g I p0 ltac:(lia)) as (a0 & Ea0 & W0 & Hr0 & Hc0).
      rewrite Ea0 in H. destruct H as [Hd H]. exists a0. splits; try assumption.
      - destruct a1_facts as (_ & _ & Hn). rewrite Hn, Hr0. now subst p.
      - apply (inv_cpx st g I p0 a0 a1 Ea0). now rewrite <- Hp0.
    Qed.

    Lemma ms_next_some : S p < M ->
      exists a2, mats st (S p) = Some a2 /\ dwf a2 /\ dc a2 = m /\ dr a2 = gn g (S (S p)) /\
                 dmul o a2 a1 = dzero o (dr a2) n /\ ms (S p) = Some (reduce_mat_cols o a2 vp r).
    Proof.
      intros HS. destruct (update_mats_spec o _ _ _ _ _ _ _ Ems) as (_ & _ & _ & H).
      destruct (inv_mats st g I (S p) HS) as (a2 & Ea2 & W2 & Hr2 & Hc2).
      rewrite Ea2 in H. destruct H as [Hd H]. exists a2. splits; try assumption.
      - destruct a1_facts as (_ & Hm & _). now rewrite Hm.
      - apply (inv_cpx st g I p a1 a2 Ha Ea2).
    Qed.

    Lemma S_a0 a0 : dwf a0 -> dr a0 = n -> dmul o a1 a0 = dzero o m (dc a0) ->
      dmul o f1 a0 = reduce_mat_rows o a0 vq r /\
      dmul o b1 (reduce_mat_rows o a0 vq r) = a0 /\
      dmul o s (reduce_mat_rows o a0 vq r) = dzero o (m - r) (dc a0).
    Proof.
      intros W0 H0 H10. split; [|split].
      - eapply (step_a0_f o L u UL a1 m n r vp vq t sc); stp.
      - eapply (step_a0_b o L u UL a1 m n r vp vq t sc); stp.
      - eapply (step_complex_src o L u UL a1 m n r vp vq t sc); stp.
    Qed.

    Lemma S_a2 a2 : dwf a2 -> dc a2 = m -> dmul o a2 a1 = dzero o (dr a2) n ->
      dmul o (reduce_mat_cols o a2 vp r) f2 = a2 /\
      dmul o a2 b2 = reduce_mat_cols o a2 vp r /\
      dmul o (reduce_mat_cols o a2 vp r) s = dzero o (dr a2) (n - r).
    Proof.
      intros W2 H2 H21. split; [|split].
      - eapply (step_a2_f o L u UL a1 m n r vp vq t sc); stp.
      - eapply (step_a2_b o L u UL a1 m n r vp vq t sc); stp.
      - eapply (step_complex_tgt o L u UL a1 m n r vp vq t sc); stp.
    Qed.

    (* the position q against the step's position p: q = p, S q = p, q = S p, or none of them *)
    Ltac cases q :=
      destruct (Nat.eq_dec q p) as [?Hqp|?Hqp];
      [|destruct (Nat.eq_dec (S q) p) as [?Hqp0|?Hqp0];
        [|destruct (Nat.eq_dec q (S p)) as [?HqS|?HqS]]].

    Lemma new_mats q : q < M ->
      exists d, ms q = Some d /\ dwf d /\ dr d = gn g' (S q) /\ dc d = gn g' q.
    Proof.
      intros Hq. destruct SD as (_ & _ & _ & _ & _ & _ & _ & _ & _ & _ & Hsr & Hsc' & Ws & _).
      destruct a1_facts as (W1 & Hm & Hn).
      cases q.
      - subst q. exists s. rewrite gn'_Sp, gn'_p. now splits; try apply ms_p.
      - destruct (ms_prev q (eq_sym Hqp0)) as (a0 & Ea0 & W0 & Hr0 & Hc0 & _ & Hms).
        exists (reduce_mat_rows o a0 vq r). destruct (far_below _ _ Hqp0) as [Hq1 Hq2]. rewrite Hqp0, gn'_p, (gn'_other q) by assumption.
        splits; [exact Hms|dwfs| |]; dims; congruence.
      - subst q. destruct (ms_next_some Hq) as (a2 & Ea2 & W2 & Hc2 & Hr2 & _ & Hms).
        exists (reduce_mat_cols o a2 vp r). destruct (far_above p) as [Hq1 Hq2]. rewrite gn'_Sp, (gn'_other (S (S p))) by assumption.
        splits; [exact Hms|dwfs| |]; dims; congruence.
      - destruct (inv_mats st g I q Hq) as (d & Ed & Wd & Hr & Hc).
        exists d. destruct (far_succ _ _ Hqp Hqp0) as [Hq1 Hq2]. rewrite (gn'_other (S q)), (gn'_other q) by assumption. rewrite ms_other by assumption. auto.
    Qed.

    Lemma new_none q : M <= q -> ms q = None.
    Proof.
      intros Hq. pose proof pM. destruct (Nat.eq_dec q (S p)) as [->|Hne].
      - destruct (update_mats_spec o _ _ _ _ _ _ _ Ems) as (_ & _ & _ & Hn).
        now rewrite (inv_none st g I (S p) Hq) in Hn.
      - rewrite ms_other by lia. now apply (inv_none st g I).
    Qed.

    Lemma new_cpx q d0 d1 : ms q = Some d0 -> ms (S q) = Some d1 -> dmul o d1 d0 = dzero o (dr d1) (dc d0).
    Proof.
      intros E0 E1. destruct SD as (_ & Hf1c & _ & _ & _ & _ & _ & _ & _ & _ & Hsr & Hsc' & _).
      pose proof (some_below _ _ new_none _ _ E1) as HqM.
      cases q.
      - (* q = p : s, then the reduced outgoing matrix *)
        subst q. rewrite ms_p in E0. injection E0 as <-.
        destruct (ms_next_some HqM) as (a2 & Ea2 & W2 & Hc2 & Hr2 & H21 & Hms).
        rewrite Hms in E1. injection E1 as <-.
        destruct (S_a2 a2 W2 Hc2 H21) as (_ & _ & H). rewrite H. shapes. now rewrite Hsc'.
      - (* S q = p : the reduced incoming matrix, then s *)
        destruct (ms_prev q (eq_sym Hqp0)) as (a0 & Ea0 & W0 & Hr0 & Hc0 & H10 & Hms).
        rewrite Hms in E0. injection E0 as <-. rewrite Hqp0, ms_p in E1. injection E1 as <-.
        destruct (S_a0 a0 W0 Hr0 H10) as (_ & _ & H). rewrite H. shapes. now rewrite Hsr.
      - (* q = S p : the reduced outgoing matrix, then the unchanged one above *)
        subst q. destruct (ms_next_some (Nat.lt_succ_l _ _ HqM)) as (a2 & Ea2 & W2 & Hc2 & Hr2 & H21 & Hms).
        rewrite Hms in E0. injection E0 as <-. rewrite ms_other in E1 by lia.
        destruct (S_a2 a2 W2 Hc2 H21) as (_ & H & _). rewrite <- H.
        rewrite <- (dmul_assoc o L) by (destruct (inv_mat_at st g I _ _ E1) as (_ & _ & _ & Hcd); congruence).
        rewrite (inv_cpx st g I (S p) a2 d1 Ea2 E1). rewrite (dmul_zero_l o L). now shapes.
      - destruct (Nat.eq_dec (S (S q)) p) as [Hpp|Hpp].
        + (* S (S q) = p : unchanged, then the reduced incoming matrix *)
          destruct (ms_prev (S q) (eq_sym Hpp)) as (a0 & Ea0 & W0 & Hr0 & Hc0 & H10 & Hms).
          rewrite Hms in E1. injection E1 as <-. rewrite ms_other in E0 by lia.
          destruct (S_a0 a0 W0 Hr0 H10) as (H & _ & _). rewrite <- H.
          rewrite (dmul_assoc o L) by congruence.
          rewrite (inv_cpx st g I q d0 a0 E0 Ea0). rewrite (dmul_zero_r o L). now shapes.
        + rewrite ms_other in E0, E1 by lia. now apply (inv_cpx st g I q).
    Qed.

    Lemma new_F q : q <= M -> dwf (gF g' q) /\ dr (gF g' q) = gn g' q /\ dc (gF g' q) = N q.
    Proof.
      intros Hq. destruct SD as (Hf1r & Hf1c & Hb1r & Hb1c & Hf2r & Hf2c & Hb2r & Hb2c & _).
      pose proof pM.
      destruct (Nat.eq_dec q p) as [->|Hqp]; [|destruct (Nat.eq_dec q (S p)) as [->|HqS]].
      - rewrite gF'_p, gn'_p. destruct (inv_F st g I p Hq) as (W & Hr & Hc). splits; [dwfs| |]; dims; congruence.
      - rewrite gF'_Sp, gn'_Sp. destruct (inv_F st g I (S p) Hq) as (W & Hr & Hc). splits; [dwfs| |]; dims; congruence.
      - rewrite gF'_other, gn'_other by assumption. now apply (inv_F st g I).
    Qed.

    Lemma new_B q : q <= M -> dwf (gB g' q) /\ dr (gB g' q) = N q /\ dc (gB g' q) = gn g' q.
    Proof.
      intros Hq. destruct SD as (Hf1r & Hf1c & Hb1r & Hb1c & Hf2r & Hf2c & Hb2r & Hb2c & _).
      pose proof pM.
      destruct (Nat.eq_dec q p) as [->|Hqp]; [|destruct (Nat.eq_dec q (S p)) as [->|HqS]].
      - rewrite gB'_p, gn'_p. destruct (inv_B st g I p Hq) as (W & Hr & Hc). splits; [dwfs| |]; dims; congruence.
      - rewrite gB'_Sp, gn'_Sp. destruct (inv_B st g I (S p) Hq) as (W & Hr & Hc). splits; [dwfs| |]; dims; congruence.
      - rewrite gB'_other, gn'_other by assumption. now apply (inv_B st g I).
    Qed.

    Lemma new_FB q : q <= M -> dmul o (gF g' q) (gB g' q) = did o (gn g' q).
    Proof.
      intros Hq. destruct SD as (Hf1r & Hf1c & Hb1r & Hb1c & Hf2r & Hf2c & Hb2r & Hb2c & _).
      destruct a1_facts as (W1 & Hm & Hn). pose proof pM.
      destruct (Nat.eq_dec q p) as [->|Hqp]; [|destruct (Nat.eq_dec q (S p)) as [->|HqS]].
      - rewrite gF'_p, gB'_p, gn'_p.
        destruct (inv_F st g I p Hq) as (WF & HFr & HFc). destruct (inv_B st g I p Hq) as (WB & HBr & HBc).
        rewrite (dmul_assoc o L), <- (dmul_assoc o L (gF g p)), (inv_FB st g I p Hq), (dmul_id_l o L)
          by first [congruence | unfold step_b1; dwfs].
        exact S_fb1.
      - rewrite gF'_Sp, gB'_Sp, gn'_Sp.
        destruct (inv_F st g I (S p) Hq) as (WF & HFr & HFc). destruct (inv_B st g I (S p) Hq) as (WB & HBr & HBc).
        rewrite (dmul_assoc o L), <- (dmul_assoc o L (gF g (S p))), (inv_FB st g I (S p) Hq), (dmul_id_l o L)
          by first [congruence | unfold step_b2; dwfs].
        exact S_fb2.
      - rewrite gF'_other, gB'_other, gn'_other by assumption. now apply (inv_FB st g I).
    Qed.

    Lemma new_Fc q d : ms q = Some d -> dmul o (gF g' (S q)) (D q) = dmul o d (gF g' q).
    Proof.
      intros E. destruct SD as (Hf1r & Hf1c & Hb1r & Hb1c & Hf2r & Hf2c & Hb2r & Hb2c & _ & _ & Hsr & Hsc' & Ws & _).
      destruct a1_facts as (W1 & Hm & Hn). pose proof pM as HpM.
      pose proof (some_below _ _ new_none _ _ E) as HqM.
      destruct (HD q HqM) as (WD & HDr & HDc).
      cases q.
      - subst q. rewrite ms_p in E. injection E as <-. rewrite gF'_Sp, gF'_p.
        destruct (inv_F st g I p pM_le) as (WF1 & HF1r & HF1c).
        destruct (inv_F st g I (S p) pM) as (WF2 & HF2r & HF2c).
        rewrite (dmul_assoc o L), (inv_Fc st g I p a1 Ha), <- (dmul_assoc o L), S_fc by congruence.
        now rewrite (dmul_assoc o L) by congruence.
      - destruct (ms_prev q (eq_sym Hqp0)) as (a0 & Ea0 & W0 & Hr0 & Hc0 & H10 & Hms).
        rewrite Hms in E. injection E as <-. destruct (far_below _ _ Hqp0) as [Hq1 Hq2]. rewrite Hqp0, gF'_p, (gF'_other q) by assumption.
        destruct (inv_F st g I p pM_le) as (WF1 & HF1r & HF1c).
        destruct (inv_F st g I q (Nat.lt_le_incl _ _ HqM)) as (WF0 & HF0r & HF0c).
        destruct (S_a0 a0 W0 Hr0 H10) as (H & _ & _).
        pose proof (inv_Fc st g I q a0 Ea0) as EF. rewrite Hqp0 in EF.
        now rewrite (dmul_assoc o L), EF, <- (dmul_assoc o L), H by congruence.
      - subst q. destruct (ms_next_some HqM) as (a2 & Ea2 & W2 & Hc2 & Hr2 & H21 & Hms).
        rewrite Hms in E. injection E as <-. destruct (far_above p) as [Hq1 Hq2]. rewrite gF'_Sp, (gF'_other (S (S p))) by assumption.
        destruct (inv_F st g I (S p) pM) as (WF2 & HF2r & HF2c).
        destruct (S_a2 a2 W2 Hc2 H21) as (H & _ & _).
        rewrite <- (dmul_assoc o L), H by (dims; congruence). exact (inv_Fc st g I (S p) a2 Ea2).
      - rewrite ms_other in E by assumption. destruct (far_succ _ _ Hqp Hqp0) as [Hq1 Hq2]. rewrite (gF'_other (S q)), (gF'_other q) by assumption.
        exact (inv_Fc st g I q d E).
    Qed.

    Lemma new_Bc q d : ms q = Some d -> dmul o (D q) (gB g' q) = dmul o (gB g' (S q)) d.
    Proof.
      intros E. destruct SD as (Hf1r & Hf1c & Hb1r & Hb1c & Hf2r & Hf2c & Hb2r & Hb2c & _ & _ & Hsr & Hsc' & Ws & _).
      destruct a1_facts as (W1 & Hm & Hn). pose proof pM as HpM.
      pose proof (some_below _ _ new_none _ _ E) as HqM.
      destruct (HD q HqM) as (WD & HDr & HDc).
      cases q.
      - subst q. rewrite ms_p in E. injection E as <-. rewrite gB'_Sp, gB'_p.
        destruct (inv_B st g I p pM_le) as (WB1 & HB1r & HB1c).
        destruct (inv_B st g I (S p) pM) as (WB2 & HB2r & HB2c).
        rewrite <- (dmul_assoc o L), (inv_Bc st g I p a1 Ha), (dmul_assoc o L), S_bc by congruence.
        now rewrite <- (dmul_assoc o L) by congruence.
      - destruct (ms_prev q (eq_sym Hqp0)) as (a0 & Ea0 & W0 & Hr0 & Hc0 & H10 & Hms).
        rewrite Hms in E. injection E as <-. destruct (far_below _ _ Hqp0) as [Hq1 Hq2]. rewrite Hqp0, gB'_p, (gB'_other q) by assumption.
        destruct (inv_B st g I p pM_le) as (WB1 & HB1r & HB1c).
        destruct (S_a0 a0 W0 Hr0 H10) as (_ & H & _).
        rewrite (dmul_assoc o L), H by (dims; congruence). rewrite <- Hqp0. exact (inv_Bc st g I q a0 Ea0).
      - subst q. destruct (ms_next_some HqM) as (a2 & Ea2 & W2 & Hc2 & Hr2 & H21 & Hms).
        rewrite Hms in E. injection E as <-. destruct (far_above p) as [Hq1 Hq2]. rewrite gB'_Sp, (gB'_other (S (S p))) by assumption.
        destruct (inv_B st g I (S p) pM) as (WB2 & HB2r & HB2c).
        destruct (inv_B st g I (S (S p)) HqM) as (WB3 & HB3r & HB3c).
        destruct (S_a2 a2 W2 Hc2 H21) as (_ & H & _).
        now rewrite <- (dmul_assoc o L), (inv_Bc st g I (S p) a2 Ea2), (dmul_assoc o L), H by congruence.
      - rewrite ms_other in E by assumption. destruct (far_succ _ _ Hqp Hqp0) as [Hq1 Hq2]. rewrite (gB'_other (S q)), (gB'_other q) by assumption.
        exact (inv_Bc st g I q d E).
    Qed.

    Lemma new_H q : q < M -> dwf (gH g' q) /\ dr (gH g' q) = N q /\ dc (gH g' q) = N (S q).
    Proof.
      intros Hq. destruct (Nat.eq_dec q p) as [->|Hqp].
      - rewrite gH'_p. destruct (inv_H st g I p Hq) as (W & Hr & Hc). splits; [dwfs| |]; shapes; assumption.
      - rewrite gH'_other by assumption. now apply (inv_H st g I).
    Qed.

    Lemma Hlo'_not_Sp q : q <> S p -> Hlo g' q = Hlo g q.
    Proof.
      intros Hq. destruct q as [|q0]; [reflexivity|]. cbn [Hlo]. rewrite gH'_other by lia. reflexivity.
    Qed.
    Lemma Hhi'_not_p q : q <> p -> Hhi g' q = Hhi g q.
    Proof. intros Hq. unfold Hhi. now rewrite gH'_other. Qed.

    Lemma new_hom q : q <= M ->
      dadd o (dmul o (gB g' q) (gF g' q)) (dadd o (Hlo g' q) (Hhi g' q)) = did o (N q).
    Proof.
      intros Hq. destruct SD as (Hf1r & Hf1c & Hb1r & Hb1c & Hf2r & Hf2c & Hb2r & Hb2c & Hhr & Hhc & _).
      destruct a1_facts as (W1 & Hm & Hn). pose proof pM as HpM.
      destruct (HD p HpM) as (WD & HDr & HDc).
      destruct (inv_F st g I p pM_le) as (WF1 & HF1r & HF1c).
      destruct (inv_F st g I (S p) pM) as (WF2 & HF2r & HF2c).
      destruct (inv_B st g I p pM_le) as (WB1 & HB1r & HB1c).
      destruct (inv_B st g I (S p) pM) as (WB2 & HB2r & HB2c).
      destruct (inv_H st g I p HpM) as (WH & HHr & HHc).
      destruct (Nat.eq_dec q p) as [->|Hqp]; [|destruct (Nat.eq_dec q (S p)) as [->|HqS]].
      - rewrite gB'_p, gF'_p, (Hlo'_not_Sp p (Nat.neq_succ_diag_r p)), (Hhi_lt g' p HpM), gH'_p.
        destruct (Hlo_shape st g I p pM_le) as (HLr & HLc).
        rewrite (comp_hom_src o L (gB g p) (gF g p) (gF g (S p)) (D p) (gH g p) (Hlo g p) a1 b1 f1 h (N p) n);
          try congruence.
        + rewrite <- (Hhi_lt g p HpM). exact (inv_hom st g I p pM_le).
        + exact (inv_Fc st g I p a1 Ha).
        + exact S_h1.
      - rewrite gB'_Sp, gF'_Sp, (Hhi'_not_p (S p) (Nat.neq_succ_diag_l p)). cbn [Hlo]. rewrite gH'_p.
        destruct (Hhi_shape st g I (S p)) as (HUr & HUc).
        rewrite (comp_hom_tgt o L (gB g p) (gB g (S p)) (gF g (S p)) (D p) (gH g p) (Hhi g (S p)) a1 b2 f2 h (N (S p)) m);
          try congruence.
        + exact (inv_hom st g I (S p) Hq).
        + exact (inv_Bc st g I p a1 Ha).
        + exact S_h2.
      - rewrite gB'_other, gF'_other, Hlo'_not_Sp, Hhi'_not_p by assumption. now apply (inv_hom st g I).
    Qed.

    Lemma t_src_facts t_s : schur_t_src o n r sc = Some t_s ->
      t_s = mkT n (n - r) (proj o n (n - r)) (dvcat o (dneg o (sc_ainvb sc)) (did o (n - r))).
    Proof.
      unfold schur_t_src, t_new. destruct (_ && _); [|discriminate]. intros [= <-].
      now shapes.
    Qed.
    Lemma t_tgt_facts t_t : schur_t_tgt o m r sc = Some t_t ->
      t_t = mkT m (m - r) (dhcat o (dneg o (sc_cainv sc)) (did o (m - r))) (incl o m (m - r)) /\
      dc (sc_cainv sc) + (m - r) = m.
    Proof.
      destruct a1_facts as (W1 & _ & _).
      destruct (sc_unfold o L u UL a1 m n r vp vq t sc eq_refl eq_refl Htri Hsc)
        as (Hrm & _ & _ & _ & _ & _ & Ec & _).
      unfold schur_t_tgt, t_new. destruct (_ && _); [|discriminate]. intros [= <-].
      rewrite Ec. shapes. split; [f_equal|]; lia.
    Qed.

    Lemma new_trs q t' : ts q = Some t' -> q < M /\ t' = mkT (N q) (gn g' q) (gF g' q) (gB g' q).
    Proof.
      intros E. pose proof pM as HpM.
      pose proof (perm_length m vp Hvp) as Lvp. pose proof (perm_length n vq Hvq) as Lvq.
      destruct Hts as [(E1 & E2 & ->)|(t_s & t_t & Es & Et & Eu)].
      - assert (q <> p) by (intros ->; congruence). assert (q <> S p) by (intros ->; congruence).
        rewrite gn'_other, gF'_other, gB'_other by assumption. now apply (inv_trs st g I).
      - apply t_src_facts in Es. apply t_tgt_facts in Et. destruct Et as (Et & Hcc).
        destruct (update_trans_spec o _ _ _ _ _ _ _ Eu) as (Ho & Hp1 & Hp2).
        destruct (Nat.eq_dec q p) as [->|Hqp]; [|destruct (Nat.eq_dec q (S p)) as [->|HqS]].
        + split; [exact HpM|]. destruct (trs st p) as [t1|] eqn:Et1; [|congruence].
          destruct Hp1 as (t1' & t1'' & Ea & Em & Ep). rewrite Ep in E. injection E as <-.
          destruct (inv_trs st g I p t1 Et1) as (_ & ->).
          destruct (trans_step_spec o _ _ _ _ _ Ea Em) as (_ & _ & ->).
          subst t_s. cbn [t_src t_tgt t_f t_b]. rewrite gn'_p, gF'_p, gB'_p. unfold step_f1, step_b1.
          destruct (inv_F st g I p pM_le) as (WF & HFr & HFc).
          destruct (inv_B st g I p pM_le) as (WB & HBr & HBc).
          f_equal.
          * rewrite (dmul_assoc o L) by (shapes; lia). reflexivity.
          * rewrite (dmul_assoc o L) by (shapes; destruct a1_facts as (_ & _ & ?); lia). reflexivity.
        + destruct (trs st (S p)) as [t2|] eqn:Et2; [|congruence].
          destruct Hp2 as (t2' & t2'' & Ea & Em & Ep). rewrite Ep in E. injection E as <-.
          destruct (inv_trs st g I (S p) t2 Et2) as (HS & ->). split; [exact HS|].
          destruct (trans_step_spec o _ _ _ _ _ Ea Em) as (_ & _ & ->).
          subst t_t. cbn [t_src t_tgt t_f t_b]. rewrite gn'_Sp, gF'_Sp, gB'_Sp. unfold step_f2, step_b2.
          destruct (inv_B st g I (S p) pM) as (WB & HBr & HBc).
          f_equal.
          * rewrite (dmul_assoc o L) by (shapes; lia). reflexivity.
          * rewrite (dmul_assoc o L) by (shapes; destruct a1_facts as (_ & ? & _); lia). reflexivity.
        + rewrite Ho in E by assumption.
          rewrite gn'_other, gF'_other, gB'_other by assumption. now apply (inv_trs st g I).
    Qed.

    Lemma new_vcs q : q <= M ->
      Forall2 (fun v v0 => length v = gn g' q /\ vmat o v = dmul o (gF g' q) (vmat o v0)) (vs q) (V0 q).
    Proof.
      intros Hq. pose proof pM as HpM. destruct a1_facts as (W1 & Hm & Hn).
      pose proof (perm_length m vp Hvp) as Lvp. pose proof (perm_length n vq Hvq) as Lvq.
      destruct (update_vecs_spec o _ _ _ _ _ _ _ Evs) as (Ho & H1 & H2). rewrite Lvq in H1. rewrite Lvp in H2.
      destruct (Nat.eq_dec q p) as [->|Hqp]; [|destruct (Nat.eq_dec q (S p)) as [->|HqS]].
      - eapply Forall2_compose; [|exact H1|exact (inv_vcs st g I p Hq)].
        intros v w v0 Hvw (Hl & Hv). cbn beta in *.
        assert (HS : length v = n /\ length w = n - r /\ vmat o w = dmul o f1 (vmat o v))
          by (eapply (step_vec_src o L u UL a1 m n r vp vq t sc); stp).
        destruct HS as (_ & Hlw & Hw).
        rewrite gn'_p, gF'_p. split; [exact Hlw|]. rewrite Hw, Hv.
        destruct (inv_F st g I p Hq) as (WF & HFr & HFc).
        rewrite (dmul_assoc o L); [reflexivity|]. unfold step_f1. shapes. lia.
      - eapply Forall2_compose; [|exact H2|exact (inv_vcs st g I (S p) Hq)].
        intros v w v0 Hvw (Hl & Hv). cbn beta in *.
        assert (HS : length v = m /\ length w = m - r /\ vmat o w = dmul o f2 (vmat o v))
          by (eapply (step_vec_tgt o L u UL a1 m n r vp vq t sc); stp).
        destruct HS as (_ & Hlw & Hw).
        rewrite gn'_Sp, gF'_Sp. split; [exact Hlw|]. rewrite Hw, Hv.
        destruct (inv_F st g I (S p) Hq) as (WF & HFr & HFc).
        rewrite (dmul_assoc o L); [reflexivity|]. unfold step_f2. shapes. lia.
      - rewrite Ho by assumption. rewrite gn'_other, gF'_other by assumption. now apply (inv_vcs st g I).
    Qed.

    Theorem step_inv okf' : Inv (mkSt ms ts vs okf') g'.
    Proof.
      constructor; cbn [mats trs vcs].
      - exact new_mats.
      - exact new_none.
      - exact new_cpx.
      - exact new_F.
      - exact new_B.
      - exact new_FB.
      - exact new_Fc.
      - exact new_Bc.
      - exact new_H.
      - exact new_hom.
      - exact new_trs.
      - exact new_vcs.
    Qed.
  End StepInv.
End Invariant.
