(* C05 (part): the evaluation of cobordisms with ring parameters in the v2 Khovanov engine,
   /repo/yui-khovanov/src/kh/internal/v2/cob.rs: CobComp::part_eval (inner recursive eval: neck cutting,
   XY = t, X^2 = hX + t, Y^2 = -hY + t, dotted sphere = 1, sphere = 0, default), CobComp::eval, Cob::eval,
   Cob::part_eval on cobordisms of closed components, CobComp::deg / euler_num / is_zero_cob / is_unit_cob /
   should_part_eval, and the delooping maps of tng_complex.rs.
   Model: Model/CobEval.v ([pe]: structural recursion, arm by arm; [pe_fuel]: literal transcription of the
   Rust match on fuel).  All statements are for ALL genera, dot numbers and parameters.

   Notation of the statements (Proofs/KhAlg.v, Proofs/CobEvalP.v):
     A = Z[X]/(X^2 - hX - t) with basis 1, X: pairs (a, b) = a + bX;  [mul h t] its product;
     [apow h t u n] = u^n in A;  X = (0,1);  Y = X - h = (-h,1);  handle element Hd = 2X - h = (-h,2);
     [eps (a, b) = b] the counit (eps 1 = 0, eps X = 1);  [a_add], [a_scal] the module operations.
   The correspondence run (harness/src/bin/c05.rs, kinds ce / co / cp) compares [eval_closed],
   [eval_closed_poly], [part_eval_open], [cob_eval], [cob_part_eval], [deg], ... with the library. *)
From Coq Require Import List Bool ZArith Permutation.
Require Import Yui.Model.KhCheck Yui.Model.CobEval Yui.Proofs.KhAlg Yui.Proofs.CobEvalP Yui.Proofs.CobEvalDeg.
Import ListNotations.
Open Scope Z_scope.


(* CobComp::eval of the closed component of genus g with x X-dots and y Y-dots is eps(Hd^g X^x Y^y) *)
Theorem C05_closed_eval : forall g x y h t,
  eval_closed g x y h t
  = eps (mul h t (apow h t (- h, 2) g) (mul h t (apow h t (0, 1) x) (apow h t (- h, 1) y))).
Proof. exact eval_closed_formula. Qed.
Print Assumptions C05_closed_eval.

(* termination: the literal transcription of the Rust match (same arms, same order) returns, and returns
   the value of the structural recursion, as soon as the fuel exceeds 2g + x + y *)
Theorem C05_closed_eval_terminates : forall fuel g x y h t, (2 * g + x + y < fuel)%nat ->
  eval_closed_fuel fuel g x y h t = Some (eval_closed g x y h t).
Proof. exact eval_closed_fuel_ok. Qed.
Print Assumptions C05_closed_eval_terminates.

(* CobComp::part_eval of a component with boundary: the coefficients (a, b, c) of the component with genus 0
   and dots (0,0), (1,0), (0,1) satisfy  a + bX + cY = Hd^g X^x Y^y  in A *)
Theorem C05_open_eval : forall g x y h t,
  (let '(a, b, c) := part_eval_open g x y h t in
   a_add (a_scal a (1, 0)) (a_add (a_scal b (0, 1)) (a_scal c (- h, 1))))
  = mul h t (apow h t (- h, 2) g) (mul h t (apow h t (0, 1) x) (apow h t (- h, 1) y)).
Proof.
  intros g x y h t. rewrite <- part_eval_open_formula, den3_spec.
  destruct (part_eval_open g x y h t) as [[a b] c]. reflexivity.
Qed.
Print Assumptions C05_open_eval.

Theorem C05_open_eval_terminates : forall fuel g x y h t, (2 * g + x + y < fuel)%nat ->
  part_eval_open_fuel fuel g x y h t = Some (part_eval_open g x y h t).
Proof. exact part_eval_open_fuel_ok. Qed.
Print Assumptions C05_open_eval_terminates.

(* capping off (sphere = 0, dotted sphere = 1) the open result gives the closed value *)
Theorem C05_closed_of_open : forall g x y h t,
  eval_closed g x y h t = (let '(a, b, c) := part_eval_open g x y h t in b + c).
Proof. exact eval_closed_of_open. Qed.
Print Assumptions C05_closed_of_open.

Theorem C05_sphere : forall h t, eval_closed 0 0 0 h t = 0.
Proof. exact eval_sphere. Qed.
Print Assumptions C05_sphere.
Theorem C05_dotted_sphere : forall h t, eval_closed 0 1 0 h t = 1 /\ eval_closed 0 0 1 h t = 1.
Proof. intros h t. split; [apply eval_dotted_sphere_X|apply eval_dotted_sphere_Y]. Qed.
Print Assumptions C05_dotted_sphere.
(* the torus evaluates to 2 for all h, t (in particular for h = t = 0) *)
Theorem C05_torus : forall h t, eval_closed 1 0 0 h t = 2.
Proof. exact eval_torus. Qed.
Print Assumptions C05_torus.
Theorem C05_genus3 : forall h t, eval_closed 3 0 0 h t = 2 * (h * h + 4 * t).
Proof. exact eval_genus3. Qed.
Print Assumptions C05_genus3.

(* two handles are the scalar Hd^2 = h^2 + 4t *)
Theorem C05_two_handles : forall g x y h t,
  eval_closed (S (S g)) x y h t = (h * h + 4 * t) * eval_closed g x y h t.
Proof. exact eval_closed_two_handles. Qed.
Print Assumptions C05_two_handles.
Theorem C05_odd_genus : forall k h t, eval_closed (2 * k + 1) 0 0 h t = 2 * zpow (h * h + 4 * t) k.
Proof. exact eval_closed_odd_genus. Qed.
Print Assumptions C05_odd_genus.

(* the shortcuts of the code are sound *)
(* is_zero_cob (closed, even genus, as many X as Y dots): the value is 0 *)
Theorem C05_zero_cob_sound : forall c h t, is_zero_cob c = true -> comp_eval h t c = 0.
Proof. exact zero_cob_eval. Qed.
Print Assumptions C05_zero_cob_sound.
(* is_unit_cob (sphere with exactly one dot): the value is 1 (Cob::cap_off removes such components) *)
Theorem C05_unit_cob_sound : forall c h t, is_unit_cob c = true -> comp_eval h t c = 1.
Proof. exact unit_cob_eval. Qed.
Print Assumptions C05_unit_cob_sound.
(* should_part_eval holds for every closed component ... *)
Theorem C05_should_part_eval_closed : forall c, should_part_eval c = true.
Proof. exact should_part_eval_closed. Qed.
Print Assumptions C05_should_part_eval_closed.
(* ... and where it fails (component with boundary) part_eval would return the component unchanged *)
Theorem C05_part_eval_noop : forall g x y h t, should_part_eval_gen false false g x y = false ->
  part_eval_open g x y h t
  = (if (x =? 1)%nat then (0, 1, 0) else if (y =? 1)%nat then (0, 0, 1) else (1, 0, 0))
  /\ (x + y <= 1)%nat /\ g = O.
Proof. exact part_eval_open_noop. Qed.
Print Assumptions C05_part_eval_noop.

Theorem C05_cob_eval_multiplicative : forall h t cs1 cs2,
  cob_eval h t (cs1 ++ cs2) = cob_eval h t cs1 * cob_eval h t cs2.
Proof. exact cob_eval_app. Qed.
Print Assumptions C05_cob_eval_multiplicative.
Theorem C05_cob_eval_single : forall h t c, cob_eval h t [c] = comp_eval h t c.
Proof. exact cob_eval_single. Qed.
Print Assumptions C05_cob_eval_single.
(* Cob::new sorts the components: irrelevant for the value *)
Theorem C05_cob_eval_perm : forall h t cs cs', Permutation cs cs' -> cob_eval h t cs = cob_eval h t cs'.
Proof. exact cob_eval_perm. Qed.
Print Assumptions C05_cob_eval_perm.
(* Cob::part_eval (early exits is_zero_cob / !should_part_eval, then the fold with combine) of a cobordism
   of closed components is Cob::eval times the empty cobordism *)
Theorem C05_cob_part_eval : forall h t cs, cob_part_eval h t cs = cob_eval h t cs.
Proof. exact cob_part_eval_eq. Qed.
Print Assumptions C05_cob_part_eval.

(* the evaluation over Z[H,T] specialises to the numeric one at every point *)
Theorem C05_closed_eval_poly_spec : forall g x y h t,
  p_eval h t (eval_closed_poly g x y) = eval_closed g x y h t.
Proof. exact eval_closed_poly_spec. Qed.
Print Assumptions C05_closed_eval_poly_spec.
(* with deg H = -2, deg T = -4 every monomial of the value has quantum degree CobComp::deg = 2 - 2g - 2(x+y) *)
Theorem C05_closed_eval_homogeneous : forall g x y e,
  In e (eval_closed_poly g x y) -> mono_qdeg (fst e) = deg (mk_ccomp g x y).
Proof. exact eval_closed_poly_homog. Qed.
Print Assumptions C05_closed_eval_homogeneous.
Theorem C05_deg_closed : forall c,
  deg c = 2 - 2 * Z.of_nat (cc_g c) - 2 * Z.of_nat (cc_x c) - 2 * Z.of_nat (cc_y c).
Proof. exact deg_closed. Qed.
Print Assumptions C05_deg_closed.
Theorem C05_cob_eval_poly_spec : forall h t cs, p_eval h t (cob_eval_poly cs) = cob_eval h t cs.
Proof. exact cob_eval_poly_spec. Qed.
Print Assumptions C05_cob_eval_poly_spec.
Theorem C05_cob_eval_homogeneous : forall cs e,
  In e (cob_eval_poly cs) -> mono_qdeg (fst e) = cob_deg cs.
Proof. exact cob_eval_poly_homog. Qed.
Print Assumptions C05_cob_eval_homogeneous.

(* delooping and neck cutting (tng_complex.rs: deloop_with; cob.rs: first arm of eval) *)
(* circle -> (X-copy, 1-copy): a |-> (eps a, eps (Y a));   back: (p, q) |-> pX + q;  both composites are identities *)
Theorem C05_deloop_from_to : forall h t a,
  (let p := eps a in let q := eps (mul h t (- h, 1) a) in a_add (a_scal p (0, 1)) (a_scal q (1, 0))) = a.
Proof. exact deloop_from_to. Qed.
Print Assumptions C05_deloop_from_to.
Theorem C05_deloop_to_from : forall h t p q,
  (let a := a_add (a_scal p (0, 1)) (a_scal q (1, 0)) in (eps a, eps (mul h t (- h, 1) a))) = (p, q).
Proof. intros h t p q. exact (deloop_to_from h t (p, q)). Qed.
Print Assumptions C05_deloop_to_from.
(* Delta(1) = X (x) 1 + 1 (x) Y, and the handle element m(Delta(1)) = 2X - h = X + Y *)
Theorem C05_neck_cutting : forall h t,
  comul h t (1, 0) = aa_add (basis2 true false) (aa_add (aa_scal (- h) (basis2 false false)) (basis2 false true)).
Proof. exact neck_cutting. Qed.
Print Assumptions C05_neck_cutting.
Theorem C05_handle : forall h t,
  (let '(p, q, r, s) := comul h t (1, 0) in
   a_add (a_add (a_scal p (1, 0)) (a_scal q (0, 1))) (a_add (a_scal r (0, 1)) (a_scal s (mul h t (0, 1) (0, 1)))))
  = (- h, 2).
Proof. exact handle_is_m_comul. Qed.
Print Assumptions C05_handle.

Example C05_cob_example_value : eval_closed 3 2 1 5 7 = 1855 /\ eval_closed_fuel 12 3 2 1 5 7 = Some 1855.
Proof. vm_compute. split; reflexivity. Qed.
Example C05_cob_example_poly :                      (* genus 3: 2 H^2 + 8 T, of degree -4 = deg *)
  eval_closed_poly 3 0 0 = [((0, 1)%nat, 8); ((2, 0)%nat, 2)] /\ deg (mk_ccomp 3 0 0) = -4.
Proof. vm_compute. split; reflexivity. Qed.
Example C05_cob_example_open : part_eval_open 1 1 0 5 7 = (14, 5, 0).     (* Hd X = 14 + 5 X  at h = 5, t = 7 *)
Proof. vm_compute. reflexivity. Qed.
Example C05_cob_example_product :
  cob_eval 5 7 [mk_ccomp 1 0 0; mk_ccomp 0 2 0; mk_ccomp 3 0 0] = 2 * 5 * 106
  /\ cob_part_eval 5 7 [mk_ccomp 1 0 0; mk_ccomp 2 1 1] = 0.
Proof. vm_compute. split; reflexivity. Qed.
