(* C18 - corollaries combining the component theorem with resolutions (circles of a full state), and the
   writhe as the difference of the sign counts ([writhe_def]). *)
From Coq Require Import List Arith Bool Lia ZArith.
Require Import Yui.Model.Link Yui.Proofs.C18Base Yui.Proofs.C18Traverse Yui.Proofs.C18Components
  Yui.Proofs.C18Resolve.
Import ListNotations.

(* a full resolution state of a valid code: a crossingless valid diagram; its components are circles,
   partition the labels, and their number is the number of classes of the edge identification *)
Theorem resolution_circles : forall l s, Valid l -> length s = crossing_num l ->
  exists l' cs, resolved_by l s = Some l' /\ crossing_num l' = 0 /\ edge_labels l' = edge_labels l /\
    Valid l' /\ components l' = Some cs /\
    Forall (fun c => pclosed c = true /\ pedges c <> []) cs /\
    NoDup (concat (map pedges cs)) /\
    (forall e, In e (concat (map pedges cs)) <-> In e (edge_labels l)) /\
    (forall c, In c cs -> forall e, In e (pedges c) -> forall e', In e' (pedges c) <-> conn l' e e') /\
    (forall reps, reps_of l' reps -> length cs = length reps).
Proof.
  intros l s Hv Hs. destruct (resolved_by_spec s l) as [A _].
  destruct (A ltac:(lia)) as (l' & E & EL & LN & CN).
  assert (Hv' : Valid l') by (eapply Valid_labels; eauto).
  destruct (components_valid l' Hv') as (cs & Ec & F & ND & Cov & Cl).
  exists l', cs. split; auto. split; [lia|]. split; auto. split; auto. split; auto.
  split. { rewrite Forall_forall in *. intros c Hc. destruct (F c Hc) as (? & ? & _). auto. }
  split; auto. split. { intros e. rewrite <- EL. apply Cov. }
  split; auto. intros reps Hr. eapply components_count; eauto.
Qed.

(* resolved_by panics exactly on a state longer than the number of unresolved crossings *)
Theorem resolved_by_defined : forall l s, resolved_by l s = None <-> crossing_num l < length s.
Proof.
  intros l s. destruct (resolved_by_spec s l) as [A B]. split; auto.
  intros E. destruct (le_lt_dec (length s) (crossing_num l)) as [H|H]; auto.
  destruct (A H) as (l' & E' & _). congruence.
Qed.

Lemma count_pos_neg_length : forall sg, count_pos sg + count_neg sg = length sg.
Proof. unfold count_pos, count_neg. induction sg as [|[] sg IH]; cbn; lia. Qed.

Theorem writhe_def : forall l,
  writhe l = option_map (fun sg => (Z.of_nat (count_pos sg) - Z.of_nat (count_neg sg))%Z) (crossing_signs l) /\
  (forall sg, crossing_signs l = Some sg -> length sg = crossing_num l /\
     signed_crossing_nums l = Some (count_pos sg, count_neg sg) /\ count_pos sg + count_neg sg = crossing_num l).
Proof.
  intros l. split.
  - unfold writhe, signed_crossing_nums. destruct (crossing_signs l); reflexivity.
  - intros sg E. assert (length sg = crossing_num l) as HL.
    { unfold crossing_signs in E.
      destruct (sign_loop l (starts_j l 0) [] (repeat None (length l))) as [[p s0]|]; [|discriminate].
      destruct (if unsigned_left l s0 then sign_loop l (starts_j l 1 ++ starts_j l 2) p s0 else Some (p, s0))
        as [[p' s']|]; [|discriminate].
      destruct (length (flatten_opt s') =? crossing_num l) eqn:Q; [|discriminate].
      inversion E; subst. apply Nat.eqb_eq; auto. }
    split; auto. split; [unfold signed_crossing_nums; rewrite E; reflexivity|].
    rewrite count_pos_neg_length. auto.
Qed.
