(* C14 - Scalar types are exact commutative rings with canonical representatives.
   Each theorem is proved by [exact <lemma>] and is followed by Print Assumptions; the Examples at the end
   instantiate the hypotheses on concrete values (non-vacuity).

   Models (mirrors of the code in /repo, a Rust panic = [None]):
     Model/Ints.v     i32 / i64 / i128 with overflow checks ([W b]) and BigInt ([Big])   int_ext.rs
     Model/Ratio.v    Ratio<T>: reduce, new, the branches of += -= *=, neg, inv, /=, abs, ==, cmp   ratio.rs
     Model/Fp.v       FF<p> over i32 (new = rem_euclid, the i32 operation first), inv through
                      num_integer's extended_gcd loop; FF2 = bool                         ff.rs, f2.rs
     Model/QuadInt.v  QuadInt<I, D>: componentwise + -, the product with its two shortcut branches
                      and the D = 1 / D = 2,3 (mod 4) formulas, conj, norm                qint.rs
   Reading guide:
     [Canon r]      := 0 < denom r /\ gcd (numer r) (denom r) = 1         (lowest terms, positive denominator)
     [rt_val r]     the rational number of r in Q (Coq standard library), [qfrac n d] = n/d in Q
     [InF p a]      := 0 <= a < p;   [SmallMod p] := 1 < p /\ (p-1)^2 < 2^31   (the moduli FF<p> is claimed for)
     [qsem u X]     := fst u + snd u * X   the polynomial a + b X of a quadratic integer (a, b)
     [ole]          (used inside the proofs) "whatever the machine type returns, BigInt returns too"
   Width [Big] statements say: the call returns, and returns the mathematical value.
   Width [w] statements say: IF the call returns (no overflow panic) the value is the mathematical
   value - a machine type never wraps silently (clauses C14_bounded_...). *)
From Coq Require Import ZArith QArith Qabs Bool List Znumtheory.
Require Import Yui.Base.Ring Yui.Model.Ints Yui.Model.Ratio Yui.Model.Fp Yui.Model.QuadInt.
Require Import Yui.Proofs.C14Ints Yui.Proofs.C14Ratio Yui.Proofs.C14RatioQ Yui.Proofs.C14Fp
               Yui.Proofs.C14Quad Yui.Proofs.C14Rings Yui.Proofs.C14Main.
Import ListNotations.
Open Scope Z_scope.

(* the ring operations of a machine type return the value over Z, and panic exactly when that
   value is not representable: no wrapping *)
Theorem C14_bounded_int : forall w a b,
  (forall v, iadd w a b = Some v -> v = a + b) /\
  (forall v, isub w a b = Some v -> v = a - b) /\
  (forall v, imul w a b = Some v -> v = a * b) /\
  (forall v, ineg w a = Some v -> v = - a) /\
  (iadd w a b = None <-> fitsb w (a + b) = false) /\
  (isub w a b = None <-> fitsb w (a - b) = false) /\
  (imul w a b = None <-> fitsb w (a * b) = false) /\
  (ineg w a = None <-> fitsb w (- a) = false).
Proof. exact int_ops_exact. Qed.
Print Assumptions C14_bounded_int.

Theorem C14_bounded_widths : forall x,
  (fitsb i32 x = true <-> -2147483648 <= x <= 2147483647) /\
  (fitsb i64 x = true <-> -9223372036854775808 <= x <= 9223372036854775807) /\
  (fitsb i128 x = true <->
     -170141183460469231731687303715884105728 <= x <= 170141183460469231731687303715884105727) /\
  fitsb Big x = true.
Proof. exact (fun x => conj (fitsb_i32 x) (conj (fitsb_i64 x) (conj (fitsb_i128 x) eq_refl))). Qed.
Print Assumptions C14_bounded_widths.

(* BigInt: the operations are the operations of Z *)
Theorem C14_int_big : forall a b,
  iadd Big a b = Some (a + b) /\ isub Big a b = Some (a - b) /\ imul Big a b = Some (a * b) /\
  ineg Big a = Some (- a).
Proof. exact int_ops_big. Qed.
Print Assumptions C14_int_big.

(* / % gcd lcm (Ratio uses / gcd lcm): truncated quotient, remainder, non-negative gcd, lcm *)
Theorem C14_bounded_int_euclid : forall w a b,
  (forall v, iquot w a b = Some v -> b <> 0 /\ v = Z.quot a b) /\
  (forall v, irem w a b = Some v -> b <> 0 /\ v = Z.rem a b) /\
  (forall v, igcd w a b = Some v -> v = Z.gcd a b) /\
  (forall v, ilcm w a b = Some v -> v = Z.abs (a * Z.quot b (Z.gcd a b))) /\
  (b <> 0 -> iquot Big a b = Some (Z.quot a b)) /\ igcd Big a b = Some (Z.gcd a b) /\
  ilcm Big a b = Some (Z.abs (a * Z.quot b (Z.gcd a b))).
Proof. exact int_euc_exact. Qed.
Print Assumptions C14_bounded_int_euclid.

Theorem C14_ring_laws_Z : ring_laws Z_ring.
Proof. exact Z_ring_laws. Qed.
Print Assumptions C14_ring_laws_Z.

(* operation by operation: on canonical operands every
   operation of Ratio<BigInt> returns (/= and inv: for a non-zero divisor), the result is
   canonical and its value in Q is the exact result *)
Theorem C14_ratio_exact :
  (forall n d, d <> 0 -> exists r, rt_new Big n d = Some r /\ Canon r /\ (rt_val r == qfrac n d)%Q) /\
  (forall a, Canon (rt_from_int a) /\ (rt_val (rt_from_int a) == inject_Z a)%Q) /\
  (forall x y, Canon x -> Canon y -> exists r, rt_add Big x y = Some r /\ Canon r /\ (rt_val r == rt_val x + rt_val y)%Q) /\
  (forall x y, Canon x -> Canon y -> exists r, rt_sub Big x y = Some r /\ Canon r /\ (rt_val r == rt_val x - rt_val y)%Q) /\
  (forall x y, Canon x -> Canon y -> exists r, rt_mul Big x y = Some r /\ Canon r /\ (rt_val r == rt_val x * rt_val y)%Q) /\
  (forall x, Canon x -> exists r, rt_neg Big x = Some r /\ Canon r /\ (rt_val r == - rt_val x)%Q) /\
  (forall x, Canon x -> numer x <> 0 -> exists r, rt_inv Big x = Some (Some r) /\ Canon r /\ (rt_val r == / rt_val x)%Q) /\
  (forall x y, Canon x -> Canon y -> numer y <> 0 ->
     exists r, rt_div Big x y = Some r /\ Canon r /\ (rt_val r == rt_val x / rt_val y)%Q) /\
  (forall x, Canon x -> exists r, rt_abs Big x = Some r /\ Canon r /\ (rt_val r == Qabs (rt_val x))%Q).
Proof.
  exact (conj new_exact (conj (fun a => conj (canon_from_int a) (val_from_int a)) (conj add_exact (conj sub_exact
    (conj mul_exact (conj neg_exact (conj inv_exact (conj div_exact abs_exact)))))))).
Qed.
Print Assumptions C14_ratio_exact.

(* the only rejected calls: zero denominator, zero divisor (at every width); inv of zero is None *)
Theorem C14_ratio_rejected :
  (forall w n, rt_new w n 0 = None) /\
  (forall w x y, numer y = 0 -> rt_div w x y = None) /\
  (forall w x, numer x = 0 -> rt_inv w x = Some None).
Proof. exact (conj new_zero_denom (conj div_zero inv_zero)). Qed.
Print Assumptions C14_ratio_rejected.

(* one step `x op= Ratio::new(n, d)`, `x = -x`, `x = x.inv().unwrap()` against the same step in Q:
   both are rejected, or both succeed with a canonical result of the exact value *)
Theorem C14_ratio_canonical : forall x o, Canon x ->
  match rt_step Big x o, q_step (rt_val x) o with
  | Some y, Some q => Canon y /\ (rt_val y == q)%Q
  | None, None => True
  | _, _ => False
  end.
Proof. exact step_exact. Qed.
Print Assumptions C14_ratio_canonical.

(* ... hence for every finite operation sequence from every canonical value (a rejected call
   leaves the value as it was): every reachable value is canonical and exact *)
Theorem C14_ratio_histories : forall ops x, Canon x ->
  Canon (fold_left (rt_run_step Big) ops x) /\
  (rt_val (fold_left (rt_run_step Big) ops x) == fold_left q_run_step ops (rt_val x))%Q.
Proof. exact (fun ops x Hx => history_exact ops x (rt_val x) Hx (Qeq_refl _)). Qed.
Print Assumptions C14_ratio_histories.

(* reduce() is the identity on canonical values, and a rational number has one canonical form *)
Theorem C14_ratio_reduce_canon : forall r, Canon r -> rt_reduce Big r = Some r.
Proof. exact reduce_canon. Qed.
Print Assumptions C14_ratio_reduce_canon.

(* derived == on canonical values is equality of the rational numbers *)
Theorem C14_ratio_eq : forall x y, Canon x -> Canon y ->
  (rt_eqb x y = true <-> (rt_val x == rt_val y)%Q) /\ (rt_eqb x y = true <-> x = y).
Proof. exact (fun x y Hx Hy => conj (canon_eq_iff x y Hx Hy) (rt_eqb_eq x y)). Qed.
Print Assumptions C14_ratio_eq.

Theorem C14_ratio_predicates : forall x, Canon x ->
  (rt_is_zero x = true <-> (rt_val x == 0)%Q) /\ (rt_is_one x = true <-> (rt_val x == 1)%Q) /\
  (rt_is_int x = true <-> denom x = 1).
Proof. exact ratio_pred_spec. Qed.
Print Assumptions C14_ratio_predicates.

(* Ord::cmp (after the fix 52e0a74) is the order of Q ... *)
Theorem C14_ratio_order : forall x y, 0 < denom x -> 0 < denom y ->
  rt_cmp Big x y = Some (rt_val x ?= rt_val y)%Q /\
  (rt_cmp Big x y = Some Lt <-> (rt_val x < rt_val y)%Q) /\
  (rt_cmp Big x y = Some Gt <-> (rt_val y < rt_val x)%Q) /\
  (rt_cmp Big x y = Some Eq <-> (rt_val x == rt_val y)%Q) /\
  (exists c, rt_cmp Big x y = Some c /\ rt_cmp Big y x = Some (CompOpp c)).
Proof. exact ratio_order. Qed.
Print Assumptions C14_ratio_order.

(* ... consistent with == ... *)
Theorem C14_ratio_order_eq : forall x y, Canon x -> Canon y ->
  (rt_cmp Big x y = Some Eq <-> rt_eqb x y = true).
Proof. exact ratio_order_eq. Qed.
Print Assumptions C14_ratio_order_eq.

(* ... and transitive *)
Theorem C14_ratio_order_trans : forall x y z c, 0 < denom x -> 0 < denom y -> 0 < denom z ->
  rt_cmp Big x y = Some c -> rt_cmp Big y z = Some c -> rt_cmp Big x z = Some c.
Proof. exact ratio_order_trans. Qed.
Print Assumptions C14_ratio_order_trans.

(* Ratio<i64>, Ratio<i128>: whatever a call returns is canonical and exact (otherwise it panicked) *)
Theorem C14_bounded_ratio : forall w,
  (forall n d r, rt_new w n d = Some r -> d <> 0 /\ Canon r /\ (rt_val r == qfrac n d)%Q) /\
  (forall x y r, Canon x -> Canon y -> rt_add w x y = Some r -> Canon r /\ (rt_val r == rt_val x + rt_val y)%Q) /\
  (forall x y r, Canon x -> Canon y -> rt_sub w x y = Some r -> Canon r /\ (rt_val r == rt_val x - rt_val y)%Q) /\
  (forall x y r, Canon x -> Canon y -> rt_mul w x y = Some r -> Canon r /\ (rt_val r == rt_val x * rt_val y)%Q) /\
  (forall x r, Canon x -> rt_neg w x = Some r -> Canon r /\ (rt_val r == - rt_val x)%Q) /\
  (forall x y r, Canon x -> Canon y -> rt_div w x y = Some r ->
     numer y <> 0 /\ Canon r /\ (rt_val r == rt_val x / rt_val y)%Q) /\
  (forall x oi, Canon x -> rt_inv w x = Some oi ->
     match oi with Some r => numer x <> 0 /\ Canon r /\ (rt_val r == / rt_val x)%Q | None => numer x = 0 end) /\
  (forall x y c, 0 < denom x -> 0 < denom y -> rt_cmp w x y = Some c -> c = (rt_val x ?= rt_val y)%Q).
Proof.
  exact (fun w => conj (bounded_new w) (conj (bounded_add w) (conj (bounded_sub w) (conj (bounded_mul w)
    (conj (bounded_neg w) (conj (bounded_div w) (conj (bounded_inv w) (bounded_cmp w)))))))).
Qed.
Print Assumptions C14_bounded_ratio.

(* machine width: every value reachable from a canonical x is canonical; one step from a canonical x is
   canonical and, when accepted, is the step of Q *)
Theorem C14_bounded_ratio_histories : forall w ops x, Canon x ->
  Canon (fold_left (rt_run_step w) ops x) /\
  forall o, Canon (rt_run_step w x o) /\
            ((rt_val (rt_run_step w x o) == q_run_step (rt_val x) o)%Q \/ rt_step w x o = None).
Proof. exact (fun w ops x Hx => conj (bounded_history_canon w ops x Hx) (fun o => bounded_run_step w x o Hx)). Qed.
Print Assumptions C14_bounded_ratio_histories.

(* the commutative-ring axioms for Q: carrier = canonical values, operations = the model's *)
Theorem C14_ring_laws_Q : ring_laws Q_ring.
Proof. exact Q_ring_laws. Qed.
Print Assumptions C14_ring_laws_Q.

Theorem C14_ring_Q_is_model : forall x y,
  rt_add Big (cr_val x) (cr_val y) = Some (cr_val (radd Q_ring x y)) /\
  rt_mul Big (cr_val x) (cr_val y) = Some (cr_val (rmul Q_ring x y)) /\
  rt_neg Big (cr_val x) = Some (cr_val (rneg Q_ring x)) /\
  reqb Q_ring x y = rt_eqb (cr_val x) (cr_val y) /\
  cr_val (rzero Q_ring) = rt_zero /\ cr_val (rone Q_ring) = rt_one.
Proof. exact (fun x y => conj (cr_add_ok x y) (conj (cr_mul_ok x y) (conj (cr_neg_ok x) (conj eq_refl (conj eq_refl eq_refl))))). Qed.
Print Assumptions C14_ring_Q_is_model.

(* the carrier is Q: values are in bijection with the rational numbers *)
Theorem C14_ring_Q_carrier :
  (forall x y, (qv x == qv y)%Q -> x = y) /\ (forall n d, d <> 0 -> exists x, (qv x == qfrac n d)%Q) /\
  (forall x, Canon (cr_val x)).
Proof. exact (conj qv_inj (conj qv_surj cr_canon)). Qed.
Print Assumptions C14_ring_Q_carrier.

(* representatives stay in [0, p); the operations are those of Z modulo p and do not
   overflow the i32 they are computed in, for the moduli with (p-1)^2 < 2^31 *)
Theorem C14_fp : forall p a b, SmallMod p -> InF p a -> InF p b ->
  (ff_add p a b = Some ((a + b) mod p) /\ InF p ((a + b) mod p)) /\
  (ff_sub p a b = Some ((a - b) mod p) /\ InF p ((a - b) mod p)) /\
  (ff_mul p a b = Some ((a * b) mod p) /\ InF p ((a * b) mod p)) /\
  (ff_neg p a = Some ((- a) mod p) /\ InF p ((- a) mod p)).
Proof.
  exact (fun p a b Hp Ha Hb => conj (ff_add_spec p a b Hp Ha Hb) (conj (ff_sub_spec p a b Hp Ha Hb)
    (conj (ff_mul_spec p a b Hp Ha Hb) (ff_neg_spec p a Hp Ha)))).
Qed.
Print Assumptions C14_fp.

Theorem C14_fp_new : forall p a,
  (0 < p -> ff_new p a = Some (a mod p) /\ InF p (a mod p)) /\ (p <= 0 -> ff_new p a = None) /\
  (InF p a -> ff_new p a = Some a).
Proof. exact (fun p a => conj (ff_new_spec p a) (conj (ff_new_nonpos p a) (ff_new_id p a))). Qed.
Print Assumptions C14_fp_new.

(* FF::new is a ring homomorphism Z -> F_p *)
Theorem C14_fp_hom : forall p x y, SmallMod p ->
  ff_add p (x mod p) (y mod p) = ff_new p (x + y) /\
  ff_sub p (x mod p) (y mod p) = ff_new p (x - y) /\
  ff_mul p (x mod p) (y mod p) = ff_new p (x * y) /\
  ff_neg p (x mod p) = ff_new p (- x).
Proof.
  exact (fun p x y Hp => conj (ff_add_hom p x y Hp) (conj (ff_sub_hom p x y Hp)
    (conj (ff_mul_hom p x y Hp) (ff_neg_hom p x Hp)))).
Qed.
Print Assumptions C14_fp_hom.

(* ... hence every finite operation sequence applied to FF::new(x) yields FF::new of the same
   sequence applied to x in Z *)
Theorem C14_fp_histories : forall p ops, SmallMod p -> forall x,
  ff_run p ops (x mod p) = Some (fold_left z_step ops x mod p) /\ InF p (fold_left z_step ops x mod p).
Proof. exact ff_history. Qed.
Print Assumptions C14_fp_histories.

(* equality of values is congruence modulo p *)
Theorem C14_fp_eq : forall p x y, 0 < p ->
  (ff_new p x = ff_new p y <-> x mod p = y mod p) /\
  (forall a b, InF p a -> InF p b -> (ff_eqb a b = true <-> a mod p = b mod p)).
Proof. exact fp_eq_iff. Qed.
Print Assumptions C14_fp_eq.

(* larger moduli: the i32 product overflows into a panic, never into a wrong residue *)
Theorem C14_bounded_fp : forall p a b r,
  ff_mul p a b = Some r -> r = (a * b) mod p /\ fitsb i32 (a * b) = true.
Proof. exact ff_mul_no_wrap. Qed.
Print Assumptions C14_bounded_fp.

(* inv: None for zero; for a prime p < 2^30 every non-zero residue has the inverse the extended
   Euclidean loop computes (the loop terminates within the fuel and stays inside i32); for any
   modulus a returned value is an inverse *)
Theorem C14_fp_inv : forall p,
  ff_inv p 0 = Some None /\
  (forall a, prime p -> p < 2 ^ 30 -> 0 < a < p ->
     exists b, ff_inv p a = Some (Some b) /\ InF p b /\ (a * b) mod p = 1) /\
  (forall a b, InF p a -> ff_inv p a = Some (Some b) -> InF p b /\ (a * b) mod p = 1 mod p).
Proof. exact (fun p => conj (ff_inv_zero p) (conj (ff_inv_spec p) (fun a b _ => ff_inv_sound p a b))). Qed.
Print Assumptions C14_fp_inv.

Theorem C14_ring_laws_Fp : forall p (Hs : SmallMod p), ring_laws (Fp_ring p (proj1 Hs)).
Proof. exact Fp_ring_laws. Qed.
Print Assumptions C14_ring_laws_Fp.

Theorem C14_ring_Fp_is_model : forall p (Hs : SmallMod p) (x y : fp p),
  ff_add p (fp_val x) (fp_val y) = Some (fp_val (radd (Fp_ring p (proj1 Hs)) x y)) /\
  ff_mul p (fp_val x) (fp_val y) = Some (fp_val (rmul (Fp_ring p (proj1 Hs)) x y)) /\
  ff_neg p (fp_val x) = Some (fp_val (rneg (Fp_ring p (proj1 Hs)) x)) /\
  reqb (Fp_ring p (proj1 Hs)) x y = ff_eqb (fp_val x) (fp_val y) /\
  fp_val (rzero (Fp_ring p (proj1 Hs))) = ff_zero /\ fp_val (rone (Fp_ring p (proj1 Hs))) = ff_one /\
  InF p (fp_val x).
Proof.
  exact (fun p Hs x y => conj (proj1 (fv_add p Hs x y)) (conj (proj1 (fv_mul p Hs x y)) (conj (proj1 (fv_neg p Hs x))
    (conj eq_refl (conj eq_refl (conj eq_refl (fp_in x))))))).
Qed.
Print Assumptions C14_ring_Fp_is_model.

(* F_2: the parity map Z -> bool is a ring homomorphism onto the model's operations *)
Theorem C14_f2 :
  (forall a, f2_from a = if fitsb i64 a then Some (Z.odd a) else None) /\
  (forall x y, Z.odd (x + y) = f2_add (Z.odd x) (Z.odd y)) /\
  (forall x y, Z.odd (x - y) = f2_sub (Z.odd x) (Z.odd y)) /\
  (forall x y, Z.odd (x * y) = f2_mul (Z.odd x) (Z.odd y)) /\
  (forall x, Z.odd (- x) = f2_neg (Z.odd x)) /\
  (forall a, match f2_inv a with Some b => f2_mul a b = true | None => a = false end).
Proof. exact (conj f2_from_spec (conj f2_odd_add (conj f2_odd_sub (conj f2_odd_mul (conj f2_odd_neg f2_inv_spec))))). Qed.
Print Assumptions C14_f2.

Theorem C14_ring_laws_F2 : ring_laws F2_ring.
Proof. exact F2_ring_laws. Qed.
Print Assumptions C14_ring_laws_F2.

(* over BigInt every operation returns the reference operation on pairs; the product
   includes the two shortcut branches (b = 0, d = 0) *)
Theorem C14_quad : forall D x y, D mod 4 <> 0 ->
  qi_add Big x y = Some (qs_add x y) /\ qi_sub Big x y = Some (qs_sub x y) /\ qi_neg Big x = Some (qs_neg x) /\
  qi_mul Big D x y = Some (qs_mul (qi_t D) (qi_e D) x y) /\
  qi_conj Big D x = Some (qs_conj (qi_t D) x) /\ qi_norm Big D x = Some (qs_norm (qi_t D) (qi_e D) x).
Proof.
  exact (fun D x y HD => conj (qi_add_big x y) (conj (qi_sub_big x y) (conj (qi_neg_big x)
    (conj (qi_mul_big D x y HD) (conj (qi_conj_big D x HD) (qi_norm_big D x HD)))))).
Qed.
Print Assumptions C14_quad.

(* the reference operations are the ring operations of Z[X]/(X^2 - t X - e) on the representatives
   a + b X: the product of two representatives is the representative of the product plus the
   multiple  b d (X^2 - t X - e)  of the modulus, as an identity of polynomials in X *)
Theorem C14_quad_sem : forall t e u v X,
  qsem (qs_add u v) X = qsem u X + qsem v X /\
  qsem (qs_sub u v) X = qsem u X - qsem v X /\
  qsem (qs_neg u) X = - qsem u X /\
  qsem u X * qsem v X = qsem (qs_mul t e u v) X + (snd u * snd v) * (X * X - t * X - e) /\
  qsem qi_zero X = 0 /\ qsem qi_one X = 1 /\ qsem qi_omega X = X.
Proof.
  exact (fun t e u v X => conj (qsem_add u v X) (conj (qsem_sub u v X) (conj (qsem_neg u X)
    (conj (qsem_mul t e u v X) (conj (qsem_zero X) (conj (qsem_one X) (qsem_omega X))))))).
Qed.
Print Assumptions C14_quad_sem.

(* the modulus is the minimal polynomial of omega = (1 + sqrt D)/2 resp. sqrt D; new asserts D % 4 != 0 *)
Theorem C14_quad_poly : forall D,
  (D mod 4 = 1 -> qi_t D = 1 /\ 4 * qi_e D = D - 1) /\
  (D mod 4 = 2 \/ D mod 4 = 3 -> qi_t D = 0 /\ qi_e D = D) /\
  (forall a b, qi_new D a b = if D mod 4 =? 0 then None else Some (a, b)).
Proof. exact (fun D => conj (qi_poly_1 D) (conj (qi_poly_23 D) (qi_new_spec D))). Qed.
Print Assumptions C14_quad_poly.

(* derived == is equality of ring elements: a polynomial of degree < 2 determines its coefficients *)
Theorem C14_quad_eq : forall x y,
  (qi_eqb x y = true <-> x = y) /\ ((forall X, qsem x X = qsem y X) -> x = y).
Proof. exact (fun x y => conj (qi_eqb_eq x y) (qsem_inj x y)). Qed.
Print Assumptions C14_quad_eq.

(* QuadInt<i64, D>, QuadInt<i128, D>: a returned value is the exact value *)
Theorem C14_bounded_quad : forall w D x y,
  (forall r, qi_add w x y = Some r -> r = qs_add x y) /\
  (forall r, qi_sub w x y = Some r -> r = qs_sub x y) /\
  (forall r, qi_neg w x = Some r -> r = qs_neg x) /\
  (forall r, qi_mul w D x y = Some r -> r = qs_mul (qi_t D) (qi_e D) x y) /\
  (forall r, D mod 4 <> 0 -> qi_conj w D x = Some r -> r = qs_conj (qi_t D) x) /\
  (forall r, D mod 4 <> 0 -> qi_norm w D x = Some r -> r = qs_norm (qi_t D) (qi_e D) x).
Proof.
  exact (fun w D x y => conj (qi_add_exact w x y) (conj (qi_sub_exact w x y) (conj (qi_neg_exact w x)
    (conj (qi_mul_exact w D x y) (conj (qi_conj_exact w D x) (qi_norm_exact w D x)))))).
Qed.
Print Assumptions C14_bounded_quad.

Theorem C14_quad_norm : forall t e x y,
  qs_mul t e x (qs_conj t x) = (qs_norm t e x, 0) /\
  qs_norm t e (qs_mul t e x y) = qs_norm t e x * qs_norm t e y /\
  qs_conj t (qs_conj t x) = x.
Proof. exact (fun t e x y => conj (qs_conj_mul t e x) (conj (qs_norm_mul t e x y) (qs_conj_invol t x))). Qed.
Print Assumptions C14_quad_norm.

(* the commutative-ring axioms, for every D (every t, e); Gaussian and Eisenstein integers *)
Theorem C14_ring_laws_quad : forall t e, ring_laws (quad_ring t e).
Proof. exact quad_ring_laws. Qed.
Print Assumptions C14_ring_laws_quad.

Theorem C14_ring_laws_Gauss : ring_laws gauss_ring.
Proof. exact (quad_ring_laws (qi_t (-1)) (qi_e (-1))). Qed.
Print Assumptions C14_ring_laws_Gauss.

Theorem C14_ring_laws_Eisen : ring_laws eisen_ring.
Proof. exact (quad_ring_laws (qi_t (-3)) (qi_e (-3))). Qed.
Print Assumptions C14_ring_laws_Eisen.

Theorem C14_quad_gauss_eisen : forall x y,
  rmul gauss_ring x y = (fst x * fst y - snd x * snd y, fst x * snd y + snd x * fst y) /\
  rmul eisen_ring x y = (fst x * fst y - snd x * snd y, fst x * snd y + snd x * fst y + snd x * snd y).
Proof. exact (fun x y => conj (gauss_mul_eq x y) (eisen_mul_eq x y)). Qed.
Print Assumptions C14_quad_gauss_eisen.

Example ex_canon : Canon (mkR (-3) 7).
Proof. exact C14Main.ex_canon. Qed.
Example ex_ratio_add : rt_add Big (mkR 1 2) (mkR 3 5) = Some (mkR 11 10).
Proof. vm_compute. reflexivity. Qed.
Example ex_ratio_shortcuts :
  rt_mul Big (mkR 3 4) (mkR 2 1) = Some (mkR 3 2) /\ rt_mul Big (mkR 6 1) (mkR 5 9) = Some (mkR 10 3) /\
  rt_add Big (mkR 1 6) (mkR 1 6) = Some (mkR 1 3) /\ rt_sub Big (mkR 1 6) (mkR 1 6) = Some (mkR 0 1) /\
  rt_new Big 4 (-6) = Some (mkR (-2) 3).
Proof. vm_compute. repeat split. Qed.
(* beyond 2^53, where the f64 comparison (before the fix 52e0a74) answered Equal *)
Example ex_ratio_cmp : rt_cmp Big (mkR 9007199254740993 1) (mkR 9007199254740992 1) = Some Gt.
Proof. vm_compute. reflexivity. Qed.
(* a machine-width panic where BigInt returns: 1/3037000500 + 1/3037000501 in i64 *)
Example ex_ratio_i64_overflow :
  rt_add i64 (mkR 1 3037000500) (mkR 1 3037000501) = None /\
  rt_add Big (mkR 1 3037000500) (mkR 1 3037000501) = Some (mkR 6074001001 9223372040037250500).
Proof. vm_compute. split; reflexivity. Qed.
Example ex_ratio_history :
  fold_left (rt_run_step Big) [OAdd 1 2; OMul 2 3; OInv; ODiv 0 1; OSub 1 0; ONeg] (mkR 1 1) = mkR (-1) 1.
Proof. vm_compute. reflexivity. Qed.
Example ex_small_mod : SmallMod 46337 /\ ~ SmallMod 46349.
Proof. exact (conj C14Main.ex_small C14Main.ex_not_small). Qed.
Example ex_fp_mul : ff_mul 46337 46336 46336 = Some 1 /\ ff_mul 46349 46348 46348 = None.
Proof. vm_compute. split; reflexivity. Qed.
Example ex_fp_inv : ff_inv 7 3 = Some (Some 5) /\ ff_inv 46337 2 = Some (Some 23169) /\ prime 3.
Proof. split; [vm_compute; reflexivity|split; [vm_compute; reflexivity|exact prime_3]]. Qed.
Example ex_quad_mul :
  qi_mul i64 (-3) (1, 3) (2, -1) = Some (5, 2) /\ qi_mul Big (-1) (1, 3) (2, -1) = Some (5, 5) /\
  qi_mul Big 5 (3, 0) (2, 7) = Some (6, 21) /\ qi_mul i64 (-1) (3037000500, 1) (3037000500, 1) = None.
Proof. vm_compute. repeat split. Qed.
