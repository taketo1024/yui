(* Each `eliminate` step of the tangle complex model (Model/TngComplex.v) is Gaussian elimination in a pre-additive
   category: for ANY interpretation [sem] of the linear combinations of cobordisms on the edges as morphisms of a
   pre-additive category that is compatible with the five operations the step uses (composition `*`, part_eval, `-`,
   unary minus, inv) on TYPED combinations,
     - the new edge map is  E'(x, y) = E(x, y) - E(k0, y) a^-1 E(x, k1)  for all remaining vertices x, y
       ([eliminate_entry]: the entry-wise form of  d - c a^-1 b  of Proofs/TngPElim.v, the blocks A = {k0}, A' = {k1}
       being single vertices), and all edges stay typed;
     - if  sum_m E(m, y) E(x, m) = 0  for all x, y  (d d = 0) before the step, the same holds after it
       ([eliminate_dd]).
   The hypotheses on [sem] say that composition of LcCob is associative / bilinear and that part_eval respects the
   meaning: Model/TngStack.v proves this only numerically (degrees, Euler numbers), and the category of dotted
   cobordisms modulo Bar-Natan's local relations is not formalised - the hypotheses are stated, not discharged. *)
From Coq Require Import List Arith Bool ZArith Lia Setoid Morphisms.
Import ListNotations.
Require Import Yui.Model.Link Yui.Model.Tng Yui.Model.TngCob Yui.Model.TngStack Yui.Model.TngComplex.
Require Import Yui.Proofs.TngPElim Yui.Proofs.TngPCpx.

Section Graph.
  Context (C : preadd_ops) (L : preadd_laws C).
  Local Notation "f == g" := (peq C f g) (at level 70, no associativity).
  Local Notation "f + g" := (padd C f g).
  Local Notation "- f" := (pneg C f).
  Local Notation "f 'o' g" := (pcomp C f g) (at level 40, left associativity).
  Local Notation "0" := (pzero C).
  Local Notation "1" := (pid C).

  #[local] Instance eqv_k X Y : Equivalence (@peq C X Y) := peq_Equivalence C L X Y.
  #[local] Instance add_k X Y : Proper (@peq C X Y ==> @peq C X Y ==> @peq C X Y) (@padd C X Y) := padd_Proper C L X Y.
  #[local] Instance neg_k X Y : Proper (@peq C X Y ==> @peq C X Y) (@pneg C X Y) := pneg_Proper C L X Y.
  #[local] Instance comp_k X Y Z : Proper (@peq C Y Z ==> @peq C X Y ==> @peq C X Z) (@pcomp C X Y Z) :=
    pcomp_Proper C L X Y Z.

  (* sums over a list of keys *)
  Fixpoint lsum {X Y} (ms : list tkey) (F : tkey -> phom C X Y) : phom C X Y :=
    match ms with [] => 0 | m :: r => F m + lsum r F end.

  Lemma lsum_ext X Y ms (F G : tkey -> phom C X Y) : (forall m, In m ms -> F m == G m) -> lsum ms F == lsum ms G.
  Proof.
    induction ms as [|m ms IH]; intros E; cbn [lsum]; [reflexivity|].
    rewrite (E m) by now left. rewrite IH; [reflexivity|]. intros k Hk. apply E. now right.
  Qed.
  Lemma lsum_zero X Y ms : lsum ms (fun _ => (0 : phom C X Y)) == 0.
  Proof. induction ms as [|m ms IH]; cbn [lsum]; [reflexivity|]. rewrite IH. apply (padd_0_l C L). Qed.
  Lemma lsum_add X Y ms (F G : tkey -> phom C X Y) : lsum ms (fun m => F m + G m) == lsum ms F + lsum ms G.
  Proof.
    induction ms as [|m ms IH]; cbn [lsum]; [now rewrite (padd_0_l C L)|].
    rewrite IH. rewrite !(padd_assoc C L). apply (padd_eq C L); [reflexivity|].
    rewrite <- !(padd_assoc C L). apply (padd_eq C L); [|reflexivity]. apply (padd_comm C L).
  Qed.
  Lemma lsum_neg X Y ms (F : tkey -> phom C X Y) : lsum ms (fun m => - F m) == - lsum ms F.
  Proof.
    induction ms as [|m ms IH]; cbn [lsum]; [now rewrite (pneg_0 C L)|]. rewrite IH. now rewrite (pneg_add C L).
  Qed.
  Lemma lsum_comp_l X Y Z ms (F : tkey -> phom C Y Z) (g : phom C X Y) : lsum ms F o g == lsum ms (fun m => F m o g).
  Proof.
    induction ms as [|m ms IH]; cbn [lsum]; [apply (pcomp_0_l C L)|]. rewrite (pcomp_add_l C L). now rewrite IH.
  Qed.
  Lemma lsum_comp_r X Y Z ms (f : phom C Y Z) (G : tkey -> phom C X Y) : f o lsum ms G == lsum ms (fun m => f o G m).
  Proof.
    induction ms as [|m ms IH]; cbn [lsum]; [apply (pcomp_0_r C L)|]. rewrite (pcomp_add_r C L). now rewrite IH.
  Qed.

  Lemma lsum_sub_0 X Y ms (F G : tkey -> phom C X Y) :
    lsum ms F == 0 -> lsum ms G == 0 -> lsum ms (fun m => F m + - G m) == 0.
  Proof. intros HF HG. rewrite lsum_add, lsum_neg, HF, HG, (pneg_0 C L). apply (padd_0_l C L). Qed.
  (* a key whose summand vanishes may be left out *)
  Lemma lsum_filter_0 X Y ms k (F : tkey -> phom C X Y) :
    F k == 0 -> lsum (filter (fun j => negb (key_eqb j k)) ms) F == lsum ms F.
  Proof.
    intros Hk. induction ms as [|m ms IH]; cbn [filter lsum]; [reflexivity|].
    destruct (key_eqb_spec m k) as [->|_]; cbn [negb lsum]; rewrite IH; [|reflexivity].
    rewrite Hk. symmetry. apply (padd_0_l C L).
  Qed.

  Section ElimGraph.
    Context (ob : tkey -> pobj C) (E : forall k l : tkey, phom C (ob k) (ob l)).
    Context (V : list tkey) (k0 k1 : tkey) (a' : phom C (ob k1) (ob k0)).
    Context (H0 : In k0 V) (H1 : In k1 V).
    Context (Hl : a' o E k0 k1 == 1) (Hr : E k0 k1 o a' == 1).
    Context (DD : forall x y, In x V -> In y V -> lsum V (fun m => E m y o E x m) == 0).

    Definition V' : list tkey := filter (fun j => negb (key_eqb j k1)) (filter (fun j => negb (key_eqb j k0)) V).
    Definition E' (x y : tkey) : phom C (ob x) (ob y) := E x y + - (E k0 y o a' o E x k1).

    (* The idea: E' has no edge out of k0 and none into k1, and E' E' = 0 already over all of V (bilinearity and DD,
       one factor at a time); so the sum over V' is the sum over V.  Neither distinctness of the keys nor k0 <> k1 nor
       the absence of loops is needed. *)
    Lemma E'_from_k0 y : E' k0 y == 0.
    Proof. unfold E'. rewrite (pcomp_assoc C L), Hl, (pcomp_id_r C L). apply (padd_neg_r C L). Qed.
    Lemma E'_to_k1 x : E' x k1 == 0.
    Proof. unfold E'. rewrite Hr, (pcomp_id_l C L). apply (padd_neg_r C L). Qed.

    Lemma half_dd x y : In x V -> In y V -> lsum V (fun m => E' m y o E x m) == 0.
    Proof.
      intros Hx Hy.
      rewrite (lsum_ext _ _ V _ (fun m => E m y o E x m + - (E k0 y o a' o (E m k1 o E x m)))).
      - apply lsum_sub_0; [now apply DD|]. rewrite <- lsum_comp_r, DD by assumption. apply (pcomp_0_r C L).
      - intros m _. unfold E'. rewrite (pcomp_add_l C L), (pcomp_neg_l C L), (pcomp_assoc C L). reflexivity.
    Qed.
    Lemma full_dd x y : In x V -> In y V -> lsum V (fun m => E' m y o E' x m) == 0.
    Proof.
      intros Hx Hy.
      rewrite (lsum_ext _ _ V _ (fun m => E' m y o E x m + - (E' m y o E k0 m o (a' o E x k1)))).
      - apply lsum_sub_0; [now apply half_dd|]. rewrite <- lsum_comp_l, half_dd by assumption. apply (pcomp_0_l C L).
      - intros m _. unfold E' at 2. rewrite (pcomp_add_r C L), (pcomp_neg_r C L), <- !(pcomp_assoc C L). reflexivity.
    Qed.

    Theorem elim_graph_dd x y : In x V -> In y V -> lsum V' (fun m => E' m y o E' x m) == 0.
    Proof.
      intros Hx Hy. unfold V'.
      rewrite lsum_filter_0 by (rewrite E'_to_k1; apply (pcomp_0_r C L)).
      rewrite lsum_filter_0 by (rewrite E'_from_k0; apply (pcomp_0_l C L)).
      now apply full_dd.
    Qed.
  End ElimGraph.
End Graph.

(* the model's eliminate under an interpretation of the edges *)
Lemma find_v_In vs k v : find_v vs k = Some v -> In k (map vkey vs).
Proof.
  induction vs as [|u vs IH]; cbn [find_v map]; [discriminate|].
  destruct (key_eqb_spec (vkey u) k) as [->|]; [now left|]. intros E. right. now apply IH.
Qed.
Lemma key_mem_filter_ne k j ks : k <> j -> key_mem k (filter (fun l => negb (key_eqb l j)) ks) = key_mem k ks.
Proof.
  intros Hne. destruct (key_mem k ks) eqn:E.
  - apply key_mem_In. apply filter_In. split; [now apply key_mem_In|]. destruct (key_eqb_spec k j); [contradiction|reflexivity].
  - destruct (key_mem k (filter _ ks)) eqn:E2; [|reflexivity]. apply key_mem_In, filter_In in E2.
    destruct E2 as [E2 _]. apply key_mem_In in E2. congruence.
Qed.

Section Sem.
  Context (C : preadd_ops) (L : preadd_laws C).
  Local Notation "f == g" := (peq C f g) (at level 70, no associativity).
  Local Notation "f + g" := (padd C f g).
  Local Notation "- f" := (pneg C f).
  Local Notation "f 'o' g" := (pcomp C f g) (at level 40, left associativity).
  Local Notation "0" := (pzero C).
  Local Notation "1" := (pid C).

  #[local] Instance eqv_s X Y : Equivalence (@peq C X Y) := peq_Equivalence C L X Y.
  #[local] Instance add_s X Y : Proper (@peq C X Y ==> @peq C X Y ==> @peq C X Y) (@padd C X Y) := padd_Proper C L X Y.
  #[local] Instance neg_s X Y : Proper (@peq C X Y ==> @peq C X Y) (@pneg C X Y) := pneg_Proper C L X Y.
  #[local] Instance comp_s X Y Z : Proper (@peq C Y Z ==> @peq C X Y ==> @peq C X Z) (@pcomp C X Y Z) :=
    pcomp_Proper C L X Y Z.

  (* the object of a vertex, the meaning of a linear combination of cobordisms between two vertices, and which
     combinations are morphisms between two vertices at all ("typed": what TngComplex::validate checks) *)
  Context (ob : tkey -> pobj C).
  Context (sem : forall k l : tkey, lccob -> phom C (ob k) (ob l)).
  Context (ty : tkey -> tkey -> lccob -> Prop).
  Context (h t : Z).

  Record sem_laws : Prop := mk_sem_laws {
    sem_nil : forall k l, sem k l [] == 0;
    sem_mul : forall k l m f g fg, ty l m f -> ty k l g -> lc_mul f g = Some fg ->
                ty k m fg /\ sem k m fg == sem l m f o sem k l g;
    sem_pe : forall k l f g, ty k l f -> lc_part_eval h t f = Some g -> ty k l g /\ sem k l g == sem k l f;
    sem_sub : forall k l f g, ty k l f -> ty k l g ->
                ty k l (lc_sub f g) /\ sem k l (lc_sub f g) == sem k l f + - sem k l g;
    sem_negv : forall k l f, ty k l f -> ty k l (lc_negv f) /\ sem k l (lc_negv f) == - sem k l f;
    sem_inv : forall k l a a', ty k l a -> lc_inv a = Some (Some a') ->
                ty l k a' /\ sem l k a' o sem k l a == 1 /\ sem k l a o sem l k a' == 1;
  }.

  (* the matrix of the differential: no edge = 0 *)
  Definition Eof (vs : list vertex) (k l : tkey) : phom C (ob k) (ob l) :=
    match edge vs k l with Some f => sem k l f | None => 0 end.
  Definition typed (vs : list vertex) : Prop := forall k l f, edge vs k l = Some f -> ty k l f.
  (* in_edges records every edge *)
  Definition in_complete (vs : list vertex) : Prop :=
    forall k l v f, edge vs k l = Some f -> find_v vs l = Some v -> In k (vin v).

  Context (SL : sem_laws).

  Lemma sem_nz k l f : match nz f with Some g => sem k l g | None => 0 end == sem k l f.
  Proof.
    unfold nz. destruct f as [|p f]; cbn [is_nil]; [|reflexivity]. symmetry. apply (sem_nil SL).
  Qed.

  Theorem eliminate_entry c k0 k1 c' :
    c_h c = h -> c_t c = t -> typed (c_verts c) -> in_complete (c_verts c) ->
    cpx_eliminate c k0 k1 = Some c' ->
    exists a ainv,
      edge (c_verts c) k0 k1 = Some a /\ lc_inv a = Some (Some ainv) /\ ty k1 k0 ainv /\
      sem k1 k0 ainv o sem k0 k1 a == 1 /\ sem k0 k1 a o sem k1 k0 ainv == 1 /\
      (forall l0 l1, l0 <> k0 -> l0 <> k1 -> l1 <> k0 -> l1 <> k1 ->
         Eof (c_verts c') l0 l1 ==
         Eof (c_verts c) l0 l1 + - (Eof (c_verts c) k0 l1 o sem k1 k0 ainv o Eof (c_verts c) l0 k1)) /\
      (forall l0 l1 f, l0 <> k0 -> l0 <> k1 -> l1 <> k0 -> l1 <> k1 -> edge (c_verts c') l0 l1 = Some f -> ty l0 l1 f).
  Proof.
    intros Eh Et Ty Ic El. apply eliminate_spec in El.
    destruct El as (a & ainv & v0 & v1 & Ea & Einv & Ev0 & Ev1 & _ & _ & _ & _ & _ & _ & _ & Hed & Hval).
    rewrite Eh, Et in Hed, Hval.
    destruct (sem_inv SL k0 k1 a ainv (Ty _ _ _ Ea) Einv) as (Tai & Il & Ir).
    exists a, ainv. repeat (split; [assumption|]).
    (* the rewritten entries *)
    assert (Prod : forall l0 l1, key_mem l0 (elim_ins k0 v1) && key_mem l1 (elim_outs k1 v0) = true ->
              exists f, elim_value h t (c_verts c) k0 k1 ainv l0 l1 = Some f /\ ty l0 l1 f /\
                sem l0 l1 f == Eof (c_verts c) l0 l1 + - (Eof (c_verts c) k0 l1 o sem k1 k0 ainv o Eof (c_verts c) l0 k1)).
    { intros l0 l1 Hm. destruct (Hval l0 l1 Hm) as [f Ef]. exists f. split; [assumption|].
      unfold elim_value in Ef. unfold Eof.
      destruct (edge (c_verts c) l0 k1) as [b|] eqn:Eb; [|discriminate].
      destruct (edge (c_verts c) k0 l1) as [c0|] eqn:Ec; [|discriminate].
      destruct (lc_mul c0 ainv) as [ca|] eqn:Eca; [|discriminate].
      destruct (lc_mul ca b) as [cab0|] eqn:Ecab0; [|discriminate].
      destruct (lc_part_eval h t cab0) as [cab|] eqn:Ecab; [|discriminate].
      destruct (sem_mul SL k1 k0 l1 c0 ainv ca (Ty _ _ _ Ec) Tai Eca) as [T1 S1].
      destruct (sem_mul SL l0 k1 l1 ca b cab0 T1 (Ty _ _ _ Eb) Ecab0) as [T2 S2].
      destruct (sem_pe SL l0 l1 cab0 cab T2 Ecab) as [T3 S3].
      assert (S4 : sem l0 l1 cab == sem k0 l1 c0 o sem k1 k0 ainv o sem l0 k1 b) by (now rewrite S3, S2, S1).
      destruct (has_edge (c_verts c) l0 l1) as [[|]|] eqn:Ehe; [| |discriminate].
      - destruct (edge (c_verts c) l0 l1) as [d|] eqn:Ed; [|discriminate]. injection Ef as <-.
        destruct (sem_sub SL l0 l1 d cab (Ty _ _ _ Ed) T3) as [T5 S5]. split; [assumption|]. now rewrite S5, S4.
      - injection Ef as <-. rewrite (has_edge_edge _ _ _ Ehe).
        destruct (sem_negv SL l0 l1 cab T3) as [T5 S5]. split; [assumption|].
        rewrite S5, S4. symmetry. apply (padd_0_l C L). }
    split.
    - intros l0 l1 N00 N01 N10 N11. unfold Eof at 1. rewrite (Hed l0 l1 N00 N01 N10 N11).
      destruct (key_mem l0 (elim_ins k0 v1) && key_mem l1 (elim_outs k1 v0)) eqn:Hm.
      + destruct (Prod l0 l1 Hm) as (f & Ef & _ & Sf). rewrite Ef. now rewrite sem_nz.
      + fold (Eof (c_verts c) l0 l1).
        assert (Z : Eof (c_verts c) k0 l1 o sem k1 k0 ainv o Eof (c_verts c) l0 k1 == 0).
        { apply andb_false_iff in Hm. destruct Hm as [Hm|Hm].
          - unfold elim_ins in Hm. rewrite key_mem_filter_ne in Hm by assumption.
            assert (En : edge (c_verts c) l0 k1 = None).
            { destruct (edge (c_verts c) l0 k1) as [b|] eqn:Eb; [|reflexivity].
              pose proof (Ic _ _ _ _ Eb Ev1) as Hi. apply key_mem_In in Hi. congruence. }
            unfold Eof at 2. rewrite En. apply (pcomp_0_r C L).
          - unfold elim_outs in Hm. rewrite key_mem_filter_ne in Hm by assumption.
            assert (En : edge (c_verts c) k0 l1 = None).
            { unfold edge. rewrite Ev0. unfold out_keys in Hm. rewrite key_mem_find_e in Hm.
              now destruct (find_e (vout v0) l1). }
            unfold Eof at 1. rewrite En. now rewrite !(pcomp_0_l C L). }
        rewrite Z, (pneg_0 C L). symmetry. apply (padd_0_r C L).
    - intros l0 l1 f N00 N01 N10 N11. rewrite (Hed l0 l1 N00 N01 N10 N11).
      destruct (key_mem l0 (elim_ins k0 v1) && key_mem l1 (elim_outs k1 v0)) eqn:Hm.
      + destruct (Prod l0 l1 Hm) as (g & Eg & Tg & _). rewrite Eg. unfold nz. destruct (is_nil g); [discriminate|].
        now intros [= <-].
      + apply Ty.
  Qed.

  Theorem eliminate_dd c k0 k1 c' :
    c_h c = h -> c_t c = t -> typed (c_verts c) -> in_complete (c_verts c) ->
    cpx_eliminate c k0 k1 = Some c' ->
    (forall x y, In x (map vkey (c_verts c)) -> In y (map vkey (c_verts c)) ->
       lsum C (map vkey (c_verts c)) (fun m => Eof (c_verts c) m y o Eof (c_verts c) x m) == 0) ->
    forall x y, In x (map vkey (c_verts c')) -> In y (map vkey (c_verts c')) ->
      lsum C (map vkey (c_verts c')) (fun m => Eof (c_verts c') m y o Eof (c_verts c') x m) == 0.
  Proof.
    intros Eh Et Ty Ic El DD x y Hx Hy.
    destruct (eliminate_entry c k0 k1 c' Eh Et Ty Ic El) as (a & ainv & Ea & _ & _ & Il & Ir & Hent & _).
    apply eliminate_spec in El.
    destruct El as (_ & _ & v0 & v1 & _ & _ & Ev0 & Ev1 & _ & _ & _ & _ & _ & Hk & _).
    rewrite Hk in Hx, Hy |- *. fold (V' (map vkey (c_verts c)) k0 k1) in Hx, Hy |- *.
    assert (Mem : forall m, In m (V' (map vkey (c_verts c)) k0 k1) -> In m (map vkey (c_verts c)) /\ m <> k0 /\ m <> k1).
    { intros m Hm. unfold V' in Hm. apply filter_In in Hm. destruct Hm as [Hm M1]. apply filter_In in Hm.
      destruct Hm as [Hm M0]. apply negb_true_iff, key_eqb_neq in M0, M1. now repeat split. }
    destruct (Mem x Hx) as (Hxv & Nx0 & Nx1). destruct (Mem y Hy) as (Hyv & Ny0 & Ny1).
    assert (Ea0 : Eof (c_verts c) k0 k1 = sem k0 k1 a) by (unfold Eof; now rewrite Ea).
    rewrite (lsum_ext C L _ _ _ _ (fun m => E' C ob (Eof (c_verts c)) k0 k1 (sem k1 k0 ainv) m y o
                                             E' C ob (Eof (c_verts c)) k0 k1 (sem k1 k0 ainv) x m)).
    - apply (elim_graph_dd C L ob (Eof (c_verts c)) (map vkey (c_verts c)) k0 k1 (sem k1 k0 ainv));
        try assumption; try (eapply find_v_In; eassumption); now rewrite Ea0.
    - intros m Hm. destruct (Mem m Hm) as (_ & M0 & M1).
      unfold E'. now rewrite (Hent m y), (Hent x m) by assumption.
  Qed.
End Sem.
