(* C09 (uniqueness), part 5: the rank of an integer matrix modulo a prime, read off its invariant factors.
   If P A Q = diag(a_0 | a_1 | ... | a_(r-1), 0 ..) over Z then over F_p the matrix A mod p is equivalent to
   diag(a_k mod p): the entries not divisible by p come first (divisibility chain) and are invertible, so
       rank_(F_p)(A mod p) = #{k < r : p does not divide a_k} = r - #{k < r : p | a_k}
   where rank_(F_p) is the size of ANY diagonal form with non-zero entries of A mod p over F_p (Proofs/C07Rank.v).
   This is the counting identity behind the universal-coefficient relations (C03, C07).

   Generic part: a homomorphism of ring dictionaries maps Smith-type forms to Smith-type forms. *)
From Coq Require Import ZArith Znumtheory Arith List Lia Ring Bool.
Require Import Yui.Base.Ring Yui.Base.MatF Yui.Model.Snf.
Require Import Yui.Proofs.C07Algebra Yui.Proofs.C07Rank Yui.Proofs.C09UniqueKer.
Require Import Yui.Proofs.C09Inv Yui.Proofs.C09Laws.
Import ListNotations.

Section Hom.
  Context {R R' : Type} (o : ring_ops R) (o' : ring_ops R') (L : ring_laws o) (L' : ring_laws o').
  Variable phi : R -> R'.
  Hypothesis phi0 : phi (rzero o) = rzero o'.
  Hypothesis phi1 : phi (rone o) = rone o'.
  Hypothesis phi_add : forall a b, phi (radd o a b) = radd o' (phi a) (phi b).
  Hypothesis phi_mul : forall a b, phi (rmul o a b) = rmul o' (phi a) (phi b).

  Definition mmap (A : mat R) : mat R' := fun i j => phi (A i j).

  Lemma phi_sum n f : phi (sum o n f) = sum o' n (fun k => phi (f k)).
  Proof. induction n as [|n IH]; cbn [sum]; [exact phi0|]. now rewrite phi_add, IH. Qed.

  Lemma phi_mmul n A B i j : phi (mmul o n A B i j) = mmul o' n (mmap A) (mmap B) i j.
  Proof. unfold mmul. rewrite phi_sum. apply (sum_ext o'). intros k _. apply phi_mul. Qed.

  Lemma phi_mid i j : phi (mid o i j) = mid o' i j.
  Proof. unfold mid. destruct (i =? j); [exact phi1|exact phi0]. Qed.

  Lemma phi_inv_pair k P Pi : inv_pair o k P Pi -> inv_pair o' k (mmap P) (mmap Pi).
  Proof.
    intros [H1 H2]. split; intros i j Hi Hj; rewrite <- phi_mmul, <- phi_mid; f_equal; [now apply H1|now apply H2].
  Qed.

  (* the image of a Smith-type form whose entries surviving phi come first *)
  Lemma hom_smith_form m n (A : mat R) r a t :
    smith_form o m n A r a ->
    (t <= r)%nat ->
    (forall k, (k < t)%nat -> phi (a k) <> rzero o') ->
    (forall k, (t <= k)%nat -> (k < r)%nat -> phi (a k) = rzero o') ->
    smith_form o' m n (mmap A) t (fun k => phi (a k)).
  Proof.
    intros [P [Pi [Q [Qi [HP [HQ [He [Hnz Hr]]]]]]]] Ht Hin Hout.
    exists (mmap P), (mmap Pi), (mmap Q), (mmap Qi).
    split; [now apply phi_inv_pair|]. split; [now apply phi_inv_pair|].
    split; [|split; [exact Hin|lia]].
    intros i j Hi Hj.
    transitivity (phi (mmul o m P (mmul o n A Q) i j)).
    - rewrite phi_mmul. apply (mmul_ext_r o'). intros l Hl. symmetry. exact (phi_mmul n A Q l j).
    - rewrite (He i j Hi Hj).
      destruct (Nat.eqb_spec i j) as [->|Hne]; cbn [andb]; [|exact phi0].
      destruct (Nat.ltb_spec j r) as [Hjr|Hjr]; destruct (Nat.ltb_spec j t) as [Hjt|Hjt];
        try reflexivity; try exact phi0; try lia.
      apply Hout; assumption.
  Qed.
End Hom.

Section ModP.
  Open Scope Z_scope.
  Variable p : Z.
  Hypothesis Hp : prime p.

  Let pgt : 1 < p := p_gt_1 p Hp.

  Lemma fp_mk_add a b : fp_mk p (a + b) = radd (fp_ring p) (fp_mk p a) (fp_mk p b).
  Proof. apply fp_eq. cbn [fp_ring radd]. rewrite !fp_val_mk. apply Zplus_mod. Qed.

  Lemma fp_mk_mul a b : fp_mk p (a * b) = rmul (fp_ring p) (fp_mk p a) (fp_mk p b).
  Proof. apply fp_eq. cbn [fp_ring rmul]. rewrite !fp_val_mk. apply Zmult_mod. Qed.

  Lemma fp_mk_zero_iff a : fp_mk p a = rzero (fp_ring p) <-> a mod p = 0.
  Proof.
    cbn [fp_ring rzero]. split.
    - intros E. apply (f_equal fp_val) in E. rewrite !fp_val_mk, Zmod_0_l in E. exact E.
    - intros E. apply fp_eq. rewrite !fp_val_mk, Zmod_0_l. exact E.
  Qed.

  (* the number of entries of a_0 .. a_(r-1) not divisible by p *)
  Definition cnt_unit (a : nat -> Z) (r : nat) : nat :=
    length (filter (fun k => negb (a k mod p =? 0)) (seq 0 r)).
  Definition cnt_div (a : nat -> Z) (r : nat) : nat :=
    length (filter (fun k => a k mod p =? 0) (seq 0 r)).

  Lemma cnt_S a r : cnt_unit a (S r) = (cnt_unit a r + (if (a r mod p =? 0)%Z then 0 else 1))%nat.
  Proof.
    unfold cnt_unit. rewrite seq_S, filter_app, app_length. cbn [Nat.add filter].
    destruct (a r mod p =? 0); reflexivity.
  Qed.

  Lemma cnt_le a r : (cnt_unit a r <= r)%nat.
  Proof. induction r as [|r IH]; [cbn; lia|]. rewrite cnt_S. destruct (a r mod p =? 0); lia. Qed.

  Lemma cnt_sum a r : (cnt_unit a r + cnt_div a r = r)%nat.
  Proof.
    induction r as [|r IH]; [reflexivity|]. rewrite cnt_S.
    unfold cnt_div in *. rewrite seq_S, filter_app, app_length. cbn [Nat.add filter].
    destruct (a r mod p =? 0); cbn [length]; lia.
  Qed.

  (* along a divisibility chain the entries prime to p come first *)
  Lemma cnt_prefix a r :
    (forall k, (S k < r)%nat -> (a k | a (S k))) ->
    forall k, (k < r)%nat -> (a k mod p <> 0 <-> (k < cnt_unit a r)%nat).
  Proof.
    induction r as [|r IH]; intros C k Hk; [lia|].
    assert (C' : forall k0, (S k0 < r)%nat -> (a k0 | a (S k0))) by (intros; apply C; lia).
    specialize (IH C'). rewrite cnt_S. pose proof (cnt_le a r) as Hle.
    destruct (Z.eqb_spec (a r mod p) 0) as [Er|Er].
    - rewrite Nat.add_0_r. destruct (Nat.eq_dec k r) as [->|Hne].
      + split; [intros H; contradiction|lia].
      + apply IH. lia.
    - (* p does not divide a_r, hence none of the earlier entries *)
      assert (Hall : forall k0, (k0 < r)%nat -> a k0 mod p <> 0).
      { intros k0 Hk0 E. apply Er.
        assert (D : (a k0 | a r)).
        { apply (chain_le Z_ring Z_ring_laws (S r) a k0 r); [|lia|lia].
          intros k1 Hk1. destruct (C k1 Hk1) as [q Hq]. exists q. exact Hq. }
        apply Z.mod_divide in E; [|lia]. apply Z.mod_divide; [lia|]. now apply Z.divide_trans with (a k0). }
      assert (Hc : cnt_unit a r = r).
      { destruct r as [|r']; [reflexivity|].
        pose proof (proj1 (IH r' ltac:(lia)) (Hall r' ltac:(lia))). lia. }
      rewrite Hc. split; [lia|]. intros _.
      destruct (Nat.eq_dec k r) as [->|Hne]; [exact Er|apply Hall; lia].
  Qed.

  Let Lp : ring_laws (fp_ring p) := fp_ring_laws p Hp.
  Let Ip : integral (fp_ring p) := sl_integral (fp_dict p) (fp_snf_laws p Hp).

  (* A mod p has the diagonal form diag(a_k mod p : k < cnt_unit) over F_p *)
  Lemma modp_smith_form m n (A : mat Z) r a :
    smith_form Z_ring m n A r a ->
    (forall k, (S k < r)%nat -> (a k | a (S k))) ->
    smith_form (fp_ring p) m n (fun i j => fp_mk p (A i j)) (cnt_unit a r) (fun k => fp_mk p (a k)).
  Proof.
    intros F C.
    apply (hom_smith_form Z_ring (fp_ring p) (fp_mk p) eq_refl eq_refl fp_mk_add fp_mk_mul m n A r a (cnt_unit a r) F).
    - apply cnt_le.
    - intros k Hk E. apply fp_mk_zero_iff in E. pose proof (cnt_le a r).
      apply (proj2 (cnt_prefix a r C k ltac:(lia))) in Hk. contradiction.
    - intros k Hk Hkr. apply fp_mk_zero_iff.
      destruct (Z.eq_dec (a k mod p) 0) as [E|E]; [exact E|].
      apply (proj1 (cnt_prefix a r C k Hkr)) in E. lia.
  Qed.

  Theorem modp_rank m n (A : mat Z) r a rp c :
    smith_form Z_ring m n A r a ->
    (forall k, (S k < r)%nat -> (a k | a (S k))) ->
    smith_form (fp_ring p) m n (fun i j => fp_mk p (A i j)) rp c ->
    rp = cnt_unit a r /\ (rp + cnt_div a r = r)%nat.
  Proof.
    intros F C Fp.
    pose proof (modp_smith_form m n A r a F C) as F'.
    pose proof (smith_form_rank_unique (fp_ring p) Lp Ip m n _ _ _ _ _ Fp F') as E.
    split; [exact E|]. rewrite E. apply cnt_sum.
  Qed.
End ModP.
