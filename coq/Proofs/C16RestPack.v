(* C16 (rest): the statements of C16Rest{Mono,MDeg,Unit}.v about the four monomial families, packaged in the
   explicit form used by Properties/C16Rest.v; the unit dictionary of Z used by the correspondence driver
   satisfies [unit_laws]. *)
From Coq Require Import List Bool Arith NArith ZArith Lia.
Require Import Yui.Base.Ring Yui.Model.Lc Yui.Model.Mono Yui.Model.Poly.
Require Import Yui.Proofs.C16Lc Yui.Proofs.C16Mono Yui.Proofs.C16MDeg Yui.Proofs.C16Poly.
Require Import Yui.Proofs.C16RestMono Yui.Proofs.C16RestMDeg Yui.Proofs.C16RestLead Yui.Proofs.C16RestUnit Yui.Proofs.C16RestDomain.
Import ListNotations.

Section Pack.
  Context {I : Type} (e : exp_ops I) (eZ : I -> Z) (EL : exp_laws e eZ).

  Theorem var_div_pack (x y : I) :
    (forall z, mdiv (var_mono e) x y = Some z <-> mmul (var_mono e) z y = x) /\
    (mdivides (var_mono e) y x = true <-> exists z, mdiv (var_mono e) x y = Some z) /\
    ((exists z, mdiv (var_mono e) x y = Some z) <-> (esigned e = true \/ (eZ y <= eZ x)%Z)).
  Proof.
    split; [|split].
    - intros z. rewrite (mdiv_iff _ _ (var_div_laws e eZ EL) x y z Logic.I Logic.I). unfold any. tauto.
    - apply (mdivides_iff _ _ (var_div_laws e eZ EL)); exact Logic.I.
    - apply (var_div_defined e eZ EL).
  Qed.

  Theorem var2_div_pack (x y : I * I) :
    (forall z, mdiv (var2_mono e) x y = Some z <-> mmul (var2_mono e) z y = x) /\
    (mdivides (var2_mono e) y x = true <-> exists z, mdiv (var2_mono e) x y = Some z) /\
    ((exists z, mdiv (var2_mono e) x y = Some z) <->
     (esigned e = true \/ ((eZ (fst y) <= eZ (fst x))%Z /\ (eZ (snd y) <= eZ (snd x))%Z))).
  Proof.
    split; [|split].
    - intros z. rewrite (mdiv_iff _ _ (var2_div_laws e eZ EL) x y z Logic.I Logic.I). unfold any. tauto.
    - apply (mdivides_iff _ _ (var2_div_laws e eZ EL)); exact Logic.I.
    - apply (var2_div_defined e eZ EL).
  Qed.

  Theorem var3_div_pack (x y : I * I * I) :
    (forall z, mdiv (var3_mono e) x y = Some z <-> mmul (var3_mono e) z y = x) /\
    (mdivides (var3_mono e) y x = true <-> exists z, mdiv (var3_mono e) x y = Some z) /\
    ((exists z, mdiv (var3_mono e) x y = Some z) <->
     (esigned e = true \/ ((eZ (v3_0 y) <= eZ (v3_0 x))%Z /\ (eZ (v3_1 y) <= eZ (v3_1 x))%Z /\ (eZ (v3_2 y) <= eZ (v3_2 x))%Z))).
  Proof.
    split; [|split].
    - intros z. rewrite (mdiv_iff _ _ (var3_div_laws e eZ EL) x y z Logic.I Logic.I). unfold any. tauto.
    - apply (mdivides_iff _ _ (var3_div_laws e eZ EL)); exact Logic.I.
    - apply (var3_div_defined e eZ EL).
  Qed.

  Theorem mvar_div_pack (x y : @mdeg I) : Reduced e x -> Reduced e y ->
    (forall z, md_sub e x y = Some z <-> Reduced e z /\ md_add e z y = x) /\
    (mdivides (mvar_mono e) y x = true <-> exists z, md_sub e x y = Some z) /\
    ((exists z, md_sub e x y = Some z) <-> (esigned e = true \/ forall i, (eZ (md_at e y i) <= eZ (md_at e x i))%Z)) /\
    (forall z, md_sub e x y = Some z -> forall i, eZ (md_at e z i) = (eZ (md_at e x i) - eZ (md_at e y i))%Z) /\
    (md_all_leq e y x = true <-> forall i, (eZ (md_at e y i) <= eZ (md_at e x i))%Z).
  Proof.
    intros Hx Hy. split; [|split; [|split; [|split]]].
    - intros z. apply (mdiv_iff _ _ (mvar_div_laws e eZ EL) x y z Hx Hy).
    - apply (mdivides_iff _ _ (mvar_div_laws e eZ EL) x y Hx Hy).
    - now apply (md_sub_defined e eZ EL).
    - intros z. now apply (md_sub_at e eZ EL).
    - now apply (md_all_leq_spec e eZ EL).
  Qed.

  Theorem mono_units_pack :
    mono_unit_laws (var_mono e) any /\ mono_unit_laws (var2_mono e) any /\ mono_unit_laws (var3_mono e) any /\
    mono_unit_laws (mvar_mono e) (Reduced e) /\
    (esigned e = true ->
       (forall x, mis_unit (var_mono e) x = true) /\ (forall x, mis_unit (var2_mono e) x = true) /\
       (forall x, mis_unit (var3_mono e) x = true) /\ (forall x, mis_unit (mvar_mono e) x = true) /\
       (forall x, minv (var_mono e) x = Some (eneg e x)) /\
       (forall x, minv (var2_mono e) x = Some (eneg e (fst x), eneg e (snd x))) /\
       (forall x, minv (var3_mono e) x = Some (eneg e (v3_0 x), eneg e (v3_1 x), eneg e (v3_2 x))) /\
       (forall x, minv (mvar_mono e) x = Some (md_neg e x))) /\
    (esigned e = false ->
       (forall x, mis_unit (var_mono e) x = true <-> x = mone (var_mono e)) /\
       (forall x, mis_unit (var2_mono e) x = true <-> x = mone (var2_mono e)) /\
       (forall x, mis_unit (var3_mono e) x = true <-> x = mone (var3_mono e)) /\
       (forall x, mis_unit (mvar_mono e) x = true <-> x = mone (mvar_mono e)) /\
       (forall x, minv (var_mono e) x = if mis_unit (var_mono e) x then Some (mone (var_mono e)) else None) /\
       (forall x, minv (var2_mono e) x = if mis_unit (var2_mono e) x then Some (mone (var2_mono e)) else None) /\
       (forall x, minv (var3_mono e) x = if mis_unit (var3_mono e) x then Some (mone (var3_mono e)) else None) /\
       (forall x, minv (mvar_mono e) x = if mis_unit (mvar_mono e) x then Some (mone (mvar_mono e)) else None)).
  Proof.
    split; [apply (var_unit_laws e eZ EL)|]. split; [apply (var2_unit_laws e eZ EL)|].
    split; [apply (var3_unit_laws e eZ EL)|]. split; [apply (mvar_unit_laws e eZ EL)|]. split; intros Sg.
    - repeat split; intros x; cbn [mis_unit minv var_mono var2_mono var3_mono mvar_mono]; now rewrite Sg.
    - split; [intros x; apply (proj2 (var_unit_spec e eZ EL x) Sg)|].
      split; [intros x; apply (proj2 (var2_unit_spec e eZ EL x) Sg)|].
      split; [intros x; apply (proj2 (var3_unit_spec e eZ EL x) Sg)|].
      split; [intros x; cbn [mis_unit mone mvar_mono]; rewrite Sg; destruct x; cbn; split; congruence|].
      repeat split; intros x; cbn [mis_unit minv mone var_mono var2_mono var3_mono mvar_mono]; now rewrite Sg.
  Qed.

  Context {R : Type} (o : ring_ops R) (L : ring_laws o) (u : unit_ops R) (UL : unit_laws o u).

  Theorem poly_units_ordinary : esigned e = false -> rone o <> rzero o ->
    (forall p, WF o any p -> (p_is_unit (var_mono e) u p = true <-> exists a, ris_unit u a = true /\ p = p_from_const (var_mono e) o a)) /\
    (forall p, WF o any p -> (p_is_unit (var2_mono e) u p = true <-> exists a, ris_unit u a = true /\ p = p_from_const (var2_mono e) o a)) /\
    (forall p, WF o any p -> (p_is_unit (var3_mono e) u p = true <-> exists a, ris_unit u a = true /\ p = p_from_const (var3_mono e) o a)) /\
    (forall p, WF o (Reduced e) p -> (p_is_unit (mvar_mono e) u p = true <-> exists a, ris_unit u a = true /\ p = p_from_const (mvar_mono e) o a)).
  Proof.
    intros Sg N1. destruct mono_units_pack as (U1 & U2 & U3 & U4 & _ & HU). destruct (HU Sg) as (S1 & S2 & S3 & S4 & _).
    split; [|split; [|split]]; intros p Hp.
    - apply (is_unit_unsigned _ o any (var_laws e eZ EL) L u UL p N1); auto.
    - apply (is_unit_unsigned _ o any (var2_laws e eZ EL) L u UL p N1); auto.
    - apply (is_unit_unsigned _ o any (var3_laws e eZ EL) L u UL p N1); auto.
    - apply (is_unit_unsigned _ o (Reduced e) (mvar_laws e eZ EL) L u UL p N1); auto.
  Qed.

  Theorem poly_units_laurent : esigned e = true ->
    (forall p, p_is_unit (var_mono e) u p = true <-> exists x a, ris_unit u a = true /\ p = [(x, a)]) /\
    (forall p, p_is_unit (var2_mono e) u p = true <-> exists x a, ris_unit u a = true /\ p = [(x, a)]) /\
    (forall p, p_is_unit (var3_mono e) u p = true <-> exists x a, ris_unit u a = true /\ p = [(x, a)]) /\
    (forall p, p_is_unit (mvar_mono e) u p = true <-> exists x a, ris_unit u a = true /\ p = [(x, a)]).
  Proof.
    intros Sg. destruct mono_units_pack as (_ & _ & _ & _ & HS & _). destruct (HS Sg) as (S1 & S2 & S3 & S4 & _).
    split; [|split; [|split]]; intros p; apply is_unit_signed; assumption.
  Qed.
End Pack.

(* the unit dictionary of Z used by the C16 correspondence driver *)
Lemma Z_units_laws : unit_laws Z_ring Z_units.
Proof. apply Z_unit_laws_of. intros a. rewrite Z.eqb_eq. lia. Qed.
