(* C18 - Braid::closure: when it does not panic, the code is valid (every label exactly twice), has one
   crossing per letter, all of type X.  Proof by bookkeeping of labels: every crossing consumes two labels
   of the current bottom row ("ins") and creates two fresh ones ("outs"); after the renaming bottom[i] -> i
   the ins are a permutation of the outs, and the outs are pairwise distinct. *)
From Coq Require Import List Arith Bool Lia ZArith Permutation.
Require Import Yui.Model.Link Yui.Model.Braid Yui.Proofs.C18Base Yui.Proofs.C18Traverse.
Import ListNotations.

Lemma valid_double : forall M l, NoDup M -> Permutation l (M ++ M) ->
  forall y, In y l -> count_label y l = 2.
Proof.
  intros M l ND P y Hy.
  rewrite count_label_occ, (proj1 (Permutation_count_occ Nat.eq_dec _ _) P), count_occ_app.
  assert (HM : In y M) by (apply (Permutation_in _ P), in_app_or in Hy; tauto).
  rewrite (proj1 (NoDup_count_occ' Nat.eq_dec M) ND y HM). reflexivity.
Qed.

Definition flat_x (x : xcode) : list nat := match x with (a, b, c, d) => [a; b; c; d] end.
Definition flat_code (code : list xcode) : list nat := flat_map flat_x code.

Lemma edge_labels_link_of_code : forall code, edge_labels (link_of_code code) = flat_code code.
Proof.
  unfold edge_labels, flat_code, link_of_code. induction code as [|[[[a b] c] d] code IH]; cbn; auto. rewrite IH. reflexivity.
Qed.

(* one step of the loop on the bottom row: positions i, i+1 receive the fresh labels c, c+1 *)
Definition upd2 (i c : nat) (b : list nat) : list nat := set_nth_nat (S i) (S c) (set_nth_nat i c b).

Lemma set_nth_nat_length : forall i x b, length (set_nth_nat i x b) = length b.
Proof. induction i; destruct b; cbn; auto. Qed.
Lemma nth_set_nth_nat : forall i j x b,
  nth j (set_nth_nat i x b) 0 = if (j =? i) && (i <? length b) then x else nth j b 0.
Proof.
  induction i as [|i IH]; intros j x b; destruct b as [|a b]; cbn [set_nth_nat length].
  - rewrite andb_false_r. reflexivity.
  - destruct j; reflexivity.
  - rewrite andb_false_r. reflexivity.
  - destruct j as [|j]; [reflexivity|]. cbn [nth]. rewrite IH. reflexivity.
Qed.
Lemma nth_set2 : forall i x y b j, S i < length b ->
  nth j (set_nth_nat (S i) y (set_nth_nat i x b)) 0 =
  if j =? i then x else if j =? S i then y else nth j b 0.
Proof.
  intros i x y b j Hi. rewrite !nth_set_nth_nat, set_nth_nat_length.
  rewrite (proj2 (Nat.ltb_lt _ _) Hi), (proj2 (Nat.ltb_lt _ _) (Nat.lt_succ_l _ _ Hi)), !andb_true_r.
  destruct (Nat.eqb_spec j (S i)) as [->|N]; [|reflexivity].
  rewrite (proj2 (Nat.eqb_neq _ _) (Nat.neq_succ_diag_l i)). reflexivity.
Qed.

Lemma upd2_length : forall i c b, length (upd2 i c b) = length b.
Proof. intros. unfold upd2. rewrite !set_nth_nat_length. reflexivity. Qed.
Lemma nth_upd2 : forall i c b j, S i < length b ->
  nth j (upd2 i c b) 0 = if j =? i then c else if j =? S i then S c else nth j b 0.
Proof. intros i c b j. apply nth_set2. Qed.

Lemma upd2_perm : forall b i c, S i < length b ->
  Permutation (nth i b 0 :: nth (S i) b 0 :: upd2 i c b) (c :: S c :: b).
Proof.
  unfold upd2. induction b as [|x b IH]; intros i c Hi; [inversion Hi|].
  destruct i as [|i].
  - destruct b as [|y b]; [cbn in Hi; lia|]. exact (Permutation_app_swap_app [x; y] [c; S c] b).
  - cbn [nth set_nth_nat].
    etransitivity; [exact (Permutation_app_swap_app [_; _] [x] _)|].
    etransitivity; [apply perm_skip, IH, Nat.succ_lt_mono, Hi|].
    exact (Permutation_app_swap_app [x] [c; S c] b).
Qed.

(* the rows stay duplicate free, below the counter of fresh labels *)
Lemma upd2_fresh : forall b i c, S i < length b -> NoDup b -> Forall (fun x => x < c) b ->
  NoDup (upd2 i c b) /\ Forall (fun x => x < S (S c)) (upd2 i c b).
Proof.
  intros b i c Hi ND F. pose proof (Permutation_sym (upd2_perm b i c Hi)) as P.
  rewrite Forall_forall in F. split.
  - assert (ND2 : NoDup (c :: S c :: b)).
    { constructor; [intros [E|H]; [lia|apply F in H; lia]|].
      constructor; [intros H; apply F in H; lia|exact ND]. }
    apply (Permutation_NoDup P) in ND2. inversion ND2 as [|? ? _ ND3]. inversion ND3; auto.
  - apply Forall_forall. intros x Hx.
    assert (Hx' : In x (c :: S c :: b)) by (apply (Permutation_in _ (Permutation_sym P)); cbn; auto).
    destruct Hx' as [<-|[<-|Hx']]; [lia|lia|apply F in Hx'; lia].
Qed.

Definition low_in_place (t : nat) (b : list nat) : Prop :=
  forall j, j < length b -> nth j b 0 < t -> nth j b 0 = j.

Lemma low_in_place_upd2 : forall t b i c, S i < length b -> t <= c ->
  low_in_place t b -> low_in_place t (upd2 i c b).
Proof.
  intros t b i c Hi Ht L j Hj. rewrite upd2_length in Hj. rewrite nth_upd2 by exact Hi.
  destruct (j =? i); [lia|]. destruct (j =? S i); [lia|]. apply L, Hj.
Qed.

Lemma seq_2S : forall c k, seq c (2 * S k) = c :: S c :: seq (S (S c)) (2 * k).
Proof. intros. replace (2 * S k) with (S (S (2 * k))) by lia. reflexivity. Qed.

Lemma closure_loop_cons : forall s w c b bt code, closure_loop (s :: w) c b = Some (bt, code) ->
  let i := Z.abs_nat s - 1 in
  s <> 0%Z /\ S i < length b /\
  exists code', closure_loop w (S (S c)) (upd2 i c b) = Some (bt, code') /\
    code = (if (0 <? s)%Z then (nth i b 0, c, S c, nth (S i) b 0)
            else (nth (S i) b 0, nth i b 0, c, S c)) :: code'.
Proof.
  intros s w c b bt code E i. cbn [closure_loop] in E. fold i in E.
  destruct (Z.abs_nat s =? 0) eqn:Z0; [discriminate|].
  destruct (S i <? length b) eqn:Hi; [|discriminate].
  fold (upd2 i c b) in E.
  destruct (closure_loop w (S (S c)) (upd2 i c b)) as [[bt' code']|]; [|discriminate].
  injection E as <- <-. split; [intros ->; discriminate|]. split; [apply Nat.ltb_lt, Hi|].
  exists code'. auto.
Qed.

Lemma closure_loop_inv : forall w c b bt code t,
  closure_loop w c b = Some (bt, code) ->
  NoDup b -> Forall (fun x => x < c) b -> t <= c -> low_in_place t b ->
  length code = length w /\ length bt = length b /\
  (exists ins, Permutation (flat_code code) (ins ++ seq c (2 * length w)) /\
               Permutation (ins ++ bt) (b ++ seq c (2 * length w))) /\
  low_in_place t bt /\ NoDup bt.
Proof.
  induction w as [|s w IH]; intros c b bt code t E ND F Ht L.
  - injection E as <- <-. repeat split; auto. exists []. cbn. rewrite app_nil_r. auto.
  - destruct (closure_loop_cons _ _ _ _ _ _ E) as (_ & Hi & code' & R & ->).
    set (i := Z.abs_nat s - 1) in *.
    destruct (upd2_fresh b i c Hi ND F) as [ND' F'].
    destruct (IH _ _ _ _ t R ND' F' (le_S _ _ (le_S _ _ Ht))
                 (low_in_place_upd2 t b i c Hi Ht L)) as (L1 & L2 & (ins & PA & PB) & L3 & L4).
    rewrite upd2_length in L2. cbn [length]. rewrite seq_2S.
    split; [f_equal; exact L1|]. split; [exact L2|]. split; [|auto].
    exists (nth i b 0 :: nth (S i) b 0 :: ins). split.
    + change (flat_code (?x :: code')) with (flat_x x ++ flat_code code'). rewrite PA.
      destruct (0 <? s)%Z; cbn [flat_x app].
      * apply perm_skip. exact (Permutation_app_swap_app [c; S c] (_ :: ins) _).
      * etransitivity; [apply perm_swap|]. do 2 apply perm_skip.
        exact (Permutation_app_swap_app [c; S c] ins _).
    + cbn [app]. rewrite PB, 2 app_comm_cons, (upd2_perm b i c Hi).
      exact (Permutation_app_swap_app [c; S c] b _).
Qed.

(* the loop started on the top row 0 .. n-1 *)
Lemma closure_loop_inv0 : forall n w bt code, closure_loop w n (seq 0 n) = Some (bt, code) ->
  length code = length w /\ length bt = n /\
  (exists ins, Permutation (flat_code code) (ins ++ seq n (2 * length w)) /\
               Permutation (ins ++ bt) (seq 0 n ++ seq n (2 * length w))) /\
  low_in_place n bt /\ NoDup bt.
Proof.
  intros n w bt code CL. rewrite <- (seq_length n 0) at 1.
  apply (closure_loop_inv w n (seq 0 n) bt code n CL (seq_NoDup n 0)); auto.
  - apply Forall_forall. intros x Hx. apply in_seq in Hx. apply Hx.
  - intros j Hj _. rewrite seq_length in Hj. apply seq_nth, Hj.
Qed.

Lemma conn_lookup_nth : forall bt k j, NoDup bt -> j < length bt ->
  conn_lookup bt k (nth j bt 0) = k + j.
Proof.
  induction bt as [|x r IH]; intros k j H Hj; [inversion Hj|]. inversion H as [|? ? Hx Hr]; subst.
  destruct j as [|j]; cbn [nth conn_lookup].
  - rewrite Nat.eqb_refl. apply plus_n_O.
  - apply Nat.succ_lt_mono in Hj. destruct (Nat.eqb_spec x (nth j r 0)) as [E|N].
    + exfalso. apply Hx. rewrite E. apply nth_In, Hj.
    + rewrite IH by auto. apply Nat.add_succ_comm.
Qed.
Lemma conn_lookup_notin : forall bt k y, ~ In y bt -> conn_lookup bt k y = y.
Proof.
  induction bt as [|x r IH]; intros k y H; cbn; auto.
  destruct (Nat.eqb_spec x y) as [->|N]; [exfalso; apply H; cbn; auto|].
  apply IH. intros Hy. apply H. cbn; auto.
Qed.
Lemma no_free_loop_spec : forall bt k, no_free_loop bt k = true -> forall j, j < length bt -> nth j bt 0 <> k + j.
Proof.
  induction bt as [|x r IH]; intros k H j Hj; cbn in *; [lia|].
  apply andb_true_iff in H. destruct H as [H1 H2]. apply negb_true_iff, Nat.eqb_neq in H1.
  destruct j as [|j]; [lia|]. specialize (IH (S k) H2 j ltac:(lia)). lia.
Qed.

Lemma closure_loop_length_X : forall code, Forall (fun c => ct c = X) (link_of_code code).
Proof. induction code as [|[[[a b] c] d] code IH]; cbn; constructor; auto. Qed.

Lemma crossing_num_all_X : forall l, Forall (fun c => ct c = X) l -> crossing_num l = length l.
Proof.
  induction l as [|c l IH]; intros H; [reflexivity|]. inversion H; subst.
  unfold crossing_num in *. cbn. unfold is_resolved at 1. rewrite H2. cbn. rewrite IH; auto.
Qed.

Lemma map_flat_rename : forall f code,
  flat_code (map (fun x => match x with (a, b, c, d) => (f a, f b, f c, f d) end) code) = map f (flat_code code).
Proof.
  induction code as [|[[[a b] c] d] code IH]; cbn; auto. unfold flat_code in IH. rewrite IH. reflexivity.
Qed.

(* the closure, when defined: valid, one X crossing per letter *)
Theorem closure_valid : forall strands w l, closure strands w = Some l ->
  Valid l /\ length l = length w /\ crossing_num l = length w /\ Forall (fun c => ct c = X) l.
Proof.
  intros s w l E. unfold closure, closure_code in E.
  destruct (closure_loop w s (seq 0 s)) as [[bt code]|] eqn:CL; [|discriminate].
  destruct (no_free_loop bt 0) eqn:NF; [|discriminate]. injection E as <-.
  set (f := conn_lookup bt 0).
  destruct (closure_loop_inv0 s w bt code CL) as (L1 & L2 & (ins & PA & PB) & L3 & L4).
  (* the renaming sends the bottom row to 0..s-1 and fixes 0..s-1 *)
  assert (Fbt : map f bt = seq 0 s).
  { apply (nth_ext _ _ (f 0) 0); [rewrite map_length, seq_length; auto|].
    intros j Hj. rewrite map_length in Hj. rewrite map_nth. rewrite seq_nth by lia.
    unfold f. rewrite conn_lookup_nth; auto. }
  assert (Hlow : forall i, i < s -> ~ In i bt).
  { intros i Hi Hin. apply (In_nth _ _ 0) in Hin. destruct Hin as [j [Hj Ej]].
    assert (nth j bt 0 = j) by (apply L3; auto; lia).
    pose proof (no_free_loop_spec bt 0 NF j Hj). lia. }
  assert (Ftop : map f (seq 0 s) = seq 0 s).
  { rewrite <- (map_id (seq 0 s)) at 2. apply map_ext_in. intros i Hi. apply in_seq in Hi.
    unfold f. apply conn_lookup_notin. apply Hlow. lia. }
  set (M := map f (seq s (2 * length w))).
  assert (NM : NoDup M).
  { unfold M. apply NoDup_map_local; [|apply seq_NoDup].
    intros e e' He He' Ef. apply in_seq in He, He'.
    assert (Hcase : forall x, In x bt -> exists j, j < s /\ f x = j /\ nth j bt 0 = x).
    { intros x Hx. apply (In_nth _ _ 0) in Hx. destruct Hx as [j [Hj Ej]]. exists j. split; [lia|].
      split; auto. unfold f. rewrite <- Ej. rewrite conn_lookup_nth; auto. }
    destruct (in_dec Nat.eq_dec e bt) as [I1|I1]; destruct (in_dec Nat.eq_dec e' bt) as [I2|I2].
    - destruct (Hcase e I1) as (j & _ & F1 & N1). destruct (Hcase e' I2) as (j' & _ & F2 & N2). congruence.
    - destruct (Hcase e I1) as (j & Hj & F1 & _). unfold f in Ef at 2. rewrite (conn_lookup_notin _ _ _ I2) in Ef. lia.
    - destruct (Hcase e' I2) as (j & Hj & F1 & _). unfold f in Ef at 1. rewrite (conn_lookup_notin _ _ _ I1) in Ef. lia.
    - unfold f in Ef. rewrite !conn_lookup_notin in Ef; auto. }
  (* the ins, renamed, are the outs *)
  assert (PM : Permutation (map f ins) M).
  { apply (Permutation_map f) in PB. rewrite !map_app, Fbt, Ftop in PB.
    apply (Permutation_app_inv_r (seq 0 s)). rewrite PB. apply Permutation_app_comm. }
  split; [|split; [|split]].
  - unfold Valid. apply (valid_double M _ NM). rewrite edge_labels_link_of_code, map_flat_rename.
    rewrite (Permutation_map f PA), map_app, PM. reflexivity.
  - unfold link_of_code. rewrite !map_length. exact L1.
  - rewrite crossing_num_all_X by apply closure_loop_length_X.
    unfold link_of_code. rewrite !map_length. exact L1.
  - apply closure_loop_length_X.
Qed.
