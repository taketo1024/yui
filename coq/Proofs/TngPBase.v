(* Tangle layer (Model/Tng.v), part 1: list facts, the segments of a path, and
   Path::connect preserves the multiset of segments.

   A path [v0; v1; ...; vn] is read as a walk in the graph whose vertices are the edge labels of the diagram and
   whose edges ("segments") are the strands inside the resolved crossings: the segments of an arc are the
   consecutive pairs {v(i), v(i+1)}, a circle has the closing segment {vn, v0} in addition (a one-label circle [e],
   the kink, is the loop {e, e}).  Segments are unordered: they are stored as (min, max). *)
From Coq Require Import List Arith Bool Lia Permutation.
Import ListNotations.
Require Import Yui.Model.Link Yui.Model.Tng.
Require Import Yui.Base.ListFacts.

Lemma last_indep : forall (l : list nat) d d', l <> [] -> last l d = last l d'.
Proof. exact (@ListFacts.last_indep nat). Qed.

Lemma hd_app_ne : forall (a b : list nat) d, a <> [] -> hd d (a ++ b) = hd d a.
Proof. intros a b d Ha. destruct a; [contradiction|reflexivity]. Qed.

Lemma hd_rev : forall (l : list nat) d, hd d (rev l) = last l d.
Proof.
  induction l as [|x l IH]; intros d; [reflexivity|].
  cbn [rev]. destruct l as [|y l]; [reflexivity|].
  rewrite hd_app_ne; [rewrite IH; reflexivity|].
  cbn [rev]. intros E. apply app_eq_nil in E. destruct E; discriminate.
Qed.

Lemma last_rev : forall (l : list nat) d, last (rev l) d = hd d l.
Proof. intros l d. rewrite <- (rev_involutive l) at 2. rewrite hd_rev. reflexivity. Qed.

Lemma tl_rev : forall (l : list nat), tl (rev l) = rev (removelast l).
Proof.
  intros l. induction l as [|x l _] using rev_ind; [reflexivity|].
  rewrite rev_unit, removelast_last. reflexivity.
Qed.

Lemma removelast_rev : forall (l : list nat), removelast (rev l) = rev (tl l).
Proof. intros [|x r]; [reflexivity|]. cbn [rev tl]. apply removelast_last. Qed.

Lemma removelast_length : forall (l : list nat), length (removelast l) = length l - 1.
Proof.
  intros l. induction l as [|x l _] using rev_ind; [reflexivity|].
  rewrite removelast_last, app_length. cbn. lia.
Qed.

Lemma removelast_ne : forall (l : list nat), 2 <= length l -> removelast l <> [].
Proof. intros l Hl E. apply (f_equal (@length nat)) in E. rewrite removelast_length in E. cbn in E. lia. Qed.

Lemma hd_removelast : forall (l : list nat) d, 2 <= length l -> hd d (removelast l) = hd d l.
Proof. intros [|x [|y l]] d Hl; cbn in Hl; try lia. reflexivity. Qed.

Lemma in_removelast : forall (l : list nat) v, In v (removelast l) -> In v l.
Proof.
  intros l v. induction l as [|x l _] using rev_ind; [auto|].
  rewrite removelast_last. intros. apply in_or_app. auto.
Qed.

Lemma in_tl : forall (l : list nat) v, In v (tl l) -> In v l.
Proof. intros [|x l] v; cbn; auto. Qed.

Lemma in_split_last : forall (l : list nat) v d, In v l -> In v (removelast l) \/ v = last l d.
Proof.
  intros l v d. induction l as [|x l _] using rev_ind; [contradiction|].
  rewrite removelast_last, last_last. intros Hi. apply in_app_or in Hi. destruct Hi as [|[E|[]]]; auto.
Qed.

Lemma in_split_hd : forall (l : list nat) v d, In v l -> v = hd d l \/ In v (tl l).
Proof. intros [|x l] v d; cbn; [contradiction|]. intros [E|Hi]; auto. Qed.

Lemma NoDup_removelast : forall (l : list nat), NoDup l -> NoDup (removelast l).
Proof.
  intros l. induction l as [|x l _] using rev_ind; [auto|].
  rewrite removelast_last. intros Hn. apply NoDup_app_inv in Hn. tauto.
Qed.

Lemma NoDup_tl : forall (l : list nat), NoDup l -> NoDup (tl l).
Proof. intros [|x l] Hn; [auto|]. inversion Hn; auto. Qed.

Lemma NoDup_last_notin : forall (l : list nat) d, NoDup l -> l <> [] -> ~ In (last l d) (removelast l).
Proof.
  intros l d. induction l as [|x l _] using rev_ind; [contradiction|].
  rewrite removelast_last, last_last. intros Hn _ Hi.
  apply NoDup_remove_2 in Hn. rewrite app_nil_r in Hn. contradiction.
Qed.

Lemma NoDup_hd_notin : forall (l : list nat) d, NoDup l -> l <> [] -> ~ In (hd d l) (tl l).
Proof. intros [|x l] d Hn Hl; [contradiction|]. inversion Hn; auto. Qed.

Lemma NoDup_rev' : forall (l : list nat), NoDup l -> NoDup (rev l).
Proof. intros. apply NoDup_rev; auto. Qed.

Lemma mem_iff : forall e l, mem e l = true <-> In e l.
Proof. exact existsb_eqb_In. Qed.

Definition nseg (a b : nat) : nat * nat := (Nat.min a b, Nat.max a b).
Fixpoint arc_segs (l : list nat) : list (nat * nat) :=
  match l with
  | a :: ((b :: _) as r) => nseg a b :: arc_segs r
  | _ => []
  end.
Definition circ_segs (l : list nat) : list (nat * nat) :=
  match l with [] => [] | x :: _ => arc_segs (l ++ [x]) end.
Definition segs (p : path) : list (nat * nat) :=
  if pclosed p then circ_segs (pedges p) else arc_segs (pedges p).

(* Path::new's invariant: an arc has at least one label *)
Definition pwf (p : path) : Prop := pclosed p = true \/ pedges p <> [].

Lemma nseg_sym : forall a b, nseg a b = nseg b a.
Proof. intros. unfold nseg. rewrite Nat.min_comm, Nat.max_comm. reflexivity. Qed.

Lemma arc_segs_cons2 : forall a b r, arc_segs (a :: b :: r) = nseg a b :: arc_segs (b :: r).
Proof. reflexivity. Qed.

(* gluing x and y at the shared label  last x = hd y *)
Definition join (x y : list nat) : list nat := removelast x ++ y.

Lemma arc_segs_join : forall x y, x <> [] -> y <> [] -> last x 0 = hd 0 y ->
  arc_segs (join x y) = arc_segs x ++ arc_segs y.
Proof.
  unfold join. induction x as [|a x IH]; intros y Hx Hy E; [contradiction|].
  destruct x as [|b x].
  - reflexivity.
  - assert (Hb : b :: x <> []) by discriminate.
    specialize (IH y Hb Hy). cbn [last] in E. cbn [last] in IH. specialize (IH E).
    change (removelast (a :: b :: x)) with (a :: removelast (b :: x)).
    cbn [app]. rewrite arc_segs_cons2, <- app_comm_cons. rewrite <- IH.
    destruct x as [|c x].
    + cbn [removelast app]. destruct y as [|y0 y]; [contradiction|]. cbn in E. subst. reflexivity.
    + reflexivity.
Qed.

Lemma arc_segs_snoc : forall l a b, arc_segs (l ++ [a; b]) = arc_segs (l ++ [a]) ++ [nseg a b].
Proof.
  induction l as [|x l IH]; intros a b; [reflexivity|].
  destruct l as [|y l].
  - reflexivity.
  - cbn [app]. rewrite !arc_segs_cons2. change (y :: l ++ [a; b]) with ((y :: l) ++ [a; b]).
    rewrite IH. reflexivity.
Qed.

Lemma arc_segs_rev : forall l, Permutation (arc_segs (rev l)) (arc_segs l).
Proof.
  induction l as [|a l IH]; [constructor|].
  destruct l as [|b l]; [constructor|].
  rewrite arc_segs_cons2. cbn [rev]. rewrite <- app_assoc. cbn [app].
  rewrite arc_segs_snoc. change (rev l ++ [b]) with (rev (b :: l)).
  rewrite (nseg_sym b a). eapply perm_trans; [apply Permutation_app_comm|]. cbn [app].
  constructor. exact IH.
Qed.

(* closing: es = [x; ...; x]  ->  circle removelast es *)
Lemma circ_segs_close : forall es, hd 0 es = last es 0 -> circ_segs (removelast es) = arc_segs es.
Proof.
  intros es E. destruct es as [|x [|y es]]; [reflexivity|reflexivity|].
  assert (Hne : x :: y :: es <> []) by discriminate.
  change (removelast (x :: y :: es)) with (x :: removelast (y :: es)).
  unfold circ_segs. cbn [hd] in E.
  f_equal. rewrite (app_removelast_last 0 Hne) at 1. rewrite <- E.
  reflexivity.
Qed.

Lemma join_tl : forall x y, x <> [] -> y <> [] -> last x 0 = hd 0 y -> x ++ tl y = join x y.
Proof.
  intros x y Hx Hy E. unfold join. rewrite (app_removelast_last 0 Hx) at 1. rewrite <- app_assoc. cbn [app].
  destruct y as [|y0 y]; [contradiction|]. cbn in E. subst. reflexivity.
Qed.

(* each of the four cases of glue is a join, of a and b or of b and a, with b possibly reversed: a property of
   gluings holds of [glue a b] if it holds of joins, is symmetric in the two lists and indifferent to the direction of
   the second *)
Lemma glue_ind : forall P : list nat -> list nat -> list nat -> Prop,
  (forall x y, x <> [] -> y <> [] -> last x 0 = hd 0 y -> P x y (join x y)) ->
  (forall x y r, P x y r -> P y x r) -> (forall x y r, P x (rev y) r -> P x y r) ->
  forall a b, a <> [] -> b <> [] ->
  (hd 0 a =? hd 0 b) || (hd 0 a =? last b 0) || (last a 0 =? hd 0 b) || (last a 0 =? last b 0) = true ->
  P a b (glue a b).
Proof.
  intros P Hj Hs Hr a b Ha Hb Hc. unfold glue.
  assert (Hb' : rev b <> []).
  { intros Er. apply (f_equal (@rev nat)) in Er. rewrite rev_involutive in Er. contradiction. }
  destruct (last a 0 =? hd 0 b) eqn:E1.
  { apply Nat.eqb_eq in E1. rewrite join_tl by auto. apply Hj; auto. }
  destruct (last a 0 =? last b 0) eqn:E2.
  { apply Nat.eqb_eq in E2. rewrite <- (hd_rev b) in E2. rewrite <- tl_rev, join_tl by auto. apply Hr, Hj; auto. }
  destruct (hd 0 a =? hd 0 b) eqn:E3.
  { apply Nat.eqb_eq in E3. rewrite <- removelast_rev. apply Hr, Hs, (Hj (rev b) a); auto.
    rewrite last_rev. auto. }
  destruct (hd 0 a =? last b 0) eqn:E4.
  { apply Nat.eqb_eq in E4. apply Hs, (Hj b a); auto. }
  cbn in Hc. discriminate.
Qed.

Lemma join_ne : forall x y, y <> [] -> join x y <> [].
Proof. intros x y Hy E. apply app_eq_nil in E. destruct E; contradiction. Qed.

Lemma connectable_arcs : forall p q, p_connectable p q = true -> pclosed p = false /\ pclosed q = false.
Proof.
  intros p q. unfold p_connectable, p_ends. destruct (pclosed p), (pclosed q); auto; discriminate.
Qed.

Lemma connectable_spec : forall p q, pclosed p = false -> pclosed q = false ->
  p_connectable p q =
  (hd 0 (pedges p) =? hd 0 (pedges q)) || (hd 0 (pedges p) =? last (pedges q) 0) ||
  (last (pedges p) 0 =? hd 0 (pedges q)) || (last (pedges p) 0 =? last (pedges q) 0).
Proof. intros p q Hp Hq. unfold p_connectable, p_ends. rewrite Hp, Hq. reflexivity. Qed.

Lemma close_up_pwf : forall es, pwf (close_up es).
Proof.
  intros es. unfold close_up, pwf. destruct (hd 0 es =? last es 0) eqn:E; cbn; auto.
  right. intros ->. cbn in E. discriminate.
Qed.

Lemma close_up_segs : forall es, segs (close_up es) = arc_segs es.
Proof.
  intros es. unfold close_up, segs. destruct (hd 0 es =? last es 0) eqn:E; cbn [pclosed pedges]; auto.
  apply circ_segs_close. apply Nat.eqb_eq; auto.
Qed.

Lemma p_connect_pwf : forall p q r, p_connect p q = Some r -> pwf r.
Proof.
  intros p q r. unfold p_connect. destruct (p_connectable p q); [|discriminate].
  intros E. inversion E. apply close_up_pwf.
Qed.

Lemma pwf_arc_ne : forall p, pwf p -> pclosed p = false -> pedges p <> [].
Proof. intros p [Hc|Hn] Hp; auto. congruence. Qed.

Theorem p_connect_segs : forall p q r, pwf p -> pwf q -> p_connect p q = Some r ->
  Permutation (segs r) (segs p ++ segs q).
Proof.
  intros p q r Wp Wq. unfold p_connect. destruct (p_connectable p q) eqn:Hc; [|discriminate].
  intros E. inversion E; subst r; clear E.
  destruct (connectable_arcs _ _ Hc) as [Hp Hq]. rewrite connectable_spec in Hc by auto.
  rewrite close_up_segs. unfold segs. rewrite Hp, Hq.
  apply (glue_ind (fun x y r => Permutation (arc_segs r) (arc_segs x ++ arc_segs y))); auto using pwf_arc_ne.
  - intros x y Hx Hy El. rewrite arc_segs_join by auto. apply Permutation_refl.
  - intros x y r H. exact (perm_trans H (Permutation_app_comm _ _)).
  - intros x y r H. exact (perm_trans H (Permutation_app_head _ (arc_segs_rev y))).
Qed.

Lemma p_connect_none : forall p q, p_connect p q = None <-> p_connectable p q = false.
Proof. intros p q. unfold p_connect. destruct (p_connectable p q); split; congruence. Qed.
