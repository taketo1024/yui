(* C18 - the permutation of a braid word and its cycles (pure combinatorics, no diagrams).
   [prow n w k] : the list whose j-th entry is the top position of the strand that is at position j of
   level k;  [prow n w |w|] = [braid_perm n w].  Every row is a permutation of 0..n-1.
   For a permutation p of 0..n-1: [cycle_of p n k k] lists the orbit of k (the fuel n suffices), orbits
   are closed under p in both directions, and [count_cycles p] is the length of the list [cycle_reps p] of
   the first elements of the orbits. *)
From Coq Require Import List Arith Bool Lia ZArith.
Require Import Yui.Model.Link Yui.Model.Braid Yui.Proofs.C18Base Yui.Proofs.C18Traverse
  Yui.Proofs.C18Closure Yui.Proofs.C18BraidRows.
Import ListNotations.

Definition pstep (p : list nat) (s : Z) : list nat :=
  set_nth_nat (S (idx s)) (nth (idx s) p 0) (set_nth_nat (idx s) (nth (S (idx s)) p 0) p).
Definition prow (n : nat) (w : list Z) (k : nat) : list nat := fold_left pstep (firstn k w) (seq 0 n).

Lemma braid_perm_loop_fold : forall w p, braid_perm_loop w p = fold_left pstep w p.
Proof. induction w as [|s w IH]; intros p; cbn [braid_perm_loop fold_left]; auto. Qed.
Lemma prow_all : forall n w, prow n w (length w) = braid_perm n w.
Proof. intros. unfold prow, braid_perm. rewrite firstn_all. symmetry. apply braid_perm_loop_fold. Qed.
Lemma prow_0 : forall n w, prow n w 0 = seq 0 n.
Proof. reflexivity. Qed.
Lemma prow_S : forall n w k, k < length w -> prow n w (S k) = pstep (prow n w k) (nth k w 0%Z).
Proof.
  intros n w k Hk. unfold prow. rewrite firstn_S_nth by exact Hk. rewrite fold_left_app. reflexivity.
Qed.
Lemma pstep_length : forall p s, length (pstep p s) = length p.
Proof. intros. unfold pstep. rewrite !set_nth_nat_length. reflexivity. Qed.
Lemma nth_pstep : forall p s j, S (idx s) < length p ->
  nth j (pstep p s) 0 = if j =? idx s then nth (S (idx s)) p 0
                        else if j =? S (idx s) then nth (idx s) p 0 else nth j p 0.
Proof.
  intros p s j. apply nth_set2.
Qed.

(* pstep composes p with the transposition of the positions idx s and idx s + 1 *)
Definition swp (i j : nat) : nat := if j =? i then S i else if j =? S i then i else j.
Lemma swp_invol : forall i j, swp i (swp i j) = j.
Proof.
  intros i j. unfold swp. destruct (Nat.eqb_spec j i) as [->|A].
  - rewrite (proj2 (Nat.eqb_neq _ _) (Nat.neq_succ_diag_l i)), Nat.eqb_refl. reflexivity.
  - destruct (Nat.eqb_spec j (S i)) as [->|B]; [rewrite Nat.eqb_refl; reflexivity|].
    rewrite (proj2 (Nat.eqb_neq _ _) A), (proj2 (Nat.eqb_neq _ _) B). reflexivity.
Qed.
Lemma swp_lt : forall n i j, S i < n -> j < n -> swp i j < n.
Proof.
  intros n i j Hi Hj. unfold swp. destruct (j =? i); [exact Hi|].
  destruct (j =? S i); [apply Nat.lt_succ_l, Hi|exact Hj].
Qed.
Lemma nth_pstep_swp : forall p s j, S (idx s) < length p -> nth j (pstep p s) 0 = nth (swp (idx s) j) p 0.
Proof.
  intros p s j Hi. rewrite nth_pstep by exact Hi. unfold swp.
  destruct (j =? idx s); [reflexivity|]. destruct (j =? S (idx s)); reflexivity.
Qed.

(* permutations of 0..n-1 given as lists *)
Definition IsPerm (n : nat) (p : list nat) : Prop :=
  length p = n /\ (forall j, j < n -> nth j p 0 < n) /\
  (forall i j, i < n -> j < n -> nth i p 0 = nth j p 0 -> i = j).

Lemma IsPerm_seq : forall n, IsPerm n (seq 0 n).
Proof.
  intros n. split; [apply seq_length|]. split.
  - intros j Hj. rewrite seq_nth; auto.
  - intros i j Hi Hj. rewrite !seq_nth; auto.
Qed.
Lemma IsPerm_pstep : forall n p s, IsPerm n p -> S (idx s) < n -> IsPerm n (pstep p s).
Proof.
  intros n p s (HL & HB & HI) Hi. split; [rewrite pstep_length; auto|]. split.
  - intros j Hj. rewrite nth_pstep_swp by (rewrite HL; exact Hi). apply HB, swp_lt; auto.
  - intros a b Ha Hb. rewrite !nth_pstep_swp by (rewrite HL; exact Hi). intros E.
    apply HI in E; [|apply swp_lt; auto..]. rewrite <- (swp_invol (idx s) a), E. apply swp_invol.
Qed.
Lemma IsPerm_prow : forall n w k, (forall k', k' < length w -> S (idx (nth k' w 0%Z)) < n) ->
  k <= length w -> IsPerm n (prow n w k).
Proof.
  intros n w k Hidx. induction k as [|k IH]; intros Hk; [apply IsPerm_seq|].
  rewrite prow_S by lia. apply IsPerm_pstep; [apply IH; lia|apply Hidx; lia].
Qed.

Section Cycles.
  Variable n : nat.
  Variable p : list nat.
  Hypothesis Hp : IsPerm n p.

  Definition pi (x : nat) : nat := nth x p 0.
  Fixpoint pit (t : nat) (x : nat) : nat := match t with 0 => x | S t' => pi (pit t' x) end.

  Lemma pi_lt : forall x, x < n -> pi x < n.
  Proof. intros x Hx. destruct Hp as (_ & HB & _). apply HB; auto. Qed.
  Lemma pi_inj : forall x y, x < n -> y < n -> pi x = pi y -> x = y.
  Proof. intros x y Hx Hy. destruct Hp as (_ & _ & HI). apply HI; auto. Qed.
  Lemma pit_lt : forall t x, x < n -> pit t x < n.
  Proof. induction t; intros; cbn [pit]; auto. apply pi_lt; auto. Qed.

  Section Orbit.
    Variable k : nat.
    Hypothesis Hk : k < n.

    Definition PInj (t : nat) : Prop := forall a b, a <= t -> b <= t -> pit a k = pit b k -> a = b.

    Lemma PInj_bound : forall t, PInj t -> S t <= n.
    Proof.
      intros t HI.
      assert (ND : NoDup (map (fun a => pit a k) (seq 0 (S t)))).
      { apply NoDup_map_local; [|apply seq_NoDup].
        intros a b Ha Hb. apply in_seq in Ha, Hb. apply HI; lia. }
      assert (Inc : incl (map (fun a => pit a k) (seq 0 (S t))) (seq 0 n)).
      { intros x Hx. apply in_map_iff in Hx. destruct Hx as [a [<- _]]. apply in_seq.
        pose proof (pit_lt a k Hk). lia. }
      pose proof (NoDup_incl_length ND Inc) as B. rewrite map_length, !seq_length in B. exact B.
    Qed.

    Lemma cycle_of_spec : forall fuel t, PInj t -> n <= fuel + t ->
      exists T, t < T /\ pit T k = k /\ PInj (T - 1) /\
        cycle_of p fuel k (pit t k) = map (fun a => pit a k) (seq t (T - t)).
    Proof.
      induction fuel as [|fuel IH]; intros t HI Hf.
      - pose proof (PInj_bound t HI). lia.
      - cbn [cycle_of]. fold (pi (pit t k)). change (pi (pit t k)) with (pit (S t) k).
        destruct (Nat.eqb_spec (pit (S t) k) k) as [E|E].
        + exists (S t). split; [lia|]. split; [exact E|].
          split; [replace (S t - 1) with t by lia; exact HI|].
          replace (S t - t) with 1 by lia. reflexivity.
        + assert (HI' : PInj (S t)).
          { refine (no_repeat_step _ (fun a => pit a k) _ t HI E).
            intros a b. apply pi_inj; apply pit_lt; auto. }
          destruct (IH (S t) HI' ltac:(lia)) as (T & HT & Hc & HIT & Ec).
          exists T. split; [lia|]. split; [exact Hc|]. split; [exact HIT|].
          rewrite Ec. replace (T - t) with (S (T - S t)) by lia. reflexivity.
    Qed.

    Definition cyc : list nat := cycle_of p n k k.

    Lemma cyc_spec : exists T, 1 <= T /\ pit T k = k /\ cyc = map (fun a => pit a k) (seq 0 T).
    Proof.
      assert (HI0 : PInj 0) by (intros a b Ha Hb _; lia).
      destruct (cycle_of_spec n 0 HI0 ltac:(lia)) as (T & HT & Hc & _ & Ec).
      exists T. split; [lia|]. split; auto. unfold cyc. cbn [pit] in Ec. rewrite Ec, Nat.sub_0_r. reflexivity.
    Qed.

    Lemma cyc_self : In k cyc.
    Proof.
      destruct cyc_spec as (T & HT & _ & ->). apply in_map_iff. exists 0. split; auto. apply in_seq. lia.
    Qed.
    Lemma cyc_lt : forall x, In x cyc -> x < n.
    Proof.
      destruct cyc_spec as (T & HT & _ & ->). intros x Hx. apply in_map_iff in Hx.
      destruct Hx as [a [<- _]]. apply pit_lt; auto.
    Qed.
    Lemma cyc_closed : forall z, z < n -> (In z cyc <-> In (pi z) cyc).
    Proof.
      destruct cyc_spec as (T & HT & Hc & ->). intros z Hz. rewrite !in_map_iff. split.
      - intros [a [<- Ha]]. apply in_seq in Ha. destruct (Nat.eq_dec (S a) T) as [E|N].
        + exists 0. split; [|apply in_seq; lia]. cbn [pit]. change (pi (pit a k)) with (pit (S a) k). rewrite E. symmetry. exact Hc.
        + exists (S a). split; [reflexivity|apply in_seq; lia].
      - intros [a [E Ha]]. apply in_seq in Ha. destruct a as [|a].
        + exists (T - 1). split; [|apply in_seq; lia]. cbn [pit] in E.
          apply pi_inj; auto; [apply pit_lt; auto|].
          change (pi (pit (T - 1) k)) with (pit (S (T - 1)) k). replace (S (T - 1)) with T by lia. congruence.
        + exists a. split; [|apply in_seq; lia]. cbn [pit] in E. apply pi_inj; auto. apply pit_lt; auto.
    Qed.
  End Orbit.

  (* two positions are in the same cycle: no set closed under p in both directions separates them *)
  Definition peq (x y : nat) : Prop :=
    forall S : nat -> Prop, (forall z, z < n -> (S z <-> S (pi z))) -> (S x <-> S y).
  Lemma peq_refl : forall x, peq x x.
  Proof. intros x S _. tauto. Qed.
  Lemma peq_sym : forall x y, peq x y -> peq y x.
  Proof. intros x y H S HS. specialize (H S HS). tauto. Qed.
  Lemma peq_trans : forall x y z, peq x y -> peq y z -> peq x z.
  Proof. intros x y z H1 H2 S HS. specialize (H1 S HS). specialize (H2 S HS). tauto. Qed.
  Lemma peq_pi : forall x, x < n -> peq x (pi x).
  Proof. intros x Hx S HS. apply HS; auto. Qed.
  Lemma peq_cyc : forall a b, a < n -> peq a b -> In b (cyc a).
  Proof.
    intros a b Ha H. apply (H (fun z => In z (cyc a))); [|apply cyc_self; auto].
    intros z Hz. apply cyc_closed; auto.
  Qed.
  Lemma cyc_peq : forall a b, a < n -> In b (cyc a) -> peq a b.
  Proof.
    intros a b Ha Hb. destruct (cyc_spec a Ha) as (T & _ & _ & E). rewrite E in Hb.
    apply in_map_iff in Hb. destruct Hb as [t [<- _]]. clear E.
    induction t as [|t IH]; [apply peq_refl|]. cbn [pit].
    eapply peq_trans; [exact IH|]. apply peq_pi. apply pit_lt; auto.
  Qed.

  (* the representatives counted by count_cycles *)
  Fixpoint reps_loop (ks seen : list nat) : list nat :=
    match ks with
    | [] => []
    | k :: r => if mem k seen then reps_loop r seen else k :: reps_loop r (cyc k ++ seen)
    end.
  Definition cycle_reps : list nat := reps_loop (seq 0 n) [].

  Lemma reps_loop_count : forall ks seen, count_cycles_loop p ks seen = length (reps_loop ks seen).
  Proof.
    destruct Hp as (HL & _). induction ks as [|k r IH]; intros seen; cbn [count_cycles_loop reps_loop]; auto.
    destruct (mem k seen); auto. cbn [length]. rewrite HL. fold (cyc k). rewrite IH. reflexivity.
  Qed.
  Lemma cycle_reps_count : count_cycles p = length cycle_reps.
  Proof. unfold count_cycles, cycle_reps. destruct Hp as (HL & _). rewrite HL. apply reps_loop_count. Qed.

  Lemma reps_loop_props : forall ks seen, (forall k, In k ks -> k < n) -> NoDup ks ->
    let rs := reps_loop ks seen in
    NoDup rs /\ (forall r, In r rs -> In r ks /\ ~ In r seen) /\
    (forall a b, In a rs -> In b rs -> peq a b -> a = b) /\
    (forall k, In k ks -> In k seen \/ exists r, In r rs /\ In k (cyc r)).
  Proof.
    induction ks as [|k r IH]; intros seen Hlt Hnd; cbn [reps_loop].
    - cbn. split; [constructor|]. split; [intros ? []|]. split; [intros ? ? []|intros ? []].
    - inversion Hnd as [|? ? Hk Hnd']; subst.
      assert (Hlt' : forall k', In k' r -> k' < n) by (intros; apply Hlt; cbn; auto).
      destruct (mem k seen) eqn:M.
      + apply mem_spec in M. destruct (IH seen Hlt' Hnd') as (A & B & C & E). cbn zeta.
        split; auto. split; [intros x Hx; destruct (B x Hx); split; cbn; auto|]. split; auto.
        intros k' [<-|Hk']; auto.
      + apply mem_false in M. destruct (IH (cyc k ++ seen) Hlt' Hnd') as (A & B & C & E). cbn zeta.
        assert (Hkn : k < n) by (apply Hlt; cbn; auto).
        split; [|split; [|split]].
        * constructor; auto. intros Hx. destruct (B k Hx) as [Hin _]. contradiction.
        * intros x [<-|Hx]; [split; cbn; auto|]. destruct (B x Hx) as [B1 B2]. split; [cbn; auto|].
          intros Hs. apply B2. apply in_app_iff; auto.
        * intros a b [<-|Ha] [<-|Hb] Hab; auto.
          -- exfalso. destruct (B b Hb) as [_ B2]. apply B2. apply in_app_iff. left. apply peq_cyc; auto.
          -- exfalso. destruct (B a Ha) as [_ B2]. apply B2. apply in_app_iff. left.
             apply peq_cyc; auto. apply peq_sym; auto.
        * intros k' [<-|Hk'].
          -- right. exists k. split; [cbn; auto|]. apply cyc_self; auto.
          -- destruct (E k' Hk') as [Hs|(x & Hx & Hc)].
             ++ apply in_app_iff in Hs. destruct Hs as [Hs|Hs]; auto.
                right. exists k. split; [cbn; auto|exact Hs].
             ++ right. exists x. split; [cbn; auto|exact Hc].
  Qed.

  Lemma cycle_reps_props :
    NoDup cycle_reps /\ (forall r, In r cycle_reps -> r < n) /\
    (forall a b, In a cycle_reps -> In b cycle_reps -> peq a b -> a = b) /\
    (forall k, k < n -> exists r, In r cycle_reps /\ peq r k).
  Proof.
    destruct (reps_loop_props (seq 0 n) []) as (A & B & C & E).
    { intros k Hk. apply in_seq in Hk. lia. }
    { apply seq_NoDup. }
    fold cycle_reps in A, B, C, E. split; auto. split; [|split; auto].
    - intros r Hr. destruct (B r Hr) as [Hin _]. apply in_seq in Hin. lia.
    - intros k Hk. destruct (E k ltac:(apply in_seq; lia)) as [[]|(r & Hr & Hc)].
      exists r. split; auto. apply cyc_peq; auto. destruct (B r Hr) as [Hin _]. apply in_seq in Hin. lia.
  Qed.
End Cycles.
