(* C18 - the components of a braid closure correspond to the cycles of the braid permutation.
   [P k j] is the top position of the strand at level k, position j.  Tracing a strand upwards shows that
   the label at (k, j) is connected to the label P k j of level 0, and j is connected to p(j) (one turn
   around the closure), so every label is connected to the representative of a cycle.  Conversely the set
   of labels lying on the strands of a union of cycles is closed under the strand-through-crossing
   relation; this needs that a label determines its vertical segment (two heads with the same label
   coincide, because the other end of an edge is a tail).  *)
From Coq Require Import List Arith Bool Lia ZArith Relations.
Require Import Yui.Model.Link Yui.Model.Braid Yui.Proofs.C18Base Yui.Proofs.C18Traverse
  Yui.Proofs.C18Components Yui.Proofs.C18Orient Yui.Proofs.C18BraidRows Yui.Proofs.C18BraidOrient
  Yui.Proofs.C18BraidWrithe Yui.Proofs.C18BraidPerm.
Import ListNotations.

Section BraidCycles.
  Variable n : nat.
  Variable w : list Z.
  Variable l : link.
  Variable lb : nat -> nat -> nat.
  Hypothesis D : BraidDiag n w l lb.

  Let m := length w.
  Let Hv : Valid l := bd_valid _ _ _ _ D.
  Local Notation sk k := (nth k w 0%Z).
  Local Notation ik k := (idx (nth k w 0%Z)).
  Definition P (k j : nat) : nat := nth j (prow n w k) 0.
  Let p := prow n w m.
  Local Notation peq := (peq n p).

  Lemma Hidx : forall k, k < m -> S (ik k) < n.
  Proof. intros k Hk. apply (bd_idx _ _ _ _ D); auto. Qed.
  Lemma prow_perm : forall k, k <= m -> IsPerm n (prow n w k).
  Proof. intros k Hk. apply IsPerm_prow; auto. intros k' Hk'. apply Hidx; auto. Qed.
  Lemma Hp : IsPerm n p.
  Proof. apply prow_perm. lia. Qed.

  Lemma P_0 : forall j, j < n -> P 0 j = j.
  Proof. intros j Hj. unfold P. rewrite prow_0, seq_nth; auto. Qed.
  Lemma P_lt : forall k j, k <= m -> j < n -> P k j < n.
  Proof. intros k j Hk Hj. destruct (prow_perm k Hk) as (_ & HB & _). apply HB; auto. Qed.
  Lemma P_S : forall k j, k < m ->
    P (S k) j = if j =? ik k then P k (S (ik k)) else if j =? S (ik k) then P k (ik k) else P k j.
  Proof.
    intros k j Hk. unfold P. rewrite prow_S by exact Hk. apply nth_pstep.
    destruct (prow_perm k ltac:(lia)) as (HL & _). rewrite HL. apply Hidx; auto.
  Qed.
  Lemma P_keep : forall k j, k < m -> touchb w k j = false -> P (S k) j = P k j.
  Proof.
    intros k j Hk T. rewrite P_S by auto. apply orb_false_iff in T. destruct T as [T1 T2].
    rewrite T1, T2. reflexivity.
  Qed.
  Lemma P_m : forall j, P m j = pi p j.
  Proof. reflexivity. Qed.

  (* sliding down with the strand identity *)
  Lemma slide : forall k j, k <= m -> j < n ->
    exists k1, k1 < m /\ touchb w k1 j = true /\ lb k1 j = lb k j /\ peq (P k1 j) (P k j).
  Proof.
    intros k j Hk Hj.
    assert (LP_keep : forall k j, k < m -> j < n -> touchb w k j = false ->
              (lb (S k) j, P (S k) j) = (lb k j, P k j)).
    { intros k0 j0 Hk0 Hj0 T. rewrite (lb_keep n w l lb D), P_keep; auto. }
    destruct (next_touch_with n w l lb D _ _ LP_keep k j Hk Hj) as (k1 & H1 & T1 & [E|[E E0]]).
    - injection E as E1 E2. exists k1. rewrite E1, E2. auto using peq_refl.
    - injection E as E1 E2. injection E0 as F1 F2. exists k1. split; [exact H1|]. split; [exact T1|]. split.
      + rewrite F1, <- E1. unfold m. rewrite (lb_m n w l lb D j Hj), (lb_0 n w l lb D j Hj). reflexivity.
      + rewrite F2, <- E2, P_0, P_m by auto. apply peq_pi. exact Hj.
  Qed.

  (* the head of crossing k at position j, with its offset *)
  Lemma head_at : forall k j, k < m -> touchb w k j = true ->
    exists q, InR l q /\ fst q = k /\ slot_out (sk k) (snd q) = false /\
              ik k + slot_off (sk k) (snd q) = j /\ edge_at l q = lb k j.
  Proof.
    intros k j Hk T. destruct (half_edge_at n w l lb D k j false Hk T) as (q & A & B & C & E & F).
    cbn [b2n] in F. rewrite Nat.add_0_r in F. exists q. auto 6.
  Qed.

  (* two heads with the same label coincide *)
  Lemma heads_unique : forall q q', InR l q -> InR l q' ->
    slot_out (sk (fst q)) (snd q) = false -> slot_out (sk (fst q')) (snd q') = false ->
    edge_at l q' = edge_at l q -> q' = q.
  Proof.
    intros q q' Hq Hq' So So' E.
    destruct (same_label_cases l Hv q q' Hq Hq' E) as [->| ->]; auto.
    exfalso. destruct (closure_oriented n w l lb D) as (_ & H2 & _).
    specialize (H2 q Hq). unfold braid_o in H2. rewrite So, So' in H2. discriminate.
  Qed.

  (* a label determines its strand up to the cycle *)
  Lemma lab_inj : forall k j k' j', k <= m -> j < n -> k' <= m -> j' < n ->
    lb k j = lb k' j' -> peq (P k j) (P k' j').
  Proof.
    intros k j k' j' Hk Hj Hk' Hj' E.
    destruct (slide k j Hk Hj) as (k1 & H1 & T1 & L1 & Q1).
    destruct (slide k' j' Hk' Hj') as (k2 & H2 & T2 & L2 & Q2).
    destruct (head_at k1 j H1 T1) as (q1 & R1 & F1 & O1 & J1 & E1).
    destruct (head_at k2 j' H2 T2) as (q2 & R2 & F2 & O2 & J2 & E2).
    assert (Eq : q2 = q1).
    { apply heads_unique; auto; try (rewrite ?F1, ?F2; auto). congruence. }
    assert (Ek : k2 = k1) by (rewrite <- F1, <- F2, Eq; reflexivity).
    rewrite Eq, Ek in J2. assert (Ej : j' = j) by (rewrite <- J1, <- J2; reflexivity).
    rewrite Ek, Ej in Q2.
    eapply peq_trans; [apply peq_sym; exact Q1|]. rewrite Ej. exact Q2.
  Qed.

  (* the two ends of the strand through crossing k *)
  Lemma cross_ends : forall k s, k < m -> s < 4 ->
    exists ka ja kb jb, ka <= m /\ ja < n /\ kb <= m /\ jb < n /\
      edge_at l (k, s) = lb ka ja /\ edge_at l (exit_of l (k, s)) = lb kb jb /\ P ka ja = P kb jb.
  Proof.
    intros k s Hk Hs. pose proof (Hidx k Hk) as Hi.
    rewrite (bd_exit n w l lb D k s Hk).
    rewrite (edge_lab n w l lb D k s Hk Hs).
    rewrite (edge_lab n w l lb D k _ Hk) by (apply Nat.mod_upper_bound; lia).
    rewrite slot_out_pass, slot_off_pass by auto.
    pose proof (slot_off_le (sk k) s) as Ho.
    exists (k + b2n (slot_out (sk k) s)), (ik k + slot_off (sk k) s),
           (k + b2n (negb (slot_out (sk k) s))), (ik k + (1 - slot_off (sk k) s)).
    set (off := slot_off (sk k) s) in *. clearbody off.
    (* crossing k exchanges the strands at positions ik k and ik k + 1 *)
    assert (HP : P (S k) (ik k + (1 - off)) = P k (ik k + off) /\
                 P (S k) (ik k + off) = P k (ik k + (1 - off))).
    { rewrite !P_S by auto. destruct off as [|[|]]; [| |lia]; cbn [Nat.sub];
        rewrite Nat.add_0_r, Nat.add_1_r, !Nat.eqb_refl, (proj2 (Nat.eqb_neq _ _) (Nat.neq_succ_diag_l _)); auto. }
    destruct (slot_out (sk k) s); cbn [negb b2n]; rewrite Nat.add_0_r, Nat.add_1_r;
      repeat split; try lia; first [apply HP|symmetry; apply HP].
  Qed.

  Section Closed.
    Variable S : nat -> Prop.
    Hypothesis HS : forall z, z < n -> (S z <-> S (pi p z)).

    Definition onS (e : nat) : Prop := exists k j, k <= m /\ j < n /\ e = lb k j /\ S (P k j).

    Lemma onS_thru : forall e e', onS e -> thru l e e' -> onS e'.
    Proof.
      intros e e' (k & j & Hk & Hj & -> & HSk) (r & Hr & E1 & E2).
      destruct r as [kr s]. apply (bd_InR n w l lb D) in Hr. cbn [fst snd] in Hr. destruct Hr as [Hkr Hs].
      destruct (cross_ends kr s Hkr Hs) as (ka & ja & kb & jb & Ha & Hja & Hb & Hjb & Ea & Eb & EP).
      exists kb, jb. split; auto. split; auto. split; [congruence|].
      rewrite <- EP. apply (lab_inj k j ka ja Hk Hj Ha Hja ltac:(congruence) S HS). exact HSk.
    Qed.
    Lemma onS_conn : forall e e', conn l e e' -> onS e -> onS e'.
    Proof. exact (conn_closed l onS onS_thru). Qed.
  End Closed.

  (* connected top labels lie in the same cycle *)
  Lemma conn_peq : forall a b, a < n -> b < n -> conn l a b -> peq a b.
  Proof.
    assert (Half : forall a b, a < n -> b < n -> conn l a b ->
              forall S, (forall z, z < n -> (S z <-> S (pi p z))) -> S a -> S b).
    { intros a b Ha Hb C S HS Sa.
      assert (Qa : onS S a).
      { exists 0, a. split; [lia|]. split; auto. rewrite (lb_0 n w l lb D a Ha), P_0; auto. }
      destruct (onS_conn S HS a b C Qa) as (k & j & Hk & Hj & E & HSk).
      rewrite <- (P_0 b Hb). apply (lab_inj k j 0 b Hk Hj ltac:(lia) Hb); auto.
      rewrite (lb_0 n w l lb D b Hb). auto. }
    intros a b Ha Hb C S HS. split; [apply Half; auto|]. apply Half; auto. apply conn_sym; auto.
  Qed.

  (* tracing a strand upwards *)
  Lemma trace_up : forall k j, k <= m -> j < n -> conn l (lb k j) (P k j).
  Proof.
    induction k as [|k IH]; intros j Hk Hj.
    - rewrite (lb_0 n w l lb D j Hj), P_0 by auto. apply rt_refl.
    - pose proof (Hidx k ltac:(lia)) as Hi. rewrite P_S by lia.
      assert (Cross : forall off, off <= 1 ->
                conn l (lb (Datatypes.S k) (ik k + (1 - off))) (lb k (ik k + off))).
      { intros off Ho. apply conn_sym, rt_step, (thru_cross_off n w l lb D); auto; lia. }
      destruct (Nat.eqb_spec j (ik k)) as [->|N1].
      + eapply rt_trans; [|apply (IH (Datatypes.S (ik k))); lia].
        pose proof (Cross 1 ltac:(lia)) as C. rewrite Nat.add_0_r, Nat.add_1_r in C. exact C.
      + destruct (Nat.eqb_spec j (Datatypes.S (ik k))) as [->|N2].
        * eapply rt_trans; [|apply (IH (ik k)); lia].
          pose proof (Cross 0 ltac:(lia)) as C. rewrite Nat.add_0_r, Nat.add_1_r in C. exact C.
        * rewrite (lb_keep n w l lb D); [apply IH; auto; lia|lia|auto|].
          apply (touchb_false w). auto.
  Qed.

  Lemma conn_turn : forall j, j < n -> conn l j (pi p j).
  Proof.
    intros j Hj. pose proof (trace_up m j (le_n m) Hj) as C. unfold m in C at 1.
    rewrite (lb_m n w l lb D j Hj) in C. exact C.
  Qed.
  Lemma peq_conn : forall r t, r < n -> t < n -> peq r t -> conn l r t.
  Proof.
    intros r t Hr Ht H. apply (H (fun z => conn l r z)); [|apply rt_refl].
    intros z Hz. split; intros C.
    - eapply rt_trans; [exact C|apply conn_turn; auto].
    - eapply rt_trans; [exact C|apply conn_sym, conn_turn; auto].
  Qed.

  Lemma label_to_top : forall e, In e (edge_labels l) -> exists t, t < n /\ conn l e t.
  Proof.
    intros e He. apply in_labels_edge_at in He. destruct He as [[k s] [Hr <-]].
    apply (bd_InR n w l lb D) in Hr. cbn [fst snd] in Hr. destruct Hr as [Hk Hs].
    destruct (cross_ends k s Hk Hs) as (ka & ja & _ & _ & Ha & Hja & _ & _ & Ea & _ & _).
    exists (P ka ja). split; [apply P_lt; auto|]. rewrite Ea. apply trace_up; auto.
  Qed.
  Lemma top_is_label : forall j, j < n -> In j (edge_labels l).
  Proof.
    intros j Hj. destruct (slide 0 j ltac:(lia) Hj) as (k1 & H1 & T1 & L1 & _).
    destruct (head_at k1 j H1 T1) as (q & Rq & _ & _ & _ & Eq).
    rewrite (lb_0 n w l lb D j Hj) in L1. rewrite <- L1, <- Eq. apply edge_at_in_labels; auto.
  Qed.

  Theorem cycle_reps_of : reps_of l (cycle_reps n p).
  Proof.
    destruct (cycle_reps_props n p Hp) as (A & B & C & E).
    split; [exact A|]. split; [|split].
    - intros r Hr. apply top_is_label. apply B; auto.
    - intros a b Ha Hb Cn. apply C; auto. apply conn_peq; auto.
    - intros e He. destruct (label_to_top e He) as (t & Ht & Ct).
      destruct (E t Ht) as (r & Hr & Hrt). exists r. split; auto.
      eapply rt_trans; [apply peq_conn; eauto|apply conn_sym; exact Ct].
  Qed.
End BraidCycles.

(* the closure of a braid word has as many components as the braid permutation has cycles *)
Theorem closure_components : forall n w l, closure n w = Some l ->
  exists cs, components l = Some cs /\ length cs = count_cycles (braid_perm n w).
Proof.
  intros n w l Hcl. pose proof (closure_diag n w l Hcl) as D.
  destruct (components_valid l (bd_valid _ _ _ _ D)) as (cs & E & _).
  exists cs. split; auto.
  rewrite (components_count l (bd_valid _ _ _ _ D) cs E _ (cycle_reps_of n w l _ D)).
  rewrite <- prow_all. symmetry. apply cycle_reps_count. apply (Hp n w l _ D).
Qed.
