(* Vertical composition, part 9: an invertible cobordism (all components cylinders of genus 0 without dots) stacked
   with its inverse gives the identity cobordism of its source tangle, and the inverse stacked with it the identity of
   its target tangle (up to the order of the components before the final sort; see TngPStackSort.v). *)
From Coq Require Import List Arith Bool Lia ZArith Permutation Sorted.
Import ListNotations.
Require Import Yui.Model.Link Yui.Model.Tng Yui.Model.TngCob Yui.Model.TngStack.
Require Import Yui.Proofs.TngPBase Yui.Proofs.TngPSegs Yui.Proofs.TngPDeg Yui.Proofs.TngPJoin Yui.Proofs.TngPStep
  Yui.Proofs.TngPSeq Yui.Proofs.TngPConn Yui.Proofs.TngPMain Yui.Proofs.TngPCob Yui.Proofs.TngPCobDeg
  Yui.Proofs.TngPStackBase Yui.Proofs.TngPStackBfs Yui.Proofs.TngPStackWf Yui.Proofs.TngPStackDeg
  Yui.Proofs.TngPStackAssoc Yui.Proofs.TngPStackId Yui.Proofs.TngPStackIdL.

Definition flip (x : cobcomp) : cobcomp := cc_plain (ctgt x) (csrc x) 0.
Definition cyl_ok (x : cobcomp) : Prop :=
  exists p q, x = cyl p q /\ pclosed p = pclosed q /\ (pclosed p = false -> p_connectable q p = true).
Definition src_id (x : cobcomp) : cobcomp := cc_id (hd dummy_p (csrc x)).

(* is_invertible, and nbdr_comps returns: a cylinder between two components of the same kind; arcs share their ends *)
Lemma invertible_cyl_ok : forall x, cc_is_invertible x = true -> cc_nbdr x <> None -> cyl_ok x.
Proof.
  intros [s t g dx dy]. unfold cc_is_invertible, cc_is_cyl. cbn [csrc ctgt cgenus cdx cdy]. intros Hi Hn.
  apply andb_true_iff in Hi. destruct Hi as [Hi Hy]. apply andb_true_iff in Hi. destruct Hi as [Hi Hx].
  apply andb_true_iff in Hi. destruct Hi as [Hi Hg]. apply andb_true_iff in Hi. destruct Hi as [Hs Ht].
  apply Nat.eqb_eq in Hs, Ht, Hg, Hx, Hy. subst g dx dy.
  destruct s as [|p [|? ?]]; try discriminate. destruct t as [|q [|? ?]]; try discriminate.
  exists p, q. split; [reflexivity|].
  unfold cc_nbdr, nbdr_fuel, arc_indices in Hn. cbn [csrc ctgt length seq filter nth] in Hn. unfold p_is_arc in Hn.
  destruct (pclosed p) eqn:Hp, (pclosed q) eqn:Hq; cbn [negb length Nat.eqb] in Hn; try congruence.
  - split; [reflexivity|discriminate].
  - split; [reflexivity|]. intros _.
    cbn [nb_outer nb_walk length remove_idx filter find nth csrc ctgt Nat.eqb negb] in Hn.
    destruct (p_connectable q p); [reflexivity|]. cbn in Hn. congruence.
Qed.

Lemma flip_cyl : forall p q, flip (cyl p q) = cyl q p.
Proof. reflexivity. Qed.

Definition inv_inv (bot top : list cobcomp) : Prop :=
  stack_wf bot top /\ Permutation top (map flip bot) /\ Forall cyl_ok bot.

Lemma ok_single : forall p, simple p -> tng_ok [p].
Proof. intros p Sp. split; [exact (inv_single p Sp)|repeat constructor]. Qed.

Lemma inv_step : forall b0 bot1 top bot' top' gb gt, inv_inv (b0 :: bot1) top ->
  take_stackable (b0 :: bot1) top = Some (bot', top', gb, gt) ->
  exists x, round_of gb gt x /\ inv_inv bot' top' /\ Permutation (map src_id (b0 :: bot1)) (x :: map src_id bot').
Proof.
  intros b0 bot1 top bot' top' gb gt (W & PT & OK) Et.
  pose proof (wf_mid_t _ _ W) as IT. pose proof (wf_mid_b _ _ W) as IB. pose proof (wf_src _ _ W) as IS.
  assert (Htop : forall t, In t top -> exists b, t = flip b /\ In b (b0 :: bot1)).
  { intros t Ht. assert (H : In t (map flip (b0 :: bot1))) by (eapply Permutation_in; eauto).
    apply in_map_iff in H. destruct H as (b & <- & Hb). exists b. auto. }
  destruct (take_stackable_wf _ _ _ _ _ _ W Et) as (Pa & Pb & [C1 C2] & W').
  destruct (take_stackable_perm _ _ _ _ _ _ Et) as (_ & _ & _ & Hhd & _). destruct (Hhd _ _ eq_refl) as (more & Hgb).
  assert (Hb0 : In b0 (b0 :: bot1)) by (left; reflexivity).
  assert (OK0 : cyl_ok b0) by (inversion OK; assumption). destruct OK0 as (p0 & q0 & -> & Hk & Hcon).
  assert (Sq0 : simple q0) by (apply (inv_simple _ _ IB); apply (flat_in ctgt _ (cyl p0 q0)); auto; left; reflexivity).
  assert (Sp0 : simple p0) by (apply (inv_simple _ _ IS); apply (flat_in csrc _ (cyl p0 q0)); auto; left; reflexivity).
  assert (Hown : forall b, In b (cyl p0 q0 :: bot1) -> hit ctgt q0 b = true -> cyl p0 q0 = b).
  { intros b Hb. exact (hit_owner ctgt _ _ b q0 IB Hb0 Hb (or_introl eq_refl)). }
  destruct (take_stackable_sound (eq (cyl p0 q0)) (eq (flip (cyl p0 q0))) _ _ _ _ _ _ Et) as [Fb Ft].
  { intros b t m <- Ht Hm Hh. cbn in Hm. destruct Hm as [<-|[]]. destruct (Htop t Ht) as (b' & -> & Hb').
    rewrite (Hown b' Hb'); [reflexivity|]. exact Hh. }
  { intros t b m <- Hb Hm Hh. cbn in Hm. destruct Hm as [<-|[]]. apply Hown; auto. }
  { intros b r E. inversion E. reflexivity. }
  { intros t r E. discriminate. }
  assert (Egb : gb = [cyl p0 q0]).
  { apply (all_equal_one ctgt gb (cyl p0 q0)); auto; [apply (flat_sub ctgt _ bot' gb Pa IB)|discriminate|rewrite Hgb; left; reflexivity]. }
  assert (Hfl : In (flip (cyl p0 q0)) top).
  { eapply Permutation_in; [apply Permutation_sym; exact PT|]. apply in_map. exact Hb0. }
  assert (Hflg : In (flip (cyl p0 q0)) gt).
  { apply (closed_half_in _ _ _ _ _ (cyl p0 q0) q0 _ C1); [rewrite Hgb; left; reflexivity|left; reflexivity| |].
    - eapply Permutation_in; eauto.
    - apply hit_self. left. reflexivity. }
  assert (Egt : gt = [flip (cyl p0 q0)]).
  { apply (all_equal_one csrc gt); auto; [apply (flat_sub csrc _ top' gt Pb IT)|discriminate]. }
  clear Hgb Fb Ft. subst gb gt. exists (src_id (cyl p0 q0)). split.
  { unfold round_of. cbn [is_nil].
    assert (Hcon' : pclosed q0 = false -> p_connectable p0 q0 = true).
    { intros Hq. rewrite p_connectable_sym. apply Hcon. congruence. }
    set (nb := if pclosed p0 then 2 else 1).
    rewrite (stack_comps_compute [cyl p0 q0] [flip (cyl p0 q0)] (2 - Z.of_nat nb)%Z (2 - Z.of_nat nb)%Z [p0] [p0] nb 0).
    - reflexivity.
    - discriminate.
    - discriminate.
    - rewrite euls_single. unfold cc_euler, cyl. rewrite (cyl_nbdr p0 q0 0 0 0 Hk Hcon). cbn [cgenus]. unfold nb. f_equal; lia.
    - rewrite euls_single. unfold cc_euler. rewrite flip_cyl. unfold cyl. rewrite (cyl_nbdr q0 p0 0 0 0 (eq_sym Hk) Hcon').
      cbn [cgenus]. unfold nb. rewrite Hk. f_equal; lia.
    - cbn [map csrc cyl]. apply fold_connect_single. apply ok_single. exact Sp0.
    - cbn [map ctgt flip cc_plain csrc cyl]. apply fold_connect_single. apply ok_single. exact Sp0.
    - intros dx dy. apply (cyl_nbdr p0 p0 0 dx dy eq_refl). apply arc_self_connectable.
    - unfold arcs_of, tng_euler_num, p_is_arc, nb. cbn [map sum_nat fold_right ctgt cyl filter]. rewrite <- Hk.
      destruct (pclosed p0); cbn; lia. }
  split; [|eapply perm_trans; [apply Permutation_map; exact Pa|rewrite map_app; apply Permutation_sym, Permutation_cons_append]].
  split; [exact W'|]. split; [|eapply ok_tail; eauto].
  apply (Permutation_app_inv_r [flip (cyl p0 q0)]).
  eapply perm_trans; [apply Permutation_sym; exact Pb|]. eapply perm_trans; [exact PT|].
  eapply perm_trans; [apply Permutation_map; exact Pa|]. rewrite map_app. apply Permutation_refl.
Qed.

Definition cob_inv_ok (c : list cobcomp) : Prop :=
  tng_inv (flat csrc c) /\ tng_inv (flat ctgt c) /\ Forall cyl_ok c.

Lemma cyls_flat_src : forall c, Forall cyl_ok c -> ids_of (flat csrc c) = map src_id c.
Proof.
  induction c as [|x r IH]; intros Hf; [reflexivity|]. inversion Hf as [|? ? (p & q & -> & _) Hr]; subst.
  unfold flat, ids_of in *. cbn. rewrite IH by assumption. reflexivity.
Qed.

Lemma cyls_invertible : forall c, Forall cyl_ok c -> cob_is_invertible c = true.
Proof.
  induction c as [|x r IH]; intros Hf; [reflexivity|]. inversion Hf as [|? ? (p & q & -> & _) Hr]; subst.
  unfold cob_is_invertible in *. cbn [forallb]. rewrite IH by assumption. reflexivity.
Qed.

Lemma flip_flip : forall x, cyl_ok x -> flip (flip x) = x.
Proof. intros x (p & q & -> & _). reflexivity. Qed.

Lemma flip_cyl_ok : forall x, cyl_ok x -> cyl_ok (flip x).
Proof.
  intros x (p & q & -> & Hk & Hc). exists q, p. split; [reflexivity|]. split; [auto|].
  intros Hq. rewrite p_connectable_sym. apply Hc. congruence.
Qed.

Lemma flat_flip_src : forall c, flat csrc (map flip c) = flat ctgt c.
Proof. induction c as [|x r IH]; [reflexivity|]. unfold flat in *. cbn. rewrite IH. reflexivity. Qed.
Lemma flat_flip_tgt : forall c, flat ctgt (map flip c) = flat csrc c.
Proof. induction c as [|x r IH]; [reflexivity|]. unfold flat in *. cbn. rewrite IH. reflexivity. Qed.

Lemma inv_inv_intro : forall bot top, cob_inv_ok bot -> Permutation top (map flip bot) -> inv_inv bot top.
Proof.
  intros bot top (Is & It & OK) Hp. split; [|split; assumption]. apply stack_wf_perm; auto.
  eapply perm_trans; [apply flat_perm; exact Hp|]. rewrite flat_flip_src. apply Permutation_refl.
Qed.

Lemma cob_stack_cyls : forall bot top, cob_inv_ok bot -> Permutation top (map flip bot) ->
  exists r, cob_stack bot top = Some r /\ Permutation r (map src_id bot).
Proof.
  intros bot top OKb Hp. pose proof (inv_inv_intro bot top OKb Hp) as Inv.
  unfold cob_stack, cob_stack_fuel. destruct (is_nil bot) eqn:N1.
  { destruct bot; [|discriminate]. cbn in Hp. apply Permutation_sym, Permutation_nil in Hp. subst top. exists []. auto. }
  destruct (is_nil top) eqn:N2.
  { destruct top; [|discriminate]. apply Permutation_nil in Hp. destruct bot; discriminate. }
  destruct (stack_loop_run inv_inv (fun bot _ => map src_id bot) (fun top I => proj1 (proj2 I)) inv_step
              (length bot + length top) _ _ [] Inv (Nat.le_refl _)) as (out & Eo & Po). rewrite Eo. cbn [app] in Po.
  destruct OKb as (Is & _ & OK).
  assert (Es : cob_sort out = Some (cc_isort out)).
  { apply cob_sort_some. apply Forall_forall. intros x Hx.
    assert (Hx' : In x (map src_id bot)) by (eapply Permutation_in; eauto). apply in_map_iff in Hx'.
    destruct Hx' as (b & <- & Hb). rewrite Forall_forall in OK. destruct (OK b Hb) as (p & q & -> & _).
    assert (Sp : simple p) by (apply (inv_simple _ _ Is); apply (flat_in csrc _ (cyl p q)); auto; left; reflexivity).
    cbn. split; (constructor; [exact Sp|constructor]). }
  exists (cc_isort out). split; [exact Es|]. eapply perm_trans; [apply cc_isort_perm|exact Po].
Qed.

Theorem cob_stack_inv : forall c, cob_inv_ok c ->
  exists ic r1 r2 S T ids idt,
    cob_inv c = Some (Some ic) /\
    cob_stack c ic = Some r1 /\ cob_src c = Some S /\ cob_id S = Some ids /\ Permutation r1 ids /\
    cob_stack ic c = Some r2 /\ cob_tgt c = Some T /\ cob_id T = Some idt /\ Permutation r2 idt.
Proof.
  intros c OKc. pose proof OKc as (Is & It & OK).
  assert (Eic : cob_inv c = Some (Some (cc_isort (map flip c)))).
  { unfold cob_inv. rewrite (cyls_invertible c OK). f_equal. unfold cob_new. apply cob_sort_some.
    apply Forall_forall. intros x Hx. apply in_map_iff in Hx. destruct Hx as (b & <- & Hb).
    cbn. split; [apply (flat_inv_in ctgt c b It Hb)|apply (flat_inv_in csrc c b Is Hb)]. }
  set (ic := cc_isort (map flip c)) in *.
  assert (Pic : Permutation ic (map flip c)) by apply cc_isort_perm.
  destruct (cob_stack_cyls c ic OKc Pic) as (r1 & E1 & P1).
  assert (OKi : cob_inv_ok ic).
  { split; [|split].
    - eapply inv_perm; [apply Permutation_sym; apply flat_perm; exact Pic|]. rewrite flat_flip_src. exact It.
    - eapply inv_perm; [apply Permutation_sym; apply flat_perm; exact Pic|]. rewrite flat_flip_tgt. exact Is.
    - apply Forall_forall. intros x Hx. assert (Hx' : In x (map flip c)) by (eapply Permutation_in; eauto).
      apply in_map_iff in Hx'. destruct Hx' as (b & <- & Hb). apply flip_cyl_ok. rewrite Forall_forall in OK. auto. }
  assert (Pc : Permutation c (map flip ic)).
  { eapply perm_trans; [|apply Permutation_map; apply Permutation_sym; exact Pic]. rewrite map_map.
    rewrite (map_ext_in (fun x => flip (flip x)) (fun x => x)); [rewrite map_id; apply Permutation_refl|].
    intros x Hx. apply flip_flip. rewrite Forall_forall in OK. auto. }
  destruct (cob_stack_cyls ic c OKi Pc) as (r2 & E2 & P2).
  destruct (fold_connect_disjoint (map csrc c)) as (S & ES & PS & _); [rewrite concat_map_flat; exact Is|].
  destruct (fold_connect_disjoint (map ctgt c)) as (T & ET & PT & _); [rewrite concat_map_flat; exact It|].
  rewrite concat_map_flat in PS, PT.
  assert (SS : Forall simple S) by (apply (inv_perm _ _ (Permutation_sym PS)) in Is; apply Is).
  assert (ST : Forall simple T) by (apply (inv_perm _ _ (Permutation_sym PT)) in It; apply It).
  exists ic, r1, r2, S, T, (cc_isort (ids_of S)), (cc_isort (ids_of T)).
  split; [exact Eic|]. split; [exact E1|]. split; [exact ES|]. split; [apply cob_id_some; exact SS|]. split.
  { eapply perm_trans; [exact P1|]. rewrite <- (cyls_flat_src c OK).
    eapply perm_trans; [|apply Permutation_sym; apply cc_isort_perm]. apply Permutation_map. apply Permutation_sym. exact PS. }
  split; [exact E2|]. split; [exact ET|]. split; [apply cob_id_some; exact ST|].
  eapply perm_trans; [exact P2|]. rewrite <- (cyls_flat_src ic (proj2 (proj2 OKi))).
  eapply perm_trans; [|apply Permutation_sym; apply cc_isort_perm]. apply Permutation_map.
  eapply perm_trans; [apply flat_perm; exact Pic|]. rewrite flat_flip_src. apply Permutation_sym. exact PT.
Qed.
