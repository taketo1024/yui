(* C15, machine integers: the width-checked mirrors w_* of Model/Euclid.v
   (1) coincide with the unbounded operations when no width is given (BigInt), and
   (2) never wrap silently: a [Some] result at a finite width is the unbounded result ([chk] returns only
       values that fit, [chk_fits]). *)
From Coq Require Import ZArith Lia Bool.
Require Yui.Proofs.C14Ints.
Require Import Yui.Base.Ring Yui.Model.Euclid Yui.Proofs.C15Gcd Yui.Proofs.C15Int.
Local Open Scope Z_scope.

Lemma chk_none x : chk None x = Some x.
Proof. reflexivity. Qed.
Lemma chk_some w x y : chk w x = Some y -> y = x.
Proof. destruct w as [k|]; cbn; [destruct (fits k x)|]; congruence. Qed.
Lemma chk_fits k x y : chk (Some k) x = Some y -> - 2 ^ (k - 1) <= y < 2 ^ (k - 1).
Proof.
  cbn. destruct (fits k x) eqn:E; [|discriminate]. intros [= <-].
  unfold fits in E. apply andb_true_iff in E. lia.
Qed.

(* (1) no width = the unbounded model *)
Lemma w_div_none a b : w_div None a b = int_div a b.
Proof. reflexivity. Qed.
Lemma w_rem_none a b : w_rem None a b = int_rem a b.
Proof. unfold w_rem, int_rem. destruct (b =? 0); reflexivity. Qed.
Lemma w_div_round_none a q : w_div_round None a q = int_div_round a q.
Proof.
  unfold w_div_round, int_div_round. rewrite w_div_none, w_rem_none.
  destruct (int_div a q) as [d|]; [|reflexivity]. destruct (int_rem a q) as [r|]; [|reflexivity]. cbn [obind chk].
  destruct (r =? 0); [reflexivity|]. destruct (0 <? r); destruct (0 <? q); cbn [obind]; reflexivity.
Qed.
Lemma w_is_unit_none a : w_is_unit None a = Some (int_is_unit a).
Proof. unfold w_is_unit, int_is_unit. cbn [chk obind]. destruct (a =? 1); reflexivity. Qed.
Lemma w_inv_none a : w_inv None a = Some (int_inv a).
Proof. unfold w_inv. rewrite w_is_unit_none. reflexivity. Qed.
Lemma w_normalized_none a : w_normalized None a = Some (normalized int_dict a).
Proof. unfold w_normalized, normalized, is_one. cbn. destruct (int_nunit a =? 1); reflexivity. Qed.
Lemma w_divides_none x y : w_divides None x y = divides int_dict x y.
Proof. unfold w_divides, divides, is_zero. rewrite w_rem_none. cbn. reflexivity. Qed.
Lemma w_gcd_none a b : w_gcd None a b = Some (int_gcd a b).
Proof. reflexivity. Qed.
Lemma w_lcm_none a b : w_lcm None a b = Some (int_lcm a b).
Proof.
  unfold w_lcm, int_lcm, Z.lcm. cbn [chk obind].
  destruct (Z.eqb_spec a 0) as [->|Ha]; cbn [andb].
  - destruct (b =? 0); reflexivity.
  - destruct (Z.gcd_divide_r a b) as [c Hc].
    assert (Hg : Z.gcd a b <> 0). { intros E. apply Z.gcd_eq_0 in E. lia. }
    rewrite Hc at 1 3. rewrite Z.quot_mul, Z.div_mul by assumption. reflexivity.
Qed.
Lemma w_egcd_loop_none : forall fuel r0 r1 s0 s1 t0 t1,
  w_egcd_loop None fuel r0 r1 s0 s1 t0 t1 = egcd_loop fuel r0 r1 s0 s1 t0 t1.
Proof.
  induction fuel as [|f IH]; intros; cbn [w_egcd_loop egcd_loop chk obind]; [reflexivity|].
  destruct (r0 =? 0); [reflexivity|]. apply IH.
Qed.
Lemma w_gcdx_none a b : w_gcdx None a b = int_gcdx a b.
Proof.
  unfold w_gcdx, int_gcdx. rewrite w_egcd_loop_none.
  destruct (egcd_loop _ _ _ _ _ _ _) as [[[d s] t]|]; [|reflexivity]. cbn [obind chk].
  destruct (0 <=? d); reflexivity.
Qed.

(* (2) a result at a finite width is the unbounded result *)
(* every operation is built from [chk], and whatever [chk (Some k)] returns [chk None] returns:
   the order [ole] of C14Ints, with its lemmas for [obind] and [if] *)
Notation ole := C14Ints.ole.
Lemma chk_mono k x : ole (chk (Some k) x) (chk None x).
Proof. intros v H. apply chk_some in H. now subst. Qed.
(* monotonicity [ole (w_op (Some k) ..) (w_op None ..)] by the structure of the operation, as C14Ints.ole_mono,
   with [chk] as a further leaf (the [obind] of Model/Euclid.v is convertible to that of Model/Ints.v) *)
Ltac wmono := C14Ints.ole_mono_with ltac:(apply chk_mono).
Lemma mono_sound {A} (x y z : option A) v : y = z -> ole x y -> x = Some v -> z = Some v.
Proof. intros <- M. apply M. Qed.
Lemma mono_value {A} (x y : option A) z v : y = Some z -> ole x y -> x = Some v -> v = z.
Proof. intros E M H. apply M in H. congruence. Qed.

Lemma w_div_sound k a b v : w_div (Some k) a b = Some v -> int_div a b = Some v.
Proof. apply (mono_sound _ _ _ _ (w_div_none a b)). unfold w_div. wmono. Qed.
Lemma w_rem_sound k a b v : w_rem (Some k) a b = Some v -> int_rem a b = Some v.
Proof. apply (mono_sound _ _ _ _ (w_rem_none a b)). unfold w_rem. wmono. Qed.
Lemma w_div_round_sound k a q v : w_div_round (Some k) a q = Some v -> int_div_round a q = Some v.
Proof. apply (mono_sound _ _ _ _ (w_div_round_none a q)). unfold w_div_round, w_div, w_rem. wmono. Qed.
Lemma w_is_unit_sound k a v : w_is_unit (Some k) a = Some v -> v = int_is_unit a.
Proof. apply (mono_value _ _ _ _ (w_is_unit_none a)). unfold w_is_unit. wmono. Qed.
Lemma w_inv_sound k a v : w_inv (Some k) a = Some v -> v = int_inv a.
Proof. apply (mono_value _ _ _ _ (w_inv_none a)). unfold w_inv, w_is_unit. wmono. Qed.
Lemma w_normalized_sound k a v : w_normalized (Some k) a = Some v -> v = normalized int_dict a.
Proof. apply (mono_value _ _ _ _ (w_normalized_none a)). unfold w_normalized. cbv zeta. wmono. Qed.
Lemma w_divides_sound k x y v : w_divides (Some k) x y = Some v -> divides int_dict x y = Some v.
Proof. apply (mono_sound _ _ _ _ (w_divides_none x y)). unfold w_divides, w_rem. wmono. Qed.
Lemma w_gcd_sound k a b v : w_gcd (Some k) a b = Some v -> v = int_gcd a b.
Proof. apply chk_some. Qed.
Lemma w_lcm_sound k a b v : w_lcm (Some k) a b = Some v -> v = int_lcm a b.
Proof. apply (mono_value _ _ _ _ (w_lcm_none a b)). unfold w_lcm. wmono. Qed.
Lemma w_egcd_loop_mono k : forall fuel r0 r1 s0 s1 t0 t1,
  ole (w_egcd_loop (Some k) fuel r0 r1 s0 s1 t0 t1) (w_egcd_loop None fuel r0 r1 s0 s1 t0 t1).
Proof. induction fuel as [|f IH]; intros; cbn [w_egcd_loop]; wmono. apply IH. Qed.
Lemma w_gcdx_sound k a b v : w_gcdx (Some k) a b = Some v -> int_gcdx a b = Some v.
Proof.
  apply (mono_sound _ _ _ _ (w_gcdx_none a b)). unfold w_gcdx.
  apply C14Ints.ole_bind; [apply w_egcd_loop_mono|intros [[d s] t]]. wmono.
Qed.
