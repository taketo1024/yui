(* Vertical composition, part 11: linear combinations of cobordisms (LcCob with integer coefficients).
   * the terms of a product are products of terms ([lc_mul_support]); with the degree theorem: the product of
     homogeneous combinations is homogeneous ([lc_mul_homogeneous]);
   * CobComp::part_eval on a closed component = the closed-cobordism evaluation of Model/CobEval.v (property C05) as a
     multiple of the empty cobordism ([cc_part_eval_closed]): the copy [pev] of the recursion in Model/TngStack.v agrees
     with Model/CobEval.v [pe]. *)
From Coq Require Import List Arith Bool Lia ZArith Permutation.
Import ListNotations.
Require Import Yui.Model.Link Yui.Model.Tng Yui.Model.TngCob Yui.Model.TngStack.
Require Yui.Model.CobEval.
Require Import Yui.Proofs.TngPCobDeg Yui.Proofs.TngPStackDeg.

Definition keys (l : lccob) : list cob := map fst l.

Lemma lc_insert_keys : forall l x r k, In k (keys (lc_insert l x r)) -> In k (keys l) \/ k = x.
Proof.
  induction l as [|[y s] l IH]; intros x r k; cbn [lc_insert].
  - cbn. intros [<-|[]]. auto.
  - destruct (cob_eqb y x); cbn [keys map fst]; intros [E|Hin].
    + left. left. exact E.
    + left. right. exact Hin.
    + left. left. exact E.
    + destruct (IH _ _ _ Hin) as [Hq|Hq]; [left; right; exact Hq|right; exact Hq].
Qed.

Lemma lc_add_pair_keys : forall l x r k, In k (keys (lc_add_pair l x r)) -> In k (keys l) \/ k = x.
Proof. intros l x r k. unfold lc_add_pair. destruct (r =? 0)%Z; [auto|apply lc_insert_keys]. Qed.

Lemma lc_clean_keys : forall l k, In k (keys (lc_clean l)) -> In k (keys l).
Proof.
  intros l k Hp0. unfold keys, lc_clean in *. apply in_map_iff in Hp0. destruct Hp0 as (p & <- & Hp).
  apply filter_In in Hp. apply in_map. apply Hp.
Qed.

Lemma lc_row_keys : forall f x r b acc acc', lc_combine_row f x r b acc = Some acc' ->
  forall k, In k (keys acc') -> In k (keys acc) \/ exists y, In y (keys b) /\ f x y = Some k.
Proof.
  intros f x r. induction b as [|[y s] b IH]; intros acc acc'; cbn [lc_combine_row].
  - intros E k Hk. inversion E; subst. auto.
  - destruct (f x y) as [xy|] eqn:Ef; [|discriminate]. intros E k Hk.
    destruct (IH _ _ E k Hk) as [Hp0|(y' & Hy' & Hf)].
    + destruct (lc_add_pair_keys _ _ _ _ Hp0) as [Hq| ->]; auto. right. exists y. split; [left; reflexivity|exact Ef].
    + right. exists y'. split; [right; exact Hy'|exact Hf].
Qed.

Lemma lc_loop_keys : forall f a b acc acc', lc_combine_loop f a b acc = Some acc' ->
  forall k, In k (keys acc') -> In k (keys acc) \/ exists x y, In x (keys a) /\ In y (keys b) /\ f x y = Some k.
Proof.
  intros f. induction a as [|[x r] a IH]; intros b acc acc'; cbn [lc_combine_loop].
  - intros E k Hk. inversion E; subst. auto.
  - destruct (lc_combine_row f x r b acc) as [acc1|] eqn:Er; [|discriminate]. intros E k Hk.
    destruct (IH _ _ _ E k Hk) as [Hp0|(x' & y & Hx & Hy & Hf)].
    + destruct (lc_row_keys _ _ _ _ _ _ Er k Hp0) as [Hq|(y & Hy & Hf)]; auto.
      right. exists x, y. split; [left; reflexivity|auto].
    + right. exists x', y. split; [right; exact Hx|auto].
Qed.

Theorem lc_combine_support : forall f a b r, lc_combine f a b = Some r ->
  forall k v, In (k, v) r -> exists x y, In x (map fst a) /\ In y (map fst b) /\ f x y = Some k.
Proof.
  intros f a b r. unfold lc_combine. destruct (lc_combine_loop f a b []) as [r0|] eqn:E; [|discriminate].
  intros Er k v Hk. inversion Er; subst r.
  assert (Hk' : In k (keys (lc_clean r0))) by (unfold keys; apply in_map_iff; exists (k, v); auto).
  apply lc_clean_keys in Hk'. destruct (lc_loop_keys _ _ _ _ _ E k Hk') as [[]|Hp0]. exact Hp0.
Qed.

Theorem lc_mul_support : forall a b r, lc_mul a b = Some r ->
  forall k v, In (k, v) r -> exists x y, In x (map fst a) /\ In y (map fst b) /\ cob_mul x y = Some k.
Proof. intros a b r. apply lc_combine_support. Qed.

Theorem lc_mul_homogeneous : forall a b r da db, lc_mul a b = Some r ->
  (forall x, In x (map fst a) -> cob_deg x = Some da) -> (forall y, In y (map fst b) -> cob_deg y = Some db) ->
  (forall x y, In x (map fst a) -> In y (map fst b) -> stack_wf y x) ->
  forall k v, In (k, v) r -> cob_deg k = Some (da + db)%Z.
Proof.
  intros a b r da db E Ha Hb W k v Hk. destruct (lc_mul_support a b r E k v Hk) as (x & y & Hx & Hy & Hm).
  unfold cob_mul in Hm. destruct (cob_stack_deg y x k (W x y Hx Hy) Hm) as (D & _). rewrite D, (Ha x Hx), (Hb y Hy).
  cbn. f_equal. lia.
Qed.

Definition lcz (v : Z) : lccob := if (v =? 0)%Z then [] else [([], v)].

Lemma lcz_add : forall u v, lc_add (lcz u) (lcz v) = lcz (u + v).
Proof.
  intros u v. unfold lcz, lc_add.
  destruct (u =? 0)%Z eqn:Eu, (v =? 0)%Z eqn:Ev; cbn [fold_left fst snd].
  - apply Z.eqb_eq in Eu, Ev. subst. reflexivity.
  - apply Z.eqb_eq in Eu. subst. unfold lc_add_pair. rewrite Ev. cbn. rewrite Ev. reflexivity.
  - apply Z.eqb_eq in Ev. subst. cbn. rewrite Eu, Z.add_0_r, Eu. reflexivity.
  - unfold lc_add_pair. rewrite Ev. cbn. destruct (u + v =? 0)%Z; reflexivity.
Qed.

Lemma lcz_scale : forall k v, lc_scale k (lcz v) = lcz (k * v).
Proof.
  intros k v. unfold lc_scale. destruct (k =? 1)%Z eqn:Ek.
  - apply Z.eqb_eq in Ek. subst. rewrite Z.mul_1_l. reflexivity.
  - unfold lcz. destruct (v =? 0)%Z eqn:Ev.
    + apply Z.eqb_eq in Ev. subst. rewrite Z.mul_0_r. reflexivity.
    + cbn. rewrite (Z.mul_comm v k). destruct (k * v =? 0)%Z; reflexivity.
Qed.

Section Closed.
  Variables h t : Z.
  Let P := pev lc_add lc_scale [] (lc_from []) (lc_from []) h t.
  Let Q := Yui.Model.CobEval.pe Z.opp Z.add Z.mul 0%Z 1%Z 1%Z h t.

  Lemma from_empty : lc_from [] = lcz 1.
  Proof. reflexivity. Qed.

  Lemma pev_x_closed : forall x,
    pev_x lc_add lc_scale [] (lc_from []) h t x = lcz (Yui.Model.CobEval.pe_x Z.add Z.mul 0%Z 1%Z h t x) /\
    pev_x lc_add lc_scale [] (lc_from []) h t (S x) = lcz (Yui.Model.CobEval.pe_x Z.add Z.mul 0%Z 1%Z h t (S x)).
  Proof.
    induction x as [|x [IH1 IH2]].
    - split; reflexivity.
    - split; [exact IH2|]. cbn [pev_x Yui.Model.CobEval.pe_x] in *. rewrite IH2, IH1, !lcz_scale, lcz_add. reflexivity.
  Qed.

  Lemma pev_y_closed : forall y,
    pev_y lc_add lc_scale [] (lc_from []) h t y = lcz (Yui.Model.CobEval.pe_y Z.opp Z.add Z.mul 0%Z 1%Z h t y) /\
    pev_y lc_add lc_scale [] (lc_from []) h t (S y) = lcz (Yui.Model.CobEval.pe_y Z.opp Z.add Z.mul 0%Z 1%Z h t (S y)).
  Proof.
    induction y as [|y [IH1 IH2]].
    - split; reflexivity.
    - split; [exact IH2|]. cbn [pev_y Yui.Model.CobEval.pe_y] in *. rewrite IH2, IH1, !lcz_scale, lcz_add. reflexivity.
  Qed.

  Lemma pev_0_closed : forall x y,
    pev_0 lc_add lc_scale [] (lc_from []) (lc_from []) h t x y = lcz (Yui.Model.CobEval.pe_0 Z.opp Z.add Z.mul 0%Z 1%Z 1%Z h t x y).
  Proof.
    induction x as [|x IH]; intros y.
    - destruct y as [|y]; [reflexivity|]. apply (proj2 (pev_y_closed y)).
    - destruct y as [|y].
      + apply (proj2 (pev_x_closed x)).
      + cbn [pev_0 Yui.Model.CobEval.pe_0]. rewrite IH, lcz_scale. reflexivity.
  Qed.

  Lemma pev_closed : forall g x y, P g x y = lcz (Q g x y).
  Proof.
    unfold P, Q. induction g as [|g IH]; intros x y; cbn [pev Yui.Model.CobEval.pe].
    - apply pev_0_closed.
    - rewrite !IH, lcz_add. reflexivity.
  Qed.
End Closed.

Theorem cc_part_eval_closed : forall h t g x y,
  cc_part_eval h t (mkCC [] [] g x y) = lcz (Yui.Model.CobEval.eval_closed g x y h t).
Proof. intros. unfold cc_part_eval. cbn [cc_is_closed csrc ctgt tng_is_empty is_nil andb cgenus cdx cdy]. apply pev_closed. Qed.
