(* Braid::inv / product (Model/BraidOps.v): inverse laws at word level, and their effect on the observables
   of the closure that C18 speaks about: the braid permutation of w * w^-1 is the identity, the exponent sum
   of the inverse is the negative, the word length is preserved. *)
From Coq Require Import List Arith ZArith Bool Lia.
Require Import Yui.Model.Braid Yui.Model.BraidOps Yui.Proofs.C18BraidRows Yui.Proofs.C18BraidPerm.
Import ListNotations.

Lemma braid_inv_involutive : forall w, braid_inv (braid_inv w) = w.
Proof.
  intros w. unfold braid_inv. rewrite <- map_rev, rev_involutive, map_map.
  rewrite <- (map_id w) at 2. apply map_ext. intros a. unfold gen_inv. lia.
Qed.

Lemma braid_inv_app : forall u v, braid_inv (u ++ v) = braid_inv v ++ braid_inv u.
Proof. intros u v. unfold braid_inv. rewrite rev_app_distr, map_app. reflexivity. Qed.

Lemma braid_inv_length : forall w, length (braid_inv w) = length w.
Proof. intros w. unfold braid_inv. rewrite map_length, rev_length. reflexivity. Qed.

Lemma braid_inv_nil : braid_inv [] = [].
Proof. reflexivity. Qed.

Lemma braid_inv_single : forall s, braid_inv [s] = [(- s)%Z].
Proof. reflexivity. Qed.

Lemma braid_inv_nonzero : forall w, Forall (fun s => s <> 0%Z) w -> Forall (fun s => s <> 0%Z) (braid_inv w).
Proof.
  intros w H. unfold braid_inv. apply Forall_forall. intros x Hx.
  apply in_map_iff in Hx. destruct Hx as [y [Hy Hin]]. apply in_rev in Hin.
  rewrite Forall_forall in H. specialize (H y Hin). unfold gen_inv in Hy. lia.
Qed.

Lemma fold_sgn_shift : forall w a, fold_left (fun a s => (a + Z.sgn s)%Z) w a = (a + fold_left (fun a s => (a + Z.sgn s)%Z) w 0)%Z.
Proof.
  induction w as [|s w IH]; intros a; cbn [fold_left].
  - lia.
  - rewrite IH. rewrite (IH (0 + Z.sgn s)%Z). lia.
Qed.

Lemma exponent_sum_app : forall u v, exponent_sum (u ++ v) = (exponent_sum u + exponent_sum v)%Z.
Proof. intros u v. unfold exponent_sum. rewrite fold_left_app. apply fold_sgn_shift. Qed.

Lemma exponent_sum_inv : forall w, exponent_sum (braid_inv w) = (- exponent_sum w)%Z.
Proof.
  induction w as [|s w IH].
  - reflexivity.
  - change (s :: w) with ([s] ++ w). rewrite braid_inv_app, !exponent_sum_app, IH.
    unfold exponent_sum, braid_inv, gen_inv. cbn [rev app map fold_left]. rewrite Z.sgn_opp. lia.
Qed.

(* one letter and its inverse act by the same transposition *)
Lemma pstep_opp : forall p s, pstep p (- s)%Z = pstep p s.
Proof. intros p s. unfold pstep, idx. rewrite Zabs2Nat.abs_nat_spec, Z.abs_opp, <- Zabs2Nat.abs_nat_spec. reflexivity. Qed.

(* a transposition applied twice is the identity (on lists long enough to hold both positions) *)
Lemma pstep_pstep : forall p s, S (idx s) < length p -> pstep (pstep p s) s = p.
Proof.
  intros p s Hi. apply nth_ext with (d := 0) (d' := 0).
  - rewrite !pstep_length. reflexivity.
  - intros j _. rewrite !nth_pstep_swp by (rewrite ?pstep_length; exact Hi). rewrite swp_invol. reflexivity.
Qed.

Lemma fold_pstep_length : forall w p, length (fold_left pstep w p) = length p.
Proof. induction w as [|s w IH]; intros p; cbn [fold_left]; [reflexivity|]. rewrite IH, pstep_length. reflexivity. Qed.

(* w followed by its inverse acts trivially on every arrangement that is long enough *)
Lemma fold_pstep_inv : forall w p, Forall (fun s => S (idx s) < length p) w ->
  fold_left pstep (w ++ braid_inv w) p = p.
Proof.
  induction w as [|s w IH]; intros p Hw.
  - reflexivity.
  - inversion Hw as [|? ? Hs Hw']; subst.
    assert (E : (s :: w) ++ braid_inv (s :: w) = s :: ((w ++ braid_inv w) ++ [(- s)%Z])).
    { change (s :: w) with ([s] ++ w) at 2. rewrite braid_inv_app, braid_inv_single.
      cbn [app]. rewrite app_assoc. reflexivity. }
    rewrite E. cbn [fold_left]. rewrite fold_left_app. rewrite IH.
    + cbn [fold_left]. rewrite pstep_opp. apply pstep_pstep. exact Hs.
    + rewrite pstep_length. exact Hw'.
Qed.

Theorem braid_perm_mul_inv : forall n w, Forall (fun s => S (idx s) < n) w ->
  braid_perm n (w ++ braid_inv w) = seq 0 n.
Proof.
  intros n w Hw. unfold braid_perm. rewrite braid_perm_loop_fold. apply fold_pstep_inv.
  rewrite seq_length. exact Hw.
Qed.

Theorem braid_perm_inv_mul : forall n w, Forall (fun s => S (idx s) < n) w ->
  braid_perm n (braid_inv w ++ w) = seq 0 n.
Proof.
  intros n w Hw. rewrite <- (braid_inv_involutive w) at 2. apply braid_perm_mul_inv.
  unfold braid_inv. apply Forall_forall. intros x Hx. apply in_map_iff in Hx.
  destruct Hx as [y [Hy Hin]]. apply in_rev in Hin. rewrite Forall_forall in Hw. specialize (Hw y Hin).
  subst x. unfold gen_inv, idx in *. rewrite Zabs2Nat.abs_nat_spec, Z.abs_opp, <- Zabs2Nat.abs_nat_spec. exact Hw.
Qed.

Lemma braid_mul_spec : forall s1 w1 s2 w2,
  braid_mul s1 w1 s2 w2 = (if (s1 =? s2)%nat then Some (s1, w1 ++ w2) else None).
Proof. reflexivity. Qed.
