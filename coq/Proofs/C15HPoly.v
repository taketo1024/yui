(* C15, homogeneous polynomials c x^d over a field (h_poly.rs; Model/EuclidPoly.v): division, the
   generic gcd / gcdx (they return on one of the early paths: of two non-zero monomials one divides the
   other, so the Euclid loop - and with it the degree assertion of HPoly's `+` - is never reached), units
   and normalisation.  The coefficient field is any [field_dict o inv] with [field_laws]. *)
From Coq Require Import ZArith Lia Bool Ring Arith.
Require Import Yui.Base.Ring Yui.Model.Euclid Yui.Model.EuclidPoly.
Require Import Yui.Proofs.C15Gcd Yui.Proofs.C15Field.

Section HPolyProofs.
  Context {K : Type} (o : ring_ops K) (inv : K -> option K) (FL : field_laws o inv).
  Let L : ring_laws o := fl_ring o inv FL.
  Add Ring Kring2 : (ring_theory_of_laws o L).
  Notation F := (field_dict o inv).
  Notation H := (hpoly_dict (field_dict o inv)).
  Notation zero := (rzero o).
  Notation one := (rone o).
  Notation mul := (rmul o).

  Definition hz (f : hpoly) : bool := h_is_zero F f.

  Lemma kzero_reflect c : reflect (c = zero) (kzero F c).
  Proof. apply (f_zero_reflect o inv FL). Qed.
  Lemma hz_reflect (f : @hpoly K) : reflect (snd f = zero) (hz f).
  Proof. apply kzero_reflect. Qed.
  Lemma hz_zero : hz (h_zero F) = true.
  Proof. destruct (hz_reflect (h_zero F)) as [_|N]; [reflexivity|]. exfalso. apply N. reflexivity. Qed.
  Lemma one_nonzero : kzero F one = false.
  Proof. destruct (kzero_reflect one) as [E|_]; [|reflexivity]. exfalso. exact (fl_nontrivial o inv FL E). Qed.

  Lemma hz_false (f : @hpoly K) : hz f = false -> snd f <> zero.
  Proof. intros E. destruct (hz_reflect f) as [|N]; [discriminate|exact N]. Qed.
  Lemma hz_true (f : @hpoly K) : hz f = true -> snd f = zero.
  Proof. intros E. destruct (hz_reflect f) as [Z|]; [exact Z|discriminate]. Qed.
  Lemma hz_intro_false (f : @hpoly K) : snd f <> zero -> hz f = false.
  Proof. intros N. destruct (hz_reflect f) as [Z|_]; [contradiction|reflexivity]. Qed.
  Lemma hz_intro_true (f : @hpoly K) : snd f = zero -> hz f = true.
  Proof. intros Z. destruct (hz_reflect f) as [_|N]; [reflexivity|contradiction]. Qed.

  Lemma is_zero_hz f : is_zero H f = hz f.
  Proof.
    unfold is_zero. cbn [d_ring hpoly_dict h_ring reqb rzero]. unfold h_eqb. fold (hz f). fold (hz (h_zero F)).
    rewrite hz_zero. destruct (hz_reflect f) as [Z|NZ]; cbn [andb]; [reflexivity|].
    cbn [snd h_zero d_ring field_dict]. destruct (reqb_spec o L (snd f) zero) as [E|_]; [contradiction|].
    apply andb_false_r.
  Qed.

  (* equality of values: two zeros are equal whatever their degree *)
  Lemma h_eqb_intro (a b : @hpoly K) : snd a = snd b -> (snd a <> zero -> fst a = fst b) -> h_eqb F a b = true.
  Proof.
    intros Ec Ed. unfold h_eqb. fold (hz a). fold (hz b).
    destruct (hz_reflect a) as [Za|NZa]; destruct (hz_reflect b) as [Zb|NZb]; cbn [andb]; try reflexivity.
    - exfalso. apply NZb. congruence.
    - exfalso. apply NZa. congruence.
    - rewrite (Ed NZa), Nat.eqb_refl, Ec. cbn [andb d_ring field_dict]. apply (reqb_refl o L).
  Qed.
  Lemma h_eqb_true (a b : @hpoly K) : h_eqb F a b = true ->
    (snd a = zero /\ snd b = zero) \/ (snd a <> zero /\ a = b).
  Proof.
    unfold h_eqb. fold (hz a). fold (hz b).
    destruct (hz_reflect a) as [Za|NZa]; destruct (hz_reflect b) as [Zb|NZb]; cbn [andb]; auto.
    - intros E. apply andb_true_iff in E. destruct E as [_ E]. apply (reqb_eq o L) in E. cbn in E. exfalso. apply NZb. congruence.
    - intros E. apply andb_true_iff in E. destruct E as [_ E]. apply (reqb_eq o L) in E. cbn in E. exfalso. apply NZa. congruence.
    - intros E. apply andb_true_iff in E. destruct E as [E1 E2]. apply Nat.eqb_eq in E1. apply (reqb_eq o L) in E2.
      right. split; [assumption|]. destruct a, b. cbn in *. congruence.
  Qed.

  (* the product, whichever branch is taken *)
  Lemma h_mul_pair f g : h_mul F f g = ((fst f + fst g)%nat, mul (snd f) (snd g)).
  Proof.
    unfold h_mul, h_is_one. cbn [d_ring field_dict].
    destruct (Nat.eqb_spec (fst g) 0) as [E0|_]; cbn [andb]; [|reflexivity].
    destruct (reqb_spec o L (snd g) one) as [E1|_]; [|reflexivity].
    rewrite E0, E1. destruct f as [d c]. cbn [fst snd]. f_equal; [lia|ring].
  Qed.
  Lemma hz_mul_zero (x : @hpoly K) : hz (h_mul F (h_zero F) x) = true.
  Proof. apply hz_intro_true. rewrite h_mul_pair. cbn. ring. Qed.

  Lemma h_div_rem_spec (f g : @hpoly K) : hz g = false ->
    exists i, inv (snd g) = Some i /\ mul (snd g) i = one /\
      h_div_rem F f g = Some (if (fst f <? fst g)%nat then (h_zero F, f)
                              else (((fst f - fst g)%nat, mul (snd f) i), h_zero F)).
  Proof.
    intros NZ. pose proof (hz_false g NZ) as NZg.
    destruct (fl_inv o inv FL (snd g) NZg) as (i & Ei & Hi). exists i. split; [exact Ei|]. split; [exact Hi|].
    unfold h_div_rem. fold (hz g). rewrite NZ. destruct (fst f <? fst g)%nat; [reflexivity|].
    cbn [d_div field_dict]. unfold f_div. destruct (reqb_spec o L (snd g) zero) as [|_]; [contradiction|].
    rewrite Ei. reflexivity.
  Qed.

  Lemma h_division (f g : @hpoly K) : hz g = false ->
    exists q r, d_div H f g = Some q /\ d_rem H f g = Some r /\
      h_eqb F (h_add F (h_mul F q g) r) f = true /\
      (hz r = true \/ (fst r < fst g)%nat).
  Proof.
    intros NZ. destruct (h_div_rem_spec f g NZ) as (i & Ei & Hi & E).
    cbn [d_div d_rem hpoly_dict]. unfold h_div, h_rem. rewrite E. cbn [obind].
    destruct (Nat.ltb_spec (fst f) (fst g)) as [Lt|Ge]; cbn [fst snd].
    - do 2 eexists. split; [reflexivity|]. split; [reflexivity|]. split; [|right; exact Lt].
      unfold h_add. fold (hz (h_mul F (h_zero F) g)). rewrite hz_mul_zero. apply h_eqb_intro; auto.
    - do 2 eexists. split; [reflexivity|]. split; [reflexivity|]. split; [|left; apply hz_zero].
      set (q := ((fst f - fst g)%nat, mul (snd f) i)).
      assert (Ec : snd (h_mul F q g) = snd f).
      { rewrite h_mul_pair. unfold q. cbn [snd].
        transitivity (mul (snd f) (mul (snd g) i)); [ring|]. rewrite Hi. ring. }
      assert (Ed : fst (h_mul F q g) = fst f).
      { rewrite h_mul_pair. unfold q. cbn [fst]. lia. }
      unfold h_add. fold (hz (h_mul F q g)). fold (hz (h_zero F)). rewrite hz_zero.
      destruct (hz_reflect (h_mul F q g)) as [Z|N].
      + apply h_eqb_intro; cbn [snd h_zero d_ring field_dict]; [congruence|]. intros C. contradiction.
      + apply h_eqb_intro; [exact Ec|]. intros _. exact Ed.
  Qed.
  Lemma h_division_by_zero (f g : @hpoly K) : hz g = true -> d_div H f g = None /\ d_rem H f g = None.
  Proof.
    intros Zg. cbn [d_div d_rem hpoly_dict]. unfold h_div, h_rem, h_div_rem. fold (hz g). rewrite Zg. split; reflexivity.
  Qed.

  (* x | y as computed by the generic `divides` *)
  Lemma h_divides (x y : @hpoly K) :
    divides H x y = Some (negb (hz x) && (hz y || (fst x <=? fst y)%nat)).
  Proof.
    unfold divides. rewrite is_zero_hz. destruct (hz x) eqn:Zx; cbn [negb andb]; [reflexivity|].
    destruct (h_div_rem_spec y x Zx) as (i & _ & _ & E).
    cbn [d_rem hpoly_dict]. unfold h_rem. rewrite E. cbn [obind]. rewrite is_zero_hz.
    destruct (Nat.ltb_spec (fst y) (fst x)) as [Lt|Ge]; cbn [snd].
    - rewrite (proj2 (Nat.leb_gt _ _) Lt). rewrite orb_false_r. reflexivity.
    - rewrite hz_zero. rewrite (proj2 (Nat.leb_le _ _) Ge). rewrite orb_true_r. reflexivity.
  Qed.

  Lemma h_nunit_eq (f : @hpoly K) : d_nunit H f = (O, field_nunit o inv (snd f)).
  Proof. reflexivity. Qed.
  Lemma h_is_one_spec (u : @hpoly K) : is_one H u = true -> u = h_one F.
  Proof.
    unfold is_one. cbn [d_ring hpoly_dict h_ring reqb rone]. intros E. apply h_eqb_true in E.
    destruct E as [[_ E]|[_ E]]; [|exact E]. exfalso. cbn in E. exact (fl_nontrivial o inv FL E).
  Qed.

  Lemma h_normalized_nonzero (f : @hpoly K) : hz f = false -> normalized H f = (fst f, one).
  Proof.
    intros NZ. pose proof (hz_false f NZ) as NZf.
    destruct (field_nunit_nonzero o inv FL (snd f) NZf) as (u & _ & Eu & Hu).
    unfold normalized. rewrite h_nunit_eq, Eu.
    destruct (is_one H (O, u)) eqn:E1.
    - apply h_is_one_spec in E1. injection E1 as E1. cbn in E1. rewrite E1 in Hu.
      destruct f as [d c]. cbn [fst snd] in *. f_equal. rewrite <- Hu. ring.
    - cbn [d_ring hpoly_dict h_ring rmul]. rewrite h_mul_pair. cbn [fst snd]. f_equal; [lia|exact Hu].
  Qed.
  Lemma h_normalized_zero (f : @hpoly K) : hz f = true -> normalized H f = f.
  Proof.
    intros Z. pose proof (hz_true f Z) as Zf.
    unfold normalized. rewrite h_nunit_eq, Zf, (field_nunit_zero o inv FL).
    replace (is_one H (O, one)) with true; [reflexivity|].
    symmetry. unfold is_one. cbn [d_ring hpoly_dict h_ring reqb rone]. apply h_eqb_intro; auto.
  Qed.
  Lemma h_nunit_normalized (f : @hpoly K) : d_nunit H (normalized H f) = h_one F.
  Proof.
    destruct (hz f) eqn:Z.
    - rewrite (h_normalized_zero f Z). pose proof (hz_true f Z) as Zf.
      rewrite h_nunit_eq, Zf, (field_nunit_zero o inv FL). reflexivity.
    - rewrite (h_normalized_nonzero f Z), h_nunit_eq. cbn [snd]. unfold h_one. f_equal.
      unfold field_nunit. destruct (reqb_spec o L one zero) as [E|_]; [reflexivity|].
      now rewrite (f_inv_one o inv FL).
  Qed.

  Lemma h_units (f : @hpoly K) :
    (d_is_unit H f = true <-> fst f = O /\ snd f <> zero) /\
    (d_is_unit H f = true <-> exists i, d_inv H f = Some i) /\
    (forall i, d_inv H f = Some i -> rmul (d_ring H) f i = h_one F).
  Proof.
    cbn [d_is_unit d_inv hpoly_dict d_ring h_ring rmul]. unfold h_is_unit, h_inv. cbn [d_is_unit d_inv field_dict].
    unfold f_is_unit.
    destruct (Nat.eqb_spec (fst f) 0) as [E0|N0]; cbn [andb].
    - rewrite E0. cbn [Nat.ltb Nat.leb]. destruct (reqb_spec o L (snd f) zero) as [Z|NZ]; cbn [negb].
      + split; [split; [discriminate|intros [_ C]; contradiction]|]. rewrite Z, (fl_inv_zero o inv FL). cbn [obind].
        split; [split; [discriminate|intros [i C]; discriminate]|]. intros i C. discriminate.
      + destruct (fl_inv o inv FL (snd f) NZ) as (a & Ea & Ha). rewrite Ea. cbn [obind].
        split; [tauto|]. split; [split; eauto|]. intros i [= <-]. rewrite h_mul_pair. cbn [fst snd].
        rewrite E0. unfold h_one. f_equal. exact Ha.
    - assert (Lt : (0 <? fst f)%nat = true) by (apply Nat.ltb_lt; lia). rewrite Lt.
      split; [split; [discriminate|intros [C _]; contradiction]|].
      split; [split; [discriminate|intros [i C]; discriminate]|]. intros i C. discriminate.
  Qed.

  Lemma h_normalized_idem (f : @hpoly K) : normalized H (normalized H f) = normalized H f.
  Proof.
    destruct (hz f) eqn:Z.
    - rewrite !(h_normalized_zero f Z). reflexivity.
    - rewrite (h_normalized_nonzero f Z). rewrite (h_normalized_nonzero (fst f, one)); [reflexivity|].
      exact one_nonzero.
  Qed.
  (* constant on associates, as values ([h_eqb]; for a zero monomial the stored degree is kept) *)
  Lemma h_normalized_assoc (f v : @hpoly K) : d_is_unit H v = true ->
    normalized H (rmul (d_ring H) f v) = normalized H f.
  Proof.
    intros Uv. apply (proj1 (h_units v)) in Uv. destruct Uv as [Ev NZv].
    cbn [d_ring hpoly_dict h_ring rmul]. rewrite h_mul_pair, Ev, Nat.add_0_r.
    destruct (hz f) eqn:Z.
    - pose proof (hz_true f Z) as Zf.
      rewrite (h_normalized_zero f Z). rewrite h_normalized_zero.
      + destruct f as [d c]. cbn [fst snd] in *. f_equal. rewrite Zf. ring.
      + apply hz_intro_true. cbn [snd]. rewrite Zf. ring.
    - pose proof (hz_false f Z) as NZf.
      rewrite (h_normalized_nonzero f Z). rewrite h_normalized_nonzero; [reflexivity|].
      apply hz_intro_false. exact (f_mul_nonzero o inv FL _ _ NZf NZv).
  Qed.

  (* gcd / gcdx: x^min(d, d') with coefficient 1, for every fuel *)
  Definition h_gcd_val (f g : @hpoly K) : @hpoly K :=
    if hz f then (if hz g then h_zero F else (fst g, one))
    else if hz g then (fst f, one) else (Nat.min (fst f) (fst g), one).

  Lemma h_gcd_value fuel (f g : @hpoly K) : gcd H fuel f g = Some (h_gcd_val f g).
  Proof.
    unfold gcd, h_gcd_val. rewrite !is_zero_hz, !h_divides.
    destruct (hz f) eqn:Zf; destruct (hz g) eqn:Zg; cbn [andb negb orb obind].
    - reflexivity.
    - rewrite (h_normalized_nonzero g Zg). reflexivity.
    - rewrite (h_normalized_nonzero f Zf). reflexivity.
    - destruct (Nat.leb_spec (fst f) (fst g)) as [Le|Gt].
      + rewrite (h_normalized_nonzero f Zf). rewrite Nat.min_l by exact Le. reflexivity.
      + rewrite (proj2 (Nat.leb_le (fst g) (fst f))) by lia. rewrite (h_normalized_nonzero g Zg).
        rewrite Nat.min_r by lia. reflexivity.
  Qed.

  Lemma h_gcd_val_comm f g : h_gcd_val f g = h_gcd_val g f.
  Proof. unfold h_gcd_val. destruct (hz f), (hz g); try reflexivity. now rewrite Nat.min_comm. Qed.

  Lemma h_mul_nunit (f : @hpoly K) : hz f = false -> rmul (d_ring H) f (d_nunit H f) = (fst f, one).
  Proof.
    intros Z. pose proof (hz_false f Z) as NZf.
    destruct (field_nunit_nonzero o inv FL (snd f) NZf) as (u & _ & Eu & Hu).
    cbn [d_ring hpoly_dict h_ring rmul]. rewrite h_mul_pair, h_nunit_eq, Eu. cbn [fst snd]. f_equal; [lia|exact Hu].
  Qed.

  Lemma h_nunit_mul (x : @hpoly K) : hz x = false -> h_mul F (d_nunit H x) x = (fst x, one).
  Proof.
    intros Zx. rewrite <- (h_mul_nunit x Zx). cbn [d_ring hpoly_dict h_ring rmul]. rewrite !h_mul_pair.
    f_equal; [lia|ring].
  Qed.
  (* u_f f + 0 g and 0 f + u_g g, computed with HPoly's own + and *, are x^deg as values *)
  Lemma h_bezout_l (f g : @hpoly K) : hz f = false ->
    h_eqb F (h_add F (h_mul F (d_nunit H f) f) (h_mul F (h_zero F) g)) (fst f, one) = true.
  Proof.
    intros Zf. unfold h_add. fold (hz (h_mul F (d_nunit H f) f)). fold (hz (h_mul F (h_zero F) g)).
    rewrite hz_mul_zero, (h_nunit_mul f Zf), (one_nonzero : hz (fst f, one) = false). apply h_eqb_intro; auto.
  Qed.
  Lemma h_bezout_r (f g : @hpoly K) : hz g = false ->
    h_eqb F (h_add F (h_mul F (h_zero F) f) (h_mul F (d_nunit H g) g)) (fst g, one) = true.
  Proof.
    intros Zg. unfold h_add. fold (hz (h_mul F (h_zero F) f)). rewrite hz_mul_zero, (h_nunit_mul g Zg).
    apply h_eqb_intro; auto.
  Qed.

  Lemma h_gcdx_value fuel (f g : @hpoly K) :
    exists s t, gcdx H fuel f g = Some (h_gcd_val f g, s, t) /\
      h_eqb F (h_add F (h_mul F s f) (h_mul F t g)) (h_gcd_val f g) = true.
  Proof.
    unfold gcdx, h_gcd_val. rewrite !is_zero_hz, !h_divides.
    destruct (hz f) eqn:Zf; destruct (hz g) eqn:Zg; cbn [andb negb orb obind].
    - do 2 eexists. split; [reflexivity|]. cbn [d_ring hpoly_dict h_ring rzero].
      unfold h_add. fold (hz (h_mul F (h_zero F) f)). rewrite hz_mul_zero.
      apply h_eqb_intro; [|intros C; exfalso; apply C].
      + rewrite h_mul_pair. cbn. ring.
      + rewrite h_mul_pair. cbn. ring.
    - rewrite (h_mul_nunit g Zg). do 2 eexists. split; [reflexivity|exact (h_bezout_r f g Zg)].
    - rewrite (h_mul_nunit f Zf). do 2 eexists. split; [reflexivity|exact (h_bezout_l f g Zf)].
    - destruct (Nat.leb_spec (fst f) (fst g)) as [Le|Gt].
      + rewrite (h_mul_nunit f Zf), Nat.min_l by exact Le.
        do 2 eexists. split; [reflexivity|exact (h_bezout_l f g Zf)].
      + rewrite (proj2 (Nat.leb_le (fst g) (fst f))) by lia. rewrite (h_mul_nunit g Zg), Nat.min_r by lia.
        do 2 eexists. split; [reflexivity|exact (h_bezout_r f g Zg)].
  Qed.

  (* d divides both arguments: d * x^(deg - deg d) * coefficient *)
  Lemma h_gcd_divides (f g : @hpoly K) :
    (exists c, h_eqb F (h_mul F c (h_gcd_val f g)) f = true) /\
    (exists c, h_eqb F (h_mul F c (h_gcd_val f g)) g = true).
  Proof.
    assert (A : forall (x : @hpoly K) (d : nat), (d <= fst x)%nat -> exists c, h_eqb F (h_mul F c (d, one)) x = true).
    { intros x d Hd. exists ((fst x - d)%nat, snd x). rewrite h_mul_pair. cbn [fst snd].
      apply h_eqb_intro; cbn [fst snd]; [ring|]. intros _. lia. }
    assert (B : forall x : @hpoly K, hz x = true -> forall d, exists c, h_eqb F (h_mul F c d) x = true).
    { intros x Zx d. exists (h_zero F). pose proof (hz_true x Zx) as Z.
      apply h_eqb_intro; [|intros C; exfalso; apply C]; rewrite h_mul_pair; cbn [snd h_zero d_ring field_dict]; rewrite ?Z; ring. }
    unfold h_gcd_val. destruct (hz f) eqn:Zf; destruct (hz g) eqn:Zg.
    - split; apply B; assumption.
    - split; [apply B; assumption|apply A; lia].
    - split; [apply A; lia|apply B; assumption].
    - split; apply A; lia.
  Qed.

  Lemma h_gcd_val_normalized f g : d_nunit H (h_gcd_val f g) = h_one F.
  Proof.
    assert (A : forall d : nat, d_nunit H (d, one) = h_one F).
    { intros d. rewrite h_nunit_eq. cbn [snd]. unfold h_one. f_equal. unfold field_nunit.
      destruct (reqb_spec o L one zero) as [E|_]; [reflexivity|]. now rewrite (f_inv_one o inv FL). }
    unfold h_gcd_val. destruct (hz f); destruct (hz g); try apply A.
    rewrite h_nunit_eq. cbn [snd h_zero d_ring field_dict]. rewrite (field_nunit_zero o inv FL). reflexivity.
  Qed.

  (* lcm of two non-zero monomials: x^max(d, d') with coefficient 1 *)
  Lemma h_lcm_value fuel (f g : @hpoly K) : hz f = false -> hz g = false ->
    lcm H fuel f g = Some (Nat.max (fst f) (fst g), one).
  Proof.
    intros Zf Zg. unfold lcm. rewrite h_gcd_value. cbn [obind]. unfold h_gcd_val. rewrite Zf, Zg.
    set (m := Nat.min (fst f) (fst g)).
    assert (Zd : hz (m, one) = false) by exact one_nonzero.
    destruct (h_div_rem_spec g (m, one) Zd) as (i & Ei & Hi & E).
    cbn [d_div hpoly_dict]. unfold h_div. rewrite E. cbn [obind fst snd].
    assert (Lt : (fst g <? m)%nat = false) by (apply Nat.ltb_ge; unfold m; lia). rewrite Lt. cbn [fst].
    rewrite h_normalized_nonzero.
    - cbn [d_ring hpoly_dict h_ring rmul]. rewrite h_mul_pair. cbn [fst]. do 2 f_equal. unfold m. lia.
    - cbn [d_ring hpoly_dict h_ring rmul]. rewrite h_mul_pair.
      apply hz_intro_false. cbn [snd]. pose proof (hz_false f Zf) as NZf. pose proof (hz_false g Zg) as NZg.
      assert (NZi : i <> zero). { intros Zi. apply (fl_nontrivial o inv FL). rewrite <- Hi, Zi. cbn [snd]. ring. }
      exact (f_mul_nonzero o inv FL _ _ NZf (f_mul_nonzero o inv FL _ _ NZg NZi)).
  Qed.

  Lemma hpoly_gcd_main (fuel fuel' : nat) (f g : @hpoly K) :
    exists d s t,
      gcd H fuel f g = Some d /\ gcdx H fuel f g = Some (d, s, t) /\
      d = (if h_is_zero F f then (if h_is_zero F g then h_zero F else (fst g, one))
           else if h_is_zero F g then (fst f, one) else (Nat.min (fst f) (fst g), one)) /\
      (exists c, h_eqb F (h_mul F c d) f = true) /\ (exists c, h_eqb F (h_mul F c d) g = true) /\
      h_eqb F (h_add F (h_mul F s f) (h_mul F t g)) d = true /\
      d_nunit H d = h_one F /\
      gcd H fuel' g f = Some d.
  Proof.
    destruct (h_gcdx_value fuel f g) as (s & t & E & B). exists (h_gcd_val f g), s, t.
    split; [apply h_gcd_value|]. split; [exact E|]. split; [reflexivity|].
    split; [apply h_gcd_divides|]. split; [apply h_gcd_divides|]. split; [exact B|].
    split; [apply h_gcd_val_normalized|]. rewrite h_gcd_val_comm. apply h_gcd_value.
  Qed.
End HPolyProofs.
