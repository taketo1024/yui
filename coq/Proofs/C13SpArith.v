(* C13, sparse matrices: negation, sum, difference, product (the delegated CSC operations,
   modelled by their mathematical definition in Model/Sparse.v: what is proved here is that the model's
   definitions - pattern union / structural product pattern followed by assembly - have the entries of
   madd / msub / mmul), conversion from and to dense, the predicates is_zero and is_id, and the
   permutation matrices from_row_perm / from_col_perm with the two identities stated in sp_mat.rs:
   row_perm(p) * a == a.permute_rows(p) and a * col_perm(p) == a.permute_cols(p). *)
From Coq Require Import Arith List Lia Bool Ring Sorted.
Require Import Yui.Base.Ring Yui.Base.MatF Yui.Base.MatL Yui.Model.Dense Yui.Model.Sparse.
Require Import Yui.Proofs.C13Dense Yui.Proofs.C13SpBase Yui.Proofs.C13Sparse.
Import ListNotations.

Section SpArith.
  Context {R : Type} (o : ring_ops R) (L : ring_laws o).

  Local Notation "0" := (rzero o).
  Local Notation "1" := (rone o).
  Local Infix "+" := (radd o).
  Local Infix "*" := (rmul o).
  Local Notation "- x" := (rneg o x).
  Local Notation ent := (ent R).
  Local Notation spmat := (spmat R).
  Local Notation psum := (psum o).
  Local Notation gsum := (gsum o).
  Local Notation sp_wf := (@sp_wf R).
  Local Notation klt := (@klt R).
  Local Notation sp_is := (sp_is o).

  Add Ring Rring : (ring_theory_of_laws o L).

  Theorem sp_neg_spec a : sp_wf a ->
    sp_is (sp_neg o a) (sp_m a) (sp_n a) (mneg o (entry o a)) /\ sp_nnz (sp_neg o a) = sp_nnz a.
  Proof.
    intros W. pose proof (proj1 (sp_wf_iff a) W) as [B S]. split.
    - unfold sp_is, sp_neg. cbn [sp_m sp_n]. splits; try reflexivity.
      + apply sp_wf_iff. cbn [sp_m sp_n sp_st]. split.
        * apply in_bounds_iff. intros e He. apply in_map_iff in He. destruct He as [x [<- Hx]].
          cbn [e_row e_col fst snd]. now apply (proj1 (in_bounds_iff _ _ _) B).
        * apply sorted_map_mono; [|exact S]. intros x y H. exact H.
      + intros i j _ _. unfold mneg. rewrite !entry_psum. cbn [sp_st].
        apply (psum_map_val o).
        * intros x y. ring.
        * ring.
    - unfold sp_nnz, sp_neg. cbn [sp_st]. apply map_length.
  Qed.

  Theorem sp_add_spec a b : sp_wf a -> sp_wf b ->
    match sp_add o a b with
    | Some c => (sp_m a = sp_m b /\ sp_n a = sp_n b) /\
                sp_is c (sp_m a) (sp_n a) (madd o (entry o a) (entry o b))
    | None => ~ (sp_m a = sp_m b /\ sp_n a = sp_n b)
    end.
  Proof.
    intros Wa Wb. pose proof (proj1 (sp_wf_iff a) Wa) as [Ba _]. pose proof (proj1 (sp_wf_iff b) Wb) as [Bb _].
    unfold sp_add.
    destruct (Nat.eqb_spec (sp_m a) (sp_m b)) as [E1|E1]; destruct (Nat.eqb_spec (sp_n a) (sp_n b)) as [E2|E2];
      cbn [andb]; try tauto.
    split; [tauto|]. unfold sp_is. cbn [sp_m sp_n]. splits; try reflexivity.
    - apply sp_wf_canon. rewrite in_bounds_app, Ba, E1, E2, Bb. reflexivity.
    - intros i j _ _. unfold madd. rewrite !entry_psum. cbn [sp_st]. now rewrite (psum_canon o L), (psum_app o L).
  Qed.

  Theorem sp_sub_spec a b : sp_wf a -> sp_wf b ->
    match sp_sub o a b with
    | Some c => (sp_m a = sp_m b /\ sp_n a = sp_n b) /\
                sp_is c (sp_m a) (sp_n a) (msub o (entry o a) (entry o b))
    | None => ~ (sp_m a = sp_m b /\ sp_n a = sp_n b)
    end.
  Proof.
    intros Wa Wb. destruct (sp_neg_spec b Wb) as [(N1 & N2 & N3 & N4) _].
    change (sp_sub o a b) with (sp_add o a (sp_neg o b)).
    pose proof (sp_add_spec a (sp_neg o b) Wa N3) as S. rewrite N1, N2 in S.
    destruct (sp_add o a (sp_neg o b)) as [c|]; [|exact S]. destruct S as (E & S). split; [exact E|].
    eapply sp_is_ext; [exact S|]. intros i j Hi Hj. unfold madd. rewrite N4 by (destruct E; lia). reflexivity.
  Qed.

  (* a - a has the pattern of a and only explicit zeros *)
  Theorem sp_sub_self a : sp_wf a ->
    exists c, sp_sub o a a = Some c /\ sp_is c (sp_m a) (sp_n a) (mzero o).
  Proof.
    intros W. pose proof (sp_sub_spec a a W W) as S. destruct (sp_sub o a a) as [c|].
    - exists c. split; [reflexivity|]. destruct S as (_ & S). eapply sp_is_ext; [exact S|].
      intros i j _ _. unfold msub, mzero. ring.
    - exfalso. apply S. tauto.
  Qed.

  Theorem sp_mul_spec a b : sp_wf a -> sp_wf b ->
    match sp_mul o a b with
    | Some c => sp_n a = sp_m b /\
                sp_is c (sp_m a) (sp_n b) (mmul o (sp_n a) (entry o a) (entry o b))
    | None => sp_n a <> sp_m b
    end.
  Proof.
    intros Wa Wb. pose proof (sp_wf_bounds a Wa) as Bna. pose proof (sp_wf_bounds b Wb) as Bnb.
    unfold sp_mul. destruct (Nat.eqb_spec (sp_n a) (sp_m b)) as [E|E]; [|exact E].
    split; [exact E|]. unfold sp_is. cbn [sp_m sp_n]. splits; try reflexivity.
    - apply sp_wf_canon. apply in_bounds_iff. intros e He. apply in_flat_map in He.
      destruct He as [eb [Heb He]]. apply in_map_iff in He. destruct He as [ea [<- Hea]].
      apply filter_In in Hea. destruct Hea as [Hea _]. cbn [e_row e_col fst snd].
      destruct (Bna ea Hea), (Bnb eb Heb). lia.
    - intros i j Hi Hj. rewrite entry_psum. cbn [sp_st]. rewrite (psum_canon o L), (psum_flat_map o L).
      (* one stored entry of b contributes [col eb = j] entry a i (row eb) * val eb *)
      assert (One : forall eb,
        psum (fun i' j' => key_eq i' j' i j)
          (map (fun ea : ent => (e_row ea, e_col eb, e_val ea * e_val eb))
               (filter (fun ea : ent => e_col ea =? e_row eb) (sp_st a)))
        = if e_col eb =? j then entry o a i (e_row eb) * e_val eb else 0).
      { intros eb. rewrite entry_psum. generalize (sp_st a). intros l.
        induction l as [|ea r IH]; cbn [filter map C13SpBase.psum].
        - destruct (e_col eb =? j); ring.
        - destruct (Nat.eqb_spec (e_col ea) (e_row eb)) as [Ec|Ec]; cbn [map C13SpBase.psum].
          + cbn [e_row e_col e_val fst snd]. rewrite IH. unfold key_eq. rewrite Ec.
            destruct (e_row ea =? i); destruct (e_col eb =? j); rewrite ?Nat.eqb_refl; cbn [andb]; ring.
          + rewrite IH. unfold key_eq. destruct (Nat.eqb_spec (e_col ea) (e_row eb)); [contradiction|].
            rewrite andb_false_r. reflexivity. }
      (* regroup by the row index of b *)
      transitivity (psum (fun _ j' => j' =? j)
                      (map (fun eb : ent => (e_row eb, e_col eb, entry o a i (e_row eb) * e_val eb)) (sp_st b))).
      { generalize (sp_st b). intros l. induction l as [|eb r IH]; cbn [fold_right map C13SpBase.psum]; [reflexivity|].
        rewrite One, IH. cbn [e_row e_col e_val fst snd]. destruct (e_col eb =? j); ring. }
      rewrite (psum_group_rows o L (fun j' => j' =? j) (fun k => entry o a i k) (sp_m b)).
      + unfold mmul. rewrite E. apply (sum_ext o). intros k _. f_equal. rewrite entry_psum.
        apply psum_ext. intros e _. reflexivity.
      + intros e He. now destruct (Bnb e He).
  Qed.

  Theorem sp_of_dense_spec (A : dmat R) : sp_is (sp_of_dense o A) (dm A) (dn A) (d_get o A).
  Proof.
    unfold sp_is, sp_of_dense. cbn [sp_m sp_n]. splits; try reflexivity.
    - apply sp_wf_canon. apply in_bounds_iff. intros e He. apply nz_in in He; [|exact L]. destruct He as [He _].
      apply in_flat_map in He. destruct He as [j [Hj He]]. apply in_map_iff in He. destruct He as [i [<- Hi]].
      apply in_seq in Hj, Hi. cbn [e_row e_col fst snd]. lia.
    - intros i0 j0 Hi Hj. rewrite entry_psum. cbn [sp_st].
      rewrite (psum_canon o L), (psum_nz o L), (psum_flat_map o L).
      rewrite (fold_sum_seq o L (fun j => psum (fun i' j' => key_eq i' j' i0 j0)
                                   (map (fun i => (i, j, d_get o A i j)) (seq 0 (dm A)))) (dn A)).
      rewrite (sum_ext o (dn A) _ (fun j => if j =? j0 then d_get o A i0 j else 0)).
      + now rewrite (sum_delta o L).
      + intros j _. rewrite (psum_map_seq o L). cbn [e_row e_col e_val fst snd].
        rewrite (sum_ext o (dm A) _ (fun i => if i =? i0 then (if j =? j0 then d_get o A i j else 0) else 0)).
        * now rewrite (sum_delta o L).
        * intros i _. unfold key_eq. destruct (i =? i0); destruct (j =? j0); reflexivity.
  Qed.

  Theorem sp_to_dense_spec a : d_is o (sp_to_dense o a) (sp_m a) (sp_n a) (entry o a).
  Proof. unfold sp_to_dense. apply d_is_mk. Qed.

  (* dense -> sparse -> dense gives the matrix back *)
  Theorem sp_dense_round_trip (A : dmat R) : d_wf A -> sp_to_dense o (sp_of_dense o A) = A.
  Proof.
    intros W. destruct (sp_of_dense_spec A) as (H1 & H2 & H3 & H4).
    pose proof (sp_to_dense_spec (sp_of_dense o A)) as D. rewrite H1, H2 in D.
    apply (d_is_unique o _ _ (dm A) (dn A) (d_get o A)).
    - eapply d_is_ext; [exact D|]. exact H4.
    - unfold d_is. splits; try reflexivity. exact W.
  Qed.

  Theorem sp_is_zero_spec a : sp_wf a ->
    (sp_is_zero o a = true <-> forall i j, entry o a i j = 0).
  Proof.
    intros W. unfold sp_is_zero. rewrite forallb_forall. split.
    - intros H i j. rewrite entry_psum.
      generalize H. generalize (sp_st a). intros l Hl. induction l as [|e r IH]; cbn [C13SpBase.psum]; [reflexivity|].
      rewrite IH by (intros x Hx; apply Hl; now right).
      assert (E : e_val e = 0) by (apply (reqb_eq o L), Hl; now left).
      rewrite E. destruct (key_eq (e_row e) (e_col e) i j); ring.
    - intros H [[i j] v] He. cbn [e_val snd]. apply (reqb_eq o L).
      rewrite <- (entry_stored o L a i j v W He). apply H.
  Qed.

  (* what is_id inspects: the shape and the STORED entries only *)
  Theorem sp_is_id_stored_only a :
    sp_is_id o a = true <->
    sp_m a = sp_n a /\
    forall e, In e (sp_st a) -> (e_row e = e_col e /\ e_val e = 1) \/ (e_row e <> e_col e /\ e_val e = 0).
  Proof.
    unfold sp_is_id. rewrite andb_true_iff, Nat.eqb_eq, forallb_forall. split; intros [H1 H2]; (split; [exact H1|]).
    - intros e He. specialize (H2 e He). apply orb_true_iff in H2. destruct H2 as [H2|H2]; apply andb_true_iff in H2.
      + left. destruct H2 as [H2 H3]. apply Nat.eqb_eq in H2. split; [exact H2|now apply (reqb_eq o L)].
      + right. destruct H2 as [H2 H3]. apply negb_true_iff, Nat.eqb_neq in H2. split; [exact H2|now apply (reqb_eq o L)].
    - intros e He. apply orb_true_iff. destruct (H2 e He) as [[E1 E2]|[E1 E2]].
      + left. apply andb_true_iff. split; [now apply Nat.eqb_eq|now apply (reqb_eq o L)].
      + right. apply andb_true_iff. split; [now apply negb_true_iff, Nat.eqb_neq|now apply (reqb_eq o L)].
  Qed.

  (* the identity matrix is recognised ... *)
  Theorem sp_is_id_complete a : sp_wf a -> sp_m a = sp_n a ->
    meq (sp_m a) (sp_n a) (entry o a) (mid o) -> sp_is_id o a = true.
  Proof.
    intros W E H. apply sp_is_id_stored_only. split; [exact E|]. intros [[i j] v] He.
    destruct (sp_wf_bounds a W _ He) as [Hi Hj].
    cbn [e_row e_col e_val fst snd] in *. rewrite <- (entry_stored o L a i j v W He), (H i j Hi Hj). unfold mid.
    destruct (Nat.eqb_spec i j); [left|right]; now split.
  Qed.

  (* ... but the converse needs every diagonal position to be stored (the code never looks at positions
     that are not stored; see the counter-example in Properties/C13.v) *)
  Theorem sp_is_id_sound_partial a : sp_wf a -> sp_is_id o a = true ->
    (forall i, (i < sp_m a)%nat -> exists v, In (i, i, v) (sp_st a)) ->
    sp_m a = sp_n a /\ meq (sp_m a) (sp_n a) (entry o a) (mid o).
  Proof.
    intros W H D. apply sp_is_id_stored_only in H. destruct H as [E H]. split; [exact E|].
    intros i j Hi Hj. unfold mid. destruct (entry_cases o L a i j W) as [[v [Hv Ev]]|[Hn Ev]]; rewrite Ev.
    - destruct (H _ Hv) as [[E1 E2]|[E1 E2]]; cbn [e_row e_col e_val fst snd] in *.
      + subst. now rewrite Nat.eqb_refl.
      + apply Nat.eqb_neq in E1. now rewrite E1.
    - destruct (Nat.eqb_spec i j) as [->|Hne]; [|reflexivity].
      destruct (D j Hi) as [v Hv]. exfalso. now apply (Hn v).
  Qed.

  Local Notation is_perm := C13Sparse.is_perm.
  Local Notation pat := C13Sparse.pat.

  Theorem sp_from_row_perm_spec p : is_perm p ->
    exists r, sp_from_row_perm o p = Some r /\
      sp_is r (length p) (length p) (fun i j => if i =? pat p j then 1 else 0).
  Proof.
    intros Pp. unfold sp_from_row_perm, perm_dim. pose proof (index_cols_spec o L p (length p)) as S.
    destruct (sp_from_entries o (length p) (length p) _) as [r|].
    - exists r. split; [reflexivity|]. eapply sp_is_ext; [exact S|]. intros i j _ _. now rewrite Nat.eqb_sym.
    - exfalso. destruct S as (_ & x & Hx & Hn). apply (proj2 Pp) in Hx. lia.
  Qed.

  Theorem sp_from_col_perm_spec p : is_perm p ->
    exists r, sp_from_col_perm o p = Some r /\
      sp_is r (length p) (length p) (fun i j => if j =? pat p i then 1 else 0).
  Proof.
    intros Pp. unfold sp_from_col_perm, perm_dim. pose proof (index_rows_spec o L p (length p)) as S.
    destruct (sp_from_entries o (length p) (length p) _) as [r|].
    - exists r. split; [reflexivity|]. eapply sp_is_ext; [exact (proj2 S)|]. intros i j _ _. now rewrite Nat.eqb_sym.
    - exfalso. destruct S as (_ & x & Hx & Hn). apply (proj2 Pp) in Hx. lia.
  Qed.

  (* row_perm(p) * a == a.permute_rows(p) *)
  Theorem sp_row_perm_mul a p : sp_wf a -> is_perm p -> length p = sp_m a ->
    exists P c b, sp_from_row_perm o p = Some P /\ sp_mul o P a = Some c /\ sp_permute_rows o a p = Some b /\
      sp_m c = sp_m b /\ sp_n c = sp_n b /\ meq (sp_m a) (sp_n a) (entry o c) (entry o b).
  Proof.
    intros W Pp Lp.
    destruct (sp_from_row_perm_spec p Pp) as [P (EP & P1 & P2 & P3 & P4)].
    destruct (sp_permute_rows_spec o L a p W Pp Lp) as [b (Eb & B1 & B2 & B3 & B4)].
    pose proof (sp_mul_spec P a P3 W) as M. destruct (sp_mul o P a) as [c|] eqn:EM; [|exfalso; apply M; lia].
    destruct M as (_ & (C1 & C2 & C3 & C4)).
    exists P, c, b. splits; try reflexivity; try assumption; try lia.
    intros i j Hi Hj. rewrite C4 by lia. unfold mmul. rewrite P2.
    destruct (pat_surj p i Pp) as [i0 [Hi0 Ei0]]; [lia|]. rewrite <- Ei0, B4 by lia.
    rewrite (sum_single o L (length p) i0).
    - rewrite P4 by lia. rewrite Nat.eqb_refl. ring.
    - lia.
    - intros k Hk Hne. rewrite P4 by lia.
      destruct (Nat.eqb_spec (pat p i0) (pat p k)) as [E|E]; [exfalso; apply Hne; symmetry; now apply (pat_inj p)|ring].
  Qed.

  (* a * col_perm(q) == a.permute_cols(q) *)
  Theorem sp_col_perm_mul a q : sp_wf a -> is_perm q -> length q = sp_n a ->
    exists Q c b, sp_from_col_perm o q = Some Q /\ sp_mul o a Q = Some c /\ sp_permute_cols o a q = Some b /\
      sp_m c = sp_m b /\ sp_n c = sp_n b /\ meq (sp_m a) (sp_n a) (entry o c) (entry o b).
  Proof.
    intros W Pq Lq.
    destruct (sp_from_col_perm_spec q Pq) as [Q (EQ & Q1 & Q2 & Q3 & Q4)].
    destruct (sp_permute_cols_spec o L a q W Pq Lq) as [b (Eb & B1 & B2 & B3 & B4)].
    pose proof (sp_mul_spec a Q W Q3) as M. destruct (sp_mul o a Q) as [c|] eqn:EM; [|exfalso; apply M; lia].
    destruct M as (_ & (C1 & C2 & C3 & C4)).
    exists Q, c, b. splits; try reflexivity; try assumption; try lia.
    intros i j Hi Hj. rewrite C4 by lia. unfold mmul.
    destruct (pat_surj q j Pq) as [j0 [Hj0 Ej0]]; [lia|]. rewrite <- Ej0, B4 by lia.
    rewrite (sum_single o L (sp_n a) j0).
    - rewrite Q4 by lia. rewrite Nat.eqb_refl. ring.
    - lia.
    - intros k Hk Hne. rewrite Q4 by lia.
      destruct (Nat.eqb_spec (pat q j0) (pat q k)) as [E|E];
        [exfalso; apply Hne; symmetry; apply (pat_inj q); try assumption; lia|ring].
  Qed.
End SpArith.
