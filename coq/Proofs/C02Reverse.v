(* C02 invariance: global orientation reversal.  Rewriting every crossing [a,b,c,d] as [c,d,a,b]
   (crossing type unchanged) reverses every strand.  The model never looks at orientations: every
   resolution has literally the same circles, so the whole cube - vertices, generators, sparse
   differentials - and the base edge chosen for the reduced complex are literally equal. *)
From Coq Require Import List Arith Bool ZArith Lia.
Require Import Yui.Model.KhCube Yui.Model.KhHomology.
Require Import Yui.Proofs.C02Sorted Yui.Proofs.C02Canon.
Import ListNotations.

Definition rot2_crossing (c : crossing) : crossing :=
  let '(t, (e0, e1, e2, e3)) := c in (t, (e2, e3, e0, e1)).
Definition reverse (l : link) : link := map rot2_crossing l.

Lemma rot2_invol c : rot2_crossing (rot2_crossing c) = c.
Proof. now destruct c as [t [[[e0 e1] e2] e3]]. Qed.

Lemma reverse_invol l : reverse (reverse l) = l.
Proof.
  unfold reverse. rewrite map_map. rewrite <- (map_id l) at 2. apply map_ext. apply rot2_invol.
Qed.

Lemma rot2_fst c : fst (rot2_crossing c) = fst c.
Proof. now destruct c as [t [[[e0 e1] e2] e3]]. Qed.

Lemma rot2_retype t c : rot2_crossing (t, snd c) = (t, snd (rot2_crossing c)).
Proof. now destruct c as [t0 [[[e0 e1] e2] e3]]. Qed.

Lemma reverse_crossing_num l : crossing_num (reverse l) = crossing_num l.
Proof. exact (map_crossing_num _ rot2_fst l). Qed.

Lemma resolve_by_reverse l s : resolve_by (reverse l) s = reverse (resolve_by l s).
Proof. exact (resolve_by_map _ rot2_fst rot2_retype l s). Qed.

Lemma reverse_edges l e : In e (all_edges (reverse l)) -> In e (all_edges l).
Proof.
  unfold all_edges, reverse. rewrite !in_flat_map. intros [c' [Hc' He]].
  apply in_map_iff in Hc'. destruct Hc' as [c [<- Hc]]. exists c. split; [exact Hc|].
  destruct c as [t [[[e0 e1] e2] e3]]. cbn in *. tauto.
Qed.

Lemma reverse_arcs l a b : In (a, b) (all_arcs (reverse l)) -> In (a, b) (all_arcs l) \/ In (b, a) (all_arcs l).
Proof.
  unfold all_arcs, reverse. rewrite !in_flat_map. intros [c' [Hc' He]].
  apply in_map_iff in Hc'. destruct Hc' as [c [<- Hc]].
  assert (In (a, b) (arcs c) \/ In (b, a) (arcs c)).
  { destruct c as [t [[[e0 e1] e2] e3]].
    destruct t; cbn in He |- *; destruct He as [E|[E|[]]]; injection E as <- <-; tauto. }
  destruct H; [left|right]; exists c; auto.
Qed.

Lemma conn_reverse_1 l a b : conn (reverse l) a b -> conn l a b.
Proof.
  apply conn_incl; [apply reverse_edges|].
  intros x y H. apply reverse_arcs in H. destruct H; [now apply gen_arc|now apply gen_sym, gen_arc].
Qed.

Theorem circles_reverse l : circles (reverse l) = circles l.
Proof.
  apply circles_ext. intros a b. split; [apply conn_reverse_1|].
  intros H. apply conn_reverse_1. now rewrite reverse_invol.
Qed.

Theorem circles_resolve_reverse l s : circles (resolve_by (reverse l) s) = circles (resolve_by l s).
Proof. rewrite resolve_by_reverse. apply circles_reverse. Qed.

Lemma lower_bounds_ext (x y : nat) : (forall z, (z <= x <-> z <= y)%nat) -> x = y.
Proof. intros H. apply Nat.le_antisymm; apply H; reflexivity. Qed.

(* both sides are the greatest lower bound of the four labels of the first crossing *)
Theorem first_edge_reverse l : first_edge (reverse l) = first_edge l.
Proof.
  destruct l as [|[t [[[a b] c] d]] l]; [reflexivity|].
  cbn [reverse map rot2_crossing first_edge crossing_edges hd fold_right]. f_equal.
  apply lower_bounds_ext. intros z. rewrite !Nat.min_glb_iff. tauto.
Qed.

Lemma make_vertex_reverse l red s : make_vertex (reverse l) red s = make_vertex l red s.
Proof. unfold make_vertex. now rewrite circles_resolve_reverse. Qed.

Lemma all_vertices_reverse l red : all_vertices (reverse l) red = all_vertices l red.
Proof.
  unfold all_vertices. rewrite reverse_crossing_num. apply map_ext. apply make_vertex_reverse.
Qed.

Theorem build_cube_reverse l red h t : build_cube (reverse l) red h t = build_cube l red h t.
Proof. unfold build_cube. now rewrite reverse_crossing_num, all_vertices_reverse. Qed.

Theorem build_cube_reverse_first l h t :
  build_cube (reverse l) (first_edge (reverse l)) h t = build_cube l (first_edge l) h t.
Proof. now rewrite first_edge_reverse, build_cube_reverse. Qed.
