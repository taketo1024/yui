(* C08: a reduction step keeps the Smith form up to r leading units.
   Part 1 (Section SdrEquiv): pure algebra on the shaped matrices of Model/Reducer.v.  If the maps (f1, b1, f2, b2, h)
   of a step a1 ~> s satisfy the identities of C08_step and the homotopy factors through R^r,  h = e1 g2  with
   g2 a1 e1 = 1_r, then  U = [g2; f2],  V = [e1 | b1]  are invertible (U^-1 = [a1 e1 | b2], V^-1 = [g2 a1; f1]) and
   U a1 V = I_r (+) s.
   Part 2: the step of the model has such a factorisation (e1 = q^-1 [1; 0], g2 = [a^-1 0] p).
   Part 3: conversion to function matrices and [smith_form] (Proofs/C08HomF.v). *)
From Coq Require Import Arith List Lia Bool Ring.
Require Import Yui.Base.Ring Yui.Base.MatF Yui.Base.MatL Yui.Model.Reducer.
Require Import Yui.Proofs.C08Mat Yui.Proofs.C08Perm Yui.Proofs.C08Tri Yui.Proofs.C08Block Yui.Proofs.C08Step.
Require Import Yui.Proofs.C08All Yui.Proofs.C08Run.
Require Import Yui.Proofs.C07Algebra Yui.Proofs.C09UniqueKer Yui.Proofs.C08HomF.
Import ListNotations.

(* two shaped matrices whose products are identities are inverse as function matrices *)
Lemma inv_pair_dmat {R} (o : ring_ops R) n (U Ui : dmat R) :
  dmul o U Ui = did o n -> dmul o Ui U = did o n -> inv_pair o n (dget o U) (dget o Ui).
Proof.
  intros E1 E2.
  pose proof (f_equal (@dr R) E1) as H1. pose proof (f_equal (@dc R) E1) as H2.
  pose proof (f_equal (@dr R) E2) as H3. pose proof (f_equal (@dc R) E2) as H4. simpl in H1, H2, H3, H4.
  split; intros i j Hi Hj; rewrite <- (dget_did o n) by assumption.
  - rewrite <- E1, (dget_dmul o), H4 by congruence. reflexivity.
  - rewrite <- E2, (dget_dmul o), H2 by congruence. reflexivity.
Qed.

Section SdrEquiv.
  Context {R : Type} (o : ring_ops R) (L : ring_laws o).
  Local Notation dmat := (dmat R).
  Local Notation dwf := (@dwf R).
  Context (r mr nr : nat) (a1 s f1 b1 f2 b2 h e1 g2 : dmat).
  Context (Wa : dwf a1) (Ra : dr a1 = r + mr) (Ca : dc a1 = r + nr)
          (Ws : dwf s) (Rs : dr s = mr) (Cs : dc s = nr)
          (Wf1 : dwf f1) (Rf1 : dr f1 = nr) (Cf1 : dc f1 = r + nr)
          (Wb1 : dwf b1) (Rb1 : dr b1 = r + nr) (Cb1 : dc b1 = nr)
          (Wf2 : dwf f2) (Rf2 : dr f2 = mr) (Cf2 : dc f2 = r + mr)
          (Wb2 : dwf b2) (Rb2 : dr b2 = r + mr) (Cb2 : dc b2 = mr)
          (We1 : dwf e1) (Re1 : dr e1 = r + nr) (Ce1 : dc e1 = r)
          (Wg2 : dwf g2) (Rg2 : dr g2 = r) (Cg2 : dc g2 = r + mr).
  Context (Hfc : dmul o f2 a1 = dmul o s f1) (Hbc : dmul o a1 b1 = dmul o b2 s)
          (Hfb1 : dmul o f1 b1 = did o nr) (Hfb2 : dmul o f2 b2 = did o mr)
          (Hh1 : dadd o (dmul o b1 f1) (dmul o h a1) = did o (r + nr))
          (Hh2 : dadd o (dmul o b2 f2) (dmul o a1 h) = did o (r + mr))
          (Hfh : dmul o f1 h = dzero o nr (r + mr)) (Hhb : dmul o h b2 = dzero o (r + nr) mr)
          (Hfac : h = dmul o e1 g2) (Hunit : dmul o g2 (dmul o a1 e1) = did o r).

  (* sd: close a well-formedness or shape side condition, the shapes read off the section hypotheses *)
  Ltac sd := solve [dwfs | assumption
                   | shapes;
                     rewrite ?Ra, ?Ca, ?Rs, ?Cs, ?Rf1, ?Cf1, ?Rb1, ?Cb1, ?Rf2, ?Cf2, ?Rb2, ?Cb2, ?Re1, ?Ce1, ?Rg2, ?Cg2;
                     (lia || reflexivity)].

  Local Notation e2 := (dmul o a1 e1).
  Local Notation g1 := (dmul o g2 a1).

  Lemma se_g1e1 : dmul o g1 e1 = did o r.
  Proof. rewrite (dmul_assoc o L) by sd. exact Hunit. Qed.

  Lemma se_f1e1 : dmul o f1 e1 = dzero o nr r.
  Proof.
    assert (X : dmul o (dmul o f1 h) e2 = dmul o f1 e1).
    { rewrite Hfac. rewrite <- (dmul_assoc o L f1) by sd. rewrite (dmul_assoc o L (dmul o f1 e1)) by sd.
      rewrite Hunit. apply (dmul_id_r o L); sd. }
    rewrite <- X, Hfh. rewrite (dmul_zero_l o L). f_equal; sd.
  Qed.

  Lemma se_g2b2 : dmul o g2 b2 = dzero o r mr.
  Proof.
    assert (X : dmul o g1 (dmul o h b2) = dmul o g2 b2).
    { rewrite Hfac. rewrite (dmul_assoc o L e1) by sd. rewrite <- (dmul_assoc o L g1) by sd.
      rewrite se_g1e1. apply (dmul_id_l o L); sd. }
    rewrite <- X, Hhb. rewrite (dmul_zero_r o L). f_equal; sd.
  Qed.

  Lemma se_g2ab1 : dmul o g2 (dmul o a1 b1) = dzero o r nr.
  Proof.
    rewrite Hbc. rewrite <- (dmul_assoc o L) by sd. rewrite se_g2b2. rewrite (dmul_zero_l o L). f_equal; sd.
  Qed.

  Lemma se_f2ae1 : dmul o f2 e2 = dzero o mr r.
  Proof.
    rewrite <- (dmul_assoc o L) by sd. rewrite Hfc. rewrite (dmul_assoc o L) by sd. rewrite se_f1e1.
    rewrite (dmul_zero_r o L). f_equal; sd.
  Qed.

  Lemma se_f2ab1 : dmul o f2 (dmul o a1 b1) = s.
  Proof.
    rewrite Hbc. rewrite <- (dmul_assoc o L) by sd. rewrite Hfb2. apply (dmul_id_l o L); sd.
  Qed.

  Definition se_U := dvcat o g2 f2.
  Definition se_Ui := dhcat o e2 b2.
  Definition se_V := dhcat o e1 b1.
  Definition se_Vi := dvcat o g1 f1.
  Definition se_BD := dvcat o (dhcat o (did o r) (dzero o r nr)) (dhcat o (dzero o mr r) s).

  Lemma se_UUi : dmul o se_U se_Ui = did o (r + mr).
  Proof.
    unfold se_U, se_Ui. rewrite (dmul_vcat_l o) by sd. rewrite !(dmul_hcat_r o) by sd.
    rewrite Hunit, se_g2b2, se_f2ae1, Hfb2. apply (did_blocks o).
  Qed.

  Lemma se_UiU : dmul o se_Ui se_U = did o (r + mr).
  Proof.
    unfold se_U, se_Ui. rewrite (dmul_hcat_vcat o L) by sd.
    rewrite (dmul_assoc o L) by sd. rewrite (dadd_comm o L) by sd. rewrite <- Hfac. exact Hh2.
  Qed.

  Lemma se_ViV : dmul o se_Vi se_V = did o (r + nr).
  Proof.
    unfold se_V, se_Vi. rewrite (dmul_vcat_l o) by sd. rewrite !(dmul_hcat_r o) by sd.
    rewrite se_g1e1, se_f1e1, Hfb1. rewrite (dmul_assoc o L g2) by sd. rewrite se_g2ab1. apply (did_blocks o).
  Qed.

  Lemma se_VVi : dmul o se_V se_Vi = did o (r + nr).
  Proof.
    unfold se_V, se_Vi. rewrite (dmul_hcat_vcat o L) by sd.
    rewrite <- (dmul_assoc o L) by sd. rewrite (dadd_comm o L) by sd. rewrite <- Hfac. exact Hh1.
  Qed.

  Lemma se_UAV : dmul o se_U (dmul o a1 se_V) = se_BD.
  Proof.
    unfold se_U, se_V, se_BD. rewrite (dmul_hcat_r o a1) by sd. rewrite (dmul_vcat_l o) by sd.
    rewrite !(dmul_hcat_r o) by sd. rewrite Hunit, se_g2ab1, se_f2ae1, se_f2ab1. reflexivity.
  Qed.
  Lemma se_BD_entry i j : i < r + mr -> j < r + nr -> dget o se_BD i j = bd o r (dget o s) i j.
  Proof.
    intros Hi Hj. unfold se_BD. rewrite bd_entry. rewrite (dget_dvcat o) by sd. shapes.
    destruct (Nat.ltb_spec i r) as [Hir|Hir].
    - rewrite (dget_dhcat o) by sd. shapes. destruct (Nat.ltb_spec j r) as [Hjr|Hjr].
      + now apply (dget_did o).
      + apply (dget_dzero o).
    - rewrite (dget_dhcat o) by sd. shapes. destruct (Nat.ltb_spec j r) as [Hjr|Hjr].
      + apply (dget_dzero o).
      + reflexivity.
  Qed.

  Lemma se_inv_U : inv_pair o (r + mr) (dget o se_U) (dget o se_Ui).
  Proof. exact (inv_pair_dmat o _ _ _ se_UUi se_UiU). Qed.

  Lemma se_inv_V : inv_pair o (r + nr) (dget o se_V) (dget o se_Vi).
  Proof. exact (inv_pair_dmat o _ _ _ se_VVi se_ViV). Qed.

  Lemma se_UAV_fun :
    meq (r + mr) (r + nr) (mmul o (r + mr) (dget o se_U) (mmul o (r + nr) (dget o a1) (dget o se_V)))
        (bd o r (dget o s)).
  Proof.
    intros i j Hi Hj. rewrite <- se_BD_entry by assumption. rewrite <- se_UAV.
    rewrite (dget_dmul o) by (unfold se_U, se_V; sd).
    replace (dc se_U) with (r + mr) by (unfold se_U; sd).
    apply (mmul_ext_r o). intros l Hl.
    rewrite (dget_dmul o) by (unfold se_V; sd). f_equal. sd.
  Qed.

  Theorem sdr_step_smith (Hone : rone o <> rzero o) k ds :
    smith_form o mr nr (dget o s) k ds ->
    smith_form o (r + mr) (r + nr) (dget o a1) (r + k) (lead1 o r ds).
  Proof.
    intros HS.
    exact (equiv_bd_smith o L Hone r mr nr (dget o a1) (dget o s) _ _ _ _ k ds se_inv_U se_inv_V se_UAV_fun HS).
  Qed.
End SdrEquiv.

(* Part 2: the step of the model *)
Section StepSmith.
  Context {R : Type} (o : ring_ops R) (L : ring_laws o) (u : unit_ops R) (UL : unit_laws o u).
  Local Notation dmat := (dmat R).
  Local Notation dwf := (@dwf R).

  (* sd: close a well-formedness or shape side condition *)
  Ltac sd := solve [dwfs | assumption | shapes; (lia || reflexivity)].

  Lemma blk_fac (G : dmat) r nr : dwf G -> dr G = r ->
    dmul o (dvcat o (did o r) (dzero o nr r)) G = dvcat o G (dzero o nr (dc G)).
  Proof.
    intros W H. rewrite (dmul_vcat_l o) by sd. rewrite (dmul_id_l o L) by assumption.
    now rewrite (dmul_zero_l o L).
  Qed.

  Lemma blk_unit r mr nr fa fb fc fd (ainv : dmat) :
    dwf ainv -> dr ainv = r -> dc ainv = r -> dmul o ainv (dmk r r fa) = did o r ->
    dmul o (dhcat o ainv (dzero o r mr))
         (dmul o (blk_A o r mr nr fa fb fc fd) (dvcat o (did o r) (dzero o nr r))) = did o r.
  Proof.
    intros W Hr Hc Hi. unfold blk_A. rewrite (dmul_vcat_l o) by sd.
    rewrite !(dmul_hcat_vcat o L) by sd.
    rewrite !(dmul_id_r o L) by sd. rewrite !(dmul_zero_r o L). shapes.
    rewrite (dadd_zero_r' o L) by sd. rewrite (dadd_zero_r' o L) by sd.
    rewrite Hi. rewrite (dmul_zero_l o L). shapes. apply (dadd_zero_r' o L); sd.
  Qed.

  Theorem step_smith (a1 : dmat) (vp vq : list nat) (r : nat) (t : ttype) (sc : schur R) :
    rone o <> rzero o ->
    dwf a1 -> is_perm (dr a1) vp -> is_perm (dc a1) vq ->
    tri_ok o t (dblock o (permute o a1 vp vq) 0 0 r r) r ->
    schur_of o u t (permute o a1 vp vq) r = Some sc ->
    forall (k : nat) (ds : nat -> R),
    smith_form o (dr a1 - r) (dc a1 - r) (dget o (sc_s sc)) k ds ->
    smith_form o (dr a1) (dc a1) (dget o a1) (r + k) (lead1 o r ds).
  Proof.
    intros Hone W1 Hp Hq Htri Hsc k ds HS.
    destruct (step_summary o L u UL a1 vp vq r t sc W1 Hp Hq Htri Hsc)
      as ((Hrm & Hrn & Ws & Rs & Cs) & Hfc & Hbc & Hfb1 & Hfb2 & Hh1 & Hh2 & Hfh & Hhb & _).
    pose proof (step_dims o L u UL a1 (dr a1) (dc a1) r vp vq t sc eq_refl eq_refl Hp Hq Htri Hsc)
      as (D1 & D2 & D3 & D4 & D5 & D6 & D7 & D8 & D9 & D10 & _).
    destruct (sc_unfold o L u UL a1 (dr a1) (dc a1) r vp vq t sc eq_refl eq_refl Htri Hsc)
      as (_ & _ & Hi1 & Hi2 & Eai & _).
    pose proof (perm_length _ _ Hp) as Lp. pose proof (perm_length _ _ Hq) as Lq.
    set (mr := dr a1 - r) in *. set (nr := dc a1 - r) in *.
    assert (Em : dr a1 = r + mr) by (subst mr; lia).
    assert (En : dc a1 = r + nr) by (subst nr; lia).
    set (ainv := sc_ainv sc) in *.
    assert (Wai : dwf ainv) by (rewrite Eai; dwfs).
    assert (Rai : dr ainv = r) by (rewrite Eai; reflexivity).
    assert (Cai : dc ainv = r) by (rewrite Eai; reflexivity).
    set (E := dvcat o (did o r) (dzero o nr r)).
    set (G := dhcat o ainv (dzero o r mr)).
    set (e1 := dmul o (col_perm_mat o vq) E).
    set (g2 := dmul o G (row_perm_mat o vp)).
    assert (Hfac : step_h o (dr a1) (dc a1) r vp vq sc = dmul o e1 g2).
    { unfold step_h, e1, g2. fold ainv mr nr.
      rewrite (dmul_assoc o L (col_perm_mat o vq) E) by (unfold E; shapes; rewrite Lq; lia).
      rewrite <- (dmul_assoc o L E G) by (unfold E, G; shapes; lia).
      unfold E. rewrite (blk_fac G r nr) by (unfold G; shapes; (dwfs || assumption)).
      unfold G. shapes. rewrite Cai. reflexivity. }
    assert (Hunit : dmul o g2 (dmul o a1 e1) = did o r).
    { unfold e1, g2.
      rewrite <- (dmul_assoc o L a1) by (shapes; now rewrite Lq).
      rewrite (dmul_assoc o L G) by (unfold G; shapes; rewrite Lp, Cai; lia).
      rewrite <- (dmul_assoc o L (row_perm_mat o vp)) by (shapes; now rewrite Lp).
      rewrite <- (permute_eq o L a1 (dr a1) (dc a1) vp vq eq_refl eq_refl Hp Hq).
      rewrite (A'_blocks o L u UL a1 (dr a1) (dc a1) r vp vq t sc eq_refl eq_refl Htri Hsc).
      fold mr nr. unfold G, E. apply blk_unit; try assumption.
      rewrite Eai. exact Hi2. }
    rewrite Em, En.
    refine (sdr_step_smith o L r mr nr a1 (sc_s sc) (step_f1 o (dc a1) r vq) (step_b1 o (dc a1) r vq sc)
              (step_f2 o (dr a1) r vp sc) (step_b2 o (dr a1) r vp) (step_h o (dr a1) (dc a1) r vp vq sc) e1 g2
              Em En Ws Rs Cs D1 (eq_trans D2 En) (eq_trans D3 En) D4 D5 (eq_trans D6 Em)
              (eq_trans D7 Em) D8 _ _ _ _ Hfc Hbc Hfb1 Hfb2
              (eq_trans Hh1 (f_equal (did o) En)) (eq_trans Hh2 (f_equal (did o) Em))
              (eq_trans Hfh (f_equal (dzero o nr) Em)) (eq_trans Hhb (f_equal (fun x => dzero o x mr) En))
              Hfac Hunit Hone k ds HS).
    - unfold e1, E. shapes. now rewrite Lq.
    - unfold e1, E. reflexivity.
    - unfold g2, G. shapes. exact Rai.
    - unfold g2. shapes. now rewrite Lp.
  Qed.
End StepSmith.
