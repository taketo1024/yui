(* Calculus of shaped dense matrices ([dmat] of Model/Reducer.v) with Leibniz equality:
   associativity, units, distributivity, block (hcat/vcat) multiplication.  All facts are proved through
   the functional matrices of Base/MatF.v. *)
From Coq Require Import Arith List Lia Bool Ring.
Require Import Yui.Base.Ring Yui.Base.MatF Yui.Base.MatL Yui.Model.Reducer.
Import ListNotations.

Section DMat.
  Context {R : Type} (o : ring_ops R) (L : ring_laws o).
  Add Ring Rring : (ring_theory_of_laws o L).
  Local Notation dmat := (dmat R).
  Local Notation r0 := (rzero o).
  Local Notation r1 := (rone o).

  Definition dwf (A : dmat) : Prop := wf (dr A) (dc A) (de A).

  Lemma dwfb_dwf A : dwfb A = true <-> dwf A.
  Proof. apply wfb_wf. Qed.

  Lemma dwf_dmk m n (f : nat -> nat -> R) : dwf (dmk m n f).
  Proof. apply wf_lmk. Qed.

  Lemma dget_dmk m n (f : nat -> nat -> R) i j : i < m -> j < n -> dget o (dmk m n f) i j = f i j.
  Proof. intros. unfold dget, dmk. cbn [de]. now apply lget_lmk. Qed.

  Lemma dget_dmk_all m n (f : nat -> nat -> R) i j :
    dget o (dmk m n f) i j = if (i <? m) && (j <? n) then f i j else r0.
  Proof.
    destruct (Nat.ltb_spec i m) as [Hi|Hi]; cbn [andb].
    - destruct (Nat.ltb_spec j n) as [Hj|Hj].
      + now apply dget_dmk.
      + apply (lget_out_col o m n); [apply wf_lmk|exact Hj].
    - apply (lget_out_row o m n); [apply wf_lmk|exact Hi].
  Qed.

  Lemma dmat_ext A B :
    dwf A -> dwf B -> dr A = dr B -> dc A = dc B ->
    (forall i j, i < dr A -> j < dc A -> dget o A i j = dget o B i j) -> A = B.
  Proof.
    destruct A as [m n a], B as [m' n' b]. unfold dwf, dget. cbn [dr dc de]. intros HA HB -> -> H.
    f_equal. now apply (lmat_ext o m' n').
  Qed.

  Lemma dmk_ext m n (f g : nat -> nat -> R) : (forall i j, i < m -> j < n -> f i j = g i j) -> dmk m n f = dmk m n g.
  Proof.
    intros H. apply dmat_ext; try apply dwf_dmk; try reflexivity.
    intros i j Hi Hj. cbn [dr dc dmk] in Hi, Hj. rewrite !dget_dmk by assumption. now apply H.
  Qed.

  Lemma dmk_eta A : dwf A -> dmk (dr A) (dc A) (dget o A) = A.
  Proof.
    intros H. apply dmat_ext; try apply dwf_dmk; try assumption; try reflexivity.
    intros i j Hi Hj. cbn [dr dc dmk] in Hi, Hj. now rewrite dget_dmk.
  Qed.

  Lemma dr_dmk m n (f : nat -> nat -> R) : dr (dmk m n f) = m. Proof. reflexivity. Qed.
  Lemma dc_dmk m n (f : nat -> nat -> R) : dc (dmk m n f) = n. Proof. reflexivity. Qed.
  Lemma dr_dmul A B : dr (dmul o A B) = dr A. Proof. reflexivity. Qed.
  Lemma dc_dmul A B : dc (dmul o A B) = dc B. Proof. reflexivity. Qed.
  Lemma dr_dadd A B : dr (dadd o A B) = dr A. Proof. reflexivity. Qed.
  Lemma dc_dadd A B : dc (dadd o A B) = dc A. Proof. reflexivity. Qed.
  Lemma dr_dneg A : dr (dneg o A) = dr A. Proof. reflexivity. Qed.
  Lemma dc_dneg A : dc (dneg o A) = dc A. Proof. reflexivity. Qed.
  Lemma dr_dsub A B : dr (dsub o A B) = dr A. Proof. reflexivity. Qed.
  Lemma dc_dsub A B : dc (dsub o A B) = dc A. Proof. reflexivity. Qed.
  Lemma dr_dzero m n : dr (dzero o m n) = m. Proof. reflexivity. Qed.
  Lemma dc_dzero m n : dc (dzero o m n) = n. Proof. reflexivity. Qed.
  Lemma dr_did n : dr (did o n) = n. Proof. reflexivity. Qed.
  Lemma dc_did n : dc (did o n) = n. Proof. reflexivity. Qed.
  Lemma dr_dhcat A B : dr (dhcat o A B) = dr A. Proof. reflexivity. Qed.
  Lemma dc_dhcat A B : dc (dhcat o A B) = dc A + dc B. Proof. reflexivity. Qed.
  Lemma dr_dvcat A B : dr (dvcat o A B) = dr A + dr B. Proof. reflexivity. Qed.
  Lemma dc_dvcat A B : dc (dvcat o A B) = dc A. Proof. reflexivity. Qed.
  Lemma dr_dblock A i0 j0 m n : dr (dblock o A i0 j0 m n) = m. Proof. reflexivity. Qed.
  Lemma dc_dblock A i0 j0 m n : dc (dblock o A i0 j0 m n) = n. Proof. reflexivity. Qed.
  Lemma dr_dtrans A : dr (dtrans o A) = dc A. Proof. reflexivity. Qed.
  Lemma dc_dtrans A : dc (dtrans o A) = dr A. Proof. reflexivity. Qed.

  Lemma dwf_dmul A B : dwf (dmul o A B). Proof. apply dwf_dmk. Qed.
  Lemma dwf_dadd A B : dwf (dadd o A B). Proof. apply dwf_dmk. Qed.
  Lemma dwf_dneg A : dwf (dneg o A). Proof. apply dwf_dmk. Qed.
  Lemma dwf_dsub A B : dwf (dsub o A B). Proof. apply dwf_dmk. Qed.
  Lemma dwf_dzero m n : dwf (dzero o m n). Proof. apply dwf_dmk. Qed.
  Lemma dwf_did n : dwf (did o n). Proof. apply dwf_dmk. Qed.
  Lemma dwf_dhcat A B : dwf (dhcat o A B). Proof. apply dwf_dmk. Qed.
  Lemma dwf_dvcat A B : dwf (dvcat o A B). Proof. apply dwf_dmk. Qed.
  Lemma dwf_dblock A i0 j0 m n : dwf (dblock o A i0 j0 m n). Proof. apply dwf_dmk. Qed.
  Lemma dwf_dtrans A : dwf (dtrans o A). Proof. apply dwf_dmk. Qed.
End DMat.

#[export] Hint Resolve dwf_dmk dwf_dmul dwf_dadd dwf_dneg dwf_dsub dwf_dzero dwf_did dwf_dhcat dwf_dvcat
  dwf_dblock dwf_dtrans : dwf.

(* The shape of a matrix expression is computed: every operation is a [dmk], so [dr] and [dc] of it reduce
   to an expression in the shapes of its arguments.  (The equations above say the same one operation at a
   time; rewriting with them is far slower than evaluation.) *)
Ltac shapes := simpl dr; simpl dc.
Ltac dims := simpl dr in *; simpl dc in *; try lia; try reflexivity; try assumption.
Ltac dwfs := auto with dwf.

Section DMatAlg.
  Context {R : Type} (o : ring_ops R) (L : ring_laws o).
  Add Ring Rring2 : (ring_theory_of_laws o L).
  Local Notation dmat := (dmat R).
  Local Notation r0 := (rzero o).
  Local Notation r1 := (rone o).
  Local Notation dwf := (@dwf R).

  Lemma dget_dmul A B i j : i < dr A -> j < dc B ->
    dget o (dmul o A B) i j = mmul o (dc A) (dget o A) (dget o B) i j.
  Proof. intros. unfold dmul. now rewrite dget_dmk. Qed.

  Lemma dget_dadd A B i j : i < dr A -> j < dc A ->
    dget o (dadd o A B) i j = radd o (dget o A i j) (dget o B i j).
  Proof. intros. unfold dadd. now rewrite dget_dmk. Qed.

  Lemma dget_dneg A i j : i < dr A -> j < dc A -> dget o (dneg o A) i j = rneg o (dget o A i j).
  Proof. intros. unfold dneg. now rewrite dget_dmk. Qed.

  Lemma dget_dsub A B i j : i < dr A -> j < dc A ->
    dget o (dsub o A B) i j = radd o (dget o A i j) (rneg o (dget o B i j)).
  Proof. intros. unfold dsub. now rewrite dget_dmk. Qed.

  Lemma dget_dzero m n i j : dget o (dzero o m n) i j = r0.
  Proof. unfold dzero. rewrite dget_dmk_all. now destruct ((i <? m) && (j <? n)). Qed.

  Lemma dget_did n i j : i < n -> j < n -> dget o (did o n) i j = mid o i j.
  Proof. intros. unfold did. now rewrite dget_dmk. Qed.

  Lemma dget_dtrans A i j : i < dc A -> j < dr A -> dget o (dtrans o A) i j = dget o A j i.
  Proof. intros. unfold dtrans. now rewrite dget_dmk. Qed.

  Lemma dget_dblock A i0 j0 m n i j : i < m -> j < n -> dget o (dblock o A i0 j0 m n) i j = dget o A (i0 + i) (j0 + j).
  Proof. intros. unfold dblock. now rewrite dget_dmk. Qed.

  Lemma dget_dhcat A B i j : i < dr A -> j < dc A + dc B ->
    dget o (dhcat o A B) i j = if j <? dc A then dget o A i j else dget o B i (j - dc A).
  Proof. intros. unfold dhcat. now rewrite dget_dmk. Qed.

  Lemma dget_dvcat A B i j : i < dr A + dr B -> j < dc A ->
    dget o (dvcat o A B) i j = if i <? dr A then dget o A i j else dget o B (i - dr A) j.
  Proof. intros. unfold dvcat. now rewrite dget_dmk. Qed.

  Lemma dmul_assoc A B C : dc A = dr B -> dmul o (dmul o A B) C = dmul o A (dmul o B C).
  Proof.
    intros H. unfold dmul at 1 3. apply (dmk_ext o). intros i j Hi Hj. simpl dr in *; simpl dc in *.
    transitivity (mmul o (dc B) (mmul o (dc A) (dget o A) (dget o B)) (dget o C) i j).
    - unfold mmul at 1. apply sum_ext. intros k Hk. now rewrite dget_dmul.
    - rewrite (mmul_assoc o L). unfold mmul at 1. apply sum_ext. intros k Hk.
      rewrite dget_dmul by lia. reflexivity.
  Qed.

  Lemma dmul_id_l A n : dwf A -> dr A = n -> dmul o (did o n) A = A.
  Proof.
    intros HA <-. apply (dmat_ext o); dwfs. intros i j Hi Hj. dims.
    rewrite dget_dmul by dims. dims.
    transitivity (mmul o (dr A) (mid o) (dget o A) i j).
    - unfold mmul. apply sum_ext. intros k Hk. now rewrite dget_did.
    - now apply (mmul_id_l o L).
  Qed.

  Lemma dmul_id_r A n : dwf A -> dc A = n -> dmul o A (did o n) = A.
  Proof.
    intros HA <-. apply (dmat_ext o); dwfs. intros i j Hi Hj. dims.
    rewrite dget_dmul by dims.
    transitivity (mmul o (dc A) (dget o A) (mid o) i j).
    - unfold mmul. apply sum_ext. intros k Hk. now rewrite dget_did.
    - now apply (mmul_id_r o L).
  Qed.

  Lemma dmul_cancel_l P Q X n : dc Q = dr P -> dmul o Q P = did o n -> dwf X -> dr X = n ->
    dmul o Q (dmul o P X) = X.
  Proof. intros H E W Hn. rewrite <- dmul_assoc by exact H. rewrite E. now apply dmul_id_l. Qed.

  Lemma dmul_cancel_r P Q X n : dmul o P Q = did o n -> dwf X -> dc X = n -> dmul o (dmul o X P) Q = X.
  Proof.
    intros E W Hn. rewrite dmul_assoc by (rewrite Hn; exact (eq_sym (f_equal (@dr R) E))).
    rewrite E. now apply dmul_id_r.
  Qed.

  Lemma dmul_zero_l m n A : dmul o (dzero o m n) A = dzero o m (dc A).
  Proof.
    apply (dmat_ext o); dwfs. intros i j Hi Hj. dims.
    rewrite dget_dmul by dims. rewrite dget_dzero. unfold mmul.
    apply (sum_zero_ext o L). intros k Hk. rewrite dget_dzero. ring.
  Qed.

  Lemma dmul_zero_r A m n : dmul o A (dzero o m n) = dzero o (dr A) n.
  Proof.
    apply (dmat_ext o); dwfs. intros i j Hi Hj. dims.
    rewrite dget_dmul by dims. rewrite dget_dzero. unfold mmul.
    apply (sum_zero_ext o L). intros k Hk. rewrite dget_dzero. ring.
  Qed.

  Lemma dmul_add_l A B C : dr A = dr B -> dc A = dc B ->
    dmul o (dadd o A B) C = dadd o (dmul o A C) (dmul o B C).
  Proof.
    intros H1 H2. apply (dmat_ext o); dwfs. intros i j Hi Hj. dims.
    rewrite dget_dmul, dget_dadd, !dget_dmul by dims. dims.
    rewrite <- H2. unfold mmul. rewrite <- (sum_add o L). apply sum_ext. intros k Hk.
    rewrite dget_dadd by lia. ring.
  Qed.

  Lemma dmul_add_r A B C : dc A = dr B -> dr B = dr C -> dc B = dc C ->
    dmul o A (dadd o B C) = dadd o (dmul o A B) (dmul o A C).
  Proof.
    intros H1 H2 H3. apply (dmat_ext o); dwfs. intros i j Hi Hj. dims.
    rewrite dget_dmul, dget_dadd, !dget_dmul by dims.
    unfold mmul. rewrite <- (sum_add o L). apply sum_ext. intros k Hk.
    rewrite dget_dadd by lia. ring.
  Qed.

  Lemma dmul_neg_l A B : dmul o (dneg o A) B = dneg o (dmul o A B).
  Proof.
    apply (dmat_ext o); dwfs. intros i j Hi Hj. dims.
    rewrite dget_dmul, dget_dneg, dget_dmul by dims. dims.
    unfold mmul. rewrite <- (sum_neg o L). apply sum_ext. intros k Hk.
    rewrite dget_dneg by lia. ring.
  Qed.

  Lemma dmul_neg_r A B : dc A = dr B -> dmul o A (dneg o B) = dneg o (dmul o A B).
  Proof.
    intros H. apply (dmat_ext o); dwfs. intros i j Hi Hj. dims.
    rewrite dget_dmul, dget_dneg, dget_dmul by dims.
    unfold mmul. rewrite <- (sum_neg o L). apply sum_ext. intros k Hk.
    rewrite dget_dneg by lia. ring.
  Qed.

  Lemma dadd_comm A B : dr A = dr B -> dc A = dc B -> dadd o A B = dadd o B A.
  Proof.
    intros H1 H2. apply (dmat_ext o); dwfs. intros i j Hi Hj. dims.
    rewrite !dget_dadd by lia. ring.
  Qed.

  Lemma dadd_zero_r A : dwf A -> dadd o A (dzero o (dr A) (dc A)) = A.
  Proof.
    intros H. apply (dmat_ext o); dwfs. intros i j Hi Hj. dims.
    rewrite dget_dadd, dget_dzero by lia. ring.
  Qed.

  Lemma dadd_zero_l A : dwf A -> dadd o (dzero o (dr A) (dc A)) A = A.
  Proof.
    intros H. apply (dmat_ext o); dwfs. intros i j Hi Hj. dims.
    rewrite dget_dadd, dget_dzero by dims. ring.
  Qed.

  Lemma dadd_neg_r A : dadd o A (dneg o A) = dzero o (dr A) (dc A).
  Proof.
    apply (dmat_ext o); dwfs. intros i j Hi Hj. dims.
    rewrite dget_dadd, dget_dneg, dget_dzero by lia. ring.
  Qed.

  Lemma dadd_neg_l A : dadd o (dneg o A) A = dzero o (dr A) (dc A).
  Proof.
    apply (dmat_ext o); dwfs. intros i j Hi Hj. dims.
    rewrite dget_dadd, dget_dneg, dget_dzero by dims. ring.
  Qed.

  Lemma dneg_zero m n : dneg o (dzero o m n) = dzero o m n.
  Proof.
    apply (dmat_ext o); dwfs. intros i j Hi Hj. dims.
    rewrite dget_dneg, !dget_dzero by dims. ring.
  Qed.

  Lemma dsub_eq A B : dr A = dr B -> dc A = dc B -> dsub o A B = dadd o A (dneg o B).
  Proof.
    intros H1 H2. apply (dmat_ext o); dwfs. intros i j Hi Hj. dims.
    rewrite dget_dsub, dget_dadd, dget_dneg by lia. reflexivity.
  Qed.

  Lemma dmul_hcat_vcat A B C D :
    dr A = dr B -> dc A = dr C -> dc B = dr D -> dc C = dc D ->
    dmul o (dhcat o A B) (dvcat o C D) = dadd o (dmul o A C) (dmul o B D).
  Proof.
    intros H1 H2 H3 H4. apply (dmat_ext o); dwfs. intros i j Hi Hj. dims.
    rewrite dget_dmul, dget_dadd, !dget_dmul by dims. dims.
    unfold mmul. rewrite (sum_split o L). f_equal.
    - apply sum_ext. intros k Hk. rewrite dget_dhcat, dget_dvcat by lia.
      destruct (Nat.ltb_spec k (dc A)); [|lia]. destruct (Nat.ltb_spec k (dr C)); [|lia]. reflexivity.
    - apply sum_ext. intros k Hk. rewrite dget_dhcat, dget_dvcat by lia.
      destruct (Nat.ltb_spec (dc A + k) (dc A)); [lia|]. destruct (Nat.ltb_spec (dc A + k) (dr C)); [lia|].
      replace (dc A + k - dc A) with k by lia. replace (dc A + k - dr C) with k by lia. reflexivity.
  Qed.

  Lemma dmul_vcat_l A B C : dc A = dc B ->
    dmul o (dvcat o A B) C = dvcat o (dmul o A C) (dmul o B C).
  Proof.
    intros H. apply (dmat_ext o); dwfs. intros i j Hi Hj. dims.
    rewrite dget_dmul, dget_dvcat by dims. dims.
    destruct (Nat.ltb_spec i (dr A)) as [Hlt|Hge].
    - rewrite dget_dmul by lia. unfold mmul. apply sum_ext. intros k Hk.
      rewrite dget_dvcat by lia. destruct (Nat.ltb_spec i (dr A)); [|lia]. reflexivity.
    - rewrite dget_dmul by (dims; lia). rewrite <- H. unfold mmul. apply sum_ext. intros k Hk.
      rewrite dget_dvcat by lia. destruct (Nat.ltb_spec i (dr A)); [lia|]. reflexivity.
  Qed.

  Lemma dmul_hcat_r A B C : dc A = dr B -> dr B = dr C ->
    dmul o A (dhcat o B C) = dhcat o (dmul o A B) (dmul o A C).
  Proof.
    intros H1 H2. apply (dmat_ext o); dwfs. intros i j Hi Hj. dims.
    rewrite dget_dmul, dget_dhcat by dims. dims.
    destruct (Nat.ltb_spec j (dc B)) as [Hlt|Hge].
    - rewrite dget_dmul by lia. unfold mmul. apply sum_ext. intros k Hk.
      rewrite dget_dhcat by lia. destruct (Nat.ltb_spec j (dc B)); [|lia]. reflexivity.
    - rewrite dget_dmul by (dims; lia). unfold mmul. apply sum_ext. intros k Hk.
      rewrite dget_dhcat by lia. destruct (Nat.ltb_spec j (dc B)); [lia|]. reflexivity.
  Qed.

  Lemma dadd_hcat A B C D : dr A = dr B -> dr A = dr C -> dr A = dr D -> dc A = dc C -> dc B = dc D ->
    dadd o (dhcat o A B) (dhcat o C D) = dhcat o (dadd o A C) (dadd o B D).
  Proof.
    intros H1 H2 H3 H4 H5. apply (dmat_ext o); dwfs. intros i j Hi Hj. dims.
    rewrite dget_dadd, !dget_dhcat by dims. dims. rewrite <- H4.
    destruct (Nat.ltb_spec j (dc A)).
    - now rewrite dget_dadd by lia.
    - now rewrite dget_dadd by lia.
  Qed.

  Lemma dadd_vcat A B C D : dc A = dc B -> dc A = dc C -> dc A = dc D -> dr A = dr C -> dr B = dr D ->
    dadd o (dvcat o A B) (dvcat o C D) = dvcat o (dadd o A C) (dadd o B D).
  Proof.
    intros H1 H2 H3 H4 H5. apply (dmat_ext o); dwfs. intros i j Hi Hj. dims.
    rewrite dget_dadd, !dget_dvcat by dims. dims. rewrite <- H4.
    destruct (Nat.ltb_spec i (dr A)).
    - now rewrite dget_dadd by lia.
    - now rewrite dget_dadd by lia.
  Qed.

  Lemma dneg_hcat A B : dr A = dr B -> dneg o (dhcat o A B) = dhcat o (dneg o A) (dneg o B).
  Proof.
    intros H. apply (dmat_ext o); dwfs. intros i j Hi Hj. dims.
    rewrite dget_dneg, !dget_dhcat by dims. dims.
    destruct (Nat.ltb_spec j (dc A)); now rewrite dget_dneg by lia.
  Qed.

  Lemma dzero_hcat m a b : dhcat o (dzero o m a) (dzero o m b) = dzero o m (a + b).
  Proof.
    apply (dmat_ext o); dwfs. intros i j Hi Hj. dims.
    rewrite dget_dhcat by dims. rewrite !dget_dzero. now destruct (j <? _).
  Qed.

  Lemma dzero_vcat a b n : dvcat o (dzero o a n) (dzero o b n) = dzero o (a + b) n.
  Proof.
    apply (dmat_ext o); dwfs. intros i j Hi Hj. dims.
    rewrite dget_dvcat by dims. rewrite !dget_dzero. now destruct (i <? _).
  Qed.

  Lemma did_blocks r k :
    dvcat o (dhcat o (did o r) (dzero o r k)) (dhcat o (dzero o k r) (did o k)) = did o (r + k).
  Proof.
    apply (dmat_ext o); dwfs. intros i j Hi Hj. dims.
    rewrite dget_dvcat by dims. dims. rewrite (dget_did (r + k)) by lia.
    destruct (Nat.ltb_spec i r).
    - rewrite dget_dhcat by dims. dims. destruct (Nat.ltb_spec j r).
      + now rewrite dget_did.
      + rewrite dget_dzero. unfold mid. destruct (Nat.eqb_spec i j); [lia|reflexivity].
    - rewrite dget_dhcat by dims. dims. destruct (Nat.ltb_spec j r).
      + rewrite dget_dzero. unfold mid. destruct (Nat.eqb_spec i j); [lia|reflexivity].
      + rewrite dget_did by lia. unfold mid.
        destruct (Nat.eqb_spec (i - r) (j - r)); destruct (Nat.eqb_spec i j); try reflexivity; lia.
  Qed.

  Lemma dvcat_inj A B C D :
    dwf A -> dwf B -> dwf C -> dwf D ->
    dr A = dr C -> dr B = dr D -> dc A = dc B -> dc A = dc C -> dc A = dc D ->
    dvcat o A B = dvcat o C D -> A = C /\ B = D.
  Proof.
    intros WA WB WC WD H1 H2 H3 H4 H5 E. split.
    - apply (dmat_ext o); try assumption. intros i j Hi Hj.
      assert (X : dget o (dvcat o A B) i j = dget o (dvcat o C D) i j) by now rewrite E.
      rewrite !dget_dvcat in X by lia.
      destruct (Nat.ltb_spec i (dr A)); [|lia]. destruct (Nat.ltb_spec i (dr C)); [|lia]. exact X.
    - apply (dmat_ext o); try assumption; try lia. intros i j Hi Hj.
      assert (X : dget o (dvcat o A B) (dr A + i) j = dget o (dvcat o C D) (dr A + i) j) by now rewrite E.
      rewrite !dget_dvcat in X by lia.
      destruct (Nat.ltb_spec (dr A + i) (dr A)); [lia|]. destruct (Nat.ltb_spec (dr A + i) (dr C)); [lia|].
      replace (dr A + i - dr A) with i in X by lia. replace (dr A + i - dr C) with i in X by lia. exact X.
  Qed.

  Lemma dhcat_inj A B C D :
    dwf A -> dwf B -> dwf C -> dwf D ->
    dc A = dc C -> dc B = dc D -> dr A = dr B -> dr A = dr C -> dr A = dr D ->
    dhcat o A B = dhcat o C D -> A = C /\ B = D.
  Proof.
    intros WA WB WC WD H1 H2 H3 H4 H5 E. split.
    - apply (dmat_ext o); try assumption. intros i j Hi Hj.
      assert (X : dget o (dhcat o A B) i j = dget o (dhcat o C D) i j) by now rewrite E.
      rewrite !dget_dhcat in X by lia.
      destruct (Nat.ltb_spec j (dc A)); [|lia]. destruct (Nat.ltb_spec j (dc C)); [|lia]. exact X.
    - apply (dmat_ext o); try assumption; try lia. intros i j Hi Hj.
      assert (X : dget o (dhcat o A B) i (dc A + j) = dget o (dhcat o C D) i (dc A + j)) by now rewrite E.
      rewrite !dget_dhcat in X by lia.
      destruct (Nat.ltb_spec (dc A + j) (dc A)); [lia|]. destruct (Nat.ltb_spec (dc A + j) (dc C)); [lia|].
      replace (dc A + j - dc A) with j in X by lia. replace (dc A + j - dc C) with j in X by lia. exact X.
  Qed.

  (* decomposition of a matrix into four blocks *)
  Lemma dblock_decomp A r : dwf A -> r <= dr A -> r <= dc A ->
    A = dvcat o (dhcat o (dblock o A 0 0 r r) (dblock o A 0 r r (dc A - r)))
                (dhcat o (dblock o A r 0 (dr A - r) r) (dblock o A r r (dr A - r) (dc A - r))).
  Proof.
    intros HA Hr Hc. apply (dmat_ext o); dwfs; dims. intros i j Hi Hj.
    rewrite dget_dvcat by dims. dims.
    destruct (Nat.ltb_spec i r).
    - rewrite dget_dhcat by dims. dims. destruct (Nat.ltb_spec j r).
      + now rewrite dget_dblock.
      + rewrite dget_dblock by lia. f_equal; lia.
    - rewrite dget_dhcat by dims. dims. destruct (Nat.ltb_spec j r).
      + rewrite dget_dblock by lia. f_equal; lia.
      + rewrite dget_dblock by lia. f_equal; lia.
  Qed.

  Lemma dvcat_decomp A r : dwf A -> r <= dr A ->
    A = dvcat o (dblock o A 0 0 r (dc A)) (dblock o A r 0 (dr A - r) (dc A)).
  Proof.
    intros HA Hr. apply (dmat_ext o); dwfs; dims. intros i j Hi Hj.
    rewrite dget_dvcat by dims. dims.
    destruct (Nat.ltb_spec i r).
    - now rewrite dget_dblock.
    - rewrite dget_dblock by lia. f_equal; lia.
  Qed.

  Lemma dhcat_decomp A r : dwf A -> r <= dc A ->
    A = dhcat o (dblock o A 0 0 (dr A) r) (dblock o A 0 r (dr A) (dc A - r)).
  Proof.
    intros HA Hr. apply (dmat_ext o); dwfs; dims. intros i j Hi Hj.
    rewrite dget_dhcat by dims. dims.
    destruct (Nat.ltb_spec j r).
    - now rewrite dget_dblock.
    - rewrite dget_dblock by lia. f_equal; lia.
  Qed.

  Lemma dtrans_dmul A B : dc A = dr B -> dtrans o (dmul o A B) = dmul o (dtrans o B) (dtrans o A).
  Proof.
    intros H. apply (dmat_ext o); dwfs. intros i j Hi Hj. dims.
    rewrite dget_dtrans, !dget_dmul by dims. dims. rewrite <- H.
    unfold mmul. apply sum_ext. intros k Hk. rewrite !dget_dtrans by lia. ring.
  Qed.

  Lemma dtrans_did n : dtrans o (did o n) = did o n.
  Proof.
    apply (dmat_ext o); dwfs. intros i j Hi Hj. dims.
    rewrite dget_dtrans, !dget_did by dims. unfold mid. rewrite Nat.eqb_sym. reflexivity.
  Qed.

  Lemma dtrans_invol A : dwf A -> dtrans o (dtrans o A) = A.
  Proof.
    intros H. apply (dmat_ext o); dwfs. intros i j Hi Hj. dims.
    rewrite !dget_dtrans by dims. reflexivity.
  Qed.

  Lemma deqb_eq A B : dwf A -> dwf B -> deqb o A B = true <-> A = B.
  Proof.
    intros HA HB. unfold deqb. rewrite !andb_true_iff, !Nat.eqb_eq, (leqb_meq o L). split.
    - intros [[H1 H2] H3]. apply (dmat_ext o); assumption.
    - intros ->. repeat split.
  Qed.
End DMatAlg.
