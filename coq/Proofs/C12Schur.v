(* Correctness of Model/Schur.v: the Schur complement s = d - c a^-1 b of a matrix with a triangular
   leading block, and the transfer maps. *)
From Coq Require Import Arith List Bool Lia Ring.
Require Import Yui.Base.Ring Yui.Base.MatF Yui.Model.Triang Yui.Model.Schur Yui.Proofs.C12Sparse Yui.Proofs.C12Triang.
Require Import Yui.Base.ListFacts.
Import ListNotations.

Section SchurProofs.
  Context {R : Type} (o : ring_ops R) (L : ring_laws o) (u : unit_ops R) (UL : unit_laws o u).

  Local Notation "0" := (rzero o).
  Local Notation "1" := (rone o).
  Local Infix "+" := (radd o).
  Local Infix "*" := (rmul o).
  Local Notation "- x" := (rneg o x).
  Add Ring Rring3 : (ring_theory_of_laws o L).

  Lemma keys_ins_entry i v (c : scol R) : map fst (ins_entry o i v c) = nat_ins i (map fst c).
  Proof.
    induction c as [|[i' v'] r IH]; [reflexivity|]. cbn [ins_entry map fst nat_ins].
    destruct (i <? i'); [reflexivity|]. destruct (i =? i'); [reflexivity|]. cbn [map fst]. now rewrite IH.
  Qed.

  Definition key_step (j : nat) (acc : list nat) (e : nat * nat * R) : list nat :=
    if tcol e =? j then nat_ins (trow e) acc else acc.

  Lemma keys_coo_gen es j : forall c : scol R,
    map fst (fold_left (fun c e => if snd (fst e) =? j then ins_entry o (fst (fst e)) (snd e) c else c) es c)
    = fold_left (key_step j) es (map fst c).
  Proof.
    induction es as [|e es IH]; intros c; [reflexivity|]. cbn [fold_left]. rewrite IH. f_equal.
    unfold key_step, tcol, trow. destruct (snd (fst e) =? j); [apply keys_ins_entry|reflexivity].
  Qed.

  Lemma key_fold_sorted es j : forall acc, sorted_strict acc = true -> sorted_strict (fold_left (key_step j) es acc) = true.
  Proof.
    induction es as [|e es IH]; intros acc H; [assumption|]. cbn [fold_left]. apply IH.
    unfold key_step. destruct (tcol e =? j); [now apply nat_ins_sorted|assumption].
  Qed.

  Lemma key_fold_In es j k : forall acc,
    In k (fold_left (key_step j) es acc) <-> In k acc \/ exists e, In e es /\ tcol e = j /\ trow e = k.
  Proof.
    induction es as [|e es IH]; intros acc; cbn [fold_left].
    - split; [now left|]. intros [H|[e [[] _]]]. assumption.
    - rewrite IH. unfold key_step at 1. destruct (Nat.eqb_spec (tcol e) j) as [E|E].
      + rewrite nat_ins_In. split.
        * intros [[->|H]|[e' [He' H]]]; [right; exists e; cbn; tauto|now left|right; exists e'; cbn; tauto].
        * intros [H|[e' [[<-|He'] [H1 H2]]]]; [left; now right|left; left; now symmetry|right; exists e'; tauto].
      + split.
        * intros [H|[e' [He' H]]]; [now left|right; exists e'; cbn; tauto].
        * intros [H|[e' [[<-|He'] [H1 H2]]]]; [now left|contradiction|right; exists e'; tauto].
  Qed.

  Lemma from_entries_struct m n es a :
    from_entries o m n es = Some a ->
    (forall j, sorted_strict (map fst (col a j)) = true) /\
    (forall j k, In k (map fst (col a j)) -> k < m /\ j < n) /\
    (forall k j v, In (k, j, v) es -> v <> 0 -> j < n -> In k (map fst (col a j))).
  Proof.
    unfold from_entries. destruct (forallb _ _) eqn:Hb; [|discriminate]. intros H. injection H as <-.
    rewrite forallb_forall in Hb.
    set (es' := filter (fun e : nat * nat * R => nzb o (snd e)) es) in *.
    assert (Hcol : forall j, col (mk_spmat m n (map (coo_col o es') (seq 0 n))) j
                             = if j <? n then coo_col o es' j else []).
    { intros j. unfold col. cbn [cols]. destruct (Nat.ltb_spec j n); [now rewrite nth_map_seq|now rewrite nth_map_seq_over]. }
    assert (Hkeys : forall j, map fst (coo_col o es' j) = fold_left (key_step j) es' []).
    { intros j. unfold coo_col. now rewrite keys_coo_gen. }
    split; [|split].
    - intros j. rewrite Hcol. destruct (j <? n); [|reflexivity].
      rewrite Hkeys. apply key_fold_sorted. reflexivity.
    - intros j k. rewrite Hcol. destruct (Nat.ltb_spec j n) as [Hj|Hj]; [|intros []].
      rewrite Hkeys, key_fold_In. intros [[]|[e [He [E1 E2]]]].
      specialize (Hb e He). apply andb_true_iff in Hb. destruct Hb as [Hb _]. apply Nat.ltb_lt in Hb.
      unfold trow in E2. split; [lia|assumption].
    - intros k j v He Hv Hj. rewrite Hcol. replace (j <? n) with true by (symmetry; now apply Nat.ltb_lt).
      rewrite Hkeys, key_fold_In. right. exists (k, j, v). split; [|split; reflexivity].
      apply filter_In. split; [assumption|]. cbn [snd]. unfold nzb. apply negb_true_iff. now apply (ris_zero_false o L).
  Qed.

  Lemma from_entries_rows m n es a j e :
    from_entries o m n es = Some a -> In e (col a j) -> fst e < m.
  Proof.
    intros H He. destruct (from_entries_struct m n es a H) as [_ [Hr _]].
    apply (Hr j (fst e)). now apply in_map.
  Qed.

  Lemma tsum_filter (p : nat * nat * R -> bool) es i j :
    (forall e, In e es -> trow e = i -> tcol e = j -> p e = true) -> tsum o (filter p es) i j = tsum o es i j.
  Proof.
    induction es as [|e es IH]; intros H; [reflexivity|]. cbn [filter].
    specialize (IH (fun e' He' => H e' (or_intror He'))).
    destruct (p e) eqn:Ep; cbn [tsum]; rewrite IH; [reflexivity|].
    destruct (Nat.eqb_spec (fst (fst e)) i) as [E1|E1]; [|cbn; ring].
    destruct (Nat.eqb_spec (snd (fst e)) j) as [E2|E2]; [|cbn; ring].
    rewrite (H e (or_introl eq_refl) E1 E2) in Ep. discriminate.
  Qed.

  Lemma tsum_none es i j : (forall e, In e es -> ~ (trow e = i /\ tcol e = j)) -> tsum o es i j = 0.
  Proof.
    induction es as [|e es IH]; intros H; [reflexivity|]. cbn [tsum].
    rewrite IH by (intros e' He'; apply H; now right).
    destruct (Nat.eqb_spec (fst (fst e)) i) as [E1|E1]; [|cbn; ring].
    destruct (Nat.eqb_spec (snd (fst e)) j) as [E2|E2]; [|cbn; ring].
    exfalso. apply (H e (or_introl eq_refl)). now split.
  Qed.

  Lemma tsum_unshift di dj es i j :
    (forall e, In e es -> di <= trow e /\ dj <= tcol e) ->
    tsum o (map (fun t => (trow t - di, tcol t - dj, tval t)) es) i j = tsum o es (di + i) (dj + j).
  Proof.
    induction es as [|e es IH]; intros H; [reflexivity|]. cbn [map tsum fst snd].
    rewrite IH by (intros e' He'; apply H; now right).
    destruct (H e (or_introl eq_refl)) as [H1 H2]. unfold trow, tcol, tval in *.
    replace (fst (fst e) - di =? i) with (fst (fst e) =? di + i)
      by (destruct (Nat.eqb_spec (fst (fst e)) (di + i)), (Nat.eqb_spec (fst (fst e) - di) i); try reflexivity; lia).
    replace (snd (fst e) - dj =? j) with (snd (fst e) =? dj + j)
      by (destruct (Nat.eqb_spec (snd (fst e)) (dj + j)), (Nat.eqb_spec (snd (fst e) - dj) j); try reflexivity; lia).
    reflexivity.
  Qed.

  Lemma tsum_shift di dj es i j :
    tsum o (map (fun t => ((trow t + di)%nat, (tcol t + dj)%nat, tval t)) es) i j
    = if (di <=? i) && (dj <=? j) then tsum o es (i - di) (j - dj) else 0.
  Proof.
    induction es as [|e es IH]; cbn [map tsum fst snd]; [destruct (_ && _); reflexivity|].
    rewrite IH. unfold trow, tcol, tval.
    destruct (Nat.leb_spec di i) as [H1|H1], (Nat.leb_spec dj j) as [H2|H2]; cbn [andb].
    - replace (fst (fst e) + di =? i) with (fst (fst e) =? i - di)
        by (destruct (Nat.eqb_spec (fst (fst e)) (i - di)), (Nat.eqb_spec (fst (fst e) + di) i); try reflexivity; lia).
      replace (snd (fst e) + dj =? j) with (snd (fst e) =? j - dj)
        by (destruct (Nat.eqb_spec (snd (fst e)) (j - dj)), (Nat.eqb_spec (snd (fst e) + dj) j); try reflexivity; lia).
      reflexivity.
    - replace (snd (fst e) + dj =? j) with false by (symmetry; apply Nat.eqb_neq; lia).
      rewrite andb_false_r. ring.
    - replace (fst (fst e) + di =? i) with false by (symmetry; apply Nat.eqb_neq; lia). cbn. ring.
    - replace (fst (fst e) + di =? i) with false by (symmetry; apply Nat.eqb_neq; lia). cbn. ring.
  Qed.

  (* the entries (g t, h t, 1) for t < k with g, h injective-by-offset: the 0/1 matrices incl and proj *)
  Lemma tsum_ones_incl d k i j :
    tsum o (map (fun t => ((d + t)%nat, t, 1)) (seq 0 k)) i j = if (j <? k) && (i =? d + j) then 1 else 0.
  Proof.
    induction k as [|k IH]; [reflexivity|].
    rewrite seq_S, map_app, (tsum_app o L), IH. cbn [map tsum fst snd Nat.add].
    destruct (Nat.eqb_spec k j) as [->|Hkj].
    - replace (j <? j) with false by (symmetry; apply Nat.ltb_irrefl).
      replace (j <? S j) with true by (symmetry; apply Nat.ltb_lt; lia).
      rewrite (Nat.eqb_sym (d + j) i). cbn [andb]. destruct (i =? d + j); cbn; ring.
    - rewrite andb_false_r.
      replace (j <? S k) with (j <? k)
        by (destruct (Nat.ltb_spec j k), (Nat.ltb_spec j (S k)); try reflexivity; lia).
      ring.
  Qed.

  Lemma tsum_ones_proj d k i j :
    tsum o (map (fun t => (t, (d + t)%nat, 1)) (seq 0 k)) i j = if (i <? k) && (j =? d + i) then 1 else 0.
  Proof.
    induction k as [|k IH]; [reflexivity|].
    rewrite seq_S, map_app, (tsum_app o L), IH. cbn [map tsum fst snd Nat.add].
    destruct (Nat.eqb_spec k i) as [->|Hki].
    - replace (i <? i) with false by (symmetry; apply Nat.ltb_irrefl).
      replace (i <? S i) with true by (symmetry; apply Nat.ltb_lt; lia).
      rewrite (Nat.eqb_sym (d + i) j). cbn [andb]. destruct (j =? d + i); cbn; ring.
    - cbn [andb].
      replace (i <? S k) with (i <? k)
        by (destruct (Nat.ltb_spec i k), (Nat.ltb_spec i (S k)); try reflexivity; lia).
      ring.
  Qed.

  Lemma triplets_in (a : spmat R) i j v : In (i, j, v) (triplets a) -> j < ncols a /\ In (i, v) (col a j).
  Proof.
    unfold triplets. intros H. apply in_flat_map in H. destruct H as [j0 [Hj0 H]].
    apply in_map_iff in H. destruct H as [e [E He]]. injection E as <- <- <-.
    apply in_seq in Hj0. split; [lia|]. now destruct e.
  Qed.

  Lemma entry_out_of_rows (a : spmat R) i j : (forall e, In e (col a j) -> fst e < nrows a) -> nrows a <= i -> entry o a i j = 0.
  Proof.
    intros Hr Hi. unfold entry. apply (centry_notin o L). intros Hin. apply in_map_iff in Hin.
    destruct Hin as [e [<- He]]. specialize (Hr e He). lia.
  Qed.

  Lemma entry_out_of_cols (a : spmat R) i j : length (cols a) <= j -> entry o a i j = 0.
  Proof. intros H. unfold entry, col. now rewrite nth_overflow. Qed.

  Record blocks_of (abcd a b c d : spmat R) (r : nat) : Prop := {
    bo_a_shape : nrows a = r /\ ncols a = r;
    bo_b_shape : nrows b = r /\ ncols b = ncols abcd - r;
    bo_c_shape : nrows c = nrows abcd - r /\ ncols c = r;
    bo_d_shape : nrows d = nrows abcd - r /\ ncols d = ncols abcd - r;
    bo_a : forall i j, i < r -> j < r -> entry o a i j = entry o abcd i j;
    bo_b : forall i j, i < r -> j < ncols abcd - r -> entry o b i j = entry o abcd i (r + j);
    bo_c : forall i j, j < r -> entry o c i j = entry o abcd (r + i) j;
    bo_d : forall i j, j < ncols abcd - r -> entry o d i j = entry o abcd (r + i) (r + j);
    bo_sorted : forall x, In x [a; b; c; d] -> forall j, sorted_strict (map fst (col x j)) = true;
    bo_rows : forall x, In x [a; b; c; d] -> forall j e, In e (col x j) -> fst e < nrows x;
    bo_a_keys : forall j v, j < r -> In (j, v) (col abcd j) -> v <> 0 -> In j (map fst (col a j));
  }.

  (* one block of divide4: the triplets on the [rin] / [cin] side of r, moved to the origin *)
  Lemma block_spec (ts : list (nat * nat * R)) r (rin cin : bool) di dj m n :
    let blk := filter (fun t => Bool.eqb (trow t <? r) rin && Bool.eqb (tcol t <? r) cin) ts in
    (forall t, In t blk -> di <= trow t < di + m /\ dj <= tcol t < dj + n) ->
    exists x, from_entries o m n (map (fun t => (trow t - di, tcol t - dj, tval t)) blk) = Some x /\
      nrows x = m /\ ncols x = n /\
      (forall i j, j < n -> (di + i <? r) = rin -> (dj + j <? r) = cin ->
                   entry o x i j = tsum o ts (di + i) (dj + j)) /\
      (forall j, sorted_strict (map fst (col x j)) = true) /\
      (forall j e, In e (col x j) -> fst e < nrows x).
  Proof.
    intros blk Hb.
    destruct (from_entries_some o L m n (map (fun t => (trow t - di, tcol t - dj, tval t)) blk)) as [x Ex].
    { intros e He _. apply in_map_iff in He. destruct He as [t [<- Ht]]. destruct (Hb t Ht). cbn. split; lia. }
    exists x. split; [exact Ex|]. destruct (from_entries_spec o L _ _ _ _ Ex) as [H1 [H2 [_ He]]].
    split; [exact H1|]. split; [exact H2|]. split; [|split].
    - intros i j Hj <- <-. rewrite He by assumption.
      rewrite tsum_unshift by (intros e He'; destruct (Hb e He'); lia).
      apply tsum_filter. intros e _ -> ->. now rewrite !eqb_reflx.
    - apply (from_entries_struct _ _ _ _ Ex).
    - intros j e. rewrite H1. apply (from_entries_rows _ _ _ _ _ _ Ex).
  Qed.

  Lemma divide4_spec (abcd : spmat R) r :
    wf abcd = true -> r <= nrows abcd -> r <= ncols abcd ->
    exists a b c d, divide4 o abcd r r = Some (a, b, c, d) /\ blocks_of abcd a b c d r.
  Proof.
    intros Hwf Hrm Hrn. unfold divide4.
    replace (r <=? nrows abcd) with true by (symmetry; now apply Nat.leb_le).
    replace (r <=? ncols abcd) with true by (symmetry; now apply Nat.leb_le). cbn [andb].
    set (ts := filter (fun t => nzb o (tval t)) (triplets abcd)).
    assert (Hts : forall rin cin t,
              In t (filter (fun t => Bool.eqb (trow t <? r) rin && Bool.eqb (tcol t <? r) cin) ts) ->
              trow t < nrows abcd /\ tcol t < ncols abcd /\ (trow t <? r) = rin /\ (tcol t <? r) = cin).
    { intros rin cin [[i j] v] Ht. apply filter_In in Ht. destruct Ht as [Ht Hb]. apply andb_true_iff in Hb.
      destruct Hb as [H1 H2]. apply eqb_prop in H1, H2. apply filter_In in Ht. destruct Ht as [Ht _].
      apply triplets_in in Ht. destruct Ht as [Hj Hin]. repeat split; try assumption.
      exact (proj2 (wf_col_spec abcd j Hwf) (i, v) Hin). }
    assert (Hts_sum : forall i j, j < ncols abcd -> tsum o ts i j = entry o abcd i j).
    { intros i j Hj. unfold ts. change (fun t : nat * nat * R => nzb o (tval t)) with (fun e : nat * nat * R => nzb o (snd e)).
      now rewrite (tsum_filter_nz o L), (tsum_triplets o L). }
    destruct (block_spec ts r true true 0 0 r r) as (a & Ea & Ha1 & Ha2 & Ha & Sa & Ra).
    { intros t Ht. destruct (Hts _ _ _ Ht) as (_ & _ & H1 & H2). apply Nat.ltb_lt in H1, H2. lia. }
    destruct (block_spec ts r true false 0 r r (ncols abcd - r)) as (b & Eb & Hb1 & Hb2 & Hb & Sb & Rb).
    { intros t Ht. destruct (Hts _ _ _ Ht) as (_ & ? & H1 & H2). apply Nat.ltb_lt in H1. apply Nat.ltb_ge in H2. lia. }
    destruct (block_spec ts r false true r 0 (nrows abcd - r) r) as (c & Ec & Hc1 & Hc2 & Hc & Sc & Rc).
    { intros t Ht. destruct (Hts _ _ _ Ht) as (? & _ & H1 & H2). apply Nat.ltb_ge in H1. apply Nat.ltb_lt in H2. lia. }
    destruct (block_spec ts r false false r r (nrows abcd - r) (ncols abcd - r)) as (d & Ed & Hd1 & Hd2 & Hd & Sd & Rd).
    { intros t Ht. destruct (Hts _ _ _ Ht) as (? & ? & H1 & H2). apply Nat.ltb_ge in H1, H2. lia. }
    (* the model leaves out the shifts by 0 *)
    rewrite (map_ext _ (fun t => t)), map_id in Ea by (intros [[i j] v]; cbn; now rewrite !Nat.sub_0_r).
    rewrite (map_ext _ (fun t => (trow t, tcol t - r, tval t))) in Eb by (intros t; now rewrite Nat.sub_0_r).
    rewrite (map_ext _ (fun t => (trow t - r, tcol t, tval t))) in Ec by (intros t; now rewrite Nat.sub_0_r).
    exists a, b, c, d. split.
    { fold ts. rewrite Ea. cbn [obind]. rewrite Eb. cbn [obind]. rewrite Ec. cbn [obind]. now rewrite Ed. }
    cbn [Nat.add] in Ha, Hb, Hc.
    constructor; try (split; assumption).
    - intros i j Hi Hj. rewrite Ha by (assumption || now apply Nat.ltb_lt). apply Hts_sum. lia.
    - intros i j Hi Hj. rewrite Hb; [apply Hts_sum; lia|assumption|now apply Nat.ltb_lt|apply Nat.ltb_ge; lia].
    - intros i j Hj. rewrite Hc; [apply Hts_sum; lia|assumption|apply Nat.ltb_ge; lia|now apply Nat.ltb_lt].
    - intros i j Hj. rewrite Hd; [apply Hts_sum; lia|assumption|apply Nat.ltb_ge; lia|apply Nat.ltb_ge; lia].
    - intros x Hx. cbn [In] in Hx. destruct Hx as [<-|[<-|[<-|[<-|[]]]]]; assumption.
    - intros x Hx. cbn [In] in Hx. destruct Hx as [<-|[<-|[<-|[<-|[]]]]]; assumption.
    - intros j v Hj Hin Hv. destruct (from_entries_struct _ _ _ _ Ea) as [_ [_ Hk]].
      apply (Hk j j v); [|assumption|assumption].
      apply filter_In. split.
      + apply filter_In. split; [apply (in_triplets abcd j (j, v)); [lia|assumption]|].
        cbn. unfold nzb. apply negb_true_iff. now apply (ris_zero_false o L).
      + unfold trow, tcol. cbn [fst snd]. replace (j <? r) with true by (symmetry; now apply Nat.ltb_lt). reflexivity.
  Qed.

  Lemma centry_tabulate (g : nat -> R) (pat : list nat) i :
    NoDup pat -> centry o (map (fun i => (i, g i)) pat) i = if in_dec Nat.eq_dec i pat then g i else 0.
  Proof.
    induction pat as [|k pat IH]; intros Hnd; [reflexivity|]. inversion Hnd as [|? ? Hk Hnd']; subst.
    cbn [map centry fst snd]. rewrite IH by assumption.
    destruct (Nat.eqb_spec k i) as [->|Hne].
    - destruct (in_dec Nat.eq_dec i (i :: pat)) as [_|Hc]; [|exfalso; apply Hc; now left].
      destruct (in_dec Nat.eq_dec i pat) as [Hc|_]; [contradiction|]. ring.
    - destruct (in_dec Nat.eq_dec i pat) as [Hin|Hnin].
      + destruct (in_dec Nat.eq_dec i (k :: pat)) as [_|Hc]; [ring|exfalso; apply Hc; now right].
      + destruct (in_dec Nat.eq_dec i (k :: pat)) as [[Hc|Hc]|_]; [congruence|contradiction|ring].
  Qed.

  Lemma list_sum_centry n (f : nat -> R) (v : scol R) :
    (forall e, In e v -> fst e < n) ->
    list_sum o (map (fun e => f (fst e) * snd e) v) = sum o n (fun k => f k * centry o v k).
  Proof.
    induction v as [|e v IH]; intros H.
    - cbn. symmetry. apply (sum_zero_ext o L). intros; ring.
    - cbn [map list_sum fold_right centry]. fold (list_sum o (map (fun e => f (fst e) * snd e) v)).
      rewrite IH by (intros e' He'; apply H; now right).
      symmetry.
      rewrite (sum_ext o n (fun k => f k * ((if fst e =? k then snd e else 0) + centry o v k))
                           (fun k => (if k =? fst e then f k * snd e else 0) + f k * centry o v k)).
      + rewrite (sum_add o L), (sum_delta o L) by (apply H; now left). reflexivity.
      + intros k _. rewrite (Nat.eqb_sym (fst e) k). destruct (k =? fst e); ring.
  Qed.

  Definition pat_step (c : spmat R) (acc : list nat) (e : nat * R) : list nat :=
    nat_union acc (map fst (col c (fst e))).

  Lemma pat_fold_sorted c v : forall acc, sorted_strict acc = true -> sorted_strict (fold_left (pat_step c) v acc) = true.
  Proof.
    induction v as [|e v IH]; intros acc H; [assumption|]. cbn [fold_left]. apply IH. now apply nat_union_sorted.
  Qed.

  Lemma pat_fold_In c v i : forall acc,
    In i (fold_left (pat_step c) v acc) <-> In i acc \/ exists e, In e v /\ In i (map fst (col c (fst e))).
  Proof.
    induction v as [|e v IH]; intros acc; cbn [fold_left].
    - split; [now left|]. intros [H|[e [[] _]]]. assumption.
    - rewrite IH. unfold pat_step at 1. rewrite nat_union_In. split.
      + intros [[H|H]|[e' [He' H]]]; [now left|right; exists e; cbn; tauto|right; exists e'; cbn; tauto].
      + intros [H|[e' [[<-|He'] H]]]; [left; now left|left; now right|right; exists e'; tauto].
  Qed.

  Lemma spmv_spec (c : spmat R) (v : svec R) :
    ncols c = fst v -> (forall e, In e (snd v) -> fst e < ncols c) ->
    exists x, spmv o c v = Some (nrows c, x) /\
      forall i, centry o x i = sum o (ncols c) (fun k => entry o c i k * centry o (snd v) k).
  Proof.
    intros Hd Hr. unfold spmv. rewrite Hd, Nat.eqb_refl. eexists. split; [reflexivity|].
    intros i. fold (pat_step c).
    set (g := fun i => list_sum o (map (fun e => centry o (col c (fst e)) i * snd e) (snd v))).
    rewrite (centry_tabulate g) by (apply sorted_strict_NoDup, pat_fold_sorted; reflexivity).
    assert (Hg : g i = sum o (fst v) (fun k => entry o c i k * centry o (snd v) k)).
    { unfold g. rewrite <- Hd. apply (list_sum_centry (ncols c) (fun k => centry o (col c k) i)). exact Hr. }
    destruct (in_dec Nat.eq_dec i _) as [_|Hn]; [exact Hg|].
    rewrite <- Hg. unfold g. symmetry.
    assert (Hz : forall l : scol R, (forall e, In e l -> In e (snd v)) ->
                 list_sum o (map (fun e => centry o (col c (fst e)) i * snd e) l) = 0).
    { induction l as [|e l IHl]; intros Hl; [reflexivity|]. cbn [map list_sum fold_right].
      fold (list_sum o (map (fun e => centry o (col c (fst e)) i * snd e) l)).
      rewrite IHl by (intros; apply Hl; now right).
      rewrite (centry_notin o L (col c (fst e)) i); [ring|].
      intros Hin. apply Hn. apply pat_fold_In. right. exists e. split; [apply Hl; now left|assumption]. }
    apply Hz. auto.
  Qed.

  Lemma spv_sub_spec (y x : svec R) : fst y = fst x -> sorted_strict (map fst (snd y)) = true ->
    exists z, spv_sub o y x = Some (fst y, z) /\ forall i, centry o z i = ventry o y i + - ventry o x i.
  Proof.
    intros Hd Hs. unfold spv_sub. rewrite Hd, Nat.eqb_refl. eexists. split; [reflexivity|]. intros i.
    rewrite (centry_tabulate (fun i => rsub o (centry o (snd y) i) (centry o (snd x) i))).
    - unfold ventry, rsub. destruct (in_dec Nat.eq_dec i _) as [_|Hn]; [reflexivity|].
      rewrite nat_union_In in Hn.
      rewrite (centry_notin o L (snd y) i), (centry_notin o L (snd x) i) by tauto. ring.
    - apply sorted_strict_NoDup. now apply nat_union_sorted.
  Qed.

  Lemma compute_schur_spec (ainvb c d : spmat R) r :
    nrows ainvb = r -> ncols c = r -> ncols ainvb = ncols d -> nrows c = nrows d ->
    (forall j e, In e (col ainvb j) -> fst e < r) ->
    (forall j, sorted_strict (map fst (col d j)) = true) ->
    exists s, compute_schur o ainvb c d = Some s /\ nrows s = nrows d /\ ncols s = ncols d /\
      forall i j, j < ncols d ->
        entry o s i j = entry o d i j + - sum o r (fun k => entry o c i k * entry o ainvb k j).
  Proof.
    intros Hxr Hcc Hxc Hcr Hrows Hsorted. unfold compute_schur.
    set (f := fun j => if j <? ncols ainvb
                       then obind (spmv o c (col_vec o ainvb j)) (fun x => spv_sub o (col_vec o d j) x)
                       else None).
    set (g := fun j => match f j with Some v => v | None => (O, []) end).
    assert (Hf : forall j, j < ncols d -> f j = Some (g j) /\ fst (g j) = nrows d /\
              forall i, ventry o (g j) i = entry o d i j + - sum o r (fun k => entry o c i k * entry o ainvb k j)).
    { intros j Hj. unfold g, f. replace (j <? ncols ainvb) with true by (symmetry; apply Nat.ltb_lt; lia).
      destruct (spmv_spec c (col_vec o ainvb j)) as [x [Ex Hx]].
      - cbn [col_vec fst]. lia.
      - cbn [col_vec snd]. intros e He. apply filter_In in He. rewrite Hcc. apply (Hrows j). tauto.
      - rewrite Ex. cbn [obind].
        destruct (spv_sub_spec (col_vec o d j) (nrows c, x)) as [z [Ez Hz]].
        + cbn [col_vec fst]. lia.
        + cbn [col_vec snd]. apply sorted_filter_keys, Hsorted.
        + rewrite Ez. cbn [col_vec fst]. split; [reflexivity|]. split; [reflexivity|].
          intros i. unfold ventry at 1. cbn [snd]. rewrite Hz. unfold ventry. cbn [col_vec snd].
          rewrite (centry_filter_nz o L), Hx, Hcc. f_equal. f_equal. apply sum_ext. intros k _.
          cbn [col_vec snd]. now rewrite (centry_filter_nz o L). }
    rewrite (omap_map f g) by (intros j Hj; apply in_seq in Hj; apply Hf; lia).
    cbn [obind]. unfold from_col_vecs. destruct (forallb _ _) eqn:Hb.
    - eexists. split; [reflexivity|]. cbn [nrows ncols cols]. rewrite map_length, seq_length.
      split; [reflexivity|]. split; [reflexivity|]. intros i j Hj. destruct (Hf j Hj) as [_ [_ H]]. rewrite <- H.
      unfold entry, ventry, col. cbn [cols]. now rewrite map_map, nth_map_seq.
    - exfalso. apply Bool.not_true_iff_false in Hb. apply Hb. apply forallb_forall. intros v Hv.
      apply in_map_iff in Hv. destruct Hv as [j [<- Hj]]. apply in_seq in Hj. apply Nat.eqb_eq.
      now destruct (Hf j ltac:(lia)) as [_ [H _]].
  Qed.

  (* the shapes are written r + k so that the offset n - k of the model reads r *)
  Lemma sp_proj_spec r k :
    exists f, sp_proj o (r + k) k = Some f /\ nrows f = k /\ ncols f = (r + k)%nat /\
      forall i j, i < k -> j < r + k -> entry o f i j = if j =? r + i then 1 else 0.
  Proof.
    unfold sp_proj. rewrite Nat.add_sub.
    destruct (from_entries_some o L k (r + k) (map (fun i => (i, (r + i)%nat, 1)) (seq 0 k))) as [f Ef].
    { intros e He _. apply in_map_iff in He. destruct He as [t [<- Ht]]. apply in_seq in Ht. cbn. lia. }
    exists f. split; [exact Ef|]. destruct (from_entries_spec o L _ _ _ _ Ef) as [H1 [H2 [_ He]]].
    split; [exact H1|]. split; [exact H2|]. intros i j Hi Hj. rewrite He by assumption.
    rewrite tsum_ones_proj. replace (i <? k) with true by (symmetry; now apply Nat.ltb_lt). reflexivity.
  Qed.

  Lemma sp_incl_spec r k :
    exists f, sp_incl o (r + k) k = Some f /\ nrows f = (r + k)%nat /\ ncols f = k /\
      forall i j, i < r + k -> j < k -> entry o f i j = if i =? r + j then 1 else 0.
  Proof.
    unfold sp_incl. rewrite Nat.add_sub.
    destruct (from_entries_some o L (r + k) k (map (fun i => ((r + i)%nat, i, 1)) (seq 0 k))) as [f Ef].
    { intros e He _. apply in_map_iff in He. destruct He as [t [<- Ht]]. apply in_seq in Ht. cbn. lia. }
    exists f. split; [exact Ef|]. destruct (from_entries_spec o L _ _ _ _ Ef) as [H1 [H2 [_ He]]].
    split; [exact H1|]. split; [exact H2|]. intros i j Hi Hj. rewrite He by assumption.
    rewrite tsum_ones_incl. replace (j <? k) with true by (symmetry; now apply Nat.ltb_lt). reflexivity.
  Qed.

  Lemma triplets_zero_cols m : triplets (@sp_zero R m 0) = [].
  Proof. reflexivity. Qed.

  (* stack x on top of the identity *)
  Lemma sp_stack_id_spec (x : spmat R) k :
    ncols x = k -> (forall j e, In e (col x j) -> fst e < nrows x) ->
    exists b, sp_stack o x (sp_id o k) = Some b /\ nrows b = (nrows x + k)%nat /\ ncols b = k /\
      forall i j, i < nrows x + k -> j < k ->
        entry o b i j = if i <? nrows x then entry o x i j else mid o (i - nrows x) j.
  Proof.
    intros Hc Hrows. unfold sp_stack, combine_blocks.
    cbn [sp_zero nrows ncols sp_id]. rewrite !Nat.eqb_refl, Hc, Nat.eqb_refl. cbn [andb].
    rewrite !triplets_zero_cols. cbn [map app]. rewrite app_nil_r.
    set (es := map _ (triplets x) ++ map _ (triplets (sp_id o k))).
    destruct (from_entries_some o L (nrows x + k) (k + 0) es) as [b Eb].
    { intros e He _. unfold es in He. apply in_app_iff in He. destruct He as [He|He];
        apply in_map_iff in He; destruct He as [[[i j] v] [<- Ht]]; apply triplets_in in Ht; destruct Ht as [Hj Hin]; cbn.
      - specialize (Hrows j (i, v) Hin). cbn in Hrows. lia.
      - cbn [sp_id ncols] in Hj. rewrite (col_id o) in Hin.
        replace (j <? k) with true in Hin by (symmetry; now apply Nat.ltb_lt).
        destruct Hin as [E|[]]. injection E as <- _. lia. }
    exists b. split; [exact Eb|]. destruct (from_entries_spec o L _ _ _ _ Eb) as [H1 [H2 [_ He]]].
    split; [exact H1|]. split; [lia|]. intros i j Hi Hj. rewrite He by lia.
    unfold es. rewrite (tsum_app o L), !tsum_shift. cbn [Nat.leb andb]. rewrite !Nat.sub_0_r, andb_true_r.
    rewrite (tsum_triplets o L) by lia.
    destruct (Nat.ltb_spec i (nrows x)) as [Hlt|Hge].
    - replace (nrows x <=? i) with false by (symmetry; apply Nat.leb_gt; lia). ring.
    - replace (nrows x <=? i) with true by (symmetry; now apply Nat.leb_le).
      rewrite (tsum_triplets o L) by (cbn; lia). rewrite (entry_id o L) by assumption.
      rewrite (entry_out_of_rows x i j) by (auto; apply Hrows). ring.
  Qed.

  (* [x | identity] *)
  Lemma extend_cols_id_spec (x : spmat R) k :
    nrows x = k -> length (cols x) = ncols x ->
    exists f, extend_cols x (sp_id o k) = Some f /\ nrows f = k /\ ncols f = (ncols x + k)%nat /\
      forall i j, i < k -> entry o f i j = if j <? ncols x then entry o x i j else
                                          if j <? ncols x + k then mid o i (j - ncols x) else 0.
  Proof.
    intros Hr Hl. unfold extend_cols. cbn [sp_id nrows ncols]. rewrite Hr, Nat.eqb_refl.
    destruct (Nat.eqb_spec k 0) as [->|Hk].
    - exists x. split; [reflexivity|]. split; [exact Hr|]. split; [lia|]. intros i j Hi. lia.
    - eexists. split; [reflexivity|]. cbn [nrows ncols]. split; [reflexivity|]. split; [reflexivity|].
      intros i j Hi. unfold entry, col. cbn [cols sp_id].
      destruct (Nat.ltb_spec j (ncols x)) as [Hj|Hj].
      + now rewrite app_nth1 by lia.
      + rewrite app_nth2 by lia. rewrite Hl.
        destruct (Nat.ltb_spec j (ncols x + k)) as [Hj2|Hj2].
        * rewrite nth_map_seq by lia. cbn. unfold mid. rewrite (Nat.eqb_sym (j - ncols x) i).
          destruct (i =? j - ncols x); ring.
        * rewrite nth_map_seq_over by lia. reflexivity.
  Qed.

  Lemma unit_cancel a ui w : a * ui = 1 -> a * w = 0 -> w = 0.
  Proof.
    intros Hu Hw. transitivity (w * (a * ui)); [rewrite Hu; ring|].
    transitivity ((a * w) * ui); [ring|]. rewrite Hw. ring.
  Qed.

  (* a triangular system with unit diagonal has at most one solution *)
  Lemma tri_inj (upper : bool) r (A : mat R) (w : nat -> R) :
    (forall j, j < r -> exists ui, A j j * ui = 1) ->
    (forall i j, i < r -> j < r -> (if upper then j < i else i < j) -> A i j = 0) ->
    (forall i, i < r -> sum o r (fun k => A i k * w k) = 0) ->
    forall k, k < r -> w k = 0.
  Proof.
    intros Hu Ht Hs.
    assert (Step : forall k, k < r -> (forall l, l < r -> l <> k -> A k l = 0 \/ w l = 0) -> w k = 0).
    { intros k Hk Hl. destruct (Hu k Hk) as [ui Hui]. apply (unit_cancel (A k k) ui); [assumption|].
      rewrite <- (Hs k Hk). symmetry. apply (sum_single o L r k (fun l => A k l * w l) Hk).
      intros l Hlr Hne. destruct (Hl l Hlr Hne) as [E|E]; rewrite E; ring. }
    destruct upper.
    - assert (G : forall d k, k < r -> r <= k + d -> w k = 0).
      { induction d as [|d IH]; intros k Hk Hd; [lia|]. apply Step; [assumption|].
        intros l Hl Hne. destruct (lt_dec l k) as [Hlt|Hge]; [left; now apply Ht|right; apply IH; lia]. }
      intros k Hk. apply (G r k Hk). lia.
    - assert (G : forall d k, k < d -> k < r -> w k = 0).
      { induction d as [|d IH]; intros k Hkd Hk; [lia|]. apply Step; [assumption|].
        intros l Hl Hne. destruct (lt_dec l k) as [Hlt|Hge]; [right; apply IH; lia|left; apply Ht; lia]. }
      intros k Hk. apply (G (S k) k); lia.
  Qed.

  Lemma sum_pick n i (f : nat -> R) g :
    i < n -> (forall k, k < n -> f k = if k =? i then g else 0) -> sum o n f = g.
  Proof.
    intros Hi H. rewrite (sum_ext o n f (fun k => if k =? i then g else 0)) by exact H.
    now rewrite (sum_delta o L n i (fun _ => g)).
  Qed.

  Section Algebra.
    Variables (r p q : nat) (M X Zm S Fs Bs Ft Bt : mat R).
    Hypothesis HAX : forall i j, i < r -> j < q -> sum o r (fun k => M i k * X k j) = M i (r + j)%nat.
    Hypothesis HZA : forall i j, i < p -> j < r -> sum o r (fun k => Zm i k * M k j) = M (r + i)%nat j.
    Hypothesis HS : forall i j, i < p -> j < q ->
      S i j = M (r + i)%nat (r + j)%nat + - sum o r (fun k => M (r + i)%nat k * X k j).
    Hypothesis HFs : forall i j, i < q -> j < r + q -> Fs i j = if j =? r + i then 1 else 0.
    Hypothesis HBs : forall i j, i < r + q -> j < q -> Bs i j = if i <? r then - X i j else mid o (i - r) j.
    Hypothesis HFt : forall i j, i < p -> j < r + p -> Ft i j = if j <? r then - Zm i j else mid o i (j - r).
    Hypothesis HBt : forall i j, i < r + p -> j < p -> Bt i j = if i =? r + j then 1 else 0.

    Lemma FtM i l : i < p -> l < r + q ->
      mmul o (r + p) Ft M i l = - sum o r (fun k => Zm i k * M k l) + M (r + i)%nat l.
    Proof.
      intros Hi Hl. unfold mmul. rewrite (sum_split o L). f_equal.
      - rewrite <- (sum_neg o L). apply sum_ext. intros k Hk. rewrite HFt by lia.
        replace (k <? r) with true by (symmetry; now apply Nat.ltb_lt). ring.
      - apply (sum_pick p i); [assumption|]. intros k Hk. rewrite HFt by lia.
        replace (r + k <? r) with false by (symmetry; apply Nat.ltb_ge; lia).
        replace (r + k - r)%nat with k by lia. unfold mid. rewrite (Nat.eqb_sym i k).
        destruct (Nat.eqb_spec k i) as [->|Hne]; ring.
    Qed.

    Lemma schur_transfer : meq p q (mmul o (r + q) (mmul o (r + p) Ft M) Bs) S.
    Proof.
      intros i j Hi Hj. unfold mmul at 1. rewrite (sum_split o L).
      rewrite (sum_zero_ext o L r).
      2:{ intros l Hl. rewrite FtM by lia. rewrite HZA by assumption. ring. }
      rewrite (sum_pick q j _ (mmul o (r + p) Ft M i (r + j)%nat)); [|assumption|].
      2:{ intros k Hk. rewrite HBs by lia.
          replace (r + k <? r) with false by (symmetry; apply Nat.ltb_ge; lia).
          replace (r + k - r)%nat with k by lia. unfold mid.
          destruct (Nat.eqb_spec k j) as [->|Hne]; ring. }
      rewrite FtM by lia. rewrite HS by assumption.
      (* z b = z (a x) = (z a) x = c x *)
      assert (E : sum o r (fun k => Zm i k * M k (r + j)%nat) = sum o r (fun k => M (r + i)%nat k * X k j)).
      { rewrite (sum_ext o r _ (fun k => sum o r (fun l => Zm i k * M k l * X l j))).
        2:{ intros k Hk. rewrite <- HAX by assumption. rewrite <- (sum_scal_l o L). apply sum_ext. intros; ring. }
        rewrite (sum_swap o L). apply sum_ext. intros l Hl. rewrite <- HZA by assumption.
        rewrite <- (sum_scal_r o L). reflexivity. }
      rewrite E. ring.
    Qed.

    Lemma src_retract : meq q q (mmul o (r + q) Fs Bs) (mid o).
    Proof.
      intros i j Hi Hj. unfold mmul. apply (sum_pick (r + q) (r + i)); [lia|].
      intros k Hk. rewrite HFs by lia. destruct (Nat.eqb_spec k (r + i)) as [->|Hne]; [|ring].
      rewrite HBs by lia. replace (r + i <? r) with false by (symmetry; apply Nat.ltb_ge; lia).
      replace (r + i - r)%nat with i by lia. ring.
    Qed.

    Lemma tgt_retract : meq p p (mmul o (r + p) Ft Bt) (mid o).
    Proof.
      intros i j Hi Hj. unfold mmul. apply (sum_pick (r + p) (r + j)); [lia|].
      intros k Hk. rewrite HBt by lia. destruct (Nat.eqb_spec k (r + j)) as [->|Hne]; [|ring].
      rewrite HFt by lia. replace (r + j <? r) with false by (symmetry; apply Nat.ltb_ge; lia).
      replace (r + j - r)%nat with j by lia. ring.
    Qed.

    (* s = d - c a^-1 b for every right inverse a^-1 of the leading block *)
    Lemma schur_formula (upper : bool) (Ainv : mat R) :
      (forall j, j < r -> exists ui, M j j * ui = 1) ->
      (forall i j, i < r -> j < r -> (if upper then j < i else i < j) -> M i j = 0) ->
      meq r r (mmul o r M Ainv) (mid o) ->
      forall i j, i < p -> j < q ->
        S i j = M (r + i)%nat (r + j)%nat
                + - sum o r (fun k => M (r + i)%nat k * sum o r (fun l => Ainv k l * M l (r + j)%nat)).
    Proof.
      intros Hu Ht Hinv i j Hi Hj. rewrite HS by assumption. f_equal. f_equal. apply sum_ext. intros k Hk. f_equal.
      (* x = a^-1 b by uniqueness *)
      set (w := fun k => X k j + - sum o r (fun l => Ainv k l * M l (r + j)%nat)).
      assert (Hw : forall k, k < r -> w k = 0).
      { apply (tri_inj upper r M w Hu Ht). intros i0 Hi0. unfold w.
        rewrite (sum_ext o r _ (fun k0 => M i0 k0 * X k0 j + - (M i0 k0 * sum o r (fun l => Ainv k0 l * M l (r + j)%nat))))
          by (intros; ring).
        rewrite (sum_add o L), (sum_neg o L), HAX by assumption.
        rewrite (sum_ext o r (fun k0 => M i0 k0 * sum o r (fun l => Ainv k0 l * M l (r + j)%nat))
                             (fun k0 => sum o r (fun l => M i0 k0 * Ainv k0 l * M l (r + j)%nat))).
        2:{ intros k0 _. rewrite <- (sum_scal_l o L). apply sum_ext. intros; ring. }
        rewrite (sum_swap o L).
        rewrite (sum_ext o r _ (fun l => mid o i0 l * M l (r + j)%nat)).
        2:{ intros l Hl. rewrite <- (Hinv i0 l Hi0 Hl). unfold mmul. rewrite <- (sum_scal_r o L). reflexivity. }
        change (sum o r (fun l => mid o i0 l * M l (r + j)%nat)) with (mmul o r (mid o) M i0 (r + j)%nat).
        rewrite (mmul_id_l o L) by assumption. ring. }
      specialize (Hw k Hk). unfold w in Hw.
      transitivity (X k j + - sum o r (fun l => Ainv k l * M l (r + j)%nat) + sum o r (fun l => Ainv k l * M l (r + j)%nat)); [ring|].
      rewrite Hw. ring.
    Qed.
  End Algebra.
End SchurProofs.
