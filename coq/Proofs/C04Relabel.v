(* C04 - jones_model is invariant under relabelling of the edges by a map that is injective on the labels
   of the code (for every code, valid or not; as options). *)
From Coq Require Import List Arith Bool ZArith Lia.
Require Import Yui.Model.Link Yui.Model.Jones.
Require Import Yui.Proofs.C18Base Yui.Proofs.C18Signs Yui.Proofs.C18Resolve.
Import ListNotations.

Lemma resolve_c_relabel : forall rho c r,
  resolve_c (relabel_c rho c) r = option_map (relabel_c rho) (resolve_c c r).
Proof. intros rho [[] ? ? ? ?] []; reflexivity. Qed.

Lemma resolve_at_relabel : forall rho l i r,
  resolve_at (relabel rho l) i r = option_map (relabel rho) (resolve_at l i r).
Proof.
  intros rho. exact (resolve_at_map (relabel_c rho) (fun r => r) (is_resolved_relabel rho) (resolve_c_relabel rho)).
Qed.

Theorem resolved_by_relabel : forall rho s l,
  resolved_by (relabel rho l) s = option_map (relabel rho) (resolved_by l s).
Proof.
  intros rho s l. rewrite <- (map_id s) at 2.
  exact (resolved_by_map (relabel_c rho) (fun r => r) (is_resolved_relabel rho) (resolve_c_relabel rho) s l).
Qed.

Lemma resolved_by_labels : forall s l l', resolved_by l s = Some l' -> edge_labels l' = edge_labels l.
Proof.
  intros s l l' H. destruct (resolved_by_spec s l) as [A B].
  destruct (le_lt_dec (length s) (crossing_num l)) as [L|L].
  - destruct (A L) as (l1 & E & EL & _). rewrite E in H. inversion H; subst. exact EL.
  - rewrite (B L) in H. discriminate.
Qed.

Theorem circles_relabel : forall rho l s, inj_on rho (edge_labels l) ->
  circles (relabel rho l) s = circles l s.
Proof.
  intros rho l s Hinj. unfold circles. rewrite resolved_by_relabel.
  destruct (resolved_by l s) as [l'|] eqn:R; [|reflexivity]. cbn [option_map].
  rewrite components_relabel by (rewrite (resolved_by_labels _ _ _ R); exact Hinj).
  destruct (components l') as [cs|]; [|reflexivity]. cbn [option_map]. rewrite map_length. reflexivity.
Qed.

Lemma jones_body_relabel : forall rho l, inj_on rho (edge_labels l) ->
  forall states, jones_body (relabel rho l) states = jones_body l states.
Proof.
  intros rho l Hinj. induction states as [|s rest IH]; [reflexivity|].
  cbn [jones_body]. rewrite circles_relabel, IH; auto.
Qed.

Theorem jones_relabel : forall rho l, inj_on rho (edge_labels l) ->
  jones_model (relabel rho l) = jones_model l.
Proof.
  intros rho l Hinj. unfold jones_model.
  destruct (writhe_relabel rho l Hinj) as [-> _]. rewrite crossing_num_relabel, jones_body_relabel; auto.
Qed.
