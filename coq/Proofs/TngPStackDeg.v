(* Vertical composition, part 4: Cob::stack adds degrees.
   [stack_wf a b]: the source tangles of the components of `a` are pairwise disjoint and simple, so are the target
   tangles of `a` and the source tangles of `b` (the two descriptions of the middle tangle), and every component of one
   description of the middle tangle is == (TngComp's unoriented equality, in the argument order the code uses) to a
   component of the other.  Under [stack_wf], whenever Cob::stack returns:
     the groups found by take_stackable_comps are closed (no component left in the pools touches them), the numbers
     of middle arcs of the two halves of a group agree, and  deg (stack a b) = deg a + deg b. *)
From Coq Require Import List Arith Bool Lia ZArith Permutation Sorted.
Import ListNotations.
Require Import Yui.Model.Link Yui.Model.Tng Yui.Model.TngCob Yui.Model.TngStack.
Require Import Yui.Proofs.TngPBase Yui.Proofs.TngPSegs Yui.Proofs.TngPDeg Yui.Proofs.TngPJoin Yui.Proofs.TngPStep
  Yui.Proofs.TngPSeq Yui.Proofs.TngPConn Yui.Proofs.TngPMain Yui.Proofs.TngPCob Yui.Proofs.TngPCobDeg
  Yui.Proofs.TngPStackBase Yui.Proofs.TngPStackBfs Yui.Proofs.TngPStackWf.

(* no component of [rest] contains (on its [sel2] side) a [sel1]-component of the group [g] *)
Definition closed_half (sel1 sel2 : cobcomp -> tng) (g rest : list cobcomp) : Prop :=
  forall b m t, In b g -> In m (sel1 b) -> In t rest -> hit sel2 m t = false.
Definition closed_group (bot' top' gb gt : list cobcomp) : Prop :=
  closed_half ctgt csrc gb top' /\ closed_half csrc ctgt gt bot'.

Lemma closed_half_in : forall sel1 sel2 g rest g' b m t, closed_half sel1 sel2 g rest -> In b g -> In m (sel1 b) ->
  In t (rest ++ g') -> hit sel2 m t = true -> In t g'.
Proof.
  intros sel1 sel2 g rest g' b m t C Hb Hm Ht Hh. apply in_app_or in Ht. destruct Ht as [Ht|Ht]; [|exact Ht].
  rewrite (C b m t Hb Hm Ht) in Hh. discriminate.
Qed.

Theorem take_stackable_closed : forall bot top bot' top' gb gt,
  tng_inv (flat ctgt bot) -> tng_inv (flat csrc top) ->
  take_stackable bot top = Some (bot', top', gb, gt) -> closed_group bot' top' gb gt.
Proof.
  intros [|b bot] top bot' top' gb gt Ib It; [destruct top as [|t top]|]; cbn [take_stackable].
  - intros E. inversion E; subst. split; intros ? ? ? [].
  - intros E. apply (bfs_closed _ _ _ _ _ _ _ _ _ _ _ E).
    + intros b m [] _.
    + intros t' m _ _. cbn. lia.
    + intros b m t' [].
    + intros t' m b [].
  - intros E. apply (bfs_closed _ _ _ _ _ _ _ _ _ _ _ E).
    + intros b' m _ _. apply cnt_le1. exact It.
    + intros t' m _ _. apply cnt_le1. unfold flat in *. cbn [flat_map] in Ib. apply inv_app in Ib. tauto.
    + intros b' m t' [].
    + intros t' m b' [].
Qed.

Record stack_wf (a b : list cobcomp) : Prop := mk_stack_wf {
  wf_src : tng_inv (flat csrc a);
  wf_mid_b : tng_inv (flat ctgt a);
  wf_mid_t : tng_inv (flat csrc b);
  wf_match_bt : forall m, In m (flat ctgt a) -> exists m', In m' (flat csrc b) /\ unori_eq m' m = true;
  wf_match_tb : forall m', In m' (flat csrc b) -> exists m, In m (flat ctgt a) /\ unori_eq m m' = true }.

(* The two descriptions of the middle tangle enter [stack_wf] and [closed_group] symmetrically: every fact below is
   proved once for a pair (X, Y) of tangles and used for (targets of a, sources of b) and for the pair swapped. *)
Definition matches (X Y : tng) : Prop := forall m, In m X -> exists m', In m' Y /\ unori_eq m' m = true.

Lemma same_comp_shares : forall p q, simple p -> same_comp p q -> exists v, In v (pedges p) /\ In v (pedges q).
Proof.
  intros p q Sp [_ Hs]. pose proof (simple_ne p Sp) as Hne. destruct (pedges p) as [|v l] eqn:E; [contradiction|].
  exists v. split; [left; reflexivity|]. apply Hs. left. reflexivity.
Qed.

(* between two matching tangles TngComp's == is symmetric: the partner p of m' in X shares a label with m *)
Lemma matches_sym : forall X Y m m', tng_inv X -> tng_inv Y -> matches Y X -> In m X -> In m' Y ->
  unori_eq m' m = true -> unori_eq m m' = true.
Proof.
  intros X Y m m' IX IY M Hm Hm' He. destruct (M m' Hm') as (p & Hp & Hpe).
  assert (Sp : simple p) by exact (inv_simple _ _ IX Hp).
  assert (Sm' : simple m') by exact (inv_simple _ _ IY Hm').
  pose proof (unori_eq_sound p m' (proj1 Sp) Hpe) as C1. pose proof (unori_eq_sound m' m (proj1 Sm') He) as C2.
  destruct (same_comp_shares p m' Sp C1) as (v & Hv & Hv').
  assert (E : p = m) by (apply (inv_same_comp X p m v IX); auto; apply C2; exact Hv').
  subst p. exact Hpe.
Qed.

Lemma flat_perm : forall sel l l', Permutation l l' -> Permutation (flat sel l) (flat sel l').
Proof. intros. unfold flat. apply Permutation_flat_map. assumption. Qed.
Lemma flat_app : forall sel l l', flat sel (l ++ l') = flat sel l ++ flat sel l'.
Proof. intros. unfold flat. apply flat_map_app. Qed.
Lemma flat_in_inv : forall sel pool m, In m (flat sel pool) -> exists t, In t pool /\ In m (sel t).
Proof. intros sel pool m Hm. unfold flat in Hm. apply in_flat_map in Hm. exact Hm. Qed.
Lemma flat_part_in : forall sel a l1 l2 m, Permutation a (l1 ++ l2) ->
  In m (flat sel l1) \/ In m (flat sel l2) -> In m (flat sel a).
Proof.
  intros sel a l1 l2 m Pa H. eapply Permutation_in; [apply Permutation_sym, flat_perm; exact Pa|].
  rewrite flat_app. apply in_or_app. exact H.
Qed.

(* when the sources of b are, up to order, the targets of a, the middle tangle is described twice by the same paths *)
Lemma stack_wf_perm : forall a b, tng_inv (flat csrc a) -> tng_inv (flat ctgt a) ->
  Permutation (flat csrc b) (flat ctgt a) -> stack_wf a b.
Proof.
  intros a b Is It F. constructor; auto.
  - eapply inv_perm; [apply Permutation_sym; exact F|exact It].
  - intros m Hm. exists m. split; [eapply Permutation_in; [apply Permutation_sym; exact F|exact Hm]|apply unori_eq_refl].
  - intros m Hm. exists m. split; [eapply Permutation_in; [exact F|exact Hm]|apply unori_eq_refl].
Qed.

(* the partner of a component of the pool [a]: where it lies *)
Lemma partner_split : forall sel1 sel2 a b top' gt m, matches (flat sel1 a) (flat sel2 b) ->
  Permutation b (top' ++ gt) -> In m (flat sel1 a) ->
  exists m' t, In t (top' ++ gt) /\ In m' (sel2 t) /\ unori_eq m' m = true.
Proof.
  intros sel1 sel2 a b top' gt m M Pb Hm. destruct (M m Hm) as (m' & Hm' & He).
  destruct (flat_in_inv _ _ _ Hm') as (t & Ht & Hmt). exists m', t. repeat split; auto. eapply Permutation_in; eauto.
Qed.

(* the partner of a middle component of a closed group lies in the group *)
Lemma partner_in_group : forall sel1 sel2 a b bot' top' gb gt m, matches (flat sel1 a) (flat sel2 b) ->
  Permutation a (bot' ++ gb) -> Permutation b (top' ++ gt) -> closed_half sel1 sel2 gb top' ->
  In m (flat sel1 gb) -> exists m', In m' (flat sel2 gt) /\ unori_eq m' m = true.
Proof.
  intros sel1 sel2 a b bot' top' gb gt m M Pa Pb C Hm.
  destruct (flat_in_inv _ _ _ Hm) as (b0 & Hb0 & Hmb).
  destruct (partner_split sel1 sel2 a b top' gt m M Pb) as (m' & t & Ht & Hmt & He); [eapply flat_part_in; eauto|].
  exists m'. split; [|exact He]. eapply flat_in; [|exact Hmt].
  apply (closed_half_in _ _ _ _ _ _ _ _ C Hb0 Hmb Ht). apply hit_iff. exists m'. auto.
Qed.

(* ... and the partner of a component that is left lies in what is left *)
Lemma matches_rest : forall sel1 sel2 a b bot' top' gb gt,
  tng_inv (flat sel1 a) -> tng_inv (flat sel2 b) -> matches (flat sel1 a) (flat sel2 b) -> matches (flat sel2 b) (flat sel1 a) ->
  Permutation a (bot' ++ gb) -> Permutation b (top' ++ gt) -> closed_half sel2 sel1 gt bot' ->
  matches (flat sel1 bot') (flat sel2 top').
Proof.
  intros sel1 sel2 a b bot' top' gb gt Ia Ib M M' Pa Pb C m Hm.
  destruct (flat_in_inv _ _ _ Hm) as (b0 & Hb0 & Hmb).
  assert (Hma : In m (flat sel1 a)) by (eapply flat_part_in; eauto).
  destruct (partner_split sel1 sel2 a b top' gt m M Pb Hma) as (m' & t & Ht & Hmt & He).
  apply in_app_or in Ht. destruct Ht as [Ht|Ht].
  - exists m'. split; auto. eapply flat_in; eauto.
  - exfalso. assert (Hh : hit sel1 m' b0 = true).
    { apply hit_iff. exists m. split; auto. apply (matches_sym (flat sel1 a) (flat sel2 b)); auto.
      eapply flat_part_in; [exact Pb|]. right. eapply flat_in; eauto. }
    rewrite (C t m' b0 Ht Hmt Hb0) in Hh. discriminate.
Qed.

(* the pair of the remaining pools is again well formed *)
Lemma wf_rest : forall a b bot' top' gb gt, stack_wf a b ->
  Permutation a (bot' ++ gb) -> Permutation b (top' ++ gt) -> closed_group bot' top' gb gt -> stack_wf bot' top'.
Proof.
  intros a b bot' top' gb gt [Is Ib It Mbt Mtb] Pa Pb [C1 C2].
  constructor.
  - apply (flat_sub csrc a bot' gb Pa Is).
  - apply (flat_sub ctgt a bot' gb Pa Ib).
  - apply (flat_sub csrc b top' gt Pb It).
  - exact (matches_rest ctgt csrc a b bot' top' gb gt Ib It Mbt Mtb Pa Pb C2).
  - exact (matches_rest csrc ctgt b a top' bot' gt gb It Ib Mtb Mbt Pb Pa C1).
Qed.

Lemma take_stackable_wf : forall bot top bot' top' gb gt, stack_wf bot top ->
  take_stackable bot top = Some (bot', top', gb, gt) ->
  Permutation bot (bot' ++ gb) /\ Permutation top (top' ++ gt) /\ closed_group bot' top' gb gt /\ stack_wf bot' top'.
Proof.
  intros bot top bot' top' gb gt W Et. destruct (take_stackable_perm _ _ _ _ _ _ Et) as (Pa & Pb & _).
  pose proof (take_stackable_closed _ _ _ _ _ _ (wf_mid_b _ _ W) (wf_mid_t _ _ W) Et) as Cl.
  split; [exact Pa|]. split; [exact Pb|]. split; [exact Cl|]. exact (wf_rest _ _ _ _ _ _ W Pa Pb Cl).
Qed.

Definition akeys (t : list path) : list nat := map minv (filter p_is_arc t).

Lemma akeys_length : forall t, length (akeys t) = tng_euler_num t.
Proof. intros. unfold akeys, tng_euler_num. apply map_length. Qed.

Lemma akeys_in : forall t k, In k (akeys t) <-> exists m, In m t /\ pclosed m = false /\ minv m = k.
Proof.
  intros t k. unfold akeys. rewrite in_map_iff. split.
  - intros (m & E & Hm). apply filter_In in Hm. destruct Hm as [Hm Ha]. exists m. unfold p_is_arc in Ha.
    apply negb_true_iff in Ha. auto.
  - intros (m & Hm & Hc & E). exists m. split; auto. apply filter_In. split; auto. unfold p_is_arc. rewrite Hc. reflexivity.
Qed.

Lemma akeys_nodup : forall t, tng_inv t -> NoDup (akeys t).
Proof.
  induction t as [|c r IH]; intros Hi; [constructor|]. apply inv_cons in Hi. destruct Hi as (Sc & Ir & Hd).
  unfold akeys. cbn [filter]. destruct (p_is_arc c) eqn:Ha; [|apply IH; exact Ir].
  cbn [map]. constructor; [|apply IH; exact Ir]. fold (akeys r). intros Hk. apply akeys_in in Hk.
  destruct Hk as (m & Hm & _ & E).
  assert (Sm : simple m) by (eapply inv_simple; eauto).
  destruct (minv_spec c (simple_ne _ Sc)) as [I1 _]. destruct (minv_spec m (simple_ne _ Sm)) as [I2 _].
  apply (Hd (minv c) I1). apply in_verts. exists m. split; auto. rewrite <- E. exact I2.
Qed.

(* partners are both arcs or both circles and have the same least label *)
Lemma akeys_incl : forall X Y, tng_inv X -> tng_inv Y -> matches X Y -> incl (akeys X) (akeys Y).
Proof.
  intros X Y IX IY M k Hk. apply akeys_in in Hk. destruct Hk as (m & Hm & Hc & <-).
  destruct (M m Hm) as (m' & Hm' & He).
  assert (Sm' : simple m') by exact (inv_simple _ _ IY Hm'). assert (Sm : simple m) by exact (inv_simple _ _ IX Hm).
  destruct (unori_eq_sound m' m (proj1 Sm') He) as [Cc Cs]. apply akeys_in. exists m'. split; auto.
  split; [congruence|apply minv_same_set; auto; apply simple_ne; auto].
Qed.

(* the two halves of a closed group have the same number of middle arcs *)
Theorem group_arcs_balanced : forall a b bot' top' gb gt, stack_wf a b ->
  Permutation a (bot' ++ gb) -> Permutation b (top' ++ gt) -> closed_group bot' top' gb gt ->
  tng_euler_num (flat ctgt gb) = tng_euler_num (flat csrc gt).
Proof.
  intros a b bot' top' gb gt W Pa Pb [C1 C2].
  assert (Ib : tng_inv (flat ctgt gb)) by (apply (flat_sub ctgt a bot' gb Pa (wf_mid_b a b W))).
  assert (It : tng_inv (flat csrc gt)) by (apply (flat_sub csrc b top' gt Pb (wf_mid_t a b W))).
  rewrite <- !akeys_length.
  apply Nat.le_antisymm; apply NoDup_incl_length; try (apply akeys_nodup; assumption); apply akeys_incl; auto; intros m.
  - exact (partner_in_group ctgt csrc a b bot' top' gb gt m (wf_match_bt a b W) Pa Pb C1).
  - exact (partner_in_group csrc ctgt b a top' bot' gt gb m (wf_match_tb a b W) Pb Pa C2).
Qed.

Definition oadd (x y : option Z) : option Z := match x, y with Some u, Some v => Some (u + v)%Z | _, _ => None end.
Definition euls (s : list cobcomp) : option Z := sum_opt (map cc_euler s).
Definition arcs_of (sel : cobcomp -> tng) (l : list cobcomp) : nat := sum_nat (map (fun c => tng_euler_num (sel c)) l).
Definition dots_of (l : list cobcomp) : nat := sum_nat (map cdx l) + sum_nat (map cdy l).

Lemma degs_app : forall a b, degs (a ++ b) = oadd (degs a) (degs b).
Proof. intros. unfold degs. rewrite map_app. apply sum_opt_app. Qed.

Lemma euler_num_app : forall a b, tng_euler_num (a ++ b) = tng_euler_num a + tng_euler_num b.
Proof. intros. unfold tng_euler_num. rewrite filter_app, app_length. reflexivity. Qed.
Lemma euler_num_perm : forall a b, Permutation a b -> tng_euler_num a = tng_euler_num b.
Proof.
  intros a b Hp. unfold tng_euler_num. induction Hp; cbn [filter].
  - reflexivity.
  - destruct (p_is_arc x); cbn [length]; lia.
  - destruct (p_is_arc x), (p_is_arc y); cbn [length]; lia.
  - lia.
Qed.
Lemma euler_num_flat : forall sel l, tng_euler_num (flat sel l) = arcs_of sel l.
Proof.
  intros sel. induction l as [|c r IH]; [reflexivity|]. unfold flat, arcs_of in *. cbn [flat_map map sum_nat fold_right].
  rewrite euler_num_app, IH. reflexivity.
Qed.

(* deg = chi - #arcs of the source - 2 #dots when the source tangle is simple and disjoint *)
Lemma cc_deg_inv : forall c, tng_inv (csrc c) ->
  cc_deg c = match cc_euler c with
             | Some x => Some (x - Z.of_nat (tng_euler_num (csrc c)) - 2 * Z.of_nat (cdx c + cdy c))%Z
             | None => None
             end.
Proof.
  intros c Hi. unfold cc_deg. destruct (cc_euler c) as [x|]; [|reflexivity].
  rewrite (endpts_set_inv _ Hi), endpts_length, half_double. reflexivity.
Qed.

Lemma flat_inv_in : forall sel l c, tng_inv (flat sel l) -> In c l -> tng_inv (sel c).
Proof.
  intros sel l c Hi Hc. destruct (in_split _ _ Hc) as (l1 & l2 & ->).
  rewrite flat_app in Hi. unfold flat at 2 in Hi. cbn [flat_map] in Hi.
  apply inv_app in Hi. destruct Hi as (_ & Hi & _). apply inv_app in Hi. tauto.
Qed.

Lemma degs_of_euls : forall l x, (forall c, In c l -> tng_inv (csrc c)) -> euls l = Some x ->
  degs l = Some (x - Z.of_nat (arcs_of csrc l) - 2 * Z.of_nat (dots_of l))%Z.
Proof.
  induction l as [|c r IH]; intros x Hi.
  - intros E. inversion E. reflexivity.
  - assert (A : arcs_of csrc (c :: r) = tng_euler_num (csrc c) + arcs_of csrc r) by reflexivity.
    assert (D : dots_of (c :: r) = cdx c + cdy c + dots_of r) by (unfold dots_of, sum_nat; cbn [map fold_right]; lia).
    rewrite A, D. unfold euls, degs in *. cbn [map sum_opt].
    rewrite (cc_deg_inv c) by (apply Hi; left; reflexivity).
    destruct (cc_euler c) as [xc|]; [|discriminate].
    destruct (sum_opt (map cc_euler r)) as [xr|] eqn:Er; [|discriminate]. intros E. inversion E; subst x.
    rewrite (IH xr (fun c0 H0 => Hi c0 (or_intror H0)) eq_refl). f_equal. lia.
Qed.

Definition omap_sub (a : nat) (x : option Z) : option Z := option_map (fun v => (v - Z.of_nat a)%Z) x.

(* the component built from a closed group *)
Theorem group_deg : forall gb gt c, stack_comps gb gt = Some c ->
  tng_inv (flat csrc gb) -> (forall t, In t gt -> tng_inv (csrc t)) ->
  arcs_of ctgt gb = arcs_of csrc gt ->
  cc_deg c = oadd (degs gb) (degs gt) /\
  cc_euler c = omap_sub (arcs_of ctgt gb) (oadd (euls gb) (euls gt)) /\
  Permutation (csrc c) (flat csrc gb).
Proof.
  intros gb gt c E Ib It Hbal.
  destruct (stack_comps_spec _ _ _ E) as (_ & _ & x0 & x1 & E0 & E1 & Ec & Es & _ & Ex & Ey).
  destruct (fold_connect_disjoint (map csrc gb)) as (r & Er & Pr & _); [rewrite concat_map_flat; exact Ib|].
  rewrite Es in Er. inversion Er; subst r. rewrite concat_map_flat in Pr.
  assert (Ic : tng_inv (csrc c)) by (eapply inv_perm; [apply Permutation_sym; exact Pr|exact Ib]).
  rewrite (cc_deg_inv c Ic), Ec.
  rewrite (degs_of_euls gb x0) by (auto; intros b Hb; eapply flat_inv_in; eauto).
  rewrite (degs_of_euls gt x1) by auto.
  rewrite (euler_num_perm _ _ Pr), euler_num_flat. fold (arcs_of ctgt gb). rewrite Hbal, Ex, Ey.
  unfold euls. rewrite E0, E1. unfold oadd, omap_sub, dots_of. cbn [option_map].
  split; [f_equal; lia|]. split; [reflexivity|exact Pr].
Qed.

Lemma oadd_0_r : forall x, oadd x (Some 0%Z) = x.
Proof. intros [x|]; cbn; [f_equal; lia|reflexivity]. Qed.
Lemma oadd_0_l : forall x, oadd (Some 0%Z) x = x.
Proof. intros [x|]; cbn; reflexivity. Qed.
Lemma oadd_comm : forall x y, oadd x y = oadd y x.
Proof. intros [x|] [y|]; cbn; try reflexivity. f_equal. lia. Qed.
Lemma oadd_assoc : forall x y z, oadd (oadd x y) z = oadd x (oadd y z).
Proof. intros [x|] [y|] [z|]; cbn; try reflexivity. f_equal. lia. Qed.
Lemma oadd_interchange : forall p q r s, oadd (oadd p q) (oadd r s) = oadd (oadd p r) (oadd q s).
Proof. intros p q r s. rewrite !oadd_assoc. f_equal. rewrite <- !oadd_assoc. f_equal. apply oadd_comm. Qed.
Lemma omap_sub_oadd : forall n k x y, oadd (omap_sub n x) (omap_sub k y) = omap_sub (k + n) (oadd y x).
Proof. intros n k [x|] [y|]; cbn; try reflexivity. f_equal. lia. Qed.

Lemma degs_single : forall x, degs [x] = cc_deg x.
Proof. intros x. unfold degs. cbn. destruct (cc_deg x); [f_equal; lia|reflexivity]. Qed.
Lemma euls_single : forall x, euls [x] = cc_euler x.
Proof. intros x. unfold euls. cbn. destruct (cc_euler x); [f_equal; lia|reflexivity]. Qed.
Lemma euls_app : forall a b, euls (a ++ b) = oadd (euls a) (euls b).
Proof. intros. unfold euls. rewrite map_app. apply sum_opt_app. Qed.
Lemma euls_perm : forall a b, Permutation a b -> euls a = euls b.
Proof. intros a b Hp. unfold euls. apply sum_opt_perm. apply Permutation_map. exact Hp. Qed.
Lemma arcs_of_app : forall sel a b, arcs_of sel (a ++ b) = arcs_of sel a + arcs_of sel b.
Proof. intros. rewrite <- !euler_num_flat, flat_app. apply euler_num_app. Qed.
Lemma arcs_of_perm : forall sel a b, Permutation a b -> arcs_of sel a = arcs_of sel b.
Proof. intros. rewrite <- !euler_num_flat. apply euler_num_perm. apply flat_perm. assumption. Qed.

(* a bottom component collected alone has an empty target tangle; a top component collected alone (the bottom pool is
   empty then) has an empty source tangle *)
Lemma single_bot_closed : forall bot top bot' top' x m, stack_wf bot top ->
  Permutation bot (bot' ++ [x]) -> Permutation top (top' ++ []) -> closed_group bot' top' [x] [] ->
  In m (ctgt x) -> False.
Proof.
  intros bot top bot' top' x m W Pa Pb Cl Hm.
  destruct (partner_in_group ctgt csrc bot top bot' top' [x] [] m (wf_match_bt _ _ W) Pa Pb (proj1 Cl)) as (m' & [] & _).
  unfold flat. cbn [flat_map]. rewrite app_nil_r. exact Hm.
Qed.

Lemma single_top_closed : forall top m', stack_wf [] top -> In m' (flat csrc top) -> False.
Proof. intros top m' W Hm'. destruct (wf_match_tb _ _ W m' Hm') as (m & [] & _). Qed.

(* One round of the loop of Cob::stack on a well-formed pair: the component x appended for the group (gb, gt). *)
Definition group_comp (bot gb gt : list cobcomp) (x : cobcomp) : Prop :=
  (gt = [] /\ gb = [x] /\ ctgt x = []) \/
  (gb = [] /\ gt = [x] /\ bot = [] /\ csrc x = []) \/
  (gb <> [] /\ gt <> [] /\ stack_comps gb gt = Some x).

(* induction along the rounds of a returning loop; every round again starts from a well-formed pair *)
Lemma stack_loop_wf_ind : forall (Q : list cobcomp -> list cobcomp -> list cobcomp -> list cobcomp -> Prop),
  (forall acc, Q [] [] acc acc) ->
  (forall bot top bot' top' gb gt x acc out, stack_wf bot top ->
     Permutation bot (bot' ++ gb) -> Permutation top (top' ++ gt) -> closed_group bot' top' gb gt ->
     group_comp bot gb gt x -> Q bot' top' (acc ++ [x]) out -> Q bot top acc out) ->
  forall fuel bot top acc out, stack_wf bot top -> stack_loop fuel bot top acc = Some (Some out) -> Q bot top acc out.
Proof.
  intros Q Q0 QS. induction fuel as [|f IH]; intros bot top acc out W; cbn [stack_loop];
    destruct (is_nil bot && is_nil top) eqn:En; try discriminate.
  1, 2: apply andb_true_iff in En; destruct En, bot, top; try discriminate; intros [= <-]; apply Q0.
  destruct (take_stackable bot top) as [[[[bot' top'] gb] gt]|] eqn:Et; [|discriminate].
  destruct (take_stackable_wf _ _ _ _ _ _ W Et) as (Pa & Pb & Cl & W').
  destruct (take_stackable_perm _ _ _ _ _ _ Et) as (_ & _ & _ & Hhd & _).
  assert (Step : forall x, group_comp bot gb gt x -> stack_loop f bot' top' (acc ++ [x]) = Some (Some out) -> Q bot top acc out).
  { intros x G E. exact (QS bot top bot' top' gb gt x acc out W Pa Pb Cl G (IH _ _ _ _ W' E)). }
  destruct (is_nil gt) eqn:Ngt.
  - destruct gt; [|discriminate]. destruct gb as [|x [|y gb]]; try discriminate.
    apply Step. left. repeat split.
    destruct (ctgt x) as [|m r] eqn:Em; [reflexivity|exfalso].
    apply (single_bot_closed bot top bot' top' x m W Pa Pb Cl). rewrite Em. left. reflexivity.
  - destruct (is_nil gb) eqn:Ngb.
    + destruct gb; [|discriminate]. destruct gt as [|x [|y gt]]; try discriminate.
      assert (Hbot : bot = []).
      { destruct bot as [|b0 r0]; [reflexivity|]. destruct (Hhd b0 r0 eq_refl) as (more & Hm). discriminate. }
      subst bot. apply Step. right. left. repeat split.
      destruct (csrc x) as [|m r] eqn:Em; [reflexivity|exfalso].
      apply (single_top_closed top m W). eapply flat_in; [|rewrite Em; left; reflexivity].
      eapply Permutation_in; [apply Permutation_sym; exact Pb|]. apply in_or_app. right. left. reflexivity.
    + destruct (stack_comps gb gt) as [c|] eqn:Ec; [|discriminate].
      apply Step. right. right. apply is_nil_false in Ngt, Ngb. auto.
Qed.

Lemma stack_loop_deg : forall fuel bot top acc out, stack_wf bot top ->
  stack_loop fuel bot top acc = Some (Some out) ->
  degs out = oadd (degs acc) (oadd (degs bot) (degs top)) /\
  euls out = oadd (euls acc) (omap_sub (arcs_of ctgt bot) (oadd (euls bot) (euls top))) /\
  Permutation (flat csrc out) (flat csrc acc ++ flat csrc bot).
Proof.
  refine (stack_loop_wf_ind _ _ _).
  - intros acc. cbn. rewrite !oadd_0_r, app_nil_r. repeat split; auto.
  - intros bot top bot' top' gb gt x acc out W Pa Pb Cl G (D & Eu & P).
    (* what the new component contributes *)
    assert (Hx : cc_deg x = oadd (degs gb) (degs gt) /\
                 cc_euler x = omap_sub (arcs_of ctgt gb) (oadd (euls gb) (euls gt)) /\
                 Permutation (csrc x) (flat csrc gb)).
    { destruct G as [(-> & -> & Hx)|[(-> & -> & -> & Hx)|(Ngb & Ngt & Ec)]].
      - rewrite degs_single, euls_single. change (degs []) with (Some 0%Z). change (euls []) with (Some 0%Z).
        rewrite !oadd_0_r. unfold arcs_of, omap_sub, flat. cbn [map sum_nat fold_right flat_map]. rewrite Hx, app_nil_r.
        repeat split; auto. destruct (cc_euler x); cbn; [f_equal; lia|reflexivity].
      - rewrite degs_single, euls_single. change (degs []) with (Some 0%Z). change (euls []) with (Some 0%Z).
        rewrite !oadd_0_l, Hx. repeat split; auto. unfold arcs_of, omap_sub. cbn.
        destruct (cc_euler x); cbn; [f_equal; lia|reflexivity].
      - apply (group_deg gb gt x Ec (proj2 (flat_sub csrc bot bot' gb Pa (wf_src _ _ W)))).
        + intros t Ht. apply (flat_inv_in csrc top); [apply (wf_mid_t _ _ W)|].
          eapply Permutation_in; [apply Permutation_sym; exact Pb|]. apply in_or_app. right. exact Ht.
        + rewrite <- !euler_num_flat. exact (group_arcs_balanced bot top bot' top' gb gt W Pa Pb Cl). }
    destruct Hx as (Hx & Hex & Px). split; [|split].
    + rewrite D, degs_app, degs_single, Hx, (degs_perm _ _ Pa), (degs_perm _ _ Pb), !degs_app, oadd_assoc. f_equal.
      rewrite (oadd_comm (oadd (degs gb) (degs gt))). apply oadd_interchange.
    + rewrite Eu, euls_app, euls_single, Hex, (euls_perm _ _ Pa), (euls_perm _ _ Pb), (arcs_of_perm _ _ _ Pa), !euls_app,
        arcs_of_app, oadd_assoc, omap_sub_oadd. do 2 f_equal. apply oadd_interchange.
    + eapply perm_trans; [exact P|]. rewrite flat_app. unfold flat at 2. cbn [flat_map]. rewrite app_nil_r.
      eapply perm_trans; [|apply Permutation_app_head, Permutation_sym, flat_perm; exact Pa].
      eapply perm_trans; [apply Permutation_app_tail; apply Permutation_app_head; exact Px|]. rewrite flat_app. perm_app.
Qed.

Theorem cob_stack_deg : forall a b c, stack_wf a b -> cob_stack a b = Some c ->
  cob_deg c = oadd (cob_deg a) (cob_deg b) /\
  cob_euler c = omap_sub (tng_euler_num (flat ctgt a)) (oadd (cob_euler a) (cob_euler b)) /\
  Permutation (flat csrc c) (flat csrc a).
Proof.
  intros a b c W. unfold cob_stack, cob_stack_fuel.
  destruct (is_nil a) eqn:Na.
  - destruct a; [|discriminate]. intros E. inversion E; subst c.
    assert (Hb : flat csrc b = []).
    { destruct (flat csrc b) as [|m r] eqn:Em; [reflexivity|exfalso]. apply (single_top_closed b m W). rewrite Em. left. reflexivity. }
    change (cob_deg []) with (Some 0%Z). change (cob_euler []) with (Some 0%Z). unfold omap_sub. cbn.
    split; [destruct (cob_deg b); reflexivity|]. split; [destruct (cob_euler b); cbn; [f_equal; lia|reflexivity]|].
    rewrite Hb. constructor.
  - destruct (is_nil b) eqn:Nb.
    + destruct b; [|discriminate]. intros E. inversion E; subst c.
      assert (Ha : flat ctgt a = []).
      { destruct (flat ctgt a) as [|m r] eqn:Em; [reflexivity|exfalso].
        destruct (wf_match_bt _ _ W m) as (m' & [] & _). rewrite Em. left. reflexivity. }
      change (cob_deg []) with (Some 0%Z). change (cob_euler []) with (Some 0%Z). rewrite Ha. unfold omap_sub. cbn.
      rewrite !oadd_0_r. split; [reflexivity|]. split; [destruct (cob_euler a); cbn; [f_equal; lia|reflexivity]|].
      apply Permutation_refl.
    + destruct (stack_loop (length a + length b) a b []) as [[out|]|] eqn:El; try discriminate. intros Es.
      destruct (stack_loop_deg _ _ _ _ _ W El) as (D & Eu & P).
      pose proof (cob_sort_perm _ _ Es) as Hp.
      change (cob_deg c) with (degs c). change (cob_euler c) with (euls c).
      rewrite (degs_perm _ _ Hp), (euls_perm _ _ Hp), D, Eu, euler_num_flat.
      change (degs []) with (Some 0%Z). change (euls []) with (Some 0%Z).
      change (cob_deg a) with (degs a). change (cob_deg b) with (degs b).
      change (cob_euler a) with (euls a). change (cob_euler b) with (euls b). unfold omap_sub.
      split; [destruct (degs a), (degs b); cbn; reflexivity|].
      split; [destruct (euls a), (euls b); cbn; reflexivity|].
      eapply perm_trans; [apply flat_perm; exact Hp|]. exact P.
Qed.
