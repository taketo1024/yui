(* C10: the elementary steps of LLLData (add_row_to, swap, mul_row) are left multiplications by explicit
   elementary matrices whose mirrored update of P^-1 is right multiplication by the inverse
   (DESIGN.md appendix A.3).  Entry lemmas of the tabulated matrix operations of Model/Lll.v. *)
From Coq Require Import ZArith List Bool Arith Lia Ring.
Require Import Yui.Base.Ring Yui.Base.MatF Yui.Base.MatL Yui.Model.Lll Yui.Proofs.C10Laws.
Import ListNotations.

Lemma ofold_nil {S} (f : S -> nat -> option S) s : ofold f [] s = Some s.
Proof. reflexivity. Qed.

Lemma ofold_none {S} (f : S -> nat -> option S) l :
  fold_left (fun acc i => do x <- acc; f x i) l None = None.
Proof. induction l as [|i l IH]; cbn; [reflexivity|exact IH]. Qed.

Lemma ofold_cons {S} (f : S -> nat -> option S) i l s :
  ofold f (i :: l) s = do x <- f s i; ofold f l x.
Proof.
  unfold ofold. cbn [fold_left obind]. destruct (f s i) as [x|]; cbn [obind]; [reflexivity|apply ofold_none].
Qed.

Lemma ofold_app {S} (f : S -> nat -> option S) l1 l2 s :
  ofold f (l1 ++ l2) s = do x <- ofold f l1 s; ofold f l2 x.
Proof.
  revert s. induction l1 as [|i l1 IH]; intros s; [reflexivity|].
  cbn [app]. rewrite !ofold_cons. destruct (f s i) as [x|]; cbn [obind]; [apply IH|reflexivity].
Qed.

Lemma ofold_inv {S} (f : S -> nat -> option S) (P : S -> Prop) (Q : nat -> Prop) l :
  (forall x i x', Q i -> P x -> f x i = Some x' -> P x') ->
  (forall i, In i l -> Q i) ->
  forall s s', P s -> ofold f l s = Some s' -> P s'.
Proof.
  intros Hf. induction l as [|i l IH]; intros HQ s s' Hs H.
  - cbn in H. injection H as <-. exact Hs.
  - rewrite ofold_cons in H. destruct (f s i) as [x|] eqn:E; cbn [obind] in H; [|discriminate].
    apply (IH (fun j Hj => HQ j (or_intror Hj)) x s'); [|exact H].
    apply (Hf s i x); [apply HQ; now left|exact Hs|exact E].
Qed.

Section Ops.
  Context {R : Type} (L : lll_ring R) (LW : lll_laws L).
  Local Notation o := (lops L).
  Local Notation RL := (ll_ring L LW).
  Local Notation fmat := (MatF.mat R).

  Add Ring Rring : (ring_theory_of_laws o RL).

  Local Notation "0" := (rzero o).
  Local Notation "1" := (rone o).
  Local Infix "+" := (radd o).
  Local Infix "*" := (rmul o).
  Local Notation "- x" := (rneg o x).

  (* case analysis on every [x =? y] of the goal and the hypotheses *)
  Ltac eqb_cases :=
    repeat match goal with
           | |- context [(?x =? ?y)%nat] => destruct (Nat.eqb_spec x y)
           | H : context [(?x =? ?y)%nat] |- _ => destruct (Nat.eqb_spec x y)
           end.

  Lemma mget_eq M i j : mget L M i j = lget o M i j.
  Proof. reflexivity. Qed.

  Lemma lget_m_set m n M i j x a b : (a < m)%nat -> (b < n)%nat ->
    lget o (m_set L m n M i j x) a b = if ((a =? i) && (b =? j))%nat then x else lget o M a b.
  Proof. intros Ha Hb. cbv beta zeta delta [m_set]. now rewrite lget_lmk. Qed.

  Lemma lget_m_swap_rows m n M i j a b : (a < m)%nat -> (b < n)%nat ->
    lget o (m_swap_rows L m n M i j) a b = lget o M (if a =? i then j else if a =? j then i else a)%nat b.
  Proof. intros Ha Hb. cbv beta zeta delta [m_swap_rows]. now rewrite lget_lmk. Qed.

  Lemma lget_m_swap_cols m n M i j a b : (a < m)%nat -> (b < n)%nat ->
    lget o (m_swap_cols L m n M i j) a b = lget o M a (if b =? i then j else if b =? j then i else b)%nat.
  Proof. intros Ha Hb. cbv beta zeta delta [m_swap_cols]. now rewrite lget_lmk. Qed.

  Lemma lget_m_mul_row m n M i r a b : (a < m)%nat -> (b < n)%nat ->
    lget o (m_mul_row L m n M i r) a b = if (a =? i)%nat then lget o M a b * r else lget o M a b.
  Proof. intros Ha Hb. cbv beta zeta delta [m_mul_row]. now rewrite lget_lmk. Qed.

  Lemma lget_m_mul_col m n M j r a b : (a < m)%nat -> (b < n)%nat ->
    lget o (m_mul_col L m n M j r) a b = if (b =? j)%nat then lget o M a b * r else lget o M a b.
  Proof. intros Ha Hb. cbv beta zeta delta [m_mul_col]. now rewrite lget_lmk. Qed.

  Lemma lget_m_add_row_to m n M i j r a b : (a < m)%nat -> (b < n)%nat ->
    lget o (m_add_row_to L m n M i j r) a b
    = if (a =? j)%nat then lget o M j b + lget o M i b * r else lget o M a b.
  Proof. intros Ha Hb. cbv beta zeta delta [m_add_row_to]. now rewrite lget_lmk. Qed.

  Lemma lget_m_add_col_to m n M i j r a b : (a < m)%nat -> (b < n)%nat ->
    lget o (m_add_col_to L m n M i j r) a b
    = if (b =? j)%nat then lget o M a j + lget o M a i * r else lget o M a b.
  Proof. intros Ha Hb. cbv beta zeta delta [m_add_col_to]. now rewrite lget_lmk. Qed.

  Lemma wf_m_set m n M i j x : wf m n (m_set L m n M i j x).
  Proof. apply wf_lmk. Qed.
  Lemma wf_m_swap_rows m n M i j : wf m n (m_swap_rows L m n M i j).
  Proof. apply wf_lmk. Qed.
  Lemma wf_m_swap_cols m n M i j : wf m n (m_swap_cols L m n M i j).
  Proof. apply wf_lmk. Qed.
  Lemma wf_m_mul_row m n M i r : wf m n (m_mul_row L m n M i r).
  Proof. apply wf_lmk. Qed.
  Lemma wf_m_mul_col m n M i r : wf m n (m_mul_col L m n M i r).
  Proof. apply wf_lmk. Qed.
  Lemma wf_m_add_row_to m n M i j r : wf m n (m_add_row_to L m n M i j r).
  Proof. apply wf_lmk. Qed.
  Lemma wf_m_add_col_to m n M i j r : wf m n (m_add_col_to L m n M i j r).
  Proof. apply wf_lmk. Qed.

  Lemma vget_vset m v i x a : (a < m)%nat -> vget L (vset L m v i x) a = if (a =? i)%nat then x else vget L v a.
  Proof.
    intros Ha. cbv beta zeta delta [vset vmk]. unfold vget at 1.
    rewrite nth_indep with (d' := (fun a => if (a =? i)%nat then x else vget L v a) O)
      by (now rewrite map_length, seq_length).
    rewrite (map_nth (fun a => if (a =? i)%nat then x else vget L v a) (seq 0 m) O a), seq_nth by assumption.
    reflexivity.
  Qed.

  Lemma vset_length m v i x : length (vset L m v i x) = m.
  Proof. cbv beta zeta delta [vset vmk]. now rewrite map_length, seq_length. Qed.

  Definition tr (i j a : nat) : nat := if (a =? i)%nat then j else if (a =? j)%nat then i else a.
  Definition e_add (k i : nat) (r : R) : fmat := fun a b =>
    if (a =? b)%nat then 1 else if ((a =? k) && (b =? i))%nat then r else 0.
  Definition e_swap (i j : nat) : fmat := fun a b => if (tr i j a =? b)%nat then 1 else 0.
  Definition e_scal (i : nat) (u : R) : fmat := fun a b =>
    if (a =? b)%nat then (if (a =? i)%nat then u else 1) else 0.

  Lemma tr_invol i j a : tr i j (tr i j a) = a.
  Proof. unfold tr. eqb_cases; lia. Qed.
  Lemma tr_lt i j a m : (i < m -> j < m -> a < m -> tr i j a < m)%nat.
  Proof. unfold tr. intros. eqb_cases; lia. Qed.

  Lemma mmul_e_add_l m k i r (M : fmat) a b : (k < m)%nat -> (i < m)%nat -> i <> k -> (a < m)%nat ->
    mmul o m (e_add k i r) M a b = if (a =? k)%nat then M k b + r * M i b else M a b.
  Proof.
    intros Hk Hi Hik Ha. unfold mmul.
    destruct (Nat.eqb_spec a k) as [->|Hak].
    - rewrite (sum_ext o m _ (fun c => (if (c =? k)%nat then M c b else 0) + (if (c =? i)%nat then r * M c b else 0))).
      + rewrite (sum_add o RL), !(sum_delta o RL) by assumption. reflexivity.
      + intros c Hc. unfold e_add. eqb_cases; subst; cbn [andb]; try lia; ring.
    - rewrite (sum_ext o m _ (fun c => if (c =? a)%nat then M c b else 0)).
      + now rewrite (sum_delta o RL).
      + intros c Hc. unfold e_add. eqb_cases; subst; cbn [andb]; try lia; ring.
  Qed.

  Lemma mmul_e_add_r m k i r (M : fmat) a b : (k < m)%nat -> (i < m)%nat -> i <> k -> (b < m)%nat ->
    mmul o m M (e_add k i r) a b = if (b =? i)%nat then M a i + M a k * r else M a b.
  Proof.
    intros Hk Hi Hik Hb. unfold mmul.
    destruct (Nat.eqb_spec b i) as [->|Hbi].
    - rewrite (sum_ext o m _ (fun c => (if (c =? i)%nat then M a c else 0) + (if (c =? k)%nat then M a c * r else 0))).
      + rewrite (sum_add o RL), !(sum_delta o RL) by assumption. reflexivity.
      + intros c Hc. unfold e_add. eqb_cases; subst; cbn [andb]; try lia; ring.
    - rewrite (sum_ext o m _ (fun c => if (c =? b)%nat then M a c else 0)).
      + now rewrite (sum_delta o RL).
      + intros c Hc. unfold e_add. eqb_cases; subst; cbn [andb]; try lia; ring.
  Qed.

  Lemma mmul_e_swap_l m i j (M : fmat) a b : (i < m)%nat -> (j < m)%nat -> (a < m)%nat ->
    mmul o m (e_swap i j) M a b = M (tr i j a) b.
  Proof.
    intros Hi Hj Ha. unfold mmul.
    rewrite (sum_ext o m _ (fun c => if (c =? tr i j a)%nat then M c b else 0)).
    - rewrite (sum_delta o RL); [reflexivity|now apply tr_lt].
    - intros c Hc. unfold e_swap. rewrite (Nat.eqb_sym c). destruct (_ =? _)%nat; ring.
  Qed.

  Lemma mmul_e_swap_r m i j (M : fmat) a b : (i < m)%nat -> (j < m)%nat -> (b < m)%nat ->
    mmul o m M (e_swap i j) a b = M a (tr i j b).
  Proof.
    intros Hi Hj Hb. unfold mmul.
    rewrite (sum_ext o m _ (fun c => if (c =? tr i j b)%nat then M a c else 0)).
    - rewrite (sum_delta o RL); [reflexivity|now apply tr_lt].
    - intros c Hc. unfold e_swap.
      destruct (Nat.eqb_spec (tr i j c) b) as [E|E]; destruct (Nat.eqb_spec c (tr i j b)) as [E'|E']; try ring.
      + exfalso. apply E'. rewrite <- E. now rewrite tr_invol.
      + exfalso. apply E. rewrite E'. now rewrite tr_invol.
  Qed.

  Lemma mmul_e_scal_l m i u (M : fmat) a b : (a < m)%nat ->
    mmul o m (e_scal i u) M a b = (if (a =? i)%nat then u else 1) * M a b.
  Proof.
    intros Ha. unfold mmul.
    rewrite (sum_ext o m _ (fun c => if (c =? a)%nat then (if (a =? i)%nat then u else 1) * M c b else 0)).
    - now rewrite (sum_delta o RL).
    - intros c Hc. unfold e_scal. rewrite (Nat.eqb_sym c). destruct (a =? c)%nat; ring.
  Qed.

  Lemma mmul_e_scal_r m i u (M : fmat) a b : (b < m)%nat ->
    mmul o m M (e_scal i u) a b = M a b * (if (b =? i)%nat then u else 1).
  Proof.
    intros Hb. unfold mmul.
    rewrite (sum_ext o m _ (fun c => if (c =? b)%nat then M a c * (if (c =? i)%nat then u else 1) else 0)).
    - now rewrite (sum_delta o RL).
    - intros c Hc. unfold e_scal. destruct (c =? b)%nat; ring.
  Qed.

  Lemma e_add_inv m k i r : (k < m)%nat -> (i < m)%nat -> i <> k ->
    meq m m (mmul o m (e_add k i r) (e_add k i (- r))) (mid o).
  Proof.
    intros Hk Hi Hik a b Ha Hb. rewrite mmul_e_add_l by assumption. unfold e_add, mid.
    destruct (Nat.eqb_spec a k) as [->|Hak]; cbn [andb]; [|reflexivity].
    rewrite (proj2 (Nat.eqb_neq i k) Hik). eqb_cases; subst; cbn [andb]; try lia; ring.
  Qed.

  Lemma e_swap_inv m i j : (i < m)%nat -> (j < m)%nat ->
    meq m m (mmul o m (e_swap i j) (e_swap i j)) (mid o).
  Proof.
    intros Hi Hj a b Ha Hb. rewrite mmul_e_swap_l by assumption.
    unfold e_swap, mid. rewrite tr_invol. reflexivity.
  Qed.

  Lemma e_scal_inv m i u v : u * v = 1 ->
    meq m m (mmul o m (e_scal i u) (e_scal i v)) (mid o).
  Proof.
    intros Huv a b Ha Hb. rewrite mmul_e_scal_l by assumption.
    unfold e_scal, mid. eqb_cases; subst; try lia; try ring. exact Huv.
  Qed.

  (* the generic step: T = P A, P Q = I = Q P is kept by (E T, E P, Q E') when E E' = I = E' E *)
  Lemma step_invariant m n (A T P Q T' P' Q' E E' : fmat) :
    meq m n T (mmul o m P A) -> meq m m (mmul o m P Q) (mid o) -> meq m m (mmul o m Q P) (mid o) ->
    meq m m (mmul o m E E') (mid o) -> meq m m (mmul o m E' E) (mid o) ->
    meq m n T' (mmul o m E T) -> meq m m P' (mmul o m E P) -> meq m m Q' (mmul o m Q E') ->
    meq m n T' (mmul o m P' A) /\ meq m m (mmul o m P' Q') (mid o) /\ meq m m (mmul o m Q' P') (mid o).
  Proof.
    intros HT HPQ HQP HE HE' HT' HP' HQ'. repeat split.
    - (* T' = E T = E (P A) = (E P) A = P' A *)
      intros a b Ha Hb. rewrite HT' by assumption.
      rewrite (mmul_ext o m m n E E T (mmul o m P A) (meq_refl m m E) HT a b Ha Hb).
      rewrite <- (mmul_assoc o RL).
      symmetry. apply (mmul_ext o m m n P' (mmul o m E P) A A HP'); [|assumption|assumption].
      intros ? ? _ _. reflexivity.
    - exact (meq_inv_pair o RL m E P Q E' P' Q' HPQ HE HP' HQ').
    - exact (meq_inv_pair o RL m Q E' E P Q' P' HE' HQP HQ' HP').
  Qed.

  Definition uinv (m n : nat) (A : lmat R) (s : lll_data) : Prop :=
    nr s = m /\ nc s = n /\
    exists P Q, tp s = Some P /\ tpinv s = Some Q /\
      meq m n (lget o (target s)) (mmul o m (lget o P) (lget o A)) /\
      meq m m (mmul o m (lget o P) (lget o Q)) (mid o) /\
      meq m m (mmul o m (lget o Q) (lget o P)) (mid o).

  Lemma uinv_init A : uinv (length A) (lncols A) A (data_new L A (true, true)).
  Proof.
    unfold uinv, data_new. cbn [nr nc tp tpinv target fst snd].
    repeat split. exists (lid o (length A)), (lid o (length A)). repeat split.
    - intros a b Ha Hb. symmetry.
      rewrite (mmul_ext o (length A) (length A) (lncols A) (lget o (lid o (length A))) (mid o) (lget o A) (lget o A));
        [now apply (mmul_id_l o RL)| |apply meq_refl|assumption|assumption].
      intros c d Hc Hd. now apply lget_lid.
    - intros a b Ha Hb.
      rewrite (mmul_ext o (length A) (length A) (length A) _ (mid o) _ (mid o)); [now apply (mmul_id_l o RL)| | |assumption|assumption];
        intros c d Hc Hd; now apply lget_lid.
    - intros a b Ha Hb.
      rewrite (mmul_ext o (length A) (length A) (length A) _ (mid o) _ (mid o)); [now apply (mmul_id_l o RL)| | |assumption|assumption];
        intros c d Hc Hd; now apply lget_lid.
  Qed.

  Lemma add_row_to_uinv m n A s i k r s' :
    uinv m n A s -> add_row_to L s i k r = Some s' -> uinv m n A s'.
  Proof.
    intros (Hm & Hn & P & Q & HP & HQ & HT & HPQ & HQP). cbv beta zeta delta [add_row_to].
    destruct (Nat.ltb_spec i k) as [Hik|]; [|discriminate].
    destruct (Nat.ltb_spec k (nr s)) as [Hk|]; [|discriminate]. cbn [negb orb].
    intros H. injection H as <-. unfold uinv. cbn [nr nc tp tpinv target]. rewrite HP, HQ. cbn [option_map].
    rewrite Hm, Hn in *. repeat split.
    eexists. eexists. split; [reflexivity|]. split; [reflexivity|].
    apply (step_invariant m n (lget o A) (lget o (target s)) (lget o P) (lget o Q) _ _ _
             (e_add k i r) (e_add k i (- r)) HT HPQ HQP).
    - apply e_add_inv; lia.
    - replace r with (- - r) at 2 by ring. apply e_add_inv; lia.
    - intros a b Ha Hb. rewrite lget_m_add_row_to, mmul_e_add_l by lia. destruct (a =? k)%nat; ring.
    - intros a b Ha Hb. rewrite lget_m_add_row_to, mmul_e_add_l by lia. destruct (a =? k)%nat; ring.
    - intros a b Ha Hb. rewrite lget_m_add_col_to, mmul_e_add_r by lia. reflexivity.
  Qed.

  Definition tinv (m n : nat) (A : lmat R) (x : lmat R * option (lmat R) * option (lmat R)) : Prop :=
    exists P Q, snd (fst x) = Some P /\ snd x = Some Q /\
      meq m n (lget o (fst (fst x))) (mmul o m (lget o P) (lget o A)) /\
      meq m m (mmul o m (lget o P) (lget o Q)) (mid o) /\
      meq m m (mmul o m (lget o Q) (lget o P)) (mid o).

  Lemma tinv_swap m n A t p q i j : (i < m)%nat -> (j < m)%nat ->
    tinv m n A (t, p, q) ->
    tinv m n A (m_swap_rows L m n t i j, option_map (fun p => m_swap_rows L m m p i j) p,
                option_map (fun q => m_swap_cols L m m q i j) q).
  Proof.
    intros Hi Hj (P & Q & HP & HQ & HT & HPQ & HQP). cbn [fst snd] in *. subst p q. cbn [option_map].
    exists (m_swap_rows L m m P i j), (m_swap_cols L m m Q i j). cbn [fst snd].
    split; [reflexivity|]. split; [reflexivity|].
    apply (step_invariant m n (lget o A) (lget o t) (lget o P) (lget o Q) _ _ _
             (e_swap i j) (e_swap i j) HT HPQ HQP).
    - now apply e_swap_inv.
    - now apply e_swap_inv.
    - intros a b Ha Hb. rewrite lget_m_swap_rows, mmul_e_swap_l by lia. reflexivity.
    - intros a b Ha Hb. rewrite lget_m_swap_rows, mmul_e_swap_l by lia. reflexivity.
    - intros a b Ha Hb. rewrite lget_m_swap_cols, mmul_e_swap_r by lia. reflexivity.
  Qed.

  Lemma swap_uinv m n A s k s' : uinv m n A s -> swap L s k = Some s' -> uinv m n A s'.
  Proof.
    intros (Hm & Hn & HT). cbv beta zeta delta [swap].
    destruct (Nat.eqb_spec k 0) as [|Hk0]; [discriminate|].
    destruct (Nat.ltb_spec k (nr s)) as [Hk|]; [|discriminate]. cbn [negb orb].
    destruct (ofold _ _ _) as [l2|]; [|discriminate]. cbn [obind].
    destruct (ldiv L _ _) as [dk|]; [|discriminate]. cbn [obind].
    intros H. injection H as <-. unfold uinv. cbn [nr nc target tp tpinv]. rewrite Hm, Hn in *.
    split; [reflexivity|]. split; [reflexivity|].
    exact (tinv_swap m n A (target s) (tp s) (tpinv s) (k - 1) k ltac:(lia) Hk HT).
  Qed.

  Lemma mul_row_uinv m n A s i u s' : uinv m n A s -> mul_row L s i u = Some s' -> uinv m n A s'.
  Proof.
    intros (Hm & Hn & P & Q & HP & HQ & HT & HPQ & HQP). cbv beta zeta delta [mul_row].
    destruct (lis_unit L u) eqn:Hu; [|discriminate].
    destruct (Nat.ltb_spec i (nr s)) as [Hi|]; [|discriminate]. cbn [negb orb].
    rewrite HQ. destruct (linv L u) as [v|] eqn:Hv; [|discriminate]. cbn [obind].
    intros H. injection H as <-. unfold uinv. cbn [nr nc tp tpinv target]. rewrite HP. cbn [option_map].
    rewrite Hm, Hn in *. repeat split.
    eexists. eexists. split; [reflexivity|]. split; [reflexivity|].
    pose proof (ll_inv_mul L LW u v Hv) as Huv.
    apply (step_invariant m n (lget o A) (lget o (target s)) (lget o P) (lget o Q) _ _ _
             (e_scal i u) (e_scal i v) HT HPQ HQP).
    - now apply e_scal_inv.
    - apply e_scal_inv. rewrite (rmul_comm o RL). exact Huv.
    - intros a b Ha Hb. rewrite lget_m_mul_row, mmul_e_scal_l by lia. destruct (a =? i)%nat; ring.
    - intros a b Ha Hb. rewrite lget_m_mul_row, mmul_e_scal_l by lia. destruct (a =? i)%nat; ring.
    - intros a b Ha Hb. rewrite lget_m_mul_col, mmul_e_scal_r by lia. destruct (b =? i)%nat; ring.
  Qed.

  (* changes of det / lambda / step only *)
  Lemma uinv_same m n A (s s' : lll_data) :
    uinv m n A s -> nr s' = nr s -> nc s' = nc s -> target s' = target s -> tp s' = tp s -> tpinv s' = tpinv s ->
    uinv m n A s'.
  Proof. unfold uinv. intros H -> -> -> -> ->. exact H. Qed.
End Ops.

(* LLLCalc and LLLHNFCalc share the shape of `iterate` and of the main loop; they differ in the reduction and the test *)
Section Shape.
  Context {R : Type} (L : lll_ring R).
  Definition iterate_with (red : lll_data (R := R) -> nat -> nat -> option lll_data) (ok : lll_data -> nat -> option bool)
    (s : lll_data) : option lll_data :=
    let k := step s in
    do s1 <- red s (k - 1)%nat k;
    do b <- ok s1 k;
    if b then do s2 <- ofold (fun x i => red x i k) (rev (seq O (k - 1))) s1; Some (next s2)
    else do s2 <- swap L s1 k; Some (back s2).

  Fixpoint loop_with (it : lll_data (R := R) -> option lll_data) (fuel : nat) (s : lll_data) : option lll_data :=
    if (step s <? nr s)%nat then
      match fuel with O => None | S f => do s' <- it s; loop_with it f s' end
    else Some s.

  Lemma lll_loop_eq fuel s : lll_loop L fuel s = loop_with (lll_iterate L) fuel s.
  Proof.
    revert s. induction fuel as [|f IH]; intros s; cbn [lll_loop loop_with]; [reflexivity|].
    destruct (step s <? nr s)%nat; [|reflexivity]. destruct (lll_iterate L s); [apply IH|reflexivity].
  Qed.
  Lemma hnf_loop_eq fuel s : hnf_loop L fuel s = loop_with (hnf_iterate L) fuel s.
  Proof.
    revert s. induction fuel as [|f IH]; intros s; cbn [hnf_loop loop_with]; [reflexivity|].
    destruct (step s <? nr s)%nat; [|reflexivity]. destruct (hnf_iterate L s); [apply IH|reflexivity].
  Qed.

  (* what every iteration keeps holds at the exit of the loop, where step has reached nr *)
  Lemma loop_with_inv (I : lll_data (R := R) -> Prop) it fuel : (forall s s', I s -> it s = Some s' -> I s') ->
    forall s s', I s -> loop_with it fuel s = Some s' -> I s' /\ (nr s' <= step s')%nat.
  Proof.
    intros Hit. induction fuel as [|f IH]; intros s s' HI; cbn [loop_with];
      destruct (Nat.ltb_spec (step s) (nr s)) as [Hlt|Hge]; try discriminate;
      try (intros H; injection H as <-; split; [exact HI|exact Hge]).
    destruct (it s) as [s1|] eqn:E; [|discriminate]. cbn [obind]. apply IH. now apply (Hit s).
  Qed.
End Shape.

(* a property of states that the elementary steps keep is kept by both algorithms *)
Section Kept.
  Context {R : Type} (L : lll_ring R) (I : lll_data (R := R) -> Prop).

  Definition kept : Prop :=
    (forall s i u s', I s -> mul_row L s i u = Some s' -> I s') /\
    (forall s i k r s', I s -> add_row_to L s i k r = Some s' -> I s') /\
    (forall s k s', I s -> swap L s k = Some s' -> I s') /\
    (forall s k, I s -> I (with_step s k)) /\
    (forall s d l, I s -> I (with_det_lambda s d l)).

  Hypothesis K : kept.

  Lemma kept_reduce s i k s' : I s -> reduce L s i k = Some s' -> I s'.
  Proof.
    intros HI. cbv beta zeta delta [reduce]. destruct (_ || _); [discriminate|].
    destruct (ldiv_round L _ _) as [q|]; [|discriminate]. cbn [obind].
    destruct (reqb (lops L) q (rzero (lops L))); [intros H; injection H as <-; exact HI|now apply K].
  Qed.

  Lemma kept_hnf_reduce s i k s' : I s -> hnf_reduce L s i k = Some s' -> I s'.
  Proof.
    intros HI. cbv beta zeta delta [hnf_reduce]. destruct (_ || _); [discriminate|].
    destruct (nz_col_in L s i) as [j|]; [|now apply kept_reduce].
    assert (HT : forall s1 q, I s1 ->
      (if reqb (lops L) q (rzero (lops L)) then Some s1 else add_row_to L s1 i k (rneg (lops L) q)) = Some s' -> I s').
    { intros s1 q H1. destruct (reqb _ q _); [intros H; injection H as <-; exact H1|now apply K]. }
    destruct (reqb (lops L) (lnunit L _) (rone (lops L))); cbn [obind].
    - destruct (ldiv_round L _ _) as [q|]; [|discriminate]. cbn [obind]. now apply HT.
    - destruct (mul_row L s i _) as [s1|] eqn:E1; [|discriminate]. cbn [obind].
      destruct (ldiv_round L _ _) as [q|]; [|discriminate]. cbn [obind]. apply HT. now apply K in E1.
  Qed.

  Lemma kept_back s : I s -> I (back s).
  Proof. intros H. unfold back. destruct (_ <? _)%nat; [now apply K|exact H]. Qed.

  Lemma kept_setup s s' : I s -> setup L s = Some s' -> I s'.
  Proof.
    intros HI. cbv beta zeta delta [setup]. destruct (orthogonalize L _) as [[[c l] d]|]; [|discriminate].
    cbn [obind]. intros H. injection H as <-. now apply K.
  Qed.

  Lemma kept_iterate red ok s s' :
    (forall x i k x', I x -> red x i k = Some x' -> I x') -> I s -> iterate_with L red ok s = Some s' -> I s'.
  Proof.
    intros Hred HI. cbv beta zeta delta [iterate_with].
    destruct (red s _ _) as [s1|] eqn:E1; [|discriminate]. cbn [obind].
    apply Hred in E1; [|exact HI].
    destruct (ok s1 _) as [[|]|]; [| |discriminate]; cbn [obind].
    - destruct (ofold _ _ s1) as [s2|] eqn:E2; [|discriminate]. cbn [obind].
      intros H. injection H as <-. apply K.
      eapply (ofold_inv _ I (fun _ => True)); [| |exact E1|exact E2]; [|auto].
      intros x i x' _ Hx Hf. now apply (Hred x i (step s)).
    - destruct (swap L s1 _) as [s2|] eqn:E2; [|discriminate]. cbn [obind].
      intros H. injection H as <-. apply kept_back. now apply K in E2.
  Qed.

  Lemma kept_lll_iterate s s' : I s -> lll_iterate L s = Some s' -> I s'.
  Proof. exact (kept_iterate (reduce L) (lovasz_ok L) s s' kept_reduce). Qed.

  Lemma kept_hnf_iterate s s' : I s -> hnf_iterate L s = Some s' -> I s'.
  Proof. exact (kept_iterate (hnf_reduce L) (hnf_is_ok L) s s' kept_hnf_reduce). Qed.

  Lemma kept_lll_loop fuel s s' : I s -> lll_loop L fuel s = Some s' -> I s'.
  Proof. rewrite lll_loop_eq. intros HI H. exact (proj1 (loop_with_inv I _ fuel kept_lll_iterate s s' HI H)). Qed.

  Lemma kept_hnf_loop fuel s s' : I s -> hnf_loop L fuel s = Some s' -> I s'.
  Proof. rewrite hnf_loop_eq. intros HI H. exact (proj1 (loop_with_inv I _ fuel kept_hnf_iterate s s' HI H)). Qed.

  Lemma kept_hnf_final s s' : I s -> hnf_final L s = Some s' -> I s'.
  Proof.
    intros HI. cbv beta zeta delta [hnf_final]. destruct (_ <? _)%nat; [|intros H; injection H as <-; exact HI].
    destruct (nz_col_in L s _) as [j|]; [|intros H; injection H as <-; exact HI].
    destruct (reqb _ _ _); [intros H; injection H as <-; exact HI|]. now apply K.
  Qed.
End Kept.
