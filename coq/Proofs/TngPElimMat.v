(* Matrices over a pre-additive category form a pre-additive category (the additive closure Mat(C) of [Bar-Natan '05,
   Section 3]: objects = finite families of objects, morphisms = matrices of morphisms).  Hence the blocks A, B, A', D of the
   elimination lemma of Proofs/TngPElim.v may be families (all the other vertices of a homological degree of a
   TngComplex), and - a ring being a pre-additive category with one object - the lemma holds for matrices over an
   arbitrary, not necessarily commutative, ring ([ncring_ops] / [ncring_laws] below: ring laws WITHOUT commutativity of
   the multiplication).  No axiom: the equality of matrices is pointwise on the index range (a setoid). *)
From Coq Require Import Arith Lia Setoid Morphisms Eqdep_dec.
Require Import Yui.Proofs.TngPElim.

Section Mat.
  Context (C : preadd_ops) (L : preadd_laws C).
  Local Notation "f == g" := (peq C f g) (at level 70, no associativity).
  Local Notation "f + g" := (padd C f g).
  Local Notation "- f" := (pneg C f).
  Local Notation "f 'o' g" := (pcomp C f g) (at level 40, left associativity).
  Local Notation "0" := (pzero C).
  Local Notation "1" := (pid C).

  #[local] Instance eqv_j X Y : Equivalence (@peq C X Y) := peq_Equivalence C L X Y.
  #[local] Instance add_j X Y : Proper (@peq C X Y ==> @peq C X Y ==> @peq C X Y) (@padd C X Y) := padd_Proper C L X Y.
  #[local] Instance neg_j X Y : Proper (@peq C X Y ==> @peq C X Y) (@pneg C X Y) := pneg_Proper C L X Y.
  #[local] Instance comp_j X Y Z : Proper (@peq C Y Z ==> @peq C X Y ==> @peq C X Z) (@pcomp C X Y Z) :=
    pcomp_Proper C L X Y Z.

  (* a finite family of objects: the first [fn] values of [fo] *)
  Record fam : Type := mkFam { fn : nat; fo : nat -> pobj C }.
  (* entry (i, j): from the j-th object of the source to the i-th object of the target *)
  Definition mhom (S T : fam) : Type := forall i j : nat, phom C (fo S j) (fo T i).
  Definition meq (S T : fam) (M N : mhom S T) : Prop := forall i j, i < fn T -> j < fn S -> M i j == N i j.
  Definition mzero (S T : fam) : mhom S T := fun _ _ => 0.
  Definition madd (S T : fam) (M N : mhom S T) : mhom S T := fun i j => M i j + N i j.
  Definition mneg (S T : fam) (M : mhom S T) : mhom S T := fun i j => - M i j.
  Fixpoint psum {X Y} (n : nat) (F : nat -> phom C X Y) : phom C X Y :=
    match n with O => 0 | S k => psum k F + F k end.
  Definition mcomp (S T U : fam) (M : mhom T U) (N : mhom S T) : mhom S U :=
    fun i k => psum (fn T) (fun j => M i j o N j k).
  Definition delta (S : fam) (i j : nat) : phom C (fo S j) (fo S i) :=
    match Nat.eq_dec j i with
    | left e => match e in (_ = k) return phom C (fo S j) (fo S k) with eq_refl => 1 end
    | right _ => 0
    end.
  Definition mid (S : fam) : mhom S S := fun i j => delta S i j.

  Lemma delta_eq S i : delta S i i = 1.
  Proof.
    unfold delta. destruct (Nat.eq_dec i i) as [e|n]; [|contradiction].
    now rewrite (UIP_refl_nat _ e).
  Qed.
  Lemma delta_ne S i j : j <> i -> delta S i j = 0.
  Proof. intros H. unfold delta. destruct (Nat.eq_dec j i) as [e|n]; [contradiction|reflexivity]. Qed.

  Lemma psum_ext X Y n (F G : nat -> phom C X Y) : (forall j, j < n -> F j == G j) -> psum n F == psum n G.
  Proof.
    induction n as [|n IH]; intros H; cbn [psum]; [reflexivity|].
    rewrite IH by (intros j Hj; apply H; lia). now rewrite (H n) by lia.
  Qed.
  Lemma psum_zero X Y n : psum n (fun _ => (0 : phom C X Y)) == 0.
  Proof. induction n as [|n IH]; cbn [psum]; [reflexivity|]. rewrite IH. apply (padd_0_l C L). Qed.
  Lemma psum_add X Y n (F G : nat -> phom C X Y) : psum n (fun j => F j + G j) == psum n F + psum n G.
  Proof.
    induction n as [|n IH]; cbn [psum]; [now rewrite (padd_0_l C L)|].
    rewrite IH. rewrite !(padd_assoc C L). apply (padd_eq C L); [reflexivity|].
    rewrite <- !(padd_assoc C L). apply (padd_eq C L); [|reflexivity]. apply (padd_comm C L).
  Qed.
  Lemma psum_comp_l X Y Z n (F : nat -> phom C Y Z) (g : phom C X Y) : psum n F o g == psum n (fun j => F j o g).
  Proof.
    induction n as [|n IH]; cbn [psum]; [apply (pcomp_0_l C L)|]. rewrite (pcomp_add_l C L). now rewrite IH.
  Qed.
  Lemma psum_comp_r X Y Z n (f : phom C Y Z) (G : nat -> phom C X Y) : f o psum n G == psum n (fun j => f o G j).
  Proof.
    induction n as [|n IH]; cbn [psum]; [apply (pcomp_0_r C L)|]. rewrite (pcomp_add_r C L). now rewrite IH.
  Qed.
  Lemma psum_swap X Y n m (F : nat -> nat -> phom C X Y) :
    psum n (fun i => psum m (fun j => F i j)) == psum m (fun j => psum n (fun i => F i j)).
  Proof.
    induction n as [|n IH]; cbn [psum].
    - symmetry. apply psum_zero.
    - rewrite IH. symmetry. apply psum_add.
  Qed.
  (* a sum with a single non-zero summand; hence sum_j F j o delta(j, k) = F k = sum_j delta(k, j) o F j *)
  Lemma psum_single X Y n k (F : nat -> phom C X Y) :
    k < n -> (forall j, j < n -> j <> k -> F j == 0) -> psum n F == F k.
  Proof.
    induction n as [|n IH]; intros Hk H0; [lia|]. cbn [psum].
    destruct (Nat.eq_dec k n) as [->|Hne].
    - rewrite (psum_ext _ _ n _ (fun _ => 0)) by (intros j Hj; apply H0; lia). rewrite psum_zero. apply (padd_0_l C L).
    - rewrite IH by (try lia; intros j Hj; apply H0; lia). rewrite (H0 n) by lia. apply (padd_0_r C L).
  Qed.
  Lemma psum_delta_r S Y n k (F : forall j, phom C (fo S j) Y) :
    k < n -> psum n (fun j => F j o delta S j k) == F k.
  Proof.
    intros Hk. rewrite (psum_single _ _ n k) by (try assumption; intros j _ Hj; rewrite delta_ne by auto; apply (pcomp_0_r C L)).
    rewrite delta_eq. apply (pcomp_id_r C L).
  Qed.
  Lemma psum_delta_l S X n k (F : forall j, phom C X (fo S j)) :
    k < n -> psum n (fun j => delta S k j o F j) == F k.
  Proof.
    intros Hk. rewrite (psum_single _ _ n k) by (try assumption; intros j _ Hj; rewrite delta_ne by auto; apply (pcomp_0_l C L)).
    rewrite delta_eq. apply (pcomp_id_l C L).
  Qed.

  Definition mat_ops : preadd_ops := mk_preadd_ops fam mhom meq mzero madd mneg mid mcomp.

  Theorem mat_laws : preadd_laws mat_ops.
  Proof.
    constructor; cbn [pobj phom peq pzero padd pneg pid pcomp mat_ops].
    - intros S T M i j _ _. reflexivity.
    - intros S T M N H i j Hi Hj. symmetry. now apply H.
    - intros S T M N K H1 H2 i j Hi Hj. now rewrite (H1 i j), (H2 i j).
    - intros S T M M' N N' H1 H2 i j Hi Hj. unfold madd. now rewrite (H1 i j), (H2 i j).
    - intros S T M M' H1 i j Hi Hj. unfold mneg. now rewrite (H1 i j).
    - intros S T U M M' N N' H1 H2 i k Hi Hk. unfold mcomp. apply psum_ext. intros j Hj.
      now rewrite (H1 i j), (H2 j k).
    - intros S T M N K i j _ _. apply (padd_assoc C L).
    - intros S T M N i j _ _. apply (padd_comm C L).
    - intros S T M i j _ _. apply (padd_0_l C L).
    - intros S T M i j _ _. apply (padd_neg_r C L).
    - intros W S T U M N K i l Hi Hl. unfold mcomp.
      rewrite (psum_ext _ _ (fn S) _ (fun k => psum (fn T) (fun j => M i j o (N j k o K k l)))).
      2:{ intros k Hk. rewrite psum_comp_l. apply psum_ext. intros j Hj. apply (pcomp_assoc C L). }
      rewrite psum_swap. apply psum_ext. intros j Hj. symmetry. apply psum_comp_r.
    - intros S T M i k Hi Hk. unfold mcomp, mid. now apply (psum_delta_l T).
    - intros S T M i k Hi Hk. unfold mcomp, mid. now apply (psum_delta_r S).
    - intros S T U M N K i k Hi Hk. unfold mcomp, madd. rewrite <- psum_add. apply psum_ext. intros j Hj.
      apply (pcomp_add_l C L).
    - intros S T U M N K i k Hi Hk. unfold mcomp, madd. rewrite <- psum_add. apply psum_ext. intros j Hj.
      apply (pcomp_add_r C L).
  Qed.
End Mat.

(* rings without commutativity of the multiplication *)
Record ncring_ops (R : Type) : Type := mk_ncring_ops {
  nzero : R; none : R; nadd : R -> R -> R; nneg : R -> R; nmul : R -> R -> R;
}.
Arguments nzero {R} _.
Arguments none {R} _.
Arguments nadd {R} _ _ _.
Arguments nneg {R} _ _.
Arguments nmul {R} _ _ _.

Record ncring_laws {R : Type} (o : ncring_ops R) : Prop := mk_ncring_laws {
  nadd_assoc : forall a b c, nadd o (nadd o a b) c = nadd o a (nadd o b c);
  nadd_comm : forall a b, nadd o a b = nadd o b a;
  nadd_0_l : forall a, nadd o (nzero o) a = a;
  nadd_neg_r : forall a, nadd o a (nneg o a) = nzero o;
  nmul_assoc : forall a b c, nmul o (nmul o a b) c = nmul o a (nmul o b c);
  nmul_1_l : forall a, nmul o (none o) a = a;
  nmul_1_r : forall a, nmul o a (none o) = a;
  ndistr_l : forall a b c, nmul o (nadd o a b) c = nadd o (nmul o a c) (nmul o b c);
  ndistr_r : forall a b c, nmul o a (nadd o b c) = nadd o (nmul o a b) (nmul o a c);
}.

(* a ring is a pre-additive category with one object *)
Definition ring_preadd {R} (o : ncring_ops R) : preadd_ops :=
  mk_preadd_ops unit (fun _ _ => R) (fun _ _ => @eq R) (fun _ _ => nzero o) (fun _ _ => nadd o) (fun _ _ => nneg o)
    (fun _ => none o) (fun _ _ _ => nmul o).

Lemma ring_preadd_laws {R} (o : ncring_ops R) (Lo : ncring_laws o) : preadd_laws (ring_preadd o).
Proof.
  constructor; cbn.
  - reflexivity.
  - intros. now symmetry.
  - intros. congruence.
  - intros. congruence.
  - intros. congruence.
  - intros. congruence.
  - intros. apply (nadd_assoc o Lo).
  - intros. apply (nadd_comm o Lo).
  - intros. apply (nadd_0_l o Lo).
  - intros. apply (nadd_neg_r o Lo).
  - intros. apply (nmul_assoc o Lo).
  - intros. apply (nmul_1_l o Lo).
  - intros. apply (nmul_1_r o Lo).
  - intros. apply (ndistr_l o Lo).
  - intros. apply (ndistr_r o Lo).
Qed.

(* matrices over a non-commutative ring: a matrix with m rows and n columns is a function nat -> nat -> R read on
   i < m, j < n; the dimension is the object *)
Section NcMat.
  Context {R : Type} (o : ncring_ops R) (Lo : ncring_laws o).
  Definition ncmat_ops : preadd_ops := mat_ops (ring_preadd o).
  Definition ncmat_laws : preadd_laws ncmat_ops := mat_laws (ring_preadd o) (ring_preadd_laws o Lo).
  Definition dim (n : nat) : pobj ncmat_ops := mkFam (ring_preadd o) n (fun _ => tt).
  Definition ncmat (rows cols : nat) : Type := phom ncmat_ops (dim cols) (dim rows).
  Lemma ncmat_is_fun rows cols : ncmat rows cols = (nat -> nat -> R).
  Proof. reflexivity. Qed.
  (* the product is the usual one: (M N) i k = sum_{j < n} M i j * N j k, in this order *)
  Lemma ncmat_mul_entry m n l (M : ncmat m n) (N : ncmat n l) i k :
    pcomp ncmat_ops M N i k = psum (ring_preadd o) n (fun j => nmul o (M i j) (N j k)).
  Proof. reflexivity. Qed.
  Lemma ncmat_eq_entry m n (M N : ncmat m n) :
    peq ncmat_ops M N <-> (forall i j, i < m -> j < n -> M i j = N i j).
  Proof. reflexivity. Qed.

  Local Notation "f == g" := (peq ncmat_ops f g) (at level 70, no associativity).
  Local Notation "f + g" := (padd ncmat_ops f g).
  Local Notation "- f" := (pneg ncmat_ops f).
  Local Notation "f * g" := (pcomp ncmat_ops f g).
  Local Notation "0" := (pzero ncmat_ops).
  Local Notation "1" := (pid ncmat_ops).

  (* The elimination lemma for block matrices over a non-commutative ring:
        [a b ; c d] : (r + nb) columns -> (r + nd) rows, a (r x r) invertible with two-sided inverse a',
        the incoming differential [x ; y] with l columns, the outgoing [z w] with k rows. *)
  Theorem ncmat_elim_complex (r nb nd l k : nat)
      (a : ncmat r r) (b : ncmat r nb) (c : ncmat nd r) (d : ncmat nd nb) (a' : ncmat r r)
      (x : ncmat r l) (y : ncmat nb l) (z : ncmat k r) (w : ncmat k nd) :
    a' * a == 1 -> a * a' == 1 ->
    a * x + b * y == 0 -> c * x + d * y == 0 ->
    z * a + w * c == 0 -> z * b + w * d == 0 ->
    (d + - (c * a' * b)) * y == 0 /\ w * (d + - (c * a' * b)) == 0.
  Proof.
    exact (elim_complex ncmat_ops ncmat_laws a b c d a' x y z w).
  Qed.
End NcMat.
