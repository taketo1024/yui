(* C09 - Z[i] and Z[omega]: the Euclidean function N(x) = |x * conj x| satisfies [norm_laws], and the generic
   EucRing::gcdx terminates within the model's fuel 3*log2 N(x) + 3*log2 N(y) + 6 ([gcdx_total]):
   the remainder x - y*round(x/y) has 4*N(r) <= 3*N(y), because rounding to the
   nearest integer leaves an error of at most 1/2 in every coordinate, so N(y)^3 at least halves per step. *)
From Coq Require Import ZArith NArith List Bool Arith Lia Ring.
Require Import Yui.Base.Ring Yui.Base.MatF Yui.Base.MatL Yui.Model.Snf Yui.Proofs.C09Inv Yui.Proofs.C09Run
  Yui.Proofs.C09Laws Yui.Proofs.C09Term Yui.Proofs.C09Total Yui.Proofs.C09Elim.
Require Yui.Model.Lll Yui.Proofs.C10Laws.
Import ListNotations.
Local Open Scope Z_scope.

(* Integer::div_round is modelled twice (Model/Snf.v, total; Model/Lll.v, partial): the same function *)
Lemma Z_div_round_eq a q : q <> 0 -> Yui.Model.Lll.z_div_round a q = Some (Z_div_round a q).
Proof.
  intros Hq. unfold Yui.Model.Lll.z_div_round, Z_div_round. rewrite (proj2 (Z.eqb_neq q 0) Hq).
  destruct (Z.rem a q =? 0); [reflexivity|]. destruct (_ <=? _); cbn [negb]; [|reflexivity].
  destruct (Bool.eqb _ _); reflexivity.
Qed.

(* the error is at most half the divisor *)
Lemma Z_div_round_bound a q : q <> 0 -> 2 * Z.abs (a - q * Z_div_round a q) <= Z.abs q.
Proof.
  intros Hq. rewrite (Z.mul_comm q). apply (Yui.Proofs.C10Laws.z_div_round_some a q), Z_div_round_eq, Hq.
Qed.

(* log2 (N^3) <= 3 log2 N + 2 *)
Lemma log2_cube N : 0 < N -> Z.log2 (N * N * N) <= 3 * Z.log2 N + 2.
Proof.
  intros HN. pose proof (Z.log2_spec N HN) as [_ Hu]. pose proof (Z.log2_nonneg N) as L0.
  set (l := Z.log2 N) in *.
  assert (H3 : N * N * N < 2 ^ (3 * l + 3)).
  { replace (3 * l + 3) with (Z.succ l + Z.succ l + Z.succ l) by lia.
    rewrite !Z.pow_add_r by lia. set (P := 2 ^ Z.succ l) in *.
    assert (0 < P) by (unfold P; apply Z.pow_pos_nonneg; lia).
    fold P in Hu.
    assert (N * N < P * P) by (apply Z.mul_lt_mono_nonneg; lia).
    apply Z.mul_lt_mono_nonneg; nia. }
  assert (0 < N * N * N) by nia.
  apply Z.log2_lt_pow2 in H3; lia.
Qed.

Section QuadTerm.
  Variables t e : Z.
  Variable eisen : bool.
  Local Notation N := (q_norm t e).
  Local Notation qmul := (q_mul t e).

  Hypothesis norm_nonneg : forall x, 0 <= N x.
  Hypothesis norm_zero : forall x, N x = 0 -> x = (0, 0).
  (* the rounding bound *)
  Hypothesis rem_small : forall x y, y <> (0, 0) -> 4 * N (q_rem t e eisen x y) <= 3 * N y.

  Let o := q_ring t e.
  Let eo := q_euc t e eisen.

  Lemma norm_pos x : x <> (0, 0) -> 0 < N x.
  Proof. intros Hx. pose proof (norm_nonneg x). assert (N x <> 0) by (intros E; now apply Hx, norm_zero). lia. Qed.

  Definition cube (x : quad) : Z := N x * N x * N x.

  Lemma cube_step x y : y <> (0, 0) -> q_rem t e eisen x y <> (0, 0) ->
    Z.log2 (cube (q_rem t e eisen x y)) + 1 <= Z.log2 (cube y).
  Proof.
    intros Hy Hr. pose proof (rem_small x y Hy) as H. pose proof (norm_pos _ Hr) as P1. pose proof (norm_pos _ Hy) as P2.
    unfold cube. set (a := N (q_rem t e eisen x y)) in *. set (b := N y) in *.
    apply log2_half; [nia|].
    (* 64 a^3 <= 27 b^3 *)
    assert (H2 : 16 * (a * a) <= 9 * (b * b)) by nia.
    assert (H3 : 64 * (a * a * a) <= 27 * (b * b * b)) by nia.
    nia.
  Qed.

  Lemma qz_true a : ris_zero o a = true <-> a = (0, 0).
  Proof. exact (ris_zero_true o (q_ring_laws t e) a). Qed.

  Lemma gcdx_loop_total fuel : forall x y s0 s1 t0 t1,
    (y = (0, 0) /\ (1 <= fuel)%nat) \/ (y <> (0, 0) /\ (Z.to_nat (Z.log2 (cube y)) + 2 <= fuel)%nat) ->
    exists res, gcdx_loop o eo fuel x y s0 s1 t0 t1 = Some res.
  Proof.
    induction fuel as [|f IH]; intros x y s0 s1 t0 t1 Hf; [destruct Hf as [[_ H]|[_ H]]; lia|].
    cbn [gcdx_loop]. destruct (ris_zero o y) eqn:Z; [eexists; reflexivity|].
    apply (reqb_false o (q_ring_laws t e)) in Z. destruct Hf as [[Hy _]|[_ Hf]]; [contradiction|]. cbv zeta.
    apply IH. cbn [eo q_euc rrem].
    destruct (q_eqb (q_rem t e eisen x y) (0, 0)) eqn:Er.
    - left. split; [|lia]. apply (reqb_eq o (q_ring_laws t e)). exact Er.
    - right. assert (Hr : q_rem t e eisen x y <> (0, 0)) by (apply (reqb_false o (q_ring_laws t e)); exact Er).
      split; [exact Hr|]. pose proof (cube_step x y Z Hr) as H.
      assert (0 <= Z.log2 (cube (q_rem t e eisen x y))) by apply Z.log2_nonneg. lia.
  Qed.

  Lemma q_gcdx_total x y : exists res, q_gcdx t e eisen x y = Some res.
  Proof.
    unfold q_gcdx, generic_gcdx. fold o. fold eo.
    destruct (ris_zero o x && ris_zero o y); [eexists; reflexivity|].
    destruct (divides o eo x y); [eexists; reflexivity|].
    destruct (divides o eo y x) eqn:D2; [eexists; reflexivity|].
    destruct (gcdx_loop_total (q_gcdx_fuel t e x y) x y (rone o) (rzero o) (rzero o) (rone o)) as [[[d s] t'] E].
    - destruct (q_eqb y (0, 0)) eqn:Ey.
      + left. split; [apply (reqb_eq o (q_ring_laws t e)); exact Ey|]. unfold q_gcdx_fuel. lia.
      + right. assert (Hy' : y <> (0, 0)) by (apply (reqb_false o (q_ring_laws t e)); exact Ey).
        split; [exact Hy'|]. unfold q_gcdx_fuel, cube.
        pose proof (norm_pos y Hy') as P. pose proof (log2_cube (N y) P) as H.
        pose proof (Z.log2_nonneg (N x)). pose proof (Z.log2_nonneg (N y)).
        pose proof (Z.log2_nonneg (N y * N y * N y)). lia.
    - rewrite E. destruct (ris_one o (rnunit (q_units t e eisen) d)); eexists; reflexivity.
  Qed.
End QuadTerm.

Section QuadNorm.
  Variables t e : Z.
  Variable eisen : bool.
  Variable pre : option (preproc quad).
  Local Notation N := (q_norm t e).
  Hypothesis norm_nonneg : forall x, 0 <= N x.
  Hypothesis norm_zero : forall x, N x = 0 -> x = (0, 0).

  Lemma quad_norm_laws : norm_laws (quad_dict t e eisen pre).
  Proof.
    constructor; cbn [quad_dict ed_ring ed_euc ed_unit q_euc q_units q_ring rnorm rrem rinv rmul rzero rone].
    - intros a Ha. pose proof (norm_pos t e norm_nonneg norm_zero a Ha) as P.
      apply N2Z.inj_le. rewrite N2Z.inj_abs_N. cbn. lia.
    - intros q d Hd Hq Hu. rewrite q_norm_mul, Zabs2N.inj_mul.
      pose proof (norm_pos t e norm_nonneg norm_zero q Hq) as Pq.
      assert (H1 : N q <> 1).
      { intros E1. destruct (q_inv t e q) as [qi|] eqn:I.
        - apply (Hu qi). now apply q_inv_spec.
        - unfold q_inv in I. rewrite E1 in I. cbn in I. discriminate. }
      assert (2 <= Z.abs_N (N q))%N by (apply N2Z.inj_le; rewrite N2Z.inj_abs_N; cbn; lia).
      nia.
    - intros q b Hb. unfold q_rem. rewrite (q_div_exact t e eisen norm_zero q b Hb).
      apply quad_eq; unfold q_add, q_neg, q_mul; cbn [fst snd]; ring.
    - intros a z Haz. unfold q_inv.
      assert (E : N a * N z = 1).
      { rewrite <- q_norm_mul, Haz. unfold q_norm. cbn [fst snd]. ring. }
      assert (U : Z_is_unit (N a) = true).
      { apply Z_is_unit_iff. destruct (Z.mul_eq_1 _ _ E) as [-> | ->]; [now left|now right]. }
      rewrite U. eexists; reflexivity.
  Qed.
End QuadNorm.

Lemma quad_norm_nonneg (eisen : bool) x : 0 <= q_norm (if eisen then 1 else 0) (-1) x.
Proof. destruct x as [a b]. unfold q_norm. cbn [fst snd]. destruct eisen; nia. Qed.

Lemma gauss_rem_small x y : y <> (0, 0) -> 4 * q_norm 0 (-1) (q_rem 0 (-1) false x y) <= 3 * q_norm 0 (-1) y.
Proof.
  intros Hy. pose proof (norm_pos 0 (-1) (quad_norm_nonneg false) (quad_norm_zero false) y Hy) as P.
  destruct x as [x1 x2], y as [y1 y2]. unfold q_rem, q_div. cbn [fst snd].
  set (nm := q_norm 0 (-1) (y1, y2)) in *.
  set (w := q_mul 0 (-1) (x1, x2) (q_conj 0 (y1, y2))).
  pose proof (Z_div_round_bound (fst w) nm ltac:(lia)) as B1.
  pose proof (Z_div_round_bound (snd w) nm ltac:(lia)) as B2.
  set (q1 := Z_div_round (fst w) nm) in *. set (q2 := Z_div_round (snd w) nm) in *. clearbody q1 q2.
  set (e1 := fst w - nm * q1) in *. set (e2 := snd w - nm * q2) in *.
  assert (Hid : q_norm 0 (-1) (q_add (x1, x2) (q_neg (q_mul 0 (-1) (y1, y2) (q1, q2)))) * nm = e1 * e1 + e2 * e2).
  { unfold nm. rewrite q_rem_norm. fold nm w. unfold e1, e2, q_norm, q_add, q_neg, q_mul. cbn [fst snd]. ring. }
  set (nr := q_norm 0 (-1) (q_add (x1, x2) (q_neg (q_mul 0 (-1) (y1, y2) (q1, q2))))) in *. clearbody nr e1 e2.
  assert (4 * (e1 * e1) <= nm * nm) by nia. assert (4 * (e2 * e2) <= nm * nm) by nia.
  nia.
Qed.

Lemma eisen_rem_small x y : y <> (0, 0) -> 4 * q_norm 1 (-1) (q_rem 1 (-1) true x y) <= 3 * q_norm 1 (-1) y.
Proof.
  intros Hy. pose proof (norm_pos 1 (-1) (quad_norm_nonneg true) (quad_norm_zero true) y Hy) as P.
  destruct x as [x1 x2], y as [y1 y2]. unfold q_rem, q_div. cbn [fst snd].
  set (nm := q_norm 1 (-1) (y1, y2)) in *.
  set (w := q_mul 1 (-1) (x1, x2) (q_conj 1 (y1, y2))).
  pose proof (Z_div_round_bound (fst w + snd w) nm ltac:(lia)) as B1.
  pose proof (Z_div_round_bound (snd w) nm ltac:(lia)) as B2.
  set (q1 := Z_div_round (fst w + snd w) nm) in *. set (q2 := Z_div_round (snd w) nm) in *. clearbody q1 q2.
  set (u := fst w + snd w - nm * q1) in *. set (v := snd w - nm * q2) in *.
  assert (Hid : q_norm 1 (-1) (q_add (x1, x2) (q_neg (q_mul 1 (-1) (y1, y2) (q1 - q2, q2)))) * nm
                = u * u - u * v + v * v).
  { unfold nm. rewrite q_rem_norm. fold nm w. unfold u, v, q_norm, q_add, q_neg, q_mul. cbn [fst snd]. ring. }
  set (nr := q_norm 1 (-1) (q_add (x1, x2) (q_neg (q_mul 1 (-1) (y1, y2) (q1 - q2, q2))))) in *. clearbody nr u v.
  assert (4 * (u * u) <= nm * nm) by nia. assert (4 * (v * v) <= nm * nm) by nia.
  assert (0 <= (nm + 2 * u) * (nm + 2 * v)) by (apply Z.mul_nonneg_nonneg; lia).
  assert (0 <= (nm - 2 * u) * (nm - 2 * v)) by (apply Z.mul_nonneg_nonneg; lia).
  nia.
Qed.

Lemma quad_term_laws (eisen : bool) pre : let t := if eisen then 1 else 0 in
  (forall x y, y <> (0, 0) -> 4 * q_norm t (-1) (q_rem t (-1) eisen x y) <= 3 * q_norm t (-1) y) ->
  norm_laws (quad_dict t (-1) eisen pre) /\ gcdx_total (quad_dict t (-1) eisen pre).
Proof.
  intros t Hrem. split; [apply quad_norm_laws; [exact (quad_norm_nonneg eisen)|exact (quad_norm_zero eisen)]|].
  intros x y. exact (q_gcdx_total t (-1) eisen (quad_norm_nonneg eisen) (quad_norm_zero eisen) Hrem x y).
Qed.

Lemma gauss_term_laws pre : norm_laws (gausspre_dict pre) /\ gcdx_total (gausspre_dict pre).
Proof. exact (quad_term_laws false pre gauss_rem_small). Qed.

Lemma eisen_term_laws pre : norm_laws (eisenpre_dict pre) /\ gcdx_total (eisenpre_dict pre).
Proof. exact (quad_term_laws true pre eisen_rem_small). Qed.

(* closed instances: Z[i] and Z[omega] without preprocessing (GaussInt<i32>, EisenInt<i32> in the implementation) *)
Corollary gauss_snf_total : forall m n (A : lmat quad) f1 f2 f3 f4, wf m n A ->
  exists res, snf gauss_dict (mk_dmat m n A) (f1, f2, f3, f4) = Some res /\ snf_spec gauss_dict m n A f1 f2 f3 f4 res.
Proof.
  destruct (gauss_term_laws None) as [NL GT]. exact (snf_total gauss_dict (gauss_snf_laws None) NL GT I I).
Qed.

Corollary eisen_snf_total : forall m n (A : lmat quad) f1 f2 f3 f4, wf m n A ->
  exists res, snf eisen_dict (mk_dmat m n A) (f1, f2, f3, f4) = Some res /\ snf_spec eisen_dict m n A f1 f2 f3 f4 res.
Proof.
  destruct (eisen_term_laws None) as [NL GT]. exact (snf_total eisen_dict (eisen_snf_laws None) NL GT I I).
Qed.
