(* Proofs about Model/Poly.v: PolyBase over any monomial type with laws and any commutative ring with laws.
   [WF p]: keys distinct, no zero coefficient, every key a valid (reduced) monomial. *)
From Coq Require Import List Bool Arith NArith ZArith Lia Permutation Ring.
Require Import Yui.Base.Ring Yui.Model.Lc Yui.Model.Mono Yui.Model.Poly.
Require Import Yui.Proofs.C16Lc Yui.Proofs.C16Mono.
Import ListNotations.

Section PolyProofs.
  Context {X R : Type} (m : mono_ops X) (o : ring_ops R) (ok : X -> Prop).
  Context (ML : mono_laws m ok).
  Context (L : ring_laws o).

  Add Ring Rp : (ring_theory_of_laws o L).

  Notation "0" := (rzero o).
  Notation "1" := (rone o).
  Infix "+" := (radd o).
  Infix "*" := (rmul o).
  Notation "- x" := (rneg o x).
  Notation poly := (lc X R).
  Notation xeqb := (meqb m).
  Notation coeff := (coeff xeqb o).
  Notation lsum := (@lsum X R o).
  Notation rcoeff := (rcoeff xeqb o).
  Notation delta := (delta xeqb o).
  Notation keys := (@keys X R).
  Infix "**" := (mmul m) (at level 40, left associativity).

  Let xeqb_eq : forall x y, xeqb x y = true <-> x = y := meqb_eq m ok ML.

  Local Notation coeff_from_iter_ := (coeff_from_iter xeqb o xeqb_eq L).
  Local Notation coeff_rcoeff_ := (coeff_rcoeff xeqb o xeqb_eq L).
  Local Notation lsum_add_ := (lsum_add xeqb o xeqb_eq L).
  Local Notation lsum_coeff_ext_ := (lsum_coeff_ext xeqb o xeqb_eq L).
  Local Notation lsum_combine_ := (lsum_combine xeqb o xeqb_eq L).
  Local Notation lsum_cons_ := (lsum_cons o).
  Local Notation lsum_ext_ := (lsum_ext o).
  Local Notation lsum_ext_keys_ := (lsum_ext_keys o).
  Local Notation lsum_from_iter_ := (lsum_from_iter xeqb o xeqb_eq L).
  Local Notation lsum_map_terms_ := (lsum_map_terms o).
  Local Notation lsum_scal_r_ := (lsum_scal_r o L).

  Definition WF (p : poly) : Prop := NoZero o p /\ KeysOk ok p.
  Definition peq (p q : poly) : Prop := forall z, coeff p z = coeff q z.
  Infix "==" := peq (at level 70).

  Lemma peq_refl p : p == p. Proof. intros z; reflexivity. Qed.
  Lemma peq_sym p q : p == q -> q == p. Proof. intros H z. symmetry. apply H. Qed.
  Lemma peq_trans p q r : p == q -> q == r -> p == r. Proof. intros H1 H2 z. exact (eq_trans (H1 z) (H2 z)). Qed.

  Lemma delta_additive' z (g : X -> X) (c : R) : additive o (fun x r => delta z (g x) (c * r)).
  Proof. split; intros; unfold Lc.delta; destruct (xeqb (g x) z); ring. Qed.
  Lemma delta_additive'' z (g : X -> X) (c : R) : additive o (fun x r => delta z (g x) (r * c)).
  Proof. split; intros; unfold Lc.delta; destruct (xeqb (g x) z); ring. Qed.

  Lemma lsum_delta_additive z (F : X -> X -> X) (c : X -> poly) :
    additive o (fun x r => lsum (fun y s => delta z (F x y) (r * s)) (c x)).
  Proof.
    split; intros.
    - transitivity (lsum (fun _ _ => 0) (c x)); [|apply (lsum_zero o L)]. apply lsum_ext_. intros. unfold Lc.delta. destruct (xeqb _ z); ring.
    - rewrite <- (lsum_plus o L). apply lsum_ext_. intros. unfold Lc.delta. destruct (xeqb _ z); ring.
  Qed.
  Lemma inner_additive z c : additive o (fun x r => lsum (fun y s => delta z (x ** y) (r * s)) c).
  Proof. exact (lsum_delta_additive z (mmul m) (fun _ => c)). Qed.

  (* WF is established by constructors and preserved by every operation *)
  Lemma WF_nil : WF [].
  Proof. split; [apply NoZero_nil|apply KeysOk_nil]. Qed.
  Theorem WF_from_iter it : Forall ok (map fst it) -> WF (p_from_iter m o it).
  Proof. intros H. split; [now apply NoZero_from_iter|now apply KeysOk_from_iter]. Qed.
  Theorem WF_from_pair x r : ok x -> WF (p_from_pair m o x r).
  Proof. intros H. apply WF_from_iter. now constructor. Qed.
  Theorem WF_one : WF (p_one m o).
  Proof. apply WF_from_pair, (mone_ok m ok ML). Qed.
  Theorem WF_from_const r : WF (p_from_const m o r).
  Proof. apply WF_from_pair, (mone_ok m ok ML). Qed.
  Theorem WF_add a b : WF a -> WF b -> WF (p_add m o a b).
  Proof. intros [Na Ka] [Nb Kb]. split; [now apply NoZero_add|now apply KeysOk_add]. Qed.
  Theorem WF_sub a b : WF a -> WF b -> WF (p_sub m o a b).
  Proof. intros [Na Ka] [Nb Kb]. split; [now apply NoZero_sub|now apply KeysOk_sub]. Qed.
  Theorem WF_neg a : WF a -> WF (p_neg m o a).
  Proof. intros [Na Ka]. split; [now apply NoZero_neg|now apply KeysOk_neg]. Qed.
  Theorem WF_smul a c : WF a -> WF (p_smul o a c).
  Proof. intros [Na Ka]. split; [now apply NoZero_smul|now apply KeysOk_smul]. Qed.
  Theorem WF_lc_mul a b : WF a -> WF b -> WF (p_lc_mul m o a b).
  Proof.
    intros [Na Ka] [Nb Kb]. split; [now apply NoZero_combine|].
    apply KeysOk_combine; try assumption. apply (mmul_ok m ok ML).
  Qed.
  Theorem WF_mul a b : WF a -> WF b -> WF (p_mul m o a b).
  Proof.
    intros Ha Hb. unfold p_mul. destruct (p_is_one m o b); [assumption|].
    destruct (p_is_const m b); [now apply WF_smul|]. destruct (p_is_const m a); [now apply WF_smul|now apply WF_lc_mul].
  Qed.
  Theorem WF_pow a n : WF a -> WF (p_pow m o a n).
  Proof. intros Ha. induction n as [|n IH]; cbn [p_pow]; [apply WF_one|now apply WF_mul]. Qed.

  Theorem coeff_p_add a b z : WF a -> WF b -> coeff (p_add m o a b) z = coeff a z + coeff b z.
  Proof. intros [Na _] [Nb _]. now apply coeff_add. Qed.
  Theorem coeff_p_sub a b z : WF a -> WF b -> coeff (p_sub m o a b) z = coeff a z + - coeff b z.
  Proof. intros [Na _] [Nb _]. now apply coeff_sub. Qed.
  Theorem coeff_p_neg a z : WF a -> coeff (p_neg m o a) z = - coeff a z.
  Proof. intros [Na _]. now apply coeff_neg. Qed.
  Theorem coeff_p_smul a c z : WF a -> coeff (p_smul o a c) z = coeff a z * c.
  Proof. intros [Na _]. now apply coeff_smul. Qed.
  Theorem coeff_p_lc_mul a b z : WF a -> WF b ->
    coeff (p_lc_mul m o a b) z =
    rsum o (map (fun x => rsum o (map (fun y => if xeqb (x ** y) z then coeff a x * coeff b y else 0) (keys b))) (keys a)).
  Proof. intros [Na _] [Nb _]. now apply coeff_combine. Qed.
  Lemma coeff_lc_mul_terms a b z :
    coeff (p_lc_mul m o a b) z = lsum (fun x r => lsum (fun y s => delta z (x ** y) (r * s)) b) a.
  Proof. apply coeff_combine_terms; assumption. Qed.

  Lemma coeff_single x c z : coeff [(x, c)] z = delta z x c.
  Proof. unfold Lc.coeff, Lc.delta. cbn [get]. now destruct (xeqb x z). Qed.

  (* the special cases of *= agree with the general product *)
  Lemma is_const_cases p : WF p -> p_is_const m p = true -> p = [] \/ exists c, p = [(mone m, c)].
  Proof.
    intros [[Hd _] _] H. unfold p_is_const in H. rewrite forallb_forall in H.
    destruct p as [|[x c] [|[y d] t]]; [now left| |].
    - right. exists c. specialize (H (x, c) (or_introl eq_refl)). cbn in H. unfold mis_one in H. apply xeqb_eq in H. now subst.
    - exfalso. pose proof (H (x, c) (or_introl eq_refl)) as H1. pose proof (H (y, d) (or_intror (or_introl eq_refl))) as H2.
      cbn in H1, H2. unfold mis_one in *. apply xeqb_eq in H1, H2. subst. inversion Hd as [|? ? Hn _]. apply Hn. now left.
  Qed.

  Lemma lc_mul_nil_r a z : coeff (p_lc_mul m o a []) z = 0.
  Proof. rewrite coeff_lc_mul_terms. cbn [Lc.lsum map rsum]. apply lsum_zero; assumption. Qed.
  Lemma lc_mul_nil_l b z : coeff (p_lc_mul m o [] b) z = 0.
  Proof. rewrite coeff_lc_mul_terms. reflexivity. Qed.
  (* a right factor that is [c] times the unit monomial, as a formal sum *)
  Lemma lc_mul_scalar_r a b c z : WF a -> (forall h, additive o h -> lsum h b = h (mone m) c) ->
    coeff (p_lc_mul m o a b) z = coeff a z * c.
  Proof.
    intros [[Hd _] Ka] Hb. rewrite coeff_lc_mul_terms, (coeff_rcoeff_ a z Hd).
    unfold Lc.rcoeff. rewrite <- (lsum_scal_r_). apply (lsum_ext_keys_). intros x r Ix.
    rewrite (Hb (fun y s => delta z (x ** y) (r * s))) by apply delta_additive'.
    unfold KeysOk in Ka. rewrite Forall_forall in Ka.
    rewrite (mmul_comm m ok ML), (mmul_1_l m ok ML) by (auto using (mone_ok m ok ML)).
    apply (delta_scal xeqb o L).
  Qed.
  Lemma lsum_single h x c : lsum h [(x, c)] = h x c.
  Proof. rewrite (lsum_cons_), (lsum_nil o). cbn [fst snd]. ring. Qed.
  Lemma lsum_from_const h c : additive o h -> lsum h (p_from_const m o c) = h (mone m) c.
  Proof. intros A. unfold p_from_const, p_from_pair, from_pair. rewrite (lsum_from_iter_ h) by exact A. apply lsum_single. Qed.

  Lemma lc_mul_const_r a c z : WF a -> coeff (p_lc_mul m o a [(mone m, c)]) z = coeff a z * c.
  Proof. intros Ha. apply lc_mul_scalar_r; [exact Ha|]. intros h _. apply lsum_single. Qed.

  Theorem lc_mul_comm a b : WF a -> WF b -> p_lc_mul m o a b == p_lc_mul m o b a.
  Proof.
    intros [_ Ka] [_ Kb] z. rewrite !coeff_lc_mul_terms. rewrite (lsum_swap o L).
    unfold KeysOk in *. rewrite Forall_forall in Ka, Kb.
    apply (lsum_ext_keys_). intros y s Iy. apply (lsum_ext_keys_). intros x r Ix.
    rewrite (mmul_comm m ok ML x y) by auto. f_equal. ring.
  Qed.

  Lemma const_term_nil : p_const_term m o [] = 0.
  Proof. reflexivity. Qed.
  Lemma const_term_single c : p_const_term m o [(mone m, c)] = c.
  Proof. unfold p_const_term, p_coeff. rewrite coeff_single. unfold Lc.delta. now rewrite (proj2 (xeqb_eq _ _) eq_refl). Qed.

  Theorem p_mul_spec a b : WF a -> WF b -> p_mul m o a b == p_lc_mul m o a b.
  Proof.
    intros Ha Hb z. unfold p_mul.
    destruct (p_is_one m o b) eqn:E1.
    - unfold p_is_one in E1. apply andb_true_iff in E1 as [Ec E1]. apply (reqb_eq o L) in E1.
      destruct (is_const_cases b Hb Ec) as [->|[c ->]].
      + rewrite const_term_nil in E1. rewrite lc_mul_nil_r.
        replace (coeff a z) with (coeff a z * 1) by ring. rewrite <- E1. ring.
      + rewrite const_term_single in E1. subst c. rewrite lc_mul_const_r by assumption. ring.
    - destruct (p_is_const m b) eqn:E2.
      + rewrite coeff_p_smul by assumption. destruct (is_const_cases b Hb E2) as [->|[c ->]].
        * rewrite const_term_nil, lc_mul_nil_r. ring.
        * rewrite const_term_single, lc_mul_const_r by assumption. ring.
      + destruct (p_is_const m a) eqn:E3; [|reflexivity].
        rewrite coeff_p_smul by assumption. destruct (is_const_cases a Ha E3) as [->|[c ->]].
        * rewrite const_term_nil, lc_mul_nil_l. ring.
        * rewrite const_term_single, (lc_mul_comm _ b Ha Hb z), lc_mul_const_r by assumption. ring.
  Qed.

  Theorem coeff_p_mul a b z : WF a -> WF b ->
    coeff (p_mul m o a b) z =
    rsum o (map (fun x => rsum o (map (fun y => if xeqb (x ** y) z then coeff a x * coeff b y else 0) (keys b))) (keys a)).
  Proof. intros Ha Hb. rewrite p_mul_spec by assumption. now apply coeff_p_lc_mul. Qed.

  (* == is the equality the hash map decides *)
  Theorem p_eqb_iff a b : WF a -> WF b -> (p_eqb m o a b = true <-> a == b).
  Proof. intros [Na _] [Nb _]. now apply lc_eqb_iff. Qed.
  Theorem peq_perm a b : WF a -> WF b -> a == b -> Permutation a b.
  Proof. intros [Na _] [Nb _]. now apply (NoZero_perm xeqb o xeqb_eq). Qed.

  Theorem add_comm a b : WF a -> WF b -> p_add m o a b == p_add m o b a.
  Proof. intros Ha Hb z. rewrite !coeff_p_add by assumption. ring. Qed.
  Theorem add_assoc a b c : WF a -> WF b -> WF c -> p_add m o a (p_add m o b c) == p_add m o (p_add m o a b) c.
  Proof. intros Ha Hb Hc z. rewrite !coeff_p_add by (try apply WF_add; assumption). ring. Qed.
  Theorem add_0_l a : WF a -> p_add m o [] a == a.
  Proof. intros Ha z. rewrite coeff_p_add by (assumption || apply WF_nil). cbn. ring. Qed.
  Theorem add_neg_r a : WF a -> p_add m o a (p_neg m o a) = [] /\ p_sub m o a a = [].
  Proof.
    intros Ha.
    assert (Z : forall p, WF p -> (forall z, coeff p z = 0) -> p = []).
    { intros p [Np _] Hz. apply ((is_zero_iff xeqb o xeqb_eq) p Np) in Hz. now destruct p. }
    split; apply Z.
    - apply WF_add; [assumption|now apply WF_neg].
    - intros z. rewrite coeff_p_add, coeff_p_neg by (try apply WF_neg; assumption). ring.
    - now apply WF_sub.
    - intros z. rewrite coeff_p_sub by assumption. ring.
  Qed.
  Theorem sub_add_neg a b : WF a -> WF b -> p_sub m o a b == p_add m o a (p_neg m o b).
  Proof. intros Ha Hb z. rewrite coeff_p_sub, coeff_p_add, coeff_p_neg by (try apply WF_neg; assumption). ring. Qed.

  Theorem lc_mul_assoc a b c : WF a -> WF b -> WF c ->
    p_lc_mul m o a (p_lc_mul m o b c) == p_lc_mul m o (p_lc_mul m o a b) c.
  Proof.
    intros [_ Ka] [_ Kb] [_ Kc] z. rewrite !coeff_lc_mul_terms.
    unfold p_lc_mul at 2.
    rewrite (lsum_combine_ (fun w t => lsum (fun y' u => delta z (w ** y') (t * u)) c)).
    2:{ apply inner_additive. }
    unfold KeysOk in *. rewrite Forall_forall in Ka, Kb, Kc.
    apply (lsum_ext_keys_). intros x r Ix.
    unfold p_lc_mul. rewrite (lsum_combine_ (fun w t => delta z (x ** w) (r * t))) by apply delta_additive'.
    apply (lsum_ext_keys_). intros y s Iy. apply (lsum_ext_keys_). intros y' u Iy'.
    rewrite (mmul_assoc m ok ML) by auto. f_equal. ring.
  Qed.

  Theorem lc_mul_add_distr_r a b c : WF a -> WF b -> WF c ->
    p_lc_mul m o (p_add m o a b) c == p_add m o (p_lc_mul m o a c) (p_lc_mul m o b c).
  Proof.
    intros Ha Hb Hc z. rewrite coeff_p_add by now apply WF_lc_mul. rewrite !coeff_lc_mul_terms.
    unfold p_add. apply (lsum_add_). apply inner_additive.
  Qed.

  Theorem lc_mul_1_r a : WF a -> p_lc_mul m o a (p_one m o) == a.
  Proof.
    intros Ha z. transitivity (coeff a z * 1); [|ring].
    apply lc_mul_scalar_r; [exact Ha|]. intros h. apply (lsum_from_const h 1).
  Qed.

  (* a product only depends on the coefficient functions of its factors *)
  Lemma lc_mul_congr a a' b b' : WF a -> WF a' -> WF b -> WF b' -> a == a' -> b == b' ->
    p_lc_mul m o a b == p_lc_mul m o a' b'.
  Proof.
    intros [Na _] [Na' _] [Nb _] [Nb' _] Ea Eb z. rewrite !coeff_lc_mul_terms.
    rewrite (lsum_coeff_ext_ _ a a') by assumption.
    apply (lsum_ext_). intros x r. now apply (lsum_coeff_ext_).
  Qed.

  Theorem mul_congr a a' b b' : WF a -> WF a' -> WF b -> WF b' -> a == a' -> b == b' -> p_mul m o a b == p_mul m o a' b'.
  Proof.
    intros Ha Ha' Hb Hb' Ea Eb. eapply peq_trans; [now apply p_mul_spec|].
    eapply peq_trans; [|apply peq_sym; now apply p_mul_spec]. now apply lc_mul_congr.
  Qed.

  Theorem mul_comm a b : WF a -> WF b -> p_mul m o a b == p_mul m o b a.
  Proof.
    intros Ha Hb. eapply peq_trans; [now apply p_mul_spec|]. eapply peq_trans; [now apply lc_mul_comm|].
    apply peq_sym. now apply p_mul_spec.
  Qed.
  Theorem mul_assoc a b c : WF a -> WF b -> WF c -> p_mul m o a (p_mul m o b c) == p_mul m o (p_mul m o a b) c.
  Proof.
    intros Ha Hb Hc.
    eapply peq_trans; [apply p_mul_spec; [assumption|now apply WF_mul]|].
    eapply peq_trans; [apply (lc_mul_congr a a (p_mul m o b c) (p_lc_mul m o b c)); try assumption;
                        [now apply WF_mul|now apply WF_lc_mul|apply peq_refl|now apply p_mul_spec]|].
    eapply peq_trans; [now apply lc_mul_assoc|]. apply peq_sym.
    eapply peq_trans; [apply p_mul_spec; [now apply WF_mul|assumption]|].
    apply lc_mul_congr; try assumption; [now apply WF_mul|now apply WF_lc_mul|now apply p_mul_spec|apply peq_refl].
  Qed.
  Theorem mul_add_distr_r a b c : WF a -> WF b -> WF c ->
    p_mul m o (p_add m o a b) c == p_add m o (p_mul m o a c) (p_mul m o b c).
  Proof.
    intros Ha Hb Hc. eapply peq_trans; [apply p_mul_spec; [now apply WF_add|assumption]|].
    eapply peq_trans; [now apply lc_mul_add_distr_r|]. intros z.
    rewrite !coeff_p_add by (try apply WF_lc_mul; try apply WF_mul; assumption).
    now rewrite (p_mul_spec a c Ha Hc z), (p_mul_spec b c Hb Hc z).
  Qed.
  Theorem mul_1_r a : WF a -> p_mul m o a (p_one m o) == a.
  Proof. intros Ha. eapply peq_trans; [apply p_mul_spec; [assumption|apply WF_one]|]. now apply lc_mul_1_r. Qed.
  Theorem smul_mul_const a c : WF a -> p_smul o a c == p_mul m o a (p_from_const m o c).
  Proof.
    intros Ha z. rewrite coeff_p_smul, p_mul_spec by (assumption || apply WF_from_const).
    symmetry. apply lc_mul_scalar_r; [exact Ha|]. intros h. apply lsum_from_const.
  Qed.

  Theorem pow_S a n : WF a -> p_pow m o a (S n) == p_lc_mul m o (p_pow m o a n) a.
  Proof. intros Ha. cbn [p_pow]. apply p_mul_spec; [now apply WF_pow|assumption]. Qed.

  Theorem p_is_zero_iff a : WF a -> (p_is_zero a = true <-> forall z, coeff a z = 0).
  Proof. intros [Na _]. now apply is_zero_iff. Qed.
  Theorem p_nterms_support a s : WF a -> NoDup s -> (forall x, In x s <-> coeff a x <> 0) -> p_nterms a = length s.
  Proof. intros [Na _]. now apply nterms_support. Qed.
  Theorem p_support a : WF a -> NoDup (keys a) /\ (forall x, In x (keys a) <-> coeff a x <> 0) /\ Forall ok (keys a)
                                /\ p_nterms a = length (keys a).
  Proof.
    intros [Na Ka]. split; [apply Na|]. split; [now apply support_keys|]. split; [exact Ka|].
    unfold p_nterms, nterms, Lc.keys. now rewrite map_length.
  Qed.

  (* max_by over the stored terms, for any total order on the valid monomials: the result is a stored
     term and every other monomial of the support lies strictly below it *)
  Lemma max_term c t r : ord_laws ok c -> WF (t :: r) ->
    let res := fold_left (maxstep fst c) r t in
    snd res = coeff (t :: r) (fst res) /\ coeff (t :: r) (fst res) <> 0 /\
    forall y, coeff (t :: r) y <> 0 -> y <> fst res -> c y (fst res) = Lt.
  Proof.
    intros CO [Na Ka]. apply KeysOk_terms in Ka. inversion Ka as [|? ? Kt Kr]; subst.
    destruct (max_fold fst ok c CO r t Kt Kr) as (Hres & I1 & I2). cbn zeta. set (res := fold_left _ r t) in *.
    destruct CO as (OE & _ & _). rewrite Forall_forall in Ka. destruct res as [x cx]. cbn [fst snd] in *.
    pose proof (proj1 (in_terms_iff xeqb o xeqb_eq (t :: r) x cx Na) I1) as [Ec Nc].
    split; [now rewrite Ec|]. split; [now rewrite Ec|].
    intros y Hy Hyx. apply (support_keys xeqb o xeqb_eq _ Na) in Hy. unfold Lc.keys in Hy.
    apply in_map_iff in Hy as [s [<- Is]]. specialize (I2 s Is).
    destruct (c (fst s) x) eqn:C; [|reflexivity|congruence]. apply OE in C; [contradiction|now apply Ka|assumption].
  Qed.

  (* lead_term: the grlex-maximal element of the support *)
  Theorem lead_term_spec a : WF a -> a <> [] ->
    let x := p_lead_mono m o a in
    p_lead_coeff m o a = coeff a x /\ coeff a x <> 0 /\
    forall y, coeff a y <> 0 -> y <> x -> mcmp_grlex m y x = Lt.
  Proof.
    intros Ha Hne. destruct a as [|t r]; [congruence|].
    exact (max_term (mcmp_grlex m) t r (mgrlex_ord m ok ML) Ha).
  Qed.

  Theorem lead_term_zero : p_lead_term m o [] = (mone m, 0).
  Proof. reflexivity. Qed.

  Section EvalHom.
    Context (ev : X -> R).
    Context (ev_one : ev (mone m) = 1).
    Context (ev_mul : forall x y, ok x -> ok y -> ev (x ** y) = ev x * ev y).

    Lemma eval_lsum p : p_eval o ev p = lsum (fun x r => r * ev x) p.
    Proof.
      unfold p_eval. assert (G : forall acc, fold_left (fun acc e0 => acc + snd e0 * ev (fst e0)) p acc
                                             = acc + lsum (fun x r => r * ev x) p).
      { induction p as [|e0 p IH]; intros acc; cbn [fold_left]; [cbn; ring|]. rewrite IH, (lsum_cons_). ring. }
      rewrite G. ring.
    Qed.
    Lemma ev_additive : additive o (fun x r => r * ev x).
    Proof. split; intros; ring. Qed.

    Theorem eval_add a b : p_eval o ev (p_add m o a b) = p_eval o ev a + p_eval o ev b.
    Proof. rewrite !eval_lsum. apply (lsum_add_), ev_additive. Qed.
    Theorem eval_sub a b : p_eval o ev (p_sub m o a b) = p_eval o ev a + - p_eval o ev b.
    Proof. rewrite !eval_lsum. apply (lsum_sub xeqb o xeqb_eq L), ev_additive. Qed.
    Theorem eval_neg a : p_eval o ev (p_neg m o a) = - p_eval o ev a.
    Proof. rewrite !eval_lsum. apply (lsum_neg xeqb o xeqb_eq L), ev_additive. Qed.
    Theorem eval_smul a c : p_eval o ev (p_smul o a c) = p_eval o ev a * c.
    Proof.
      rewrite !eval_lsum. unfold p_smul. rewrite (lsum_smul o L) by apply ev_additive.
      rewrite <- (lsum_scal_r_). apply (lsum_ext_). intros. ring.
    Qed.
    Theorem eval_const c : p_eval o ev (p_from_const m o c) = c.
    Proof. rewrite eval_lsum, lsum_from_const, ev_one by apply ev_additive. ring. Qed.
    Theorem eval_one : p_eval o ev (p_one m o) = 1.
    Proof. exact (eval_const 1). Qed.
    Theorem eval_lc_mul a b : WF a -> WF b -> p_eval o ev (p_lc_mul m o a b) = p_eval o ev a * p_eval o ev b.
    Proof.
      intros [_ Ka] [_ Kb]. rewrite !eval_lsum. unfold p_lc_mul.
      rewrite (lsum_combine_) by apply ev_additive.
      rewrite <- (lsum_scal_r_). unfold KeysOk in *. rewrite Forall_forall in Ka, Kb.
      apply (lsum_ext_keys_). intros x r Ix. rewrite <- (lsum_scal_l o L).
      apply (lsum_ext_keys_). intros y s Iy. rewrite ev_mul by auto. ring.
    Qed.
    Theorem eval_congr a b : WF a -> WF b -> a == b -> p_eval o ev a = p_eval o ev b.
    Proof. intros [Na _] [Nb _] E. rewrite !eval_lsum. now apply (lsum_coeff_ext_). Qed.
    Theorem eval_mul a b : WF a -> WF b -> p_eval o ev (p_mul m o a b) = p_eval o ev a * p_eval o ev b.
    Proof.
      intros Ha Hb. rewrite <- eval_lc_mul by assumption.
      apply eval_congr; [now apply WF_mul|now apply WF_lc_mul|now apply p_mul_spec].
    Qed.
    Theorem eval_pow a n : WF a -> p_eval o ev (p_pow m o a n) = npow o (p_eval o ev a) n.
    Proof.
      intros Ha. induction n as [|n IH]; cbn [p_pow npow]; [apply eval_one|].
      rewrite eval_mul, IH by (try apply WF_pow; assumption). ring.
    Qed.
  End EvalHom.

  (* straight-line programs: every register stays WF and denotes the formal expression *)
  Definition rel (p r : poly) : Prop := WF p /\ forall z, coeff p z = rcoeff r z.

  Lemma rel_self p : WF p -> rel p p.
  Proof. intros H. split; [assumption|]. intros z. apply (coeff_rcoeff_). apply H. Qed.

  Lemma rel_lsum h p r : additive o h -> rel p r -> lsum h p = lsum h r.
  Proof.
    intros A [[[Hd _] _] E]. apply (lsum_rcoeff_ext xeqb o xeqb_eq L); [assumption|]. intros x.
    now rewrite <- E, (coeff_rcoeff_).
  Qed.

  Definition op_ok (p : op (X:=X) (R:=R)) : Prop :=
    match p with
    | OSet _ it => Forall ok (map fst it)
    | OMapGens _ _ f => forall x, ok x -> ok (f x)
    | OApply _ _ f => forall x, ok x -> Forall ok (map fst (f x))
    | _ => True
    end.

  Lemma rel_nil : rel [] [].
  Proof. apply rel_self, WF_nil. Qed.

  Lemma rel_mul a ra b rb : rel a ra -> rel b rb -> rel (p_lc_mul m o a b) (raw_mul o (mmul m) ra rb).
  Proof.
    intros Ha Hb. split; [apply WF_lc_mul; [apply Ha|apply Hb]|]. intros z.
    rewrite coeff_lc_mul_terms. unfold Lc.rcoeff. rewrite (lsum_raw_mul o L).
    rewrite (rel_lsum _ a ra (inner_additive z b) Ha).
    apply (lsum_ext_). intros x r. apply (rel_lsum _ b rb); [apply delta_additive'|assumption].
  Qed.

  Lemma rel_peq a a' r : WF a' -> a' == a -> rel a r -> rel a' r.
  Proof. intros H E [_ Hr]. split; [assumption|]. intros z. now rewrite E. Qed.

  Lemma rel_pmul a ra b rb : rel a ra -> rel b rb -> rel (p_mul m o a b) (raw_mul o (mmul m) ra rb).
  Proof.
    intros Ha Hb. apply (rel_peq (p_lc_mul m o a b)); [apply WF_mul; [apply Ha|apply Hb]| |now apply rel_mul].
    apply p_mul_spec; [apply Ha|apply Hb].
  Qed.

  Lemma rel_one : rel (p_one m o) [(mone m, 1)].
  Proof.
    split; [apply WF_one|]. intros z. unfold p_one, p_from_pair, from_pair. apply (coeff_from_iter_).
  Qed.

  Lemma rel_pow a ra n : rel a ra -> rel (p_pow m o a n) (raw_pow m o ra n).
  Proof. intros Ha. induction n as [|n IH]; cbn [p_pow raw_pow]; [apply rel_one|now apply rel_pmul]. Qed.

  Lemma rcoeff_app a b z : rcoeff (a ++ b) z = rcoeff a z + rcoeff b z.
  Proof. apply (lsum_app o L). Qed.
  Lemma rcoeff_raw_neg a z : rcoeff (raw_neg o a) z = - rcoeff a z.
  Proof.
    unfold Lc.rcoeff, raw_neg. rewrite (lsum_map_terms_). cbn [fst snd]. rewrite <- (lsum_opp o L).
    apply (lsum_ext_). intros. unfold Lc.delta. destruct (xeqb x z); ring.
  Qed.
  Lemma rcoeff_raw_smul a c z : rcoeff (raw_smul o a c) z = rcoeff a z * c.
  Proof.
    unfold Lc.rcoeff, raw_smul. rewrite (lsum_map_terms_). cbn [fst snd]. rewrite <- (lsum_scal_r_).
    apply (lsum_ext_). intros. apply (delta_scal xeqb o L).
  Qed.

  Lemma lsum_filter_raw h (p : X -> bool) (l : poly) :
    lsum (fun x r => if p x then h x r else 0) l = lsum h (filter (fun e => p (fst e)) l).
  Proof.
    induction l as [|e0 l IHl]; [reflexivity|]. cbn [filter]. rewrite lsum_cons_.
    destruct (p (fst e0)); rewrite ?lsum_cons_, IHl; ring.
  Qed.

  Lemma rel_rd regs rregs i : Forall2 rel regs rregs -> rel (rd regs i) (rd rregs i).
  Proof.
    intros H. revert i. induction H as [|p r ps rs Hp _ IH]; intros [|i]; cbn; try apply rel_nil; [assumption|apply IH].
  Qed.
  Lemma rel_wr regs rregs i p r : Forall2 rel regs rregs -> rel p r -> Forall2 rel (wr regs i p) (wr rregs i r).
  Proof.
    intros H Hp. revert i. induction H as [|p0 r0 ps rs Hp0 Hps IH]; intros [|i]; cbn; constructor; auto.
  Qed.

  Lemma rel_eval_op regs rregs p : op_ok p -> Forall2 rel regs rregs ->
    rel (eval_op m o regs p) (raw_eval_op m o rregs p).
  Proof.
    intros Hok H. destruct p as [d it|d a b|d a b|d a|d a c|d a b|d a b|d a n|d a f|d a f|d a f];
      cbn [eval_op raw_eval_op]; cbn [op_ok] in Hok;
      try (pose proof (rel_rd regs rregs a H) as Ha); try (pose proof (rel_rd regs rregs b H) as Hb).
    - split; [now apply WF_from_iter|]. intros z. apply (coeff_from_iter_).
    - split; [apply WF_add; [apply Ha|apply Hb]|]. intros z.
      rewrite coeff_p_add, rcoeff_app by (apply Ha || apply Hb). now rewrite (proj2 Ha), (proj2 Hb).
    - split; [apply WF_sub; [apply Ha|apply Hb]|]. intros z.
      rewrite coeff_p_sub, rcoeff_app, rcoeff_raw_neg by (apply Ha || apply Hb). now rewrite (proj2 Ha), (proj2 Hb).
    - split; [apply WF_neg; apply Ha|]. intros z. rewrite coeff_p_neg, rcoeff_raw_neg by apply Ha. now rewrite (proj2 Ha).
    - split; [apply WF_smul; apply Ha|]. intros z. rewrite coeff_p_smul, rcoeff_raw_smul by apply Ha. now rewrite (proj2 Ha).
    - now apply rel_pmul.
    - now apply rel_mul.
    - now apply rel_pow.
    - split.
      + split; [apply NoZero_map_gens; assumption|]. apply KeysOk_map_gens; [assumption|apply Ha].
      + intros z. rewrite (coeff_map_gens xeqb o xeqb_eq L). unfold Lc.rcoeff. rewrite (lsum_map_terms_). cbn [fst snd].
        apply (rel_lsum (fun x r => delta z (f x) r)); [|assumption].
        split; intros; unfold Lc.delta; destruct (xeqb (f x) z); ring.
    - split.
      + split; [apply NoZero_filter_gens; assumption|]. apply KeysOk_filter_gens; apply Ha.
      + intros z. rewrite (coeff_rcoeff_) by (apply NoZero_filter_gens; assumption).
        unfold Lc.rcoeff. rewrite (lsum_filter_gens xeqb o xeqb_eq L) by (apply delta_additive; assumption).
        assert (A : additive o (fun x r => if f x then delta z x r else 0))
          by (split; intros; unfold Lc.delta; destruct (f x), (xeqb x z); ring).
        rewrite (rel_lsum (fun x r => if f x then delta z x r else 0) _ _ A Ha).
        apply lsum_filter_raw.
    - split.
      + split; [apply NoZero_apply; assumption|]. apply KeysOk_apply; [|apply Ha].
        intros x Hx. now apply KeysOk_from_iter, Hok.
      + intros z. rewrite (coeff_apply xeqb o xeqb_eq L). unfold Lc.rcoeff. rewrite (lsum_flat_map o L).
        pose proof (lsum_delta_additive z (fun _ y => y) (fun x => p_from_iter m o (f x))) as A.
        rewrite (rel_lsum _ _ _ A Ha).
        apply (lsum_ext_). intros x r. cbn [fst snd]. rewrite (lsum_map_terms_). cbn [fst snd].
        unfold p_from_iter. apply (lsum_from_iter_), (delta_additive' z (fun y => y) r).
  Qed.

  Theorem run_refines ops regs rregs : Forall op_ok ops -> Forall2 rel regs rregs ->
    Forall2 rel (run m o ops regs) (raw_run m o ops rregs).
  Proof.
    intros Hops. revert regs rregs. induction Hops as [|p ops Hp _ IH]; intros regs rregs H; cbn; [assumption|].
    apply IH. unfold step, raw_step. replace (dest (X:=X) (R:=R) p) with (dest p) by reflexivity.
    apply rel_wr; [assumption|now apply rel_eval_op].
  Qed.

  Theorem histories ops regs : Forall op_ok ops -> Forall WF regs ->
    Forall2 (fun p r => WF p /\ forall z, coeff p z = rcoeff r z) (run m o ops regs) (raw_run m o ops regs).
  Proof.
    intros Hops Hregs. apply run_refines; [assumption|].
    induction Hregs as [|p ps Hp _ IH]; constructor; [now apply rel_self|assumption].
  Qed.
End PolyProofs.
