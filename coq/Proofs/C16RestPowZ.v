(* Executable model of Pow<i32 / i64 / isize> for &PolyBase (yui/src/types/poly/poly.rs, impl_pow_signed):
     if n >= 0 { self.pow(n as usize) } else { let inv = self.inv().unwrap(); (&inv).pow(-n as usize) }
   The unwrap of a None is a panic = None.  (`-n` overflows only for n = MIN of the machine type: outside
   the model, exponents are unbounded.)  Definitions only (extracted by Extract/ExtractC16.v); the theorems are
   in Proofs/C16RestUnit.v. *)
From Coq Require Import List ZArith.
Require Import Yui.Base.Ring Yui.Model.Lc Yui.Model.Mono Yui.Model.Poly.

Definition p_pow_z {X R} (m : mono_ops X) (o : ring_ops R) (u : unit_ops R) (a : lc X R) (n : Z) : option (lc X R) :=
  if (0 <=? n)%Z then Some (p_pow m o a (Z.to_nat n))
  else obind (p_inv m o u a) (fun i => Some (p_pow m o i (Z.to_nat (- n)))).
