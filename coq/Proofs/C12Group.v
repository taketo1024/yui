(* group_cols of Model/Decomp.v: the classes computed by the union-find loop are the equivalence closure of
   "the two columns share a stored row", whatever the order in which the pairs are visited and however the
   is_same tests interleave with other workers' unions. *)
From Coq Require Import Arith List Bool Lia.
Require Import Yui.Base.Ring Yui.Model.Triang Yui.Model.Decomp Yui.Proofs.C12Sparse Yui.Proofs.C12UnionFind.
Import ListNotations.

Section Group.
  Context {R : Type} (a : spmat R) (cs : list nat).
  Let l := length cs.

  Definition isect_idx (i j : nat) : bool :=
    match nth_error cs i, nth_error cs j with
    | Some ci, Some cj => col_intersects a ci cj
    | _, _ => false
    end.

  (* the edges contributed by a list of visited pairs *)
  Definition Eis (ps : list (nat * nat)) : nat -> nat -> Prop :=
    fun x y => In (x, y) ps /\ x < l /\ y < l /\ isect_idx x y = true.

  Lemma Eis_bounded ps : bounded l (Eis ps).
  Proof. intros x y [_ [Hx [Hy _]]]. now split. Qed.

  Lemma Eis_snoc_yes ps i j : i < l -> j < l -> isect_idx i j = true ->
    forall x y, add_edge (Eis ps) i j x y <-> Eis (ps ++ [(i, j)]) x y.
  Proof.
    intros Hi Hj His x y. unfold add_edge, Eis. rewrite in_app_iff. cbn [In]. split.
    - intros [[H1 H2]|[-> ->]]; [tauto|]. split; [right; now left|]. now repeat split.
    - intros [[H|[H|[]]] H2]; [left; tauto|]. injection H as <- <-. now right.
  Qed.

  Lemma Eis_snoc_no ps i j : isect_idx i j = false -> forall x y, Eis ps x y <-> Eis (ps ++ [(i, j)]) x y.
  Proof.
    intros His x y. unfold Eis. rewrite in_app_iff. cbn [In]. split.
    - intros [H1 H2]. tauto.
    - intros [[H|[H|[]]] H2]; [tauto|]. injection H as <- <-. destruct H2 as [_ [_ H2]]. congruence.
  Qed.

  Definition tr_pair (e : nat * nat * bool) : nat * nat := fst e.

  (* one union slot *)
  Lemma step_na_inv p ps e p' : uf_ok p -> length p = l -> rel_eq l p (Eis ps) ->
    fst (tr_pair e) < l -> snd (tr_pair e) < l ->
    group_step_na a cs p e = Some p' ->
    uf_ok p' /\ length p' = l /\ rel_eq l p' (Eis (ps ++ [tr_pair e])).
  Proof.
    destruct e as [[i j] skip]. cbn [tr_pair fst snd]. intros Hok Hl Hrel Hi Hj. unfold group_step_na.
    destruct skip.
    - rewrite (is_same_spec p i j Hok) by lia. cbn [obind].
      destruct (Nat.eqb_spec (rootv p i) (rootv p j)) as [Es|Es]; [|discriminate].
      intros H. injection H as <-. split; [assumption|]. split; [assumption|].
      destruct (isect_idx i j) eqn:His.
      + apply (rel_eq_ext l p (add_edge (Eis ps) i j)); [now apply Eis_snoc_yes|].
        now apply rel_eq_redundant.
      + apply (rel_eq_ext l p (Eis ps)); [now apply Eis_snoc_no|assumption].
    - assert (Hci : nth_error cs i = Some (nth i cs 0)) by (apply nth_error_pget; exact Hi).
      assert (Hcj : nth_error cs j = Some (nth j cs 0)) by (apply nth_error_pget; exact Hj).
      rewrite Hci, Hcj. cbn [obind].
      assert (His : isect_idx i j = col_intersects a (nth i cs 0) (nth j cs 0)) by (unfold isect_idx; now rewrite Hci, Hcj).
      rewrite <- His. destruct (isect_idx i j) eqn:Hb.
      + destruct (union_spec p i j Hok) as [p'' [Eu [Hok' [Hl' Hm]]]]; try lia.
        rewrite Eu. intros H. injection H as <-. split; [assumption|]. split; [lia|].
        apply (rel_eq_ext l p'' (add_edge (Eis ps) i j)); [now apply Eis_snoc_yes|].
        apply (rel_eq_union l p p'' (Eis ps) i j Hl (Eis_bounded ps) Hi Hj Hrel).
        intros x y Hx Hy. apply Hm; lia.
      + intros H. injection H as <-. split; [assumption|]. split; [assumption|].
        apply (rel_eq_ext l p (Eis ps)); [now apply Eis_snoc_no|assumption].
  Qed.

  Lemma run_na_inv : forall trace p ps p', uf_ok p -> length p = l -> rel_eq l p (Eis ps) ->
    (forall e, In e trace -> fst (tr_pair e) < l /\ snd (tr_pair e) < l) ->
    ofold (group_step_na a cs) trace p = Some p' ->
    uf_ok p' /\ length p' = l /\ rel_eq l p' (Eis (ps ++ map tr_pair trace)).
  Proof.
    induction trace as [|e trace IH]; intros p ps p' Hok Hl Hrel Hb H; cbn [ofold] in H.
    - injection H as <-. cbn [map]. now rewrite app_nil_r.
    - apply obind_some in H. destruct H as [p1 [E1 H]].
      destruct (Hb e (or_introl eq_refl)) as [Hi Hj].
      destruct (step_na_inv p ps e p1 Hok Hl Hrel Hi Hj E1) as [Hok1 [Hl1 Hrel1]].
      destruct (IH p1 (ps ++ [tr_pair e]) p' Hok1 Hl1 Hrel1 (fun e' He' => Hb e' (or_intror He')) H) as [H1 [H2 H3]].
      split; [assumption|]. split; [assumption|]. cbn [map]. now rewrite <- app_assoc in H3.
  Qed.

  (* the atomic step (check and union in one critical section, as in the single-threaded build) is the
     instance of the general step whose skip flag is the current value of is_same *)
  Lemma step_atomic p i j : uf_ok p -> length p = l -> i < l -> j < l ->
    group_step a cs p (i, j) = group_step_na a cs p (i, j, rootv p i =? rootv p j).
  Proof.
    intros Hok Hl Hi Hj. unfold group_step, group_step_na. rewrite (is_same_spec p i j Hok) by lia. cbn [obind].
    destruct (rootv p i =? rootv p j); reflexivity.
  Qed.

  Lemma step_atomic_total p i j : uf_ok p -> length p = l -> i < l -> j < l ->
    exists p', group_step a cs p (i, j) = Some p'.
  Proof.
    intros Hok Hl Hi Hj. unfold group_step. rewrite (is_same_spec p i j Hok) by lia. cbn [obind].
    destruct (rootv p i =? rootv p j); [now exists p|].
    rewrite (nth_error_pget cs i Hi), (nth_error_pget cs j Hj). cbn [obind].
    destruct (col_intersects _ _ _); [|now exists p].
    destruct (union_spec p i j Hok) as [p' [E _]]; try lia. now exists p'.
  Qed.

  Lemma run_atomic_inv : forall pairs p ps, uf_ok p -> length p = l -> rel_eq l p (Eis ps) ->
    (forall e, In e pairs -> fst e < l /\ snd e < l) ->
    exists p', ofold (group_step a cs) pairs p = Some p' /\
      uf_ok p' /\ length p' = l /\ rel_eq l p' (Eis (ps ++ pairs)).
  Proof.
    induction pairs as [|[i j] pairs IH]; intros p ps Hok Hl Hrel Hb; cbn [ofold].
    - exists p. rewrite app_nil_r. auto.
    - destruct (Hb (i, j) (or_introl eq_refl)) as [Hi Hj]. cbn [fst snd] in Hi, Hj.
      destruct (step_atomic_total p i j Hok Hl Hi Hj) as [p1 E1]. rewrite E1. cbn [obind].
      rewrite (step_atomic p i j Hok Hl Hi Hj) in E1.
      destruct (step_na_inv p ps (i, j, rootv p i =? rootv p j) p1 Hok Hl Hrel Hi Hj E1) as [Hok1 [Hl1 Hrel1]].
      cbn [tr_pair fst] in Hrel1.
      destruct (IH p1 (ps ++ [(i, j)]) Hok1 Hl1 Hrel1 (fun e' He' => Hb e' (or_intror He'))) as [p' [E' [H1 [H2 H3]]]].
      exists p'. split; [exact E'|]. split; [assumption|]. split; [assumption|]. now rewrite <- app_assoc in H3.
  Qed.

  Lemma rel_eq_new : rel_eq l (uf_new l) (Eis []).
  Proof.
    destruct (uf_new_ok l) as [_ [_ Hr]]. intros x y Hx Hy. unfold same. rewrite (Hr x Hx), (Hr y Hy). split.
    - intros ->. apply conn_refl.
    - intros C. assert (G : forall a0 b, conn (Eis []) a0 b -> a0 = b).
      { intros a0 b C'. induction C' as [| ? ? [[] _] | |]; congruence. }
      now apply G.
  Qed.

  (* two runs that visited the same set of pairs end with the same roots *)
  Lemma same_pairs_same_roots p1 p2 ps1 ps2 :
    uf_ok p1 -> uf_ok p2 -> length p1 = l -> length p2 = l ->
    rel_eq l p1 (Eis ps1) -> rel_eq l p2 (Eis ps2) ->
    (forall e, In e ps1 <-> In e ps2) ->
    uf_group p1 = uf_group p2.
  Proof.
    intros Hok1 Hok2 Hl1 Hl2 Hr1 Hr2 Hin. apply uf_group_ext; [assumption|assumption|lia|].
    rewrite Hl1. apply (same_roots l p1 p2 Hok1 Hok2 Hl1 Hl2).
    intros x y Hx Hy. rewrite (Hr1 x y Hx Hy), (Hr2 x y Hx Hy).
    split; apply conn_mono; intros a0 b [H1 H2]; apply conn_step; (split; [now apply Hin|exact H2]).
  Qed.
End Group.

Lemma in_all_pairs l i j : In (i, j) (all_pairs l) <-> i < j /\ j < l.
Proof.
  unfold all_pairs. rewrite in_flat_map. split.
  - intros [i0 [Hi0 H]]. apply in_map_iff in H. destruct H as [j0 [E Hj0]]. injection E as -> ->.
    apply in_seq in Hi0, Hj0. lia.
  - intros [Hij Hj]. exists i. split; [apply in_seq; lia|]. apply in_map_iff. exists j. split; [reflexivity|].
    apply in_seq. lia.
Qed.

Section GroupCols.
  Context {R : Type} (a : spmat R).

  (* any visiting order of the pairs (one worker or many) gives the groups of the sequential loop *)
  Theorem group_cols_sched_indep (pairs : nat -> list (nat * nat)) :
    (forall e, In e (pairs (length (nonempty_cols a))) <-> In e (all_pairs (length (nonempty_cols a)))) ->
    group_cols_sched a pairs = group_cols a.
  Proof.
    intros Hin. unfold group_cols, group_cols_sched.
    set (cs := nonempty_cols a) in *. set (l := length cs) in *.
    destruct (l =? 0); [reflexivity|].
    destruct (uf_new_ok l) as [Hok [Hl _]].
    assert (Hb : forall e, In e (all_pairs l) -> fst e < l /\ snd e < l).
    { intros [i j] He. apply in_all_pairs in He. cbn. lia. }
    destruct (run_atomic_inv a cs (pairs l) (uf_new l) [] Hok Hl (rel_eq_new a cs)) as [p1 [E1 [Hok1 [Hl1 Hr1]]]].
    { intros e He. apply Hb. now apply Hin. }
    destruct (run_atomic_inv a cs (all_pairs l) (uf_new l) [] Hok Hl (rel_eq_new a cs) Hb) as [p2 [E2 [Hok2 [Hl2 Hr2]]]].
    fold l. rewrite E1, E2. cbn [obind]. cbn [app] in Hr1, Hr2.
    now rewrite (same_pairs_same_roots a cs p1 p2 _ _ Hok1 Hok2 Hl1 Hl2 Hr1 Hr2 Hin).
  Qed.

  (* ... also when the is_same tests and the unions of different workers interleave *)
  Theorem group_cols_trace_indep (trace : list (nat * nat * bool)) g :
    (forall e, In e (map fst trace) <-> In e (all_pairs (length (nonempty_cols a)))) ->
    group_cols_trace a trace = Some g -> group_cols a = Some g.
  Proof.
    intros Hin. unfold group_cols, group_cols_sched, group_cols_trace.
    set (cs := nonempty_cols a) in *. set (l := length cs) in *.
    destruct (l =? 0); [auto|].
    destruct (uf_new_ok l) as [Hok [Hl _]].
    assert (Hb : forall e, In e (all_pairs l) -> fst e < l /\ snd e < l).
    { intros [i j] He. apply in_all_pairs in He. cbn. lia. }
    destruct (run_atomic_inv a cs (all_pairs l) (uf_new l) [] Hok Hl (rel_eq_new a cs) Hb) as [p2 [E2 [Hok2 [Hl2 Hr2]]]].
    fold l. rewrite E2. cbn [obind]. intros H. apply obind_some in H. destruct H as [p1 [E1 H]].
    destruct (run_na_inv a cs trace (uf_new l) [] p1 Hok Hl (rel_eq_new a cs)) as [Hok1 [Hl1 Hr1]]; [|exact E1|].
    { intros e He. apply Hb, Hin. apply in_map_iff. now exists e. }
    cbn [app] in Hr1, Hr2.
    rewrite <- (same_pairs_same_roots a cs p1 p2 _ _ Hok1 Hok2 Hl1 Hl2 Hr1 Hr2 Hin). exact H.
  Qed.
End GroupCols.
