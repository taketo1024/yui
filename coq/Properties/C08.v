(* C08 - Chain reduction is a homotopy equivalence with correct transfer maps.
   Property theorems only; every proof is [exact <lemma>] and is followed by Print Assumptions.

   Model: Model/Reducer.v, the mirror of yui-homology/src/utils/chain_reducer.rs (ChainReducer: from, reduce,
   reduce_all, reduce_at, reduce_at_spec, update_mats, update_trans, update_vecs), yui-matrix/src/sparse/schur.rs
   (Schur::from_partial_triangular), sparse/trans.rs (Trans), sparse/pivot.rs (perms_by_pivots) and
   yui-homology/src/conc/complex.rs (ChainComplexBase::reduced), over an arbitrary commutative ring with units
   given by dictionaries ([ring_laws], [unit_laws]; no PID, no integrality assumed).  Matrices are dense with
   explicit shape ([dmat]; [dwf] = the row list has the declared shape); a Rust panic is [None].

   Quantifiers of the property and how they appear here.
   * every pivot strategy (Rows/Cols x One/AnyUnit/Weight) and every thread schedule: the pivot search is an
     ORACLE - each call of pivots() consumes the next element of an arbitrary stream [orc] of pivot lists.
     The only thing assumed about an answer is recorded in the ghost flag [okf] of the state: after the
     permutation by the pivots the leading r x r block is triangular in the orientation of the pivot type
     (this is the postcondition of find_pivots proved in C11; the triangular solver and the Schur complement
     on such a block are C12).  Non-unit or repeated or out-of-range pivots make the model return None
     (inv().unwrap() / PermOwned::new / assert! panics).
   * shallow and deep reduction, every degree order, every sequence of public calls: [run_script] over
     arbitrary lists of operations [OSpec p type | OAt p deep | OAll deep] and arbitrary supports.
   * tracked vectors: the field [vcs].
   Positions: the state holds M differentials d_p : C_p -> C_(p+1) (p < M) at keys 0..M-1 (for d_deg = -1
   the harness maps key i to p = i_max - i; only the walking order of the support depends on the sign).
   D_p, N_p, V0_p are the differentials, ranks and tracked vectors of the ORIGINAL complex.

   Sign convention of the homotopy: B F + D H + H D = 1 (i.e. b f - 1 = d h + h d with h = -H; the step
   homotopy is H = q^-1 [a^-1 0; 0 0] p). *)
From Coq Require Import Arith List Bool ZArith Lia.
Require Import Yui.Base.Ring Yui.Base.MatF Yui.Base.MatL Yui.Model.Reducer.
Require Import Yui.Proofs.C08Mat Yui.Proofs.C08Perm Yui.Proofs.C08Tri Yui.Proofs.C08Step Yui.Proofs.C08All
  Yui.Proofs.C08Run Yui.Proofs.C08Check.
Import ListNotations.

(* the meaning of [sdr] ("strong deformation retraction onto the current complex") *)
Theorem C08_sdr_meaning : forall (R : Type) (o : ring_ops R) (M : nat) (N : nat -> nat) (D : nat -> dmat R)
  (V0 : nat -> list (list R)) (st : state R),
  sdr o M N D V0 st <->
  exists (n : nat -> nat) (F B H : nat -> dmat R),
    (* the current complex: differentials d_p : n_p -> n_(p+1) at the keys p < M, and d_(p+1) d_p = 0 *)
    (forall p, p < M -> exists d, mats st p = Some d /\ dwf d /\ dr d = n (S p) /\ dc d = n p) /\
    (forall p, M <= p -> mats st p = None) /\
    (forall p d0 d1, mats st p = Some d0 -> mats st (S p) = Some d1 -> dmul o d1 d0 = dzero o (dr d1) (dc d0)) /\
    (* shapes: F_p : N_p -> n_p and B_p : n_p -> N_p (p <= M), H_p : N_(p+1) -> N_p (p < M) *)
    (forall p, p <= M -> dwf (F p) /\ dr (F p) = n p /\ dc (F p) = N p) /\
    (forall p, p <= M -> dwf (B p) /\ dr (B p) = N p /\ dc (B p) = n p) /\
    (forall p, p < M -> dwf (H p) /\ dr (H p) = N p /\ dc (H p) = N (S p)) /\
    (* F B = 1 on the reduced complex *)
    (forall p, p <= M -> dmul o (F p) (B p) = did o (n p)) /\
    (* F and B are chain maps between the original and the current complex *)
    (forall p d, mats st p = Some d -> dmul o (F (S p)) (D p) = dmul o d (F p)) /\
    (forall p d, mats st p = Some d -> dmul o (D p) (B p) = dmul o (B (S p)) d) /\
    (* B F + D H + H D = 1 on every space of the original complex *)
    (forall p, p <= M ->
       dadd o (dmul o (B p) (F p))
         (dadd o (match p with O => dzero o (N 0) (N 0) | S q => dmul o (D q) (H q) end)
                 (if p <? M then dmul o (H p) (D p) else dzero o (N p) (N p))) = did o (N p)) /\
    (* the Trans stored in the reducer are exactly (F_p, B_p) *)
    (forall p t, trs st p = Some t -> p < M /\ t = mkT (N p) (n p) (F p) (B p)) /\
    (* the tracked vectors are F applied to the original ones *)
    (forall p, p <= M ->
       Forall2 (fun v v0 => length v = n p /\ vmat o v = dmul o (F p) (vmat o v0)) (vcs st p) (V0 p)).
Proof. exact @sdr_iff. Qed.
Print Assumptions C08_sdr_meaning.

(* C08_step: one reduction step as pure matrix algebra
   a1 : m x n any matrix; vp, vq : the permutations of perms_by_pivots; r pivots; the permuted leading block
   triangular; sc the Schur data.  With f1 = [0 1] q, b1 = q^-1 [-a^-1 b; 1], f2 = [-c a^-1 1] p,
   b2 = p^-1 [0; 1], h = q^-1 [a^-1 0; 0 0] p  (definitions step_f1 .. step_h of Proofs/C08Step.v): *)
Theorem C08_step : forall (R : Type) (o : ring_ops R), ring_laws o -> forall u : unit_ops R, unit_laws o u ->
  forall (a1 : dmat R) (vp vq : list nat) (r : nat) (t : ttype) (sc : schur R),
  dwf a1 -> is_perm (dr a1) vp -> is_perm (dc a1) vq ->
  tri_ok o t (dblock o (permute o a1 vp vq) 0 0 r r) r ->
  schur_of o u t (permute o a1 vp vq) r = Some sc ->
  let m := dr a1 in let n := dc a1 in let s := sc_s sc in
  let f1 := step_f1 o n r vq in let b1 := step_b1 o n r vq sc in
  let f2 := step_f2 o m r vp sc in let b2 := step_b2 o m r vp in
  let h := step_h o m n r vp vq sc in
  (r <= m /\ r <= n /\ dwf s /\ dr s = m - r /\ dc s = n - r) /\
  dmul o f2 a1 = dmul o s f1 /\ dmul o a1 b1 = dmul o b2 s /\                   (* chain maps *)
  dmul o f1 b1 = did o (n - r) /\ dmul o f2 b2 = did o (m - r) /\             (* f b = 1 *)
  dadd o (dmul o b1 f1) (dmul o h a1) = did o n /\                            (* b f + h d = 1 (source) *)
  dadd o (dmul o b2 f2) (dmul o a1 h) = did o m /\                            (* b f + d h = 1 (target) *)
  dmul o f1 h = dzero o (n - r) m /\ dmul o h b2 = dzero o n (m - r) /\       (* side conditions f h = 0, h b = 0 *)
  (* incoming differential a0 with a1 a0 = 0: reduce_mat_rows is f1 a0, a0 factors through b1, and s a0' = 0 *)
  (forall a0, dwf a0 -> dr a0 = n -> dmul o a1 a0 = dzero o m (dc a0) ->
     dmul o f1 a0 = reduce_mat_rows o a0 vq r /\ dmul o b1 (reduce_mat_rows o a0 vq r) = a0 /\
     dmul o s (reduce_mat_rows o a0 vq r) = dzero o (m - r) (dc a0)) /\
  (* outgoing differential a2 with a2 a1 = 0: reduce_mat_cols is a2 b2, a2 factors through f2, and a2' s = 0 *)
  (forall a2, dwf a2 -> dc a2 = m -> dmul o a2 a1 = dzero o (dr a2) n ->
     dmul o (reduce_mat_cols o a2 vp r) f2 = a2 /\ dmul o a2 b2 = reduce_mat_cols o a2 vp r /\
     dmul o (reduce_mat_cols o a2 vp r) s = dzero o (dr a2) (n - r)).
Proof. exact @step_summary. Qed.
Print Assumptions C08_step.

(* the Schur complement does not panic when the r pivots are units (and r fits) *)
Theorem C08_schur_defined : forall (R : Type) (o : ring_ops R) (u : unit_ops R), unit_laws o u ->
  forall (t : ttype) (A : dmat R) (r : nat),
  r <= dr A -> r <= dc A -> unit_diag o u (dblock o A 0 0 r r) r ->
  exists sc, schur_of o u t A r = Some sc.
Proof. exact @schur_of_some. Qed.
Print Assumptions C08_schur_defined.

(* C08_step_state: one step of the reducer, from a state with any history
   reduce_with = the body of reduce_at_spec after pivots() answered [pivs]; it updates the three
   neighbouring matrices, the stored Trans and the tracked vectors. *)
Theorem C08_step_state : forall (R : Type) (o : ring_ops R), ring_laws o -> forall u : unit_ops R, unit_laws o u ->
  forall (M : nat) (N : nat -> nat) (D : nat -> dmat R) (V0 : nat -> list (list R)),
  (forall p, p < M -> dwf (D p) /\ dr (D p) = N (S p) /\ dc (D p) = N p) ->
  forall (st : state R) (p : nat) (a1 : dmat R) (pt : ptype) (pivs : list (nat * nat)) (st' : state R) (cont : bool),
  sdr o M N D V0 st -> mats st p = Some a1 ->
  reduce_with o u st p a1 pt pivs = Some (st', cont) -> okf st' = true ->
  sdr o M N D V0 st'.
Proof. exact @step_main. Qed.
Print Assumptions C08_step_state.

(* ... and such a step never panics when the pivot list is valid: distinct rows, distinct columns, in range, and
   the pivots (the diagonal of the permuted leading block) are units.  (The shapes of the neighbouring matrices,
   of the stored Trans and of the tracked vectors needed by the assert!s follow from the invariant.) *)
Theorem C08_step_defined : forall (R : Type) (o : ring_ops R) (u : unit_ops R), unit_laws o u ->
  forall (M : nat) (N : nat -> nat) (D : nat -> dmat R) (V0 : nat -> list (list R))
         (st : state R) (p : nat) (a1 : dmat R) (pt : ptype) (pivs : list (nat * nat)),
  sdr o M N D V0 st -> mats st p = Some a1 ->
  NoDup (map fst pivs) -> Forall (fun i => i < dr a1) (map fst pivs) ->
  NoDup (map snd pivs) -> Forall (fun j => j < dc a1) (map snd pivs) ->
  (forall vp vq, perm_order (dr a1) (map fst pivs) = Some vp -> perm_order (dc a1) (map snd pivs) = Some vq ->
     unit_diag o u (dblock o (permute o a1 vp vq) 0 0 (length pivs) (length pivs)) (length pivs)) ->
  exists st' cont, reduce_with o u st p a1 pt pivs = Some (st', cont).
Proof. exact @reduce_with_some. Qed.
Print Assumptions C08_step_defined.

Theorem C08_reduce_at_spec : forall (R : Type) (o : ring_ops R), ring_laws o -> forall u : unit_ops R, unit_laws o u ->
  forall (M : nat) (N : nat -> nat) (D : nat -> dmat R) (V0 : nat -> list (list R)),
  (forall p, p < M -> dwf (D p) /\ dr (D p) = N (S p) /\ dc (D p) = N p) ->
  forall (st : state R) (p : nat) (pt : ptype) (orc : list (list (nat * nat))) (st' : state R) (cont : bool)
         (orc' : list (list (nat * nat))),
  sdr o M N D V0 st -> reduce_at_spec o u st p pt orc = Some (st', cont, orc') -> okf st' = true ->
  sdr o M N D V0 st'.
Proof. exact @step_spec_main. Qed.
Print Assumptions C08_reduce_at_spec.

(* C08_all: every sequence of public operations, every oracle
   [is_input]: the state built by ChainReducer::new + set_matrix(i, D_i, with_trans_i) + add_vec from a complex
   (D_(p+1) D_p = 0, Trans = identity where present, tracked vectors of the right length). *)
Theorem C08_input_meaning : forall (R : Type) (o : ring_ops R) (M : nat) (N : nat -> nat) (D : nat -> dmat R)
  (V0 : nat -> list (list R)) (st0 : state R),
  is_input o M N D V0 st0 <->
  (forall p, p < M -> mats st0 p = Some (D p)) /\
  (forall p, M <= p -> mats st0 p = None) /\
  (forall p, S p < M -> dmul o (D (S p)) (D p) = dzero o (N (S (S p))) (N p)) /\
  (forall p t, trs st0 p = Some t -> p < M /\ t = t_id o (N p)) /\
  (forall p, p <= M -> vcs st0 p = V0 p /\ Forall (fun v => length v = N p) (V0 p)).
Proof. exact (fun R o M N D V0 st0 => iff_refl _). Qed.
Print Assumptions C08_input_meaning.

Theorem C08_all : forall (R : Type) (o : ring_ops R), ring_laws o -> forall u : unit_ops R, unit_laws o u ->
  forall (M : nat) (N : nat -> nat) (D : nat -> dmat R) (V0 : nat -> list (list R)),
  (forall p, p < M -> dwf (D p) /\ dr (D p) = N (S p) /\ dc (D p) = N p) ->
  forall (st0 : state R) (supp : list nat) (ops : list op) (orc : list (list (nat * nat)))
         (st : state R) (orc' : list (list (nat * nat))),
  is_input o M N D V0 st0 ->
  run_script o u supp ops st0 orc = Some (st, orc') -> okf st = true ->
  sdr o M N D V0 st.
Proof. exact @run_script_main. Qed.
Print Assumptions C08_all.

(* ChainReducer::reduce(complex, with_trans) = from; reduce_all(false); reduce_all(true), any support order *)
Theorem C08_reduce : forall (R : Type) (o : ring_ops R), ring_laws o -> forall u : unit_ops R, unit_laws o u ->
  forall (dims : list nat) (ds : list (dmat R)) (with_trans : bool) (supp : list nat)
         (orc : list (list (nat * nat))) (st : state R) (orc' : list (list (nat * nat))),
  is_complex o dims ds ->
  reduce o u supp orc (from_complex o dims ds with_trans) = Some (st, orc') -> okf st = true ->
  sdr o (cM ds) (cN dims) (cD o dims ds) (fun _ => []) st.
Proof. exact @from_reduce_main. Qed.
Print Assumptions C08_reduce.

(* ChainComplexBase::reduced: every summand gets rank ncols(d_p) and the reducer's Trans, and the old
   differential seen through the new Trans, F_(p+1) D_p B_p, is the reducer's matrix d_p *)
Theorem C08_reduced : forall (R : Type) (o : ring_ops R), ring_laws o -> forall u : unit_ops R, unit_laws o u ->
  forall (dims : list nat) (ds : list (dmat R)) (descending : bool)
         (orc : list (list (nat * nat))) (st : state R) (orc' : list (list (nat * nat))),
  is_complex o dims ds ->
  reduced o u dims ds descending orc = Some (st, orc') -> okf st = true ->
  sdr o (cM ds) (cN dims) (cD o dims ds) (fun _ => []) st /\
  forall p, p < length dims ->
    exists d tp tq, mats st p = Some d /\ trs st p = Some tp /\ trs st (S p) = Some tq /\
                    t_src tp = cN dims p /\ t_tgt tp = dc d /\
                    reduced_d o (cD o dims ds p) (trs st p) (trs st (S p)) = Some d.
Proof. exact @reduced_main. Qed.
Print Assumptions C08_reduced.

(* "the same homology"
   F and B induce mutually inverse isomorphisms on homology: they map cycles to cycles and boundaries to
   boundaries, F B = 1, and every cycle X of the original complex equals B F X up to the boundary D (H X).
   X, Y are matrices whose columns are chains (any number of columns). *)
Theorem C08_homology : forall (R : Type) (o : ring_ops R), ring_laws o ->
  forall (M : nat) (N : nat -> nat) (D : nat -> dmat R) (V0 : nat -> list (list R)),
  (forall p, p < M -> dwf (D p) /\ dr (D p) = N (S p) /\ dc (D p) = N p) ->
  forall st : state R, sdr o M N D V0 st ->
  exists (n : nat -> nat) (F B : nat -> dmat R),
  forall p d, mats st p = Some d ->
    (forall X, dr X = N p -> dmul o (D p) X = dzero o (N (S p)) (dc X) ->
               dmul o d (dmul o (F p) X) = dzero o (n (S p)) (dc X)) /\
    (forall Y, dr Y = n p -> dmul o d Y = dzero o (n (S p)) (dc Y) ->
               dmul o (D p) (dmul o (B p) Y) = dzero o (N (S p)) (dc Y)) /\
    (forall X, dr X = N p -> dmul o (F (S p)) (dmul o (D p) X) = dmul o d (dmul o (F p) X)) /\
    (forall Y, dr Y = n p -> dmul o (B (S p)) (dmul o d Y) = dmul o (D p) (dmul o (B p) Y)) /\
    (forall Y, dwf Y -> dr Y = n p -> dmul o (F p) (dmul o (B p) Y) = Y) /\
    (forall X, dwf X -> dr X = N p -> dmul o (D p) X = dzero o (N (S p)) (dc X) ->
       match p with
       | O => X = dmul o (B 0) (dmul o (F 0) X)
       | S q => exists W, dr W = N q /\ X = dadd o (dmul o (B p) (dmul o (F p) X)) (dmul o (D q) W)
       end).
Proof. exact @homology_main. Qed.
Print Assumptions C08_homology.

(* the certificate checker run on the implementation's own output is sound
   check_all orig cur fs bs = true implies the property's clauses for these concrete matrices. *)
Theorem C08_checker_sound : forall (R : Type) (o : ring_ops R), ring_laws o ->
  forall (orig cur fs bs : list (dmat R)),
  check_all o orig cur fs bs = true ->
  length cur = length orig /\ length fs = length orig /\ length bs = length orig /\
  forall p, p < length orig ->
    let z := dzero o 0 0 in
    let D := nth p orig z in let d := nth p cur z in let F := nth p fs z in let B := nth p bs z in
    dwf D /\ dwf d /\ dwf F /\ dwf B /\
    dr F = dc d /\ dc F = dc D /\ dr B = dc D /\ dc B = dc d /\
    dmul o F B = did o (dc d) /\
    (S p = length orig -> dr D = 0 /\ dr d = 0) /\
    (S p < length orig ->
       let D1 := nth (S p) orig z in let d1 := nth (S p) cur z in
       let F1 := nth (S p) fs z in let B1 := nth (S p) bs z in
       dr D = dc D1 /\ dr d = dc d1 /\
       dmul o F1 D = dmul o d F /\ dmul o D B = dmul o B1 d /\
       dmul o d1 d = dzero o (dr d1) (dc d)).
Proof. exact @check_all_sound. Qed.
Print Assumptions C08_checker_sound.

Theorem C08_check_vec_sound : forall (R : Type) (o : ring_ops R), ring_laws o ->
  forall (F : dmat R) (v0 v : list R),
  check_vec o F v0 v = true -> length v0 = dc F /\ length v = dr F /\ vmat o v = dmul o F (vmat o v0).
Proof. exact @check_vec_sound. Qed.
Print Assumptions C08_check_vec_sound.

(* Z with units +-1 satisfies the hypotheses on the ring *)
Example C08_ex_ring : ring_laws Z_ring /\ unit_laws Z_ring Z_units.
Proof. exact (conj Z_ring_laws Z_units_laws). Qed.

(* the complex Z^2 --[1 0; 0 2]--> Z^2: the pivot (0,0) is eliminated in the shallow pass, the deep pass
   finds no further pivot (2 is not a unit); the run does not panic, the ghost flag stays set and the
   reduced differential is [2] *)
Example C08_ex_complex : is_complex Z_ring [2; 2] [mkD 2 2 [[1; 0]; [0; 2]]%Z].
Proof. exact ex_complex_ok. Qed.
Example C08_ex_run :
  exists st, reduced Z_ring Z_units [2; 2] [mkD 2 2 [[1; 0]; [0; 2]]%Z] false [[(0, 0)]; []] = Some (st, []) /\
             okf st = true /\
             mats st 0 = Some (mkD 1 1 [[2%Z]]) /\
             option_map (fun t => (t_f t, t_b t)) (trs st 0) = Some (mkD 1 2 [[0; 1]]%Z, mkD 2 1 [[0]; [1]]%Z).
Proof. exact ex_run_ok. Qed.
