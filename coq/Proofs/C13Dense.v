(* C13, dense part: every operation of Model/Dense.v yields the entries of its mathematical definition.
   The row / column operations are characterised as left / right multiplication by an elementary
   matrix, stated with MatF.mmul:

     d_swap_rows_mmul, d_mul_row_mmul, d_add_row_to_mmul, d_left_elementary_mmul     B = E * A
     d_swap_cols_mmul, d_mul_col_mmul, d_add_col_to_mmul, d_right_elementary_mmul    B = A * E

   Every [_spec] lemma has the form  match op .. with Some B => <shape, well-formedness, entries>
   | None => <the guard that failed> end, so it also says exactly when the Rust call panics. *)
From Coq Require Import Arith List Lia Bool Ring.
Require Import Yui.Base.Ring Yui.Base.MatF Yui.Base.MatL Yui.Model.Dense.
Import ListNotations.

(* case analysis on every [x =? y] (variables first, substituting), then try reflexivity / congruence / lia *)
Ltac eqb_cases :=
  repeat (match goal with
          | |- context [Nat.eqb ?a ?b] => is_var a; is_var b; destruct (Nat.eqb_spec a b)
          | H : context [Nat.eqb ?a ?b] |- _ => is_var a; is_var b; destruct (Nat.eqb_spec a b)
          end; subst);
  repeat (match goal with
          | |- context [Nat.eqb ?a ?b] => destruct (Nat.eqb_spec a b)
          end; subst);
  try reflexivity; try congruence; try lia.

Section DenseProofs.
  Context {R : Type} (o : ring_ops R) (L : ring_laws o).

  Local Notation "0" := (rzero o).
  Local Notation "1" := (rone o).
  Local Infix "+" := (radd o).
  Local Infix "*" := (rmul o).
  Local Notation "- x" := (rneg o x).

  Add Ring Rring : (ring_theory_of_laws o L).

  Lemma d_get_mk m n f i j : (i < m)%nat -> (j < n)%nat -> d_get o (d_mk m n f) i j = f i j.
  Proof. intros Hi Hj. unfold d_get, d_mk. cbn [dd]. now apply lget_lmk. Qed.

  Lemma d_wf_mk m n (f : nat -> nat -> R) : d_wf (d_mk m n f).
  Proof. unfold d_wf, d_mk. cbn [dm dn dd]. apply wf_lmk. Qed.

  Lemma d_wfb_wf (A : dmat R) : d_wfb A = true <-> d_wf A.
  Proof. apply wfb_wf. Qed.

  (* what "B is the m x n matrix with entries f" means *)
  Definition d_is (B : dmat R) (m n : nat) (f : nat -> nat -> R) : Prop :=
    dm B = m /\ dn B = n /\ d_wf B /\ forall i j, (i < m)%nat -> (j < n)%nat -> d_get o B i j = f i j.

  Lemma d_is_mk m n f : d_is (d_mk m n f) m n f.
  Proof.
    unfold d_is. cbn [dm dn d_mk]. splits; try reflexivity; try apply d_wf_mk.
    intros i j Hi Hj. now apply d_get_mk.
  Qed.

  Lemma d_is_ext B m n f g :
    d_is B m n f -> (forall i j, (i < m)%nat -> (j < n)%nat -> f i j = g i j) -> d_is B m n g.
  Proof.
    intros (H1 & H2 & H3 & H4) E. unfold d_is. splits; try assumption.
    intros i j Hi Hj. rewrite H4 by assumption. now apply E.
  Qed.

  (* an operation that tabulates f behind two boolean guards *)
  Lemma d_guarded_spec (g1 g2 : bool) (G1 G2 : Prop) m n f : (g1 = true <-> G1) -> (g2 = true <-> G2) ->
    match (if g1 && g2 then Some (d_mk m n f) else None) with
    | Some B => G1 /\ G2 /\ d_is B m n f
    | None => ~ (G1 /\ G2)
    end.
  Proof.
    intros H1 H2. destruct g1, g2; cbn [andb]; rewrite <- H1, <- H2; try (intros [? ?]; discriminate).
    splits; try reflexivity. apply d_is_mk.
  Qed.

  (* two well-formed matrices with the same shape and entries are equal *)
  Lemma d_is_unique A B m n f : d_is A m n f -> d_is B m n f -> A = B.
  Proof.
    intros (A1 & A2 & A3 & A4) (B1 & B2 & B3 & B4).
    destruct A as [ma na da], B as [mb nb db]. cbn [dm dn dd] in *. subst.
    f_equal. unfold d_wf in A3, B3. cbn [dm dn dd] in A3, B3.
    apply (lmat_ext o m n); try assumption.
    intros i j Hi Hj. unfold d_get in A4, B4. cbn [dd] in A4, B4. rewrite A4, B4 by assumption. reflexivity.
  Qed.

  Lemma d_from_data_spec m n data :
    match d_from_data o m n data with
    | Some A => (m * n <= length data)%nat /\
                d_is A m n (fun i j => nth (i * n + j) data 0)
    | None => (length data < m * n)%nat
    end.
  Proof.
    unfold d_from_data. destruct (m * n <=? length data) eqn:E.
    - apply Nat.leb_le in E. split; [exact E|apply d_is_mk].
    - apply Nat.leb_gt in E. exact E.
  Qed.

  Lemma d_zero_spec m n : d_is (d_zero o m n) m n (mzero o).
  Proof. apply d_is_mk. Qed.

  Lemma d_id_spec n : d_is (d_id o n) n n (mid o).
  Proof. apply d_is_mk. Qed.

  Lemma d_diag_spec m n es :
    match d_diag o m n es with
    | Some A => (length es <= m)%nat /\ (length es <= n)%nat /\
                d_is A m n (fun i j => if (i =? j) && (i <? length es) then nth i es 0 else 0)
    | None => (m < length es)%nat \/ (n < length es)%nat
    end.
  Proof.
    unfold d_diag. destruct (Nat.leb_spec (length es) m) as [E1|E1]; destruct (Nat.leb_spec (length es) n) as [E2|E2]; cbn [andb].
    - splits; try assumption; apply d_is_mk.
    - now right.
    - now left.
    - now left.
  Qed.

  Lemma d_iter_in A i j a :
    In (i, j, a) (d_iter o A) <-> (i < dm A)%nat /\ (j < dn A)%nat /\ a = d_get o A i j.
  Proof.
    unfold d_iter. rewrite in_map_iff. split.
    - intros [k [E Hk]]. apply in_seq in Hk. inversion E; subst; clear E.
      assert (Hm : (dm A <> 0)%nat) by (intros Z; rewrite Z in Hk; cbn in Hk; lia).
      splits.
      + apply Nat.mod_upper_bound. exact Hm.
      + apply Nat.div_lt_upper_bound; [exact Hm|lia].
      + reflexivity.
    - intros (Hi & Hj & ->). exists (i + j * dm A)%nat.
      assert (Hm : (dm A <> 0)%nat) by lia.
      assert (E1 : ((i + j * dm A) mod dm A = i)%nat).
      { rewrite Nat.mod_add by exact Hm. now apply Nat.mod_small. }
      assert (E2 : ((i + j * dm A) / dm A = j)%nat).
      { rewrite Nat.div_add by exact Hm. rewrite Nat.div_small by exact Hi. reflexivity. }
      split.
      + unfold d_lin. rewrite E1, E2. reflexivity.
      + apply in_seq. split; [lia|]. cbn [Nat.add].
        assert ((j + 1) * dm A <= dn A * dm A)%nat by (apply Nat.mul_le_mono_r; lia). lia.
  Qed.

  Lemma d_iter_forallb A (P : nat * nat * R -> bool) :
    forallb P (d_iter o A) = true <->
    forall i j, (i < dm A)%nat -> (j < dn A)%nat -> P (i, j, d_get o A i j) = true.
  Proof.
    rewrite forallb_forall. split.
    - intros H i j Hi Hj. apply H, d_iter_in. auto.
    - intros H [[i j] a] Hin. apply d_iter_in in Hin. destruct Hin as (Hi & Hj & ->). now apply H.
  Qed.

  Lemma d_is_zero_spec A :
    d_is_zero o A = true <-> meq (dm A) (dn A) (d_get o A) (mzero o).
  Proof.
    unfold d_is_zero, meq, mzero. rewrite d_iter_forallb.
    split; intros H i j Hi Hj; apply (reqb_eq o L); now apply H.
  Qed.

  Lemma d_is_id_spec A :
    d_is_id o A = true <-> dm A = dn A /\ meq (dm A) (dn A) (d_get o A) (mid o).
  Proof.
    unfold d_is_id, meq, mid. rewrite andb_true_iff, Nat.eqb_eq, d_iter_forallb.
    split; intros [Hs H]; (split; [exact Hs|]); intros i j Hi Hj; specialize (H i j Hi Hj).
    - destruct (i =? j); cbn [andb orb negb] in H; [rewrite orb_false_r in H|]; now apply (reqb_eq o L).
    - rewrite H. unfold ris_one, ris_zero.
      destruct (i =? j); cbn [andb orb negb]; rewrite (reqb_refl o L); reflexivity.
  Qed.

  Lemma d_is_diag_spec A :
    d_is_diag o A = true <->
    forall i j, (i < dm A)%nat -> (j < dn A)%nat -> i <> j -> d_get o A i j = 0.
  Proof.
    unfold d_is_diag. rewrite d_iter_forallb. split; intros H i j Hi Hj.
    - intros Hne. specialize (H i j Hi Hj). apply Nat.eqb_neq in Hne. rewrite Hne in H. now apply (reqb_eq o L).
    - destruct (Nat.eqb_spec i j) as [|E]; [reflexivity|]. cbn [orb]. rewrite (H i j Hi Hj E). apply (reqb_refl o L).
  Qed.

  Lemma d_submat_spec A i0 i1 j0 j1 :
    match d_submat o A i0 i1 j0 j1 with
    | Some B => (i0 <= i1 <= dm A)%nat /\ (j0 <= j1 <= dn A)%nat /\
                d_is B (i1 - i0) (j1 - j0) (fun i j => d_get o A (i0 + i) (j0 + j))
    | None => ~ ((i0 <= i1 <= dm A)%nat /\ (j0 <= j1 <= dn A)%nat)
    end.
  Proof.
    unfold d_submat.
    destruct (Nat.leb_spec i0 i1) as [E1|E1]; destruct (Nat.leb_spec i1 (dm A)) as [E2|E2];
      destruct (Nat.leb_spec j0 j1) as [E3|E3]; destruct (Nat.leb_spec j1 (dn A)) as [E4|E4]; cbn [andb];
      try lia.
    splits; try assumption; apply d_is_mk.
  Qed.

  Lemma d_submat_rows_eq A i0 i1 : d_submat_rows o A i0 i1 = d_submat o A i0 i1 0 (dn A).
  Proof. reflexivity. Qed.
  Lemma d_submat_cols_eq A j0 j1 : d_submat_cols o A j0 j1 = d_submat o A 0 (dm A) j0 j1.
  Proof. reflexivity. Qed.

  Lemma d_neg_spec A : d_is (d_neg o A) (dm A) (dn A) (mneg o (d_get o A)).
  Proof. apply d_is_mk. Qed.

  Lemma d_add_spec A B :
    match d_add o A B with
    | Some C => dm A = dm B /\ dn A = dn B /\ d_is C (dm A) (dn A) (madd o (d_get o A) (d_get o B))
    | None => ~ (dm A = dm B /\ dn A = dn B)
    end.
  Proof. unfold d_add. apply d_guarded_spec; apply Nat.eqb_eq. Qed.

  Lemma d_sub_spec A B :
    match d_sub o A B with
    | Some C => dm A = dm B /\ dn A = dn B /\ d_is C (dm A) (dn A) (msub o (d_get o A) (d_get o B))
    | None => ~ (dm A = dm B /\ dn A = dn B)
    end.
  Proof. unfold d_sub. apply d_guarded_spec; apply Nat.eqb_eq. Qed.

  (* the product: defined (and equal to the mathematical product) when the inner dimensions agree; a
     mismatch panics except when the right operand has no column (nalgebra, see Model/Dense.v), where the
     result is the empty (dm A) x 0 matrix *)
  Lemma d_mul_spec A B :
    match d_mul o A B with
    | Some C => (dn A = dm B \/ dn B = 0%nat) /\
                d_is C (dm A) (dn B) (mmul o (dn A) (d_get o A) (d_get o B))
    | None => dn A <> dm B /\ dn B <> 0%nat
    end.
  Proof.
    unfold d_mul. destruct (Nat.eqb_spec (dn A) (dm B)) as [E1|E1]; destruct (Nat.eqb_spec (dn B) 0) as [E2|E2]; cbn [orb];
      try (split; [tauto|apply d_is_mk]).
    tauto.
  Qed.

  Lemma sum_pick n s c (f : nat -> R) :
    (s < n)%nat -> sum o n (fun t => (if t =? s then c else 0) * f t) = c * f s.
  Proof.
    intros Hs. rewrite (sum_ext o n _ (fun t => if t =? s then c * f t else 0)).
    - now rewrite (sum_delta o L).
    - intros t _. destruct (t =? s); ring.
  Qed.

  Lemma sum_pick_r n s c (f : nat -> R) :
    (s < n)%nat -> sum o n (fun t => f t * (if t =? s then c else 0)) = f s * c.
  Proof.
    intros Hs. rewrite (sum_ext o n _ (fun t => if t =? s then f t * c else 0)).
    - now rewrite (sum_delta o L).
    - intros t _. destruct (t =? s); ring.
  Qed.

  Lemma sum_pick2 n s1 c1 s2 c2 (f : nat -> R) :
    (s1 < n)%nat -> (s2 < n)%nat ->
    sum o n (fun t => ((if t =? s1 then c1 else 0) + (if t =? s2 then c2 else 0)) * f t)
    = c1 * f s1 + c2 * f s2.
  Proof.
    intros H1 H2.
    rewrite (sum_ext o n _ (fun t => (if t =? s1 then c1 else 0) * f t + (if t =? s2 then c2 else 0) * f t)).
    - rewrite (sum_add o L), !sum_pick by assumption. reflexivity.
    - intros t _. ring.
  Qed.

  Lemma sum_pick2_r n s1 c1 s2 c2 (f : nat -> R) :
    (s1 < n)%nat -> (s2 < n)%nat ->
    sum o n (fun t => f t * ((if t =? s1 then c1 else 0) + (if t =? s2 then c2 else 0)))
    = f s1 * c1 + f s2 * c2.
  Proof.
    intros H1 H2.
    rewrite (sum_ext o n _ (fun t => f t * (if t =? s1 then c1 else 0) + f t * (if t =? s2 then c2 else 0))).
    - rewrite (sum_add o L), !sum_pick_r by assumption. reflexivity.
    - intros t _. ring.
  Qed.

  Definition swap_idx (i j k : nat) : nat := if k =? i then j else if k =? j then i else k.

  Lemma swap_idx_lt i j k m : (i < m)%nat -> (j < m)%nat -> (k < m)%nat -> (swap_idx i j k < m)%nat.
  Proof. intros. unfold swap_idx. destruct (k =? i); [assumption|]. destruct (k =? j); assumption. Qed.

  Lemma sum_pick3 n s1 c1 s2 c2 s3 c3 (f : nat -> R) :
    (s1 < n)%nat -> (s2 < n)%nat -> (s3 < n)%nat ->
    sum o n (fun t => ((if t =? s1 then c1 else 0) + (if t =? s2 then c2 else 0) + (if t =? s3 then c3 else 0)) * f t)
    = c1 * f s1 + c2 * f s2 + c3 * f s3.
  Proof.
    intros H1 H2 H3.
    rewrite (sum_ext o n _ (fun t => ((if t =? s1 then c1 else 0) + (if t =? s2 then c2 else 0)) * f t
                                     + (if t =? s3 then c3 else 0) * f t)).
    - rewrite (sum_add o L), sum_pick2, sum_pick by assumption. reflexivity.
    - intros t _. ring.
  Qed.

  Lemma sum_pick3_r n s1 c1 s2 c2 s3 c3 (f : nat -> R) :
    (s1 < n)%nat -> (s2 < n)%nat -> (s3 < n)%nat ->
    sum o n (fun t => f t * ((if t =? s1 then c1 else 0) + (if t =? s2 then c2 else 0) + (if t =? s3 then c3 else 0)))
    = f s1 * c1 + f s2 * c2 + f s3 * c3.
  Proof.
    intros H1 H2 H3.
    rewrite (sum_ext o n _ (fun t => f t * ((if t =? s1 then c1 else 0) + (if t =? s2 then c2 else 0))
                                     + f t * (if t =? s3 then c3 else 0))).
    - rewrite (sum_add o L), sum_pick2_r, sum_pick_r by assumption. reflexivity.
    - intros t _. ring.
  Qed.

  (* row k of an elementary matrix (column l, for a product from the right) is a combination of at most
     three unit vectors, so the product picks at most three rows (columns) of A *)
  Lemma mmul_swap_l n (A : mat R) k l i j : (i < n)%nat -> (j < n)%nat -> (k < n)%nat ->
    mmul o n (e_swap o i j) A k l = 1 * A (swap_idx i j k) l.
  Proof.
    intros Hi Hj Hk. rewrite <- (sum_pick n _ 1 (fun t => A t l)) by (now apply swap_idx_lt).
    apply (sum_ext o). intros t _. f_equal. unfold e_swap, swap_idx. eqb_cases.
  Qed.

  Lemma mmul_swap_r n (A : mat R) k l i j : (i < n)%nat -> (j < n)%nat -> (l < n)%nat ->
    mmul o n A (e_swap o i j) k l = A k (swap_idx i j l) * 1.
  Proof.
    intros Hi Hj Hl. rewrite <- (sum_pick_r n _ 1 (fun t => A k t)) by (now apply swap_idx_lt).
    apply (sum_ext o). intros t _. f_equal. unfold e_swap, swap_idx. eqb_cases.
  Qed.

  Lemma mmul_escal_l n (A : mat R) k l i r :
    (k < n)%nat -> mmul o n (e_scal o i r) A k l = (if k =? i then r else 1) * A k l.
  Proof.
    intros Hk. rewrite <- (sum_pick n k _ (fun t => A t l)) by assumption.
    apply (sum_ext o). intros t _. f_equal. unfold e_scal. now rewrite Nat.eqb_sym.
  Qed.

  Lemma mmul_escal_r n (A : mat R) k l j r :
    (l < n)%nat -> mmul o n A (e_scal o j r) k l = A k l * (if l =? j then r else 1).
  Proof.
    intros Hl. rewrite <- (sum_pick_r n l _ (fun t => A k t)) by assumption.
    apply (sum_ext o). intros t _. f_equal. unfold e_scal. now destruct (Nat.eqb_spec t l) as [->|].
  Qed.

  Lemma mmul_eadd_l n (A : mat R) k l i j r : (i < n)%nat -> (k < n)%nat ->
    mmul o n (e_add o i j r) A k l = 1 * A k l + (if k =? j then r else 0) * A i l.
  Proof.
    intros Hi Hk. rewrite <- (sum_pick2 n k _ i _ (fun t => A t l)) by assumption.
    apply (sum_ext o). intros t _. f_equal. unfold e_add. eqb_cases.
  Qed.

  Lemma mmul_eadd_r n (A : mat R) k l i j r : (i < n)%nat -> (l < n)%nat ->
    mmul o n A (e_add o j i r) k l = A k l * 1 + A k i * (if l =? j then r else 0).
  Proof.
    intros Hi Hl. rewrite <- (sum_pick2_r n l _ i _ (fun t => A k t)) by assumption.
    apply (sum_ext o). intros t _. f_equal. unfold e_add. eqb_cases.
  Qed.

  Lemma mmul_elem_l n (A : mat R) k l a b c d i j : i <> j -> (i < n)%nat -> (j < n)%nat -> (k < n)%nat ->
    mmul o n (e_elem o a b c d i j) A k l =
      (if k =? i then a else if k =? j then c else 0) * A i l +
      (if k =? i then b else if k =? j then d else 0) * A j l +
      (if k =? i then 0 else if k =? j then 0 else 1) * A k l.
  Proof.
    intros Hij Hi Hj Hk. rewrite <- (sum_pick3 n i _ j _ k _ (fun t => A t l)) by assumption.
    apply (sum_ext o). intros t _. f_equal. unfold e_elem. eqb_cases; ring.
  Qed.

  Lemma mmul_elem_r n (A : mat R) k l a b c d i j : i <> j -> (i < n)%nat -> (j < n)%nat -> (l < n)%nat ->
    mmul o n A (e_elem o a b c d i j) k l =
      A k i * (if l =? i then a else if l =? j then b else 0) +
      A k j * (if l =? i then c else if l =? j then d else 0) +
      A k l * (if l =? i then 0 else if l =? j then 0 else 1).
  Proof.
    intros Hij Hi Hj Hl. rewrite <- (sum_pick3_r n i _ j _ l _ (fun t => A k t)) by assumption.
    apply (sum_ext o). intros t _. f_equal. unfold e_elem. eqb_cases; ring.
  Qed.

  (* a tabulated matrix whose entries agree with g on the window *)
  Lemma d_is_meq B m n f g :
    d_is B m n f -> meq m n f g -> dm B = m /\ dn B = n /\ d_wf B /\ meq m n (d_get o B) g.
  Proof.
    intros (H1 & H2 & H3 & H4) E. splits; try assumption.
    intros i j Hi Hj. rewrite H4 by assumption. now apply E.
  Qed.

  Lemma d_swap_rows_spec A i j :
    match d_swap_rows o A i j with
    | Some B => (i < dm A)%nat /\ (j < dm A)%nat /\
                d_is B (dm A) (dn A) (fun k l => d_get o A (swap_idx i j k) l)
    | None => ~ ((i < dm A)%nat /\ (j < dm A)%nat)
    end.
  Proof. unfold d_swap_rows. apply d_guarded_spec; apply Nat.ltb_lt. Qed.

  Theorem d_swap_rows_mmul A i j B :
    d_swap_rows o A i j = Some B ->
    dm B = dm A /\ dn B = dn A /\ d_wf B /\
    meq (dm A) (dn A) (d_get o B) (mmul o (dm A) (e_swap o i j) (d_get o A)).
  Proof.
    intros E. pose proof (d_swap_rows_spec A i j) as S. rewrite E in S. destruct S as (Hi & Hj & S).
    apply (d_is_meq _ _ _ _ _ S). intros k l Hk _. rewrite mmul_swap_l by assumption. ring.
  Qed.

  Lemma d_mul_row_spec A i r :
    match d_mul_row o A i r with
    | Some B => (i < dm A)%nat /\
                d_is B (dm A) (dn A) (fun k l => if k =? i then d_get o A k l * r else d_get o A k l)
    | None => (dm A <= i)%nat
    end.
  Proof.
    unfold d_mul_row. destruct (i <? dm A) eqn:E.
    - apply Nat.ltb_lt in E. split; [exact E|apply d_is_mk].
    - now apply Nat.ltb_ge in E.
  Qed.

  Theorem d_mul_row_mmul A i r B :
    d_mul_row o A i r = Some B ->
    dm B = dm A /\ dn B = dn A /\ d_wf B /\
    meq (dm A) (dn A) (d_get o B) (mmul o (dm A) (e_scal o i r) (d_get o A)).
  Proof.
    intros E. pose proof (d_mul_row_spec A i r) as S. rewrite E in S. destruct S as (Hi & S).
    apply (d_is_meq _ _ _ _ _ S). intros k l Hk _. rewrite mmul_escal_l by assumption. destruct (k =? i); ring.
  Qed.

  Lemma d_add_row_to_spec A i j r :
    match d_add_row_to o A i j r with
    | Some B => (i < dm A)%nat /\ (j < dm A)%nat /\
                d_is B (dm A) (dn A)
                  (fun k l => if k =? j then d_get o A j l + d_get o A i l * r else d_get o A k l)
    | None => ~ ((i < dm A)%nat /\ (j < dm A)%nat)
    end.
  Proof. unfold d_add_row_to. apply d_guarded_spec; apply Nat.ltb_lt. Qed.

  Theorem d_add_row_to_mmul A i j r B :
    d_add_row_to o A i j r = Some B ->
    dm B = dm A /\ dn B = dn A /\ d_wf B /\
    meq (dm A) (dn A) (d_get o B) (mmul o (dm A) (e_add o i j r) (d_get o A)).
  Proof.
    intros E. pose proof (d_add_row_to_spec A i j r) as S. rewrite E in S. destruct S as (Hi & Hj & S).
    apply (d_is_meq _ _ _ _ _ S). intros k l Hk _. rewrite mmul_eadd_l by assumption.
    destruct (Nat.eqb_spec k j) as [->|Hne]; ring.
  Qed.

  Lemma d_left_elementary_spec A a b c d i j :
    match d_left_elementary o A a b c d i j with
    | Some B => (i < dm A)%nat /\ (j < dm A)%nat /\
                d_is B (dm A) (dn A)
                  (fun k l => if k =? j then d_get o A i l * c + d_get o A j l * d
                              else if k =? i then d_get o A i l * a + d_get o A j l * b
                              else d_get o A k l)
    | None => ~ ((i < dm A)%nat /\ (j < dm A)%nat)
    end.
  Proof. unfold d_left_elementary. apply d_guarded_spec; apply Nat.ltb_lt. Qed.

  (* left_elementary([a,b,c,d], i, j) with i <> j is multiplication from the left by the matrix that is
     the identity except for E[i,i] = a, E[i,j] = b, E[j,i] = c, E[j,j] = d *)
  Theorem d_left_elementary_mmul A a b c d i j B : i <> j ->
    d_left_elementary o A a b c d i j = Some B ->
    dm B = dm A /\ dn B = dn A /\ d_wf B /\
    meq (dm A) (dn A) (d_get o B) (mmul o (dm A) (e_elem o a b c d i j) (d_get o A)).
  Proof.
    intros Hij E. pose proof (d_left_elementary_spec A a b c d i j) as S. rewrite E in S.
    destruct S as (Hi & Hj & S). apply (d_is_meq _ _ _ _ _ S). intros k l Hk _.
    rewrite mmul_elem_l by assumption. destruct (Nat.eqb_spec k j) as [->|Hkj].
    - destruct (Nat.eqb_spec j i); [congruence|]. ring.
    - destruct (Nat.eqb_spec k i) as [->|Hki]; ring.
  Qed.

  (* for i = j the code's second assignment wins: row i becomes (c + d) * row i *)
  Lemma d_left_elementary_same A a b c d i B :
    d_left_elementary o A a b c d i i = Some B ->
    meq (dm A) (dn A) (d_get o B) (mmul o (dm A) (e_scal o i (c + d)) (d_get o A)).
  Proof.
    intros E. pose proof (d_left_elementary_spec A a b c d i i) as S. rewrite E in S. destruct S as (Hi & _ & S).
    apply (d_is_meq _ _ _ _ _ S). intros k l Hk _. rewrite mmul_escal_l by assumption.
    destruct (Nat.eqb_spec k i) as [->|Hki]; ring.
  Qed.

  Lemma d_swap_cols_spec A i j :
    match d_swap_cols o A i j with
    | Some B => (i < dn A)%nat /\ (j < dn A)%nat /\
                d_is B (dm A) (dn A) (fun k l => d_get o A k (swap_idx i j l))
    | None => ~ ((i < dn A)%nat /\ (j < dn A)%nat)
    end.
  Proof. unfold d_swap_cols. apply d_guarded_spec; apply Nat.ltb_lt. Qed.

  Theorem d_swap_cols_mmul A i j B :
    d_swap_cols o A i j = Some B ->
    dm B = dm A /\ dn B = dn A /\ d_wf B /\
    meq (dm A) (dn A) (d_get o B) (mmul o (dn A) (d_get o A) (e_swap o i j)).
  Proof.
    intros E. pose proof (d_swap_cols_spec A i j) as S. rewrite E in S. destruct S as (Hi & Hj & S).
    apply (d_is_meq _ _ _ _ _ S). intros k l _ Hl. rewrite mmul_swap_r by assumption. ring.
  Qed.

  Lemma d_mul_col_spec A j r :
    match d_mul_col o A j r with
    | Some B => (j < dn A)%nat /\
                d_is B (dm A) (dn A) (fun k l => if l =? j then d_get o A k l * r else d_get o A k l)
    | None => (dn A <= j)%nat
    end.
  Proof.
    unfold d_mul_col. destruct (j <? dn A) eqn:E.
    - apply Nat.ltb_lt in E. split; [exact E|apply d_is_mk].
    - now apply Nat.ltb_ge in E.
  Qed.

  Theorem d_mul_col_mmul A j r B :
    d_mul_col o A j r = Some B ->
    dm B = dm A /\ dn B = dn A /\ d_wf B /\
    meq (dm A) (dn A) (d_get o B) (mmul o (dn A) (d_get o A) (e_scal o j r)).
  Proof.
    intros E. pose proof (d_mul_col_spec A j r) as S. rewrite E in S. destruct S as (Hj & S).
    apply (d_is_meq _ _ _ _ _ S). intros k l _ Hl. rewrite mmul_escal_r by assumption. destruct (l =? j); ring.
  Qed.

  Lemma d_add_col_to_spec A i j r :
    match d_add_col_to o A i j r with
    | Some B => (i < dn A)%nat /\ (j < dn A)%nat /\
                d_is B (dm A) (dn A)
                  (fun k l => if l =? j then d_get o A k j + d_get o A k i * r else d_get o A k l)
    | None => ~ ((i < dn A)%nat /\ (j < dn A)%nat)
    end.
  Proof. unfold d_add_col_to. apply d_guarded_spec; apply Nat.ltb_lt. Qed.

  (* add_col_to(i, j, r): column j += r * column i  =  A * (I + r E_{i,j}) *)
  Theorem d_add_col_to_mmul A i j r B :
    d_add_col_to o A i j r = Some B ->
    dm B = dm A /\ dn B = dn A /\ d_wf B /\
    meq (dm A) (dn A) (d_get o B) (mmul o (dn A) (d_get o A) (e_add o j i r)).
  Proof.
    intros E. pose proof (d_add_col_to_spec A i j r) as S. rewrite E in S. destruct S as (Hi & Hj & S).
    apply (d_is_meq _ _ _ _ _ S). intros k l _ Hl. rewrite mmul_eadd_r by assumption.
    destruct (Nat.eqb_spec l j) as [->|Hne]; ring.
  Qed.

  Lemma d_right_elementary_spec A a b c d i j :
    match d_right_elementary o A a b c d i j with
    | Some B => (i < dn A)%nat /\ (j < dn A)%nat /\
                d_is B (dm A) (dn A)
                  (fun k l => if l =? j then d_get o A k i * c + d_get o A k j * d
                              else if l =? i then d_get o A k i * a + d_get o A k j * b
                              else d_get o A k l)
    | None => ~ ((i < dn A)%nat /\ (j < dn A)%nat)
    end.
  Proof. unfold d_right_elementary. apply d_guarded_spec; apply Nat.ltb_lt. Qed.

  (* right_elementary([a,b,c,d], i, j) with i <> j is multiplication from the right by the matrix that is
     the identity except for E[i,i] = a, E[j,i] = b, E[i,j] = c, E[j,j] = d  (= e_elem a c b d i j) *)
  Theorem d_right_elementary_mmul A a b c d i j B : i <> j ->
    d_right_elementary o A a b c d i j = Some B ->
    dm B = dm A /\ dn B = dn A /\ d_wf B /\
    meq (dm A) (dn A) (d_get o B) (mmul o (dn A) (d_get o A) (e_elem o a c b d i j)).
  Proof.
    intros Hij E. pose proof (d_right_elementary_spec A a b c d i j) as S. rewrite E in S.
    destruct S as (Hi & Hj & S). apply (d_is_meq _ _ _ _ _ S). intros k l _ Hl.
    rewrite mmul_elem_r by assumption. destruct (Nat.eqb_spec l j) as [->|Hlj].
    - destruct (Nat.eqb_spec j i); [congruence|]. ring.
    - destruct (Nat.eqb_spec l i) as [->|Hli]; ring.
  Qed.

  Lemma d_eqb_spec A B : d_wf A -> d_wf B ->
    d_eqb o A B = true <-> A = B.
  Proof.
    intros WA WB. unfold d_eqb. rewrite !andb_true_iff, !Nat.eqb_eq, (leqb_meq o L). split.
    - intros [[E1 E2] E3]. destruct A as [ma na da], B as [mb nb db]. cbn [dm dn dd] in *. subst.
      f_equal. apply (lmat_ext o mb nb); assumption.
    - intros ->. splits; try reflexivity. intros i j _ _. reflexivity.
  Qed.
End DenseProofs.
