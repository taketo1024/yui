(* One reduction step of the model (permutation by the pivots + Schur complement) is a strong
   deformation retraction: transport of the block theorem (C08Block.v) along the permutations. *)
From Coq Require Import Arith List Lia Bool Ring Permutation.
Require Import Yui.Base.Ring Yui.Base.MatF Yui.Base.MatL Yui.Model.Reducer.
Require Import Yui.Proofs.C08Mat Yui.Proofs.C08Perm Yui.Proofs.C08Tri Yui.Proofs.C08Block.
Import ListNotations.

Lemma dr_row_perm {R} (o : ring_ops R) v : dr (row_perm_mat o v) = length v. Proof. reflexivity. Qed.
Lemma dc_row_perm {R} (o : ring_ops R) v : dc (row_perm_mat o v) = length v. Proof. reflexivity. Qed.
Lemma dr_col_perm {R} (o : ring_ops R) v : dr (col_perm_mat o v) = length v. Proof. reflexivity. Qed.
Lemma dc_col_perm {R} (o : ring_ops R) v : dc (col_perm_mat o v) = length v. Proof. reflexivity. Qed.
Lemma dr_proj {R} (o : ring_ops R) n k : dr (proj o n k) = k. Proof. reflexivity. Qed.
Lemma dc_proj {R} (o : ring_ops R) n k : dc (proj o n k) = n. Proof. reflexivity. Qed.
Lemma dr_incl {R} (o : ring_ops R) n k : dr (incl o n k) = n. Proof. reflexivity. Qed.
Lemma dc_incl {R} (o : ring_ops R) n k : dc (incl o n k) = k. Proof. reflexivity. Qed.
Lemma dr_permute {R} (o : ring_ops R) A vp vq : dr (permute o A vp vq) = dr A. Proof. reflexivity. Qed.
Lemma dc_permute {R} (o : ring_ops R) A vp vq : dc (permute o A vp vq) = dc A. Proof. reflexivity. Qed.
Lemma dr_rmr {R} (o : ring_ops R) A v r : dr (reduce_mat_rows o A v r) = dr A - r. Proof. reflexivity. Qed.
Lemma dc_rmr {R} (o : ring_ops R) A v r : dc (reduce_mat_rows o A v r) = dc A. Proof. reflexivity. Qed.
Lemma dr_rmc {R} (o : ring_ops R) A v r : dr (reduce_mat_cols o A v r) = dr A. Proof. reflexivity. Qed.
Lemma dc_rmc {R} (o : ring_ops R) A v r : dc (reduce_mat_cols o A v r) = dc A - r. Proof. reflexivity. Qed.

Lemma dwf_row_perm {R} (o : ring_ops R) v : dwf (row_perm_mat o v). Proof. apply dwf_dmk. Qed.
Lemma dwf_col_perm {R} (o : ring_ops R) v : dwf (col_perm_mat o v). Proof. apply dwf_dmk. Qed.
Lemma dwf_proj {R} (o : ring_ops R) n k : dwf (proj o n k). Proof. apply dwf_dmk. Qed.
Lemma dwf_incl {R} (o : ring_ops R) n k : dwf (incl o n k). Proof. apply dwf_dmk. Qed.
Lemma dwf_permute {R} (o : ring_ops R) A vp vq : dwf (permute o A vp vq). Proof. apply dwf_dmk. Qed.
Lemma dwf_rmr {R} (o : ring_ops R) A v r : dwf (reduce_mat_rows o A v r). Proof. apply dwf_dmk. Qed.
Lemma dwf_rmc {R} (o : ring_ops R) A v r : dwf (reduce_mat_cols o A v r). Proof. apply dwf_dmk. Qed.
#[export] Hint Resolve dwf_row_perm dwf_col_perm dwf_proj dwf_incl dwf_permute dwf_rmr dwf_rmc : dwf.

Section PermAlg.
  Context {R : Type} (o : ring_ops R) (L : ring_laws o).
  Local Notation dmat := (dmat R).
  Local Notation dwf := (@dwf R).
  Context (n : nat) (v : list nat) (Hv : is_perm n v).
  Local Notation P := (row_perm_mat o v).
  Local Notation P' := (col_perm_mat o v).

  Lemma P'P_cancel_l (X : dmat) : dwf X -> dr X = n -> dmul o P' (dmul o P X) = X.
  Proof. exact (dmul_cancel_l o L P P' X n eq_refl (col_row_perm o L n v Hv)). Qed.
  Lemma PP'_cancel_l (X : dmat) : dwf X -> dr X = n -> dmul o P (dmul o P' X) = X.
  Proof. exact (dmul_cancel_l o L P' P X n eq_refl (row_col_perm o L n v Hv)). Qed.
  Lemma P'P_cancel_r (X : dmat) : dwf X -> dc X = n -> dmul o (dmul o X P') P = X.
  Proof. exact (dmul_cancel_r o L P' P X n (col_row_perm o L n v Hv)). Qed.
  Lemma PP'_cancel_r (X : dmat) : dwf X -> dc X = n -> dmul o (dmul o X P) P' = X.
  Proof. exact (dmul_cancel_r o L P P' X n (row_col_perm o L n v Hv)). Qed.
End PermAlg.

Section ProjIncl.
  Context {R : Type} (o : ring_ops R) (L : ring_laws o).

  Lemma proj_blocks n r : r <= n -> proj o n (n - r) = dhcat o (dzero o (n - r) r) (did o (n - r)).
  Proof.
    intros H. apply (dmat_ext o); dwfs; dims. intros i j Hi Hj.
    unfold proj. rewrite dget_dmk by lia. rewrite (dget_dhcat o) by dims. dims.
    replace (n - (n - r)) with r by lia.
    destruct (Nat.ltb_spec j r).
    - rewrite (dget_dzero o). destruct (Nat.eqb_spec j (r + i)); [lia|reflexivity].
    - rewrite (dget_did o) by lia. unfold mid.
      destruct (Nat.eqb_spec j (r + i)); destruct (Nat.eqb_spec i (j - r)); try reflexivity; lia.
  Qed.

  Lemma incl_blocks m r : r <= m -> incl o m (m - r) = dvcat o (dzero o r (m - r)) (did o (m - r)).
  Proof.
    intros H. apply (dmat_ext o); dwfs; dims. intros i j Hi Hj.
    unfold incl. rewrite dget_dmk by lia. rewrite (dget_dvcat o) by dims. dims.
    replace (m - (m - r)) with r by lia.
    destruct (Nat.ltb_spec i r).
    - rewrite (dget_dzero o). destruct (Nat.eqb_spec i (r + j)); [lia|reflexivity].
    - rewrite (dget_did o) by lia. unfold mid.
      destruct (Nat.eqb_spec i (r + j)); destruct (Nat.eqb_spec (i - r) j); try reflexivity; lia.
  Qed.
End ProjIncl.

Section BlkDims.
  Context {R : Type} (o : ring_ops R).
  Context (r mr nr l k : nat) (fa fb fc fd fx fy fz fw fi : nat -> nat -> R).
  Lemma dr_blk_A : dr (blk_A o r mr nr fa fb fc fd) = r + mr. Proof. reflexivity. Qed.
  Lemma dc_blk_A : dc (blk_A o r mr nr fa fb fc fd) = r + nr. Proof. reflexivity. Qed.
  Lemma dr_blk_a0 : dr (blk_a0 o r nr l fx fy) = r + nr. Proof. reflexivity. Qed.
  Lemma dc_blk_a0 : dc (blk_a0 o r nr l fx fy) = l. Proof. reflexivity. Qed.
  Lemma dr_blk_a2 : dr (blk_a2 o r mr k fz fw) = k. Proof. reflexivity. Qed.
  Lemma dc_blk_a2 : dc (blk_a2 o r mr k fz fw) = r + mr. Proof. reflexivity. Qed.
  Lemma dr_blk_s : dr (blk_s o r mr nr fb fc fd fi) = mr. Proof. reflexivity. Qed.
  Lemma dc_blk_s : dc (blk_s o r mr nr fb fc fd fi) = nr. Proof. reflexivity. Qed.
  Lemma dr_blk_fs : dr (blk_fs o r nr) = nr. Proof. reflexivity. Qed.
  Lemma dc_blk_fs : dc (blk_fs o r nr) = r + nr. Proof. reflexivity. Qed.
  Lemma dr_blk_bs : dr (blk_bs o r nr fb fi) = r + nr. Proof. reflexivity. Qed.
  Lemma dc_blk_bs : dc (blk_bs o r nr fb fi) = nr. Proof. reflexivity. Qed.
  Lemma dr_blk_ft : dr (blk_ft o r mr fc fi) = mr. Proof. reflexivity. Qed.
  Lemma dc_blk_ft : dc (blk_ft o r mr fc fi) = r + mr. Proof. reflexivity. Qed.
  Lemma dr_blk_bt : dr (blk_bt o r mr) = r + mr. Proof. reflexivity. Qed.
  Lemma dc_blk_bt : dc (blk_bt o r mr) = mr. Proof. reflexivity. Qed.
  Lemma dr_blk_h : dr (blk_h o r mr nr fi) = r + nr. Proof. reflexivity. Qed.
  Lemma dc_blk_h : dc (blk_h o r mr nr fi) = r + mr. Proof. reflexivity. Qed.
  Lemma dwf_blk_A : dwf (blk_A o r mr nr fa fb fc fd). Proof. apply dwf_dmk. Qed.
  Lemma dwf_blk_a0 : dwf (blk_a0 o r nr l fx fy). Proof. apply dwf_dmk. Qed.
  Lemma dwf_blk_a2 : dwf (blk_a2 o r mr k fz fw). Proof. apply dwf_dmk. Qed.
  Lemma dwf_blk_s : dwf (blk_s o r mr nr fb fc fd fi). Proof. apply dwf_dmk. Qed.
  Lemma dwf_blk_fs : dwf (blk_fs o r nr). Proof. apply dwf_dmk. Qed.
  Lemma dwf_blk_bs : dwf (blk_bs o r nr fb fi). Proof. apply dwf_dmk. Qed.
  Lemma dwf_blk_ft : dwf (blk_ft o r mr fc fi). Proof. apply dwf_dmk. Qed.
  Lemma dwf_blk_bt : dwf (blk_bt o r mr). Proof. apply dwf_dmk. Qed.
  Lemma dwf_blk_h : dwf (blk_h o r mr nr fi). Proof. apply dwf_dmk. Qed.
End BlkDims.
#[export] Hint Resolve dwf_blk_A dwf_blk_a0 dwf_blk_a2 dwf_blk_s dwf_blk_fs dwf_blk_bs dwf_blk_ft dwf_blk_bt dwf_blk_h : dwf.

(* the forward / backward maps of one step (what the step does to an identity Trans) and its homotopy *)
Section StepDefs.
  Context {R : Type} (o : ring_ops R).
  Definition step_f1 (n r : nat) (vq : list nat) : dmat R :=
    dmul o (proj o n (n - r)) (row_perm_mat o vq).
  Definition step_b1 (n r : nat) (vq : list nat) (sc : schur R) : dmat R :=
    dmul o (col_perm_mat o vq) (dvcat o (dneg o (sc_ainvb sc)) (did o (n - r))).
  Definition step_f2 (m r : nat) (vp : list nat) (sc : schur R) : dmat R :=
    dmul o (dhcat o (dneg o (sc_cainv sc)) (did o (m - r))) (row_perm_mat o vp).
  Definition step_b2 (m r : nat) (vp : list nat) : dmat R :=
    dmul o (col_perm_mat o vp) (incl o m (m - r)).
  Definition step_h (m n r : nat) (vp vq : list nat) (sc : schur R) : dmat R :=
    dmul o (col_perm_mat o vq)
      (dmul o (dvcat o (dhcat o (sc_ainv sc) (dzero o r (m - r))) (dzero o (n - r) (r + (m - r))))
              (row_perm_mat o vp)).
End StepDefs.

Section Step.
  Context {R : Type} (o : ring_ops R) (L : ring_laws o) (u : unit_ops R) (UL : unit_laws o u).
  Add Ring RringS : (ring_theory_of_laws o L).
  Local Notation dmat := (dmat R).
  Local Notation dwf := (@dwf R).
  Context (a1 : dmat) (m n r : nat) (vp vq : list nat) (t : ttype) (sc : schur R).
  Context (W1 : dwf a1) (Hm : dr a1 = m) (Hn : dc a1 = n) (Hp : is_perm m vp) (Hq : is_perm n vq).
  Context (Htri : tri_ok o t (dblock o (permute o a1 vp vq) 0 0 r r) r)
          (Hsc : schur_of o u t (permute o a1 vp vq) r = Some sc).
  Local Notation P := (row_perm_mat o vp).
  Local Notation P' := (col_perm_mat o vp).
  Local Notation Q := (row_perm_mat o vq).
  Local Notation Q' := (col_perm_mat o vq).
  Local Notation A' := (permute o a1 vp vq).

  Let mr := m - r.
  Let nr := n - r.
  Let fa := fun i j => dget o A' (0 + i) (0 + j).
  Let fb := fun i j => dget o A' (0 + i) (r + j).
  Let fc := fun i j => dget o A' (r + i) (0 + j).
  Let fd := fun i j => dget o A' (r + i) (r + j).
  Let fi := dget o (sc_ainv sc).

  Lemma Lp : length vp = m. Proof. exact (perm_length m vp Hp). Qed.
  Lemma Lq : length vq = n. Proof. exact (perm_length n vq Hq). Qed.

  Lemma sc_unfold :
    r <= m /\ r <= n /\
    dmul o (dmk r r fa) (dmk r r fi) = did o r /\ dmul o (dmk r r fi) (dmk r r fa) = did o r /\
    sc_ainv sc = dmk r r fi /\
    sc_ainvb sc = dmul o (dmk r r fi) (dmk r nr fb) /\
    sc_cainv sc = dmul o (dmk mr r fc) (dmk r r fi) /\
    sc_c sc = dmk mr r fc /\
    sc_s sc = blk_s o r mr nr fb fc fd fi.
  Proof.
    pose proof Hsc as E. unfold schur_of in E. rewrite dr_permute, dc_permute, Hm, Hn in E.
    destruct ((r <=? m) && (r <=? n)) eqn:Eb; [|discriminate].
    apply andb_true_iff in Eb. destruct Eb as [E1 E2]. apply Nat.leb_le in E1, E2.
    destruct (tri_inv o u t (dblock o A' 0 0 r r) r) as [X|] eqn:EX; [|discriminate].
    cbn [obind] in E.
    destruct (tri_inv_spec o L u UL t (dblock o A' 0 0 r r) r X (dwf_dblock _ _ _ _ _ _) eq_refl eq_refl Htri EX)
      as (WX & HXr & HXc & H1 & H2).
    assert (EX' : X = dmk r r (dget o X)).
    { pose proof (dmk_eta o X WX) as Ee. rewrite HXr, HXc in Ee. now symmetry. }
    injection E as <-. subst fi. cbn [sc_s sc_ainv sc_ainvb sc_cainv sc_c].
    split; [exact E1|]. split; [exact E2|].
    rewrite <- EX'. repeat split; try assumption.
    unfold blk_s, blk_ainvb. rewrite <- EX'. reflexivity.
  Qed.

  Lemma rm : r + mr = m. Proof. destruct sc_unfold as (E1 & E2 & _). subst mr. lia. Qed.
  Lemma rn : r + nr = n. Proof. destruct sc_unfold as (E1 & E2 & _). subst nr. lia. Qed.

  (* side: close a well-formedness or shape side condition, the shapes read off Lp, Lq, rm, rn *)
  Ltac side := solve [dwfs | shapes; rewrite ?Lp, ?Lq, ?rm, ?rn; subst mr nr; (lia || reflexivity)].

  Lemma permute_eq : A' = dmul o P (dmul o a1 Q').
  Proof.
    rewrite (dmul_col_perm o L n vq a1 Hq Hn).
    rewrite (dmul_row_perm o L m vp _ Hp) by (shapes; exact Hm).
    unfold permute. rewrite Hm, Hn. shapes. apply (dmk_ext o). intros k j Hk Hj.
    rewrite dget_dmk; [reflexivity| |assumption]. now apply (perm_lt m vp Hp).
  Qed.

  Lemma A'_blocks : A' = blk_A o r mr nr fa fb fc fd.
  Proof.
    destruct sc_unfold as (E1 & E2 & _).
    rewrite (dblock_decomp o A' r) at 1 by side. shapes. rewrite Hm, Hn. reflexivity.
  Qed.

  Lemma PA_eq : dmul o P a1 = dmul o A' Q.
  Proof.
    rewrite permute_eq. rewrite <- (dmul_assoc o L P) by side.
    now rewrite (P'P_cancel_r o L n vq Hq) by side.
  Qed.

  Lemma AQ_eq : dmul o a1 Q' = dmul o P' A'.
  Proof.
    rewrite permute_eq. now rewrite (P'P_cancel_l o L m vp Hp) by side.
  Qed.

  Local Notation fsB := (blk_fs o r nr).
  Local Notation bsB := (blk_bs o r nr fb fi).
  Local Notation ftB := (blk_ft o r mr fc fi).
  Local Notation btB := (blk_bt o r mr).
  Local Notation hB := (blk_h o r mr nr fi).
  Local Notation sB := (blk_s o r mr nr fb fc fd fi).

  Lemma f1_eq : step_f1 o n r vq = dmul o fsB Q.
  Proof. destruct sc_unfold as (E1 & E2 & _). unfold step_f1. now rewrite (proj_blocks o) by assumption. Qed.
  Lemma b1_eq : step_b1 o n r vq sc = dmul o Q' bsB.
  Proof. destruct sc_unfold as (_ & _ & _ & _ & _ & E & _). unfold step_b1. now rewrite E. Qed.
  Lemma f2_eq : step_f2 o m r vp sc = dmul o ftB P.
  Proof. destruct sc_unfold as (_ & _ & _ & _ & _ & _ & E & _). unfold step_f2. now rewrite E. Qed.
  Lemma b2_eq : step_b2 o m r vp = dmul o P' btB.
  Proof. destruct sc_unfold as (E1 & E2 & _). unfold step_b2. now rewrite (incl_blocks o) by assumption. Qed.
  Lemma h_eq : step_h o m n r vp vq sc = dmul o Q' (dmul o hB P).
  Proof. destruct sc_unfold as (_ & _ & _ & _ & E & _). unfold step_h. now rewrite E. Qed.
  Lemma s_eq : sc_s sc = sB.
  Proof. now destruct sc_unfold as (_ & _ & _ & _ & _ & _ & _ & _ & E). Qed.

  Lemma step_dims :
    dr (step_f1 o n r vq) = n - r /\ dc (step_f1 o n r vq) = n /\
    dr (step_b1 o n r vq sc) = n /\ dc (step_b1 o n r vq sc) = n - r /\
    dr (step_f2 o m r vp sc) = m - r /\ dc (step_f2 o m r vp sc) = m /\
    dr (step_b2 o m r vp) = m /\ dc (step_b2 o m r vp) = m - r /\
    dr (step_h o m n r vp vq sc) = n /\ dc (step_h o m n r vp vq sc) = m /\
    dr (sc_s sc) = m - r /\ dc (sc_s sc) = n - r /\ dwf (sc_s sc) /\ r <= m /\ r <= n.
  Proof.
    destruct sc_unfold as (E1 & E2 & _).
    rewrite f1_eq, b1_eq, f2_eq, b2_eq, h_eq, s_eq. shapes. rewrite ?Lp, ?Lq.
    subst mr nr. repeat match goal with |- _ /\ _ => split end; try lia. dwfs.
  Qed.

  Theorem step_f_chain : dmul o (step_f2 o m r vp sc) a1 = dmul o (sc_s sc) (step_f1 o n r vq).
  Proof.
    destruct sc_unfold as (_ & _ & Hi1 & Hi2 & _).
    rewrite f2_eq, f1_eq, s_eq. rewrite (dmul_assoc o L) by side. rewrite PA_eq.
    rewrite <- (dmul_assoc o L) by side. rewrite A'_blocks.
    rewrite (blk_f_chain o L r mr nr fa fb fc fd fi Hi2). now rewrite (dmul_assoc o L) by side.
  Qed.

  Theorem step_b_chain : dmul o a1 (step_b1 o n r vq sc) = dmul o (step_b2 o m r vp) (sc_s sc).
  Proof.
    destruct sc_unfold as (_ & _ & Hi1 & Hi2 & _).
    rewrite b2_eq, b1_eq, s_eq. rewrite <- (dmul_assoc o L) by side. rewrite AQ_eq.
    rewrite (dmul_assoc o L) by side. rewrite A'_blocks.
    rewrite (blk_b_chain o L r mr nr fa fb fc fd fi Hi1). now rewrite <- (dmul_assoc o L) by side.
  Qed.

  Theorem step_fb_src : dmul o (step_f1 o n r vq) (step_b1 o n r vq sc) = did o (n - r).
  Proof.
    rewrite f1_eq, b1_eq. rewrite (dmul_assoc o L) by side.
    rewrite (PP'_cancel_l o L n vq Hq) by side. apply (blk_fb_src o L).
  Qed.

  Theorem step_fb_tgt : dmul o (step_f2 o m r vp sc) (step_b2 o m r vp) = did o (m - r).
  Proof.
    rewrite f2_eq, b2_eq. rewrite (dmul_assoc o L) by side.
    rewrite (PP'_cancel_l o L m vp Hp) by side. apply (blk_fb_tgt o L).
  Qed.

  Theorem step_homotopy_src :
    dadd o (dmul o (step_b1 o n r vq sc) (step_f1 o n r vq)) (dmul o (step_h o m n r vp vq sc) a1) = did o n.
  Proof.
    destruct sc_unfold as (_ & _ & Hi1 & Hi2 & _).
    rewrite f1_eq, b1_eq, h_eq.
    rewrite (dmul_assoc o L Q') by side. rewrite <- (dmul_assoc o L bsB) by side.
    rewrite (dmul_assoc o L Q' (dmul o hB P)) by side. rewrite (dmul_assoc o L hB) by side.
    rewrite PA_eq. rewrite <- (dmul_assoc o L hB) by side.
    rewrite <- (dmul_add_r o L) by side. rewrite <- (dmul_add_l o L) by side.
    rewrite A'_blocks. rewrite (blk_homotopy_src o L r mr nr fa fb fc fd fi Hi2).
    rewrite rn. rewrite (dmul_id_l o L) by side. apply (col_row_perm o L n vq Hq).
  Qed.

  Theorem step_homotopy_tgt :
    dadd o (dmul o (step_b2 o m r vp) (step_f2 o m r vp sc)) (dmul o a1 (step_h o m n r vp vq sc)) = did o m.
  Proof.
    destruct sc_unfold as (_ & _ & Hi1 & Hi2 & _).
    rewrite f2_eq, b2_eq, h_eq.
    rewrite (dmul_assoc o L P') by side. rewrite <- (dmul_assoc o L btB) by side.
    rewrite <- (dmul_assoc o L a1) by side. rewrite AQ_eq.
    rewrite (dmul_assoc o L P' A') by side. rewrite <- (dmul_assoc o L A') by side.
    rewrite <- (dmul_add_r o L) by side. rewrite <- (dmul_add_l o L) by side.
    rewrite A'_blocks. rewrite (blk_homotopy_tgt o L r mr nr fa fb fc fd fi Hi1).
    rewrite rm. rewrite (dmul_id_l o L) by side. apply (col_row_perm o L m vp Hp).
  Qed.

  Theorem step_fh : dmul o (step_f1 o n r vq) (step_h o m n r vp vq sc) = dzero o (n - r) m.
  Proof.
    rewrite f1_eq, h_eq. rewrite (dmul_assoc o L) by side.
    rewrite (PP'_cancel_l o L n vq Hq) by side. rewrite <- (dmul_assoc o L) by side.
    rewrite (blk_fh o L). rewrite (dmul_zero_l o L). shapes. now rewrite Lp.
  Qed.

  Theorem step_hb : dmul o (step_h o m n r vp vq sc) (step_b2 o m r vp) = dzero o n (m - r).
  Proof.
    rewrite b2_eq, h_eq. rewrite (dmul_assoc o L) by side. rewrite (dmul_assoc o L hB) by side.
    rewrite (PP'_cancel_l o L m vp Hp) by side.
    rewrite (blk_hb o L). rewrite (dmul_zero_r o L). shapes. now rewrite Lq.
  Qed.

  Section WithA0.
    Context (a0 : dmat) (W0 : dwf a0) (H0r : dr a0 = n) (H10 : dmul o a1 a0 = dzero o m (dc a0)).
    Let l := dc a0.
    Local Notation a0p := (dmul o Q a0).
    Let fx := fun i j => dget o a0p (0 + i) (0 + j).
    Let fy := fun i j => dget o a0p (r + i) (0 + j).

    Lemma a0p_blocks : a0p = blk_a0 o r nr l fx fy.
    Proof.
      destruct sc_unfold as (E1 & E2 & _).
      rewrite (dvcat_decomp o a0p r) at 1 by side. shapes. rewrite Lq. reflexivity.
    Qed.

    Lemma a0'_eq : reduce_mat_rows o a0 vq r = dmk nr l fy.
    Proof.
      destruct sc_unfold as (E1 & E2 & _).
      unfold reduce_mat_rows. rewrite H0r. apply (dmk_ext o). intros i j Hi Hj. subst fy. cbn beta.
      rewrite (dmul_row_perm o L n vq a0 Hq H0r). rewrite dget_dmk by lia. reflexivity.
    Qed.

    Lemma A'a0p_zero : dmul o A' a0p = dzero o m l.
    Proof.
      rewrite permute_eq. rewrite (dmul_assoc o L) by side. rewrite (dmul_assoc o L a1) by side.
      rewrite (P'P_cancel_l o L n vq Hq) by side. rewrite H10. rewrite (dmul_zero_r o L).
      shapes. now rewrite Lp.
    Qed.

    Lemma blk_hyp_src :
      dadd o (dmul o (dmk r r fa) (dmk r l fx)) (dmul o (dmk r nr fb) (dmk nr l fy)) = dzero o r l /\
      dadd o (dmul o (dmk mr r fc) (dmk r l fx)) (dmul o (dmk mr nr fd) (dmk nr l fy)) = dzero o mr l.
    Proof.
      pose proof A'a0p_zero as E. rewrite A'_blocks, a0p_blocks in E.
      unfold blk_A, blk_a0 in E. rewrite (dmul_vcat_l o) in E by side.
      rewrite !(dmul_hcat_vcat o L) in E by side.
      rewrite <- rm in E. rewrite <- (dzero_vcat o r mr l) in E.
      apply (dvcat_inj o) in E; try side; try exact E.
    Qed.

    Theorem step_a0_f : dmul o (step_f1 o n r vq) a0 = reduce_mat_rows o a0 vq r.
    Proof.
      rewrite f1_eq, a0'_eq. rewrite (dmul_assoc o L) by side. rewrite a0p_blocks.
      apply (blk_fs_a0 o L).
    Qed.

    Theorem step_a0_b : dmul o (step_b1 o n r vq sc) (reduce_mat_rows o a0 vq r) = a0.
    Proof.
      destruct sc_unfold as (_ & _ & Hi1 & Hi2 & _). destruct blk_hyp_src as (Hax & Hcx).
      rewrite b1_eq, a0'_eq. rewrite (dmul_assoc o L) by side.
      rewrite (blk_a0_factor o L r nr l fa fb fx fy fi Hi2 Hax). rewrite <- a0p_blocks.
      now rewrite (P'P_cancel_l o L n vq Hq) by side.
    Qed.

    Theorem step_complex_src : dmul o (sc_s sc) (reduce_mat_rows o a0 vq r) = dzero o (m - r) (dc a0).
    Proof.
      destruct sc_unfold as (_ & _ & Hi1 & Hi2 & _). destruct blk_hyp_src as (Hax & Hcx).
      rewrite s_eq, a0'_eq. apply (blk_complex_src o L r mr nr l fa fb fc fd fx fy fi Hi2 Hax Hcx).
    Qed.
  End WithA0.

  Section WithA2.
    Context (a2 : dmat) (W2 : dwf a2) (H2c : dc a2 = m) (H21 : dmul o a2 a1 = dzero o (dr a2) n).
    Let k := dr a2.
    Local Notation a2p := (dmul o a2 P').
    Let fz := fun i j => dget o a2p (0 + i) (0 + j).
    Let fw := fun i j => dget o a2p (0 + i) (r + j).

    Lemma a2p_blocks : a2p = blk_a2 o r mr k fz fw.
    Proof.
      destruct sc_unfold as (E1 & E2 & _).
      rewrite (dhcat_decomp o a2p r) at 1 by side. shapes. rewrite Lp. reflexivity.
    Qed.

    Lemma a2'_eq : reduce_mat_cols o a2 vp r = dmk k mr fw.
    Proof.
      destruct sc_unfold as (E1 & E2 & _).
      unfold reduce_mat_cols. rewrite H2c. apply (dmk_ext o). intros i j Hi Hj. subst fw. cbn beta.
      rewrite (dmul_col_perm o L m vp a2 Hp H2c). rewrite dget_dmk by lia. reflexivity.
    Qed.

    Lemma a2pA'_zero : dmul o a2p A' = dzero o k n.
    Proof.
      rewrite permute_eq. rewrite (dmul_assoc o L) by side.
      rewrite (P'P_cancel_l o L m vp Hp) by side. rewrite <- (dmul_assoc o L) by side.
      rewrite H21. rewrite (dmul_zero_l o L). shapes. now rewrite Lq.
    Qed.

    Lemma blk_hyp_tgt :
      dadd o (dmul o (dmk k r fz) (dmk r r fa)) (dmul o (dmk k mr fw) (dmk mr r fc)) = dzero o k r /\
      dadd o (dmul o (dmk k r fz) (dmk r nr fb)) (dmul o (dmk k mr fw) (dmk mr nr fd)) = dzero o k nr.
    Proof.
      pose proof a2pA'_zero as E. rewrite A'_blocks, a2p_blocks in E.
      unfold blk_A, blk_a2 in E. rewrite (dmul_hcat_vcat o L) in E by side.
      rewrite !(dmul_hcat_r o) in E by side. rewrite (dadd_hcat o) in E by side.
      rewrite <- rn in E. rewrite <- (dzero_hcat o k r nr) in E.
      apply (dhcat_inj o) in E; try side; try exact E.
    Qed.

    Theorem step_a2_f : dmul o (reduce_mat_cols o a2 vp r) (step_f2 o m r vp sc) = a2.
    Proof.
      destruct sc_unfold as (_ & _ & Hi1 & Hi2 & _). destruct blk_hyp_tgt as (Hza & Hzb).
      rewrite f2_eq, a2'_eq. rewrite <- (dmul_assoc o L) by side.
      rewrite (blk_a2_factor o L r mr k fa fc fz fw fi Hi1 Hza). rewrite <- a2p_blocks.
      now rewrite (P'P_cancel_r o L m vp Hp) by side.
    Qed.

    Theorem step_a2_b : dmul o a2 (step_b2 o m r vp) = reduce_mat_cols o a2 vp r.
    Proof.
      rewrite b2_eq, a2'_eq. rewrite <- (dmul_assoc o L) by side. rewrite a2p_blocks.
      apply (blk_a2_bt o L).
    Qed.

    Theorem step_complex_tgt : dmul o (reduce_mat_cols o a2 vp r) (sc_s sc) = dzero o (dr a2) (n - r).
    Proof.
      destruct sc_unfold as (_ & _ & Hi1 & Hi2 & _). destruct blk_hyp_tgt as (Hza & Hzb).
      rewrite s_eq, a2'_eq. apply (blk_complex_tgt o L r mr nr k fa fb fc fd fz fw fi Hi1 Hza Hzb).
    Qed.
  End WithA2.

  Lemma vmat_map (g : nat -> R) k : vmat o (map g (seq 0 k)) = dmk k 1 (fun i _ => g i).
  Proof.
    unfold vmat. rewrite map_length, seq_length. apply (dmk_ext o). intros i j Hi Hj.
    rewrite nth_indep with (d' := g 0) by (now rewrite map_length, seq_length).
    rewrite map_nth, seq_nth by assumption. reflexivity.
  Qed.

  Lemma dr_vmat (v : list R) : dr (vmat o v) = length v. Proof. reflexivity. Qed.
  Lemma dc_vmat (v : list R) : dc (vmat o v) = 1. Proof. reflexivity. Qed.
  Lemma dwf_vmat (v : list R) : dwf (vmat o v). Proof. apply dwf_dmk. Qed.

  Theorem step_vec_src v w :
    vec_src o vq r n v = Some w ->
    length v = n /\ length w = n - r /\ vmat o w = dmul o (step_f1 o n r vq) (vmat o v).
  Proof.
    destruct sc_unfold as (E1 & E2 & _).
    unfold vec_src. destruct (Nat.eqb_spec (length v) n) as [Hl|]; [|discriminate]. intros [= <-].
    split; [exact Hl|]. split; [now rewrite map_length, seq_length|].
    rewrite vmat_map. unfold step_f1. rewrite (dmul_assoc o L) by side.
    rewrite (dmul_row_perm o L n vq (vmat o v) Hq) by (now rewrite dr_vmat).
    unfold dmul at 1. shapes. apply (dmk_ext o). intros i j Hi Hj.
    assert (j = 0) by lia. subst j.
    rewrite (sum_ext o n _ (fun x => if x =? r + i then nth (pat vq x) v (rzero o) else rzero o)).
    - now rewrite (sum_delta o L n (r + i) (fun x => nth (pat vq x) v (rzero o))) by lia.
    - intros x Hx. unfold proj. rewrite !dget_dmk by lia.
      replace (n - (n - r) + i) with (r + i) by lia.
      unfold vmat. rewrite dget_dmk by (rewrite ?Hl; try lia; now apply (perm_lt n vq Hq)).
      destruct (x =? r + i); ring.
  Qed.

  Theorem step_vec_tgt v w :
    vec_tgt o vp r m sc v = Some w ->
    length v = m /\ length w = m - r /\ vmat o w = dmul o (step_f2 o m r vp sc) (vmat o v).
  Proof.
    destruct sc_unfold as (E1 & E2 & Hi1 & Hi2 & Eai & Eaib & Ecai & Ec & Es).
    unfold vec_tgt. destruct (Nat.eqb_spec (length v) m) as [Hl|]; [|discriminate]. intros [= <-].
    split; [exact Hl|]. split; [now rewrite map_length, seq_length|].
    rewrite vmat_map. unfold step_f2. rewrite Ecai. rewrite (dmul_assoc o L) by side.
    set (pv := dmul o P (vmat o v)).
    assert (Epv : pv = dmk m 1 (fun k j => dget o (vmat o v) (pat vp k) j)).
    { unfold pv. rewrite (dmul_row_perm o L m vp (vmat o v) Hp) by (now rewrite dr_vmat). now rewrite dc_vmat. }
    assert (Hx : forall k, k < m -> dget o pv k 0 = nth (pat vp k) v (rzero o)).
    { intros k Hk. rewrite Epv. rewrite dget_dmk by lia. unfold vmat.
      rewrite dget_dmk; [reflexivity| |lia]. rewrite Hl. now apply (perm_lt m vp Hp). }
    rewrite (dvcat_decomp o pv r) by (rewrite ?Epv; dwfs; shapes; lia).
    replace (dc pv) with 1 by (now rewrite Epv). replace (dr pv) with m by (now rewrite Epv).
    rewrite (dmul_hcat_vcat o L) by side.
    rewrite (dmul_id_l o L) by side. rewrite (dmul_neg_l o L). rewrite (dadd_neg_sub o L) by side.
    rewrite (dmul_assoc o L) by side.
    unfold dsub. shapes. apply (dmk_ext o). intros i j Hi Hj. assert (j = 0) by lia. subst j.
    rewrite (dget_dblock o) by lia. rewrite Hx by lia. replace (0 + 0) with 0 by lia.
    unfold rsub. f_equal. f_equal.
    rewrite (dget_dmul o) by (shapes; lia). shapes.
    unfold mmul. apply (sum_ext o). intros k0 Hk0. rewrite Ec, Eai. f_equal.
    rewrite (dget_dmul o) by (shapes; lia). shapes.
    unfold mmul. apply (sum_ext o). intros l0 Hl0. f_equal.
    rewrite (dget_dblock o) by lia. rewrite Hx by lia. reflexivity.
  Qed.
End Step.
