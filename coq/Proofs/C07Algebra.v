(* C07, part 1: the linear algebra of "homology from two Smith normal forms" (DESIGN.md appendix A.6),
   entirely on functional matrices (Base/MatF.v), for every commutative ring with laws that is an
   integral domain.

   Setting:  d1 : n x m,  d2 : k x n,  d2 * d1 = 0,
             D1 = P1 * d1 * Q1           (B = P1^-1, Q1i = Q1^-1), r1 non-zero diagonal entries first
             d2' = d2 * B[:, r1..]       (k x n2, n2 = n - r1)
             D2 = P2 * d2' * Q2          r2 non-zero diagonal entries first.
   The adapted basis  V = [ B[:, r1..] * Q2 | B[:, ..r1] ]  with inverse  Vi = [ Q2i * P1[r1.., :] ; P1[..r1, :] ]
   satisfies   Vi * V = I = V * Vi,    P2 * d2 * V = [ D2 | 0 ],    Vi * d1 = [ 0 ; diag(D1) * Q1i[..r1, :] ],
   and the generator / coordinate matrices of HomologyCalc::trans are columns of V / rows of Vi. *)
From Coq Require Import Arith List Lia Ring Bool.
Require Import Yui.Base.Ring Yui.Base.MatF.
Import ListNotations.

Section C07Algebra.
  Context {R : Type} (o : ring_ops R) (L : ring_laws o) (Hint : integral o).

  Local Notation "0" := (rzero o).
  Local Notation "1" := (rone o).
  Local Infix "+" := (radd o).
  Local Infix "*" := (rmul o).
  Local Notation "- x" := (rneg o x).

  Add Ring Rring07 : (ring_theory_of_laws o L).

  Lemma mul_nz_cancel a b : a * b = 0 -> b <> 0 -> a = 0.
  Proof. intros H Hb. destruct (proj2 Hint a b H) as [E|E]; [exact E|contradiction]. Qed.

  Definition inv_pair (k : nat) (P Pi : mat R) : Prop :=
    meq k k (mmul o k P Pi) (mid o) /\ meq k k (mmul o k Pi P) (mid o).

  Lemma inv_pair_sym k P Pi : inv_pair k P Pi -> inv_pair k Pi P.
  Proof. intros [H1 H2]. split; assumption. Qed.

  Definition is_diag (m n : nat) (D : mat R) : Prop :=
    forall i j, (i < m)%nat -> (j < n)%nat -> i <> j -> D i j = 0.

  (* X (p x m) times D (m x n) *)
  Lemma mmul_diag_r m n (X D : mat R) i j :
    is_diag m n D -> (j < n)%nat ->
    mmul o m X D i j = if j <? m then X i j * D j j else 0.
  Proof.
    intros HD Hj. unfold mmul. destruct (Nat.ltb_spec j m) as [Hjm|Hjm].
    - rewrite (sum_single o L m j) by (try assumption; intros l Hl Hne; rewrite HD by assumption; ring).
      reflexivity.
    - apply (sum_zero_ext o L). intros l Hl. rewrite HD by (try assumption; lia). ring.
  Qed.

  (* D (m x n) times X (n x p) *)
  Lemma mmul_diag_l m n (D X : mat R) i j :
    is_diag m n D -> (i < m)%nat ->
    mmul o n D X i j = if i <? n then D i i * X i j else 0.
  Proof.
    intros HD Hi. unfold mmul. destruct (Nat.ltb_spec i n) as [Hin|Hin].
    - rewrite (sum_single o L n i) by (try assumption; intros l Hl Hne; rewrite HD by (try assumption; congruence); ring).
      reflexivity.
    - apply (sum_zero_ext o L). intros l Hl. rewrite HD by (try assumption; lia). ring.
  Qed.

  Record smith (m n : nat) (A P Pi Q Qi D : mat R) (r : nat) : Prop := mk_smith {
    sm_eq : meq m n D (mmul o m P (mmul o n A Q));
    sm_P : inv_pair m P Pi;
    sm_Q : inv_pair n Q Qi;
    sm_diag : is_diag m n D;
    sm_r : (r <= Nat.min m n)%nat;
    sm_nz : forall i, (i < r)%nat -> D i i <> 0;
    sm_z : forall i, (r <= i)%nat -> (i < Nat.min m n)%nat -> D i i = 0;
  }.

  Lemma smith_ext m n A A' P Pi Q Qi D r :
    meq m n A A' -> smith m n A P Pi Q Qi D r -> smith m n A' P Pi Q Qi D r.
  Proof.
    intros HA S. destruct S as [E HP HQ Hd Hr Hnz Hz]. constructor; try assumption.
    intros i j Hi Hj. rewrite E by assumption.
    apply (mmul_ext_r o). intros l Hl. apply (mmul_ext_l o). intros l' Hl'. now apply HA.
  Qed.

  Section SmithFacts.
    Variables (m n : nat) (A P Pi Q Qi D : mat R) (r : nat).
    Hypothesis S : smith m n A P Pi Q Qi D r.

    Lemma smith_diag_entry i j :
      (i < m)%nat -> (j < n)%nat -> D i j = if (i =? j) && (i <? r) then D i i else 0.
    Proof.
      intros Hi Hj. destruct (Nat.eqb_spec i j) as [->|Hne]; cbn [andb].
      - destruct (Nat.ltb_spec j r) as [Hr|Hr]; [reflexivity|].
        apply (sm_z _ _ _ _ _ _ _ _ _ S); [assumption|]. apply Nat.min_glb_lt; assumption.
      - now apply (sm_diag _ _ _ _ _ _ _ _ _ S).
    Qed.

    Lemma smith_row_zero i j : (r <= i)%nat -> (i < m)%nat -> (j < n)%nat -> D i j = 0.
    Proof.
      intros Hr Hi Hj. rewrite (smith_diag_entry i j Hi Hj).
      destruct (Nat.ltb_spec i r); [lia|]. now rewrite andb_false_r.
    Qed.

    (* P A = D Q^-1 *)
    Lemma smith_PA : meq m n (mmul o m P A) (mmul o n D Qi).
    Proof.
      intros i j Hi Hj.
      rewrite (mmul_ext_l o n D (mmul o m P (mmul o n A Q))) by (intros l Hl; now apply (sm_eq _ _ _ _ _ _ _ _ _ S)).
      rewrite (mmul_assoc o L).
      apply (mmul_ext_r o). intros l Hl. symmetry.
      apply (mmul_cancel_r o L); [apply (sm_Q _ _ _ _ _ _ _ _ _ S)|assumption].
    Qed.

    (* A Q = P^-1 D *)
    Lemma smith_AQ : meq m n (mmul o n A Q) (mmul o m Pi D).
    Proof.
      intros i j Hi Hj.
      rewrite (mmul_ext_r o m Pi D (mmul o m P (mmul o n A Q))) by (intros l Hl; now apply (sm_eq _ _ _ _ _ _ _ _ _ S)).
      symmetry. apply (mmul_cancel_l o L); [apply (sm_P _ _ _ _ _ _ _ _ _ S)|assumption].
    Qed.

    (* row i of P A is D_ii times row i of Q^-1 *)
    Lemma smith_PA_entry i j : (i < m)%nat -> (j < n)%nat ->
      mmul o m P A i j = if i <? r then D i i * Qi i j else 0.
    Proof.
      intros Hi Hj. rewrite smith_PA by assumption.
      rewrite (mmul_diag_l m n) by (try assumption; apply (sm_diag _ _ _ _ _ _ _ _ _ S)).
      pose proof (sm_r _ _ _ _ _ _ _ _ _ S) as Hr.
      destruct (Nat.ltb_spec i n) as [Hin|Hin]; destruct (Nat.ltb_spec i r) as [Hir|Hir]; try reflexivity; try lia.
      rewrite (sm_z _ _ _ _ _ _ _ _ _ S) by (try assumption; apply Nat.min_glb_lt; assumption). ring.
    Qed.

    (* column j of A Q is D_jj times column j of P^-1 *)
    Lemma smith_AQ_entry i j : (i < m)%nat -> (j < n)%nat ->
      mmul o n A Q i j = if j <? r then Pi i j * D j j else 0.
    Proof.
      intros Hi Hj. rewrite smith_AQ by assumption.
      rewrite (mmul_diag_r m n) by (try assumption; apply (sm_diag _ _ _ _ _ _ _ _ _ S)).
      pose proof (sm_r _ _ _ _ _ _ _ _ _ S) as Hr.
      destruct (Nat.ltb_spec j m) as [Hjm|Hjm]; destruct (Nat.ltb_spec j r) as [Hjr|Hjr]; try reflexivity; try lia.
      rewrite (sm_z _ _ _ _ _ _ _ _ _ S) by (try assumption; apply Nat.min_glb_lt; assumption). ring.
    Qed.
  End SmithFacts.

  (* A is equivalent to the diagonal matrix diag(a_0 .. a_(r-1), 0 ..) with all a_i non-zero:
     "r is the rank of A and a its diagonal Smith-type form" *)
  Definition smith_form (m n : nat) (A : mat R) (r : nat) (a : nat -> R) : Prop :=
    exists P Pi Q Qi : mat R,
      inv_pair m P Pi /\ inv_pair n Q Qi /\
      meq m n (mmul o m P (mmul o n A Q)) (fun i j => if (i =? j) && (i <? r) then a i else 0) /\
      (forall i, (i < r)%nat -> a i <> 0) /\ (r <= Nat.min m n)%nat.

  Lemma smith_form_ext m n (A A' : mat R) r a :
    meq m n A A' -> smith_form m n A r a -> smith_form m n A' r a.
  Proof.
    intros HA [P [Pi [Q [Qi [HP [HQ [He H]]]]]]]. exists P, Pi, Q, Qi.
    split; [exact HP|]. split; [exact HQ|]. split; [|exact H].
    intros i j Hi Hj. rewrite <- (He i j Hi Hj).
    apply (mmul_ext_r o). intros l Hl. apply (mmul_ext_l o). intros l' Hl'. symmetry. now apply HA.
  Qed.

  Lemma smith_to_form m n A P Pi Q Qi D r :
    smith m n A P Pi Q Qi D r -> smith_form m n A r (fun i => D i i).
  Proof.
    intros S. exists P, Pi, Q, Qi.
    split; [apply (sm_P _ _ _ _ _ _ _ _ _ S)|]. split; [apply (sm_Q _ _ _ _ _ _ _ _ _ S)|].
    split; [|split; [apply (sm_nz _ _ _ _ _ _ _ _ _ S)|apply (sm_r _ _ _ _ _ _ _ _ _ S)]].
    intros i j Hi Hj. rewrite <- (sm_eq _ _ _ _ _ _ _ _ _ S) by assumption.
    now apply (smith_diag_entry m n A P Pi Q Qi D r S).
  Qed.

  Section TwoSnf.
    Variables (m n k : nat) (d1 d2 : mat R).            (* d1 : n x m,  d2 : k x n *)
    Hypothesis dd : meq k m (mmul o n d2 d1) (mzero o).

    Variables (P1 B Q1 Q1i D1 : mat R) (r1 : nat).
    Hypothesis S1 : smith n m d1 P1 B Q1 Q1i D1 r1.

    Let n2 := (n - r1)%nat.
    Definition Bc : mat R := fun i j => B i (r1 + j)%nat.          (* B[:, r1..] *)
    Definition P1r : mat R := fun i j => P1 (r1 + i)%nat j.        (* P1[r1.., :] *)
    Definition d2' : mat R := mmul o n d2 Bc.

    Variables (P2 P2i Q2 Q2i D2 : mat R) (r2 : nat).
    Hypothesis S2 : smith k n2 d2' P2 P2i Q2 Q2i D2 r2.

    Lemma r1_le_n : (r1 <= n)%nat.
    Proof. pose proof (sm_r _ _ _ _ _ _ _ _ _ S1). lia. Qed.
    Lemma r2_le_n2 : (r2 <= n2)%nat.
    Proof. pose proof (sm_r _ _ _ _ _ _ _ _ _ S2). lia. Qed.
    Lemma n_split : (r1 + n2 = n)%nat.
    Proof. pose proof r1_le_n. unfold n2. lia. Qed.

    Lemma P1B : meq n n (mmul o n P1 B) (mid o).
    Proof. apply (sm_P _ _ _ _ _ _ _ _ _ S1). Qed.
    Lemma BP1 : meq n n (mmul o n B P1) (mid o).
    Proof. apply (sm_P _ _ _ _ _ _ _ _ _ S1). Qed.
    Lemma Q2iQ2 : meq n2 n2 (mmul o n2 Q2i Q2) (mid o).
    Proof. apply (sm_Q _ _ _ _ _ _ _ _ _ S2). Qed.
    Lemma Q2Q2i : meq n2 n2 (mmul o n2 Q2 Q2i) (mid o).
    Proof. apply (sm_Q _ _ _ _ _ _ _ _ _ S2). Qed.

    (* the first r1 columns of d2 * B vanish:  (d2 B) D1 = d2 d1 Q1 = 0  and D1_jj is not a zero divisor *)
    Lemma d2B_zero i j : (i < k)%nat -> (j < r1)%nat -> mmul o n d2 B i j = 0.
    Proof.
      intros Hi Hj. pose proof (sm_r _ _ _ _ _ _ _ _ _ S1) as Hr.
      apply mul_nz_cancel with (b := D1 j j); [|now apply (sm_nz _ _ _ _ _ _ _ _ _ S1)].
      assert (E : mmul o n (mmul o n d2 B) D1 i j = 0).
      { rewrite (mmul_assoc o L).
        rewrite (mmul_ext_r o n d2 _ (mmul o m d1 Q1)).
        2:{ intros l Hl. rewrite (mmul_ext_r o n B D1 (mmul o n P1 (mmul o m d1 Q1)))
              by (intros l' Hl'; apply (sm_eq _ _ _ _ _ _ _ _ _ S1); [assumption|lia]).
            apply (mmul_cancel_l o L); [apply BP1|assumption]. }
        rewrite <- (mmul_assoc o L).
        apply (mmul_zero_row o L). intros l Hl. now apply dd. }
      rewrite (mmul_diag_r n m) in E by (try apply (sm_diag _ _ _ _ _ _ _ _ _ S1); lia).
      destruct (Nat.ltb_spec j n); [exact E|lia].
    Qed.

    (* P1[r1.., :] * B[:, r1..] = I *)
    Lemma P1r_Bc : meq n2 n2 (mmul o n P1r Bc) (mid o).
    Proof.
      intros i j Hi Hj. pose proof n_split.
      change (mmul o n P1r Bc i j) with (mmul o n P1 B (r1 + i)%nat (r1 + j)%nat).
      rewrite P1B by lia. unfold mid.
      destruct (Nat.eqb_spec (r1 + i) (r1 + j)); destruct (Nat.eqb_spec i j); try reflexivity; lia.
    Qed.

    (* the adapted basis and its inverse *)
    Definition V : mat R := fun i j => if j <? n2 then mmul o n2 Bc Q2 i j else B i (j - n2)%nat.
    Definition Vi : mat R := fun i j => if i <? n2 then mmul o n2 Q2i P1r i j else P1 (i - n2)%nat j.

    Lemma Vi_free i j : (i < n2)%nat -> Vi i j = mmul o n2 Q2i P1r i j.
    Proof. intros H. unfold Vi. destruct (Nat.ltb_spec i n2); [reflexivity|lia]. Qed.
    Lemma Vi_tor i j : (n2 <= i)%nat -> Vi i j = P1 (i - n2)%nat j.
    Proof. intros H. unfold Vi. destruct (Nat.ltb_spec i n2); [lia|reflexivity]. Qed.
    Lemma V_free i j : (j < n2)%nat -> V i j = mmul o n2 Bc Q2 i j.
    Proof. intros H. unfold V. destruct (Nat.ltb_spec j n2); [reflexivity|lia]. Qed.
    Lemma V_tor i j : (n2 <= j)%nat -> V i j = B i (j - n2)%nat.
    Proof. intros H. unfold V. destruct (Nat.ltb_spec j n2); [lia|reflexivity]. Qed.

    (* a product with Vi on the left is read row by row, one with V on the right column by column *)
    Lemma Vi_free_row (X : mat R) i j :
      (i < n2)%nat -> mmul o n Vi X i j = mmul o n2 Q2i (mmul o n P1r X) i j.
    Proof.
      intros H. rewrite (mmul_ext_l o n Vi (mmul o n2 Q2i P1r)) by (intros; now apply Vi_free).
      apply (mmul_assoc o L).
    Qed.
    Lemma Vi_tor_row (X : mat R) i j : (n2 <= i)%nat -> mmul o n Vi X i j = mmul o n P1 X (i - n2)%nat j.
    Proof. intros H. apply (mmul_ext_l o n Vi (fun a b => P1 (a - n2)%nat b)). intros; now apply Vi_tor. Qed.
    Lemma V_free_col (X : mat R) i j :
      (j < n2)%nat -> mmul o n X V i j = mmul o n2 (mmul o n X Bc) Q2 i j.
    Proof.
      intros H. rewrite (mmul_ext_r o n X V (mmul o n2 Bc Q2)) by (intros; now apply V_free).
      symmetry. apply (mmul_assoc o L).
    Qed.
    Lemma V_tor_col (X : mat R) i j : (n2 <= j)%nat -> mmul o n X V i j = mmul o n X B i (j - n2)%nat.
    Proof. intros H. apply (mmul_ext_r o n X V (fun c e => B c (e - n2)%nat)). intros; now apply V_tor. Qed.

    Lemma ViV : meq n n (mmul o n Vi V) (mid o).
    Proof.
      intros i j Hi Hj. pose proof n_split as Hn. unfold mid.
      destruct (Nat.ltb_spec i n2) as [Hi2|Hi2]; destruct (Nat.ltb_spec j n2) as [Hj2|Hj2].
      - rewrite Vi_free_row by assumption. rewrite (mmul_ext_r o n2 Q2i _ Q2); [now apply Q2iQ2|].
        intros l Hl. rewrite V_free_col by assumption.
        rewrite (mmul_ext_l o n2 _ (mid o)) by (intros l' Hl'; now apply P1r_Bc).
        now apply (mmul_id_l o L).
      - (* P1[r1.., :] * B[:, ..r1] = 0 *)
        rewrite Vi_free_row by assumption. rewrite (mmul_zero_col o L); [destruct (Nat.eqb_spec i j); [lia|reflexivity]|].
        intros l Hl. rewrite V_tor_col by assumption.
        change (mmul o n P1r B l (j - n2)%nat) with (mmul o n P1 B (r1 + l)%nat (j - n2)%nat).
        rewrite P1B by lia. unfold mid. destruct (Nat.eqb_spec (r1 + l) (j - n2)); [lia|reflexivity].
      - (* P1[..r1, :] * B[:, r1..] = 0 *)
        rewrite Vi_tor_row, V_free_col by assumption.
        rewrite (mmul_zero_row o L); [destruct (Nat.eqb_spec i j); [lia|reflexivity]|].
        intros l Hl. change (mmul o n P1 Bc (i - n2)%nat l) with (mmul o n P1 B (i - n2)%nat (r1 + l)%nat).
        rewrite P1B by lia. unfold mid. destruct (Nat.eqb_spec (i - n2) (r1 + l)); [lia|reflexivity].
      - rewrite Vi_tor_row, V_tor_col by assumption. rewrite P1B by lia. unfold mid.
        destruct (Nat.eqb_spec (i - n2) (j - n2)); destruct (Nat.eqb_spec i j); try reflexivity; lia.
    Qed.

    Lemma VVi : meq n n (mmul o n V Vi) (mid o).
    Proof.
      intros i j Hi Hj. pose proof n_split as Hn.
      rewrite <- (BP1 i j Hi Hj).
      assert (Hs1 : forall f, sum o n f = sum o n2 f + sum o r1 (fun l => f (n2 + l)%nat)).
      { intros f. rewrite <- (sum_split o L). f_equal. lia. }
      assert (Hs2 : forall f, sum o n f = sum o r1 f + sum o n2 (fun l => f (r1 + l)%nat)).
      { intros f. rewrite <- (sum_split o L). f_equal. lia. }
      unfold mmul. rewrite Hs1, Hs2.
      rewrite (radd_comm o L). f_equal.
      - apply (sum_ext o). intros l Hl. rewrite V_tor, Vi_tor by lia.
        replace (n2 + l - n2)%nat with l by lia. reflexivity.
      - (* sum_{l<n2} (Bc Q2) i l * (Q2i P1r) l j = (Bc P1r) i j *)
        transitivity (mmul o n2 (mmul o n2 Bc Q2) (mmul o n2 Q2i P1r) i j).
        { unfold mmul at 1. apply (sum_ext o). intros l Hl. now rewrite V_free, Vi_free by assumption. }
        rewrite (mmul_assoc o L).
        change (sum o n2 (fun l => B i (r1 + l)%nat * P1 (r1 + l)%nat j)) with (mmul o n2 Bc P1r i j).
        apply (mmul_ext_r o). intros l Hl.
        apply (mmul_cancel_l o L); [apply Q2Q2i|assumption].
    Qed.

    Lemma d2V_tor i j : (i < k)%nat -> (n2 <= j)%nat -> (j < n)%nat -> mmul o n d2 V i j = 0.
    Proof.
      intros Hi Hj Hjn. pose proof n_split. rewrite V_tor_col by assumption.
      apply d2B_zero; [assumption|lia].
    Qed.

    (* P2 * d2 * V = [ D2 | 0 ] *)
    Lemma P2d2V : meq k n (mmul o k P2 (mmul o n d2 V)) (fun i j => if j <? n2 then D2 i j else 0).
    Proof.
      intros i j Hi Hj. destruct (Nat.ltb_spec j n2) as [Hj2|Hj2].
      - rewrite (sm_eq _ _ _ _ _ _ _ _ _ S2) by assumption.
        apply (mmul_ext_r o). intros l Hl. now apply V_free_col.
      - apply (mmul_zero_col o L). intros l Hl. now apply d2V_tor.
    Qed.

    (* d2 * V = [ P2^-1 D2 | 0 ] *)
    Lemma d2V : meq k n (mmul o n d2 V) (fun i j => if j <? n2 then mmul o k P2i D2 i j else 0).
    Proof.
      intros i j Hi Hj. destruct (Nat.ltb_spec j n2) as [Hj2|Hj2].
      - rewrite V_free_col by assumption. now apply (smith_AQ _ _ _ _ _ _ _ _ _ S2).
      - now apply d2V_tor.
    Qed.

    (* the columns r2.. of d2 * V vanish *)
    Lemma d2V_zero i j : (i < k)%nat -> (r2 <= j)%nat -> (j < n)%nat -> mmul o n d2 V i j = 0.
    Proof.
      intros Hi Hr Hj. rewrite d2V by assumption.
      destruct (Nat.ltb_spec j n2) as [Hj2|Hj2]; [|reflexivity].
      apply (mmul_zero_col o L). intros l Hl. rewrite (smith_diag_entry _ _ _ _ _ _ _ _ _ S2 l j Hl Hj2).
      destruct (Nat.eqb_spec l j) as [->|_]; [|reflexivity]. destruct (Nat.ltb_spec j r2); [lia|reflexivity].
    Qed.

    (* Vi * d1 = [ 0 ; diag(D1) * Q1i[..r1, :] ] *)
    Lemma Vid1 : meq n m (mmul o n Vi d1)
                     (fun i j => if i <? n2 then 0 else D1 (i - n2)%nat (i - n2)%nat * Q1i (i - n2)%nat j).
    Proof.
      intros i j Hi Hj. pose proof n_split as Hn.
      destruct (Nat.ltb_spec i n2) as [Hi2|Hi2].
      - rewrite Vi_free_row by assumption. apply (mmul_zero_col o L). intros l Hl.
        change (mmul o n P1r d1 l j) with (mmul o n P1 d1 (r1 + l)%nat j).
        rewrite (smith_PA_entry _ _ _ _ _ _ _ _ _ S1) by (try assumption; lia).
        destruct (Nat.ltb_spec (r1 + l) r1); [lia|reflexivity].
      - rewrite Vi_tor_row by assumption.
        rewrite (smith_PA_entry _ _ _ _ _ _ _ _ _ S1) by (try assumption; lia).
        destruct (Nat.ltb_spec (i - n2) r1); [reflexivity|lia].
    Qed.

    (* hence d2 itself has a diagonal form with exactly the non-zero entries of D2 *)
    Lemma smith_form_d2 : smith_form k n d2 r2 (fun i => D2 i i).
    Proof.
      exists P2, P2i, V, Vi.
      split; [apply (sm_P _ _ _ _ _ _ _ _ _ S2)|]. split; [split; [apply VVi|apply ViV]|].
      split; [|split; [apply (sm_nz _ _ _ _ _ _ _ _ _ S2)|]].
      - intros i j Hi Hj. rewrite P2d2V by assumption.
        pose proof r2_le_n2 as Hr2.
        destruct (Nat.ltb_spec j n2) as [Hj2|Hj2].
        + now apply (smith_diag_entry _ _ _ _ _ _ _ _ _ S2).
        + destruct (Nat.eqb_spec i j) as [->|Hne]; cbn [andb]; [|reflexivity].
          destruct (Nat.ltb_spec j r2); [lia|reflexivity].
      - pose proof (sm_r _ _ _ _ _ _ _ _ _ S2). pose proof n_split. lia.
    Qed.

    (* the generators and coordinates chosen by HomologyCalc::trans *)
    Variable t : nat.
    Hypothesis t_le : (t <= r1)%nat.
    Let r := (n2 - r2)%nat.

    (* column of V / row of Vi that becomes generator / coordinate number i *)
    Definition sg (i : nat) : nat := if i <? r then (r2 + i)%nat else (n2 + (r1 - t) + (i - r))%nat.
    Definition qF : mat R := fun i j => V i (sg j).
    Definition pF : mat R := fun i j => Vi (sg i) j.

    Lemma sg_lt i : (i < r + t)%nat -> (sg i < n)%nat.
    Proof.
      intros Hi. pose proof n_split. pose proof r2_le_n2. unfold sg.
      destruct (Nat.ltb_spec i r); unfold r in *; lia.
    Qed.

    Lemma sg_ge i : (r2 <= sg i)%nat.
    Proof. pose proof r2_le_n2. unfold sg. destruct (Nat.ltb_spec i r); lia. Qed.

    Lemma sg_inj i j : (i < r + t)%nat -> (j < r + t)%nat -> sg i = sg j -> i = j.
    Proof.
      intros Hi Hj. pose proof r2_le_n2. unfold sg.
      destruct (Nat.ltb_spec i r); destruct (Nat.ltb_spec j r); unfold r in *; lia.
    Qed.

    Lemma sg_tor i : (r <= i)%nat -> (sg i - n2 = r1 - t + (i - r))%nat /\ (n2 <= sg i)%nat.
    Proof. intros Hi. unfold sg. destruct (Nat.ltb_spec i r); lia. Qed.

    (* the entries of pF and qF: a product of two sub-blocks in the free part, an entry of P1 / B in the torsion part *)
    Lemma pF_free i j : (i < r)%nat -> pF i j = mmul o n2 Q2i P1r (r2 + i)%nat j.
    Proof.
      intros Hi. unfold pF, sg. destruct (Nat.ltb_spec i r); [|lia]. apply Vi_free. unfold r in Hi. lia.
    Qed.
    Lemma pF_tor i j : (r <= i)%nat -> pF i j = P1 (r1 - t + (i - r))%nat j.
    Proof. intros Hi. destruct (sg_tor i Hi) as [E Hs]. unfold pF. now rewrite Vi_tor, E. Qed.
    Lemma qF_free i j : (j < r)%nat -> qF i j = mmul o n2 Bc Q2 i (r2 + j)%nat.
    Proof.
      intros Hj. unfold qF, sg. destruct (Nat.ltb_spec j r); [|lia]. apply V_free. unfold r in Hj. lia.
    Qed.
    Lemma qF_tor i j : (r <= j)%nat -> qF i j = B i (r1 - t + (j - r))%nat.
    Proof. intros Hj. destruct (sg_tor j Hj) as [E Hs]. unfold qF. now rewrite V_tor, E. Qed.

    (* generators are cycles *)
    Lemma gen_cycles : meq k (r + t) (mmul o n d2 qF) (mzero o).
    Proof.
      intros i j Hi Hj. unfold mzero.
      change (mmul o n d2 qF i j) with (mmul o n d2 V i (sg j)).
      apply d2V_zero; [assumption|apply sg_ge|now apply sg_lt].
    Qed.

    (* the coordinates of the generators are the standard basis *)
    Lemma gen_coords : meq (r + t) (r + t) (mmul o n pF qF) (mid o).
    Proof.
      intros i j Hi Hj.
      change (mmul o n pF qF i j) with (mmul o n Vi V (sg i) (sg j)).
      rewrite ViV by now apply sg_lt. unfold mid.
      destruct (Nat.eqb_spec (sg i) (sg j)) as [E|E]; destruct (Nat.eqb_spec i j) as [E'|E']; try reflexivity.
      - exfalso. apply E'. now apply sg_inj.
      - exfalso. apply E. now rewrite E'.
    Qed.

    (* the coordinates of a boundary: zero in the free part, a multiple of the torsion order in the torsion part *)
    Lemma gen_boundary (x : nat -> R) i : (i < r + t)%nat ->
      mvec o n pF (mvec o m d1 x) i =
      if i <? r then 0
      else D1 (r1 - t + (i - r))%nat (r1 - t + (i - r))%nat * mvec o m Q1i x (r1 - t + (i - r))%nat.
    Proof.
      intros Hi. rewrite <- (mvec_mmul o L).
      pose proof (sg_lt i Hi) as Hs. pose proof r2_le_n2 as Hr2.
      unfold mvec at 1.
      rewrite (sum_ext o m _ (fun l => (if sg i <? n2 then 0
                   else D1 (sg i - n2)%nat (sg i - n2)%nat * Q1i (sg i - n2)%nat l) * x l)).
      2:{ intros l Hl. change (mmul o n pF d1 i l) with (mmul o n Vi d1 (sg i) l).
          rewrite Vid1 by assumption. reflexivity. }
      unfold sg in *. destruct (Nat.ltb_spec i r) as [Hir|Hir].
      - destruct (Nat.ltb_spec (r2 + i) n2); [|unfold r in *; lia].
        apply (sum_zero_ext o L). intros l Hl. ring.
      - destruct (Nat.ltb_spec (n2 + (r1 - t) + (i - r)) n2); [lia|].
        replace (n2 + (r1 - t) + (i - r) - n2)%nat with (r1 - t + (i - r))%nat by lia.
        unfold mvec. rewrite <- (sum_scal_l o L). apply (sum_ext o). intros l Hl. ring.
    Qed.

    (* the first r1 - t diagonal entries of D1 are units *)
    Variable uinv : nat -> R.
    Hypothesis uinv_ok : forall l, (l < r1 - t)%nat -> D1 l l * uinv l = 1.

    Section Cycle.
      Variable z : nat -> R.
      Hypothesis z_cycle : forall i, (i < k)%nat -> mvec o n d2 z i = 0.
      Let w : nat -> R := mvec o n Vi z.

      Lemma z_Vw i : (i < n)%nat -> z i = mvec o n V w i.
      Proof.
        intros Hi. unfold w. rewrite <- (mvec_mmul o L).
        rewrite (mvec_ext_row o _ (mid o)) by (intros l Hl; now apply VVi).
        symmetry. now apply (mvec_id o L).
      Qed.

      Lemma w_low_zero a : (a < r2)%nat -> w a = 0.
      Proof.
        intros Ha. pose proof (sm_r _ _ _ _ _ _ _ _ _ S2) as Hr2. pose proof n_split as Hn.
        assert (E : mvec o n (mmul o k P2 (mmul o n d2 V)) w a = 0).
        { rewrite (mvec_mmul o L). unfold mvec at 1. apply (sum_zero_ext o L). intros i Hi.
          rewrite (mvec_mmul o L).
          rewrite (mvec_ext o d2 _ z) by (intros l Hl; symmetry; now apply z_Vw).
          rewrite z_cycle by assumption. ring. }
        rewrite (mvec_ext_row o _ (fun i j => if j <? n2 then D2 i j else 0)) in E
          by (intros l Hl; apply P2d2V; lia).
        unfold mvec in E.
        rewrite (sum_single o L n a) in E.
        - destruct (Nat.ltb_spec a n2); [|lia].
          rewrite (rmul_comm o L) in E.
          apply mul_nz_cancel with (b := D2 a a); [exact E|]. now apply (sm_nz _ _ _ _ _ _ _ _ _ S2).
        - lia.
        - intros l Hl Hne. destruct (Nat.ltb_spec l n2); [|ring].
          rewrite (sm_diag _ _ _ _ _ _ _ _ _ S2) by (try assumption; try lia; congruence). ring.
      Qed.

      (* z = q (p z) + d1 x *)
      Theorem cycle_decomp :
        exists x : nat -> R, forall i, (i < n)%nat ->
          z i = mvec o (r + t) qF (mvec o n pF z) i + mvec o m d1 x i.
      Proof.
        pose proof r2_le_n2 as Hr2. pose proof n_split as Hn.
        exists (fun c => sum o (r1 - t) (fun l => Q1 c l * (uinv l * w (n2 + l)%nat))).
        intros i Hi. rewrite (z_Vw i Hi).
        (* split the sum over the columns of V *)
        unfold mvec at 1.
        replace n with (r2 + r + (r1 - t) + t)%nat at 1 by (unfold r; lia).
        rewrite !(sum_split o L).
        rewrite (sum_zero_ext o L r2) by (intros l Hl; rewrite w_low_zero by assumption; ring).
        (* q (p z) *)
        change (mvec o (r + t) qF (mvec o n pF z) i) with (sum o (r + t) (fun s => qF i s * mvec o n pF z s)).
        rewrite (sum_split o L).
        assert (E1 : sum o r (fun s => qF i s * mvec o n pF z s)
                     = sum o r (fun s => V i (r2 + s)%nat * w (r2 + s)%nat)).
        { apply (sum_ext o). intros s Hs. unfold qF, pF, sg, w, mvec.
          destruct (Nat.ltb_spec s r); [reflexivity|lia]. }
        assert (E2 : sum o t (fun s => qF i (r + s)%nat * mvec o n pF z (r + s)%nat)
                     = sum o t (fun s => V i (r2 + r + (r1 - t) + s)%nat * w (r2 + r + (r1 - t) + s)%nat)).
        { apply (sum_ext o). intros s Hs. unfold qF, pF, sg, w, mvec.
          destruct (Nat.ltb_spec (r + s) r); [lia|].
          replace (n2 + (r1 - t) + (r + s - r))%nat with (r2 + r + (r1 - t) + s)%nat by (unfold r; lia).
          reflexivity. }
        rewrite E1, E2.
        (* the remaining block is a boundary *)
        assert (E3 : sum o (r1 - t) (fun l => V i (r2 + r + l)%nat * w (r2 + r + l)%nat)
                     = mvec o m d1 (fun c => sum o (r1 - t) (fun l => Q1 c l * (uinv l * w (n2 + l)%nat))) i).
        { unfold mvec.
          rewrite (sum_ext o m _ (fun c => sum o (r1 - t) (fun l => d1 i c * Q1 c l * (uinv l * w (n2 + l)%nat)))).
          2:{ intros c Hc. rewrite <- (sum_scal_l o L). apply (sum_ext o). intros l Hl. ring. }
          rewrite (sum_swap o L). apply (sum_ext o). intros l Hl.
          rewrite (sum_scal_r o L).
          change (sum o m (fun c => d1 i c * Q1 c l)) with (mmul o m d1 Q1 i l).
          pose proof (sm_r _ _ _ _ _ _ _ _ _ S1) as Hr1.
          rewrite (smith_AQ_entry _ _ _ _ _ _ _ _ _ S1) by lia.
          destruct (Nat.ltb_spec l r1); [|lia].
          replace (r2 + r + l)%nat with (n2 + l)%nat by (unfold r; lia).
          rewrite V_tor by lia. replace (n2 + l - n2)%nat with l by lia.
          transitivity (B i l * (D1 l l * uinv l) * w (n2 + l)%nat); [|ring].
          rewrite uinv_ok by assumption. ring. }
        rewrite E3. ring.
      Qed.

      (* if moreover the coordinates of z vanish modulo the torsion orders, z is a boundary *)
      Theorem cycle_boundary (cf : nat -> R) :
        (forall i, (i < r)%nat -> mvec o n pF z i = 0) ->
        (forall s, (s < t)%nat -> mvec o n pF z (r + s)%nat = D1 (r1 - t + s)%nat (r1 - t + s)%nat * cf s) ->
        exists x : nat -> R, forall i, (i < n)%nat -> z i = mvec o m d1 x i.
      Proof.
        intros Hfree Htor.
        pose proof r2_le_n2 as Hr2. pose proof n_split as Hn.
        pose proof (sm_r _ _ _ _ _ _ _ _ _ S1) as Hr1.
        destruct cycle_decomp as [x0 Hx0].
        exists (fun c => x0 c + sum o t (fun s => Q1 c (r1 - t + s)%nat * cf s)).
        intros i Hi. rewrite (Hx0 i Hi).
        assert (El : mvec o m d1 (fun c => x0 c + sum o t (fun s => Q1 c (r1 - t + s)%nat * cf s)) i
                     = mvec o m d1 x0 i + mvec o m d1 (fun c => sum o t (fun s => Q1 c (r1 - t + s)%nat * cf s)) i).
        { unfold mvec. rewrite <- (sum_add o L). apply (sum_ext o). intros c Hc. ring. }
        rewrite El. rewrite (radd_comm o L). f_equal.
        change (mvec o (r + t) qF (mvec o n pF z) i) with (sum o (r + t) (fun s => qF i s * mvec o n pF z s)).
        rewrite (sum_split o L).
        rewrite (sum_zero_ext o L r) by (intros s Hs; rewrite Hfree by assumption; ring).
        unfold mvec at 2.
        rewrite (sum_ext o m _ (fun c => sum o t (fun s => d1 i c * Q1 c (r1 - t + s)%nat * cf s))).
        2:{ intros c Hc. rewrite <- (sum_scal_l o L). apply (sum_ext o). intros s Hs. ring. }
        rewrite (sum_swap o L).
        transitivity (sum o t (fun s => qF i (r + s)%nat * mvec o n pF z (r + s)%nat)); [ring|].
        apply (sum_ext o). intros s Hs.
        rewrite (sum_scal_r o L).
        change (sum o m (fun c => d1 i c * Q1 c (r1 - t + s)%nat)) with (mmul o m d1 Q1 i (r1 - t + s)%nat).
        rewrite (smith_AQ_entry _ _ _ _ _ _ _ _ _ S1) by lia.
        destruct (Nat.ltb_spec (r1 - t + s) r1); [|lia].
        rewrite Htor by assumption.
        unfold qF, sg. destruct (Nat.ltb_spec (r + s) r); [lia|].
        rewrite V_tor by lia.
        replace (n2 + (r1 - t) + (r + s - r) - n2)%nat with (r1 - t + s)%nat by lia.
        ring.
      Qed.
    End Cycle.
  End TwoSnf.
End C07Algebra.
