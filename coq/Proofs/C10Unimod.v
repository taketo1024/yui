(* C10: unimodularity.  Every state reachable by LLLCalc / LLLHNFCalc satisfies target = P A and
   P Pinv = I = Pinv P (fully tracked run), and the transform flags only erase P / Pinv from the state:
   they influence neither the target nor the tracked matrices. *)
From Coq Require Import ZArith List Bool Arith Lia Ring.
Require Import Yui.Base.Ring Yui.Base.MatF Yui.Base.MatL Yui.Model.Lll Yui.Proofs.C10Laws Yui.Proofs.C10Ops.
Import ListNotations.

Section Unimod.
  Context {R : Type} (L : lll_ring R) (LW : lll_laws L).
  Local Notation o := (lops L).
  Local Notation uinv := (uinv L).

  Lemma uinv_kept m n A : kept L (uinv m n A).
  Proof.
    split; [|split; [|split; [|split]]].
    - intros s i u s'. apply mul_row_uinv, LW.
    - intros s i k r s'. apply add_row_to_uinv, LW.
    - intros s k s'. apply swap_uinv, LW.
    - intros s k H. now apply (uinv_same L m n A s).
    - intros s d l H. now apply (uinv_same L m n A s).
  Qed.

  Inductive hnf_reach (A : lmat R) (fl : bool * bool) : lll_data -> Prop :=
  | hr_init : hnf_reach A fl (data_new L A fl)
  | hr_step s s' : hnf_reach A fl s -> hnf_iterate L s = Some s' -> hnf_reach A fl s'
  | hr_final s s' : hnf_reach A fl s -> hnf_final L s = Some s' -> hnf_reach A fl s'.

  Inductive lll_reach (A : lmat R) (fl : bool * bool) : lll_data -> Prop :=
  | lr_new : lll_reach A fl (data_new L A fl)
  | lr_setup s : setup L (data_new L A fl) = Some s -> lll_reach A fl s
  | lr_step s s' : lll_reach A fl s -> lll_iterate L s = Some s' -> lll_reach A fl s'.

  Theorem hnf_reach_uinv A s : hnf_reach A (true, true) s -> uinv (length A) (lncols A) A s.
  Proof.
    induction 1 as [|s s' _ IH E|s s' _ IH E].
    - apply (uinv_init L LW).
    - exact (kept_hnf_iterate L _ (uinv_kept _ _ A) s s' IH E).
    - exact (kept_hnf_final L _ (uinv_kept _ _ A) s s' IH E).
  Qed.

  Theorem lll_reach_uinv A s : lll_reach A (true, true) s -> uinv (length A) (lncols A) A s.
  Proof.
    induction 1 as [|s E|s s' _ IH E].
    - apply (uinv_init L LW).
    - exact (kept_setup L _ (uinv_kept _ _ A) _ s (uinv_init L LW A) E).
    - exact (kept_lll_iterate L _ (uinv_kept _ _ A) s s' IH E).
  Qed.

  Lemma hnf_run_uinv A fuel s : hnf_run L A (true, true) fuel = Some s -> uinv (length A) (lncols A) A s.
  Proof.
    unfold hnf_run, hnf_process. destruct (hnf_loop L fuel _) as [s1|] eqn:E; [|discriminate]. cbn [obind].
    apply (kept_hnf_final L _ (uinv_kept _ _ A)), (kept_hnf_loop L _ (uinv_kept _ _ A) fuel _ _ (uinv_init L LW A) E).
  Qed.

  Lemma lll_run_uinv A fuel s : lll_run L A (true, true) fuel = Some s -> uinv (length A) (lncols A) A s.
  Proof.
    unfold lll_run. destruct (setup L _) as [s1|] eqn:E; [|discriminate]. cbn [obind].
    apply (kept_lll_loop L _ (uinv_kept _ _ A)), (kept_setup L _ (uinv_kept _ _ A) _ s1 (uinv_init L LW A) E).
  Qed.

  Lemma hnf_result_tinv m n A s : uinv m n A s -> tinv L m n A (hnf_result L s).
  Proof.
    intros (Hm & Hn & H0). change (tinv L m n A (target s, tp s, tpinv s)) in H0.
    cbv beta zeta delta [hnf_result]. rewrite Hm, Hn.
    assert (Hl : forall i, In i (seq 0 (m / 2)) -> (i < m / 2)%nat) by (intros i Hi; apply in_seq in Hi; lia).
    revert H0 Hl. generalize (target s, tp s, tpinv s). generalize (seq 0 (m / 2)).
    induction l as [|i l IH]; intros x Hx Hl; cbn [fold_left]; [exact Hx|].
    apply IH; [|intros j Hj; apply Hl; now right].
    destruct x as [[t p] q].
    assert (Hi : (i < m / 2)%nat) by (apply Hl; now left).
    assert (Hm2 : (m / 2 <= m)%nat) by (apply Nat.div_le_upper_bound; lia).
    apply (tinv_swap L LW); [lia|lia|exact Hx].
  Qed.

  (* the flags only erase P / Pinv *)
  Definition erase (fl : bool * bool) (s : lll_data (R := R)) : lll_data (R := R) :=
    mk_data (nr s) (nc s) (target s) (if fst fl then tp s else None) (if snd fl then tpinv s else None)
            (det s) (lambda s) (step s).

  Lemma erase_data_new A fl : data_new L A fl = erase fl (data_new L A (true, true)).
  Proof. destruct fl as [[|] [|]]; reflexivity. Qed.

  Lemma option_map_if {X Y} (g : X -> Y) (b : bool) (x : option X) :
    option_map g (if b then x else None) = if b then option_map g x else None.
  Proof. destruct b; reflexivity. Qed.

  Lemma erase_add_row_to fl s i k r :
    add_row_to L (erase fl s) i k r = option_map (erase fl) (add_row_to L s i k r).
  Proof.
    cbv beta zeta delta [add_row_to erase]. cbn [nr nc target tp tpinv det lambda step].
    destruct (_ || _); [reflexivity|]. cbn [option_map nr nc target tp tpinv det lambda step].
    rewrite !option_map_if. reflexivity.
  Qed.

  Lemma erase_swap fl s k : swap L (erase fl s) k = option_map (erase fl) (swap L s k).
  Proof.
    cbv beta zeta delta [swap erase]. cbn [nr nc target tp tpinv det lambda step].
    destruct (_ || _); [reflexivity|].
    destruct (ofold _ _ _) as [l2|]; [|reflexivity]. cbn [obind].
    destruct (ldiv L _ _) as [dk|]; [|reflexivity]. cbn [obind option_map nr nc target tp tpinv det lambda step].
    rewrite !option_map_if. reflexivity.
  Qed.

  Lemma erase_mul_row fl s i u : mul_row L (erase fl s) i u = option_map (erase fl) (mul_row L s i u).
  Proof.
    cbv beta zeta delta [mul_row erase]. cbn [nr nc target tp tpinv det lambda step].
    destruct (lis_unit L u) eqn:Hu; [|reflexivity].
    destruct (_ <? _)%nat; [|reflexivity]. cbn [negb orb].
    destruct (ll_unit_inv L LW u Hu) as [v Hv]. rewrite Hv.
    destruct fl as [f1 f2]. cbn [fst snd].
    destruct f2; destruct (tpinv s) as [q|]; cbn [obind option_map nr nc target tp tpinv det lambda step];
      rewrite ?option_map_if; reflexivity.
  Qed.

  Lemma erase_nz_col_in fl s i : nz_col_in L (erase fl s) i = nz_col_in L s i.
  Proof. reflexivity. Qed.

  Lemma erase_some fl s : Some (erase fl s) = option_map (erase fl) (Some s).
  Proof. reflexivity. Qed.

  Lemma erase_reduce fl s i k : reduce L (erase fl s) i k = option_map (erase fl) (reduce L s i k).
  Proof.
    cbv beta zeta delta [reduce]. change (nr (erase fl s)) with (nr s).
    change (lambda (erase fl s)) with (lambda s). change (det (erase fl s)) with (det s).
    destruct (_ || _); [reflexivity|].
    destruct (ldiv_round L _ _) as [q|]; [|reflexivity]. cbn [obind].
    destruct (reqb o q (rzero o)); [reflexivity|apply erase_add_row_to].
  Qed.

  Lemma erase_hnf_reduce fl s i k : hnf_reduce L (erase fl s) i k = option_map (erase fl) (hnf_reduce L s i k).
  Proof.
    cbv beta zeta delta [hnf_reduce]. rewrite erase_nz_col_in. change (nr (erase fl s)) with (nr s).
    change (target (erase fl s)) with (target s).
    destruct (_ || _); [reflexivity|].
    destruct (nz_col_in L s i) as [j|]; [|apply erase_reduce].
    destruct (reqb o (lnunit L _) (rone o)).
    - cbn [obind]. change (target (erase fl s)) with (target s).
      destruct (ldiv_round L _ _) as [q|]; [|reflexivity]. cbn [obind].
      destruct (reqb o q (rzero o)); [reflexivity|apply erase_add_row_to].
    - rewrite erase_mul_row. destruct (mul_row L s i _) as [s1|]; [|reflexivity]. cbn [option_map obind].
      change (target (erase fl s1)) with (target s1).
      destruct (ldiv_round L _ _) as [q|]; [|reflexivity]. cbn [obind].
      destruct (reqb o q (rzero o)); [reflexivity|apply erase_add_row_to].
  Qed.

  Lemma erase_ofold fl (f : lll_data -> nat -> option lll_data) l :
    (forall x i, f (erase fl x) i = option_map (erase fl) (f x i)) ->
    forall s, ofold f l (erase fl s) = option_map (erase fl) (ofold f l s).
  Proof.
    intros Hf. induction l as [|i l IH]; intros s; [reflexivity|].
    rewrite !ofold_cons, Hf. destruct (f s i) as [x|]; cbn [option_map obind]; [apply IH|reflexivity].
  Qed.

  Lemma erase_next fl s : next (erase fl s) = erase fl (next s).
  Proof. reflexivity. Qed.
  Lemma erase_back fl s : back (erase fl s) = erase fl (back s).
  Proof. unfold back. change (step (erase fl s)) with (step s). destruct (_ <? _)%nat; reflexivity. Qed.

  Lemma erase_iterate red ok fl s :
    (forall x i k, red (erase fl x) i k = option_map (erase fl) (red x i k)) ->
    (forall x k, ok (erase fl x) k = ok x k) ->
    iterate_with L red ok (erase fl s) = option_map (erase fl) (iterate_with L red ok s).
  Proof.
    intros Hred Hok. cbv beta zeta delta [iterate_with]. change (step (erase fl s)) with (step s).
    rewrite Hred. destruct (red s _ _) as [s1|]; [|reflexivity]. cbn [option_map obind].
    rewrite Hok. destruct (ok s1 _) as [[|]|]; [| |reflexivity]; cbn [obind].
    - rewrite (erase_ofold fl _ _ (fun x i => Hred x i (step s))).
      destruct (ofold _ _ s1) as [s2|]; [|reflexivity]. cbn [option_map obind]. now rewrite erase_next.
    - rewrite erase_swap. destruct (swap L s1 _) as [s2|]; [|reflexivity]. cbn [option_map obind].
      now rewrite erase_back.
  Qed.

  Lemma erase_lll_iterate fl s : lll_iterate L (erase fl s) = option_map (erase fl) (lll_iterate L s).
  Proof. exact (erase_iterate (reduce L) (lovasz_ok L) fl s (erase_reduce fl) (fun _ _ => eq_refl)). Qed.

  Lemma erase_hnf_iterate fl s : hnf_iterate L (erase fl s) = option_map (erase fl) (hnf_iterate L s).
  Proof. exact (erase_iterate (hnf_reduce L) (hnf_is_ok L) fl s (erase_hnf_reduce fl) (fun _ _ => eq_refl)). Qed.

  Lemma erase_loop it fl fuel : (forall s, it (erase fl s) = option_map (erase fl) (it s)) ->
    forall s, loop_with it fuel (erase fl s) = option_map (erase fl) (loop_with it fuel s).
  Proof.
    intros Hit. induction fuel as [|f IH]; intros s; cbn [loop_with]; change (step (erase fl s)) with (step s);
      change (nr (erase fl s)) with (nr s); destruct (_ <? _)%nat; try reflexivity.
    rewrite Hit. destruct (it s) as [s1|]; [|reflexivity]. cbn [option_map obind]. apply IH.
  Qed.

  Lemma erase_lll_loop fl fuel s : lll_loop L fuel (erase fl s) = option_map (erase fl) (lll_loop L fuel s).
  Proof. rewrite !lll_loop_eq. apply erase_loop, erase_lll_iterate. Qed.

  Lemma erase_hnf_loop fl fuel s : hnf_loop L fuel (erase fl s) = option_map (erase fl) (hnf_loop L fuel s).
  Proof. rewrite !hnf_loop_eq. apply erase_loop, erase_hnf_iterate. Qed.

  Lemma erase_hnf_final fl s : hnf_final L (erase fl s) = option_map (erase fl) (hnf_final L s).
  Proof.
    cbv beta zeta delta [hnf_final]. change (nr (erase fl s)) with (nr s). rewrite erase_nz_col_in.
    change (target (erase fl s)) with (target s).
    destruct (_ <? _)%nat; [|reflexivity]. destruct (nz_col_in L s _) as [j|]; [|reflexivity].
    destruct (reqb o _ _); [reflexivity|apply erase_mul_row].
  Qed.

  Lemma erase_setup fl s : setup L (erase fl s) = option_map (erase fl) (setup L s).
  Proof.
    cbv beta zeta delta [setup]. change (target (erase fl s)) with (target s).
    destruct (orthogonalize L _) as [[[c l] d]|]; reflexivity.
  Qed.

  Theorem hnf_run_flags A fl fuel :
    hnf_run L A fl fuel = option_map (erase fl) (hnf_run L A (true, true) fuel).
  Proof.
    unfold hnf_run, hnf_process. rewrite erase_data_new, erase_hnf_loop.
    destruct (hnf_loop L fuel _) as [s1|]; [|reflexivity]. cbn [option_map obind]. apply erase_hnf_final.
  Qed.

  Theorem lll_run_flags A fl fuel :
    lll_run L A fl fuel = option_map (erase fl) (lll_run L A (true, true) fuel).
  Proof.
    unfold lll_run. rewrite erase_data_new, erase_setup.
    destruct (setup L _) as [s1|]; [|reflexivity]. cbn [option_map obind]. apply erase_lll_loop.
  Qed.

  Definition erase_out (fl : bool * bool) (x : lmat R * option (lmat R) * option (lmat R)) :=
    (fst (fst x), if fst fl then snd (fst x) else None, if snd fl then snd x else None).

  Lemma erase_hnf_result fl s : hnf_result L (erase fl s) = erase_out fl (hnf_result L s).
  Proof.
    cbv beta zeta delta [hnf_result]. change (nr (erase fl s)) with (nr s). change (nc (erase fl s)) with (nc s).
    cbn [target tp tpinv erase].
    change (target s, if fst fl then tp s else None, if snd fl then tpinv s else None)
      with (erase_out fl (target s, tp s, tpinv s)).
    generalize (target s, tp s, tpinv s). generalize (seq 0 (nr s / 2)).
    induction l as [|i l IH]; intros x; cbn [fold_left]; [reflexivity|].
    rewrite <- IH. f_equal. destruct x as [[t p] q]. unfold erase_out. cbn [fst snd].
    rewrite !option_map_if. reflexivity.
  Qed.

  Theorem lll_hnf_flags A fl fuel :
    lll_hnf L A fl fuel = option_map (erase_out fl) (lll_hnf L A (true, true) fuel).
  Proof.
    unfold lll_hnf. rewrite hnf_run_flags. destruct (hnf_run L A (true, true) fuel) as [s|]; [|reflexivity].
    cbn [option_map obind]. now rewrite erase_hnf_result.
  Qed.

  Theorem lll_hnf_unimodular A f1 f2 fuel H oP oQ :
    lll_hnf L A (f1, f2) fuel = Some (H, oP, oQ) ->
    let m := length A in
    let n := lncols A in
    exists P Q,
      lll_hnf L A (true, true) fuel = Some (H, Some P, Some Q) /\
      oP = (if f1 then Some P else None) /\ oQ = (if f2 then Some Q else None) /\
      meq m n (lget o H) (mmul o m (lget o P) (lget o A)) /\
      meq m m (mmul o m (lget o P) (lget o Q)) (mid o) /\
      meq m m (mmul o m (lget o Q) (lget o P)) (mid o).
  Proof.
    intros E m n. rewrite lll_hnf_flags in E.
    destruct (lll_hnf L A (true, true) fuel) as [[[H' oP'] oQ']|] eqn:E1; [|discriminate].
    cbn [option_map] in E. unfold erase_out in E. cbn [fst snd] in E. injection E as <- <- <-.
    unfold lll_hnf in E1. destruct (hnf_run L A (true, true) fuel) as [s|] eqn:E2; [|discriminate].
    cbn [obind] in E1. injection E1 as E1.
    pose proof (hnf_result_tinv m n A s (hnf_run_uinv A fuel s E2)) as (P & Q & HP & HQ & HT & HPQ & HQP).
    rewrite E1 in HP, HQ, HT. cbn [fst snd] in HP, HQ, HT. subst oP' oQ'.
    exists P, Q. repeat split; assumption.
  Qed.

  Theorem lll_unimodular A with_trans fuel B oP :
    lll L A with_trans fuel = Some (B, oP) ->
    let m := length A in
    let n := lncols A in
    exists P Q,
      oP = (if with_trans then Some P else None) /\
      lll L A true fuel = Some (B, Some P) /\
      meq m n (lget o B) (mmul o m (lget o P) (lget o A)) /\
      meq m m (mmul o m (lget o P) (lget o Q)) (mid o) /\
      meq m m (mmul o m (lget o Q) (lget o P)) (mid o).
  Proof.
    intros E m n. unfold lll in *. rewrite lll_run_flags in E.
    destruct (lll_run L A (true, true) fuel) as [s|] eqn:E1; [|discriminate].
    cbn [option_map obind] in E. injection E as <- <-.
    pose proof (lll_run_uinv A fuel s E1) as (Hm & Hn & P & Q & HP & HQ & HT & HPQ & HQP).
    exists P, Q. cbn [erase target tp fst snd]. rewrite HP.
    split; [reflexivity|]. split.
    - rewrite lll_run_flags, E1. cbn [option_map obind erase target tp fst snd]. now rewrite HP.
    - auto.
  Qed.
  (* every reachable state, for every choice of the flags *)
  Lemma hnf_reach_erase A fl s : hnf_reach A fl s -> exists s0, hnf_reach A (true, true) s0 /\ s = erase fl s0.
  Proof.
    induction 1 as [|s s' _ [s0 [H0 ->]] E|s s' _ [s0 [H0 ->]] E].
    - exists (data_new L A (true, true)). split; [constructor|apply erase_data_new].
    - rewrite erase_hnf_iterate in E. destruct (hnf_iterate L s0) as [s0'|] eqn:E0; [|discriminate].
      cbn [option_map] in E. injection E as <-. exists s0'. split; [now apply (hr_step A _ s0)|reflexivity].
    - rewrite erase_hnf_final in E. destruct (hnf_final L s0) as [s0'|] eqn:E0; [|discriminate].
      cbn [option_map] in E. injection E as <-. exists s0'. split; [now apply (hr_final A _ s0)|reflexivity].
  Qed.

  Lemma lll_reach_erase A fl s : lll_reach A fl s -> exists s0, lll_reach A (true, true) s0 /\ s = erase fl s0.
  Proof.
    induction 1 as [|s E|s s' _ [s0 [H0 ->]] E].
    - exists (data_new L A (true, true)). split; [constructor|apply erase_data_new].
    - rewrite erase_data_new, erase_setup in E. destruct (setup L _) as [s0|] eqn:E0; [|discriminate].
      cbn [option_map] in E. injection E as <-. exists s0. split; [now apply lr_setup|reflexivity].
    - rewrite erase_lll_iterate in E. destruct (lll_iterate L s0) as [s0'|] eqn:E0; [|discriminate].
      cbn [option_map] in E. injection E as <-. exists s0'. split; [now apply (lr_step A _ s0)|reflexivity].
  Qed.

  (* the state holds target = P A for a unimodular P with inverse Q; P, Q are stored iff the flags ask for them *)
  Definition tracked (A : lmat R) (fl : bool * bool) (s : lll_data (R := R)) : Prop :=
    let m := length A in
    let n := lncols A in
    nr s = m /\ nc s = n /\
    exists P Q,
      tp s = (if fst fl then Some P else None) /\ tpinv s = (if snd fl then Some Q else None) /\
      meq m n (lget o (target s)) (mmul o m (lget o P) (lget o A)) /\
      meq m m (mmul o m (lget o P) (lget o Q)) (mid o) /\
      meq m m (mmul o m (lget o Q) (lget o P)) (mid o).

  Lemma uinv_tracked A fl s0 : uinv (length A) (lncols A) A s0 -> tracked A fl (erase fl s0).
  Proof.
    intros (Hm & Hn & P & Q & HP & HQ & HT & HPQ & HQP). unfold tracked. cbn [erase nr nc tp tpinv target].
    split; [exact Hm|]. split; [exact Hn|]. exists P, Q. rewrite HP, HQ.
    split; [now destruct (fst fl)|]. split; [now destruct (snd fl)|]. auto.
  Qed.

  Theorem reach_unimodular A fl s : hnf_reach A fl s \/ lll_reach A fl s -> tracked A fl s.
  Proof.
    intros [H|H].
    - apply hnf_reach_erase in H. destruct H as [s0 [H0 ->]]. apply uinv_tracked. now apply hnf_reach_uinv.
    - apply lll_reach_erase in H. destruct H as [s0 [H0 ->]]. apply uinv_tracked. now apply lll_reach_uinv.
  Qed.

  (* the states the two entry points pass through are reachable *)
  Lemma hnf_loop_reach A fl fuel : forall s s', hnf_reach A fl s -> hnf_loop L fuel s = Some s' -> hnf_reach A fl s'.
  Proof.
    induction fuel as [|f IH]; intros s s' HR; cbn [hnf_loop]; destruct (_ <? _)%nat; try discriminate;
      try (intros H; injection H as <-; exact HR).
    destruct (hnf_iterate L s) as [s1|] eqn:E; [|discriminate]. cbn [obind].
    apply IH. now apply (hr_step A fl s).
  Qed.

  Lemma hnf_run_reach A fl fuel s : hnf_run L A fl fuel = Some s -> hnf_reach A fl s.
  Proof.
    unfold hnf_run, hnf_process. destruct (hnf_loop L fuel _) as [s1|] eqn:E; [|discriminate]. cbn [obind].
    apply hr_final. apply (hnf_loop_reach A fl fuel _ _ (hr_init A fl) E).
  Qed.

  Lemma lll_loop_reach A fl fuel : forall s s', lll_reach A fl s -> lll_loop L fuel s = Some s' -> lll_reach A fl s'.
  Proof.
    induction fuel as [|f IH]; intros s s' HR; cbn [lll_loop]; destruct (_ <? _)%nat; try discriminate;
      try (intros H; injection H as <-; exact HR).
    destruct (lll_iterate L s) as [s1|] eqn:E; [|discriminate]. cbn [obind].
    apply IH. now apply (lr_step A fl s).
  Qed.

  Lemma lll_run_reach A fl fuel s : lll_run L A fl fuel = Some s -> lll_reach A fl s.
  Proof.
    unfold lll_run. destruct (setup L _) as [s1|] eqn:E; [|discriminate]. cbn [obind].
    apply lll_loop_reach. now apply lr_setup.
  Qed.
End Unimod.
