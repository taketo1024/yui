(* C03 - universal coefficients for the Khovanov oracle as a theorem about actual ranks.
   Each theorem is proved by [exact <lemma>] (C03_uct_vocabulary: by unfolding the definitions it spells out) and is
   followed by Print Assumptions; the Example instantiates the hypotheses on the trefoil.

   The oracle (Model/KhHomology.v) reads its F_2, F_3 and Q columns off the integral invariant factors by a counting
   formula (C03_uct, C03_rank: true by definition of [group_at]).  Proved here: those columns ARE the dimensions of
   the homology of the cube complex after base change.  For every entry (k, g) of [kh_groups] and of every
   quantum-degree piece of [kh_groups_bigraded]:
       g_dim2 g = n_k - rank_(F_2) d_k - rank_(F_2) d_(k-1)       (g_dim3 likewise over F_3)
       g_rank g = n_k - rank_Q d_k - rank_Q d_(k-1) = n_k - rank_Z d_k - rank_Z d_(k-1)
   where n_k = [count_gens c k sel] is the number of (selected) generators in cube degree k and the rank over a
   field F of d_k is the size of ANY Smith-type form over F ([smith_form]: P A Q = diag(c_0 .. c_(r-1), 0 ..), P, Q
   invertible, all c_i <> 0 - an invariant of the matrix, Proofs/C07Rank.v) of the base change of the dense matrix
   [dense (sel_rows c k sel rows)] of the selected rows of [rows_at c k] (one row per source generator; the matrix
   that [factors] diagonalises over Z); there is no incoming differential in degree 0.
   Also: the relation between the columns of one table in terms of the torsion it lists (C03_table_uct).
   Not claimed: that the v2 engine's F_p tables equal the oracle's for every link (compared by the check). *)
From Coq Require Import List Bool ZArith Znumtheory.
From Coq Require Qcanon.
Require Import Yui.Base.Ring Yui.Base.MatF Yui.Proofs.C07Algebra.
Require Yui.Model.Snf.
Require Import Yui.Model.KhCube Yui.Model.KhHomology.
Require Import Yui.Proofs.KhSmithRows Yui.Proofs.KhSmithSteps Yui.Proofs.KhSmithTables Yui.Proofs.C07Uct
  Yui.Proofs.C03Uct.
Import ListNotations.
Close Scope Z_scope.

Module SNF := Yui.Model.Snf.

(* the definitions in which the statements below are written, spelled out *)
Theorem C03_uct_vocabulary :
  (forall (F : Type) (o' : ring_ops F) (phi : Z -> F) (c : cube) (sel : vertex * label -> bool) (k r : nat),
     is_rank_of o' phi c sel k r <->
     exists (rows : list row) (n : nat) (cc : nat -> F),
       rows_at c k = Some rows /\
       rows_wf n (sel_rows c k sel rows) /\
       smith_form o' (count_gens c k sel) n (fun i j => phi (dense (sel_rows c k sel rows) i j)) r cc) /\
  (forall (F : Type) (o' : ring_ops F) (phi : Z -> F) (c : cube) (sel : vertex * label -> bool) (k r : nat),
     is_rank_prev o' phi c sel k r <->
     match k with O => r = 0 | S k' => is_rank_of o' phi c sel k' r end) /\
  (forall (c : cube) (k : nat) (sel : vertex * label -> bool) (rows : list row),
     sel_rows c k sel rows = map snd (filter (fun p => sel (fst p)) (combine (gens_at c k) rows))) /\
  (forall a : Z, z2q a = Qcanon.Q2Qc (QArith_base.inject_Z a)) /\
  (forall p t : Z, pdivides p t = (t mod p =? 0)%Z) /\
  (forall (c : cube) (sel : vertex * label -> bool) (k : nat) (g : group),
     entry_uct c sel k g <->
     let nk := Z.of_nat (count_gens c k sel) in
     (forall r r', is_rank_of (SNF.fp_ring 2) (SNF.fp_mk 2) c sel k r ->
                   is_rank_prev (SNF.fp_ring 2) (SNF.fp_mk 2) c sel k r' ->
                   g_dim2 g = (nk - Z.of_nat r - Z.of_nat r')%Z) /\
     (forall r r', is_rank_of (SNF.fp_ring 3) (SNF.fp_mk 3) c sel k r ->
                   is_rank_prev (SNF.fp_ring 3) (SNF.fp_mk 3) c sel k r' ->
                   g_dim3 g = (nk - Z.of_nat r - Z.of_nat r')%Z) /\
     (forall r r', is_rank_of SNF.Q_ring z2q c sel k r -> is_rank_prev SNF.Q_ring z2q c sel k r' ->
                   g_rank g = (nk - Z.of_nat r - Z.of_nat r')%Z) /\
     (forall r r', is_rank_of Z_ring (fun a => a) c sel k r -> is_rank_prev Z_ring (fun a => a) c sel k r' ->
                   g_rank g = (nk - Z.of_nat r - Z.of_nat r')%Z)).
Proof. repeat (split; [intros; reflexivity|]). intros; reflexivity. Qed.
Print Assumptions C03_uct_vocabulary.

(* the singly graded table of a diagram (any h, t; reduced or not) *)
Theorem C03_uct_true :
  forall (l : link) (red : option nat) (h t : Z) (gs : list (nat * group)),
  kh_groups (build_cube l red h t) = Some gs ->
  let c := build_cube l red h t in
  forall k, k <= crossing_num l ->
  exists g, nth_error gs k = Some (k, g) /\ entry_uct c (fun _ => true) k g.
Proof. exact kh_groups_uct. Qed.
Print Assumptions C03_uct_true.

(* the bigraded table: every quantum-degree piece *)
Theorem C03_uct_true_bigraded :
  forall (l : link) (red : option nat) (h t : Z) (tbl : list (Z * list (nat * group))),
  kh_groups_bigraded (build_cube l red h t) = Some tbl ->
  let c := build_cube l red h t in
  forall q gq, In (q, gq) tbl ->
  forall k, k <= crossing_num l ->
  exists g, nth_error gq k = Some (k, g) /\ entry_uct c (fun g0 => (q_local g0 =? q)%Z) k g.
Proof. exact kh_groups_bigraded_uct. Qed.
Print Assumptions C03_uct_true_bigraded.

(* the common core: any table [groups_from] builds on a cube with well-formed rows *)
Theorem C03_uct_groups_from :
  forall (c : cube) (sel : vertex * label -> bool) (todo : nat) (gs : list (nat * group)),
  cube_shape c -> groups_from c sel 0 todo [] = Some gs ->
  forall k, k < todo -> exists g, nth_error gs k = Some (k, g) /\ entry_uct c sel k g.
Proof. exact groups_from_uct. Qed.
Print Assumptions C03_uct_groups_from.

(* the ranks quantified over exist for every entry, for every prime p and over Q *)
Theorem C03_uct_ranks_exist :
  forall (c : cube) (sel : vertex * label -> bool) (todo : nat) (gs : list (nat * group)),
  cube_shape c -> groups_from c sel 0 todo [] = Some gs ->
  forall k, k < todo -> forall p : Z, prime p ->
  (exists r, is_rank_of (SNF.fp_ring p) (SNF.fp_mk p) c sel k r) /\
  (exists r, is_rank_of SNF.Q_ring z2q c sel k r).
Proof. exact groups_from_ranks_exist. Qed.
Print Assumptions C03_uct_ranks_exist.

(* for every prime p (not only 2, 3): the rank mod p of d_k is the number of its factors prime to p *)
Theorem C03_uct_modp_rank :
  forall (p : Z) (c : cube) (k : nat) (sel : vertex * label -> bool) (ds : list Z) (r : nat),
  prime p -> cube_shape c -> factors c k sel = Some ds ->
  is_rank_of (SNF.fp_ring p) (SNF.fp_mk p) c sel k r -> r = length (filter (not_div p) ds).
Proof. exact factors_modp_rank. Qed.
Print Assumptions C03_uct_modp_rank.

(* the relation of the property statement, on the oracle's table, in terms of the torsion the table lists:
   dim_(F_p) H^k = rank H^k + #{t in tors H^k : p | t} + #{t in tors H^(k+1) : p | t}   (p = 2, 3)
   where tors H^(k+1) (= tnext) consists of the factors > 1 of d_k and is the torsion listed in degree k+1 whenever the
   table has that entry (in the top cube degree the next group is 0 and is not listed) *)
Theorem C03_table_uct :
  forall (c : cube) (sel : vertex * label -> bool) (todo : nat) (gs : list (nat * group)),
  cube_shape c -> groups_from c sel 0 todo [] = Some gs ->
  forall k, k < todo -> exists (g : group) (tnext : list Z),
    nth_error gs k = Some (k, g) /\
    (exists dk, factors c k sel = Some dk /\ tnext = filter (fun d => (1 <? d)%Z) dk) /\
    (forall e, nth_error gs (S k) = Some e -> fst e = S k /\ g_tors (snd e) = tnext) /\
    g_dim2 g = (g_rank g + Z.of_nat (length (filter (pdivides 2) (g_tors g)))
                         + Z.of_nat (length (filter (pdivides 2) tnext)))%Z /\
    g_dim3 g = (g_rank g + Z.of_nat (length (filter (pdivides 3) (g_tors g)))
                         + Z.of_nat (length (filter (pdivides 3) tnext)))%Z.
Proof. exact groups_from_table_uct. Qed.
Print Assumptions C03_table_uct.

Definition ex_trefoil : link := [(CX, (1, 4, 2, 5)); (CX, (3, 6, 4, 1)); (CX, (5, 2, 6, 3))].

(* the oracle answers; in cube degree 1 (H = Z + Z/2 in the oracle's indexing, see C01_trefoil) the F_2 column is 2
   and the F_3 column is 1, and these are n_1 - rank d_1 - rank d_0 for ANY Smith forms over F_2 / F_3; such forms
   exist *)
Example C03_uct_example :
  exists gs g,
    kh_groups (build_cube ex_trefoil None 0 0) = Some gs /\
    nth_error gs 1 = Some (1, g) /\ g_rank g = 1%Z /\ g_tors g = [2%Z] /\ g_dim2 g = 2%Z /\ g_dim3 g = 1%Z /\
    entry_uct (build_cube ex_trefoil None 0 0) (fun _ => true) 1 g /\
    (exists r, is_rank_of (SNF.fp_ring 2) (SNF.fp_mk 2) (build_cube ex_trefoil None 0 0) (fun _ => true) 1 r) /\
    (exists r, is_rank_prev (SNF.fp_ring 2) (SNF.fp_mk 2) (build_cube ex_trefoil None 0 0) (fun _ => true) 1 r).
Proof.
  set (gs := [(0%nat, mk_group 1 [] 2 1); (1%nat, mk_group 1 [2%Z] 2 1); (2%nat, mk_group 0 [] 0 0);
              (3%nat, mk_group 2 [] 2 2)]).
  assert (E : kh_groups (build_cube ex_trefoil None 0 0) = Some gs) by (vm_compute; reflexivity).
  destruct (kh_groups_uct ex_trefoil None 0%Z 0%Z gs E 1) as [g [Hg Hu]]; [vm_compute; repeat constructor|].
  exists gs, g. split; [exact E|]. split; [exact Hg|].
  injection Hg as <-.
  split; [reflexivity|]. split; [reflexivity|]. split; [reflexivity|]. split; [reflexivity|].
  split; [exact Hu|].
  unfold kh_groups in E. destruct (cube_ok (build_cube ex_trefoil None 0 0)); [|discriminate].
  pose proof (build_cube_shape ex_trefoil None 0%Z 0%Z) as Hc.
  split.
  - exact (proj1 (groups_from_ranks_exist _ _ _ _ Hc E 1 ltac:(vm_compute; repeat constructor) 2%Z prime_2)).
  - exact (proj1 (groups_from_ranks_exist _ _ _ _ Hc E 0 ltac:(vm_compute; repeat constructor) 2%Z prime_2)).
Qed.
