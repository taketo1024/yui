(* C03Big: concrete runs of the model: one torsion generator with terms in two q-degrees, on which the two
   routes differ ([refuted_inhomogeneous]); the cell dropped by step_by(2) ([step2_drops]); the total homology
   of the trefoil ([trefoil_example]); the summand of T(5,6) + trefoil in degree 14 ([witness_shape]). *)
From Coq Require Import List ZArith Bool Lia Permutation.
Require Import Yui.Model.IntoBigraded Yui.Proofs.C03BigTable Yui.Proofs.C03BigGrid Yui.Proofs.C03BigAgree.
Import ListNotations.
Open Scope Z_scope.

Lemma is_homogeneous_b_spec : forall qs, is_homogeneous_b qs = true <-> homogeneous qs.
Proof.
  intros [|q r].
  - split; [intros _; exists 0; constructor | reflexivity].
  - unfold is_homogeneous_b. rewrite forallb_forall. split.
    + intros H. exists q. constructor; [reflexivity|]. apply Forall_forall. intros x Hx. apply Z.eqb_eq. apply H. exact Hx.
    + intros [j H]. inversion H as [|? ? Hq Hr]; subst. intros x Hx. apply Z.eqb_eq.
      rewrite Forall_forall in Hr. apply Hr. exact Hx.
Qed.

Definition all_gens (hs : list (Z * summand_info)) : list (gkind * list Z) := flat_map (fun ih => tagged (snd ih)) hs.

Lemma gens_at_incl : forall hs i x, In x (gens_at hs i) -> In x (all_gens hs).
Proof.
  intros hs i x H. unfold gens_at in H. unfold all_gens. apply in_flat_map in H. destruct H as [ih [H1 H2]].
  apply in_flat_map. exists ih. split; [exact H1|]. destruct (fst ih =? i); [exact H2 | destruct H2].
Qed.

Lemma same_parity_b : forall hs (p : bool),
  forallb (fun gq => Bool.eqb (Z.odd (chain_q_deg (snd gq))) p) (all_gens hs) = true -> same_parity hs.
Proof.
  intros hs p H. exists p. intros i g qs Hin. rewrite forallb_forall in H.
  specialize (H (g, qs) (gens_at_incl hs i _ Hin)). cbn [snd] in H. apply eqb_prop in H. exact H.
Qed.

(* count 0 implies the hypothesis of the homogeneous theorem in every homological degree *)
Lemma count_inhomogeneous_zero : forall hs,
  count_inhomogeneous hs = O -> Forall (fun ih => all_homogeneous (snd ih)) hs.
Proof.
  intros hs H. unfold count_inhomogeneous in H. fold (all_gens hs) in H.
  assert (A : forall x, In x (all_gens hs) -> homogeneous (snd x)).
  { intros x Hx. apply is_homogeneous_b_spec. destruct (is_homogeneous_b (snd x)) eqn:E; [reflexivity|].
    assert (Hf : In x (filter (fun g => negb (is_homogeneous_b (snd g))) (all_gens hs))).
    { apply filter_In. split; [exact Hx | rewrite E; reflexivity]. }
    destruct (filter (fun g => negb (is_homogeneous_b (snd g))) (all_gens hs)); [destruct Hf | discriminate]. }
  apply Forall_forall. intros ih Hih. split; apply Forall_forall.
  - intros qs Hqs. apply (A (GFree, qs)). unfold all_gens. apply in_flat_map. exists ih. split; [exact Hih|].
    unfold tagged. apply in_or_app. left. apply in_map_iff. exists qs. auto.
  - intros p Hp. apply (A (GTor (fst p), snd p)). unfold all_gens. apply in_flat_map. exists ih. split; [exact Hih|].
    unfold tagged. apply in_or_app. right. apply in_map_iff. exists p. auto.
Qed.

(* one torsion generator of order 6 = lcm(2,3) whose order-2 part lives in q = 44 and order-3 part in q = 46 *)
Definition witness_ds : list dgen := [[(44, CTor 2); (46, CTor 3)]].

Lemma single_degree_parity : forall i s (p : bool),
  (forall g qs, In (g, qs) (tagged s) -> Z.odd (chain_q_deg qs) = p) -> same_parity [(i, s)].
Proof.
  intros i s p H. exists p. intros i' g qs Hin. unfold gens_at in Hin. cbn [flat_map fst snd] in Hin.
  rewrite app_nil_r in Hin. destruct (i =? i'); [apply (H g qs Hin) | destruct Hin].
Qed.

Lemma refuted_inhomogeneous :
  exists (ds : list dgen) (i : Z),
    Forall (fun d => nontriv d <> []) ds /\
    same_parity [(i, summand_of_dgens ds)] /\
    count_inhomogeneous [(i, summand_of_dgens ds)] = 1%nat /\
    into_bigraded [(i, summand_of_dgens ds)] = [((i, 44), (O, [6]))] /\
    cell_of_located 44 (located_cellwise ds) = (O, [2]) /\
    cell_of_located 46 (located_cellwise ds) = (O, [3]) /\
    ~ Permutation (located_A ds) (located_cellwise ds).
Proof.
  exists witness_ds, 14.
  split; [|split; [|split; [|split; [|split; [|split]]]]].
  - constructor; [discriminate | constructor].
  - apply (single_degree_parity _ _ false). intros g qs [H|[]]. inversion H; subst. reflexivity.
  - vm_compute. reflexivity.
  - vm_compute. reflexivity.
  - vm_compute. reflexivity.
  - vm_compute. reflexivity.
  - intros HP. apply agree_only_if in HP.
    + inversion HP as [|? ? [c Hc] _]; subst. discriminate Hc.
    + constructor; [discriminate | constructor].
Qed.

(* q-degrees of both parities in the table (impossible for a link): the odd one is not on the grid and is lost *)
Definition mixed_hs : list (Z * summand_info) := [(0, {| si_free := [[0]; [1]]; si_tors := [] |})].

Lemma step2_drops :
  map fst (collect_gen_info mixed_hs) = [(0, 0); (0, 1)] /\
  into_bigraded mixed_hs = [((0, 0), (1%nat, []))] /\
  total_rank (into_bigraded mixed_hs) = 1%nat /\ sum_ranks mixed_hs = 2%nat /\ ~ same_parity mixed_hs.
Proof.
  split; [|split; [|split; [|split]]]; try (vm_compute; reflexivity).
  intros [p Hp].
  assert (A : Z.odd (chain_q_deg [0]) = p) by (apply (Hp 0 GFree); vm_compute; auto).
  assert (B : Z.odd (chain_q_deg [1]) = p) by (apply (Hp 0 GFree); vm_compute; auto).
  vm_compute in A, B. congruence.
Qed.

(* non-vacuity: the total homology of the left-handed trefoil (homology.rs tests kh_trefoil / into_bigr) *)
Definition trefoil_hs : list (Z * summand_info) :=
  [(-3, {| si_free := [[-9]]; si_tors := [] |});
   (-2, {| si_free := [[-5]]; si_tors := [(2, [-7; -7])] |});
   (-1, {| si_free := []; si_tors := [] |});
   (0, {| si_free := [[-3]; [-1; -1]]; si_tors := [] |})].

Lemma trefoil_example :
  NoDup (map fst trefoil_hs) /\ same_parity trefoil_hs /\ Forall (fun ih => all_homogeneous (snd ih)) trefoil_hs /\
  count_inhomogeneous trefoil_hs = O /\
  filter (fun c => negb (Nat.eqb (fst (snd c)) 0 && match snd (snd c) with [] => true | _ => false end))
    (into_bigraded trefoil_hs)
  = [((-3, -9), (1%nat, [])); ((-2, -7), (O, [2])); ((-2, -5), (1%nat, [])); ((0, -3), (1%nat, [])); ((0, -1), (1%nat, []))].
Proof.
  split; [|split; [|split; [|split]]].
  - cbn. repeat constructor; cbn; intuition discriminate.
  - apply (same_parity_b _ true). vm_compute. reflexivity.
  - apply count_inhomogeneous_zero. vm_compute. reflexivity.
  - vm_compute. reflexivity.
  - vm_compute. reflexivity.
Qed.

(* the shape of the summand of T(5,6) + trefoil in homological degree 14: an order-2 generator and an
   order-30 generator with terms in q = 44 and q = 46; the bigraded pieces have Z/10 in (14,44) and
   Z/6 = Z/2 + Z/3 in (14,46) where route A files Z/2 + Z/30 in (14,44) *)
Definition witness_shape_ds : list dgen := [[(44, CTriv); (46, CTor 2)]; [(44, CTor 10); (46, CTor 3)]].

Lemma witness_shape :
  into_bigraded [(14, summand_of_dgens witness_shape_ds)] = [((14, 44), (O, [2; 30]))] /\
  cell_of_located 44 (located_cellwise witness_shape_ds) = (O, [10]) /\
  cell_of_located 46 (located_cellwise witness_shape_ds) = (O, [2; 3]) /\
  count_inhomogeneous [(14, summand_of_dgens witness_shape_ds)] = 2%nat.
Proof. repeat split; vm_compute; reflexivity. Qed.
