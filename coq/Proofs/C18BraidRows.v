(* C18 - Braid::closure described level by level.
   [row n w k] is the list bottom_edges before letter k is processed (k = 0 .. |w|); after the renaming
   bottom_edges[j] -> j the label at level k, position j is [lab n w k j].  The four labels of crossing k
   are read off levels k (the two strands arriving from above) and k+1 (the two strands leaving below);
   positions not touched by letter k keep their label, and level |w| is glued to level 0.
   All later facts about closures (orientation, writhe, components) are derived from the interface
   [BraidDiag] proved here, not from the loop. *)
From Coq Require Import List Arith Bool Lia ZArith.
Require Import Yui.Model.Link Yui.Model.Braid Yui.Proofs.C18Base Yui.Proofs.C18Traverse
  Yui.Proofs.C18Closure.
Import ListNotations.

Definition idx (s : Z) : nat := Z.abs_nat s - 1.
Definition step_row (cb : nat * list nat) (s : Z) : nat * list nat :=
  (S (S (fst cb)), upd2 (idx s) (fst cb) (snd cb)).
Definition rawx (s : Z) (c : nat) (b : list nat) : xcode :=
  let a := nth (idx s) b 0 in let b' := nth (S (idx s)) b 0 in
  if (0 <? s)%Z then (a, c, S c, b') else (b', a, c, S c).

Definition row_state (n : nat) (w : list Z) (k : nat) : nat * list nat :=
  fold_left step_row (firstn k w) (n, seq 0 n).
Definition row (n : nat) (w : list Z) (k : nat) : list nat := snd (row_state n w k).
Definition lab (n : nat) (w : list Z) (k j : nat) : nat :=
  conn_lookup (row n w (length w)) 0 (nth j (row n w k) 0).

(* the slot of a crossing of a closure: level (false: arriving from above, true: leaving below) and
   offset (0: left position i, 1: right position i+1) *)
Definition slot_out (s : Z) (j : nat) : bool :=
  if (0 <? s)%Z then (j =? 1) || (j =? 2) else (j =? 2) || (j =? 3).
Definition slot_off (s : Z) (j : nat) : nat :=
  if (0 <? s)%Z then (match j with 0 | 1 => 0 | _ => 1 end) else (match j with 1 | 2 => 0 | _ => 1 end).
Definition b2n (b : bool) : nat := if b then 1 else 0.

Record BraidDiag (n : nat) (w : list Z) (l : link) (lb : nat -> nat -> nat) : Prop := {
  bd_valid : Valid l;
  bd_len : length l = length w;
  bd_X : forall k, k < length w -> ct (cross_at l k) = X;
  bd_idx : forall k, k < length w -> S (idx (nth k w 0%Z)) < n;
  bd_nz : forall k, k < length w -> nth k w 0%Z <> 0%Z;
  bd_edge : forall k j, k < length w -> j < 4 ->
    edge_at l (k, j) = lb (k + b2n (slot_out (nth k w 0%Z) j)) (idx (nth k w 0%Z) + slot_off (nth k w 0%Z) j);
  bd_keep : forall k j, k < length w -> j < n -> j <> idx (nth k w 0%Z) -> j <> S (idx (nth k w 0%Z)) ->
    lb (S k) j = lb k j;
  bd_touch : forall j, j < n ->
    exists k, k < length w /\ (j = idx (nth k w 0%Z) \/ j = S (idx (nth k w 0%Z)));
  bd_wrap : forall j, j < n -> lb (length w) j = j;
  bd_top : forall j, j < n -> lb 0 j = j }.

Lemma fold_step_fst : forall ws c b, fst (fold_left step_row ws (c, b)) = c + 2 * length ws.
Proof. induction ws as [|s ws IH]; intros; cbn [fold_left length]; [cbn; lia|]. unfold step_row at 2. cbn [fst snd]. rewrite IH. lia. Qed.
Lemma fold_step_len : forall ws c b, length (snd (fold_left step_row ws (c, b))) = length b.
Proof.
  induction ws as [|s ws IH]; intros; cbn [fold_left]; auto. unfold step_row at 2. cbn [fst snd].
  rewrite IH. apply upd2_length.
Qed.

Lemma closure_loop_spec : forall w c b bt code, closure_loop w c b = Some (bt, code) ->
  length code = length w /\ bt = snd (fold_left step_row w (c, b)) /\
  forall k, k < length w ->
    nth k w 0%Z <> 0%Z /\ S (idx (nth k w 0%Z)) < length b /\
    nth k code (0, 0, 0, 0) = rawx (nth k w 0%Z) (fst (fold_left step_row (firstn k w) (c, b)))
                                   (snd (fold_left step_row (firstn k w) (c, b))).
Proof.
  induction w as [|s w IH]; intros c b bt code E.
  - cbn in E. inversion E; subst. cbn. split; auto. split; auto. intros; lia.
  - destruct (closure_loop_cons _ _ _ _ _ _ E) as (Z0 & Hi & code' & R & ->). fold (idx s) in *.
    destruct (IH _ _ _ _ R) as (L1 & L2 & L3).
    cbn [length]. split; [lia|]. split.
    { cbn [fold_left]. unfold step_row at 2. cbn [fst snd]. exact L2. }
    intros k Hk. destruct k as [|k].
    + cbn [nth firstn fold_left fst snd]. auto.
    + cbn [nth firstn fold_left]. unfold step_row at 2 4. cbn [fst snd].
      destruct (L3 k ltac:(lia)) as (A0 & A & B). rewrite upd2_length in A. split; auto.
Qed.

Lemma firstn_S_nth : forall (w : list Z) k, k < length w -> firstn (S k) w = firstn k w ++ [nth k w 0%Z].
Proof.
  induction w as [|s w IH]; intros k Hk; cbn in Hk; [lia|].
  destruct k as [|k]; [reflexivity|]. cbn [firstn nth app]. rewrite <- IH by lia. reflexivity.
Qed.

Lemma nth_map_default : forall A B (g : A -> B) xs k d d', k < length xs ->
  nth k (map g xs) d = g (nth k xs d').
Proof.
  intros A B g xs k d d' Hk. rewrite (nth_indep _ d (g d')) by (rewrite map_length; auto). apply map_nth.
Qed.

Section Rows.
  Variable n : nat.
  Variable w : list Z.
  Variable l : link.
  Hypothesis Hcl : closure n w = Some l.

  Let m := length w.
  Let R := row n w.
  Let f := conn_lookup (R m) 0.

  Lemma row_state_fst : forall k, k <= m -> fst (row_state n w k) = n + 2 * k.
  Proof. intros k Hk. unfold row_state. rewrite fold_step_fst, firstn_length. unfold m in Hk. lia. Qed.
  Lemma row_length : forall k, length (R k) = n.
  Proof. intros k. unfold R, row, row_state. rewrite fold_step_len, seq_length. reflexivity. Qed.
  Lemma row_0 : R 0 = seq 0 n.
  Proof. reflexivity. Qed.
  Lemma row_S : forall k, k < m -> R (S k) = upd2 (idx (nth k w 0%Z)) (n + 2 * k) (R k).
  Proof.
    intros k Hk. unfold R, row, row_state. rewrite firstn_S_nth by exact Hk.
    rewrite fold_left_app. cbn [fold_left]. unfold step_row at 1. cbn [snd].
    fold (row_state n w k). rewrite row_state_fst by (unfold m in *; lia). reflexivity.
  Qed.

  Lemma closure_unfold : exists code,
    closure_loop w n (seq 0 n) = Some (R m, code) /\ no_free_loop (R m) 0 = true /\
    l = link_of_code (map (fun x => match x with (a, b, c, d) => (f a, f b, f c, f d) end) code).
  Proof.
    unfold closure, closure_code in Hcl.
    destruct (closure_loop w n (seq 0 n)) as [[bt code]|] eqn:CL; [|discriminate].
    destruct (closure_loop_spec _ _ _ _ _ CL) as (_ & Ebt & _).
    assert (bt = R m) as ->.
    { rewrite Ebt. unfold R, row, row_state, m. rewrite firstn_all. reflexivity. }
    destruct (no_free_loop (R m) 0) eqn:NF; [|discriminate]. cbn [option_map] in Hcl.
    exists code. split; auto. split; auto. inversion Hcl. reflexivity.
  Qed.

  Lemma rows_final : low_in_place n (R m) /\ NoDup (R m).
  Proof.
    destruct closure_unfold as (code & CL & _ & _). apply (closure_loop_inv0 _ _ _ _ CL).
  Qed.

  Lemma f_bottom : forall j, j < n -> f (nth j (R m) 0) = j.
  Proof.
    intros j Hj. unfold f. destruct rows_final as [_ L4].
    rewrite conn_lookup_nth; auto. rewrite row_length. exact Hj.
  Qed.
  Lemma f_low : forall j, j < n -> f j = j.
  Proof.
    intros j Hj. unfold f. apply conn_lookup_notin. intros Hin.
    destruct rows_final as [L3 _]. destruct closure_unfold as (_ & _ & NF & _).
    apply (In_nth _ _ 0) in Hin. destruct Hin as [j' [Hj' Ej]].
    assert (nth j' (R m) 0 = j') by (apply L3; auto; lia).
    pose proof (no_free_loop_spec (R m) 0 NF j' Hj'). lia.
  Qed.

  Lemma cross_at_closure : forall k, k < m ->
    nth k w 0%Z <> 0%Z /\ S (idx (nth k w 0%Z)) < n /\
    cross_at l k = match rawx (nth k w 0%Z) (n + 2 * k) (R k) with
                   | (a, b, c, d) => from_pd (f a) (f b) (f c) (f d) end.
  Proof.
    intros k Hk. destruct closure_unfold as (code & CL & _ & El).
    destruct (closure_loop_spec _ _ _ _ _ CL) as (L1 & _ & L3).
    destruct (L3 k Hk) as (A0 & A & B). rewrite seq_length in A. split; auto. split; auto.
    fold (row_state n w k) in B. rewrite row_state_fst in B by (unfold m in *; lia).
    fold (row n w k) in B. fold R in B. rewrite <- B.
    rewrite El. unfold cross_at, link_of_code. rewrite map_map.
    rewrite (nth_map_default _ _ _ code k dummy_c (0, 0, 0, 0)) by (rewrite L1; exact Hk).
    destruct (nth k code (0, 0, 0, 0)) as [[[a b] c] d]. reflexivity.
  Qed.

  (* no free loop: every position is touched by some letter *)
  Lemma row_touch_or_keep : forall k j, k <= m -> j < n ->
    (exists k', k' < k /\ (j = idx (nth k' w 0%Z) \/ j = S (idx (nth k' w 0%Z)))) \/ nth j (R k) 0 = j.
  Proof.
    induction k as [|k IH]; intros j Hk Hj.
    - right. rewrite row_0, seq_nth; auto.
    - destruct (IH j ltac:(lia) Hj) as [(k' & Hk' & T)|E].
      + left. exists k'. split; [lia|exact T].
      + destruct (Nat.eq_dec j (idx (nth k w 0%Z))) as [E1|N1]; [left; exists k; split; [lia|auto]|].
        destruct (Nat.eq_dec j (S (idx (nth k w 0%Z)))) as [E2|N2]; [left; exists k; split; [lia|auto]|].
        right. destruct (cross_at_closure k ltac:(lia)) as (_ & Hi & _).
        rewrite (row_S k) by lia. rewrite nth_upd2 by (rewrite row_length; auto).
        apply Nat.eqb_neq in N1, N2. rewrite N1, N2. exact E.
  Qed.

  Theorem closure_diag : BraidDiag n w l (lab n w).
  Proof.
    destruct (closure_valid n w l Hcl) as (Hv & HL & _ & HX).
    assert (Hlab : forall k j, lab n w k j = f (nth j (R k) 0)) by reflexivity.
    constructor; auto.
    - intros k Hk. rewrite Forall_forall in HX. apply HX. apply nth_In. rewrite HL. exact Hk.
    - intros k Hk. apply (cross_at_closure k Hk).
    - intros k Hk. apply (cross_at_closure k Hk).
    - intros k j Hk Hj. destruct (cross_at_closure k Hk) as (_ & Hi & E).
      unfold edge_at. cbn [fst snd]. rewrite E. rewrite !Hlab.
      (* the two fresh labels of crossing k sit at its two positions of level k+1 *)
      assert (Hc : nth (idx (nth k w 0%Z)) (R (S k)) 0 = n + 2 * k /\
                   nth (S (idx (nth k w 0%Z))) (R (S k)) 0 = S (n + 2 * k)).
      { rewrite (row_S k Hk), !nth_upd2 by (rewrite row_length; auto).
        rewrite !Nat.eqb_refl, (proj2 (Nat.eqb_neq _ _) (Nat.neq_succ_diag_l _)). auto. }
      destruct Hc as [Hc Hd]. unfold rawx, slot_out, slot_off.
      destruct (0 <? nth k w 0)%Z; destruct (lt_4_cases j Hj) as [->|[->|[->| ->]]];
        cbn [from_pd edge e0 e1 e2 e3 b2n orb Nat.eqb]; rewrite ?Nat.add_0_r, ?Nat.add_1_r, ?Hc, ?Hd; reflexivity.
    - intros k j Hk Hj N1 N2. destruct (cross_at_closure k Hk) as (_ & Hi & _). rewrite !Hlab.
      rewrite (row_S k Hk), nth_upd2 by (rewrite row_length; auto).
      assert (j =? idx (nth k w 0%Z) = false) as -> by (apply Nat.eqb_neq; auto).
      assert (j =? S (idx (nth k w 0%Z)) = false) as -> by (apply Nat.eqb_neq; auto). reflexivity.
    - intros j Hj. destruct (row_touch_or_keep m j (le_n m) Hj) as [(k' & Hk' & T)|E]; [exists k'; auto|].
      exfalso. destruct closure_unfold as (_ & _ & NF & _).
      apply (no_free_loop_spec (R m) 0 NF j); [rewrite row_length; auto|]. exact E.
    - intros j Hj. rewrite Hlab. apply f_bottom; auto.
    - intros j Hj. rewrite Hlab. rewrite row_0, seq_nth by auto. apply f_low; auto.
  Qed.
End Rows.
