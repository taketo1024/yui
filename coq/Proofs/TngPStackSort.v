(* Vertical composition, part 10: the normal form of a Cob.  The derived Ord of CobComp (lexicographic: src, tgt,
   genus, dots; tangles compared component by component by (is_circle, min_edge)) is a total preorder; on the components
   of a cobordism with pairwise disjoint source tangles and pairwise disjoint target tangles two components that
   compare Equal are equal; hence the sorted Vec is determined by the multiset of the components, and the identity /
   inverse laws of Cob::stack hold as EQUALITIES of the normalised representation. *)
From Coq Require Import List Arith Bool Lia ZArith Permutation Sorted.
Import ListNotations.
Require Import Yui.Model.Link Yui.Model.Tng Yui.Model.TngCob Yui.Model.TngStack.
Require Import Yui.Proofs.TngPBase Yui.Proofs.TngPSegs Yui.Proofs.TngPDeg Yui.Proofs.TngPJoin Yui.Proofs.TngPStep
  Yui.Proofs.TngPSeq Yui.Proofs.TngPConn Yui.Proofs.TngPMain Yui.Proofs.TngPCob Yui.Proofs.TngPCobDeg
  Yui.Proofs.TngPStackBase Yui.Proofs.TngPStackBfs Yui.Proofs.TngPStackWf Yui.Proofs.TngPStackDeg
  Yui.Proofs.TngPStackAssoc Yui.Proofs.TngPStackId Yui.Proofs.TngPStackIdL Yui.Proofs.TngPStackIdR Yui.Proofs.TngPStackInv.

Definition cmp_ok {A : Type} (cmp : A -> A -> comparison) : Prop :=
  (forall x y, cmp y x = CompOpp (cmp x y)) /\
  (forall x y z, cmp x y = Eq -> cmp x z = cmp y z) /\
  (forall x y z, cmp x y = Lt -> cmp y z = Lt -> cmp x z = Lt).

Lemma cmp_ok_eq_r : forall (A : Type) (cmp : A -> A -> comparison) x y z, cmp_ok cmp -> cmp y z = Eq -> cmp x y = cmp x z.
Proof.
  intros A cmp x y z (Ha & He & _) E.
  assert (E' : cmp z y = Eq) by (rewrite Ha, E; reflexivity).
  pose proof (He z y x E') as H. rewrite (Ha x z), (Ha x y) in H.
  destruct (cmp x z), (cmp x y); cbn in H; congruence.
Qed.

(* Lt is transitive for a lexicographic comparison whose first key is [cmp] *)
Lemma cmp_then_trans : forall (A : Type) (cmp : A -> A -> comparison) x y z r1 r2 r3, cmp_ok cmp ->
  (r1 = Lt -> r2 = Lt -> r3 = Lt) ->
  cmp_then (cmp x y) r1 = Lt -> cmp_then (cmp y z) r2 = Lt -> cmp_then (cmp x z) r3 = Lt.
Proof.
  intros A cmp x y z r1 r2 r3 O Hr H1 H2. pose proof O as (_ & E & T).
  destruct (cmp x y) eqn:C1; cbn in H1; try discriminate.
  - rewrite (E x y z C1). destruct (cmp y z); cbn in *; try discriminate; auto.
  - destruct (cmp y z) eqn:C2; cbn in H2; try discriminate.
    + rewrite <- (cmp_ok_eq_r A cmp x y z O C2), C1. reflexivity.
    + rewrite (T x y z C1 C2). reflexivity.
Qed.

Lemma nat_cmp_ok : cmp_ok Nat.compare.
Proof.
  split; [|split].
  - intros x y. apply Nat.compare_antisym.
  - intros x y z E. apply Nat.compare_eq in E. subst. reflexivity.
  - intros x y z H1 H2. apply Nat.compare_lt_iff in H1, H2. apply Nat.compare_lt_iff. lia.
Qed.

Lemma proj_cmp_ok : forall (A B : Type) (f : A -> B) cmp, cmp_ok cmp -> cmp_ok (fun x y => cmp (f x) (f y)).
Proof. intros A B f cmp (Ha & He & Ht). split; [|split]; intros; eauto. Qed.

Lemma lex_cmp_ok : forall (A : Type) (c1 c2 : A -> A -> comparison), cmp_ok c1 -> cmp_ok c2 ->
  cmp_ok (fun x y => cmp_then (c1 x y) (c2 x y)).
Proof.
  intros A c1 c2 O1 O2. pose proof O1 as (A1 & E1 & T1). pose proof O2 as (A2 & E2 & T2). split; [|split].
  - intros x y. rewrite A1, A2. destruct (c1 x y); reflexivity.
  - intros x y z H. destruct (c1 x y) eqn:C; cbn in H; try discriminate.
    rewrite (E1 x y z C), (E2 x y z H). reflexivity.
  - intros x y z. apply (cmp_then_trans A c1 x y z _ _ _ O1). apply T2.
Qed.

Fixpoint lcmp {A : Type} (c : A -> A -> comparison) (a b : list A) : comparison :=
  match a, b with
  | [], [] => Eq
  | [], _ :: _ => Lt
  | _ :: _, [] => Gt
  | x :: a', y :: b' => cmp_then (c x y) (lcmp c a' b')
  end.

Lemma lcmp_ok : forall (A : Type) (c : A -> A -> comparison), cmp_ok c -> cmp_ok (lcmp c).
Proof.
  intros A c Oc. pose proof Oc as (Ac & Ec & Tc).
  assert (HA : forall a b, lcmp c b a = CompOpp (lcmp c a b)).
  { induction a as [|x a IH]; intros [|y b]; cbn; auto. rewrite Ac, IH. destruct (c x y); reflexivity. }
  assert (HE : forall a b z, lcmp c a b = Eq -> lcmp c a z = lcmp c b z).
  { induction a as [|x a IH]; intros [|y b] z H; cbn in H; try discriminate; auto.
    destruct (c x y) eqn:C; cbn in H; try discriminate. destruct z as [|w z]; cbn; auto.
    rewrite (Ec x y w C), (IH b z H). reflexivity. }
  split; [exact HA|]. split; [exact HE|].
  induction x as [|u x IH]; intros [|v y] [|w z] H1 H2; cbn in *; try discriminate; auto.
  exact (cmp_then_trans A c u v w _ _ _ Oc (IH y z) H1 H2).
Qed.

Definition b2n (b : bool) : nat := if b then 1 else 0.
(* TngComp::cmp on two components: arcs before circles, then by least label *)
Definition elem_cmp (x y : path) : comparison :=
  cmp_then (Nat.compare (b2n (pclosed x)) (b2n (pclosed y))) (Nat.compare (minv x) (minv y)).

Lemma tng_cmp_total_lcmp : forall a b, tng_cmp_total a b = lcmp elem_cmp a b.
Proof.
  induction a as [|x a IH]; intros [|y b]; cbn [tng_cmp_total lcmp]; auto. rewrite IH. f_equal.
  unfold elem_cmp. destruct (pclosed x), (pclosed y); reflexivity.
Qed.

Lemma elem_cmp_ok : cmp_ok elem_cmp.
Proof.
  apply (lex_cmp_ok path (fun x y => Nat.compare (b2n (pclosed x)) (b2n (pclosed y))) (fun x y => Nat.compare (minv x) (minv y)));
    apply (proj_cmp_ok path nat); apply nat_cmp_ok.
Qed.

Lemma tng_cmp_ok : forall sel : cobcomp -> tng, cmp_ok (fun c d => tng_cmp_total (sel c) (sel d)).
Proof.
  intros sel. destruct (proj_cmp_ok cobcomp tng sel _ (lcmp_ok path elem_cmp elem_cmp_ok)) as (H1 & H2 & H3).
  split; [|split]; intros; rewrite ?tng_cmp_total_lcmp in *; eauto.
Qed.

Lemma cc_cmp_ok : cmp_ok cc_cmp.
Proof.
  unfold cc_cmp.
  apply (lex_cmp_ok cobcomp (fun c d => tng_cmp_total (csrc c) (csrc d))); [apply tng_cmp_ok|].
  apply (lex_cmp_ok cobcomp (fun c d => tng_cmp_total (ctgt c) (ctgt d))); [apply tng_cmp_ok|].
  apply (lex_cmp_ok cobcomp (fun c d => Nat.compare (cgenus c) (cgenus d))); [apply (proj_cmp_ok cobcomp nat); apply nat_cmp_ok|].
  apply (lex_cmp_ok cobcomp (fun c d => Nat.compare (cdx c) (cdx d))); apply (proj_cmp_ok cobcomp nat); apply nat_cmp_ok.
Qed.

Definition cob_sorted (l : list cobcomp) : Prop := StronglySorted (fun a b => cc_le a b = true) l.

Lemma cc_le_total : forall x y, cc_le x y = false -> cc_le y x = true.
Proof.
  intros x y. unfold cc_le. destruct cc_cmp_ok as (Ha & _). rewrite (Ha x y). destruct (cc_cmp x y); cbn; congruence.
Qed.

Lemma cc_le_trans : forall x y z, cc_le x y = true -> cc_le y z = true -> cc_le x z = true.
Proof.
  intros x y z. unfold cc_le. pose proof cc_cmp_ok as O. destruct O as (Ha & He & Ht).
  destruct (cc_cmp x y) eqn:C1; try discriminate; intros _.
  - rewrite (He x y z C1). auto.
  - destruct (cc_cmp y z) eqn:C2; try discriminate; intros _.
    + rewrite <- (cmp_ok_eq_r _ cc_cmp x y z cc_cmp_ok C2), C1. reflexivity.
    + rewrite (Ht x y z C1 C2). reflexivity.
Qed.

Lemma cc_ins_sorted : forall x l, cob_sorted l -> cob_sorted (cc_ins x l).
Proof.
  intros x l. induction l as [|y r IH]; intros Hs; cbn [cc_ins].
  - repeat constructor.
  - inversion Hs as [|? ? Sr Hle]; subst. destruct (cc_le x y) eqn:E.
    + constructor; [exact Hs|]. constructor; [exact E|]. rewrite Forall_forall in *. intros z Hz.
      eapply cc_le_trans; [exact E|apply Hle; exact Hz].
    + constructor; [apply IH; exact Sr|]. rewrite Forall_forall in *. intros z Hz.
      assert (Hz' : In z (x :: r)).
      { assert (P : forall m, Permutation (cc_ins x m) (x :: m)).
        { induction m as [|w m IHm]; cbn [cc_ins]; [apply Permutation_refl|]. destruct (cc_le x w); [apply Permutation_refl|].
          eapply perm_trans; [apply perm_skip; exact IHm|apply perm_swap]. }
        eapply Permutation_in; [apply P|exact Hz]. }
      destruct Hz' as [<-|Hz']; [apply cc_le_total; exact E|apply Hle; exact Hz'].
Qed.

Lemma cc_isort_sorted : forall l, cob_sorted (cc_isort l).
Proof. induction l as [|x l IH]; [constructor|]. cbn [cc_isort fold_right]. apply cc_ins_sorted. exact IH. Qed.

Theorem cob_sorted_perm_eq : forall l1 l2, cob_sorted l1 -> cob_sorted l2 -> Permutation l1 l2 ->
  (forall x y, In x l1 -> In y l1 -> cc_cmp x y = Eq -> x = y) -> l1 = l2.
Proof.
  induction l1 as [|x r1 IH]; intros l2 S1 S2 Hp Hanti.
  - apply Permutation_nil in Hp. auto.
  - destruct l2 as [|y r2]; [apply Permutation_sym, Permutation_nil in Hp; discriminate|].
    inversion S1 as [|? ? Sr1 H1]; subst. inversion S2 as [|? ? Sr2 H2]; subst. rewrite Forall_forall in H1, H2.
    assert (Hy : In y (x :: r1)) by (eapply Permutation_in; [apply Permutation_sym; exact Hp|left; reflexivity]).
    assert (Hx : In x (y :: r2)) by (eapply Permutation_in; [exact Hp|left; reflexivity]).
    assert (E : x = y).
    { destruct Hy as [Hy|Hy]; [exact Hy|]. destruct Hx as [Hx|Hx]; [symmetry; exact Hx|].
      apply Hanti; [left; reflexivity|right; exact Hy|].
      pose proof (H1 y Hy) as L1. pose proof (H2 x Hx) as L2. unfold cc_le in L1, L2.
      destruct cc_cmp_ok as (Ha & _). rewrite (Ha x y) in L2. destruct (cc_cmp x y); cbn in *; congruence. }
    subst y. f_equal. apply IH; auto.
    + eapply Permutation_cons_inv; exact Hp.
    + intros a b Ha Hb. apply Hanti; right; assumption.
Qed.

Lemma cmp_then_eq : forall a b, cmp_then a b = Eq -> a = Eq /\ b = Eq.
Proof. intros [| |] b; cbn; intros H; try discriminate; auto. Qed.

Lemma elem_cmp_eq : forall p q, elem_cmp p q = Eq -> minv p = minv q.
Proof. intros p q H. apply cmp_then_eq in H. destruct H as [_ H]. apply Nat.compare_eq in H. exact H. Qed.

Lemma minv_in : forall p, simple p -> In (minv p) (pedges p).
Proof. intros p Sp. apply (minv_spec p (simple_ne p Sp)). Qed.

Lemma head_eq_same_owner : forall sel (a : list cobcomp) x y, tng_inv (flat sel a) -> In x a -> In y a ->
  sel x <> [] -> tng_cmp_total (sel x) (sel y) = Eq -> x = y.
Proof.
  intros sel a x y Hi Hx Hy Hne Hc. rewrite tng_cmp_total_lcmp in Hc.
  destruct (sel x) as [|p r] eqn:Ex; [congruence|]. destruct (sel y) as [|q r'] eqn:Ey; [discriminate|].
  cbn [lcmp] in Hc. apply cmp_then_eq in Hc. destruct Hc as [Hc _]. apply elem_cmp_eq in Hc.
  assert (Sp : simple p) by (apply (inv_simple _ _ Hi); apply (flat_in sel a x); auto; rewrite Ex; left; reflexivity).
  assert (Sq : simple q) by (apply (inv_simple _ _ Hi); apply (flat_in sel a y); auto; rewrite Ey; left; reflexivity).
  apply (owner_unique' sel a x y (minv p) Hi Hx Hy).
  - apply in_verts. exists p. split; [rewrite Ex; left; reflexivity|apply minv_in; exact Sp].
  - apply in_verts. exists q. split; [rewrite Ey; left; reflexivity|rewrite Hc; apply minv_in; exact Sq].
Qed.

Lemma tng_cmp_nil : forall t, tng_cmp_total [] t = Eq -> t = [].
Proof. intros [|p r]; cbn; congruence. Qed.

Theorem cc_cmp_eq_in : forall a x y, tng_inv (flat csrc a) -> tng_inv (flat ctgt a) -> In x a -> In y a ->
  cc_cmp x y = Eq -> x = y.
Proof.
  intros a x y Is It Hx Hy Hc. unfold cc_cmp in Hc.
  apply cmp_then_eq in Hc. destruct Hc as [C1 Hc]. apply cmp_then_eq in Hc. destruct Hc as [C2 Hc].
  apply cmp_then_eq in Hc. destruct Hc as [C3 Hc]. apply cmp_then_eq in Hc. destruct Hc as [C4 C5].
  apply Nat.compare_eq in C3, C4, C5.
  destruct (csrc x) as [|p r] eqn:Ex.
  - destruct (ctgt x) as [|q r'] eqn:Et.
    + apply tng_cmp_nil in C1, C2. destruct x, y. cbn in *. subst. reflexivity.
    + apply (head_eq_same_owner ctgt a x y It Hx Hy); [rewrite Et; discriminate|rewrite Et; exact C2].
  - apply (head_eq_same_owner csrc a x y Is Hx Hy); [rewrite Ex; discriminate|rewrite Ex; exact C1].
Qed.

(* a normalised cobordism is the only sorted arrangement of its components *)
Theorem cob_normal_form_unique : forall a c, tng_inv (flat csrc a) -> tng_inv (flat ctgt a) ->
  cob_sorted a -> cob_sorted c -> Permutation c a -> c = a.
Proof.
  intros a c Is It Sa Sc Hp. symmetry. apply cob_sorted_perm_eq; auto.
  - apply Permutation_sym. exact Hp.
  - intros x y Hx Hy. apply (cc_cmp_eq_in a); auto.
Qed.

Lemma cob_stack_sorted : forall a b c, a <> [] -> b <> [] -> cob_stack a b = Some c -> cob_sorted c.
Proof.
  intros a b c Na Nb. unfold cob_stack, cob_stack_fuel. apply is_nil_false in Na, Nb. rewrite Na, Nb.
  destruct (stack_loop _ a b []) as [[out|]|]; try discriminate. unfold cob_sort. destruct (_ && _); [discriminate|].
  intros E. inversion E. apply cc_isort_sorted.
Qed.

(* a returning Cob::stack whose result is, up to order, a sorted cobordism n with disjoint tangles returns n; when one
   argument is empty nothing is sorted and the caller says why the result is n *)
Lemma cob_stack_nf : forall a b c n, cob_stack a b = Some c -> Permutation c n ->
  tng_inv (flat csrc n) -> tng_inv (flat ctgt n) -> cob_sorted n -> (a = [] \/ b = [] -> c = n) -> c = n.
Proof.
  intros a b c n E Hp Is It Sn Hnil. destruct a as [|a0 a']; [apply Hnil; now left|].
  destruct b as [|b0 b']; [apply Hnil; now right|].
  apply cob_normal_form_unique; auto. eapply cob_stack_sorted; [| |exact E]; discriminate.
Qed.

Theorem cob_stack_id_l_eq : forall a, cob_okl a -> tng_inv (flat ctgt a) -> cob_sorted a ->
  exists S ids, cob_src a = Some S /\ cob_id S = Some ids /\ cob_stack ids a = Some a.
Proof.
  intros a OK It Sa. destruct (cob_stack_id_l a OK) as (S & ids & c & E1 & E2 & E3 & Hp). exists S, ids.
  split; [exact E1|]. split; [exact E2|]. rewrite E3. f_equal.
  apply (cob_stack_nf ids a c a E3 Hp (proj1 OK) It Sa). intros [->| ->].
  - cbn in E3. now inversion E3.
  - apply Permutation_sym, Permutation_nil in Hp. exact Hp.
Qed.

Theorem cob_stack_id_r_eq : forall a, cob_okr a -> cob_sorted a ->
  exists T ids, cob_tgt a = Some T /\ cob_id T = Some ids /\ cob_stack a ids = Some a.
Proof.
  intros a OK Sa. destruct (cob_stack_id_r a OK) as (T & ids & c & E1 & E2 & E3 & Hp). exists T, ids.
  split; [exact E1|]. split; [exact E2|]. rewrite E3. f_equal. destruct OK as (Is & It & _).
  apply (cob_stack_nf a ids c a E3 Hp Is It Sa). intros [->| ->].
  - apply Permutation_sym, Permutation_nil in Hp. exact Hp.
  - destruct a; cbn in E3; now inversion E3.
Qed.

Lemma cob_id_sorted : forall U ids, cob_id U = Some ids -> cob_sorted ids.
Proof.
  intros U ids. unfold cob_id, cob_new, cob_sort. destruct (_ && _); [discriminate|]. intros E. inversion E. apply cc_isort_sorted.
Qed.

Lemma cob_id_flat : forall U ids, cob_id U = Some ids -> Permutation (flat csrc ids) U /\ Permutation (flat ctgt ids) U.
Proof.
  intros U ids E. assert (Hp : Permutation ids (ids_of U)).
  { unfold cob_id, cob_new in E. apply cob_sort_perm in E. exact E. }
  split; [rewrite <- (flat_src_ids U)|rewrite <- (flat_tgt_ids U)]; apply flat_perm; exact Hp.
Qed.

Theorem cob_stack_inv_eq : forall c, cob_inv_ok c ->
  exists ic S T ids idt,
    cob_inv c = Some (Some ic) /\ cob_src c = Some S /\ cob_id S = Some ids /\ cob_tgt c = Some T /\ cob_id T = Some idt /\
    cob_stack c ic = Some ids /\ cob_stack ic c = Some idt.
Proof.
  intros c OK. destruct (cob_stack_inv c OK) as (ic & r1 & r2 & S & T & ids & idt & Ei & E1 & ES & EI & P1 & E2 & ET & EJ & P2).
  exists ic, S, T, ids, idt. repeat (split; [assumption|]).
  destruct OK as (Is & It & _).
  destruct (fold_connect_disjoint (map csrc c)) as (S' & ES' & PS & _); [rewrite concat_map_flat; exact Is|].
  destruct (fold_connect_disjoint (map ctgt c)) as (T' & ET' & PT & _); [rewrite concat_map_flat; exact It|].
  rewrite concat_map_flat in PS, PT. unfold cob_src in ES. unfold cob_tgt in ET. rewrite ES in ES'. rewrite ET in ET'.
  inversion ES'; subst S'. inversion ET'; subst T'.
  assert (IS : tng_inv S) by (eapply inv_perm; [apply Permutation_sym; exact PS|exact Is]).
  assert (ITT : tng_inv T) by (eapply inv_perm; [apply Permutation_sym; exact PT|exact It]).
  destruct (cob_id_flat _ _ EI) as [F1 F2]. destruct (cob_id_flat _ _ EJ) as [G1 G2].
  assert (Hic : c = [] -> ic = []).
  { intros ->. cbn in Ei. inversion Ei. reflexivity. }
  assert (Hci : ic = [] -> c = []).
  { intros ->. unfold cob_inv in Ei. destruct (cob_is_invertible c); [|discriminate]. inversion Ei as [E]. unfold cob_new in E.
    apply cob_sort_perm in E. apply Permutation_nil in E. destruct c; [reflexivity|discriminate]. }
  split.
  - rewrite E1. f_equal. apply (cob_stack_nf c ic r1 ids E1 P1).
    + eapply inv_perm; [apply Permutation_sym; exact F1|exact IS].
    + eapply inv_perm; [apply Permutation_sym; exact F2|exact IS].
    + eapply cob_id_sorted; eauto.
    + intros H. assert (Hc : c = []) by (destruct H; auto). subst c. rewrite (Hic eq_refl) in E1. cbn in E1.
      inversion E1; subst. apply Permutation_nil in P1. auto.
  - rewrite E2. f_equal. apply (cob_stack_nf ic c r2 idt E2 P2).
    + eapply inv_perm; [apply Permutation_sym; exact G1|exact ITT].
    + eapply inv_perm; [apply Permutation_sym; exact G2|exact ITT].
    + eapply cob_id_sorted; eauto.
    + intros H. assert (Hc : c = []) by (destruct H; auto). subst c. rewrite (Hic eq_refl) in E2. cbn in E2.
      inversion E2; subst. apply Permutation_nil in P2. auto.
Qed.
