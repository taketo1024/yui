(* C02 - invariance statements about the cube-of-resolutions ORACLE (Model/KhCube.v + KhHomology.v) that
   are plain combinatorics (DESIGN.md section 5, C02: C02_relabel, C02_reverse, duality of a finite
   complex).  Invariance under Reidemeister / Markov moves is knot theory and is NOT proved.

   (0) [circles] is a canonical form: it only depends on the connectivity of the crossingless diagram.
   (1) relabelling the edges by rho:
       - rho injective on the edge labels: at every state the circles are the images of the original
         circles (same partition of the edges), listed in the order of their new least labels; same
         number of circles; same number of generators per (cube degree, quantum degree) (unreduced);
       - rho strictly increasing on the edge labels (e.g. e |-> 2e+7): nothing is reordered and ALL data of
         the model are literally equal up to rho on the stored circles: vertices, generators, the
         sparse differentials c_rows, the base edge of the reduced complex, and the tables
         kh_groups / kh_groups_bigraded.
       NOT proved (statement kept below as a comment): equality of the tables for rho injective but not
       order preserving.  There the circles of a vertex come in another order, the generators of each
       vertex are permuted and c_rows differ by permutation matrices (see C02_example_relabel_inj);
       equality of the tables would follow from SmithOf_unique (Proofs/C09UniqueKh.v) plus the
       generator bijection, which is not formalised.
   (2) orientation reversal [a,b,c,d] -> [c,d,a,b] of every crossing: all data literally equal.
   (3) reordering the crossings: the multiset of (weight, circles) over all states is invariant, hence
       the number of generators in every (cube degree, quantum degree); signs change, the isomorphism
       of the complexes is NOT proved.
   (4) duality: the transpose has the same Smith factors; the model's tables are [tables] of the
       generator counts and factor lists; exchanging the factor lists moves ranks / F_p-dimensions
       i -> N-i and torsion i+1 -> N-i. *)
From Coq Require Import List Bool Arith ZArith Lia Permutation.
Require Import Yui.Base.Ring Yui.Base.MatF.
Require Import Yui.Model.KhCube Yui.Model.KhHomology.
Require Import Yui.Proofs.KhSmithMat Yui.Proofs.KhSmithMain.
Require Import Yui.Proofs.C02Sorted Yui.Proofs.C02Canon Yui.Proofs.C02Relabel Yui.Proofs.C02CubeMap
               Yui.Proofs.C02RelabelCube Yui.Proofs.C02Reverse Yui.Proofs.C02Reorder Yui.Proofs.C02Dims
               Yui.Proofs.C02Dual.
Import ListNotations.
Close Scope Z_scope.

Theorem C02_circles_spec : forall l,
  pgood (circles l) /\ ksorted (hd 0) (circles l) /\
  (forall e, covered (circles l) e <-> In e (all_edges l)) /\
  (forall a b, cls (circles l) a b <-> conn l a b).
Proof. exact circles_spec. Qed.
Print Assumptions C02_circles_spec.

Theorem C02_circles_canonical : forall l1 l2,
  (forall a b, conn l1 a b <-> conn l2 a b) -> circles l1 = circles l2.
Proof. exact circles_ext. Qed.
Print Assumptions C02_circles_canonical.

Theorem C02_relabel_circles : forall rho l s, inj_on rho (all_edges l) ->
  circles (resolve_by (relabel rho l) s) = sort_classes (map (push rho) (circles (resolve_by l s))).
Proof. exact circles_resolve_relabel. Qed.
Print Assumptions C02_relabel_circles.

Theorem C02_relabel_circle_count : forall rho l s, inj_on rho (all_edges l) ->
  length (circles (resolve_by (relabel rho l) s)) = length (circles (resolve_by l s)).
Proof. exact circles_relabel_length. Qed.
Print Assumptions C02_relabel_circle_count.

Theorem C02_relabel_inj_dims : forall rho l h t k,
  inj_on rho (all_edges l) ->
  (forall q, count_gens (build_cube (relabel rho l) None h t) k (fun g => Z.eqb (q_local g) q)
             = count_gens (build_cube l None h t) k (fun g => Z.eqb (q_local g) q)) /\
  count_gens (build_cube (relabel rho l) None h t) k (fun _ => true)
  = count_gens (build_cube l None h t) k (fun _ => true).
Proof.
  intros rho l h t k H. split; [intros q|].
  - exact (count_gens_relabel_inj rho l h t k _ _ H (sel_wx_q q)).
  - exact (count_gens_relabel_inj rho l h t k _ _ H sel_wx_all).
Qed.
Print Assumptions C02_relabel_inj_dims.

Theorem C02_relabel_circles_mono : forall rho l s, mono_on rho (all_edges l) ->
  circles (resolve_by (relabel rho l) s) = map (map rho) (circles (resolve_by l s)).
Proof. exact circles_resolve_relabel_mono. Qed.
Print Assumptions C02_relabel_circles_mono.

(* the whole cube: [cube_map (map rho)] applies rho to the circles stored in the generators and leaves
   c_n and c_rows untouched *)
Theorem C02_relabel_cube : forall rho l red, mono_on rho (opt_list red ++ all_edges l) -> forall h t,
  build_cube (relabel rho l) (option_map rho red) h t = cube_map (map rho) (build_cube l red h t).
Proof. exact build_cube_relabel. Qed.
Print Assumptions C02_relabel_cube.

Theorem C02_relabel_rows : forall rho l red, mono_on rho (opt_list red ++ all_edges l) -> forall h t,
  c_rows (build_cube (relabel rho l) (option_map rho red) h t) = c_rows (build_cube l red h t).
Proof. exact c_rows_relabel. Qed.
Print Assumptions C02_relabel_rows.

Theorem C02_relabel_first_edge : forall rho l, mono_on rho (all_edges l) ->
  first_edge (relabel rho l) = option_map rho (first_edge l).
Proof. exact first_edge_relabel. Qed.
Print Assumptions C02_relabel_first_edge.

Theorem C02_relabel_partial : forall rho l red, mono_on rho (opt_list red ++ all_edges l) -> forall h t,
  kh_groups (build_cube (relabel rho l) (option_map rho red) h t) = kh_groups (build_cube l red h t) /\
  kh_groups_bigraded (build_cube (relabel rho l) (option_map rho red) h t)
  = kh_groups_bigraded (build_cube l red h t).
Proof.
  intros rho l red H h t. split;
    [exact (kh_groups_relabel rho l red H h t)|exact (kh_groups_bigraded_relabel rho l red H h t)].
Qed.
Print Assumptions C02_relabel_partial.

(* reduced complex with the library's own base edge (Link::first_edge) on both sides *)
Theorem C02_relabel_reduced_partial : forall rho l h t, mono_on rho (all_edges l) ->
  kh_groups (build_cube (relabel rho l) (first_edge (relabel rho l)) h t)
  = kh_groups (build_cube l (first_edge l) h t) /\
  kh_groups_bigraded (build_cube (relabel rho l) (first_edge (relabel rho l)) h t)
  = kh_groups_bigraded (build_cube l (first_edge l) h t).
Proof.
  intros rho l h t H. rewrite (build_cube_relabel_first rho l h t H).
  split; [apply kh_groups_map|apply kh_groups_bigraded_map].
Qed.
Print Assumptions C02_relabel_reduced_partial.

(* Full statement of C02_relabel, NOT proved (only its order-preserving case C02_relabel_partial /
   C02_relabel_reduced_partial and the consequences
   C02_relabel_circles / C02_relabel_inj_dims for injective rho are):
     forall rho l h t, inj_on rho (all_edges l) ->
       kh_groups (build_cube (relabel rho l) None h t) = kh_groups (build_cube l None h t) /\
       kh_groups_bigraded (build_cube (relabel rho l) None h t) = kh_groups_bigraded (build_cube l None h t). *)

Theorem C02_reverse_circles : forall l s,
  circles (resolve_by (reverse l) s) = circles (resolve_by l s).
Proof. exact circles_resolve_reverse. Qed.
Print Assumptions C02_reverse_circles.

Theorem C02_reverse : forall l red h t,
  build_cube (reverse l) red h t = build_cube l red h t /\ first_edge (reverse l) = first_edge l.
Proof. intros l red h t. split; [apply build_cube_reverse|apply first_edge_reverse]. Qed.
Print Assumptions C02_reverse.

Theorem C02_reverse_tables : forall l h t,
  kh_groups (build_cube (reverse l) None h t) = kh_groups (build_cube l None h t) /\
  kh_groups_bigraded (build_cube (reverse l) None h t) = kh_groups_bigraded (build_cube l None h t) /\
  kh_groups (build_cube (reverse l) (first_edge (reverse l)) h t) = kh_groups (build_cube l (first_edge l) h t) /\
  kh_groups_bigraded (build_cube (reverse l) (first_edge (reverse l)) h t)
  = kh_groups_bigraded (build_cube l (first_edge l) h t).
Proof. intros l h t. now rewrite build_cube_reverse_first, build_cube_reverse. Qed.
Print Assumptions C02_reverse_tables.

Theorem C02_reorder_circles : forall l l', Permutation l l' ->
  crossing_num l = crossing_num l' /\
  Permutation (map (fun s => (weight s, circles (resolve_by l s))) (all_lists (crossing_num l)))
              (map (fun s => (weight s, circles (resolve_by l' s))) (all_lists (crossing_num l'))).
Proof. intros l l' P. split; [now apply crossing_num_perm|exact (W_perm l l' P)]. Qed.
Print Assumptions C02_reorder_circles.

Theorem C02_reorder_dims : forall l l' red h t k, Permutation l l' ->
  (forall q, count_gens (build_cube l' red h t) k (fun g => Z.eqb (q_local g) q)
             = count_gens (build_cube l red h t) k (fun g => Z.eqb (q_local g) q)) /\
  count_gens (build_cube l' red h t) k (fun _ => true) = count_gens (build_cube l red h t) k (fun _ => true).
Proof.
  intros l l' red h t k P. split; [intros q|].
  - exact (count_gens_perm l l' red h t k _ _ P (sel_wx_q q)).
  - exact (count_gens_perm l l' red h t k _ _ P sel_wx_all).
Qed.
Print Assumptions C02_reorder_dims.

Theorem C02_smith_transpose : forall m n A ds, SmithOf m n A ds -> SmithOf n m (ztr A) ds.
Proof. exact SmithOf_transpose. Qed.
Print Assumptions C02_smith_transpose.

Theorem C02_tables_of_model : forall c sel todo k dprev gs,
  groups_from c sel k todo dprev = Some gs ->
  exists Ds, length Ds = todo /\
    (forall j, j < todo -> factors c (k + j) sel = Some (nth j Ds [])) /\
    map snd gs = tables_from (map (fun k => count_gens c k sel) (seq k todo)) Ds dprev.
Proof. exact groups_from_tables. Qed.
Print Assumptions C02_tables_of_model.

Theorem C02_group_at_swap : forall n dprev dk,
  g_rank (group_at n dk dprev) = g_rank (group_at n dprev dk) /\
  g_dim2 (group_at n dk dprev) = g_dim2 (group_at n dprev dk) /\
  g_dim3 (group_at n dk dprev) = g_dim3 (group_at n dprev dk) /\
  forall n' dnext, g_tors (group_at n dk dprev) = g_tors (group_at n' dk dnext).
Proof. exact group_at_swap. Qed.
Print Assumptions C02_group_at_swap.

(* dimensions n_0..n_N, factor lists D_0..D_(N-1) of d_0..d_(N-1) (d_N = 0); the dual complex has the
   reversed dimensions and - by C02_smith_transpose - the reversed factor lists *)
Theorem C02_dual_tables : forall ns Ds0 N, length ns = S N -> length Ds0 = N ->
  forall i, i <= N ->
  let g := nth i (tables ns (Ds0 ++ [[]])) g0 in
  let g' := nth (N - i) (tables (rev ns) (rev Ds0 ++ [[]])) g0 in
  g_rank g' = g_rank g /\ g_dim2 g' = g_dim2 g /\ g_dim3 g' = g_dim3 g /\
  g_tors g' = g_tors (nth (S i) (tables ns (Ds0 ++ [[]])) g0) /\
  g_tors (nth 0 (tables ns (Ds0 ++ [[]])) g0) = [].
Proof. exact dual_tables. Qed.
Print Assumptions C02_dual_tables.

Definition trefoil : link := [(CX, (1, 4, 2, 5)); (CX, (3, 6, 4, 1)); (CX, (5, 2, 6, 3))].
Definition rho27 (e : nat) : nat := 2 * e + 7.

Example C02_example_rho_mono : mono_on rho27 (opt_list (first_edge trefoil) ++ all_edges trefoil).
Proof. intros a b _ _ H. unfold rho27. apply Nat.add_lt_mono_r, Nat.mul_lt_mono_pos_l; [repeat constructor|exact H]. Qed.

Example C02_example_relabel :
  relabel rho27 trefoil = [(CX, (9, 15, 11, 17)); (CX, (13, 19, 15, 9)); (CX, (17, 11, 19, 13))] /\
  circles (resolve_by (relabel rho27 trefoil) [true; false; false]) = [[9; 11; 15; 17]; [13; 19]] /\
  circles (resolve_by trefoil [true; false; false]) = [[1; 2; 4; 5]; [3; 6]] /\
  c_rows (build_cube (relabel rho27 trefoil) None 0 0) = c_rows (build_cube trefoil None 0 0) /\
  nth 1 (c_rows (build_cube trefoil None 0 0)) None
  = Some [[(0, (-1)%Z); (2, (-1)%Z)]; [(1, (-1)%Z); (3, (-1)%Z)]; [(1, (-1)%Z); (3, (-1)%Z)]; [];
          [(0, 1%Z); (4, (-1)%Z)]; [(1, 1%Z); (5, (-1)%Z)]; [(1, 1%Z); (5, (-1)%Z)]; [];
          [(2, 1%Z); (4, 1%Z)]; [(3, 1%Z); (5, 1%Z)]; [(3, 1%Z); (5, 1%Z)]; []] /\
  kh_groups (build_cube (relabel rho27 trefoil) None 0 0)
  = Some [(0, mk_group 1 [] 2 1); (1, mk_group 1 [2%Z] 2 1); (2, mk_group 0 [] 0 0); (3, mk_group 2 [] 2 2)] /\
  kh_groups (build_cube (relabel rho27 trefoil) (first_edge (relabel rho27 trefoil)) 0 0)
  = kh_groups (build_cube trefoil (first_edge trefoil) 0 0) /\
  first_edge (relabel rho27 trefoil) = Some 9.
Proof.
  (* a cube that occurs several times is named first: the kernel then evaluates it once *)
  set (c := build_cube trefoil None 0 0). set (c' := build_cube (relabel rho27 trefoil) None 0 0).
  vm_compute. repeat split.
Qed.

(* an injective but not order-preserving rho: the circles are re-sorted, the differentials are NOT
   literally equal (literal equality needs monotonicity), the tables are equal on this instance *)
Example C02_example_rho_inj : inj_on (fun e => 20 - e) (all_edges trefoil).
Proof.
  assert (B : Forall (fun e => e <= 20) (all_edges trefoil)) by (cbn; repeat constructor).
  rewrite Forall_forall in B. intros a b Ha Hb H. apply B in Ha, Hb. lia.
Qed.

Example C02_example_relabel_inj :
  let rho := fun e => 20 - e in
  circles (resolve_by (relabel rho trefoil) [true; false; false]) = [[14; 17]; [15; 16; 18; 19]] /\
  sort_classes (map (push rho) (circles (resolve_by trefoil [true; false; false]))) = [[14; 17]; [15; 16; 18; 19]] /\
  c_rows (build_cube (relabel rho trefoil) None 0 0) <> c_rows (build_cube trefoil None 0 0) /\
  kh_groups (build_cube (relabel rho trefoil) None 0 0) = kh_groups (build_cube trefoil None 0 0) /\
  kh_groups_bigraded (build_cube (relabel rho trefoil) None 0 0) = kh_groups_bigraded (build_cube trefoil None 0 0).
Proof.
  intros rho. set (c := build_cube trefoil None 0 0). set (c' := build_cube (relabel rho trefoil) None 0 0).
  vm_compute. repeat split. intros H. discriminate H.
Qed.

Example C02_example_reverse :
  reverse trefoil = [(CX, (2, 5, 1, 4)); (CX, (4, 1, 3, 6)); (CX, (6, 3, 5, 2))] /\
  build_cube (reverse trefoil) (first_edge (reverse trefoil)) 3 0 = build_cube trefoil (first_edge trefoil) 3 0 /\
  kh_groups_bigraded (build_cube (reverse trefoil) None 0 0) = kh_groups_bigraded (build_cube trefoil None 0 0) /\
  kh_groups (build_cube (reverse trefoil) None 0 0)
  = Some [(0, mk_group 1 [] 2 1); (1, mk_group 1 [2%Z] 2 1); (2, mk_group 0 [] 0 0); (3, mk_group 2 [] 2 2)].
Proof. set (c := build_cube (reverse trefoil) None 0 0). vm_compute. repeat split. Qed.

(* a 4-crossing diagram with its crossings permuted: the differentials differ, the generator counts agree *)
Definition dia4 : link := [(CX, (4, 2, 5, 1)); (CX, (8, 6, 1, 5)); (CXm, (6, 3, 7, 4)); (CXm, (2, 7, 3, 8))].
Definition dia4p : link := [(CXm, (6, 3, 7, 4)); (CX, (4, 2, 5, 1)); (CXm, (2, 7, 3, 8)); (CX, (8, 6, 1, 5))].

Example C02_example_reorder :
  Permutation dia4 dia4p /\
  c_rows (build_cube dia4p None 0 0) <> c_rows (build_cube dia4 None 0 0) /\
  map (fun k => count_gens (build_cube dia4p None 0 0) k (fun g => Z.eqb (q_local g) 1)) (seq 0 5) = [3; 8; 10; 4; 0] /\
  map (fun k => count_gens (build_cube dia4 None 0 0) k (fun g => Z.eqb (q_local g) 1)) (seq 0 5) = [3; 8; 10; 4; 0] /\
  kh_groups (build_cube dia4p None 0 0) = kh_groups (build_cube dia4 None 0 0).
Proof.
  split.
  - unfold dia4, dia4p.
    eapply Permutation_trans; [apply perm_skip, perm_swap|].
    eapply Permutation_trans; [apply perm_swap|]. apply perm_skip, perm_skip, perm_swap.
  - set (c := build_cube dia4 None 0 0). set (c' := build_cube dia4p None 0 0).
    vm_compute. repeat split. intros H. discriminate H.
Qed.

(* duality on the trefoil and its mirror image (unreduced, h = t = 0): the factor lists of the mirror
   cube are the reversed factor lists (the hypothesis of C02_dual_tables holds on this instance), and
   both tables are [tables] of them: ranks 1,1,0,2 <-> 2,0,1,1 ; torsion Z/2 in degree 1 <-> degree 3 *)
Example C02_example_dual :
  let c := build_cube trefoil None 0 0 in
  let c' := build_cube (mirror trefoil) None 0 0 in
  let ns := [8; 12; 6; 4] in
  let Ds0 := [[1; 1; 1; 1; 1; 1; 2]; [1; 1; 1; 1]; [1; 1]]%Z in
  map (fun k => count_gens c k (fun _ => true)) (seq 0 4) = ns /\
  map (fun k => count_gens c' k (fun _ => true)) (seq 0 4) = rev ns /\
  map (fun k => factors c k (fun _ => true)) (seq 0 4) = map Some (Ds0 ++ [[]]) /\
  map (fun k => factors c' k (fun _ => true)) (seq 0 4) = map Some (rev Ds0 ++ [[]]) /\
  option_map (map snd) (kh_groups c) = Some (tables ns (Ds0 ++ [[]])) /\
  option_map (map snd) (kh_groups c') = Some (tables (rev ns) (rev Ds0 ++ [[]])) /\
  map g_rank (tables ns (Ds0 ++ [[]])) = [1; 1; 0; 2]%Z /\
  map g_rank (tables (rev ns) (rev Ds0 ++ [[]])) = [2; 0; 1; 1]%Z /\
  map g_tors (tables ns (Ds0 ++ [[]])) = [[]; [2%Z]; []; []] /\
  map g_tors (tables (rev ns) (rev Ds0 ++ [[]])) = [[]; []; []; [2%Z]].
Proof. vm_compute. repeat split. Qed.
