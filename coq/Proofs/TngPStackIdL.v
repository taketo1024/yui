(* Vertical composition, part 7: the identity cobordism at the bottom.
   Cob::id(&c.src()).stack(c) gives back the components of c (unit test `stack_id` of cob.rs), for every cobordism whose
   source tangles are pairwise disjoint, whose components have normalised source and target tangles and on which
   nbdr_comps returns. *)
From Coq Require Import List Arith Bool Lia ZArith Permutation Sorted.
Import ListNotations.
Require Import Yui.Model.Link Yui.Model.Tng Yui.Model.TngCob Yui.Model.TngStack.
Require Import Yui.Proofs.TngPBase Yui.Proofs.TngPSegs Yui.Proofs.TngPDeg Yui.Proofs.TngPJoin Yui.Proofs.TngPStep
  Yui.Proofs.TngPSeq Yui.Proofs.TngPConn Yui.Proofs.TngPMain Yui.Proofs.TngPCob Yui.Proofs.TngPCobDeg
  Yui.Proofs.TngPStackBase Yui.Proofs.TngPStackBfs Yui.Proofs.TngPStackWf Yui.Proofs.TngPStackDeg
  Yui.Proofs.TngPStackAssoc Yui.Proofs.TngPStackId.

Definition ok_comp (t : cobcomp) : Prop := tng_ok (csrc t) /\ tng_ok (ctgt t) /\ cc_nbdr t <> None.

Definition idl_inv (bot top : list cobcomp) : Prop :=
  stack_wf bot top /\ Permutation bot (ids_of (flat csrc top)) /\ Forall ok_comp top.

Lemma ids_of_app : forall a b, ids_of (a ++ b) = ids_of a ++ ids_of b.
Proof. intros. unfold ids_of. apply map_app. Qed.

Lemma in_ids_of : forall l b, In b (ids_of l) <-> exists m, b = cc_id m /\ In m l.
Proof. intros l b. unfold ids_of. rewrite in_map_iff. split; intros (m & H1 & H2); exists m; auto. Qed.

Lemma cc_id_inj : forall m m', cc_id m = cc_id m' -> m = m'.
Proof. intros m m' E. inversion E. reflexivity. Qed.

Lemma nodup_ids_of : forall l, NoDup l -> NoDup (ids_of l).
Proof.
  induction l as [|m r IH]; intros Hn; [constructor|]. inversion Hn; subst. cbn. constructor; [|apply IH; assumption].
  intros Hi. apply in_ids_of in Hi. destruct Hi as (m' & E & Hm'). apply cc_id_inj in E. subst. contradiction.
Qed.

Lemma hit_self : forall sel t m, In m (sel t) -> hit sel m t = true.
Proof. intros sel t m Hm. apply hit_iff. exists m. split; auto. apply unori_eq_refl. Qed.

Lemma first_label : forall m, simple m -> exists v, In v (pedges m).
Proof. intros m Sm. pose proof (simple_ne m Sm). destruct (pedges m) as [|v l]; [contradiction|]. exists v. left. reflexivity. Qed.

(* a component of the pool is hit only through its own paths, and == between two paths of one tangle is equality *)
Lemma hit_owner : forall sel pool t0 t m, tng_inv (flat sel pool) -> In t0 pool -> In t pool -> In m (sel t0) ->
  hit sel m t = true -> t0 = t.
Proof.
  intros sel pool t0 t m I Ht0 Ht Hm Hh. destruct (hit_shares sel pool m t I Ht Hh) as [_ Hs].
  destruct (first_label m (inv_simple _ _ I (flat_in _ _ _ _ Ht0 Hm))) as (v & Hv).
  apply (owner_unique' sel pool t0 t v I Ht0 Ht); [apply in_verts; exists m; auto|apply Hs; exact Hv].
Qed.
Lemma unori_eq_in : forall X m1 m, tng_inv X -> In m1 X -> In m X -> unori_eq m1 m = true -> m1 = m.
Proof.
  intros X m1 m I H1 H He. pose proof (inv_simple _ _ I H1) as S1.
  destruct (unori_eq_shares m1 m S1 He) as (_ & _ & Hs). destruct (first_label m1 S1) as (v & Hv).
  apply (inv_same_comp X m1 m v I); auto. apply Hs. exact Hv.
Qed.

Lemma ok_tail : forall (P : cobcomp -> Prop) l l1 l2, Permutation l (l1 ++ l2) -> Forall P l -> Forall P l1.
Proof.
  intros P l l1 l2 Hp Hf. rewrite Forall_forall in *. intros x Hx. apply Hf.
  eapply Permutation_in; [apply Permutation_sym; exact Hp|]. apply in_or_app. left. exact Hx.
Qed.

Lemma fold_connect_single : forall t, tng_ok t -> tng_fold_connect [t] = Some t.
Proof.
  intros t [Hi Hs]. destruct (fold_connect_disjoint [t]) as (r & Er & Pr & Sr); [cbn; rewrite app_nil_r; exact Hi|].
  cbn [concat] in Pr. rewrite app_nil_r in Pr. rewrite Er. f_equal. symmetry. apply sorted_perm_eq; auto.
  apply Permutation_sym. exact Pr.
Qed.

Lemma fold_connect_perm : forall (g : list cobcomp) sel t, tng_inv (flat sel g) -> Permutation (flat sel g) t -> tng_ok t ->
  tng_fold_connect (map sel g) = Some t.
Proof.
  intros g sel t Hi Hp [It St]. destruct (fold_connect_disjoint (map sel g)) as (r & Er & Pr & Sr); [rewrite concat_map_flat; exact Hi|].
  rewrite concat_map_flat in Pr. rewrite Er. f_equal. symmetry. apply sorted_perm_eq; auto.
  eapply perm_trans; [apply Permutation_sym; exact Hp|apply Permutation_sym; exact Pr].
Qed.

Lemma idl_step : forall b0 bot1 top bot' top' gb gt, idl_inv (b0 :: bot1) top ->
  take_stackable (b0 :: bot1) top = Some (bot', top', gb, gt) ->
  exists t0, round_of gb gt t0 /\ idl_inv bot' top' /\ Permutation top (t0 :: top').
Proof.
  intros b0 bot1 top bot' top' gb gt (W & PB & OK) Et.
  pose proof (wf_mid_t _ _ W) as IT. pose proof (wf_mid_b _ _ W) as IB.
  assert (Hb0 : In b0 (ids_of (flat csrc top))) by (eapply Permutation_in; [exact PB|left; reflexivity]).
  apply in_ids_of in Hb0. destruct Hb0 as (m0 & -> & Hm0).
  destruct (flat_in_inv _ _ _ Hm0) as (t0 & Ht0 & Hm0t).
  assert (Hbot : forall b, In b (cc_id m0 :: bot1) -> exists m, b = cc_id m /\ In m (flat csrc top)).
  { intros b Hb. apply in_ids_of. eapply Permutation_in; [exact PB|exact Hb]. }
  destruct (take_stackable_wf _ _ _ _ _ _ W Et) as (Pa & Pb & [C1 C2] & W').
  destruct (take_stackable_perm _ _ _ _ _ _ Et) as (_ & _ & _ & Hhd & _). destruct (Hhd _ _ eq_refl) as (more & Hgb).
  (* soundness: the group lies over t0 *)
  destruct (take_stackable_sound (fun b => exists m, b = cc_id m /\ In m (csrc t0)) (eq t0) _ _ _ _ _ _ Et) as [Fb Ft].
  { intros b t m (m1 & -> & Hm1) Ht Hm Hh. cbn in Hm. destruct Hm as [<-|[]].
    exact (hit_owner csrc top t0 t m1 IT Ht0 Ht Hm1 Hh). }
  { intros t b m <- Hb Hm Hh. destruct (Hbot b Hb) as (m1 & -> & Hm1). exists m. split; auto.
    apply hit_iff in Hh. destruct Hh as (m2 & Hm2 & He). cbn in Hm2. destruct Hm2 as [<-|[]]. f_equal.
    apply (unori_eq_in (flat csrc top) m1 m IT Hm1); [eapply flat_in; eauto|exact He]. }
  { intros b r E. inversion E; subst. exists m0. auto. }
  { intros t r E. discriminate. }
  (* t0 is collected, once *)
  assert (Ht0g : In t0 gt).
  { apply (closed_half_in _ _ _ _ _ (cc_id m0) m0 _ C1); [rewrite Hgb; left; reflexivity|left; reflexivity| |].
    - eapply Permutation_in; eauto.
    - exact (hit_self csrc t0 m0 Hm0t). }
  assert (Egt : gt = [t0]).
  { apply (all_equal_one csrc gt t0); auto; [apply (flat_sub csrc top top' gt Pb IT)|intros E; rewrite E in Hm0t; contradiction]. }
  subst gt.
  (* the bottom half of the group: the identities over the source tangle of t0 *)
  assert (It0 : tng_inv (csrc t0)) by (apply (flat_inv_in csrc top); auto).
  assert (Pg : Permutation gb (ids_of (csrc t0))).
  { apply NoDup_Permutation.
    - apply (flat_nodup ctgt); [apply (flat_sub ctgt _ bot' gb Pa IB)|].
      intros x Hx. rewrite Forall_forall in Fb. destruct (Fb x Hx) as (m & -> & _). discriminate.
    - apply nodup_ids_of. apply inv_nodup_paths. exact It0.
    - intros x. rewrite in_ids_of. split.
      + intros Hx. rewrite Forall_forall in Fb. apply Fb. exact Hx.
      + intros (m & -> & Hm).
        assert (Hin : In (cc_id m) (cc_id m0 :: bot1)).
        { eapply Permutation_in; [apply Permutation_sym; exact PB|]. apply in_ids_of. exists m. split; auto. eapply flat_in; eauto. }
        apply (closed_half_in _ _ _ _ _ t0 m _ C2); [left; reflexivity|exact Hm| |apply hit_self; left; reflexivity].
        eapply Permutation_in; eauto. }
  assert (OK0 : ok_comp t0) by (rewrite Forall_forall in OK; apply OK; exact Ht0).
  destruct OK0 as (Os & Ot & On). destruct (cc_nbdr t0) as [nb|] eqn:Enb; [|congruence].
  destruct (perm_ids_data gb (csrc t0) Pg) as (Eu & Ar & Dx & Dy & Ps & _).
  assert (Ec : stack_comps gb [t0] = Some t0).
  { rewrite (stack_comps_compute gb [t0] (Z.of_nat (tng_euler_num (csrc t0))) (2 - 2 * Z.of_nat (cgenus t0) - Z.of_nat nb)%Z
               (csrc t0) (ctgt t0) nb (cgenus t0)); auto.
    - rewrite Dx, Dy. destruct t0 as [s t g x y]. cbn. f_equal. f_equal; lia.
    - rewrite Hgb. discriminate.
    - discriminate.
    - rewrite euls_single. unfold cc_euler. rewrite Enb. reflexivity.
    - apply (fold_connect_perm gb csrc); auto. apply (flat_sub csrc _ bot' gb Pa (wf_src _ _ W)).
    - cbn [map]. apply fold_connect_single. exact Ot.
    - intros dx dy. rewrite <- Enb. apply cc_nbdr_ext; reflexivity.
    - rewrite Ar. lia. }
  exists t0. split; [exact Ec|]. split; [|eapply perm_trans; [exact Pb|apply Permutation_sym, Permutation_cons_append]].
  split; [exact W'|]. split; [|eapply ok_tail; eauto].
  apply (Permutation_app_inv_r gb).
  eapply perm_trans; [apply Permutation_sym; exact Pa|]. eapply perm_trans; [exact PB|].
  eapply perm_trans; [apply Permutation_map; apply flat_perm; exact Pb|]. fold (ids_of (flat csrc (top' ++ [t0]))).
  rewrite flat_app, ids_of_app. apply Permutation_app_head. unfold flat at 1. cbn [flat_map]. rewrite app_nil_r.
  apply Permutation_sym. exact Pg.
Qed.

(* no empty path in a list of components with simple tangles: the sort of the Vec does not panic *)
Lemma simple_no_empty : forall t, Forall simple t -> existsb (fun p => is_nil (pedges p)) t = false.
Proof.
  induction t as [|p r IH]; intros Hf; [reflexivity|]. inversion Hf; subst. cbn [existsb]. rewrite IH by assumption.
  pose proof (simple_ne p H1). destruct (pedges p); [contradiction|reflexivity].
Qed.

Lemma cob_sort_some : forall cs, Forall (fun c => Forall simple (csrc c) /\ Forall simple (ctgt c)) cs ->
  cob_sort cs = Some (cc_isort cs).
Proof.
  intros cs Hf. unfold cob_sort. assert (existsb has_empty_path cs = false) as ->; [|rewrite andb_false_r; reflexivity].
  induction Hf as [|c r [H1 H2] Hf IH]; [reflexivity|]. cbn [existsb]. rewrite IH. unfold has_empty_path.
  rewrite (simple_no_empty _ H1), (simple_no_empty _ H2). reflexivity.
Qed.

(* the identity cobordism of a tangle with simple components, and the sort of a reordering of components with
   normalised tangles, do not panic *)
Lemma cob_id_some : forall U, Forall simple U -> cob_id U = Some (cc_isort (ids_of U)).
Proof.
  intros U HU. unfold cob_id, cob_new. apply cob_sort_some. apply Forall_forall. intros x Hx. apply in_ids_of in Hx.
  destruct Hx as (m & -> & Hm). rewrite Forall_forall in HU. cbn. split; (constructor; [apply HU; exact Hm|constructor]).
Qed.
Lemma cob_sort_ok : forall out a, Permutation out a -> Forall ok_comp a -> cob_sort out = Some (cc_isort out).
Proof.
  intros out a Po OK. apply cob_sort_some. apply Forall_forall. intros c Hc.
  assert (Hc' : In c a) by (eapply Permutation_in; eauto). rewrite Forall_forall in OK.
  destruct (OK c Hc') as (Os & Ot & _). split; [apply Os|apply Ot].
Qed.

Definition cob_okl (a : list cobcomp) : Prop := tng_inv (flat csrc a) /\ Forall ok_comp a.

Theorem cob_stack_id_l : forall a, cob_okl a ->
  exists S ids c, cob_src a = Some S /\ cob_id S = Some ids /\ cob_stack ids a = Some c /\ Permutation c a.
Proof.
  intros a [Ia OK].
  destruct (fold_connect_disjoint (map csrc a)) as (S & ES & PS & SS); [rewrite concat_map_flat; exact Ia|].
  rewrite concat_map_flat in PS.
  assert (IS : tng_inv S) by (eapply inv_perm; [apply Permutation_sym; exact PS|exact Ia]).
  pose proof (cob_id_some S (proj1 IS)) as Eid.
  exists S, (cc_isort (ids_of S)).
  assert (Pids : Permutation (cc_isort (ids_of S)) (ids_of (flat csrc a))).
  { eapply perm_trans; [apply cc_isort_perm|]. apply Permutation_map. exact PS. }
  assert (Inv : idl_inv (cc_isort (ids_of S)) a).
  { split; [|split; [exact Pids|exact OK]].
    assert (F1 : Permutation (flat csrc (cc_isort (ids_of S))) (flat csrc a)).
    { eapply perm_trans; [apply flat_perm; exact Pids|]. rewrite flat_src_ids. apply Permutation_refl. }
    assert (F2 : Permutation (flat ctgt (cc_isort (ids_of S))) (flat csrc a)).
    { eapply perm_trans; [apply flat_perm; exact Pids|]. rewrite flat_tgt_ids. apply Permutation_refl. }
    apply stack_wf_perm; [| |apply Permutation_sym; exact F2]; (eapply inv_perm; [apply Permutation_sym; eassumption|exact Ia]). }
  unfold cob_stack, cob_stack_fuel.
  destruct (is_nil (cc_isort (ids_of S))) eqn:N1.
  { exists a. repeat split; auto. }
  destruct (is_nil a) eqn:N2.
  { destruct a; [|discriminate]. exfalso. apply Permutation_sym, Permutation_nil in Pids.
    rewrite Pids in N1. discriminate. }
  destruct (stack_loop_run idl_inv (fun _ top => top) (fun top _ => Permutation_refl top) idl_step
              (length (cc_isort (ids_of S)) + length a) _ _ [] Inv (Nat.le_refl _)) as (out & Eo & Po).
  rewrite Eo, (cob_sort_ok out a Po OK). cbn [app] in Po.
  exists (cc_isort out). repeat split; auto. eapply perm_trans; [apply cc_isort_perm|exact Po].
Qed.
