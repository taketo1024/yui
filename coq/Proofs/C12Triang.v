(* Correctness of the triangular solver of Model/Triang.v (appendix A.2 of DESIGN.md):
   the scratch buffer goes from all-zero to all-zero and the returned vector solves the system. *)
From Coq Require Import Arith List Bool Lia Ring.
Require Import Yui.Base.Ring Yui.Base.MatF Yui.Model.Triang Yui.Proofs.C12Sparse.
Require Import Yui.Base.ListFacts.
Import ListNotations.

Section TriangProofs.
  Context {R : Type} (o : ring_ops R) (L : ring_laws o) (u : unit_ops R) (UL : unit_laws o u).

  Local Notation "0" := (rzero o).
  Local Notation "1" := (rone o).
  Local Infix "+" := (radd o).
  Local Infix "*" := (rmul o).
  Local Notation "- x" := (rneg o x).
  Add Ring Rring2 : (ring_theory_of_laws o L).

  (* semantic validity of the coefficient matrix (what the proof needs) *)
  Record tvalid (upper : bool) (a : spmat R) (n : nat) : Prop := {
    tv_nrows : nrows a = n;
    tv_ncols : ncols a = n;
    tv_rows : forall j e, In e (col a j) -> fst e < n;
    tv_diag : forall j, j < n -> exists uj ui,
        filter (fun e => fst e =? j) (col a j) = [(j, uj)] /\ rinv u uj = Some ui;
    tv_tri : forall i j, i < n -> j < n -> (if upper then j < i else i < j) -> entry o a i j = 0;
  }.

  (* right-hand sides: every column has distinct rows, all in range *)
  Definition yvalid (y : spmat R) (n : nat) : Prop :=
    nrows y = n /\ forall j, NoDup (map fst (col y j)) /\ forall e, In e (col y j) -> fst e < n.

  Lemma copy_into_spec (v : scol R) : forall b,
    (forall e, In e v -> fst e < length b) -> NoDup (map fst v) ->
    exists b', copy_into v b = Some b' /\ length b' = length b /\
      forall i, vget o b' i = if in_dec Nat.eq_dec i (map fst v) then centry o v i else vget o b i.
  Proof.
    induction v as [|[i0 r] v IH]; intros b Hr Hnd.
    - exists b. split; [reflexivity|]. split; [reflexivity|]. intros i. reflexivity.
    - cbn [copy_into]. assert (Hi0 : i0 < length b) by (apply (Hr (i0, r)); now left).
      replace (i0 <? length b) with true by (symmetry; now apply Nat.ltb_lt).
      cbn [map fst] in Hnd. inversion Hnd as [|? ? Hx Hnd']; subst.
      destruct (IH (set_nth b i0 r)) as [b' [E [Hl Hv]]].
      { intros e He. rewrite length_set_nth. apply Hr. now right. }
      { assumption. }
      exists b'. split; [exact E|]. split; [now rewrite Hl, length_set_nth|].
      intros i. rewrite Hv. cbn [map fst centry snd].
      destruct (in_dec Nat.eq_dec i (map fst v)) as [Hin|Hnin].
      + destruct (in_dec Nat.eq_dec i (i0 :: map fst v)) as [_|Hc]; [|exfalso; apply Hc; now right].
        destruct (Nat.eqb_spec i0 i) as [->|_]; [contradiction|]. ring.
      + rewrite (vget_set_nth o) by assumption.
        destruct (Nat.eqb_spec i i0) as [->|Hne].
        * destruct (in_dec Nat.eq_dec i0 (i0 :: map fst v)) as [_|Hc]; [|exfalso; apply Hc; now left].
          rewrite Nat.eqb_refl, (centry_notin o L) by assumption. ring.
        * destruct (in_dec Nat.eq_dec i (i0 :: map fst v)) as [[Hc|Hc]|_]; [congruence|contradiction|reflexivity].
  Qed.

  Lemma copy_into_zeros (c : scol R) n :
    (forall e, In e c -> fst e < n) -> NoDup (map fst c) ->
    exists b, copy_into (filter (nz o) c) (zeros o n) = Some b /\ length b = n /\
      forall i, vget o b i = centry o c i.
  Proof.
    intros Hr Hnd.
    destruct (copy_into_spec (filter (nz o) c) (zeros o n)) as [b [E [Hl Hv]]].
    - intros e He. apply filter_In in He. unfold zeros. rewrite repeat_length. apply Hr. tauto.
    - now apply NoDup_map_filter.
    - exists b. split; [exact E|]. split; [unfold zeros in Hl; now rewrite repeat_length in Hl|].
      intros i. rewrite Hv.
      destruct (in_dec Nat.eq_dec i (map fst (filter (nz o) c))) as [_|Hn].
      + apply (centry_filter_nz o L).
      + rewrite (vget_zeros o), <- (centry_filter_nz o L). symmetry. now apply (centry_notin o L).
  Qed.

  (* to_dense = the same on a fresh zero vector *)
  Lemma to_dense_copy (v : scol R) : forall b, to_dense_loop o v b = copy_into (filter (nz o) v) b.
  Proof.
    induction v as [|[i r] v IH]; intros b; [reflexivity|]. cbn [to_dense_loop filter].
    unfold nz at 1, nzb. cbn [snd]. destruct (ris_zero o r); cbn [negb]; [apply IH|].
    cbn [copy_into]. destruct (i <? length b); [apply IH|reflexivity].
  Qed.

  (* the inner loop *)
  Lemma col_sub_spec (c : scol R) x : forall b,
    (forall e, In e c -> fst e < length b) ->
    exists b', col_sub o b c x = Some b' /\ length b' = length b /\
      forall k, vget o b' k = vget o b k + - (centry o c k * x).
  Proof.
    induction c as [|[i a_ij] c IH]; intros b Hr.
    - exists b. repeat split. intros k. cbn. ring.
    - cbn [col_sub]. destruct (ris_zero o a_ij) eqn:Ez.
      + apply (ris_zero_true o L) in Ez. subst a_ij.
        destruct (IH b) as [b' [E [Hl Hv]]]; [intros e He; apply Hr; now right|].
        exists b'. repeat split; try assumption. intros k. rewrite Hv. cbn. destruct (i =? k); ring.
      + assert (Hi : i < length b) by (apply (Hr (i, a_ij)); now left).
        rewrite (nth_error_lt o) by assumption.
        destruct (IH (set_nth b i (rsub o (vget o b i) (a_ij * x)))) as [b' [E [Hl Hv]]].
        { intros e He. rewrite length_set_nth. apply Hr. now right. }
        exists b'. split; [exact E|]. split; [now rewrite Hl, length_set_nth|].
        intros k. rewrite Hv, (vget_set_nth o) by assumption. cbn [centry fst snd].
        rewrite (Nat.eqb_sym i k). destruct (Nat.eqb_spec k i) as [->|Hne]; unfold rsub; ring.
    Qed.

  (* the outer loop *)
  Section Sweep.
    Variable a : spmat R.
    Variable n : nat.
    Hypothesis Hrows : forall j e, In e (col a j) -> fst e < n.

    Local Notation A := (entry o a).
    Definition dotA (i : nat) (x : nat -> R) : R := sum o n (fun k => A i k * x k).

    Fixpoint tri_ord (ks : list nat) : Prop :=
      match ks with
      | [] => True
      | j :: r => (forall j', In j' r -> A j j' = 0) /\ tri_ord r
      end.

    Lemma sweep_spec : forall (itr : list (nat * R)) (b : list R) (entries : scol R) (Z : nat -> Prop),
      length b = n ->
      (forall j uj, In (j, uj) itr -> j < n /\ A j j = uj /\ exists ui, rinv u uj = Some ui) ->
      tri_ord (map fst itr) ->
      (forall i, Z i -> vget o b i = 0) ->
      (forall i j, Z i -> In j (map fst itr) -> A i j = 0) ->
      exists b' entries',
        sweep o u a itr b entries = Some (b', entries') /\ length b' = n /\
        (forall i, vget o b' i + dotA i (centry o entries') = vget o b i + dotA i (centry o entries)) /\
        (forall i, Z i \/ In i (map fst itr) -> vget o b' i = 0) /\
        (forall e, In e entries' -> In e entries \/ In (fst e) (map fst itr)).
    Proof.
      induction itr as [|[j uj] rest IH]; intros b entries Z Hl Hitr Hord HZ HZA.
      - exists b, entries. cbn. repeat split; auto. intros i [Hi|[]]. now apply HZ.
      - cbn [sweep]. destruct (Hitr j uj (or_introl eq_refl)) as [Hj [HAjj [ui Hui]]].
        cbn [map fst tri_ord] in Hord. destruct Hord as [Hordj Hord].
        rewrite (nth_error_lt o) by lia.
        assert (Hitr' : forall j0 uj0, In (j0, uj0) rest -> j0 < n /\ A j0 j0 = uj0 /\ exists ui0, rinv u uj0 = Some ui0)
          by (intros j0 uj0 H0; apply Hitr; now right).
        destruct (ris_zero o (vget o b j)) eqn:Ez.
        + (* b[j] = 0: nothing to do, j joins the zero set *)
          apply (ris_zero_true o L) in Ez.
          destruct (IH b entries (fun i => Z i \/ i = j) Hl Hitr' Hord) as [b' [en' [E [Hl' [Heq [Hz Hen]]]]]].
          { intros i [Hi | ->]; [now apply HZ|exact Ez]. }
          { intros i j' [Hi | ->] Hj'; [apply HZA; [assumption|now right]|now apply Hordj]. }
          exists b', en'. split; [exact E|]. split; [exact Hl'|]. split; [exact Heq|]. split.
          * intros i [Hi | [<- | Hi]]; apply Hz; [left; now left|left; now right|now right].
          * intros e He. destruct (Hen e He) as [H|H]; [now left|right; now right].
        + rewrite Hui. cbn [obind].
          set (x := vget o b j * ui).
          destruct (col_sub_spec (snd (col_vec o a j)) x b) as [b1 [E1 [Hl1 Hv1]]].
          { intros e He. cbn [col_vec snd] in He. apply filter_In in He. rewrite Hl. apply (Hrows j). tauto. }
          rewrite E1. cbn [obind].
          assert (Hv1' : forall k, vget o b1 k = vget o b k + - (A k j * x)).
          { intros k. rewrite Hv1. cbn [col_vec snd]. now rewrite (centry_filter_nz o L). }
          destruct (IH b1 (entries ++ [(j, x)]) (fun i => Z i \/ i = j)) as [b' [en' [E [Hl' [Heq [Hz Hen]]]]]];
            [lia|exact Hitr'|exact Hord| | |].
          { intros i [Hi | ->]; rewrite Hv1'.
            - rewrite (HZ i Hi), (HZA i j Hi (or_introl eq_refl)). ring.
            - rewrite HAjj. unfold x.
              replace (uj * (vget o b j * ui)) with (vget o b j * (uj * ui)) by ring.
              rewrite (rinv_some o u UL uj ui Hui). ring. }
          { intros i j' [Hi | ->] Hj'; [apply HZA; [assumption|now right]|now apply Hordj]. }
          exists b', en'. split; [exact E|]. split; [exact Hl'|]. split; [|split].
          * intros i. rewrite Heq, Hv1'. unfold dotA. rewrite (sum_centry_snoc o L) by assumption. ring.
          * intros i [Hi | [<- | Hi]]; apply Hz; [left; now left|left; now right|now right].
          * intros e He. destruct (Hen e He) as [H|H]; [|right; now right].
            apply in_app_iff in H. destruct H as [H|[<-|[]]]; [now left|right; now left].
    Qed.
  End Sweep.

  (* the processing order is compatible with the triangular shape *)
  Lemma tri_ord_lower a N : (forall i j, i < N -> j < N -> i < j -> entry o a i j = 0) ->
    forall len s, s + len <= N -> tri_ord a (seq s len).
  Proof.
    intros H. induction len as [|len IH]; intros s Hs; cbn [seq tri_ord]; [exact I|]. split.
    - intros j' Hj'. apply in_seq in Hj'. apply H; lia.
    - apply IH. lia.
  Qed.

  Lemma tri_ord_upper a N : (forall i j, i < N -> j < N -> j < i -> entry o a i j = 0) ->
    forall n, n <= N -> tri_ord a (rev (seq 0 n)).
  Proof.
    intros H. induction n as [|n IH]; intros Hn; [exact I|].
    rewrite seq_S, rev_app_distr. cbn [rev app Nat.add tri_ord]. split.
    - intros j' Hj'. apply in_rev, in_seq in Hj'. apply H; lia.
    - apply IH. lia.
  Qed.

  Lemma collect_diag_spec upper a n : tvalid upper a n ->
    collect_diag a = map (fun j => entry o a j j) (seq 0 n).
  Proof.
    intros V. unfold collect_diag. rewrite (tv_ncols _ _ _ V). apply flat_map_singleton.
    intros j Hj. apply in_seq in Hj. destruct (tv_diag _ _ _ V j) as [uj [ui [Hf _]]]; [lia|].
    rewrite Hf. cbn. unfold entry. now rewrite (centry_single o L _ _ _ Hf).
  Qed.

  (* _solve_triangular *)
  Lemma solve_core_spec upper a n b0 : tvalid upper a n -> length b0 = n ->
    exists x, solve_core o u upper a (collect_diag a) b0 = Some (zeros o n, (n, x)) /\
      (forall e, In e x -> fst e < n) /\
      forall i, i < n -> sum o n (fun k => entry o a i k * centry o x k) = vget o b0 i.
  Proof.
    intros V Hl. unfold solve_core. rewrite (collect_diag_spec upper a n V).
    rewrite map_length, seq_length, combine_map_self.
    set (itr0 := map (fun j => (j, entry o a j j)) (seq 0 n)).
    set (itr := if upper then rev itr0 else itr0).
    assert (Hkeys0 : map fst itr0 = seq 0 n).
    { unfold itr0. rewrite map_map. cbn. apply map_id. }
    assert (Hkeys : map fst itr = if upper then rev (seq 0 n) else seq 0 n).
    { unfold itr. destruct upper; [rewrite map_rev|]; now rewrite Hkeys0. }
    assert (Hin : forall j uj, In (j, uj) itr -> j < n /\ entry o a j j = uj /\ exists ui, rinv u uj = Some ui).
    { intros j uj H. assert (H0 : In (j, uj) itr0) by (unfold itr in H; destruct upper; [now apply in_rev|assumption]).
      unfold itr0 in H0. apply in_map_iff in H0. destruct H0 as [j0 [E Hj0]]. injection E as -> <-.
      apply in_seq in Hj0. split; [lia|]. split; [reflexivity|].
      destruct (tv_diag _ _ _ V j) as [uj [ui [Hf Hu]]]; [lia|]. exists ui.
      unfold entry. now rewrite (centry_single o L _ _ _ Hf). }
    assert (Hord : tri_ord a (map fst itr)).
    { rewrite Hkeys. destruct upper.
      - apply (tri_ord_upper a n); [|lia]. intros i j Hi Hj Hij. now apply (tv_tri _ _ _ V).
      - apply (tri_ord_lower a n); [|lia]. intros i j Hi Hj Hij. now apply (tv_tri _ _ _ V). }
    destruct (sweep_spec a n (tv_rows _ _ _ V) itr b0 [] (fun _ => False) Hl Hin Hord) as [b' [en [E [Hl' [Heq [Hz Hen]]]]]].
    { intros i []. }
    { intros i j []. }
    fold itr. rewrite E. cbn [obind].
    set (en' := if upper then rev en else en).
    assert (Hen' : forall e, In e en' -> fst e < n).
    { intros e He. assert (He0 : In e en) by (unfold en' in He; destruct upper; [now apply in_rev|assumption]).
      destruct (Hen e He0) as [[]|H]. rewrite Hkeys in H.
      assert (In (fst e) (seq 0 n)) by (destruct upper; [now apply in_rev|assumption]).
      apply in_seq in H0. lia. }
    assert (Hchk : forallb (fun e => fst e <? ncols a) en' = true).
    { apply forallb_forall. intros e He. apply Nat.ltb_lt. rewrite (tv_ncols _ _ _ V). now apply Hen'. }
    rewrite Hchk. rewrite (tv_ncols _ _ _ V).
    assert (Hzero : forall i, i < n -> vget o b' i = 0).
    { intros i Hi. apply Hz. right. rewrite Hkeys.
      destruct upper; [apply -> in_rev|]; apply in_seq; lia. }
    exists en'. split; [|split; [exact Hen'|]].
    - f_equal. f_equal. now apply (zeros_intro o).
    - intros i Hi. specialize (Heq i). rewrite (Hzero i Hi) in Heq. unfold dotA in Heq.
      assert (Hc : forall k, centry o en' k = centry o en k).
      { intros k. unfold en'. destruct upper; [apply (centry_rev o L)|reflexivity]. }
      rewrite (sum_ext o n _ (fun k => entry o a i k * centry o en k)) by (intros k _; now rewrite Hc).
      cbn [centry] in Heq. rewrite (sum_zero_ext o L n (fun k => entry o a i k * 0)) in Heq by (intros; ring).
      transitivity (0 + sum o n (fun k : nat => entry o a i k * centry o en k)); [ring|].
      rewrite Heq. ring.
  Qed.

  Definition ycol (y : spmat R) (j : nat) : nat -> R := fun i => entry o y i j.

  Lemma solve_col_spec upper a n y j : tvalid upper a n -> yvalid y n ->
    exists x, solve_col o u upper a (collect_diag a) (col_vec o y j) (zeros o n) = Some (zeros o n, (n, x)) /\
      (forall e, In e x -> fst e < n) /\
      forall i, i < n -> sum o n (fun k => entry o a i k * centry o x k) = entry o y i j.
  Proof.
    intros V [Hn Hy]. destruct (Hy j) as [Hnd Hr].
    destruct (copy_into_zeros (col y j) n Hr Hnd) as [b0 [E0 [Hl0 Hv0]]].
    destruct (solve_core_spec upper a n b0 V Hl0) as [x [E [Hx Hs]]].
    exists x. unfold solve_col. cbn [col_vec snd]. rewrite E0. cbn [obind]. split; [exact E|].
    split; [exact Hx|]. intros i Hi. rewrite (Hs i Hi), Hv0. reflexivity.
  Qed.

  (* the vector computed for column j from a zero buffer (a total function, for the statements) *)
  Definition col_result (upper : bool) (a y : spmat R) (j : nat) : svec R :=
    match solve_col o u upper a (collect_diag a) (col_vec o y j) (zeros o (nrows a)) with
    | Some (_, v) => v
    | None => (O, [])
    end.

  Lemma col_result_spec upper a n y j : tvalid upper a n -> yvalid y n ->
    solve_col o u upper a (collect_diag a) (col_vec o y j) (zeros o n) = Some (zeros o n, col_result upper a y j) /\
    fst (col_result upper a y j) = n /\
    (forall e, In e (snd (col_result upper a y j)) -> fst e < n) /\
    forall i, i < n -> sum o n (fun k => entry o a i k * ventry o (col_result upper a y j) k) = entry o y i j.
  Proof.
    intros V Y. destruct (solve_col_spec upper a n y j V Y) as [x [E [Hx Hs]]].
    unfold col_result. rewrite (tv_nrows _ _ _ V), E. cbn. repeat split; assumption.
  Qed.

  Lemma solve_batch_zeros upper a n y : tvalid upper a n -> yvalid y n -> forall js,
    solve_batch o u upper a (collect_diag a) y js (zeros o n)
    = Some (zeros o n, map (fun j => (j, col_result upper a y j)) js).
  Proof.
    intros V Y. induction js as [|j js IH]; [reflexivity|].
    cbn [solve_batch map]. destruct (col_result_spec upper a n y j V Y) as [E _].
    rewrite E. cbn [obind]. rewrite IH. reflexivity.
  Qed.

  (* the assembled solution matrix *)
  Definition solution (upper : bool) (a y : spmat R) : spmat R :=
    mk_spmat (nrows a) (ncols y) (map (fun j => snd (col_result upper a y j)) (seq 0 (ncols y))).

  Lemma from_col_vecs_results upper a n y js : tvalid upper a n -> yvalid y n ->
    from_col_vecs n (map (fun j => col_result upper a y j) js)
    = Some (mk_spmat n (length js) (map (fun j => snd (col_result upper a y j)) js)).
  Proof.
    intros V Y. unfold from_col_vecs.
    destruct (forallb _ _) eqn:H.
    - rewrite map_length, map_map. reflexivity.
    - exfalso. apply Bool.not_true_iff_false in H. apply H.
      apply forallb_forall. intros v Hv. apply in_map_iff in Hv. destruct Hv as [j [<- _]].
      apply Nat.eqb_eq. now destruct (col_result_spec upper a n y j V Y) as [_ [E _]].
  Qed.

  (* solve_triangular on one thread: result, and the buffer is all-zero again *)
  Lemma solve_triangular_st_spec upper a n y : tvalid upper a n -> yvalid y n ->
    solve_triangular_st o u upper a y = Some (zeros o n, solution upper a y).
  Proof.
    intros V Y. unfold solve_triangular_st. destruct Y as [Hyn Hy]. rewrite (tv_nrows _ _ _ V), Hyn, Nat.eqb_refl.
    rewrite (solve_batch_zeros upper a n y V (conj Hyn Hy)). cbn [obind].
    rewrite map_map. cbn [snd].
    rewrite (from_col_vecs_results upper a n y _ V (conj Hyn Hy)). cbn [obind].
    unfold solution. now rewrite seq_length, (tv_nrows _ _ _ V).
  Qed.

  Lemma entry_solution upper a y i j : j < ncols y ->
    entry o (solution upper a y) i j = ventry o (col_result upper a y j) i.
  Proof. intros Hj. unfold entry, col, solution. cbn [cols]. now rewrite nth_map_seq. Qed.

  Lemma solution_solves upper a n y : tvalid upper a n -> yvalid y n ->
    meq n (ncols y) (mmul o n (entry o a) (entry o (solution upper a y))) (entry o y).
  Proof.
    intros V Y i j Hi Hj. unfold mmul.
    destruct (col_result_spec upper a n y j V Y) as [_ [_ [_ Hs]]]. rewrite <- (Hs i Hi).
    apply sum_ext. intros k _. now rewrite entry_solution.
  Qed.

  Lemma solution_rows upper a n y j e : tvalid upper a n -> yvalid y n ->
    In e (col (solution upper a y) j) -> fst e < n.
  Proof.
    intros V Y. unfold col, solution. cbn [cols]. destruct (lt_dec j (ncols y)) as [Hj|Hj].
    - rewrite nth_map_seq by assumption. now destruct (col_result_spec upper a n y j V Y) as [_ [_ [Hr _]]]; apply Hr.
    - rewrite nth_map_seq_over by lia. intros [].
  Qed.

  (* any schedule of the worker threads gives the same matrix *)
  Lemma run_threads_spec upper a n y : tvalid upper a n -> yvalid y n -> forall sched,
    run_threads o u upper a (collect_diag a) y sched
    = Some (map (fun j => (j, col_result upper a y j)) (concat sched)).
  Proof.
    intros V Y. induction sched as [|js rest IH]; [reflexivity|].
    cbn [run_threads concat]. rewrite (tv_nrows _ _ _ V), (solve_batch_zeros upper a n y V Y). cbn [obind].
    rewrite IH. cbn [obind]. now rewrite map_app.
  Qed.

  Lemma schedule_free upper a n y sched : tvalid upper a n -> yvalid y n ->
    (forall j, j < ncols y -> In j (concat sched)) ->
    solve_triangular_sched o u upper a y sched = solve_triangular o u upper a y.
  Proof.
    intros V Y Hcov. unfold solve_triangular. rewrite (solve_triangular_st_spec upper a n y V Y). cbn [obind].
    unfold solve_triangular_sched. destruct Y as [Hyn Hy]. rewrite (tv_nrows _ _ _ V), Hyn, Nat.eqb_refl.
    rewrite (run_threads_spec upper a n y V (conj Hyn Hy)). cbn [obind].
    rewrite (omap_map _ (fun j => col_result upper a y j)).
    - cbn [obind]. rewrite (from_col_vecs_results upper a n y _ V (conj Hyn Hy)).
      unfold solution. now rewrite seq_length, (tv_nrows _ _ _ V).
    - intros j Hj. apply in_seq in Hj. unfold assoc_vec.
      rewrite (find_map_key (fun j => col_result upper a y j)) by (apply Hcov; lia). reflexivity.
  Qed.

  (* a worker thread with an arbitrary history: whatever columns it has processed before, its buffer is
     all-zero again, and every column gets the vector it gets on a fresh buffer *)
  Lemma worker_history upper a n y : tvalid upper a n -> yvalid y n -> forall before js,
    exists b vs, solve_batch o u upper a (collect_diag a) y before (zeros o n) = Some (b, vs) /\
      solve_batch o u upper a (collect_diag a) y js b
      = Some (zeros o n, map (fun j => (j, col_result upper a y j)) js).
  Proof.
    intros V Y before js. exists (zeros o n), (map (fun j => (j, col_result upper a y j)) before).
    split; apply (solve_batch_zeros upper a n y V Y).
  Qed.

  Lemma solve_vec_spec upper a n (v : svec R) : tvalid upper a n ->
    fst v = n -> NoDup (map fst (snd v)) -> (forall e, In e (snd v) -> fst e < n) ->
    exists x, solve_triangular_vec o u upper a v = Some (n, x) /\
      forall i, i < n -> sum o n (fun k => entry o a i k * centry o x k) = ventry o v i.
  Proof.
    intros V Hd Hnd Hr. unfold solve_triangular_vec. rewrite (tv_nrows _ _ _ V), Hd, Nat.eqb_refl.
    rewrite to_dense_copy. destruct (copy_into_zeros (snd v) n Hr Hnd) as [b0 [E0 [Hl0 Hv0]]].
    rewrite E0. cbn [obind]. destruct (solve_core_spec upper a n b0 V Hl0) as [x [E [_ Hs]]].
    rewrite E. cbn. exists x. split; [reflexivity|]. intros i Hi. now rewrite (Hs i Hi), Hv0.
  Qed.

  Lemma tvalid_transpose upper a n : tvalid upper a n -> tvalid (negb upper) (sp_transpose a) n.
  Proof.
    intros V. constructor.
    - rewrite nrows_transpose. apply (tv_ncols _ _ _ V).
    - rewrite ncols_transpose. apply (tv_nrows _ _ _ V).
    - intros j e He. rewrite <- (tv_ncols _ _ _ V). now apply (transpose_rows a j e).
    - intros j Hj. destruct (tv_diag _ _ _ V j Hj) as [uj [ui [Hf Hu]]]. exists uj, ui. split; [|exact Hu].
      apply transpose_diag; [rewrite (tv_nrows _ _ _ V)|rewrite (tv_ncols _ _ _ V)|]; assumption.
    - intros i j Hi Hj Hij. rewrite (entry_transpose o L);
        [|rewrite (tv_nrows _ _ _ V); assumption|rewrite (tv_ncols _ _ _ V); assumption].
      apply (tv_tri _ _ _ V); try assumption. destruct upper; cbn in Hij; assumption.
  Qed.

  Lemma yvalid_transpose (y : spmat R) n : ncols y = n ->
    (forall j, NoDup (map fst (col y j))) -> yvalid (sp_transpose y) n.
  Proof.
    intros Hn Hnd. split; [now rewrite nrows_transpose|]. intros j. split.
    - now apply transpose_NoDup.
    - intros e He. rewrite <- Hn. now apply (transpose_rows y j e).
  Qed.

  Lemma solve_left_spec upper a n y : tvalid upper a n -> ncols y = n ->
    (forall j, NoDup (map fst (col y j))) ->
    exists x, solve_triangular_left o u upper a y = Some x /\ nrows x = nrows y /\ ncols x = n /\
      length (cols x) = n /\
      (forall j e, In e (col x j) -> fst e < nrows y) /\
      meq (nrows y) n (mmul o n (entry o x) (entry o a)) (entry o y).
  Proof.
    intros V Hn Hnd. unfold solve_triangular_left, solve_triangular.
    pose proof (tvalid_transpose upper a n V) as V'.
    pose proof (yvalid_transpose y n Hn Hnd) as Y'.
    rewrite (solve_triangular_st_spec (negb upper) (sp_transpose a) n (sp_transpose y) V' Y'). cbn [obind].
    set (x' := solution (negb upper) (sp_transpose a) (sp_transpose y)).
    exists (sp_transpose x'). split; [reflexivity|].
    assert (Hx'c : ncols x' = nrows y) by reflexivity.
    assert (Hx'r : nrows x' = n) by (unfold x', solution; cbn [nrows]; rewrite nrows_transpose; apply (tv_ncols _ _ _ V)).
    split; [exact Hx'c|]. split; [exact Hx'r|]. split; [|split].
    - cbn [sp_transpose cols]. now rewrite map_length, seq_length.
    - intros j e He. rewrite <- Hx'c. now apply (transpose_rows x' j e).
    - intros p j Hp Hj. unfold mmul.
      pose proof (solution_solves (negb upper) (sp_transpose a) n (sp_transpose y) V' Y') as Hs.
      specialize (Hs j p Hj). rewrite ncols_transpose in Hs. specialize (Hs Hp). unfold mmul in Hs.
      rewrite (entry_transpose o L) in Hs by (rewrite ?Hn; assumption).
      rewrite <- Hs. apply sum_ext. intros l Hl. fold x'.
      rewrite (entry_transpose o L x' l p) by (rewrite ?Hx'r, ?Hx'c; assumption).
      rewrite (entry_transpose o L a l j);
        [ring|rewrite (tv_nrows _ _ _ V); assumption|rewrite (tv_ncols _ _ _ V); assumption].
  Qed.

  (* from the CSC invariant and the Rust-level predicates to [tvalid] *)
  Definition unit_diag (a : spmat R) : bool :=
    forallb (fun j => existsb (fun e => (fst e =? j) && ris_unit u (snd e)) (col a j)) (seq 0 (ncols a)).

  Lemma tvalid_intro upper a :
    wf a = true -> is_triang o upper a = true -> unit_diag a = true -> tvalid upper a (nrows a).
  Proof.
    intros Hwf Htri Hdiag. unfold is_triang in Htri. apply andb_true_iff in Htri. destruct Htri as [Hsq Htri].
    apply Nat.eqb_eq in Hsq. rewrite forallb_forall in Htri. constructor.
    - reflexivity.
    - now symmetry.
    - intros j e He. now apply (wf_col_spec a j Hwf).
    - intros j Hj. unfold unit_diag in Hdiag. rewrite forallb_forall in Hdiag.
      specialize (Hdiag j). rewrite in_seq in Hdiag. specialize (Hdiag ltac:(lia)).
      apply existsb_exists in Hdiag. destruct Hdiag as [[i uj] [He Hu]]. cbn [fst snd] in Hu.
      apply andb_true_iff in Hu. destruct Hu as [Hi Hu]. apply Nat.eqb_eq in Hi. subst i.
      apply (rinv_unit o u UL) in Hu. destruct Hu as [ui Hui]. exists uj, ui. split; [|exact Hui].
      apply filter_row_single; [now apply (wf_col_spec a j Hwf)|assumption].
    - intros i j Hi Hj Hij. unfold entry. apply (centry_zero o L). intros e He Hei.
      specialize (Htri (fst e, j, snd e) (in_triplets a j e ltac:(lia) He)). cbn in Htri.
      apply orb_true_iff in Htri. destruct Htri as [Hz|Ht]; [now apply (ris_zero_true o L)|].
      exfalso. rewrite Hei in Ht. destruct upper; apply Nat.leb_le in Ht; lia.
  Qed.

  Lemma yvalid_intro (y : spmat R) : wf y = true -> yvalid y (nrows y).
  Proof. intros H. split; [reflexivity|]. intros j. now apply (wf_col_spec y j H). Qed.

  Lemma yvalid_id n : yvalid (sp_id o n) n.
  Proof.
    split; [reflexivity|]. intros j. rewrite (col_id o). destruct (Nat.ltb_spec j n) as [H|H].
    - split; [constructor; [intros []|constructor]|]. intros e [<-|[]]. exact H.
    - split; [constructor|intros e []].
  Qed.
End TriangProofs.
