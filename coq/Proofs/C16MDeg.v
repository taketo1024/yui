(* Proofs about MultiDeg (Model/Mono.v): a value is [Reduced] (indices strictly increasing, no zero
   exponent); every constructor and operation returns a reduced value; a reduced value is determined by
   its exponent function [md_at] (so derived Eq/Hash are those of the mathematical multi-degree);
   add is pointwise; cmp_lex / cmp_grlex are total orders compatible with add. *)
From Coq Require Import List Bool Arith NArith ZArith Lia.
Require Import Yui.Model.Mono Yui.Proofs.C16Mono.
Import ListNotations.

Section MDeg.
  Context {I : Type} (e : exp_ops I) (eZ : I -> Z) (EL : exp_laws e eZ).
  Notation mdeg := (@Mono.mdeg I).
  Notation md_at := (md_at e).
  Notation md_add := (md_add e).
  Notation md_reduce := (md_reduce e).

  Fixpoint sorted_from (lo : nat) (l : mdeg) : Prop :=
    match l with [] => True | p :: t => lo <= fst p /\ sorted_from (S (fst p)) t end.
  Definition Reduced (l : mdeg) : Prop := sorted_from 0 l /\ Forall (fun p => snd p <> ezero e) l.

  Lemma sorted_weaken lo lo' l : lo' <= lo -> sorted_from lo l -> sorted_from lo' l.
  Proof. destruct l as [|p t]; cbn; [auto|]. intros H [H1 H2]. split; [lia|assumption]. Qed.

  Lemma get_below lo (l : mdeg) i : sorted_from lo l -> i < lo -> md_get l i = None.
  Proof.
    revert lo. induction l as [|[j d] t IH]; intros lo; cbn; [auto|]. intros [H1 H2] Hi.
    destruct (Nat.eqb_spec j i); [lia|]. apply (IH (S j)); [assumption|lia].
  Qed.
  Lemma at_below lo (l : mdeg) i : sorted_from lo l -> i < lo -> md_at l i = ezero e.
  Proof. intros H Hi. unfold Mono.md_at. now rewrite (get_below lo). Qed.

  Lemma at_nil i : md_at [] i = ezero e.
  Proof. reflexivity. Qed.
  Lemma at_cons j d (b : mdeg) i : md_at ((j, d) :: b) i = if j =? i then d else md_at b i.
  Proof. unfold Mono.md_at. cbn [md_get]. now destruct (j =? i). Qed.

  Lemma get_set (l : mdeg) i d j : md_get (md_set l i d) j = if i =? j then Some d else md_get l j.
  Proof.
    induction l as [|[k c] t IH]; cbn [md_set md_get].
    - reflexivity.
    - destruct (Nat.compare_spec i k) as [->|Hlt|Hgt]; cbn [md_get].
      + destruct (Nat.eqb_spec k j); reflexivity.
      + reflexivity.
      + rewrite IH. destruct (Nat.eqb_spec k j), (Nat.eqb_spec i j); try reflexivity. lia.
  Qed.
  Lemma at_set (l : mdeg) i d j : md_at (md_set l i d) j = if i =? j then d else md_at l j.
  Proof. unfold Mono.md_at. rewrite get_set. now destruct (i =? j). Qed.

  Lemma sorted_set lo (l : mdeg) i d : sorted_from lo l -> lo <= i -> sorted_from lo (md_set l i d).
  Proof.
    revert lo. induction l as [|[k c] t IH]; intros lo; cbn [md_set sorted_from fst].
    - auto.
    - intros [H1 H2] Hi. destruct (Nat.compare_spec i k) as [->|Hlt|Hgt]; cbn [sorted_from fst].
      + auto.
      + repeat split; try lia. apply (sorted_weaken (S k)); [lia|assumption].
      + split; [assumption|]. apply IH; [assumption|lia].
  Qed.

  Lemma sorted_filter (p : nat * I -> bool) lo l : sorted_from lo l -> sorted_from lo (filter p l).
  Proof.
    revert lo. induction l as [|q t IH]; intros lo; cbn [filter sorted_from]; [auto|]. intros [H1 H2].
    destruct (p q); cbn [sorted_from].
    - split; [assumption|now apply IH].
    - apply (sorted_weaken (S (fst q))); [lia|now apply IH].
  Qed.

  Lemma at_reduce lo (l : mdeg) i : sorted_from lo l -> md_at (md_reduce l) i = md_at l i.
  Proof.
    revert lo. induction l as [|[k c] t IH]; intros lo; [reflexivity|]. cbn [sorted_from fst]. intros [H1 H2].
    unfold Mono.md_reduce. cbn [filter snd]. fold (md_reduce t).
    destruct (eis_zero e c) eqn:Z; cbn [negb]; rewrite !at_cons, (IH _ H2); [|reflexivity].
    apply (eis_zero_iff e eZ EL) in Z. subst c. destruct (Nat.eqb_spec k i) as [->|N]; [|reflexivity].
    apply (at_below (S i)); [assumption|lia].
  Qed.

  Lemma reduce_nonzero (l : mdeg) : Forall (fun p => snd p <> ezero e) (md_reduce l).
  Proof.
    apply Forall_forall. intros p Hp. apply filter_In in Hp as [_ Hp].
    destruct (eis_zero e (snd p)) eqn:Z; [discriminate|]. now apply (eis_zero_false e eZ EL).
  Qed.

  Lemma Reduced_reduce (l : mdeg) : sorted_from 0 l -> Reduced (md_reduce l).
  Proof. intros H. split; [now apply sorted_filter|apply reduce_nonzero]. Qed.

  (* up to its first index a sorted list has one exponent, that of the head *)
  Lemma at_head j d (a : mdeg) i : sorted_from (S j) a -> i <= j ->
    md_at ((j, d) :: a) i = if j =? i then d else ezero e.
  Proof.
    intros Sa Hi. rewrite at_cons. destruct (Nat.eqb_spec j i); [reflexivity|]. apply (at_below (S j)); [assumption|lia].
  Qed.

  (* a reduced value is determined by its exponent function: the heads are the least indices with a
     non-zero exponent, so they agree, and the tails are compared above that index *)
  Lemma mdeg_ext_from lo (a b : mdeg) : sorted_from lo a -> sorted_from lo b ->
    Forall (fun p => snd p <> ezero e) a -> Forall (fun p => snd p <> ezero e) b ->
    (forall i, md_at a i = md_at b i) -> a = b.
  Proof.
    revert lo b. induction a as [|[j d] a IH]; intros lo [|[k c] b] Sa Sb Na Nb E.
    - reflexivity.
    - exfalso. inversion Nb as [|? ? Nc _]; subst. apply Nc. specialize (E k).
      now rewrite at_nil, at_cons, Nat.eqb_refl in E.
    - exfalso. inversion Na as [|? ? Nd _]; subst. apply Nd. specialize (E j).
      now rewrite at_nil, at_cons, Nat.eqb_refl in E.
    - destruct Sa as [Sa1 Sa2], Sb as [Sb1 Sb2].
      inversion Na as [|? ? Nd Na']; inversion Nb as [|? ? Nc Nb']; subst. cbn [fst snd] in *.
      pose proof (E j) as Ej. pose proof (E k) as Ek.
      assert (j = k).
      { destruct (lt_eq_lt_dec j k) as [[Hlt|Heq]|Hgt]; [|assumption|]; exfalso.
        - apply Nd. rewrite !at_head, Nat.eqb_refl in Ej by (assumption || lia).
          destruct (Nat.eqb_spec k j); [lia|assumption].
        - apply Nc. rewrite !at_head, Nat.eqb_refl in Ek by (assumption || lia).
          destruct (Nat.eqb_spec j k); [lia|now symmetry]. }
      subst k. rewrite !at_cons, Nat.eqb_refl in Ej. subst c. f_equal. apply (IH (S j)); try assumption.
      intros i. specialize (E i). rewrite !at_cons in E. destruct (Nat.eqb_spec j i) as [->|N]; [|assumption].
      now rewrite !(at_below (S i)) by (assumption || lia).
  Qed.

  Theorem mdeg_ext (a b : mdeg) : Reduced a -> Reduced b -> (forall i, md_at a i = md_at b i) -> a = b.
  Proof. intros [Sa Na] [Sb Nb]. now apply (mdeg_ext_from 0). Qed.

  Lemma sorted_fold_set (F : mdeg -> nat * I -> I) it l :
    sorted_from 0 l -> sorted_from 0 (fold_left (fun acc p => md_set acc (fst p) (F acc p)) it l).
  Proof. revert l. induction it as [|p it IH]; intros l H; cbn [fold_left]; [assumption|]. apply IH. apply sorted_set; [assumption|lia]. Qed.

  Lemma nonzero_set (l : mdeg) i d : Forall (fun p => snd p <> ezero e) l -> d <> ezero e ->
    Forall (fun p => snd p <> ezero e) (md_set l i d).
  Proof.
    intros H Hd. induction l as [|[k c] t IH]; cbn [md_set].
    - constructor; [assumption|constructor].
    - inversion H; subst. destruct (Nat.compare i k); constructor; auto.
  Qed.

  Theorem Reduced_from_iter it : Reduced (md_from_iter e it).
  Proof.
    unfold md_from_iter. split.
    - apply (sorted_fold_set (fun _ p => snd p)). exact Logic.I.
    - pose proof (reduce_nonzero it) as H. fold (md_reduce it). revert H.
      generalize (md_reduce it). intros l Hl.
      assert (G : forall acc, Forall (fun p => snd p <> ezero e) acc ->
                   Forall (fun p => snd p <> ezero e) (fold_left (fun acc p => md_set acc (fst p) (snd p)) l acc)).
      { induction l as [|p l IH]; intros acc Ha; cbn [fold_left]; [assumption|]. inversion Hl; subst.
        apply IH; [assumption|]. now apply nonzero_set. }
      apply G. constructor.
  Qed.

  Lemma Reduced_nil : Reduced [].
  Proof. split; [exact Logic.I|constructor]. Qed.

  Lemma at_fold_add lo b : sorted_from lo b -> forall acc i,
    md_at (fold_left (fun acc p => md_set acc (fst p) (eadd e (md_at acc (fst p)) (snd p))) b acc) i
    = eadd e (md_at acc i) (md_at b i).
  Proof.
    revert lo. induction b as [|[j d] b IH]; intros lo Sb acc i; cbn [fold_left].
    - rewrite at_nil. now rewrite (eadd_0_r e eZ EL).
    - cbn [sorted_from fst] in Sb. destruct Sb as [Sb1 Sb2]. rewrite (IH _ Sb2). cbn [fst snd].
      rewrite at_set, at_cons.
      destruct (Nat.eqb_spec j i) as [->|N]; [|reflexivity].
      rewrite (at_below (S i) b i) by (assumption || lia). now rewrite (eadd_0_r e eZ EL).
  Qed.

  Theorem at_add a b i : Reduced a -> Reduced b -> md_at (md_add a b) i = eadd e (md_at a i) (md_at b i).
  Proof.
    intros [Sa _] [Sb _]. unfold Mono.md_add.
    rewrite (at_reduce 0) by (apply (sorted_fold_set (fun acc p => eadd e (md_at acc (fst p)) (snd p))); assumption).
    now apply (at_fold_add 0).
  Qed.

  Theorem Reduced_add a b : Reduced a -> Reduced (md_add a b).
  Proof.
    intros [Sa _]. apply Reduced_reduce.
    now apply (sorted_fold_set (fun acc p => eadd e (md_at acc (fst p)) (snd p))).
  Qed.

  Theorem md_add_comm a b : Reduced a -> Reduced b -> md_add a b = md_add b a.
  Proof.
    intros Ha Hb. apply mdeg_ext; try now apply Reduced_add. intros i.
    rewrite !at_add by assumption. apply (eadd_comm e eZ EL).
  Qed.
  Theorem md_add_assoc a b c : Reduced a -> Reduced b -> Reduced c -> md_add a (md_add b c) = md_add (md_add a b) c.
  Proof.
    intros Ha Hb Hc. apply mdeg_ext; try (apply Reduced_add; try assumption; now apply Reduced_add). intros i.
    rewrite !at_add by (try assumption; now apply Reduced_add). apply (eadd_assoc e eZ EL).
  Qed.
  Theorem md_add_0_l a : Reduced a -> md_add [] a = a.
  Proof.
    intros Ha. apply mdeg_ext; [apply Reduced_add, Reduced_nil|assumption|]. intros i.
    rewrite at_add by (assumption || apply Reduced_nil). rewrite at_nil. apply (eadd_0_l e eZ EL).
  Qed.

  Lemma fold_sub_spec lo b : sorted_from lo b -> forall acc r, sorted_from 0 acc ->
    fold_left (fun acc p => obind acc (fun l =>
                 obind (esub e (md_at l (fst p)) (snd p)) (fun v => Some (md_set l (fst p) v)))) b (Some acc) = Some r ->
    sorted_from 0 r /\ forall i, eZ (md_at r i) = (eZ (md_at acc i) - eZ (md_at b i))%Z.
  Proof.
    revert lo. induction b as [|[j d] b IH]; intros lo Sb acc r Sacc; cbn [fold_left].
    - intros [= <-]. split; [assumption|]. intros i. rewrite at_nil, (eZ_0 e eZ EL). lia.
    - cbn [sorted_from fst] in Sb. destruct Sb as [Sb1 Sb2]. cbn [obind fst snd].
      destruct (esub e (md_at acc j) d) as [v|] eqn:Ev; cbn [obind].
      + intros H. apply (IH _ Sb2) in H; [|apply sorted_set; [assumption|lia]]. destruct H as [Sr Hr].
        split; [assumption|]. intros i. rewrite Hr, at_set, at_cons.
        destruct (Nat.eqb_spec j i) as [->|N]; [|reflexivity].
        rewrite (at_below (S i) b i) by (assumption || lia). rewrite (eZ_0 e eZ EL).
        apply (esub_some e eZ EL) in Ev. lia.
      + intros H. exfalso. clear -H. induction b as [|q b IHb]; cbn in H; [discriminate|]. auto.
  Qed.

  Theorem md_sub_sound a b c : Reduced a -> Reduced b -> md_sub e a b = Some c -> Reduced c /\ md_add c b = a.
  Proof.
    intros Ha Hb. unfold md_sub.
    match goal with |- context [fold_left ?f b (Some a)] => destruct (fold_left f b (Some a)) as [r|] eqn:F end;
      cbn [obind]; [|intros; discriminate]. intros [= <-].
    destruct Hb as [Sb Nb]. apply (fold_sub_spec 0 b Sb a r (proj1 Ha)) in F as [Sr Hr].
    assert (Rc : Reduced (md_reduce r)) by now apply Reduced_reduce.
    split; [assumption|]. apply mdeg_ext; [now apply Reduced_add|assumption|]. intros i.
    rewrite at_add by (assumption || now split). rewrite (at_reduce 0) by assumption.
    apply (eZ_inj e eZ EL). rewrite (eZ_add e eZ EL), Hr. lia.
  Qed.

  Fixpoint tsumZ (l : mdeg) : Z := match l with [] => 0%Z | p :: t => (eZ (snd p) + tsumZ t)%Z end.
  Lemma total_fold l acc : eZ (fold_left (fun res p => eadd e res (snd p)) l acc) = (eZ acc + tsumZ l)%Z.
  Proof.
    revert acc. induction l as [|p l IH]; intros acc; cbn [fold_left tsumZ]; [lia|].
    rewrite IH, (eZ_add e eZ EL). lia.
  Qed.
  Lemma total_tsum l : eZ (md_total e l) = tsumZ l.
  Proof. unfold md_total. rewrite total_fold, (eZ_0 e eZ EL). lia. Qed.

  Lemma tsum_set lo (l : mdeg) i d : sorted_from lo l -> (tsumZ (md_set l i d) + eZ (md_at l i) = tsumZ l + eZ d)%Z.
  Proof.
    revert lo. induction l as [|[k c] t IH]; intros lo; cbn [md_set sorted_from fst].
    - intros _. rewrite at_nil. cbn [tsumZ snd]. rewrite (eZ_0 e eZ EL). lia.
    - intros [H1 H2]. rewrite at_cons.
      destruct (Nat.compare_spec i k) as [->|Hlt|Hgt]; cbn [tsumZ snd].
      + rewrite Nat.eqb_refl. lia.
      + destruct (Nat.eqb_spec k i); [lia|]. rewrite (at_below (S k) t i), (eZ_0 e eZ EL) by (assumption || lia). lia.
      + destruct (Nat.eqb_spec k i); [lia|]. specialize (IH _ H2). lia.
  Qed.

  Lemma tsum_reduce l : tsumZ (md_reduce l) = tsumZ l.
  Proof.
    induction l as [|[k c] t IH]; [reflexivity|]. unfold Mono.md_reduce. cbn [filter snd]. fold (md_reduce t).
    destruct (eis_zero e c) eqn:Z; cbn [negb tsumZ snd]; rewrite IH; [|reflexivity].
    apply (eis_zero_iff e eZ EL) in Z. subst c. rewrite (eZ_0 e eZ EL). lia.
  Qed.

  Lemma tsum_fold_add b : forall acc, sorted_from 0 acc ->
    tsumZ (fold_left (fun acc p => md_set acc (fst p) (eadd e (md_at acc (fst p)) (snd p))) b acc) = (tsumZ acc + tsumZ b)%Z.
  Proof.
    induction b as [|[j d] b IH]; intros acc Sacc; cbn [fold_left tsumZ fst snd]; [lia|].
    rewrite IH by (apply sorted_set; [assumption|lia]).
    pose proof (tsum_set 0 acc j (eadd e (md_at acc j) d) Sacc) as H. rewrite (eZ_add e eZ EL) in H. lia.
  Qed.

  Theorem total_add a b : Reduced a -> md_total e (md_add a b) = eadd e (md_total e a) (md_total e b).
  Proof.
    intros [Sa _]. apply (eZ_inj e eZ EL). rewrite (eZ_add e eZ EL), !total_tsum. unfold Mono.md_add.
    rewrite tsum_reduce. now apply tsum_fold_add.
  Qed.

  (* reference: compare the exponent functions at 0, 1, ..., n-1; the first difference decides *)
  Fixpoint lexn (n : nat) (f g : nat -> Z) : comparison :=
    match n with 0 => Eq | S k => then_with (lexn k f g) (Z.compare (f k) (g k)) end.

  Lemma lexn_eq n f g : lexn n f g = Eq <-> forall i, i < n -> f i = g i.
  Proof.
    induction n as [|n IH]; cbn [lexn].
    - split; [intros _ i Hi; lia|reflexivity].
    - rewrite then_with_Eq, IH, Z.compare_eq_iff. split.
      + intros [H1 H2] i Hi. destruct (Nat.eq_dec i n) as [->|N]; [assumption|]. apply H1. lia.
      + intros H. split; [intros i Hi; apply H; lia|apply H; lia].
  Qed.
  Lemma lexn_antisym n f g : lexn n g f = CompOpp (lexn n f g).
  Proof. induction n as [|n IH]; cbn [lexn]; [reflexivity|]. now rewrite then_with_opp, IH, Z.compare_antisym. Qed.
  Lemma lexn_ext n f g f' g' : (forall i, i < n -> f i = f' i) -> (forall i, i < n -> g i = g' i) -> lexn n f g = lexn n f' g'.
  Proof.
    induction n as [|n IH]; intros Hf Hg; cbn [lexn]; [reflexivity|].
    rewrite IH by (intros; (apply Hf || apply Hg); lia). now rewrite Hf, Hg by lia.
  Qed.
  Lemma lexn_trans n f g h : lexn n f g = Lt -> lexn n g h = Lt -> lexn n f h = Lt.
  Proof.
    induction n as [|n IH]; cbn [lexn]; [discriminate|]. rewrite !then_with_Lt.
    intros [H1|[H1 H1']] [H2|[H2 H2']].
    - left. now apply IH.
    - left. rewrite lexn_eq in H2. rewrite <- H1. symmetry. apply lexn_ext; [reflexivity|]. intros; now apply H2.
    - left. rewrite lexn_eq in H1. rewrite <- H2. apply lexn_ext; [|reflexivity]. intros; now apply H1.
    - right. rewrite lexn_eq in *. split; [intros i Hi; rewrite H1, H2 by assumption; reflexivity|].
      rewrite Z.compare_lt_iff in *. lia.
  Qed.
  Lemma lexn_add n f g h : lexn n (fun i => (f i + h i)%Z) (fun i => (g i + h i)%Z) = lexn n f g.
  Proof. induction n as [|n IH]; cbn [lexn]; [reflexivity|]. now rewrite IH, Zadd_compare_mono_r. Qed.
  Lemma lexn_more n k f g : (forall i, n <= i -> f i = g i) -> lexn (n + k) f g = lexn n f g.
  Proof.
    intros H. induction k as [|k IH]; [now rewrite Nat.add_0_r|].
    rewrite Nat.add_succ_r. cbn [lexn]. rewrite IH, (H (n + k)) by lia. rewrite Z.compare_refl. apply then_with_Eq_r.
  Qed.

  Definition stepc (a b : mdeg) (res : comparison) (i : nat) : comparison :=
    then_with res (ecmp e (md_at a i) (md_at b i)).
  Definition fz (a : mdeg) (i : nat) : Z := eZ (md_at a i).

  Lemma fold_stepc_same a b l c : (forall i, In i l -> md_at a i = md_at b i) -> fold_left (stepc a b) l c = c.
  Proof.
    revert c. induction l as [|i l IH]; intros c H; cbn [fold_left]; [reflexivity|].
    rewrite IH by (intros; apply H; now right). unfold stepc. rewrite (H i) by now left.
    rewrite (ecmp_Z e eZ EL), Z.compare_refl. apply then_with_Eq_r.
  Qed.
  Lemma fold_stepc_lexn a b n : fold_left (stepc a b) (seq 0 n) Eq = lexn n (fz a) (fz b).
  Proof.
    induction n as [|n IH]; [reflexivity|]. rewrite seq_S, fold_left_app, IH. cbn [fold_left Nat.add lexn].
    unfold stepc, fz. now rewrite (ecmp_Z e eZ EL).
  Qed.

  Lemma fold_min_max t lo hi :
    let mn := fold_left (fun m (q : nat * I) => Nat.min m (fst q)) t lo in
    let mx := fold_left (fun m (q : nat * I) => Nat.max m (fst q)) t hi in
    mn <= lo /\ hi <= mx /\ forall q, In q t -> mn <= fst q <= mx.
  Proof.
    revert lo hi. induction t as [|p t IH]; intros lo hi; cbn [fold_left]; [split; [lia|split; [lia|intros q []]]|].
    destruct (IH (Nat.min lo (fst p)) (Nat.max hi (fst p))) as (H1 & H2 & H3).
    split; [lia|]. split; [lia|]. intros q [<-|Hq]; [lia|now apply H3].
  Qed.
  Lemma key_bounds (a : mdeg) q : In q a -> odefault 0 (md_min_index a) <= fst q <= odefault 0 (md_max_index a).
  Proof.
    destruct a as [|p t]; [intros []|]. cbn [md_min_index md_max_index odefault].
    destruct (fold_min_max t (fst p) (fst p)) as (H1 & H2 & H3). intros [<-|Hq]; [lia|now apply H3].
  Qed.
  Lemma get_notkey (a : mdeg) i : (forall q, In q a -> fst q <> i) -> md_get a i = None.
  Proof.
    induction a as [|[k c] t IH]; intros H; cbn [md_get]; [reflexivity|].
    destruct (Nat.eqb_spec k i) as [->|N]; [exfalso; apply (H (i, c)); [now left|reflexivity]|].
    apply IH. intros q Hq. apply H. now right.
  Qed.
  Lemma at_outside (a : mdeg) i : i < odefault 0 (md_min_index a) \/ odefault 0 (md_max_index a) < i -> md_at a i = ezero e.
  Proof.
    intros H. unfold Mono.md_at. rewrite get_notkey; [reflexivity|]. intros q Hq. apply key_bounds in Hq. lia.
  Qed.

  Definition mbound (a : mdeg) : nat := S (odefault 0 (md_max_index a)).

  Theorem cmp_lex_lexn a b n : mbound a <= n -> mbound b <= n -> md_cmp_lex e a b = lexn n (fz a) (fz b).
  Proof.
    unfold mbound. intros Ha Hb. unfold md_cmp_lex.
    set (i0 := Nat.min (odefault 0 (md_min_index a)) (odefault 0 (md_min_index b))).
    set (i1 := Nat.max (odefault 0 (md_max_index a)) (odefault 0 (md_max_index b))).
    fold (stepc a b).
    assert (Hi : i0 <= S i1).
    { destruct a as [|p t]; [cbn in i0; lia|]. pose proof (key_bounds (p :: t) p (or_introl eq_refl)). subst i0 i1. lia. }
    rewrite <- fold_stepc_lexn.
    replace n with (i0 + ((S i1 - i0) + (n - S i1))) by lia.
    rewrite !seq_app, !fold_left_app. cbn [Nat.add].
    rewrite (fold_stepc_same a b (seq 0 i0)).
    2:{ intros i Hin. apply in_seq in Hin. rewrite !at_outside; [reflexivity| |]; left; lia. }
    rewrite (fold_stepc_same a b (seq (i0 + (S i1 - i0)) _)); [reflexivity|].
    intros i Hin. apply in_seq in Hin. rewrite !at_outside; [reflexivity| |]; right; lia.
  Qed.

  Lemma fz_beyond a i : mbound a <= i -> fz a i = 0%Z.
  Proof. intros H. unfold fz. rewrite at_outside by (right; unfold mbound in H; lia). apply (eZ_0 e eZ EL). Qed.

  Theorem md_lex_ord : ord_laws Reduced (md_cmp_lex e).
  Proof.
    split; [|split].
    - intros a b Ra Rb. set (n := Nat.max (mbound a) (mbound b)).
      rewrite (cmp_lex_lexn a b n) by lia. rewrite lexn_eq. split.
      + intros H. apply mdeg_ext; try assumption. intros i. apply (eZ_inj e eZ EL).
        destruct (Nat.lt_ge_cases i n) as [Hi|Hi]; [now apply H|].
        change (fz a i = fz b i). rewrite !fz_beyond by lia. reflexivity.
      + intros <- i _. reflexivity.
    - intros a b _ _. set (n := Nat.max (mbound a) (mbound b)).
      rewrite (cmp_lex_lexn a b n), (cmp_lex_lexn b a n) by lia. apply lexn_antisym.
    - intros a b c _ _ _. set (n := Nat.max (mbound a) (Nat.max (mbound b) (mbound c))).
      rewrite (cmp_lex_lexn a b n), (cmp_lex_lexn b c n), (cmp_lex_lexn a c n) by lia. apply lexn_trans.
  Qed.

  Theorem md_lex_add a b c : Reduced a -> Reduced b -> Reduced c ->
    md_cmp_lex e (md_add a c) (md_add b c) = md_cmp_lex e a b.
  Proof.
    intros Ra Rb Rc.
    set (n := Nat.max (Nat.max (mbound a) (mbound b)) (Nat.max (mbound (md_add a c)) (mbound (md_add b c)))).
    rewrite (cmp_lex_lexn a b n), (cmp_lex_lexn (md_add a c) (md_add b c) n) by lia.
    rewrite <- (lexn_add n (fz a) (fz b) (fz c)). apply lexn_ext; intros i _; unfold fz;
      rewrite at_add by assumption; apply (eZ_add e eZ EL).
  Qed.

  Theorem md_grlex_ord : ord_laws Reduced (md_cmp_grlex e).
  Proof.
    apply (ord_graded Reduced (fun _ => True) (md_total e) _ _ (ecmp_ord e eZ EL) md_lex_ord). auto.
  Qed.

  Theorem md_grlex_add a b c : Reduced a -> Reduced b -> Reduced c ->
    md_cmp_grlex e (md_add a c) (md_add b c) = md_cmp_grlex e a b.
  Proof.
    intros Ra Rb Rc. unfold md_cmp_grlex. rewrite md_lex_add by assumption.
    rewrite !total_add by assumption. now rewrite (ecmp_add e eZ EL).
  Qed.

  Lemma md_eqb_eq (a b : mdeg) : md_eqb e a b = true <-> a = b.
  Proof.
    revert b. induction a as [|[i d] a IH]; intros [|[j c] b]; cbn [md_eqb]; try (split; [discriminate|intros [=]]).
    - split; reflexivity.
    - rewrite !andb_true_iff, Nat.eqb_eq, (eeqb_eq e eZ EL), IH. split; [intros [[-> ->] ->]; reflexivity|intros [= -> -> ->]; auto].
  Qed.

  Theorem mvar_laws : mono_laws (mvar_mono e) Reduced.
  Proof.
    constructor; cbn.
    - apply md_eqb_eq.
    - apply Reduced_nil.
    - intros x y Hx _. now apply Reduced_add.
    - apply md_add_comm.
    - apply md_add_assoc.
    - apply md_add_0_l.
    - intros x y z. apply md_sub_sound.
    - apply md_lex_ord.
    - apply md_grlex_ord.
    - apply md_lex_add.
    - apply md_grlex_add.
  Qed.

  (* neg (signed exponents) *)
  Theorem Reduced_neg a : esigned e = true -> Reduced a -> Reduced (md_neg e a) /\ md_add a (md_neg e a) = [].
  Proof.
    intros Sg [Sa Na].
    assert (Sn : forall lo l, sorted_from lo l -> sorted_from lo (md_neg e l)).
    { intros lo l. revert lo. induction l as [|p t IH]; intros lo; cbn; [auto|]. intros [H1 H2]. split; [assumption|now apply IH]. }
    assert (An : forall lo l i, sorted_from lo l -> eZ (md_at (md_neg e l) i) = (- eZ (md_at l i))%Z).
    { intros lo l i. revert lo. induction l as [|[k c] t IH]; intros lo; unfold Mono.md_at; cbn [md_neg map md_get fst snd].
      - intros _. rewrite (eZ_0 e eZ EL). lia.
      - intros [H1 H2]. destruct (k =? i); [now apply (eneg_Z e eZ EL)|]. apply (IH _ H2). }
    assert (Rn : Reduced (md_neg e a)).
    { split; [now apply Sn|]. unfold md_neg. apply Forall_forall. intros q Hq. apply in_map_iff in Hq as [p [<- Hp]].
      cbn [snd]. rewrite Forall_forall in Na. specialize (Na _ Hp). intros E. apply Na. apply (eZ_inj e eZ EL).
      apply (f_equal eZ) in E. rewrite (eneg_Z e eZ EL Sg), (eZ_0 e eZ EL) in *. lia. }
    split; [assumption|]. apply mdeg_ext; [now apply Reduced_add|apply Reduced_nil|]. intros i.
    rewrite at_add by (assumption || now split). apply (eZ_inj e eZ EL). rewrite (eZ_add e eZ EL), (An 0) by assumption.
    rewrite at_nil, (eZ_0 e eZ EL). lia.
  Qed.
End MDeg.
