(* C18 - Link diagrams: components, signs, resolutions and braid closures are correct.
   Each theorem is proved by [exact <lemma>] or a short combination of proved lemmas and is followed by
   Print Assumptions; the Examples at the end instantiate the hypotheses on concrete values (non-vacuity).

   Model: Model/Link.v (mirror of yui-link/src/link/{link.rs,crossing.rs,path.rs}), Model/Braid.v
   (Braid::closure).  A panic is [None]; the only unbounded loop (traverse_edges) runs on fuel 4n+1.
   [Valid l] : every edge label occurs exactly twice among the 4n slots (all four crossing types allowed,
   so kinks with repeated labels, split / multi-component diagrams, components that only pass over and
   partially or fully resolved diagrams are all covered).
   [InR l p] : p = (i, j) is a half-edge of l (i < n, j < 4).  [sigma l] : the successor half-edge (leave
   the crossing through the slot [pass] gives, follow the edge to its other end); [sig l k] its k-th
   iterate; [orbit_list l p m] = [p; sigma p; ..; sigma^(m-1) p].
   [thru l e e'] : e and e' are the labels at the two ends of a strand passing through one crossing;
   [conn l] its reflexive-transitive closure (it is symmetric) - the strand-through-crossing relation,
   which for a fully resolved diagram is the edge identification relation of the smoothing.

   PROVED for all inputs: traversal (permutation, fuel, one orbit), components (all circles, partition
   of the labels, = classes of conn, count = number of classes), resolutions (labels and validity kept,
   the number of unresolved crossings drops by |s|, panic iff the state is too long, a full state is
   crossingless with circle count = number of classes), signs negated by mirror and invariant under
   injective relabelling (for every code, valid or not).
   Orientation clause (C18_signs_orientation, C18_signs_orientation_unique): for every valid code with unresolved crossings (X / Xm) that
   admits a consistent orientation o ([Oriented l o]: head/tail assignment to the half-edges compatible
   with the passage through crossings, with the two ends of every edge, and with the under-strand
   direction 0 -> 2 of every crossing - planarity is not modelled, so this is a hypothesis; braid closures
   satisfy it, C18_closure_oriented), crossing_signs returns exactly the signs of such an orientation o',
   equal to o on every component that passes under somewhere; if every component passes under somewhere
   (e.g. every knot diagram) the signs are those of o itself and a reordering of the crossings permutes
   the sign list, hence writhe and signed crossing numbers do not change (C18_signs_reorder).
   Braid closures, for EVERY word whose closure is defined (no letter 0, letters within the strands, no
   free loop): valid code, one X crossing per letter, consistently oriented downwards, sign list = the
   letters' signs up to reversal of components that never pass under (C18_closure_signs), writhe =
   exponent sum (C18_closure_writhe: the reversals cancel, by a potential-function argument on the
   positions occupied by the reversed strands), number of components = number of cycles of the braid
   permutation (C18_closure_components).
   NOT a theorem (impossible without planarity, which the model - like the code - does not capture):
   invariance of the writhe under crossing reordering for a code with a component that only passes over;
   C18_reorder_needs_planarity exhibits a valid non-planar code (its component 3,4,5 only passes over) whose
   writhe changes from +1 to -1 when two crossings are exchanged; the theorem states validity, the permutation
   and the two writhes.  For genuine (planar) diagrams this clause
   is covered by the invariance cases of the correspondence run (vlib/c18.py).
   Braid group operations (Model/BraidOps.v): inv is the reversed word with inverted letters, an involutive
   anti-homomorphism negating the exponent sum; w * w^-1 and w^-1 * w have the identity permutation. *)
From Coq Require Import List Arith Bool ZArith Lia.
Require Import Yui.Model.Link Yui.Model.Braid.
From Coq Require Import Permutation.
Require Import Yui.Proofs.C18Base Yui.Proofs.C18Traverse Yui.Proofs.C18Components Yui.Proofs.C18Resolve
  Yui.Proofs.C18Signs Yui.Proofs.C18Closure Yui.Proofs.C18Main.
Require Import Yui.Proofs.C18Orient Yui.Proofs.C18OrientReorder Yui.Proofs.C18BraidRows
  Yui.Proofs.C18BraidOrient Yui.Proofs.C18BraidWrithe Yui.Proofs.C18BraidPerm Yui.Proofs.C18BraidCycles.
Import ListNotations.

Theorem C18_valid_bool : forall l, valid l = true <-> Valid l.
Proof. exact valid_spec. Qed.
Print Assumptions C18_valid_bool.

(* the successor map of a valid code is a permutation of the 4n half-edges *)
Theorem C18_successor_total : forall l, Valid l -> forall p, InR l p ->
  succ l p = Some (sigma l p) /\ InR l (sigma l p).
Proof. intros l Hv p Hp. split; [exact (succ_sigma l Hv p Hp) | exact (sigma_InR l Hv p Hp)]. Qed.
Print Assumptions C18_successor_total.

Theorem C18_successor_injective : forall l, Valid l -> forall p q, InR l p -> InR l q ->
  sigma l p = sigma l q -> p = q.
Proof. exact sigma_inj. Qed.
Print Assumptions C18_successor_injective.

(* traverse_edges: fuel 4n+1 suffices, the traversal lists one orbit and then the start again *)
Theorem C18_traverse : forall l, Valid l -> forall start, InR l start ->
  exists m, 1 <= m /\ m <= 4 * length l /\ sig l m start = start /\ NoDup (orbit_list l start m) /\
            traverse_edges l start = Some (orbit_list l start m ++ [start]).
Proof. exact traverse_valid. Qed.
Print Assumptions C18_traverse.

(* an edge is never traversed in both directions by one orbit *)
Theorem C18_traverse_one_direction : forall l, Valid l -> forall d q, InR l q -> tau l q <> sig l d q.
Proof. intros l Hv d q Hq. exact (proj1 (tau_not_on_orbit l Hv d) q Hq). Qed.
Print Assumptions C18_traverse_one_direction.

(* components: all circles; they partition the labels; each is one class of conn *)
Theorem C18_components : forall l, Valid l ->
  exists cs, components l = Some cs /\
    Forall (fun c => pclosed c = true /\ pedges c <> [] /\ exists p m, is_orbit_comp l c p m) cs /\
    NoDup (concat (map pedges cs)) /\
    (forall e, In e (concat (map pedges cs)) <-> In e (edge_labels l)) /\
    (forall c, In c cs -> forall e, In e (pedges c) -> forall e', In e' (pedges c) <-> conn l e e').
Proof. exact components_valid. Qed.
Print Assumptions C18_components.

(* the number of components is the number of classes (for every system of representatives) *)
Theorem C18_components_count : forall l, Valid l -> forall cs, components l = Some cs ->
  forall reps, reps_of l reps -> length cs = length reps.
Proof. exact components_count. Qed.
Print Assumptions C18_components_count.

Theorem C18_resolved_by : forall s l,
  (length s <= crossing_num l ->
     exists l', resolved_by l s = Some l' /\ edge_labels l' = edge_labels l /\ length l' = length l /\
                crossing_num l' = crossing_num l - length s) /\
  (crossing_num l < length s -> resolved_by l s = None).
Proof. exact resolved_by_spec. Qed.
Print Assumptions C18_resolved_by.

Theorem C18_resolution_circles : forall l s, Valid l -> length s = crossing_num l ->
  exists l' cs, resolved_by l s = Some l' /\ crossing_num l' = 0 /\ edge_labels l' = edge_labels l /\
    Valid l' /\ components l' = Some cs /\
    Forall (fun c => pclosed c = true /\ pedges c <> []) cs /\
    NoDup (concat (map pedges cs)) /\
    (forall e, In e (concat (map pedges cs)) <-> In e (edge_labels l)) /\
    (forall c, In c cs -> forall e, In e (pedges c) -> forall e', In e' (pedges c) <-> conn l' e e') /\
    (forall reps, reps_of l' reps -> length cs = length reps).
Proof. exact resolution_circles. Qed.
Print Assumptions C18_resolution_circles.

Theorem C18_signs_mirror : forall l,
  crossing_signs (mirror l) = option_map (map neg_sign) (crossing_signs l) /\
  signed_crossing_nums (mirror l) = option_map (fun pn => (snd pn, fst pn)) (signed_crossing_nums l) /\
  writhe (mirror l) = option_map Z.opp (writhe l).
Proof. intros l. exact (conj (crossing_signs_mirror l) (conj (signed_nums_mirror l) (writhe_mirror l))). Qed.
Print Assumptions C18_signs_mirror.

Theorem C18_signs_relabel : forall rho l, inj_on rho (edge_labels l) ->
  crossing_signs (relabel rho l) = crossing_signs l /\
  signed_crossing_nums (relabel rho l) = signed_crossing_nums l /\ writhe (relabel rho l) = writhe l.
Proof.
  intros rho l H. exact (conj (crossing_signs_relabel rho l H) (writhe_relabel rho l H)).
Qed.
Print Assumptions C18_signs_relabel.

Theorem C18_components_relabel : forall rho l, inj_on rho (edge_labels l) ->
  components (relabel rho l) = option_map (map (relabel_path rho)) (components l).
Proof. exact components_relabel. Qed.
Print Assumptions C18_components_relabel.

Theorem C18_writhe_is_sum : forall l,
  writhe l = option_map (fun sg => (Z.of_nat (count_pos sg) - Z.of_nat (count_neg sg))%Z) (crossing_signs l) /\
  (forall sg, crossing_signs l = Some sg -> length sg = crossing_num l /\
     signed_crossing_nums l = Some (count_pos sg, count_neg sg) /\ count_pos sg + count_neg sg = crossing_num l).
Proof. exact writhe_def. Qed.
Print Assumptions C18_writhe_is_sum.

Theorem C18_closure : forall strands w l, closure strands w = Some l ->
  Valid l /\ length l = length w /\ crossing_num l = length w /\ Forall (fun c => ct c = X) l.
Proof. exact closure_valid. Qed.
Print Assumptions C18_closure.

(* a closure is consistently oriented by "all strands run downwards"; the sign of crossing k for this
   orientation is the sign of letter k *)
Theorem C18_closure_oriented : forall strands w l, closure strands w = Some l ->
  Unresolved l /\ Oriented l (braid_o w) /\ signs_of l (braid_o w) = map letter_sign w.
Proof. exact closure_oriented_full. Qed.
Print Assumptions C18_closure_oriented.

(* the sign list: the letters' signs, the crossings whose over-strand lies on a reversed component (rev;
   such a component never passes under) carrying the opposite sign *)
Theorem C18_closure_signs : forall strands w l, closure strands w = Some l ->
  exists rev : nat -> bool,
    (forall e e', thru l e e' -> rev e = rev e') /\
    (forall k, k < length w -> rev (edge_at l (k, 0)) = false) /\
    crossing_signs l =
      Some (map (fun k => if rev (edge_at l (k, 1)) then neg_sign (letter_sign (nth k w 0%Z))
                          else letter_sign (nth k w 0%Z)) (seq 0 (length w))).
Proof. exact closure_signs. Qed.
Print Assumptions C18_closure_signs.

Theorem C18_closure_signs_letters : forall strands w l, closure strands w = Some l ->
  (forall k, k < length w -> exists k', k' < length w /\ conn l (edge_at l (k, 1)) (edge_at l (k', 0))) ->
  crossing_signs l = Some (map letter_sign w).
Proof. exact closure_signs_letters. Qed.
Print Assumptions C18_closure_signs_letters.

(* writhe = exponent sum, for every word whose closure is defined *)
Theorem C18_closure_writhe : forall strands w l, closure strands w = Some l ->
  writhe l = Some (exponent_sum w).
Proof. exact closure_writhe. Qed.
Print Assumptions C18_closure_writhe.

(* number of components = number of cycles of the braid permutation *)
Theorem C18_closure_components : forall strands w l, closure strands w = Some l ->
  exists cs, components l = Some cs /\ length cs = count_cycles (braid_perm strands w).
Proof. exact closure_components. Qed.
Print Assumptions C18_closure_components.

Theorem C18_signs_orientation : forall l o, Valid l -> Unresolved l -> Oriented l o ->
  exists o', Oriented l o' /\
    (forall p, InR l p -> (exists i, i < length l /\ conn l (edge_at l p) (edge_at l (i, 0))) -> o' p = o p) /\
    crossing_signs l = Some (signs_of l o').
Proof. exact signs_orientation_agree. Qed.
Print Assumptions C18_signs_orientation.

Theorem C18_signs_orientation_unique : forall l o, Valid l -> Unresolved l -> Oriented l o -> NoOnlyOver l ->
  crossing_signs l = Some (signs_of l o).
Proof. exact signs_orientation_unique. Qed.
Print Assumptions C18_signs_orientation_unique.

Theorem C18_knot_no_only_over : forall l c, Valid l -> components l = Some [c] -> 0 < length l -> NoOnlyOver l.
Proof. exact knot_NoOnlyOver. Qed.
Print Assumptions C18_knot_no_only_over.

(* reordering the crossings *)
Theorem C18_signs_reorder : forall l l' o, Valid l -> Unresolved l -> Oriented l o -> NoOnlyOver l ->
  Permutation l l' ->
  exists sg sg', crossing_signs l = Some sg /\ crossing_signs l' = Some sg' /\ Permutation sg sg' /\
    signed_crossing_nums l' = signed_crossing_nums l /\ writhe l' = writhe l.
Proof. exact signs_reorder. Qed.
Print Assumptions C18_signs_reorder.

(* a valid code whose writhe changes under a transposition of two crossings (component 3,4,5 only passes over) *)
Theorem C18_reorder_needs_planarity :
  valid reorder_witness = true /\ Permutation reorder_witness reorder_witness' /\
  writhe reorder_witness = Some 1%Z /\ writhe reorder_witness' = Some (-1)%Z.
Proof. exact reorder_witness_values. Qed.
Print Assumptions C18_reorder_needs_planarity.

Definition ex_trefoil : link := link_of_code [(1,4,2,5); (3,6,4,1); (5,2,6,3)].
Definition ex_kink : link := link_of_code [(0,0,1,1)].
Definition ex_over : link := link_of_code [(0,2,0,3); (1,3,1,2)].   (* a component that only passes over *)
Example C18_valid_examples : Valid ex_trefoil /\ Valid ex_kink /\ Valid ex_over /\ InR ex_trefoil (2, 3).
Proof.
  repeat split; try (apply valid_spec; vm_compute; reflexivity); cbn; repeat constructor.
Qed.
Example C18_trefoil_values :
  components ex_trefoil = Some [mkP [1; 2; 3; 4; 5; 6] true] /\ writhe ex_trefoil = Some (-3)%Z /\
  option_map (@length path) (match resolved_by ex_trefoil [true; true; true] with Some r => components r | None => None end) = Some 2.
Proof. vm_compute. auto. Qed.
Example C18_closure_examples :
  closure 2 [1; 1; 1]%Z = Some (link_of_code [(0,2,3,1); (2,4,5,3); (4,0,1,5)]) /\
  closure 3 [1; 1]%Z = None /\ closure 2 [2]%Z = None /\ closure 2 [0]%Z = None.
Proof. vm_compute. auto. Qed.

(* the hypotheses of the orientation / reordering theorems are satisfiable: the trefoil as closure of
   sigma_1^3; a closure with a strand that only passes over: the sign list is NOT the letters' signs,
   the writhe is still the exponent sum *)
Definition ex_braid_trefoil : link := link_of_code [(0,2,3,1); (2,4,5,3); (4,0,1,5)].
Example C18_orientation_nonvacuous :
  Valid ex_braid_trefoil /\ Unresolved ex_braid_trefoil /\ Oriented ex_braid_trefoil (braid_o [1; 1; 1]%Z) /\
  NoOnlyOver ex_braid_trefoil /\ crossing_signs ex_braid_trefoil = Some [Pos; Pos; Pos].
Proof.
  assert (H : closure 2 [1; 1; 1]%Z = Some ex_braid_trefoil) by (vm_compute; reflexivity).
  destruct (C18_closure 2 _ _ H) as (Hv & _). destruct (C18_closure_oriented 2 _ _ H) as (Hu & Ho & _).
  split; auto. split; auto. split; auto. split; [|vm_compute; reflexivity].
  apply (knot_NoOnlyOver _ (mkP [0; 3; 4; 1; 2; 5] true)); [exact Hv|vm_compute; reflexivity|cbn; lia].
Qed.
Example C18_only_over_closure :
  exists l, closure 2 [1; -1]%Z = Some l /\ crossing_signs l = Some [Neg; Pos] /\
            map letter_sign [1; -1]%Z = [Pos; Neg] /\ writhe l = Some (exponent_sum [1; -1]%Z).
Proof. eexists. split; [vm_compute; reflexivity|]. vm_compute. auto. Qed.

(* braid group operations beside closure (Braid::inv, MulAssign; Model/BraidOps.v) *)
Require Import Yui.Model.BraidOps Yui.Proofs.C18BraidRows Yui.Proofs.C18BraidGroup.

Theorem C18_braid_inv_word : forall w, braid_inv w = map (fun s => (- s)%Z) (rev w).
Proof. intros w. reflexivity. Qed.
Print Assumptions C18_braid_inv_word.

Theorem C18_braid_inv_laws : forall u v,
  braid_inv (braid_inv u) = u /\ braid_inv (u ++ v) = braid_inv v ++ braid_inv u /\
  length (braid_inv u) = length u /\ exponent_sum (braid_inv u) = (- exponent_sum u)%Z /\
  exponent_sum (u ++ v) = (exponent_sum u + exponent_sum v)%Z.
Proof.
  intros u v. split; [exact (braid_inv_involutive u)|]. split; [exact (braid_inv_app u v)|].
  split; [exact (braid_inv_length u)|]. split; [exact (exponent_sum_inv u)|exact (exponent_sum_app u v)].
Qed.
Print Assumptions C18_braid_inv_laws.

(* the product with the inverse has the identity permutation and exponent sum 0, so its closure, where it is
   defined, has writhe 0 (C18_closure_writhe) and as many components as the identity permutation has cycles
   (C18_closure_components) *)
Theorem C18_braid_inverse_perm : forall n w, Forall (fun s => S (idx s) < n) w ->
  braid_perm n (w ++ braid_inv w) = seq 0 n /\ braid_perm n (braid_inv w ++ w) = seq 0 n /\
  exponent_sum (w ++ braid_inv w) = 0%Z.
Proof.
  intros n w H. split; [exact (braid_perm_mul_inv n w H)|]. split; [exact (braid_perm_inv_mul n w H)|].
  rewrite exponent_sum_app, exponent_sum_inv. apply Z.add_opp_diag_r.
Qed.
Print Assumptions C18_braid_inverse_perm.

Theorem C18_braid_mul : forall s1 w1 s2 w2,
  braid_mul s1 w1 s2 w2 = (if (s1 =? s2)%nat then Some (s1, w1 ++ w2) else None).
Proof. exact braid_mul_spec. Qed.
Print Assumptions C18_braid_mul.

Example C18_braid_inv_example : braid_inv [1; -2; 3]%Z = [-3; 2; -1]%Z /\
  braid_perm 4 ([1; -2; 3] ++ braid_inv [1; -2; 3])%Z = [0; 1; 2; 3].
Proof. split; reflexivity. Qed.
