(* C15 - Euclidean-domain operations: exact division, gcd, Bezout, units, rounding.
   Each theorem is proved by [exact <lemma>] and is followed by Print Assumptions; the Examples at the end
   instantiate the hypotheses on concrete values (non-vacuity).

   Model: Model/Euclid.v (mirror of yui/src/abst/euc_ring.rs, abst/ring.rs, misc/int_ext.rs, types/qint.rs,
   types/ratio.rs, types/ff.rs as they are in /repo now, i.e. after the fixes dfe26dc (exact div_round) and
   7ae8b6a (normalised gcd/gcdx)), Model/EuclidPoly.v (poly.rs, h_poly.rs).  Ring elements are unbounded
   integers Z (BigInt is the exact instance; i32/i64/i128 are the width-checked mirrors [w_div], [w_gcd], ...); a Rust panic
   (division by zero, overflow, assert!) is [None]; the Euclid loops run on explicit fuel.

   A Euclidean type is an [euc_dict R]: ring operations, the partial operators [d_div] = `/`, [d_rem] = `%`,
   [d_is_unit], [d_inv], [d_nunit] = normalizing_unit.  The generic code of euc_ring.rs / ring.rs is
   [divides], [gcd], [gcdx], [lcm], [normalized] (Model/Euclid.v, section Generic).
   [euc_dict_laws D Phi] (Proofs/C15Gcd.v): D is a commutative integral domain with the unit laws of
   Base/Ring.v and division with remainder  a = q b + r  with  2 Phi(r) <= Phi(b)  for a potential
   Phi >= 0 that vanishes only at 0 and is monotone under multiplication; instances proved here:
   Z[i] (Phi = norm), Z[omega] (Phi = norm^3), every field (Phi = 0/1).
   [dvd D a b] := exists c, b = c * a;   [assoc D a b] := exists v, unit v /\ b = a * v;
   [good_fuel Phi fuel y] := fuel = S f with Phi y < 2^f  (every fuel >= fuel_of (Phi y) is good).

   Polynomials: K[x] = Poly<_, K> is the set of normal-form coefficient lists ([p_norm F f = f]) over any
   field dictionary [field_dict o inv] with [field_laws]; the dictionary [NPD] on the subset type of normal forms
   satisfies [euc_dict_laws] and projects onto [poly_dict] by a morphism of dictionaries ([dict_morph],
   Proofs/C15PolyRing.v, C15_laws_poly), along which the generic theorems are transported to
   the model's functions on plain lists (theorems C15_poly_...).  HPoly over any field is treated directly (theorems C15_hpoly_...).

   What is NOT a theorem here (exact correspondence only, see MANIFEST): the instance Q = Ratio<_> beyond
   "an abstract field" - its ring operations on canonical pairs are modelled by their results, and that they
   satisfy [field_laws] is property C14's subject (C14_ratio_exact), not proved in this development's terms. *)
From Coq Require Import ZArith List Bool Znumtheory.
Require Import Yui.Base.Ring Yui.Model.Euclid Yui.Model.EuclidPoly.
Require Import Yui.Proofs.C15Gcd Yui.Proofs.C15Int Yui.Proofs.C15Quad Yui.Proofs.C15Field Yui.Proofs.C15Machine.
Require Import Yui.Proofs.C15Main Yui.Proofs.C15HPoly Yui.Proofs.C15Poly Yui.Proofs.C15PolyRing.
Import ListNotations.
Local Open Scope Z_scope.

(* for ALL integers a, b <> 0 of any size: the returned q is an integer nearest to a/b, ties go away
   from zero, and q is the only integer with these two properties *)
Theorem C15_div_round : forall a b : Z, b <> 0 ->
  exists q, int_div_round a b = Some q /\
    2 * Z.abs (a - q * b) <= Z.abs b /\
    (2 * Z.abs (a - q * b) = Z.abs b -> Z.abs a < Z.abs (q * b)) /\
    (forall q', 2 * Z.abs (a - q' * b) <= Z.abs b ->
                (2 * Z.abs (a - q' * b) = Z.abs b -> Z.abs a < Z.abs (q' * b)) -> q' = q).
Proof. exact div_round_main. Qed.
Print Assumptions C15_div_round.

Theorem C15_div_by_zero : forall a : Z,
  int_div a 0 = None /\ int_rem a 0 = None /\ int_div_round a 0 = None.
Proof. exact int_division_by_zero. Qed.
Print Assumptions C15_div_by_zero.

(* machine widths (k = 32, 64, 128): BigInt is the unbounded function; at a finite width a returned value
   is the unbounded result and is representable (no silent wrap), and the call does not panic unless the
   quotient itself is unrepresentable (MIN / -1) - in particular no intermediate value overflows *)
Theorem C15_div_round_machine : forall k a b : Z,
  w_div_round None a b = int_div_round a b /\
  (forall v, w_div_round (Some k) a b = Some v -> int_div_round a b = Some v /\ - 2 ^ (k - 1) <= v < 2 ^ (k - 1)) /\
  (1 < k -> fits k a = true -> fits k b = true -> b <> 0 -> ~ (a = - 2 ^ (k - 1) /\ b = -1) ->
     exists q, w_div_round (Some k) a b = Some q).
Proof. exact machine_div_round. Qed.
Print Assumptions C15_div_round_machine.

(* Z: truncated division *)
Theorem C15_division_Z : forall a b : Z, b <> 0 ->
  exists q r, int_div a b = Some q /\ int_rem a b = Some r /\
    a = q * b + r /\ Z.abs r < Z.abs b /\ (0 <= a -> 0 <= r) /\ (a <= 0 -> r <= 0).
Proof. exact int_division. Qed.
Print Assumptions C15_division_Z.

(* Z[i]: a = q b + r with N(r) <= N(b)/2, in particular r = 0 or N(r) < N(b) *)
Theorem C15_division_gauss : forall u v : qint, v <> q_zero ->
  exists q r, g_div u v = Some q /\ g_rem u v = Some r /\ u = q_add (g_mul q v) r /\
              2 * g_norm r <= g_norm v /\ (r = q_zero \/ g_norm r < g_norm v).
Proof. exact gauss_division. Qed.
Print Assumptions C15_division_gauss.

(* Z[omega]: N(r) <= 3 N(b) / 4 *)
Theorem C15_division_eisen : forall u v : qint, v <> q_zero ->
  exists q r, e_div u v = Some q /\ e_rem u v = Some r /\ u = q_add (e_mul q v) r /\
              4 * e_norm r <= 3 * e_norm v /\ (r = q_zero \/ e_norm r < e_norm v).
Proof. exact eisen_division. Qed.
Print Assumptions C15_division_eisen.

(* exact multiples are divided exactly; division by zero panics *)
Theorem C15_division_quad_exact : forall c v : qint, v <> q_zero ->
  (g_div (g_mul c v) v = Some c /\ g_rem (g_mul c v) v = Some q_zero) /\
  (e_div (e_mul c v) v = Some c /\ e_rem (e_mul c v) v = Some q_zero).
Proof.
  exact (fun c v H => conj (div_of_multiple gauss_dict g_norm gauss_laws c v H)
                           (div_of_multiple eisen_dict e_phi eisen_laws c v H)).
Qed.
Print Assumptions C15_division_quad_exact.

Theorem C15_division_quad_by_zero : forall u : qint,
  (g_div u q_zero = None /\ g_rem u q_zero = None) /\ (e_div u q_zero = None /\ e_rem u q_zero = None).
Proof. exact (fun u => conj (g_div_zero u) (e_div_zero u)). Qed.
Print Assumptions C15_division_quad_by_zero.

(* every field: a = (a/b) b and a % b = 0 *)
Theorem C15_division_field : forall (K : Type) (o : ring_ops K) (inv : K -> option K), field_laws o inv ->
  forall a b : K, b <> rzero o ->
  exists q, f_div o inv a b = Some q /\ f_rem o a b = Some (rzero o) /\
            a = radd o (rmul o q b) (rzero o) /\ a = rmul o q b.
Proof. exact @field_div_rem. Qed.
Print Assumptions C15_division_field.

(* F_p of the model (representatives 0 <= a < p inside Z), p prime *)
Theorem C15_division_Fp : forall p : Z, prime p -> forall a b : Z, ff_rep p a -> ff_rep p b -> b <> 0 ->
  exists q, d_div (ff_dict p) a b = Some q /\ d_rem (ff_dict p) a b = Some 0 /\ ff_rep p q /\
            a = ff_add p (ff_mul p q b) 0.
Proof. exact ff_division. Qed.
Print Assumptions C15_division_Fp.

Theorem C15_laws_gauss : euc_dict_laws gauss_dict g_norm.
Proof. exact gauss_laws. Qed.
Print Assumptions C15_laws_gauss.

Theorem C15_laws_eisen : euc_dict_laws eisen_dict (fun u => e_norm u ^ 3).
Proof. exact eisen_laws. Qed.
Print Assumptions C15_laws_eisen.

Theorem C15_laws_field : forall (K : Type) (o : ring_ops K) (inv : K -> option K), field_laws o inv ->
  euc_dict_laws (field_dict o inv) (field_phi o).
Proof. exact @field_euc_laws. Qed.
Print Assumptions C15_laws_field.

(* the field dictionaries of the model have exactly this shape (Q on canonical pairs) *)
Theorem C15_field_dicts :
  (forall p, ff_dict p = field_dict (ff_ring p) (ff_inv p)) /\
  d_ring ratio_dict = ratio_ring /\ d_div ratio_dict = f_div ratio_ring r_inv /\
  d_rem ratio_dict = f_rem ratio_ring /\ d_is_unit ratio_dict = f_is_unit ratio_ring /\ d_inv ratio_dict = r_inv /\
  forall x : ratio, (fst x = 0 -> snd x = 1) -> d_nunit ratio_dict x = field_nunit ratio_ring r_inv x.
Proof. exact (conj ff_dict_shape ratio_dict_shape). Qed.
Print Assumptions C15_field_dicts.

(* for every Euclidean type with laws and all x, y: with any good fuel the generic gcd / gcdx of
   euc_ring.rs terminate (never [None]); d divides both, every common divisor divides d,
   s x + t y = d for the returned s, t; d is normalised (normalizing_unit d = 1); d = 0 iff x = y = 0;
   and gcd y x returns the same d *)
Theorem C15_gcd : forall (R : Type) (D : euc_dict R) (Phi : R -> Z), euc_dict_laws D Phi ->
  forall (fuel fuel' : nat) (x y : R), good_fuel Phi fuel y -> good_fuel Phi fuel' x ->
  exists d s t,
    gcd D fuel x y = Some d /\ gcdx D fuel x y = Some (d, s, t) /\
    dvd D d x /\ dvd D d y /\ (forall c, dvd D c x -> dvd D c y -> dvd D c d) /\
    radd (d_ring D) (rmul (d_ring D) s x) (rmul (d_ring D) t y) = d /\
    d_nunit D d = rone (d_ring D) /\
    (d = rzero (d_ring D) <-> x = rzero (d_ring D) /\ y = rzero (d_ring D)) /\
    gcd D fuel' y x = Some d.
Proof. exact @gcd_main. Qed.
Print Assumptions C15_gcd.

(* the fuel the model computes, and every larger one, is good *)
Theorem C15_gcd_fuel : forall (R : Type) (D : euc_dict R) (Phi : R -> Z), euc_dict_laws D Phi ->
  forall y : R, good_fuel Phi (fuel_of (Phi y)) y /\
                forall fuel, (fuel_of (Phi y) <= fuel)%nat -> good_fuel Phi fuel y.
Proof. exact @fuel_main. Qed.
Print Assumptions C15_gcd_fuel.

(* spelled out for Z[i] and Z[omega] with the model's own entry points (fuel included) *)
Theorem C15_gcd_gauss : forall x y : qint,
  exists d s t,
    g_gcd x y = Some d /\ g_gcdx x y = Some (d, s, t) /\
    (exists c, x = g_mul c d) /\ (exists c, y = g_mul c d) /\
    (forall c, (exists c', x = g_mul c' c) -> (exists c', y = g_mul c' c) -> exists c', d = g_mul c' c) /\
    q_add (g_mul s x) (g_mul t y) = d /\
    g_nunit d = q_one /\ (d = q_zero <-> x = q_zero /\ y = q_zero) /\
    g_gcd y x = Some d.
Proof.
  exact (fun x y => gcd_main gauss_dict g_norm gauss_laws (g_fuel y) (g_fuel x) x y
                      (good_fuel_of _ _ gauss_laws y) (good_fuel_of _ _ gauss_laws x)).
Qed.
Print Assumptions C15_gcd_gauss.

Theorem C15_gcd_eisen : forall x y : qint,
  exists d s t,
    e_gcd x y = Some d /\ e_gcdx x y = Some (d, s, t) /\
    (exists c, x = e_mul c d) /\ (exists c, y = e_mul c d) /\
    (forall c, (exists c', x = e_mul c' c) -> (exists c', y = e_mul c' c) -> exists c', d = e_mul c' c) /\
    q_add (e_mul s x) (e_mul t y) = d /\
    e_nunit d = q_one /\ (d = q_zero <-> x = q_zero /\ y = q_zero) /\
    e_gcd y x = Some d.
Proof.
  exact (fun x y => gcd_main eisen_dict e_phi eisen_laws (e_fuel y) (e_fuel x) x y
                      (good_fuel_of _ _ eisen_laws y) (good_fuel_of _ _ eisen_laws x)).
Qed.
Print Assumptions C15_gcd_eisen.

(* normalised = first quadrant (Z[i]) / first sextant (Z[omega]), the half-line b = 0 included *)
Theorem C15_normal_form_quad : forall a b : Z,
  (g_nunit (a, b) = q_one <-> (a = 0 /\ b = 0) \/ (0 < a /\ 0 <= b)) /\
  (e_nunit (a, b) = q_one <-> (a = 0 /\ b = 0) \/ (0 < a /\ 0 <= b)).
Proof. exact (fun a b => conj (gauss_normal_form a b) (eisen_normal_form a b)). Qed.
Print Assumptions C15_normal_form_quad.

(* integers: EucRing for i32/i64/i128/BigInt overrides gcd, gcdx, lcm with num-integer's functions; gcd and
   lcm are modelled by their results (Z.gcd, Z.lcm), extended_gcd is mirrored as its loop: it terminates on
   the computed fuel and returns the non-negative gcd with Bezout coefficients *)
Theorem C15_gcd_int : forall a b : Z,
  exists s t,
    int_gcdx a b = Some (int_gcd a b, s, t) /\
    (int_gcd a b | a) /\ (int_gcd a b | b) /\ (forall c, (c | a) -> (c | b) -> (c | int_gcd a b)) /\
    s * a + t * b = int_gcd a b /\
    0 <= int_gcd a b /\ int_nunit (int_gcd a b) = 1 /\
    (int_gcd a b = 0 <-> a = 0 /\ b = 0) /\
    int_gcd b a = int_gcd a b /\
    int_lcm a b * int_gcd a b = Z.abs (a * b) /\ 0 <= int_lcm a b.
Proof. exact int_gcd_main. Qed.
Print Assumptions C15_gcd_int.

(* F_p: gcd = 1 unless both arguments vanish, for every fuel; Bezout *)
Theorem C15_gcd_Fp : forall p : Z, prime p -> forall (fuel : nat) (a b : Z), ff_rep p a -> ff_rep p b ->
  exists d s t, gcdx (ff_dict p) fuel a b = Some (d, s, t) /\ gcd (ff_dict p) fuel a b = Some d /\
                d = (if (a =? 0) && (b =? 0) then 0 else 1) /\
                ff_rep p s /\ ff_rep p t /\ ff_add p (ff_mul p s a) (ff_mul p t b) = d.
Proof. exact ff_gcdx_main. Qed.
Print Assumptions C15_gcd_Fp.

(* divides: x | y as the code computes it *)
Theorem C15_divides : forall (R : Type) (D : euc_dict R) (Phi : R -> Z), euc_dict_laws D Phi ->
  forall x y : R, exists b, divides D x y = Some b /\ (b = true <-> x <> rzero (d_ring D) /\ dvd D x y).
Proof. exact @divides_spec. Qed.
Print Assumptions C15_divides.

(* lcm * gcd is an associate of x * y (x, y not both zero), and lcm is normalised; lcm(0,0) panics in the
   generic code (division by the zero gcd) - the integer override returns 0 *)
Theorem C15_lcm : forall (R : Type) (D : euc_dict R) (Phi : R -> Z), euc_dict_laws D Phi ->
  forall (fuel : nat) (x y : R), good_fuel Phi fuel y ->
  (x = rzero (d_ring D) /\ y = rzero (d_ring D) -> lcm D fuel x y = None) /\
  (~ (x = rzero (d_ring D) /\ y = rzero (d_ring D)) ->
     exists m g, lcm D fuel x y = Some m /\ gcd D fuel x y = Some g /\
                 assoc D (rmul (d_ring D) x y) (rmul (d_ring D) m g) /\ d_nunit D m = rone (d_ring D)).
Proof. exact (fun R D Phi EL fuel x y F => conj (lcm_zero_zero D Phi EL fuel x y) (lcm_spec D Phi EL fuel x y F)). Qed.
Print Assumptions C15_lcm.

Theorem C15_lcm_quad : forall x y : qint, ~ (x = q_zero /\ y = q_zero) ->
  (exists m g, g_lcm x y = Some m /\ g_gcd x y = Some g /\
     (exists v, g_is_unit v = true /\ g_mul m g = g_mul (g_mul x y) v) /\ g_nunit m = q_one) /\
  (exists m g, e_lcm x y = Some m /\ e_gcd x y = Some g /\
     (exists v, e_is_unit v = true /\ e_mul m g = e_mul (e_mul x y) v) /\ e_nunit m = q_one).
Proof.
  exact (fun x y H =>
    conj (lcm_spec gauss_dict g_norm gauss_laws (g_fuel y) x y (good_fuel_of _ _ gauss_laws y) H)
         (lcm_spec eisen_dict e_phi eisen_laws (e_fuel y) x y (good_fuel_of _ _ eisen_laws y) H)).
Qed.
Print Assumptions C15_lcm_quad.

Theorem C15_lcm_Fp : forall p : Z, prime p -> forall (fuel : nat) (a b : Z), ff_rep p a -> ff_rep p b ->
  ~ (a = 0 /\ b = 0) -> lcm (ff_dict p) fuel a b = Some (if (a =? 0) || (b =? 0) then 0 else 1).
Proof. exact ff_lcm. Qed.
Print Assumptions C15_lcm_Fp.

(* is_unit a <-> inv a returns something; a * inv a = 1; an element with an inverse reports itself a unit;
   normalizing_unit is a unit; normalized a = a * normalizing_unit a is fixed by normalisation
   (idempotent) and is constant on associates *)
Theorem C15_units : forall (R : Type) (D : euc_dict R) (Phi : R -> Z), euc_dict_laws D Phi ->
  (forall a, d_is_unit D a = true <-> exists b, d_inv D a = Some b) /\
  (forall a b, d_inv D a = Some b -> rmul (d_ring D) a b = rone (d_ring D)) /\
  (forall a b, rmul (d_ring D) a b = rone (d_ring D) -> d_is_unit D a = true) /\
  (forall a, d_is_unit D (d_nunit D a) = true) /\
  (forall a, normalized D a = rmul (d_ring D) a (d_nunit D a)) /\
  (forall a, d_nunit D (normalized D a) = rone (d_ring D)) /\
  (forall a, normalized D (normalized D a) = normalized D a) /\
  (forall a v, d_is_unit D v = true -> normalized D (rmul (d_ring D) a v) = normalized D a).
Proof.
  exact (fun R D Phi EL =>
    conj (rinv_unit _ _ (l_units D Phi EL)) (conj (rinv_some _ _ (l_units D Phi EL))
   (conj (runit_complete _ _ (l_units D Phi EL)) (conj (rnunit_unit _ _ (l_units D Phi EL))
   (conj (normalized_eq D Phi EL) (conj (nunit_normalized D Phi EL)
   (conj (normalized_idem D Phi EL) (normalized_assoc D Phi EL)))))))).
Qed.
Print Assumptions C15_units.

(* integers (the generic division of Z is truncated, so Z is not an instance of the halving law; its unit
   structure is proved directly): units are +-1, normalized = |.| *)
Theorem C15_units_int :
  unit_laws Z_ring (dict_units int_dict) /\
  (forall a, int_is_unit a = true <-> a = 1 \/ a = -1) /\
  (forall a, normalized int_dict a = Z.abs a).
Proof. exact (conj int_unit_laws (conj int_is_unit_spec int_normalized_abs)). Qed.
Print Assumptions C15_units_int.

Theorem C15_units_quad :
  (forall u, g_is_unit u = true <-> u = (1, 0) \/ u = (-1, 0) \/ u = (0, 1) \/ u = (0, -1)) /\
  (forall u, e_is_unit u = true <->
     u = (1, 0) \/ u = (0, 1) \/ u = (-1, 1) \/ u = (-1, 0) \/ u = (0, -1) \/ u = (1, -1)).
Proof. exact (conj g_unit_cases e_unit_cases). Qed.
Print Assumptions C15_units_quad.

Theorem C15_units_Fp : forall p : Z, prime p -> forall a : Z, ff_rep p a ->
  (d_is_unit (ff_dict p) a = true <-> a <> 0) /\
  (d_is_unit (ff_dict p) a = true <-> exists i, d_inv (ff_dict p) a = Some i) /\
  (forall i, d_inv (ff_dict p) a = Some i -> ff_rep p i /\ ff_mul p a i = 1) /\
  normalized (ff_dict p) a = (if a =? 0 then 0 else 1).
Proof. exact ff_units. Qed.
Print Assumptions C15_units_Fp.

(* i32 / i64 / i128 (k = 32, 64, 128): whenever a width-checked operation returns, the value is the result
   of the unbounded operation (never a wrapped one); without a width (BigInt) the two coincide *)
Theorem C15_machine_sound : forall k a b : Z,
  (forall v, w_div (Some k) a b = Some v -> int_div a b = Some v) /\
  (forall v, w_rem (Some k) a b = Some v -> int_rem a b = Some v) /\
  (forall v, w_divides (Some k) a b = Some v -> divides int_dict a b = Some v) /\
  (forall v, w_gcd (Some k) a b = Some v -> v = int_gcd a b) /\
  (forall v, w_lcm (Some k) a b = Some v -> v = int_lcm a b) /\
  (forall v, w_gcdx (Some k) a b = Some v -> int_gcdx a b = Some v) /\
  (forall v, w_is_unit (Some k) a = Some v -> v = int_is_unit a) /\
  (forall v, w_inv (Some k) a = Some v -> v = int_inv a) /\
  (forall v, w_normalized (Some k) a = Some v -> v = normalized int_dict a).
Proof.
  exact (fun k a b => conj (w_div_sound k a b) (conj (w_rem_sound k a b) (conj (w_divides_sound k a b)
    (conj (w_gcd_sound k a b) (conj (w_lcm_sound k a b) (conj (w_gcdx_sound k a b)
    (conj (w_is_unit_sound k a) (conj (w_inv_sound k a) (w_normalized_sound k a))))))))).
Qed.
Print Assumptions C15_machine_sound.

Theorem C15_machine_bigint : forall a b : Z,
  w_div None a b = int_div a b /\ w_rem None a b = int_rem a b /\
  w_divides None a b = divides int_dict a b /\
  w_gcd None a b = Some (int_gcd a b) /\ w_lcm None a b = Some (int_lcm a b) /\ w_gcdx None a b = int_gcdx a b /\
  w_is_unit None a = Some (int_is_unit a) /\ w_inv None a = Some (int_inv a) /\
  w_normalized None a = Some (normalized int_dict a).
Proof.
  exact (fun a b => conj (w_div_none a b) (conj (w_rem_none a b) (conj (w_divides_none a b)
    (conj (w_gcd_none a b) (conj (w_lcm_none a b) (conj (w_gcdx_none a b)
    (conj (w_is_unit_none a) (conj (w_inv_none a) (w_normalized_none a))))))))).
Qed.
Print Assumptions C15_machine_bigint.

(* HPoly<_, K> = (degree, coefficient) with K any field ([field_dict o inv] with [field_laws]).  Equality of
   values is [h_eqb] (PartialEq of h_poly.rs: two zeros are equal whatever their stored degree); the sums
   and products below are HPoly's own + and *.  The generic gcd / gcdx return on an early path for every
   pair (of two non-zero monomials one divides the other), so the result does not depend on the fuel and
   the degree assertion of HPoly's `+` is never reached from them. *)
Theorem C15_hpoly_division : forall (K : Type) (o : ring_ops K) (inv : K -> option K), field_laws o inv ->
  forall f g : @hpoly K,
  let F := field_dict o inv in let H := hpoly_dict F in
  (h_is_zero F g = false ->
     exists q r, d_div H f g = Some q /\ d_rem H f g = Some r /\
       h_eqb F (h_add F (h_mul F q g) r) f = true /\
       (h_is_zero F r = true \/ (fst r < fst g)%nat)) /\
  (h_is_zero F g = true -> d_div H f g = None /\ d_rem H f g = None).
Proof. exact (fun K o inv FL f g => conj (h_division o inv FL f g) (h_division_by_zero o inv f g)). Qed.
Print Assumptions C15_hpoly_division.

(* gcd(c x^d, c' x^d') = x^min(d, d') with coefficient 1 (normalised), the same for both argument orders;
   it divides both, and s f + t g = d for the returned s, t *)
Theorem C15_hpoly_gcd : forall (K : Type) (o : ring_ops K) (inv : K -> option K), field_laws o inv ->
  forall (fuel fuel' : nat) (f g : @hpoly K),
  let F := field_dict o inv in let H := hpoly_dict F in
  exists d s t,
    gcd H fuel f g = Some d /\ gcdx H fuel f g = Some (d, s, t) /\
    d = (if h_is_zero F f then (if h_is_zero F g then h_zero F else (fst g, rone o))
         else if h_is_zero F g then (fst f, rone o) else (Nat.min (fst f) (fst g), rone o)) /\
    (exists c, h_eqb F (h_mul F c d) f = true) /\ (exists c, h_eqb F (h_mul F c d) g = true) /\
    h_eqb F (h_add F (h_mul F s f) (h_mul F t g)) d = true /\
    d_nunit H d = h_one F /\
    gcd H fuel' g f = Some d.
Proof. exact @hpoly_gcd_main. Qed.
Print Assumptions C15_hpoly_gcd.

Theorem C15_hpoly_lcm : forall (K : Type) (o : ring_ops K) (inv : K -> option K), field_laws o inv ->
  forall (fuel : nat) (f g : @hpoly K),
  let F := field_dict o inv in
  h_is_zero F f = false -> h_is_zero F g = false ->
  lcm (hpoly_dict F) fuel f g = Some (Nat.max (fst f) (fst g), rone o).
Proof. exact @h_lcm_value. Qed.
Print Assumptions C15_hpoly_lcm.

Theorem C15_hpoly_units : forall (K : Type) (o : ring_ops K) (inv : K -> option K), field_laws o inv ->
  let F := field_dict o inv in let H := hpoly_dict F in
  (forall f : @hpoly K, d_is_unit H f = true <-> fst f = O /\ snd f <> rzero o) /\
  (forall f : @hpoly K, d_is_unit H f = true <-> exists i, d_inv H f = Some i) /\
  (forall f i : @hpoly K, d_inv H f = Some i -> h_mul F f i = h_one F) /\
  (forall f : @hpoly K, h_is_zero F f = false -> normalized H f = (fst f, rone o)) /\
  (forall f : @hpoly K, h_is_zero F f = true -> normalized H f = f) /\
  (forall f : @hpoly K, d_nunit H (normalized H f) = h_one F) /\
  (forall f : @hpoly K, normalized H (normalized H f) = normalized H f) /\
  (forall f v : @hpoly K, d_is_unit H v = true -> normalized H (h_mul F f v) = normalized H f).
Proof.
  exact (fun K o inv FL =>
    conj (fun f => proj1 (h_units o inv FL f)) (conj (fun f => proj1 (proj2 (h_units o inv FL f)))
   (conj (fun f => proj2 (proj2 (h_units o inv FL f))) (conj (h_normalized_nonzero o inv FL)
   (conj (h_normalized_zero o inv FL) (conj (h_nunit_normalized o inv FL)
   (conj (h_normalized_idem o inv FL) (h_normalized_assoc o inv FL)))))))).
Qed.
Print Assumptions C15_hpoly_units.

(* Poly<_, K> = coefficient list, lowest degree first, in normal form [p_norm F f = f] (no trailing zero; the
   Rust value is a map degree -> non-zero coefficient).  The long-division loop of poly.rs returns (q, r),
   both normal, with f = q g + r - computed with the model's own + and * - and r = 0 or deg r < deg g; it
   panics exactly when g = 0. *)
Theorem C15_poly_division : forall (K : Type) (o : ring_ops K) (inv : K -> option K), field_laws o inv ->
  forall f g : list K,
  let F := field_dict o inv in
  p_norm F f = f -> p_norm F g = g ->
  (g <> [] ->
     exists q r, d_div (poly_dict F) f g = Some q /\ d_rem (poly_dict F) f g = Some r /\
       p_div_rem F f g = Some (q, r) /\ p_norm F q = q /\ p_norm F r = r /\
       f = p_add F (p_mul F q g) r /\ (r = [] \/ (length r < length g)%nat)) /\
  (g = [] -> d_div (poly_dict F) f g = None /\ d_rem (poly_dict F) f g = None).
Proof. exact @poly_division_main. Qed.
Print Assumptions C15_poly_division.

(* gcd / gcdx over K[x]: terminate on the model's fuel, d is normal, divides f and g, every common divisor
   divides d, s f + t g = d, d is monic or 0 (normalizing_unit d = 1), d = 0 iff f = g = 0, symmetric *)
Theorem C15_poly_gcd : forall (K : Type) (o : ring_ops K) (inv : K -> option K), field_laws o inv ->
  forall f g : list K,
  let F := field_dict o inv in
  p_norm F f = f -> p_norm F g = g ->
  exists d s t,
    p_gcd F f g = Some d /\ p_gcdx F f g = Some (d, s, t) /\
    p_norm F d = d /\ p_norm F s = s /\ p_norm F t = t /\
    (exists c, p_norm F c = c /\ f = p_mul F c d) /\ (exists c, p_norm F c = c /\ g = p_mul F c d) /\
    (forall c, p_norm F c = c -> (exists c1, f = p_mul F c1 c) -> (exists c2, g = p_mul F c2 c) ->
               exists c', p_norm F c' = c' /\ d = p_mul F c' c) /\
    p_add F (p_mul F s f) (p_mul F t g) = d /\
    p_nunit F d = p_one F /\
    (d = [] <-> f = [] /\ g = []) /\
    p_gcd F g f = Some d.
Proof. exact @poly_gcd_main. Qed.
Print Assumptions C15_poly_gcd.

Theorem C15_poly_lcm : forall (K : Type) (o : ring_ops K) (inv : K -> option K), field_laws o inv ->
  forall f g : list K,
  let F := field_dict o inv in
  p_norm F f = f -> p_norm F g = g ->
  (f = [] /\ g = [] -> p_lcm F f g = None) /\
  (~ (f = [] /\ g = []) ->
     exists m d, p_lcm F f g = Some m /\ p_gcd F f g = Some d /\ p_norm F m = m /\
       (exists v, p_norm F v = v /\ p_is_unit F v = true /\ p_mul F m d = p_mul F (p_mul F f g) v) /\
       p_nunit F m = p_one F).
Proof. exact @poly_lcm_main. Qed.
Print Assumptions C15_poly_lcm.

Theorem C15_poly_units : forall (K : Type) (o : ring_ops K) (inv : K -> option K), field_laws o inv ->
  let F := field_dict o inv in let P := poly_dict F in
  (forall f, p_norm F f = f -> (p_is_unit F f = true <-> exists g, p_inv F f = Some g)) /\
  (forall f g, p_inv F f = Some g -> p_norm F g = g /\ p_mul F f g = p_one F) /\
  (forall f g, p_norm F f = f -> p_norm F g = g -> p_mul F f g = p_one F -> p_is_unit F f = true) /\
  (forall f, p_is_unit F (p_nunit F f) = true /\ p_norm F (p_nunit F f) = p_nunit F f) /\
  (forall f, p_norm F f = f -> normalized P f = p_mul F f (p_nunit F f)) /\
  (forall f, p_norm F f = f -> p_nunit F (normalized P f) = p_one F) /\
  (forall f, p_norm F f = f -> normalized P (normalized P f) = normalized P f) /\
  (forall f v, p_norm F f = f -> p_norm F v = v -> p_is_unit F v = true ->
               normalized P (p_mul F f v) = normalized P f).
Proof. exact @poly_units_main. Qed.
Print Assumptions C15_poly_units.

Theorem C15_poly_divides : forall (K : Type) (o : ring_ops K) (inv : K -> option K), field_laws o inv ->
  forall f g : list K,
  let F := field_dict o inv in
  p_norm F f = f -> p_norm F g = g ->
  exists b, divides (poly_dict F) f g = Some b /\
            (b = true <-> f <> [] /\ exists c, p_norm F c = c /\ g = p_mul F c f).
Proof. exact @poly_divides_main. Qed.
Print Assumptions C15_poly_divides.

(* the normal forms with these operations are a Euclidean domain in the sense of [euc_dict_laws] *)
Theorem C15_laws_poly : forall (K : Type) (o : ring_ops K) (inv : K -> option K) (FL : field_laws o inv),
  euc_dict_laws (NPD o inv FL) (np_phi o inv) /\ dict_morph (NPD o inv FL) (poly_dict (field_dict o inv)) (val o inv).
Proof. exact (fun K o inv FL => conj (np_laws o inv FL) (np_morph o inv FL)). Qed.
Print Assumptions C15_laws_poly.

(* the witnesses of the two defects fixed in /repo, on the model *)
Example C15_ex_div_round :
  int_div_round (2 ^ 53 + 1) 1 = Some (2 ^ 53 + 1) /\
  int_div_round (3 * (10 ^ 40 + 1)) 3 = Some (10 ^ 40 + 1) /\
  int_div_round 7 2 = Some 4 /\ int_div_round (-7) 2 = Some (-4) /\ int_div_round 7 (-2) = Some (-4) /\
  int_div_round (-13) 5 = Some (-3) /\ int_div_round 12 5 = Some 2 /\
  w_div_round (Some 64) (- 2 ^ 63) (-1) = None /\ w_div_round (Some 64) (- 2 ^ 63) 3 = Some (-3074457345618258603).
Proof. repeat split; vm_compute; reflexivity. Qed.

Example C15_ex_gcd :
  g_gcd (0, 2) (4, 0) = Some (2, 0) /\ g_gcd (4, 0) (0, 2) = Some (2, 0) /\
  g_gcdx (0, 2) (4, 0) = Some ((2, 0), (0, -1), (0, 0)) /\
  g_gcdx (11, 3) (1, 8) = Some ((2, 1), (1, 2), (-3, 0)) /\
  e_gcd (5, 3) (2, -4) = Some (1, 0) /\
  e_gcdx (4, 2) (0, 6) = Some ((2, 0), (0, -1), (1, 0)) /\
  g_div (49, -58) (7, 9) = Some (-1, -7) /\ g_rem (49, -58) (7, 9) = Some (-7, 0) /\
  g_lcm (2, 0) (0, 3) = Some (6, 0) /\ g_lcm (0, 0) (0, 0) = None /\
  int_gcdx 240 46 = Some (2, -9, 47).
Proof. repeat split; vm_compute; reflexivity. Qed.

(* hypotheses are satisfiable: 7 is prime, F_7 computes *)
Example C15_ex_Fp : prime 7 /\ gcd (ff_dict 7) 3 3 5 = Some 1 /\ d_div (ff_dict 7) 3 5 = Some 2 /\
  gcdx (ff_dict 7) 3 0 5 = Some (1, 0, 3).
Proof. split; [exact prime_7|repeat split; vm_compute; reflexivity]. Qed.

(* [field_laws] is not proved for the model's Q or F_p dictionaries (see the head comment); the two-element
   field shows that it is inhabited *)
Example C15_ex_field_laws : field_laws (mk_ring_ops bool false true xorb (fun b => b) andb Bool.eqb)
                                       (fun b => if b then Some true else None).
Proof.
  constructor.
  - constructor; cbn; try (intros; repeat match goal with b : bool |- _ => destruct b end; reflexivity).
    intros a b. destruct a, b; cbn; split; congruence.
  - cbn. discriminate.
  - reflexivity.
  - intros a Ha. destruct a; [exists true; split; reflexivity|contradiction].
Qed.

(* over F_7: x^2 + 2x + 1 = (4x + 2)(2x + 3) + 2;  gcd(x^2 - 1, x + 1) = x + 1;  gcd(3x^2, 4x^5) = x^2 *)
Example C15_ex_poly :
  p_div_rem (ff_dict 7) [1; 2; 1] [3; 2] = Some ([2; 4], [2]) /\
  p_gcd (ff_dict 7) [6; 0; 1] [1; 1] = Some [1; 1] /\
  h_gcd (ff_dict 7) (2%nat, 3) (5%nat, 4) = Some (2%nat, 1).
Proof. repeat split; vm_compute; reflexivity. Qed.
