(* C07 - composition of coordinate maps: Trans::{merge, reduce}, Summand::merge and the homology summand of
   a complex whose summands carry coordinate maps (the summands of ChainComplexBase::reduced(), or of
   Summand::new(.., Trans::new(U, U^-1))), expressed in the ORIGINAL generators.
   Property theorems only: each is proved by [exact <lemma>] or a short combination of proved lemmas and is
   followed by Print Assumptions; the Examples instantiate the hypotheses on concrete values.

   Model: Model/HomologyMerge.v on top of Model/HomologyCalc.v: [trans_reduce] mirrors
   Trans::reduce statement by statement (the second `if` runs on the already collapsed f_mats), [summand_merge]
   mirrors Summand::merge, [bcomplex] / [b_d_matrix] / [b_compute_homology_at] mirror ChainComplexBase::{d_matrix,
   d_matrix_col} and compute_homology_at for summands with a non-trivial Trans, and the three routes are
     [b_homology_at]           ChainComplexBase::homology_at:  c.trans().merged(h.trans())       (never reduced)
     [b_homology_merge]        s = c[i].clone(); s.merge(c.compute_homology_at(i, true))          (merge + reduce)
     [b_homology_merge_twice]  s = Summand::from_raw_gens(..); s.merge(c[i].clone()); s.merge(h)  (merge of a merged summand)

   Vocabulary (Proofs/C07MergeTrans.v, C07Merge.v, C07MergeComplex.v, C07MergeRoutes.v; spelt out below):
     [fwd_fun o [f_0; ..; f_n]] = f_n * .. * f_0,  [bwd_fun o [b_0; ..; b_n]] = b_0 * .. * b_n  (matrices as functions);
     [trans_ok t]: the factors of t have the shapes of a chain  src_dim = n_0, .., n_last = tgt_dim  (f_k : n_(k+1) x n_k,
       b_k : n_k x n_(k+1)) - the invariant of every Trans built through id / new / append / merge(d) / reduce and of
       the Trans returned by HomologyCalc::calculate;
     [summand_ok s]: what Summand::new asserts (src_dim = #raw generators, tgt_dim = rank + #tors) + [trans_ok];
     [bc_ok C j]: the summand of degree j is [summand_ok], free, and lives on the raw generators of degree j;
     [gens_ok], [zero_prod], [mwf], [snf_contract]: as in Properties/C07.v. *)
From Coq Require Import ZArith Arith List Bool.
Require Import Yui.Base.Ring Yui.Base.MatF Yui.Base.MatL Yui.Model.HomologyCalc Yui.Model.HomologyMerge.
Require Import Yui.Proofs.C07Algebra Yui.Proofs.C07Calc Yui.Proofs.C07Example.
Require Import Yui.Proofs.C07MergeTrans Yui.Proofs.C07Merge Yui.Proofs.C07MergeComplex Yui.Proofs.C07MergeRoutes.
Require Import Yui.Proofs.C07MergeExample.
Import ListNotations.

Theorem C07_merge_products_meaning :
  forall (R : Type) (o : ring_ops R) (f b : dmat R) (fs bs : list (dmat R)),
  fwd_fun o [] = mid o /\ bwd_fun o [] = mid o /\
  fwd_fun o (f :: fs) = mmul o (nr f) (fwd_fun o fs) (mget o f) /\
  bwd_fun o (b :: bs) = mmul o (nc b) (mget o b) (bwd_fun o bs).
Proof. intros. repeat split. Qed.
Print Assumptions C07_merge_products_meaning.

Theorem C07_merge_invariants_meaning :
  forall (R : Type) (o : ring_ops R) (s : summand R) (C : bcomplex R) (j : Z),
  (summand_ok s <->
     src_dim (s_trans s) = s_ngens s /\ tgt_dim (s_trans s) = s_rank s + length (s_tors s) /\ trans_ok (s_trans s)) /\
  (trans_ok (s_trans s) <-> chain_ok (src_dim (s_trans s)) (f_mats (s_trans s)) (b_mats (s_trans s)) (tgt_dim (s_trans s))) /\
  (bc_ok C j <->
     summand_ok (b_get C j) /\ s_tors (b_get C j) = [] /\ s_ngens (b_get C j) = c_rank (b_raw C) j) /\
  (iso_at o C j <->
     exists f b, forward_mat o (s_trans (b_get C j)) = Some f /\ backward_mat o (s_trans (b_get C j)) = Some b /\
       meq (s_rank (b_get C j)) (s_rank (b_get C j)) (mmul o (s_ngens (b_get C j)) (mget o f) (mget o b)) (mid o) /\
       meq (s_ngens (b_get C j)) (s_ngens (b_get C j)) (mmul o (s_rank (b_get C j)) (mget o b) (mget o f)) (mid o)).
Proof. intros R o s C j. split; [reflexivity|split; [reflexivity|split; reflexivity]]. Qed.
Print Assumptions C07_merge_invariants_meaning.

(* the shape invariant: base case and step *)
Theorem C07_merge_chain_ok_meaning :
  forall (R : Type) (n m : nat) (f b : dmat R) (fs bs : list (dmat R)),
  chain_ok n (@nil (dmat R)) [] n /\
  (nc f = n -> nr b = n -> nc b = nr f -> chain_ok (nr f) fs bs m -> chain_ok n (f :: fs) (b :: bs) m) /\
  (chain_ok n (f :: fs) (b :: bs) m -> nc f = n /\ nr b = n /\ nc b = nr f /\ chain_ok (nr f) fs bs m).
Proof.
  intros. split; [constructor|]. split; [intros; now constructor|].
  intros H. inversion H; subst. repeat split; assumption.
Qed.
Print Assumptions C07_merge_chain_ok_meaning.

(* every Trans reachable through the API satisfies the invariant (reduce: C07_merge_trans_reduce below) *)
Theorem C07_merge_trans_ok_api :
  forall (R : Type),
  (forall n : nat, trans_ok (@trans_id R n)) /\
  (forall (f b : dmat R) (t : trans R), trans_new f b = Some t -> trans_ok t) /\
  (forall (t : trans R) (f b : dmat R) (t' : trans R), trans_ok t -> trans_append t f b = Some t' -> trans_ok t') /\
  (forall t u tu : trans R, trans_ok t -> trans_ok u -> trans_merged t u = Some tu -> trans_ok tu) /\
  (forall (o : ring_ops R) (isu : R -> bool) (snf : dmat R -> bool -> bool -> bool -> bool -> option (snf_result R))
          (d1 d2 : dmat R) (wt : bool) (rank : nat) (tors : list R) (t : trans R),
     calculate o isu snf d1 d2 wt = Some (rank, tors, Some t) -> trans_ok t) /\
  (forall (n r : nat) (ts : list R) (t : trans R) (s : summand R),
     summand_new n r ts t = Some s -> trans_ok t ->
     summand_ok s /\ s_ngens s = n /\ s_rank s = r /\ s_tors s = ts /\ s_trans s = t).
Proof.
  intros R. split; [exact (@trans_id_ok R)|]. split; [exact (@trans_new_ok R)|]. split; [exact (@trans_append_ok R)|].
  split; [exact (@trans_merged_ok R)|]. split; [exact (@calculate_trans_ok R)|exact (@summand_new_ok R)].
Qed.
Print Assumptions C07_merge_trans_ok_api.


(* forward_mat / backward_mat return the products of the factors (the one-factor shortcut included), and
   forward / backward apply them to every vector of the right dimension *)
Theorem C07_merge_forward_mat :
  forall (R : Type) (o : ring_ops R), ring_laws o ->
  forall t : trans R, trans_ok t ->
  exists p : dmat R,
    forward_mat o t = Some p /\ nr p = tgt_dim t /\ nc p = src_dim t /\
    meq (tgt_dim t) (src_dim t) (mget o p) (fwd_fun o (f_mats t)).
Proof. exact @forward_mat_spec. Qed.
Print Assumptions C07_merge_forward_mat.

Theorem C07_merge_backward_mat :
  forall (R : Type) (o : ring_ops R), ring_laws o ->
  forall t : trans R, trans_ok t ->
  exists q : dmat R,
    backward_mat o t = Some q /\ nr q = src_dim t /\ nc q = tgt_dim t /\
    meq (src_dim t) (tgt_dim t) (mget o q) (bwd_fun o (b_mats t)).
Proof. exact @backward_mat_spec. Qed.
Print Assumptions C07_merge_backward_mat.

Theorem C07_merge_forward :
  forall (R : Type) (o : ring_ops R), ring_laws o ->
  forall (t : trans R) (v : list R), trans_ok t -> length v = src_dim t ->
  exists w : list R,
    forward o t v = Some w /\ length w = tgt_dim t /\
    (forall i : nat, i < tgt_dim t -> vget o w i = mvec o (src_dim t) (fwd_fun o (f_mats t)) (vget o v) i).
Proof. exact @forward_spec. Qed.
Print Assumptions C07_merge_forward.

Theorem C07_merge_backward :
  forall (R : Type) (o : ring_ops R), ring_laws o ->
  forall (t : trans R) (v : list R), trans_ok t -> length v = tgt_dim t ->
  exists w : list R,
    backward o t v = Some w /\ length w = src_dim t /\
    (forall i : nat, i < src_dim t -> vget o w i = mvec o (tgt_dim t) (bwd_fun o (b_mats t)) (vget o v) i).
Proof. exact @backward_spec. Qed.
Print Assumptions C07_merge_backward.

(* merge composes: forward of the merged transform = forward_other * forward_self, backward = backward_self *
   backward_other *)
Theorem C07_merge_trans_merge :
  forall (R : Type) (o : ring_ops R), ring_laws o ->
  forall t u : trans R, trans_ok t -> trans_ok u -> tgt_dim t = src_dim u ->
  exists tu : trans R,
    trans_merged t u = Some tu /\ trans_ok tu /\ src_dim tu = src_dim t /\ tgt_dim tu = tgt_dim u /\
    meq (tgt_dim u) (src_dim t) (fwd_fun o (f_mats tu))
        (mmul o (tgt_dim t) (fwd_fun o (f_mats u)) (fwd_fun o (f_mats t))) /\
    meq (src_dim t) (tgt_dim u) (bwd_fun o (b_mats tu))
        (mmul o (tgt_dim t) (bwd_fun o (b_mats t)) (bwd_fun o (b_mats u))).
Proof. exact @trans_merged_spec. Qed.
Print Assumptions C07_merge_trans_merge.

(* reduce never fails on a well-shaped Trans, leaves at most one factor on each side and changes neither product;
   hence it changes neither forward nor backward on any vector (panics included) *)
Theorem C07_merge_trans_reduce :
  forall (R : Type) (o : ring_ops R), ring_laws o ->
  forall t : trans R, trans_ok t ->
  exists t' : trans R,
    trans_reduce o t = Some t' /\ trans_ok t' /\ src_dim t' = src_dim t /\ tgt_dim t' = tgt_dim t /\
    length (f_mats t') <= 1 /\ length (b_mats t') <= 1 /\
    meq (tgt_dim t) (src_dim t) (fwd_fun o (f_mats t')) (fwd_fun o (f_mats t)) /\
    meq (src_dim t) (tgt_dim t) (bwd_fun o (b_mats t')) (bwd_fun o (b_mats t)).
Proof. exact @trans_reduce_spec. Qed.
Print Assumptions C07_merge_trans_reduce.

Theorem C07_merge_trans_reduce_vectors :
  forall (R : Type) (o : ring_ops R), ring_laws o ->
  forall t t' : trans R, trans_ok t -> trans_reduce o t = Some t' ->
  (forall v : list R, forward o t' v = forward o t v) /\ (forall v : list R, backward o t' v = backward o t v).
Proof.
  intros R o L t t' H E. split; [exact (trans_reduce_forward o L t t' H E)|exact (trans_reduce_backward o L t t' H E)].
Qed.
Print Assumptions C07_merge_trans_reduce_vectors.


(* merge succeeds exactly when the dimensions match; the merged summand keeps the raw generators of self, takes
   rank and torsion of other, and its coordinate maps are the composites (as matrices returned by forward_mat /
   backward_mat) *)
Theorem C07_merge_summand :
  forall (R : Type) (o : ring_ops R), ring_laws o ->
  forall s h : summand R, summand_ok s -> summand_ok h ->
  (s_dim s <> s_ngens h -> summand_merge o s h = None) /\
  (s_dim s = s_ngens h ->
   exists s' : summand R,
     summand_merge o s h = Some s' /\ summand_ok s' /\
     s_ngens s' = s_ngens s /\ s_rank s' = s_rank h /\ s_tors s' = s_tors h /\
     length (f_mats (s_trans s')) <= 1 /\ length (b_mats (s_trans s')) <= 1 /\
     meq (s_dim h) (s_ngens s) (fwd_fun o (f_mats (s_trans s')))
         (mmul o (s_dim s) (fwd_fun o (f_mats (s_trans h))) (fwd_fun o (f_mats (s_trans s)))) /\
     meq (s_ngens s) (s_dim h) (bwd_fun o (b_mats (s_trans s')))
         (mmul o (s_dim s) (bwd_fun o (b_mats (s_trans s))) (bwd_fun o (b_mats (s_trans h))))).
Proof.
  intros R o L s h Hs Hh. split; [exact (summand_merge_none o s h Hs Hh)|exact (summand_merge_spec o L s h Hs Hh)].
Qed.
Print Assumptions C07_merge_summand.

Theorem C07_merge_summand_mats :
  forall (R : Type) (o : ring_ops R), ring_laws o ->
  forall s h s' : summand R, summand_ok s -> summand_ok h -> summand_merge o s h = Some s' ->
  exists f b p' q' p q : dmat R,
    forward_mat o (s_trans s) = Some f /\ backward_mat o (s_trans s) = Some b /\
    forward_mat o (s_trans h) = Some p' /\ backward_mat o (s_trans h) = Some q' /\
    forward_mat o (s_trans s') = Some p /\ backward_mat o (s_trans s') = Some q /\
    nr f = s_dim s /\ nc f = s_ngens s /\ nr b = s_ngens s /\ nc b = s_dim s /\
    nr p' = s_dim h /\ nc p' = s_dim s /\ nr q' = s_dim s /\ nc q' = s_dim h /\
    nr p = s_dim h /\ nc p = s_ngens s /\ nr q = s_ngens s /\ nc q = s_dim h /\
    meq (s_dim h) (s_ngens s) (mget o p) (mmul o (s_dim s) (mget o p') (mget o f)) /\
    meq (s_ngens s) (s_dim h) (mget o q) (mmul o (s_dim s) (mget o b) (mget o q')).
Proof. exact @summand_merge_mats. Qed.
Print Assumptions C07_merge_summand_mats.

(* on every input, panics included: vectorize = vectorize_other . vectorize_self,
   devectorize = devectorize_self . devectorize_other, gen(k) = devectorize_self (gen_other(k)) *)
Theorem C07_merge_vectors :
  forall (R : Type) (o : ring_ops R), ring_laws o ->
  forall s h s' : summand R, summand_ok s -> summand_ok h -> summand_merge o s h = Some s' ->
  (forall z : list R, vectorize o s' z = obind (vectorize o s z) (vectorize o h)) /\
  (forall v : list R, devectorize o s' v = obind (devectorize o h v) (devectorize o s)) /\
  (forall k : nat, gen o s' k = obind (gen o h k) (devectorize o s)).
Proof.
  intros R o L s h s' Hs Hh E.
  split; [exact (merge_vectorize o L s h s' Hs Hh E)|].
  split; [exact (merge_devectorize o L s h s' Hs Hh E)|exact (merge_gen o L s h s' Hs Hh E)].
Qed.
Print Assumptions C07_merge_vectors.


(* (D1, D2): incoming / outgoing differential of the original complex; (f, b): coordinate maps of the summand
   (f * b = I); (d1', d2'): the differentials in the new coordinates, with b a chain map in the outgoing direction
   (D2 * b = B0 * d2') and f one in the incoming direction (f * D1 = d1' * F2); (p', q') satisfy the clauses of C07 for
   (d1', d2').  Then p = p' * f, q = b * q' satisfy them for (D1, D2): generators are cycles of the original complex,
   p * q = I, boundaries of the original complex have coordinates 0 modulo the torsion orders. *)
Theorem C07_merge_gens_ok_compose :
  forall (R : Type) (o : ring_ops R), ring_laws o ->
  forall (D1 D2 d1' d2' f b p' q' p q : dmat R) (rank : nat) (tors : list R),
  let n := nr D1 in
  let n' := nr d1' in
  let h := rank + length tors in
  meq n' n' (mmul o n (mget o f) (mget o b)) (mid o) ->
  (exists B0 : mat R, meq (nr D2) n' (mmul o n (mget o D2) (mget o b)) (mmul o (nr d2') B0 (mget o d2'))) ->
  (exists F2 : mat R, meq n' (nc D1) (mmul o n (mget o f) (mget o D1)) (mmul o (nc d1') (mget o d1') F2)) ->
  gens_ok o d1' d2' rank tors p' q' ->
  nr p = h -> nc p = n -> nr q = n -> nc q = h ->
  meq h n (mget o p) (mmul o n' (mget o p') (mget o f)) ->
  meq n h (mget o q) (mmul o n' (mget o b) (mget o q')) ->
  gens_ok o D1 D2 rank tors p q.
Proof. exact @gens_ok_compose. Qed.
Print Assumptions C07_merge_gens_ok_compose.

(* the same for the summand returned by Summand::merge: if self's (f, b) satisfy f * b = I and are chain maps as
   above, and other satisfies the clauses of C07 in self's coordinates, the merged summand satisfies them with respect
   to the ORIGINAL complex *)
Theorem C07_merge_summand_gens_ok :
  forall (R : Type) (o : ring_ops R), ring_laws o ->
  forall (D1 D2 d1' d2' : dmat R) (s h s' : summand R) (f b : dmat R),
  summand_ok s -> summand_ok h -> summand_merge o s h = Some s' ->
  s_ngens s = nr D1 -> s_dim s = nr d1' ->
  forward_mat o (s_trans s) = Some f -> backward_mat o (s_trans s) = Some b ->
  meq (nr d1') (nr d1') (mmul o (nr D1) (mget o f) (mget o b)) (mid o) ->
  (exists B0 : mat R,
     meq (nr D2) (nr d1') (mmul o (nr D1) (mget o D2) (mget o b)) (mmul o (nr d2') B0 (mget o d2'))) ->
  (exists F2 : mat R,
     meq (nr d1') (nc D1) (mmul o (nr D1) (mget o f) (mget o D1)) (mmul o (nc d1') (mget o d1') F2)) ->
  (forall p' q' : dmat R,
     forward_mat o (s_trans h) = Some p' -> backward_mat o (s_trans h) = Some q' ->
     gens_ok o d1' d2' (s_rank h) (s_tors h) p' q') ->
  exists p q : dmat R,
    forward_mat o (s_trans s') = Some p /\ backward_mat o (s_trans s') = Some q /\
    gens_ok o D1 D2 (s_rank s') (s_tors s') p q.
Proof. exact @summand_merge_gens_ok. Qed.
Print Assumptions C07_merge_summand_gens_ok.


(* ChainComplexBase::d_matrix(j) of such a complex is  F_(j + d_deg) * D_j * B_j *)
Theorem C07_merge_d_matrix :
  forall (R : Type) (o : ring_ops R), ring_laws o ->
  forall (C : bcomplex R) (j : Z) (d : dmat R),
  let G := b_raw C in
  let src := b_get C j in
  let tgt := b_get C (j + c_ddeg G)%Z in
  bc_ok C j -> bc_ok C (j + c_ddeg G)%Z ->
  b_d_matrix o C j = Some d ->
  mwf d /\ nr d = s_rank tgt /\ nc d = s_rank src /\
  meq (s_rank tgt) (s_rank src) (mget o d)
      (mmul o (c_rank G (j + c_ddeg G)%Z) (fwd_fun o (f_mats (s_trans tgt)))
         (mmul o (c_rank G j) (mget o (c_dmat G j)) (bwd_fun o (b_mats (s_trans src))))).
Proof. exact @b_d_matrix_spec. Qed.
Print Assumptions C07_merge_d_matrix.

(* s = c[i].clone(); s.merge(c.compute_homology_at(i, true)): for every integral domain and every SNF routine meeting the
   contract of C09, if the coordinate maps of degree i form a retraction by chain maps between the original complex
   (D1, D2: [d_matrix] of the raw complex) and the complex in the new coordinates (d0, d1: what d_matrix computes
   through gen / d / vectorize), the merged summand satisfies the clauses of C07 for the ORIGINAL complex.
   (For ChainComplexBase::reduced() the retraction identities are the theorems of property C08.) *)
Theorem C07_merge_complex :
  forall (R : Type) (o : ring_ops R), ring_laws o -> integral o ->
  forall isu : R -> bool,
  (forall a b : R, rmul o a b = rone o -> isu a = true) ->
  forall snf : dmat R -> bool -> bool -> bool -> bool -> option (snf_result R),
  (forall a : R, isu a = true -> exists b : R, rmul o a b = rone o) ->
  snf_contract o snf ->
  forall (C : bcomplex R) (i : Z) (s' : summand R) (D1 D2 f b : dmat R),
  let G := b_raw C in
  bc_ok C i ->
  d_matrix o G (i - c_ddeg G)%Z = Some D1 -> d_matrix o G i = Some D2 ->
  forward_mat o (s_trans (b_get C i)) = Some f -> backward_mat o (s_trans (b_get C i)) = Some b ->
  (forall d0 d1 : dmat R,
     b_d_matrix o C (i - c_ddeg G)%Z = Some d0 -> b_d_matrix o C i = Some d1 ->
     mwf d0 /\ mwf d1 /\ nr d0 = s_rank (b_get C i) /\
     zero_prod o d0 d1 /\
     meq (nr d0) (nr d0) (mmul o (nr D1) (mget o f) (mget o b)) (mid o) /\
     (exists B0 : mat R,
        meq (nr D2) (nr d0) (mmul o (nr D1) (mget o D2) (mget o b)) (mmul o (nr d1) B0 (mget o d1))) /\
     (exists F2 : mat R,
        meq (nr d0) (nc D1) (mmul o (nr D1) (mget o f) (mget o D1)) (mmul o (nc d0) (mget o d0) F2))) ->
  b_homology_merge o isu snf C i = Some s' ->
  exists p q : dmat R,
    forward_mat o (s_trans s') = Some p /\ backward_mat o (s_trans s') = Some q /\
    gens_ok o D1 D2 (s_rank s') (s_tors s') p q.
Proof. exact @b_homology_merge_gens_ok. Qed.
Print Assumptions C07_merge_complex.

(* closed form when the coordinate maps of the three degrees involved are isomorphisms (unimodular changes of basis,
   Summand::new(.., Trans::new(U, U^-1)), possibly merged / reduced several times): no hypothesis about the new
   coordinates is left - d1 * d0 = 0 and the chain-map identities are derived from D2 * D1 = 0 *)
Theorem C07_merge_complex_iso :
  forall (R : Type) (o : ring_ops R), ring_laws o -> integral o ->
  forall isu : R -> bool,
  (forall a b : R, rmul o a b = rone o -> isu a = true) ->
  forall snf : dmat R -> bool -> bool -> bool -> bool -> option (snf_result R),
  (forall a : R, isu a = true -> exists b : R, rmul o a b = rone o) ->
  snf_contract o snf ->
  forall (C : bcomplex R) (i : Z) (s' : summand R) (D1 D2 : dmat R),
  let G := b_raw C in
  bc_ok C (i - c_ddeg G)%Z -> bc_ok C i -> bc_ok C (i + c_ddeg G)%Z ->
  iso_at o C (i - c_ddeg G)%Z -> iso_at o C i -> iso_at o C (i + c_ddeg G)%Z ->
  d_matrix o G (i - c_ddeg G)%Z = Some D1 -> d_matrix o G i = Some D2 ->
  zero_prod o D1 D2 ->
  b_homology_merge o isu snf C i = Some s' ->
  exists p q : dmat R,
    forward_mat o (s_trans s') = Some p /\ backward_mat o (s_trans s') = Some q /\
    gens_ok o D1 D2 (s_rank s') (s_tors s') p q.
Proof. exact @b_homology_merge_iso. Qed.
Print Assumptions C07_merge_complex_iso.

(* [summand_equiv]: same generators, rank, torsion and the same vectorize / devectorize / gen on every input *)
Theorem C07_merge_equiv_meaning :
  forall (R : Type) (o : ring_ops R) (a b : summand R),
  summand_equiv o a b <->
  (s_ngens a = s_ngens b /\ s_rank a = s_rank b /\ s_tors a = s_tors b /\
   (forall z : list R, vectorize o a z = vectorize o b z) /\
   (forall v : list R, devectorize o a v = devectorize o b v) /\
   (forall k : nat, gen o a k = gen o b k)).
Proof. intros R o a b. reflexivity. Qed.
Print Assumptions C07_merge_equiv_meaning.

(* the three routes agree: homology_at (merged, not reduced) returns a summand iff merge does, and they act in the same
   way on every input; the same for the merge of an already merged summand *)
Theorem C07_merge_routes_agree :
  forall (R : Type) (o : ring_ops R), ring_laws o ->
  forall (isu : R -> bool) (snf : dmat R -> bool -> bool -> bool -> bool -> option (snf_result R))
         (C : bcomplex R) (i : Z),
  bc_ok C i ->
  (forall hl : summand R,
     b_homology_at o isu snf C i = Some hl ->
     exists hm : summand R, b_homology_merge o isu snf C i = Some hm /\ summand_equiv o hm hl) /\
  (forall hm : summand R,
     b_homology_merge o isu snf C i = Some hm ->
     exists hl : summand R, b_homology_at o isu snf C i = Some hl /\ summand_equiv o hm hl).
Proof. exact @b_routes_agree. Qed.
Print Assumptions C07_merge_routes_agree.

Theorem C07_merge_twice_agree :
  forall (R : Type) (o : ring_ops R), ring_laws o ->
  forall (isu : R -> bool) (snf : dmat R -> bool -> bool -> bool -> bool -> option (snf_result R))
         (C : bcomplex R) (i : Z),
  bc_ok C i ->
  (forall hm : summand R,
     b_homology_merge o isu snf C i = Some hm ->
     exists ht : summand R, b_homology_merge_twice o isu snf C i = Some ht /\ summand_equiv o ht hm) /\
  (forall ht : summand R,
     b_homology_merge_twice o isu snf C i = Some ht ->
     exists hm : summand R, b_homology_merge o isu snf C i = Some hm /\ summand_equiv o ht hm).
Proof. exact @b_merge_twice_agree. Qed.
Print Assumptions C07_merge_twice_agree.

(* non-vacuity: Z^2 --U^-1 diag(1,2)--> Z^3 --0--> Z with the coordinate map (U, U^-1) in degree 1, over Z, with an SNF
   routine meeting the contract: every hypothesis of C07_merge_complex_iso holds, the run returns Z + Z/2 with the
   generators e_3 and (-1, 1, 0) of the ORIGINAL complex, and the conclusion holds for it *)
Example C07_merge_example :
  snf_contract Z_ring snf_diag /\
  bc_ok mx_bc 2%Z /\ bc_ok mx_bc 1%Z /\ bc_ok mx_bc 0%Z /\
  iso_at Z_ring mx_bc 2%Z /\ iso_at Z_ring mx_bc 1%Z /\ iso_at Z_ring mx_bc 0%Z /\
  d_matrix Z_ring mx_raw 2%Z = Some (dmk 3 2 (mget Z_ring mx_D2)) /\
  d_matrix Z_ring mx_raw 1%Z = Some (dmk 1 3 (mget Z_ring mx_D1)) /\
  zero_prod Z_ring (dmk 3 2 (mget Z_ring mx_D2)) (dmk 1 3 (mget Z_ring mx_D1)) /\
  obind (trans_new mx_U mx_Ui) (fun t => summand_new 3 3 [] t) = Some (b_get mx_bc 1%Z) /\
  b_homology_merge Z_ring zisu snf_diag mx_bc 1%Z
  = Some (mk_summand 3 1 [2%Z]
            (mk_trans 3 2 [mkm 2 3 [[0; 0; 1]; [0; 1; 0]]%Z] [mkm 3 2 [[0; -1]; [0; 1]; [1; 0]]%Z])) /\
  b_homology_at Z_ring zisu snf_diag mx_bc 1%Z
  = Some (mk_summand 3 1 [2%Z]
            (mk_trans 3 2 [mx_U; mkm 2 3 [[0; 0; 1]; [0; 1; 0]]%Z] [mx_Ui; mkm 3 2 [[0; 0]; [0; 1]; [1; 0]]%Z])) /\
  b_homology_merge_twice Z_ring zisu snf_diag mx_bc 1%Z = b_homology_merge Z_ring zisu snf_diag mx_bc 1%Z.
Proof.
  split; [exact snf_diag_contract|].
  destruct mx_bc_ok as [A [B C]]. destruct mx_iso as [I2 [I1 I0]]. destruct mx_raw_mats as [M2 M1].
  repeat (split; [first [assumption|exact mx_zero_prod|exact mx_s1_new|exact mx_run|exact mx_run_at]|]).
  exact mx_run_twice.
Qed.
Print Assumptions C07_merge_example.
