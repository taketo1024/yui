(* Soundness of the sparse Smith diagonalisation of Model/KhHomology.v: the homology tables.
   What the entries of [groups_from] / [kh_groups] denote once [smith_diag] is known to be sound:
   for the cube built by [build_cube] every list of factors used in the tables is a Smith form of the
   (dense, selected) differential, the free rank printed in degree k is
        n_k - rank d_k - rank d_(k-1)
   for the rank as an invariant of the matrix (the size of ANY diagonal form with non-zero diagonal,
   Proofs/C07Rank.v), and the torsion printed is the list of factors > 1 of d_(k-1). *)
From Coq Require Import List Arith Bool ZArith Lia.
Require Import Yui.Base.Ring Yui.Base.MatF Yui.Proofs.C07Algebra Yui.Proofs.C07Rank.
Require Import Yui.Model.KhCube Yui.Model.KhHomology.
Require Import Yui.Proofs.KhSmithRows Yui.Proofs.KhSmithMat Yui.Proofs.KhSmithSteps Yui.Proofs.KhSmithMain.
Import ListNotations.
Open Scope Z_scope.

(* the number of factors is the rank *)
Theorem SmithOf_rank_unique m n A ds :
  SmithOf m n A ds -> forall r a, smith_form Z_ring m n A r a -> r = length ds.
Proof.
  intros H r a F.
  exact (smith_form_rank_unique Z_ring Z_ring_laws Z_integral m n A r a _ _ F (SmithOf_smith_form m n A ds H)).
Qed.

Lemma SmithOf_nil n A : SmithOf 0 n A [].
Proof.
  split; [intros d []|]. split; [cbn [length]; intros; lia|]. split; [cbn [length]; lia|].
  apply equiv_of_meq. intros i j Hi. lia.
Qed.

Theorem group_at_denotes nk m1 n1 A1 dprev m2 n2 A2 dk :
  SmithOf m1 n1 A1 dprev -> SmithOf m2 n2 A2 dk ->
  let g := group_at nk dprev dk in
  (forall r1 a1 r2 a2,
      smith_form Z_ring m1 n1 A1 r1 a1 -> smith_form Z_ring m2 n2 A2 r2 a2 ->
      g_rank g = Z.of_nat nk - Z.of_nat r2 - Z.of_nat r1) /\
  g_tors g = filter (fun d => 1 <? d) dprev /\
  (forall d, In d (g_tors g) <-> In d dprev /\ 1 < d) /\
  (length dprev = length (g_tors g) + length (filter (fun d => (d =? 1)%Z) dprev))%nat.
Proof.
  intros S1 S2 g. split; [|split; [reflexivity|split]].
  - intros r1 a1 r2 a2 F1 F2.
    rewrite (SmithOf_rank_unique _ _ _ _ S1 r1 a1 F1), (SmithOf_rank_unique _ _ _ _ S2 r2 a2 F2).
    reflexivity.
  - intros d. unfold g, group_at. cbn [g_tors]. rewrite filter_In. rewrite Z.ltb_lt. reflexivity.
  - unfold g, group_at. cbn [g_tors]. destruct S1 as [Hpos _].
    clear -Hpos. induction dprev as [|d l IH]; [reflexivity|].
    cbn [filter length]. pose proof (Hpos d (or_introl eq_refl)) as Hd.
    specialize (IH (fun e He => Hpos e (or_intror He))).
    destruct (Z.ltb_spec 1 d); destruct (Z.eqb_spec d 1); cbn [length]; lia.
Qed.

(* every row of the cube is sorted without zero entries, one row per source generator *)
Definition cube_shape (c : cube) : Prop :=
  forall k rows, rows_at c k = Some rows ->
    Forall (wf_above 0) rows /\ length rows = length (gens_at c k).

Lemma build_cube_shape l red h t : cube_shape (build_cube l red h t).
Proof.
  intros k rows H. unfold rows_at, gens_at, build_cube in *. cbn [c_rows c_gens] in *.
  set (n := crossing_num l) in *. set (vs := all_vertices l red) in *.
  destruct (Nat.lt_ge_cases k (S n)) as [Hk|Hk].
  - rewrite (nth_indep _ (Some []) (rows_of_images (d_images vs h t O))) in H
      by (now rewrite map_length, seq_length).
    rewrite (map_nth (fun k => rows_of_images (d_images vs h t k)) (seq 0 (S n)) O k) in H.
    rewrite (nth_indep _ [] (gens_of_weight vs O)) by (now rewrite map_length, seq_length).
    rewrite (map_nth (gens_of_weight vs) (seq 0 (S n)) O k).
    rewrite seq_nth in * by exact Hk. cbn [Nat.add] in *.
    unfold rows_of_images in H. destruct (existsb _ _); [discriminate|]. injection H as <-.
    split.
    + apply Forall_forall. intros r Hr. apply in_map_iff in Hr. destruct Hr as [im [<- _]].
      apply row_of_entries_wf_above.
    + rewrite map_length. unfold d_images. now rewrite map_length.
  - rewrite nth_overflow in H by (now rewrite map_length, seq_length).
    injection H as <-. rewrite nth_overflow by (now rewrite map_length, seq_length).
    split; [constructor|reflexivity].
Qed.

Lemma row_width (r : row) : exists n, forall c v, In (c, v) r -> (c < n)%nat.
Proof.
  induction r as [|[c0 v0] r [n IH]]; [exists O; intros c v []|].
  exists (Nat.max (S c0) n). intros c v [E|Hin].
  - injection E as -> _. lia.
  - pose proof (IH c v Hin). lia.
Qed.

Lemma row_wf_mono n n' r : (n <= n')%nat -> row_wf n r -> row_wf n' r.
Proof. intros Hle [H1 H2]. split; [exact H1|]. intros c v Hin. pose proof (H2 c v Hin). lia. Qed.

Lemma rows_width rows : Forall (wf_above 0) rows -> exists n, rows_wf n rows.
Proof.
  induction rows as [|r rows IH]; intros H; [exists O; constructor|].
  inversion H as [|? ? Hr Hrest]; subst. destruct (IH Hrest) as [n1 H1]. destruct (row_width r) as [n2 H2].
  exists (Nat.max n1 n2). constructor.
  - split; [exact Hr|]. intros c v Hin. pose proof (H2 c v Hin). lia.
  - unfold rows_wf in *. rewrite Forall_forall in *. intros r' Hr'.
    apply (row_wf_mono n1); [lia|now apply H1].
Qed.

(* the rows [factors] diagonalises: those of the selected source generators *)
Definition sel_rows (c : cube) (k : nat) (sel : vertex * label -> bool) (rows : list row) : list row :=
  map snd (filter (fun p => sel (fst p)) (combine (gens_at c k) rows)).

Lemma sel_rows_length {A B} (sel : A -> bool) (gs : list A) (rows : list B) :
  length gs = length rows ->
  length (map snd (filter (fun p => sel (fst p)) (combine gs rows))) = length (filter sel gs).
Proof.
  revert rows. induction gs as [|g gs IH]; intros rows Hlen; [reflexivity|].
  destruct rows as [|r rows]; cbn [length] in Hlen; [lia|].
  cbn [combine filter fst]. destruct (sel g); cbn [map length]; rewrite IH by lia; reflexivity.
Qed.

(* ds is a Smith form of the (selected) differential d_k of the cube; the matrix is the transposed
   differential: one row per selected source generator, columns = target generator indices *)
Definition IsFactorsOf (c : cube) (k : nat) (sel : vertex * label -> bool) (ds : list Z) : Prop :=
  exists rows n,
    rows_at c k = Some rows /\
    rows_wf n (sel_rows c k sel rows) /\
    length (sel_rows c k sel rows) = count_gens c k sel /\
    SmithOf (count_gens c k sel) n (dense (sel_rows c k sel rows)) ds.

Theorem factors_sound c k sel ds :
  cube_shape c -> factors c k sel = Some ds -> IsFactorsOf c k sel ds.
Proof.
  intros Hc H. unfold factors in H. destruct (rows_at c k) as [rows|] eqn:Er; [|discriminate].
  destruct (Hc k rows Er) as [Hwf Hlen]. cbv zeta in H. fold (sel_rows c k sel rows) in H.
  assert (Hsub : Forall (wf_above 0) (sel_rows c k sel rows)).
  { apply Forall_forall. intros r Hr. unfold sel_rows in Hr. apply in_map_iff in Hr.
    destruct Hr as [[g r'] [E Hin]]. cbn [snd] in E. subst r'. apply filter_In in Hin. destruct Hin as [Hin _].
    apply in_combine_r in Hin. rewrite Forall_forall in Hwf. now apply Hwf. }
  destruct (rows_width _ Hsub) as [n Hn].
  assert (Hl : length (sel_rows c k sel rows) = count_gens c k sel).
  { unfold sel_rows, count_gens. apply sel_rows_length. now rewrite Hlen. }
  exists rows, n. split; [exact Er|]. split; [exact Hn|]. split; [exact Hl|].
  rewrite <- Hl. exact (smith_diag_sound n _ _ ds Hn H).
Qed.

Lemma groups_from_entries c sel todo : forall k dprev gs,
  groups_from c sel k todo dprev = Some gs ->
  forall i, (i < todo)%nat -> exists dp dk,
    factors c (k + i) sel = Some dk /\
    match i with O => dp = dprev | S i' => factors c (k + i') sel = Some dp end /\
    nth_error gs i = Some ((k + i)%nat, group_at (count_gens c (k + i) sel) dp dk).
Proof.
  induction todo as [|m IH]; intros k dprev gs H i Hi; [lia|].
  cbn [groups_from] in H. destruct (factors c k sel) as [dk|] eqn:Ef; [|discriminate].
  destruct (groups_from c sel (S k) m dk) as [rest|] eqn:Eg; [|discriminate]. injection H as <-.
  destruct i as [|i].
  - exists dprev, dk. rewrite Nat.add_0_r. split; [exact Ef|]. split; reflexivity.
  - destruct (IH (S k) dk rest Eg i ltac:(lia)) as [dp [dk' [F1 [F2 F3]]]].
    exists dp, dk'. replace (k + S i)%nat with (S k + i)%nat by lia. split; [exact F1|]. split; [|exact F3].
    destruct i as [|i'].
    + subst dp. now rewrite Nat.add_0_r.
    + replace (k + S i')%nat with (S k + i')%nat by lia. exact F2.
Qed.

Theorem groups_from_sound c sel todo gs :
  cube_shape c -> groups_from c sel 0 todo [] = Some gs ->
  forall k, (k < todo)%nat -> exists dp dk,
    nth_error gs k = Some (k, group_at (count_gens c k sel) dp dk) /\
    IsFactorsOf c k sel dk /\
    match k with O => dp = [] | S k' => IsFactorsOf c k' sel dp end.
Proof.
  intros Hc H k Hk. destruct (groups_from_entries c sel todo 0 [] gs H k Hk) as [dp [dk [F1 [F2 F3]]]].
  cbn [Nat.add] in *. exists dp, dk. split; [exact F3|]. split; [now apply factors_sound|].
  destruct k as [|k']; [exact F2|now apply factors_sound].
Qed.

(* the integral table of the oracle on a diagram: every degree 0..n is listed with
   rank = n_k - rank d_k - rank d_(k-1) (rank = size of any diagonal form) and torsion = factors > 1 of d_(k-1) *)
Theorem kh_groups_sound l red h t gs :
  kh_groups (build_cube l red h t) = Some gs ->
  let c := build_cube l red h t in
  forall k, (k <= crossing_num l)%nat -> exists dp dk,
    nth_error gs k = Some (k, group_at (count_gens c k (fun _ => true)) dp dk) /\
    IsFactorsOf c k (fun _ => true) dk /\
    match k with O => dp = [] | S k' => IsFactorsOf c k' (fun _ => true) dp end.
Proof.
  intros H c k Hk. unfold kh_groups in H. fold c in H. destruct (cube_ok c); [|discriminate].
  apply (groups_from_sound c _ (S (c_n c)) gs (build_cube_shape l red h t) H). cbn [c build_cube c_n]. lia.
Qed.

(* the bigraded table: every quantum-degree piece is a [groups_from] table of the selected subcomplex *)
Lemma kh_groups_bigraded_entries c tbl :
  kh_groups_bigraded c = Some tbl ->
  forall q gq, In (q, gq) tbl ->
    groups_from c (fun g => q_local g =? q) 0 (S (c_n c)) [] = Some gq.
Proof.
  unfold kh_groups_bigraded. destruct (cube_ok c); [|discriminate].
  generalize (q_values c). intros qs. revert tbl.
  induction qs as [|q0 qs IH]; intros tbl H q gq Hin; cbn [fold_right] in H.
  - injection H as <-. destruct Hin.
  - destruct (fold_right _ (Some []) qs) as [a|] eqn:Ea; [|discriminate].
    destruct (groups_from c (fun g => q_local g =? q0) 0 (S (c_n c)) []) as [g0|] eqn:Eg; [|discriminate].
    injection H as <-. destruct Hin as [E|Hin].
    + injection E as <- <-. exact Eg.
    + exact (IH a eq_refl q gq Hin).
Qed.

Theorem kh_groups_bigraded_sound l red h t tbl :
  kh_groups_bigraded (build_cube l red h t) = Some tbl ->
  let c := build_cube l red h t in
  forall q gq, In (q, gq) tbl ->
  let sel := fun g => q_local g =? q in
  forall k, (k <= crossing_num l)%nat -> exists dp dk,
    nth_error gq k = Some (k, group_at (count_gens c k sel) dp dk) /\
    IsFactorsOf c k sel dk /\
    match k with O => dp = [] | S k' => IsFactorsOf c k' sel dp end.
Proof.
  intros H c q gq Hin sel k Hk.
  pose proof (kh_groups_bigraded_entries c tbl H q gq Hin) as G.
  apply (groups_from_sound c sel (S (c_n c)) gq (build_cube_shape l red h t) G). cbn [c build_cube c_n]. lia.
Qed.
