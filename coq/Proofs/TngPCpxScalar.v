(* The hypothesis of Proofs/TngPCpxSem.v DISCHARGED for completely delooped complexes: when every edge of the complex is
   a scalar multiple r * (the empty cobordism), r <> 0 (what part_eval leaves of a combination of closed cobordisms),
   the interpretation "coefficient of the empty cobordism" in the ring Z satisfies [sem_laws] - by computation with the
   model's own LcCob operations.  Hence, unconditionally: an eliminate step on such a complex replaces the integer matrix
   entry by d - c a^-1 b and preserves d d = 0 over Z.
   At the end: boolean checkers for the hypotheses ([scalar_b], [cpx_scalar_b], [nodup_b], [dd_b]) with their soundness, and
   [validate_in_complete]. *)
From Coq Require Import List Arith Bool ZArith Lia.
Import ListNotations.
Require Import Yui.Model.Link Yui.Model.Tng Yui.Model.TngCob Yui.Model.TngStack Yui.Model.TngComplex.
Require Import Yui.Proofs.TngPElim Yui.Proofs.TngPElimMat Yui.Proofs.TngPCpx Yui.Proofs.TngPCpxSem Yui.Proofs.TngPStackLc.
Local Open Scope Z_scope.

Definition Z_nc : ncring_ops Z := mk_ncring_ops Z 0 1 Z.add Z.opp Z.mul.
Lemma Z_nc_laws : ncring_laws Z_nc.
Proof. constructor; cbn [nadd nneg nmul nzero none Z_nc]; intros; ring. Qed.
Definition ZC : preadd_ops := ring_preadd Z_nc.
Definition ZC_laws : preadd_laws ZC := ring_preadd_laws Z_nc Z_nc_laws.

(* scalar combinations: [] or [([], r)] with r <> 0 *)
Definition scalar (f : lccob) : Prop := f = [] \/ exists r, r <> 0 /\ f = [([], r)].
Definition coef (f : lccob) : Z := match f with [([], r)] => r | _ => 0 end.

Lemma scalar_lcz r : scalar (lcz r).
Proof. unfold lcz. destruct (Z.eqb_spec r 0) as [->|Hr]; [now left|right; now exists r]. Qed.
Lemma coef_lcz r : coef (lcz r) = r.
Proof. unfold lcz. now destruct (Z.eqb_spec r 0) as [->|Hr]. Qed.
(* every scalar combination is some [lcz r] *)
Lemma scalar_case (P : lccob -> Prop) : (forall r, P (lcz r)) -> forall f, scalar f -> P f.
Proof.
  intros H f [->|(r & Hr & ->)]; [exact (H 0)|]. specialize (H r). unfold lcz in H.
  now destruct (Z.eqb_spec r 0).
Qed.

Lemma lc_mul_scalar r s : lc_mul (lcz r) (lcz s) = Some (lcz (r * s)).
Proof.
  unfold lcz. destruct (Z.eqb_spec r 0) as [->|Hr]; [reflexivity|].
  destruct (Z.eqb_spec s 0) as [->|Hs].
  - rewrite Z.mul_0_r. reflexivity.
  - assert (Hrs : r * s <> 0) by (apply Z.neq_mul_0; now split).
    unfold lc_mul, lc_combine. cbn [lc_combine_loop lc_combine_row]. cbn [cob_mul cob_stack cob_stack_fuel is_nil].
    unfold lc_add_pair. destruct (Z.eqb_spec (r * s) 0); [contradiction|]. cbn [lc_insert lc_clean filter snd].
    destruct (Z.eqb_spec (r * s) 0); [contradiction|]. reflexivity.
Qed.
Lemma lc_part_eval_scalar h t r : lc_part_eval h t (lcz r) = Some (lcz r).
Proof. unfold lcz. destruct (r =? 0); reflexivity. Qed.
Lemma lc_neg_scalar r : lc_neg (lcz r) = lcz (- r).
Proof.
  unfold lcz. destruct (Z.eqb_spec r 0) as [->|Hr]; [reflexivity|]. destruct (Z.eqb_spec (- r) 0); [lia|reflexivity].
Qed.
Lemma lc_sub_scalar r s : lc_sub (lcz r) (lcz s) = lcz (r - s).
Proof. unfold lc_sub. now rewrite lc_neg_scalar, lcz_add. Qed.
Lemma lc_negv_scalar r : lc_negv (lcz r) = lcz (- r).
Proof. unfold lc_negv. rewrite lc_neg_scalar. exact (lcz_add 0 (- r)). Qed.
Lemma lc_inv_scalar r a' : lc_inv (lcz r) = Some (Some a') -> a' = lcz r /\ r * r = 1.
Proof.
  unfold lcz. destruct (Z.eqb_spec r 0) as [->|Hr]; [discriminate|].
  cbn [lc_inv]. unfold lc_inv_first. cbn [cob_inv cob_is_invertible forallb map cob_new cob_sort]. cbn.
  unfold z_is_unit. destruct (Z.eqb_spec r 1) as [->|H1]; cbn [orb].
  - intros [= <-]. split; reflexivity.
  - destruct (Z.eqb_spec r (-1)) as [->|H2]; [|discriminate]. intros [= <-]. split; reflexivity.
Qed.

Definition sem_scalar (_ _ : tkey) (f : lccob) : phom ZC tt tt := coef f.
Definition ty_scalar (_ _ : tkey) (f : lccob) : Prop := scalar f.

Theorem scalar_sem_laws h t : sem_laws ZC (fun _ => tt) sem_scalar ty_scalar h t.
Proof.
  constructor; unfold sem_scalar, ty_scalar; cbn [peq pzero padd pneg pcomp pid ZC ring_preadd nzero none nadd nneg nmul Z_nc].
  - reflexivity.
  - intros _ _ _ f g fg Tf Tg. induction Tf as [r] using scalar_case. induction Tg as [s] using scalar_case.
    rewrite lc_mul_scalar, !coef_lcz. intros [= <-]. split; [apply scalar_lcz|apply coef_lcz].
  - intros _ _ f g Tf. induction Tf as [r] using scalar_case. rewrite lc_part_eval_scalar. intros [= <-].
    split; [apply scalar_lcz|reflexivity].
  - intros _ _ f g Tf Tg. induction Tf as [r] using scalar_case. induction Tg as [s] using scalar_case.
    rewrite lc_sub_scalar, !coef_lcz. split; [apply scalar_lcz|ring].
  - intros _ _ f Tf. induction Tf as [r] using scalar_case. rewrite lc_negv_scalar, !coef_lcz. split; [apply scalar_lcz|reflexivity].
  - intros _ _ a a' Ta. induction Ta as [r] using scalar_case. intros E. apply lc_inv_scalar in E. destruct E as [-> E].
    rewrite coef_lcz. split; [apply scalar_lcz|now split].
Qed.

(* the integer matrix of a scalar complex *)
Definition zentry (vs : list vertex) (k l : tkey) : Z := match edge vs k l with Some f => coef f | None => 0 end.
Fixpoint zsum (ms : list tkey) (F : tkey -> Z) : Z := match ms with [] => 0 | m :: r => F m + zsum r F end.

Lemma Eof_zentry vs k l : Eof ZC (fun _ => tt) sem_scalar vs k l = zentry vs k l.
Proof. reflexivity. Qed.
Lemma lsum_zsum ms (F : tkey -> Z) : lsum ZC (X := tt) (Y := tt) ms F = zsum ms F.
Proof. induction ms as [|m ms IH]; [reflexivity|]. cbn [lsum zsum]. now rewrite IH. Qed.

Theorem eliminate_scalar c k0 k1 c' :
  typed ty_scalar (c_verts c) -> in_complete (c_verts c) ->
  cpx_eliminate c k0 k1 = Some c' ->
  exists a ainv,
    edge (c_verts c) k0 k1 = Some a /\ lc_inv a = Some (Some ainv) /\ coef ainv * coef a = 1 /\
    (forall l0 l1, l0 <> k0 -> l0 <> k1 -> l1 <> k0 -> l1 <> k1 ->
       zentry (c_verts c') l0 l1 =
       zentry (c_verts c) l0 l1 - zentry (c_verts c) k0 l1 * coef ainv * zentry (c_verts c) l0 k1) /\
    (forall l0 l1 f, l0 <> k0 -> l0 <> k1 -> l1 <> k0 -> l1 <> k1 -> edge (c_verts c') l0 l1 = Some f -> scalar f).
Proof.
  intros Ty Ic El.
  destruct (eliminate_entry ZC ZC_laws (fun _ => tt) sem_scalar ty_scalar (c_h c) (c_t c) (scalar_sem_laws _ _)
              c k0 k1 c' eq_refl eq_refl Ty Ic El) as (a & ainv & Ea & Einv & _ & Il & _ & Hent & Hty).
  exists a, ainv. split; [exact Ea|]. split; [exact Einv|]. split; [exact Il|]. split; [|exact Hty].
  intros l0 l1 N00 N01 N10 N11. specialize (Hent l0 l1 N00 N01 N10 N11).
  assert (Hz : zentry (c_verts c') l0 l1 =
               zentry (c_verts c) l0 l1 + - (zentry (c_verts c) k0 l1 * coef ainv * zentry (c_verts c) l0 k1)) by exact Hent.
  rewrite Hz. ring.
Qed.

Theorem eliminate_dd_scalar c k0 k1 c' :
  typed ty_scalar (c_verts c) -> in_complete (c_verts c) ->
  cpx_eliminate c k0 k1 = Some c' ->
  (forall x y, In x (map vkey (c_verts c)) -> In y (map vkey (c_verts c)) ->
     zsum (map vkey (c_verts c)) (fun m => zentry (c_verts c) m y * zentry (c_verts c) x m) = 0) ->
  forall x y, In x (map vkey (c_verts c')) -> In y (map vkey (c_verts c')) ->
    zsum (map vkey (c_verts c')) (fun m => zentry (c_verts c') m y * zentry (c_verts c') x m) = 0.
Proof.
  intros Ty Ic El DD x y Hx Hy.
  pose proof (eliminate_dd ZC ZC_laws (fun _ => tt) sem_scalar ty_scalar (c_h c) (c_t c) (scalar_sem_laws _ _)
                c k0 k1 c' eq_refl eq_refl Ty Ic El) as D.
  rewrite <- lsum_zsum. apply D; try assumption.
  intros x' y' Hx' Hy'. rewrite lsum_zsum. now apply DD.
Qed.

Definition scalar_b (f : lccob) : bool :=
  match f with
  | [] => true
  | [(k, r)] => is_nil k && negb (r =? 0)
  | _ => false
  end.
Definition cpx_scalar_b (vs : list vertex) : bool := forallb (fun v => forallb (fun e => scalar_b (snd e)) (vout v)) vs.
Fixpoint nodup_b (ks : list tkey) : bool :=
  match ks with [] => true | k :: r => negb (key_mem k r) && nodup_b r end.
Definition dd_b (vs : list vertex) : bool :=
  let ks := map vkey vs in
  forallb (fun x => forallb (fun y => zsum ks (fun m => zentry vs m y * zentry vs x m) =? 0) ks) ks.

Lemma scalar_b_sound f : scalar_b f = true -> scalar f.
Proof.
  destruct f as [|[k r] [|q f]]; cbn [scalar_b]; try discriminate; [now left|].
  intros E. apply andb_true_iff in E. destruct E as [E1 E2]. destruct k; [|discriminate].
  right. exists r. split; [|reflexivity]. apply negb_true_iff in E2. now apply Z.eqb_neq.
Qed.
Lemma cpx_scalar_b_sound vs : cpx_scalar_b vs = true -> typed ty_scalar vs.
Proof.
  intros E k l f Ee. unfold edge in Ee. destruct (find_v vs k) as [u|] eqn:Eu; [|discriminate].
  destruct (find_v_some _ _ _ Eu) as [Hu _]. apply find_e_some in Ee.
  unfold cpx_scalar_b in E. rewrite forallb_forall in E. specialize (E u Hu). rewrite forallb_forall in E.
  apply scalar_b_sound. exact (E (l, f) Ee).
Qed.
Lemma validate_in_complete c : cpx_validate c = Some true -> in_complete (c_verts c).
Proof.
  intros Ev k l v f Ee Ew. destruct (validate_sound c Ev k l f Ee) as (vk & vl & _ & Evl & Hin & _). congruence.
Qed.
Lemma nodup_b_sound ks : nodup_b ks = true -> NoDup ks.
Proof.
  induction ks as [|k ks IH]; cbn [nodup_b]; [constructor|]. intros E. apply andb_true_iff in E. destruct E as [E1 E2].
  constructor; [|now apply IH]. intros Hi. apply key_mem_In in Hi. rewrite Hi in E1. discriminate.
Qed.
Lemma dd_b_sound vs :
  dd_b vs = true ->
  forall x y, In x (map vkey vs) -> In y (map vkey vs) ->
    zsum (map vkey vs) (fun m => zentry vs m y * zentry vs x m) = 0.
Proof.
  unfold dd_b. intros E x y Hx Hy. rewrite forallb_forall in E. specialize (E x Hx). rewrite forallb_forall in E.
  specialize (E y Hy). now apply Z.eqb_eq.
Qed.
