(* C16 (rest): Ring::inv / is_unit / normalizing_unit of PolyBase, is_const / const_term / is_one, and pow
   (Model/Poly.v), for every monomial type with [mono_laws] + [mono_unit_laws] and every commutative ring
   with [ring_laws] and a unit dictionary with [unit_laws]. *)
From Coq Require Import List Bool Arith NArith ZArith Lia Permutation Ring.
Require Import Yui.Base.Ring Yui.Model.Lc Yui.Model.Mono Yui.Model.Poly.
Require Import Yui.Proofs.C16Lc Yui.Proofs.C16Mono Yui.Proofs.C16Poly Yui.Proofs.C16RestMono Yui.Proofs.C16RestPowZ.
Import ListNotations.

Section UnitProofs.
  Context {X R : Type} (m : mono_ops X) (o : ring_ops R) (ok : X -> Prop).
  Context (ML : mono_laws m ok) (L : ring_laws o).

  Add Ring Ru : (ring_theory_of_laws o L).

  Notation "0" := (rzero o).
  Notation "1" := (rone o).
  Infix "+" := (radd o).
  Infix "*" := (rmul o).
  Notation poly := (lc X R).
  Notation xeqb := (meqb m).
  Notation coeff := (coeff xeqb o).
  Notation delta := (delta xeqb o).
  Notation keys := (@keys X R).
  Notation WF := (WF o ok).
  Infix "**" := (mmul m) (at level 40, left associativity).
  Infix "==" := (peq m o) (at level 70).

  Let xeqb_eq : forall x y, xeqb x y = true <-> x = y := meqb_eq m ok ML.

  (* closes [WF] goals about products, powers, 1, constants and the empty polynomial from [WF] hypotheses *)
  Ltac wf := repeat (assumption || apply (WF_mul m o ok ML L) || apply (WF_pow m o ok ML L) || apply (WF_one m o ok ML L)
                     || apply (WF_from_const m o ok ML L) || apply (WF_nil o ok)).

  Lemma from_pair_nonzero x r : r <> 0 -> p_from_pair m o x r = [(x, r)].
  Proof.
    intros N. unfold p_from_pair, from_pair, from_iter. cbn [fold_left]. unfold add_pair. cbn [fst snd].
    destruct (ris_zero_spec o L r) as [E|_]; [contradiction|]. cbn [upd_add clean filter snd].
    destruct (ris_zero_spec o L r) as [E|_]; [contradiction|]. reflexivity.
  Qed.
  Lemma from_pair_zero x : p_from_pair m o x 0 = [].
  Proof.
    unfold p_from_pair, from_pair, from_iter. cbn [fold_left]. unfold add_pair. cbn [fst snd].
    destruct (ris_zero_spec o L 0) as [_|N]; [reflexivity|congruence].
  Qed.
  Lemma coeff_from_pair x r z : coeff (p_from_pair m o x r) z = delta z x r.
  Proof.
    unfold p_from_pair, from_pair. rewrite (coeff_from_iter xeqb o xeqb_eq L). unfold rcoeff.
    rewrite (lsum_cons o), (lsum_nil o). cbn [fst snd]. ring.
  Qed.
  Lemma delta_same x r : delta x x r = r.
  Proof. unfold Lc.delta. now rewrite (proj2 (xeqb_eq x x) eq_refl). Qed.
  Lemma delta_other z x r : x <> z -> delta z x r = 0.
  Proof. intros N. unfold Lc.delta. destruct (xeqb x z) eqn:E; [apply xeqb_eq in E; contradiction|reflexivity]. Qed.

  Lemma mul_nonzero_l a b : 1 <> 0 -> a * b = 1 -> a <> 0.
  Proof. intros N1 E Ea. apply N1. rewrite <- E, Ea. ring. Qed.
  Lemma nontrivial_of a : a <> 0 -> 1 <> 0.
  Proof. intros Na E. apply Na. replace a with (a * 1) by ring. rewrite E. ring. Qed.

  Lemma WF_single x a : WF [(x, a)] -> ok x /\ a <> 0.
  Proof.
    intros [[_ Nz] Ko]. unfold KeysOk in Ko. cbn in Ko. inversion Ko; subst. inversion Nz; subst. auto.
  Qed.
  Lemma WF_single_intro x a : ok x -> a <> 0 -> WF [(x, a)].
  Proof.
    intros Hx Na. split; [split|]; cbn.
    - constructor; [intros []|constructor].
    - constructor; [assumption|constructor].
    - constructor; [assumption|constructor].
  Qed.

  (* a WF polynomial with the coefficient function of a single term is that single term *)
  Lemma peq_single p x a : WF p -> a <> 0 -> (forall z, coeff p z = delta z x a) -> ok x -> p = [(x, a)].
  Proof.
    intros Hp Na E Hx. apply Permutation_length_1_inv.
    apply (peq_perm m o ok ML); [now apply WF_single_intro|assumption|].
    intros z. rewrite E. apply (coeff_single m o).
  Qed.

  Theorem const_term_spec p : p_const_term m o p = coeff p (mone m).
  Proof. reflexivity. Qed.

  (* is_const: EVERY monomial of the support is 1 (not just the leading one) *)
  Theorem is_const_iff p : WF p -> (p_is_const m p = true <-> forall x, coeff p x <> 0 -> x = mone m).
  Proof.
    intros [Np Kp]. unfold p_is_const. rewrite forallb_forall. split.
    - intros H x Hx. apply (support_keys xeqb o xeqb_eq p Np) in Hx. unfold Lc.keys in Hx.
      apply in_map_iff in Hx as [t [<- It]]. specialize (H t It). unfold mis_one in H. now apply xeqb_eq.
    - intros H t It. unfold mis_one. apply xeqb_eq. apply H.
      apply (support_keys xeqb o xeqb_eq p Np). unfold Lc.keys. apply in_map_iff. now exists t.
  Qed.

  Theorem is_const_shape p : WF p -> (p_is_const m p = true <-> p = [] \/ exists c, c <> 0 /\ p = [(mone m, c)]).
  Proof.
    intros Hp. split.
    - intros H. destruct (is_const_cases m o ok ML p Hp H) as [->|[c ->]]; [now left|right].
      exists c. split; [apply (WF_single _ _ Hp)|reflexivity].
    - intros [->|[c [_ ->]]]; [reflexivity|]. cbn. unfold mis_one. now rewrite (proj2 (xeqb_eq _ _) eq_refl).
  Qed.

  Theorem is_const_from_const p : WF p -> (p_is_const m p = true <-> p = p_from_const m o (p_const_term m o p)).
  Proof.
    intros Hp. rewrite (is_const_shape p Hp). split.
    - intros [->|[c [Nc ->]]].
      + rewrite (const_term_nil m o). unfold p_from_const. now rewrite from_pair_zero.
      + rewrite (const_term_single m o ok ML). unfold p_from_const. now rewrite from_pair_nonzero.
    - intros E. destruct (ris_zero_spec o L (p_const_term m o p)) as [Z|N].
      + left. rewrite E, Z. unfold p_from_const. apply from_pair_zero.
      + right. exists (p_const_term m o p). split; [assumption|]. rewrite E at 1. unfold p_from_const. now apply from_pair_nonzero.
  Qed.

  Theorem is_one_iff p : WF p -> (p_is_one m o p = true <-> p == p_one m o).
  Proof.
    intros Hp. unfold p_is_one. rewrite andb_true_iff, (is_const_iff p Hp).
    split.
    - intros [Hc H1] z. destruct (ris_one_spec o L (p_const_term m o p)) as [E|]; [|discriminate].
      unfold p_one. rewrite coeff_from_pair. destruct (xeqb_spec xeqb xeqb_eq (mone m) z) as [<-|N].
      + rewrite delta_same. exact E.
      + rewrite delta_other by assumption. destruct (ris_zero_spec o L (coeff p z)) as [Z|NZ]; [assumption|].
        exfalso. apply N. symmetry. now apply Hc.
    - intros E. split.
      + intros x Hx. rewrite E in Hx. unfold p_one in Hx. rewrite coeff_from_pair in Hx.
        destruct (xeqb_spec xeqb xeqb_eq (mone m) x) as [<-|N]; [reflexivity|]. rewrite delta_other in Hx by assumption. congruence.
      + rewrite const_term_spec, E. unfold p_one. rewrite coeff_from_pair, delta_same. apply (reqb_refl o L).
  Qed.

  Lemma mul_1_l a : WF a -> p_mul m o (p_one m o) a == a.
  Proof.
    intros Ha. eapply (peq_trans m o); [apply (mul_comm m o ok ML L); wf|]. now apply (mul_1_r m o ok ML L).
  Qed.

  Theorem pow_0 a : p_pow m o a 0 = p_one m o.
  Proof. reflexivity. Qed.
  Theorem pow_1 a : WF a -> p_pow m o a 1 == a.
  Proof. intros Ha. cbn [p_pow]. now apply mul_1_l. Qed.
  Theorem pow_succ a n : p_pow m o a (S n) = p_mul m o (p_pow m o a n) a.
  Proof. reflexivity. Qed.

  Theorem pow_add a n k : WF a -> p_pow m o a (n + k) == p_mul m o (p_pow m o a n) (p_pow m o a k).
  Proof.
    intros Ha. induction k as [|k IH].
    - rewrite Nat.add_0_r. cbn [p_pow]. apply (peq_sym m o). apply (mul_1_r m o ok ML L). wf.
    - rewrite Nat.add_succ_r. cbn [p_pow].
      eapply (peq_trans m o); [apply (mul_congr m o ok ML L _ (p_mul m o (p_pow m o a n) (p_pow m o a k)) a a); try wf;
                                try exact IH; apply (peq_refl m o)|].
      apply (peq_sym m o). apply (mul_assoc m o ok ML L); wf.
  Qed.

  (* (x a)(y b) = (x y)(a b) *)
  Lemma mul4 x a y b : WF x -> WF a -> WF y -> WF b ->
    p_mul m o (p_mul m o x a) (p_mul m o y b) == p_mul m o (p_mul m o x y) (p_mul m o a b).
  Proof.
    intros Hx Ha Hy Hb.
    assert (E : p_mul m o a (p_mul m o y b) == p_mul m o y (p_mul m o a b)).
    { eapply (peq_trans m o); [apply (mul_assoc m o ok ML L); wf|].
      eapply (peq_trans m o); [apply (mul_congr m o ok ML L _ (p_mul m o y a) b b); try wf;
                                [apply (mul_comm m o ok ML L); wf|apply (peq_refl m o)]|].
      apply (peq_sym m o). apply (mul_assoc m o ok ML L); wf. }
    eapply (peq_trans m o); [apply (peq_sym m o); apply (mul_assoc m o ok ML L); wf|].
    eapply (peq_trans m o); [apply (mul_congr m o ok ML L x x _ (p_mul m o y (p_mul m o a b))); try wf;
                              try exact E; apply (peq_refl m o)|].
    apply (mul_assoc m o ok ML L); wf.
  Qed.

  Lemma pow_inverse a b k : WF a -> WF b -> p_mul m o a b == p_one m o ->
    p_mul m o (p_pow m o a k) (p_pow m o b k) == p_one m o.
  Proof.
    intros Ha Hb E. induction k as [|k IH]; cbn [p_pow].
    - apply mul_1_l. wf.
    - eapply (peq_trans m o); [apply mul4; wf|].
      eapply (peq_trans m o); [apply (mul_congr m o ok ML L _ (p_one m o) _ (p_one m o)); try wf; try exact IH; try exact E|].
      apply mul_1_l. wf.
  Qed.

  Lemma lead_mono_unique a x : WF a -> a <> [] -> coeff a x <> 0 ->
    (forall y, coeff a y <> 0 -> y <> x -> mcmp_grlex m y x = Lt) -> p_lead_mono m o a = x.
  Proof.
    intros Ha Hne Hx Hmax. destruct (lead_term_spec m o ok ML a Ha Hne) as (_ & Hx' & Hmax').
    set (x' := p_lead_mono m o a) in *.
    destruct (xeqb_spec xeqb xeqb_eq x' x) as [E|N]; [assumption|]. exfalso.
    pose proof (Hmax x' Hx' N) as C1. assert (N' : x <> x') by congruence. pose proof (Hmax' x Hx N') as C2.
    destruct (mgrlex_ord m ok ML) as (_ & OA & _).
    destruct (p_support m o ok ML a Ha) as (_ & Hs & Hk & _). rewrite Forall_forall in Hk.
    rewrite (OA x' x) in C2 by (apply Hk, Hs; assumption). rewrite C1 in C2. discriminate.
  Qed.

  Lemma lead_mono_same_support a b : WF a -> WF b -> (forall z, coeff a z <> 0 <-> coeff b z <> 0) ->
    p_lead_mono m o a = p_lead_mono m o b.
  Proof.
    intros Ha Hb E. destruct b as [|tb b'] eqn:Eb.
    - assert (a = []); [|now subst].
      destruct a as [|[x r] a']; [reflexivity|]. exfalso.
      apply (proj1 (E x)); [|reflexivity]. apply (support_keys xeqb o xeqb_eq _ (proj1 Ha)). now left.
    - rewrite <- Eb in *. assert (Nb : b <> []) by (rewrite Eb; discriminate).
      destruct (lead_term_spec m o ok ML b Hb Nb) as (_ & Hx & Hmax). set (x := p_lead_mono m o b) in *.
      assert (Na : a <> []) by (intros ->; apply (proj2 (E x)) in Hx; now apply Hx).
      apply lead_mono_unique; try assumption; [now apply E|]. intros y Hy. apply Hmax. now apply E.
  Qed.

  Context (MU : mono_unit_laws m ok) (u : unit_ops R) (UL : unit_laws o u).

  Theorem is_unit_shape p :
    p_is_unit m u p = true <-> exists x a, p = [(x, a)] /\ mis_unit m x = true /\ ris_unit u a = true.
  Proof.
    unfold p_is_unit. split.
    - destruct p as [|[x a] [|t p']]; try discriminate. rewrite andb_true_iff. intros [H1 H2]. now exists x, a.
    - intros (x & a & -> & H1 & H2). now rewrite H1, H2.
  Qed.

  Theorem inv_shape p q :
    p_inv m o u p = Some q <->
    exists x a xi ai, p = [(x, a)] /\ minv m x = Some xi /\ rinv u a = Some ai /\ q = p_from_pair m o xi ai.
  Proof.
    unfold p_inv. split.
    - destruct p as [|[x a] [|t p']]; try discriminate.
      destruct (minv m x) as [xi|] eqn:E1; cbn [obind]; [|discriminate].
      destruct (rinv u a) as [ai|] eqn:E2; cbn [obind]; [|discriminate]. intros [= <-]. now exists x, a, xi, ai.
    - intros (x & a & xi & ai & -> & E1 & E2 & ->). now rewrite E1, E2.
  Qed.

  (* inv p = Some q  ->  q is well formed and p * q is literally the polynomial one *)
  Theorem inv_sound p q : WF p -> p_inv m o u p = Some q ->
    WF q /\ p_mul m o p q = p_one m o /\ p_mul m o q p = p_one m o.
  Proof.
    intros Hp H. apply inv_shape in H as (x & a & xi & ai & -> & E1 & E2 & ->).
    destruct (WF_single _ _ Hp) as [Hx Na]. pose proof (nontrivial_of a Na) as N1.
    destruct (minv_some m ok MU x xi Hx E1) as [Hxi Ex]. pose proof (rinv_some o u UL a ai E2) as Ea.
    assert (Nai : ai <> 0). { apply (mul_nonzero_l ai a N1). rewrite <- Ea. ring. }
    rewrite (from_pair_nonzero xi ai Nai). assert (Hq : WF [(xi, ai)]) by now apply WF_single_intro.
    assert (E : p_mul m o [(x, a)] [(xi, ai)] == p_one m o).
    { intros z. rewrite (p_mul_spec m o ok ML L) by assumption. rewrite (coeff_lc_mul_terms m o ok ML L).
      rewrite !(lsum_cons o), !(lsum_nil o). cbn [fst snd]. rewrite Ex, Ea. unfold p_one. rewrite coeff_from_pair. ring. }
    assert (P1 : p_one m o = [(mone m, 1)]) by (unfold p_one; now apply from_pair_nonzero).
    assert (G : forall r, WF r -> r == p_one m o -> r = p_one m o).
    { intros r Hr Er. rewrite P1. apply peq_single; try assumption; [|apply (mone_ok m ok ML)].
      intros z. rewrite Er. unfold p_one. apply coeff_from_pair. }
    split; [assumption|]. split; apply G; try wf; try exact E.
    eapply (peq_trans m o); [apply (mul_comm m o ok ML L); wf|exact E].
  Qed.

  Theorem is_unit_iff_inv p : WF p -> (p_is_unit m u p = true <-> exists q, p_inv m o u p = Some q).
  Proof.
    intros Hp. unfold p_is_unit, p_inv. destruct p as [|[x a] [|t p']]; try (split; [discriminate|intros [q [=]]]).
    destruct (WF_single _ _ Hp) as [Hx Na].
    rewrite andb_true_iff, (mis_unit_iff m ok MU x Hx), (rinv_unit o u UL a).
    rewrite (obind_defined _ _ _ _ (iff_refl _) (fun xi =>
             obind_defined _ _ _ _ (iff_refl _) (fun ai => some_defined _))).
    tauto.
  Qed.

  (* a unit has an inverse in the polynomial ring *)
  Corollary is_unit_invertible p : WF p -> p_is_unit m u p = true -> exists q, WF q /\ p_mul m o p q = p_one m o.
  Proof.
    intros Hp H. apply (is_unit_iff_inv p Hp) in H as [q Hq]. exists q.
    destruct (inv_sound p q Hp Hq) as (H1 & H2 & _). auto.
  Qed.

  (* is_unit in terms of the monomial type: ordinary exponents -> constant units; Laurent -> unit monomials *)
  Corollary is_unit_unsigned p : 1 <> 0 -> (forall x, ok x -> (mis_unit m x = true <-> x = mone m)) -> WF p ->
    (p_is_unit m u p = true <-> exists a, ris_unit u a = true /\ p = p_from_const m o a).
  Proof.
    intros N1 HU Hp. rewrite is_unit_shape. split.
    - intros (x & a & -> & H1 & H2). destruct (WF_single _ _ Hp) as [Hx Na]. apply (HU x Hx) in H1. subst x.
      exists a. split; [assumption|]. unfold p_from_const. now rewrite from_pair_nonzero.
    - intros (a & H2 & ->). assert (Na : a <> 0).
      { apply (rinv_unit o u UL) in H2 as [b Hb]. apply (rinv_some o u UL) in Hb. now apply (mul_nonzero_l a b). }
      exists (mone m), a. unfold p_from_const. rewrite from_pair_nonzero by assumption.
      split; [reflexivity|]. split; [|assumption]. apply (HU _ (mone_ok m ok ML)). reflexivity.
  Qed.
  Corollary is_unit_signed p : (forall x, mis_unit m x = true) ->
    (p_is_unit m u p = true <-> exists x a, ris_unit u a = true /\ p = [(x, a)]).
  Proof.
    intros HU. rewrite is_unit_shape. split.
    - intros (x & a & -> & _ & H2). now exists x, a.
    - intros (x & a & H2 & ->). exists x, a. auto.
  Qed.

  Lemma coeff_mul_const p c z : WF p -> coeff (p_mul m o p (p_from_const m o c)) z = coeff p z * c.
  Proof.
    intros Hp. rewrite <- (smul_mul_const m o ok ML L p c Hp z). now apply (coeff_p_smul m o ok ML L).
  Qed.

  Theorem normalizing_unit_spec p : 1 <> 0 -> WF p ->
    let c := rnunit u (p_lead_coeff m o p) in
    let nu := p_normalizing_unit m o u p in
    nu = [(mone m, c)] /\ WF nu /\ p_is_unit m u nu = true /\
    WF (p_mul m o p nu) /\
    (forall z, coeff (p_mul m o p nu) z = coeff p z * c) /\
    p_lead_mono m o (p_mul m o p nu) = p_lead_mono m o p /\
    p_lead_coeff m o (p_mul m o p nu) = p_lead_coeff m o p * c /\
    rnunit u (p_lead_coeff m o (p_mul m o p nu)) = 1.
  Proof.
    intros N1 Hp c nu.
    assert (Uc : ris_unit u c = true) by apply (rnunit_unit o u UL).
    assert (Hc : exists w, c * w = 1).
    { apply (rinv_unit o u UL) in Uc as [w Hw]. exists w. now apply (rinv_some o u UL). }
    destruct Hc as [w Hw]. assert (Nc : c <> 0) by now apply (mul_nonzero_l c w).
    assert (Enu : nu = [(mone m, c)]) by (unfold nu, p_normalizing_unit, p_from_const; now apply from_pair_nonzero).
    assert (Hnu : WF nu) by (unfold nu, p_normalizing_unit; wf).
    assert (Hq : WF (p_mul m o p nu)) by wf.
    assert (Hco : forall z, coeff (p_mul m o p nu) z = coeff p z * c) by (intros z; now apply coeff_mul_const).
    assert (Hsup : forall z, coeff (p_mul m o p nu) z <> 0 <-> coeff p z <> 0).
    { intros z. rewrite Hco. split; intros H E; apply H; [rewrite E; ring|].
      replace (coeff p z) with (coeff p z * c * w) by (rewrite <- (rmul_assoc o L), Hw; ring). rewrite E. ring. }
    assert (Hlm : p_lead_mono m o (p_mul m o p nu) = p_lead_mono m o p) by now apply lead_mono_same_support.
    assert (Hlc : forall a, WF a -> p_lead_coeff m o a = coeff a (p_lead_mono m o a)).
    { intros a Ha. destruct a as [|t a'] eqn:Ea; [reflexivity|]. rewrite <- Ea in *.
      apply (lead_term_spec m o ok ML a Ha). rewrite Ea. discriminate. }
    assert (Hl : p_lead_coeff m o (p_mul m o p nu) = p_lead_coeff m o p * c).
    { rewrite (Hlc _ Hq), Hlm, Hco, <- (Hlc _ Hp). reflexivity. }
    split; [assumption|]. split; [assumption|]. split.
    - rewrite Enu. cbn [p_is_unit]. rewrite Uc, andb_true_r.
      apply (munit_complete m ok MU (mone m) (mone m)); try apply (mone_ok m ok ML).
      apply (mmul_1_l m ok ML), (mone_ok m ok ML).
    - split; [assumption|]. split; [assumption|]. split; [assumption|]. split; [assumption|].
      rewrite Hl. apply (rnunit_idem o u UL).
  Qed.

  Theorem pow_z_nonneg a n : (0 <= n)%Z -> p_pow_z m o u a n = Some (p_pow m o a (Z.to_nat n)).
  Proof. intros H. unfold p_pow_z. destruct (Z.leb_spec 0 n); [reflexivity|lia]. Qed.

  Theorem pow_z_none a n : WF a -> (p_pow_z m o u a n = None <-> (n < 0)%Z /\ p_is_unit m u a = false).
  Proof.
    intros Ha. unfold p_pow_z. destruct (Z.leb_spec 0 n) as [H|H]; [split; [discriminate|lia]|].
    pose proof (is_unit_iff_inv a Ha) as HI. destruct (p_inv m o u a) as [i|]; cbn [obind].
    - split; [discriminate|]. intros [_ E]. rewrite (proj2 HI) in E by eauto. discriminate.
    - split; [|reflexivity]. intros _. split; [assumption|]. destruct (p_is_unit m u a); [|reflexivity].
      destruct (proj1 HI eq_refl) as [q [=]].
  Qed.

  (* a^(-k) is the inverse of a^k *)
  Theorem pow_z_neg a n q : WF a -> (n < 0)%Z -> p_pow_z m o u a n = Some q ->
    WF q /\ p_mul m o (p_pow m o a (Z.to_nat (- n))) q == p_one m o.
  Proof.
    intros Ha Hn. unfold p_pow_z. destruct (Z.leb_spec 0 n) as [H|_]; [lia|].
    destruct (p_inv m o u a) as [i|] eqn:Ei; cbn [obind]; [|discriminate]. intros [= <-].
    destruct (inv_sound a i Ha Ei) as (Hi & E & _). split; [wf|].
    apply pow_inverse; try assumption. rewrite E. apply (peq_refl m o).
  Qed.
End UnitProofs.
