(* C16 (rest): exact specification of the checked division (SubAssign), all_leq / divides, is_unit and inv
   of MultiDeg / MultiVar (Model/Mono.v) on reduced multi-degrees, for every exponent type with [exp_laws]. *)
From Coq Require Import List Bool Arith NArith ZArith Lia.
Require Import Yui.Model.Mono Yui.Proofs.C16Mono Yui.Proofs.C16MDeg Yui.Proofs.C16RestMono.
Import ListNotations.

Section MDegRest.
  Context {I : Type} (e : exp_ops I) (eZ : I -> Z) (EL : exp_laws e eZ).
  Notation mdeg := (@Mono.mdeg I).
  Notation md_at := (md_at e).
  Notation md_add := (md_add e).
  Notation md_reduce := (md_reduce e).
  Notation Reduced := (Reduced e).
  Notation sub_step := (fun (acc : option mdeg) (p : nat * I) => obind acc (fun l =>
                          obind (esub e (md_at l (fst p)) (snd p)) (fun v => Some (md_set l (fst p) v)))).

  Lemma fold_sub_none (b : mdeg) : fold_left sub_step b None = None.
  Proof. induction b as [|q b IH]; cbn [fold_left obind]; auto. Qed.

  (* the loop of `-=` runs through iff the type is signed or no exponent underflows *)
  Lemma fold_sub_defined lo b : sorted_from lo b -> forall acc,
    ((exists r, fold_left sub_step b (Some acc) = Some r) <->
     (esigned e = true \/ forall i, (eZ (md_at b i) <= eZ (md_at acc i))%Z)).
  Proof.
    revert lo. induction b as [|[j d] b IH]; intros lo Sb acc; cbn [fold_left].
    - split; [|intros _; eauto]. intros _. destruct (signed_dec e) as [Sg|Sg]; [now left|right].
      intros i. rewrite at_nil, (eZ_0 e eZ EL). apply (eunsigned e eZ EL Sg).
    - cbn [sorted_from fst] in Sb. destruct Sb as [Sb1 Sb2]. cbn [obind fst snd].
      destruct (esub e (md_at acc j) d) as [v|] eqn:Ev; cbn [obind].
      + rewrite (IH _ Sb2). pose proof (esub_some e eZ EL _ _ _ Ev) as Hv.
        split; (intros [Sg|H]; [now left|]); destruct (signed_dec e) as [Sg|Sg]; try (now left); right; intros i.
        * rewrite at_cons. specialize (H i). rewrite at_set in H.
          destruct (Nat.eqb_spec j i) as [->|N]; [|assumption].
          pose proof (eunsigned e eZ EL Sg v). lia.
        * rewrite at_set. specialize (H i). rewrite at_cons in H.
          destruct (Nat.eqb_spec j i) as [->|N]; [|assumption].
          rewrite (at_below e (S i) b i) by (assumption || lia). rewrite (eZ_0 e eZ EL). apply (eunsigned e eZ EL Sg).
      + rewrite fold_sub_none. apply (esub_is_none e eZ EL) in Ev as [Sg H].
        split; [intros [r [=]]|]. intros [Sg'|H']; [congruence|]. specialize (H' j). rewrite at_cons, Nat.eqb_refl in H'. lia.
  Qed.

  Theorem md_sub_defined a b : Reduced b ->
    ((exists c, md_sub e a b = Some c) <-> (esigned e = true \/ forall i, (eZ (md_at b i) <= eZ (md_at a i))%Z)).
  Proof.
    intros [Sb _]. rewrite <- (fold_sub_defined 0 b Sb a). unfold md_sub.
    destruct (fold_left _ b (Some a)) as [r|]; cbn [obind]; split; intros [c H]; eauto; discriminate.
  Qed.

  (* the quotient is the pointwise difference *)
  Theorem md_sub_at a b c : Reduced a -> Reduced b -> md_sub e a b = Some c ->
    forall i, eZ (md_at c i) = (eZ (md_at a i) - eZ (md_at b i))%Z.
  Proof.
    intros Ha Hb H i. destruct (md_sub_sound e eZ EL a b c Ha Hb H) as [Hc E].
    rewrite <- E, (at_add e eZ EL) by assumption. rewrite (eZ_add e eZ EL). lia.
  Qed.

  Lemma sorted_in_ge lo (l : mdeg) q : sorted_from lo l -> In q l -> lo <= fst q.
  Proof.
    revert lo. induction l as [|r l IHl]; intros lo; [intros _ []|]. cbn [sorted_from].
    intros [G1 G2] [<-|Hq]; [assumption|]. specialize (IHl _ G2 Hq). lia.
  Qed.
  Lemma at_in lo (a : mdeg) p : sorted_from lo a -> In p a -> md_at a (fst p) = snd p.
  Proof.
    revert lo. induction a as [|[k c] t IH]; intros lo; [intros _ []|]. cbn [sorted_from fst].
    intros [H1 H2] [<-|Hp]; cbn [fst snd]; rewrite at_cons.
    - now rewrite Nat.eqb_refl.
    - destruct (Nat.eqb_spec k (fst p)) as [->|N]; [|now apply (IH (S k))].
      exfalso. pose proof (sorted_in_ge _ _ _ H2 Hp). lia.
  Qed.
  Lemma get_in_md (a : mdeg) i d : md_get a i = Some d -> In (i, d) a.
  Proof.
    induction a as [|[k c] t IH]; cbn [md_get]; [discriminate|].
    destruct (Nat.eqb_spec k i) as [->|N]; [intros [= ->]; now left|intros H; right; auto].
  Qed.

  (* all_leq compares the exponent functions pointwise *)
  Theorem md_all_leq_spec a b : Reduced a -> Reduced b ->
    (md_all_leq e a b = true <-> forall i, (eZ (md_at a i) <= eZ (md_at b i))%Z).
  Proof.
    intros [Sa _] [Sb _]. unfold md_all_leq. rewrite andb_true_iff, !forallb_forall. split.
    - intros [H1 H2] i. unfold Mono.md_at at 1. destruct (md_get a i) as [d|] eqn:G.
      + apply get_in_md in G. specialize (H1 _ G). cbn [fst snd] in H1. now apply (ele_Z e eZ EL).
      + unfold Mono.md_at. destruct (md_get b i) as [d|] eqn:G'; [|lia].
        apply get_in_md in G'. specialize (H2 _ G'). cbn [fst snd] in H2. apply (ele_Z e eZ EL) in H2.
        unfold Mono.md_at in H2. now rewrite G in H2.
    - intros H. split; intros p Hp; apply (ele_Z e eZ EL).
      + rewrite <- (at_in 0 a p Sa Hp). apply H.
      + rewrite <- (at_in 0 b p Sb Hp). apply H.
  Qed.

  Theorem mvar_div_laws : mono_div_laws (mvar_mono e) Reduced.
  Proof.
    constructor.
    - apply (mdiv_iff_of_none (mvar_mono e) Reduced (mvar_laws e eZ EL)).
      intros x y z Hx Hy Hz E D. cbn [mmul mdiv mvar_mono] in *.
      assert (exists c, md_sub e x y = Some c) as [c Hc]; [|congruence].
      apply (md_sub_defined x y Hy). destruct (signed_dec e) as [Sg|Sg]; [now left|right]. intros i.
      rewrite <- E, (at_add e eZ EL) by assumption. rewrite (eZ_add e eZ EL).
      pose proof (eunsigned e eZ EL Sg (md_at z i)). lia.
    - intros x y Hx Hy. apply (divides_iff_defined _ _ _ _ (md_sub_defined x y Hy) (md_all_leq_spec y x Hy Hx)).
  Qed.

  Theorem mvar_unit_spec x : Reduced x ->
    (esigned e = true -> mis_unit (mvar_mono e) x = true /\ minv (mvar_mono e) x = Some (md_neg e x)) /\
    (esigned e = false -> (mis_unit (mvar_mono e) x = true <-> x = []) /\
                          (minv (mvar_mono e) x = if mis_unit (mvar_mono e) x then Some [] else None)).
  Proof.
    intros _. cbn [mis_unit minv mvar_mono]. split; intros ->; [auto|]. split; [|reflexivity].
    destruct x; cbn; split; congruence.
  Qed.

  Theorem mvar_unit_laws : mono_unit_laws (mvar_mono e) Reduced.
  Proof.
    constructor; cbn [mis_unit minv mmul mone mvar_mono].
    - intros x y Hx H. destruct (esigned e) eqn:Sg.
      + injection H as <-. now apply (Reduced_neg e eZ EL).
      + destruct x; cbn in H; [|discriminate]. injection H as <-. split; [apply Reduced_nil|reflexivity].
    - intros x _. destruct (esigned e); [split; eauto|apply if_some_defined].
    - intros x y Hx Hy E. destruct (esigned e) eqn:Sg; [reflexivity|].
      assert (x = []); [|now subst].
      apply (mdeg_ext e); [assumption|apply Reduced_nil|]. intros i. rewrite at_nil.
      apply (eadd_zero_unsigned e eZ EL _ (md_at y i) Sg). rewrite <- (at_add e eZ EL) by assumption. now rewrite E.
  Qed.
End MDegRest.
