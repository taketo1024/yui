(* Ratio<BigInt> (Model/Ratio.v at width Big): every operation returns a value, the value is in
   canonical form (positive denominator, numerator and denominator coprime) and denotes the right
   rational number.  "Denotes" is stated here by cross-multiplication over Z; Proofs/C14RatioQ.v
   restates it in Q.  *)
From Coq Require Import ZArith Bool Lia Znumtheory.
Require Import Yui.Model.Ints Yui.Model.Ratio Yui.Proofs.C14Ints.
Open Scope Z_scope.

Definition Canon (r : ratio) : Prop := 0 < denom r /\ Z.gcd (numer r) (denom r) = 1.
Definition canonb (r : ratio) : bool := (0 <? denom r) && (Z.gcd (numer r) (denom r) =? 1).

Lemma canonb_spec r : canonb r = true <-> Canon r.
Proof. unfold canonb, Canon. rewrite andb_true_iff, Z.ltb_lt, Z.eqb_eq. tauto. Qed.

(* x and y denote the same rational number *)
Definition Req (x y : ratio) : Prop := numer x * denom y = numer y * denom x.

(* goal [exists r, op = Some r /\ Canon r /\ V r]: give r with the proofs Hr, Hc of the first two, leaving V r *)
Ltac finish r Hr Hc := exists r; split; [exact Hr | split; [exact Hc | ]].

Lemma gcd1_divide_l a a' b : Z.gcd a b = 1 -> (a' | a) -> Z.gcd a' b = 1.
Proof.
  intros H D. apply Zgcd_1_rel_prime. apply Zgcd_1_rel_prime in H. eapply rel_prime_div; eauto.
Qed.

Lemma gcd1_divide_r a b b' : Z.gcd a b = 1 -> (b' | b) -> Z.gcd a b' = 1.
Proof. intros H D. rewrite Z.gcd_comm. rewrite Z.gcd_comm in H. eapply gcd1_divide_l; eauto. Qed.

Lemma gcd1_mul_l a b c : Z.gcd a c = 1 -> Z.gcd b c = 1 -> Z.gcd (a * b) c = 1.
Proof.
  intros H1 H2. apply Zgcd_1_rel_prime. apply rel_prime_sym. apply rel_prime_mult;
    apply rel_prime_sym; now apply Zgcd_1_rel_prime.
Qed.

Lemma gcd1_mul_r a b c : Z.gcd a b = 1 -> Z.gcd a c = 1 -> Z.gcd a (b * c) = 1.
Proof. intros H1 H2. rewrite Z.gcd_comm. apply gcd1_mul_l; now rewrite Z.gcd_comm. Qed.

(* splitting two numbers by their gcd, with the exact quotients *)
Lemma gcd_split a b : (a <> 0 \/ b <> 0) ->
  exists a' b', a = a' * Z.gcd a b /\ b = b' * Z.gcd a b /\ Z.gcd a' b' = 1 /\ 0 < Z.gcd a b /\
                a ÷ Z.gcd a b = a' /\ b ÷ Z.gcd a b = b'.
Proof.
  intros H. set (g := Z.gcd a b).
  assert (Hg : 0 < g).
  { pose proof (Z.gcd_nonneg a b). assert (g <> 0); [|fold g in H0; lia].
    intros E. apply Z.gcd_eq_0 in E. lia. }
  destruct (Z.gcd_divide_l a b) as [a' Ha]. destruct (Z.gcd_divide_r a b) as [b' Hb]. fold g in Ha, Hb.
  exists a', b'. split; [exact Ha|]. split; [exact Hb|].
  split; [|split; [exact Hg|split; [rewrite Ha at 1|rewrite Hb at 1]; apply Z.quot_mul; lia]].
  assert (E : g = Z.gcd a' b' * g).
  { unfold g at 1. rewrite Ha at 1. rewrite Hb at 1. apply Z.gcd_mul_mono_r_nonneg. lia. }
  nia.
Qed.

Lemma sgn_pos_mul a b : 0 < a * b -> 0 < b -> 0 < a.
Proof. nia. Qed.

Lemma canon_zero_denom r : Canon r -> numer r = 0 -> denom r = 1.
Proof. intros [Hd Hg] E. rewrite E in Hg. rewrite Z.gcd_0_l in Hg. lia. Qed.

Lemma canon_one r : Canon r -> numer r = denom r -> numer r = 1 /\ denom r = 1.
Proof. intros [Hd Hg] E. rewrite E in Hg. rewrite Z.gcd_diag in Hg. lia. Qed.

(* two canonical values that denote the same number are identical *)
Lemma canon_unique x y : Canon x -> Canon y -> Req x y -> x = y.
Proof.
  destruct x as [a b], y as [c d]. unfold Canon, Req. cbn [numer denom]. intros [Hb Hab] [Hd Hcd] E.
  assert (D1 : (b | d)).
  { apply Z.gauss with a; [|now rewrite Z.gcd_comm]. exists c. lia. }
  assert (D2 : (d | b)).
  { apply Z.gauss with c; [|now rewrite Z.gcd_comm]. exists a. lia. }
  assert (b = d) by (apply Z.divide_antisym_nonneg; auto; lia).
  subst d. f_equal. nia.
Qed.

Lemma rt_eqb_eq x y : rt_eqb x y = true <-> x = y.
Proof.
  destruct x as [a b], y as [c d]. unfold rt_eqb. cbn [numer denom].
  rewrite andb_true_iff, !Z.eqb_eq. split; [intros [-> ->]; reflexivity|intros H; inversion H; auto].
Qed.

Lemma canon_from_int a : Canon (rt_from_int a).
Proof. unfold rt_from_int. split; cbn [numer denom]; [lia|apply Z.gcd_1_r]. Qed.

(* the part of reduce after the sign normalisation *)
Definition reduce_tail (w : width) (r1 : ratio) : option ratio :=
  do stop <- (if iis_one (denom r1) then Some true else iis_unit w (numer r1));
  if stop then Some r1
  else
    do g <- igcd w (numer r1) (denom r1);
    if iis_one g then Some r1
    else do n <- iquot w (numer r1) g; do d <- iquot w (denom r1) g; Some (mkR n d).

Lemma rt_reduce_unfold w r :
  rt_reduce w r =
  if iis_zero (numer r) then Some (mkR (numer r) 1)
  else do r1 <- (if iis_one (inormalizing_unit (denom r)) then Some r
                 else do n <- imul w (numer r) (inormalizing_unit (denom r));
                      do d <- imul w (denom r) (inormalizing_unit (denom r)); Some (mkR n d));
       reduce_tail w r1.
Proof. reflexivity. Qed.

Lemma reduce_tail_spec n d : 0 < d ->
  exists r, reduce_tail Big (mkR n d) = Some r /\ Canon r /\ numer r * d = n * denom r.
Proof.
  intros Hd. unfold reduce_tail. cbn [numer denom]. unfold iis_one.
  destruct (Z.eqb_spec d 1) as [->|_]; cbn [obind].
  { exists (mkR n 1). repeat split; cbn [numer denom]; try lia. apply Z.gcd_1_r. }
  rewrite iis_unit_big. cbn [obind].
  destruct ((n =? 1) || (n =? -1)) eqn:E2.
  { exists (mkR n d). repeat split; cbn [numer denom]; try lia.
    apply orb_true_iff in E2 as [E|E]; apply Z.eqb_eq in E; subst n.
    - apply Z.gcd_1_l.
    - change (-1) with (Z.opp 1). rewrite Z.gcd_opp_l. apply Z.gcd_1_l. }
  rewrite igcd_big. cbn [obind].
  destruct (Z.eqb_spec (Z.gcd n d) 1) as [E3|_].
  { exists (mkR n d). repeat split; cbn [numer denom]; auto. }
  destruct (gcd_split n d) as (n' & d' & Hn & Hd' & Hg & Hpos & Qn & Qd); [lia|].
  rewrite !iquot_big by lia. cbn [obind]. rewrite Qn, Qd.
  exists (mkR n' d'). repeat split; cbn [numer denom].
  - apply sgn_pos_mul with (Z.gcd n d); lia.
  - exact Hg.
  - rewrite Hn, Hd' at 1. ring.
Qed.

Lemma reduce_spec n d : d <> 0 ->
  exists r, rt_reduce Big (mkR n d) = Some r /\ Canon r /\ numer r * d = n * denom r.
Proof.
  intros Hd. rewrite rt_reduce_unfold. cbn [numer denom]. unfold iis_zero.
  destruct (Z.eqb_spec n 0) as [->|E0].
  { exists (mkR 0 1). repeat split; cbn [numer denom]; lia. }
  unfold inormalizing_unit. destruct (d <? 0) eqn:Es.
  - apply Z.ltb_lt in Es. cbn [iis_one Z.eqb Pos.eqb]. change (-1 =? 1) with false. cbv iota.
    rewrite !imul_big. cbn [obind].
    destruct (reduce_tail_spec (n * -1) (d * -1)) as (r & Hr & Hc & He); [lia|].
    exists r. split; [exact Hr|split; [exact Hc|nia]].
  - apply Z.ltb_ge in Es. change (iis_one 1) with true. cbv iota. cbn [obind].
    destruct (reduce_tail_spec n d) as (r & Hr & Hc & He); [lia|].
    exists r. auto.
Qed.

(* on a canonical value reduce is the identity *)
Lemma reduce_canon r : Canon r -> rt_reduce Big r = Some r.
Proof.
  intros Hc. destruct r as [n d].
  destruct (reduce_spec n d) as (r & Hr & Hc' & He); [destruct Hc; cbn [numer denom] in *; lia|].
  rewrite Hr. f_equal. apply canon_unique; auto.
Qed.

Lemma new_spec n d : d <> 0 ->
  exists r, rt_new Big n d = Some r /\ Canon r /\ numer r * d = n * denom r.
Proof.
  intros Hd. unfold rt_new, iis_zero. apply Z.eqb_neq in Hd as Hd'. rewrite Hd'. now apply reduce_spec.
Qed.

Lemma new_zero_denom w n : rt_new w n 0 = None.
Proof. reflexivity. Qed.

(* [s] = 1 for +=, -1 for -= *)
Lemma add_sub_spec (pm : width -> Z -> Z -> option Z) (s : Z) x y :
  (forall a b, pm Big a b = Some (a + s * b)) -> s = 1 \/ s = -1 ->
  Canon x -> Canon y ->
  exists r, rt_add_sub_assign Big pm x y = Some r /\ Canon r /\
            numer r * (denom x * denom y) = (numer x * denom y + s * (numer y * denom x)) * denom r.
Proof.
  intros Hpm Hs Hx Hy. destruct x as [a b], y as [c d]. unfold rt_add_sub_assign. cbn [numer denom].
  unfold rt_is_zero, iis_zero. cbn [numer denom].
  destruct (Z.eqb_spec c 0) as [->|Ec].
  { pose proof (canon_zero_denom _ Hy eq_refl) as Ed. cbn [numer denom] in Ed. subst d.
    exists (mkR a b). split; [reflexivity|split; [exact Hx|cbn [numer denom]; ring]]. }
  destruct (Z.eqb_spec a 0) as [->|Ea].
  { pose proof (canon_zero_denom _ Hx eq_refl) as Eb. cbn [numer denom] in Eb. subst b.
    rewrite Hpm. cbn [obind]. exists (mkR (0 + s * c) d). destruct Hy as [Hd Hg]. cbn [numer denom] in Hd, Hg.
    repeat split; cbn [numer denom]; auto.
    - destruct Hs; subst s; rewrite Z.add_0_l.
      + now rewrite Z.mul_1_l.
      + replace (-1 * c) with (- c) by ring. now rewrite Z.gcd_opp_l.
    - ring. }
  destruct Hx as [Hb Hab], Hy as [Hd Hcd]. cbn [numer denom] in Hb, Hab, Hd, Hcd.
  destruct (Z.eqb_spec b d) as [<-|_].
  { rewrite Hpm. cbn [obind].
    destruct (reduce_spec (a + s * c) b) as (r & Hr & Hc & He); [lia|].
    finish r Hr Hc.
    replace (numer r * (b * b)) with (numer r * b * b) by ring. rewrite He. ring. }
  (* general case: through the least common multiple *)
  rewrite ilcm_big. cbn [obind].
  destruct (gcd_split b d) as (b' & d' & Hb' & Hd' & Hg & Hpos & _ & Eq1); [lia|].
  rewrite Eq1. set (g := Z.gcd b d) in *.
  assert (Hd'pos : 0 < d') by (apply sgn_pos_mul with g; lia).
  assert (Hb'pos : 0 < b') by (apply sgn_pos_mul with g; lia).
  assert (El : Z.abs (b * d') = b * d') by (apply Z.abs_eq; nia).
  rewrite El.
  rewrite !iquot_big by lia.
  assert (Ex : b * d' ÷ b = d') by (rewrite Z.mul_comm; apply Z.quot_mul; lia).
  assert (Ey : b * d' ÷ d = b').
  { replace (b * d') with (b' * d) by (rewrite Hb', Hd'; ring). apply Z.quot_mul; lia. }
  cbn [obind]. rewrite Ex, Ey. rewrite !imul_big. cbn [obind]. rewrite Hpm. cbn [obind].
  destruct (reduce_spec (a * d' + s * (b' * c)) (b * d')) as (r & Hr & Hc & He); [nia|].
  finish r Hr Hc.
  (* numer r * (b d') = (a d' + s b' c) * denom r ;  b = b' g, d = d' g *)
  apply Z.mul_reg_r with (b * d'); [nia|].
  replace (numer r * (b * d) * (b * d')) with (numer r * (b * d') * (b * d)) by ring.
  rewrite He. rewrite Hb', Hd'. ring.
Qed.

Lemma add_spec x y : Canon x -> Canon y ->
  exists r, rt_add Big x y = Some r /\ Canon r /\
            numer r * (denom x * denom y) = (numer x * denom y + numer y * denom x) * denom r.
Proof.
  intros Hx Hy.
  assert (Hpm : forall a b, iadd Big a b = Some (a + 1 * b)) by (intros; rewrite iadd_big; f_equal; ring).
  destruct (add_sub_spec iadd 1 x y Hpm) as (r & Hr & Hc & He); auto.
  finish r Hr Hc. rewrite He. ring.
Qed.

Lemma sub_spec x y : Canon x -> Canon y ->
  exists r, rt_sub Big x y = Some r /\ Canon r /\
            numer r * (denom x * denom y) = (numer x * denom y - numer y * denom x) * denom r.
Proof.
  intros Hx Hy.
  assert (Hpm : forall a b, isub Big a b = Some (a + -1 * b)) by (intros; rewrite isub_big; f_equal; ring).
  destruct (add_sub_spec isub (-1) x y Hpm) as (r & Hr & Hc & He); auto.
  finish r Hr Hc. rewrite He. ring.
Qed.

Lemma neg_spec x : Canon x -> rt_neg Big x = Some (mkR (- numer x) (denom x)) /\ Canon (mkR (- numer x) (denom x)).
Proof.
  intros [Hd Hg]. assert (Hc : Canon (mkR (- numer x) (denom x))).
  { split; cbn [numer denom]; auto. now rewrite Z.gcd_opp_l. }
  split; auto. unfold rt_neg. rewrite ineg_big. cbn [obind]. unfold rt_new, iis_zero.
  destruct (denom x =? 0) eqn:E; [apply Z.eqb_eq in E; lia|]. now apply reduce_canon.
Qed.

(* a/b * c/d with k = gcd(a, d) and l = gcd(b, c) cancelled crosswise is canonical *)
Lemma cross_canon a b c d a' b' c' d' k l :
  0 < b -> 0 < d -> Z.gcd a b = 1 -> Z.gcd c d = 1 -> 0 < k -> 0 < l ->
  a = a' * k -> d = d' * k -> b = b' * l -> c = c' * l -> Z.gcd a' d' = 1 -> Z.gcd b' c' = 1 ->
  Canon (mkR (a' * c') (b' * d')) /\ a' * c' * (b * d) = a * c * (b' * d').
Proof.
  intros Hb Hd Hab Hcd Hk Hl Ha' Hd' Hb' Hc' Hg1 Hg2.
  assert (Hd'pos : 0 < d') by (apply sgn_pos_mul with k; lia).
  assert (Hb'pos : 0 < b') by (apply sgn_pos_mul with l; lia).
  split; [split; cbn [numer denom]|rewrite Ha', Hd', Hb', Hc'; ring].
  - nia.
  - assert (Da : (a' | a)) by (exists k; lia).
    assert (Db : (b' | b)) by (exists l; lia).
    assert (Dc : (c' | c)) by (exists l; lia).
    assert (Dd : (d' | d)) by (exists k; lia).
    apply gcd1_mul_l; apply gcd1_mul_r.
    + apply gcd1_divide_l with a; auto. apply gcd1_divide_r with b; auto.
    + exact Hg1.
    + now rewrite Z.gcd_comm.
    + apply gcd1_divide_l with c; auto. apply gcd1_divide_r with d; auto.
Qed.

Lemma mul_spec x y : Canon x -> Canon y ->
  exists r, rt_mul Big x y = Some r /\ Canon r /\
            numer r * (denom x * denom y) = (numer x * numer y) * denom r.
Proof.
  intros Hx Hy. destruct x as [a b], y as [c d]. unfold rt_mul. cbn [numer denom].
  unfold rt_is_zero, rt_is_one, rt_is_int, iis_zero, iis_one. cbn [numer denom].
  destruct (Z.eqb_spec a 0) as [->|Ea]; cbn [orb].
  { exists (mkR 0 b). split; [reflexivity|split; [exact Hx|cbn [numer denom]; ring]]. }
  destruct (Z.eqb_spec c d) as [Ecd|_].
  { destruct (canon_one _ Hy Ecd) as [E1 E2]. cbn [numer denom] in E1, E2. subst c d.
    exists (mkR a b). split; [reflexivity|split; [exact Hx|cbn [numer denom]; ring]]. }
  destruct (Z.eqb_spec c 0) as [->|Ec].
  { exists rt_zero. split; [reflexivity|split; [apply (canon_from_int 0)|cbn [numer denom rt_zero rt_from_int]; ring]]. }
  destruct Hx as [Hb Hab], Hy as [Hd Hcd]. cbn [numer denom] in Hb, Hab, Hd, Hcd.
  destruct (Z.eqb_spec d 1) as [->|_].
  { (* rhs is an integer: k = 1 *)
    rewrite igcd_big. cbn [obind].
    destruct (gcd_split b c) as (b' & c' & Hb' & Hc' & Hg & Hl & Qb & Qc); [lia|].
    rewrite !iquot_big by lia. cbn [obind]. rewrite imul_big. cbn [obind]. rewrite Qb, Qc.
    eexists. split; [reflexivity|]. cbn [numer denom].
    pose proof (cross_canon a b c 1 a b' c' 1 1 _ Hb Hd Hab Hcd Hd Hl ltac:(ring) eq_refl Hb' Hc' (Z.gcd_1_r a) Hg) as H.
    rewrite !Z.mul_1_r in *. exact H. }
  destruct (Z.eqb_spec b 1) as [->|_].
  { (* self is an integer: l = 1 *)
    rewrite igcd_big. cbn [obind].
    destruct (gcd_split a d) as (a' & d' & Ha' & Hd' & Hg & Hk & Qa & Qd); [lia|].
    rewrite !iquot_big by lia. cbn [obind]. rewrite imul_big. cbn [obind]. rewrite Qa, Qd.
    eexists. split; [reflexivity|]. cbn [numer denom].
    pose proof (cross_canon a 1 c d a' 1 c d' _ 1 Hb Hd Hab Hcd Hk Hb Ha' Hd' eq_refl ltac:(ring) Hg (Z.gcd_1_l c)) as H.
    rewrite !Z.mul_1_l in *. exact H. }
  rewrite !igcd_big. cbn [obind].
  destruct (gcd_split a d) as (a' & d' & Ha' & Hd' & Hg1 & Hk & Qa & Qd); [lia|].
  destruct (gcd_split b c) as (b' & c' & Hb' & Hc' & Hg2 & Hl & Qb & Qc); [lia|].
  rewrite !iquot_big by lia. cbn [obind]. rewrite !imul_big. cbn [obind]. rewrite Qa, Qd, Qb, Qc.
  eexists. split; [reflexivity|].
  exact (cross_canon a b c d a' b' c' d' _ _ Hb Hd Hab Hcd Hk Hl Ha' Hd' Hb' Hc' Hg1 Hg2).
Qed.

Lemma inv_zero w x : numer x = 0 -> rt_inv w x = Some None.
Proof. intros E. unfold rt_inv, rt_is_zero, iis_zero. now rewrite E. Qed.

Lemma inv_spec x : Canon x -> numer x <> 0 ->
  exists r, rt_inv Big x = Some (Some r) /\ Canon r /\ numer r * numer x = denom x * denom r.
Proof.
  intros Hx Hn. unfold rt_inv, rt_is_zero, iis_zero. apply Z.eqb_neq in Hn as Hn'. rewrite Hn'.
  destruct (new_spec (denom x) (numer x)) as (r & Hr & Hc & He); auto.
  rewrite Hr. cbn [obind]. exists r. auto.
Qed.

Lemma div_zero w x y : numer y = 0 -> rt_div w x y = None.
Proof. intros E. unfold rt_div, rt_is_zero, iis_zero. now rewrite E. Qed.

Lemma div_spec x y : Canon x -> Canon y -> numer y <> 0 ->
  exists r, rt_div Big x y = Some r /\ Canon r /\
            numer r * (denom x * numer y) = (numer x * denom y) * denom r.
Proof.
  intros Hx Hy Hn. unfold rt_div. unfold rt_is_zero at 1. unfold iis_zero.
  apply Z.eqb_neq in Hn as Hn'. rewrite Hn'.
  destruct (inv_spec y Hy Hn) as (i & Hi & Hci & Hei). rewrite Hi. cbn [obind].
  destruct (mul_spec x i Hx Hci) as (r & Hr & Hc & He). finish r Hr Hc.
  destruct Hci as [Hid _].
  apply Z.mul_reg_r with (denom i); [lia|].
  replace (numer r * (denom x * numer y) * denom i) with (numer r * (denom x * denom i) * numer y) by ring.
  rewrite He.
  replace (numer x * numer i * denom r * numer y) with (numer x * (numer i * numer y) * denom r) by ring.
  rewrite Hei. ring.
Qed.

Lemma abs_spec x : Canon x ->
  rt_abs Big x = Some (mkR (Z.abs (numer x)) (denom x)) /\ Canon (mkR (Z.abs (numer x)) (denom x)).
Proof.
  intros Hx. unfold rt_abs. destruct (numer x <? 0) eqn:E.
  - apply Z.ltb_lt in E. rewrite Z.abs_neq by lia. now apply neg_spec.
  - apply Z.ltb_ge in E. rewrite Z.abs_eq by lia. destruct x as [a b]; cbn [numer denom]. auto.
Qed.

Lemma cmp_big x y : rt_cmp Big x y = Some (Z.compare (numer x * denom y) (numer y * denom x)).
Proof. reflexivity. Qed.

Lemma is_zero_spec x : rt_is_zero x = true <-> numer x = 0.
Proof. unfold rt_is_zero, iis_zero. apply Z.eqb_eq. Qed.

Lemma is_one_spec x : Canon x -> (rt_is_one x = true <-> x = rt_one).
Proof.
  intros Hx. unfold rt_is_one. rewrite Z.eqb_eq. split.
  - intros E. destruct (canon_one _ Hx E) as [E1 E2]. destruct x as [a b]; cbn [numer denom] in *; subst; reflexivity.
  - intros ->. reflexivity.
Qed.
