(* C09 - Smith normal form: D = P*A*Q, diagonal divisibility chain, true inverses.
   Property theorems only: each is proved by [exact <lemma>] or a short combination of proved lemmas and is
   followed by Print Assumptions; the Examples instantiate the hypotheses on concrete values.

   Model: Model/Snf.v - mirror of yui-matrix/src/dense/snf.rs (SnfCalc: process with the zero shortcut,
   preprocess, eliminate_all / eliminate_step / select_pivot, eliminate_at with its while loop, eliminate_row /
   eliminate_col with the private gcdx shortcut, diag_normalize with its restart loop, the mirrored updates
   of p, pinv, q, qinv under every subset of the four flags; SnfResult::rank / factors) on dense matrices
   (shape + list of rows, [dmat]) over a Euclidean-ring dictionary [euc_dict].  A Rust panic (assert!, "Detect
   endless loop", `u.inv()` = None, division by a zero gcd) and the exhaustion of a loop's fuel are both [None];
   ring elements are unbounded (BigInt is the exact instance; machine-width overflow aborts are not modelled).

   Hypotheses of the generic theorems:
     snf_laws D   (Proofs/C09Inv.v) the dictionary is a commutative integral domain with decidable equality;
                  `inv` returns inverses; normalizing_unit(a) is invertible and a*normalizing_unit(a) is
                  normalised; `/` is exact on multiples; `%` = 0 implies divisibility; EucRing::gcdx returns a
                  common divisor d = s*x + t*y.  Proved below for Z (i64/i128/BigInt), Z[i], Z[omega], Q, F_2
                  and every field dictionary.
     pre_ok D     (Proofs/C09Run.v) the contract of SnfCalc::preprocess: when the dictionary has an LLL-HNF
                  preprocessing it returns H = P*A with P*Pinv = I = Pinv*P (property C10's unimodularity
                  theorem); [True] for dictionaries without preprocessing.
     norm_laws D  (Proofs/C09Term.v; termination only) the Euclidean function is >= 1 on non-zero elements and at
                  least doubles under multiplication by a non-zero non-unit; `%` vanishes on multiples; `inv` finds
                  every inverse.  gcdx_total D: EucRing::gcdx returns.  Both proved below for Z, Z[i], Z[omega]
                  and every field dictionary.
     pre_total D  (Proofs/C09Elim.v) the preprocessing returns (termination of lll_hnf, property C10); [True] for
                  dictionaries without preprocessing.
   [snf_with fp D A flags] is the run with fuel policy [fp] for the two loops ([snf] uses [default_fuel]);
   all "whenever the run returns Some" theorems hold for EVERY fuel policy.  [get] = [lget (ed_ring D)] is the
   entry function of a list matrix, [wf m n A] says A has m rows of length n; matrix identities are those of
   Base/MatF.v ([mmul o k] = product with inner dimension k, [meq m n] = equality on the m x n window).
   [out_is k b x X]: the output matrix x is [Some] (k x k, rows X) exactly when its flag b is set; the
   untracked matrices are existentially the ones that would have been tracked. *)
From Coq Require Import ZArith Arith List Bool.
Require Import Yui.Base.Ring Yui.Base.MatF Yui.Base.MatL Yui.Model.Snf.
Require Yui.Model.HomologyCalc.
Require Import Yui.Proofs.C09Mat Yui.Proofs.C09Inv Yui.Proofs.C09Run Yui.Proofs.C09Exit Yui.Proofs.C09Diag
  Yui.Proofs.C09Total Yui.Proofs.C09Laws Yui.Proofs.C09Check Yui.Proofs.C09Term Yui.Proofs.C09Elim
  Yui.Proofs.C09Quad Yui.Proofs.C09Contract.
Require Import Yui.Proofs.C07Calc.
Import ListNotations.

(* D = P*A*Q and true inverses: invariant of every elementary step, hence of the result *)
Theorem C09_invariant :
  forall (R : Type) (D : euc_dict R), snf_laws D -> pre_ok D ->
  forall (fp : fuel_policy R) (m n : nat) (A : lmat R) (f1 f2 f3 f4 : bool) (res : snf_result R),
  wf m n A ->
  snf_with fp D (mk_dmat m n A) (f1, f2, f3, f4) = Some res ->
  let o := ed_ring D in
  exists T P Pi Q Qi : lmat R,
    sr_d res = mk_dmat m n T /\
    wf m n T /\ wf m m P /\ wf m m Pi /\ wf n n Q /\ wf n n Qi /\
    out_is m f1 (sr_p res) P /\ out_is m f2 (sr_pinv res) Pi /\
    out_is n f3 (sr_q res) Q /\ out_is n f4 (sr_qinv res) Qi /\
    meq m n (lget o T) (mmul o m (lget o P) (mmul o n (lget o A) (lget o Q))) /\
    meq m m (mmul o m (lget o P) (lget o Pi)) (mid o) /\ meq m m (mmul o m (lget o Pi) (lget o P)) (mid o) /\
    meq n n (mmul o n (lget o Q) (lget o Qi)) (mid o) /\ meq n n (mmul o n (lget o Qi) (lget o Q)) (mid o).
Proof. exact @snf_invariant. Qed.
Print Assumptions C09_invariant.

(* the same invariant for every intermediate state of the run ([SInv]: the state's target is P*A*Q for
   matrices P, Pinv, Q, Qinv that are the tracked ones where a flag is set): it holds initially and is
   preserved by each of the six elementary operations SnfCalc performs *)
Theorem C09_invariant_init :
  forall (R : Type) (D : euc_dict R), snf_laws D ->
  forall (m n : nat) (A : lmat R) (f1 f2 f3 f4 : bool),
  wf m n A -> SInv D m n A f1 f2 f3 f4 (init_state D m n A (f1, f2, f3, f4)).
Proof. exact @SInv_init. Qed.
Print Assumptions C09_invariant_init.

Theorem C09_invariant_steps :
  forall (R : Type) (D : euc_dict R), snf_laws D ->
  forall (m n : nat) (A : lmat R) (f1 f2 f3 f4 : bool) (s : state R),
  let o := ed_ring D in
  SInv D m n A f1 f2 f3 f4 s ->
  (forall a b c d i j, i <> j -> i < m -> j < m -> radd o (rmul o a d) (rneg o (rmul o b c)) = rone o ->
     SInv D m n A f1 f2 f3 f4 (s_left_elem D a b c d i j s)) /\
  (forall a b c d i j, i <> j -> i < n -> j < n -> radd o (rmul o a d) (rneg o (rmul o b c)) = rone o ->
     SInv D m n A f1 f2 f3 f4 (s_right_elem D a b c d i j s)) /\
  (forall i j, i <> j -> i < m -> j < m -> SInv D m n A f1 f2 f3 f4 (s_swap_rows i j s)) /\
  (forall i j, i <> j -> i < n -> j < n -> SInv D m n A f1 f2 f3 f4 (s_swap_cols i j s)) /\
  (forall i u ui, rinv (ed_unit D) u = Some ui ->
     exists s', s_mul_row D i u s = Some s' /\ SInv D m n A f1 f2 f3 f4 s') /\
  (forall i u ui, rinv (ed_unit D) u = Some ui ->
     exists s', s_mul_col D i u s = Some s' /\ SInv D m n A f1 f2 f3 f4 s').
Proof. exact @SInv_steps. Qed.
Print Assumptions C09_invariant_steps.

(* exit: diagonal, non-zero entries first, normalised, each divides the next *)
Theorem C09_exit :
  forall (R : Type) (D : euc_dict R), snf_laws D -> pre_ok D ->
  forall (fp : fuel_policy R) (m n : nat) (A : lmat R) (fl : bool * bool * bool * bool) (res : snf_result R),
  wf m n A ->
  snf_with fp D (mk_dmat m n A) fl = Some res ->
  let o := ed_ring D in
  let T := dm_rows (sr_d res) in
  let r := snf_rank D res in
  r <= Nat.min m n /\
  (forall k l, k < m -> l < n -> k <> l -> lget o T k l = rzero o) /\
  (forall k, k < r -> lget o T k k <> rzero o) /\
  (forall k, r <= k -> k < Nat.min m n -> lget o T k k = rzero o) /\
  (forall k, k < r -> rnunit (ed_unit D) (lget o T k k) = rone o) /\
  (forall k, S k < r -> exists q, lget o T (S k) (S k) = rmul o q (lget o T k k)).
Proof. exact @snf_exit. Qed.
Print Assumptions C09_exit.

(* the whole contract of one call, for EVERY fuel policy: "whenever the run returns Some"
   (the `_partial` form; the run with the default fuel is proved to return in [C09_total] below) *)
Theorem C09_total_partial :
  forall (R : Type) (D : euc_dict R), snf_laws D -> pre_ok D ->
  forall (fp : fuel_policy R) (m n : nat) (A : lmat R) (f1 f2 f3 f4 : bool) (res : snf_result R),
  wf m n A ->
  snf_with fp D (mk_dmat m n A) (f1, f2, f3, f4) = Some res ->
  snf_spec D m n A f1 f2 f3 f4 res.
Proof. exact @snf_total_partial. Qed.
Print Assumptions C09_total_partial.

(* the meaning of [snf_spec], spelt out *)
Theorem C09_spec_meaning :
  forall (R : Type) (D : euc_dict R) (m n : nat) (A : lmat R) (f1 f2 f3 f4 : bool) (res : snf_result R),
  snf_spec D m n A f1 f2 f3 f4 res <->
  (let o := ed_ring D in
   exists T P Pi Q Qi : lmat R,
     sr_d res = mk_dmat m n T /\
     wf m n T /\ wf m m P /\ wf m m Pi /\ wf n n Q /\ wf n n Qi /\
     out_is m f1 (sr_p res) P /\ out_is m f2 (sr_pinv res) Pi /\
     out_is n f3 (sr_q res) Q /\ out_is n f4 (sr_qinv res) Qi /\
     meq m n (lget o T) (mmul o m (lget o P) (mmul o n (lget o A) (lget o Q))) /\
     meq m m (mmul o m (lget o P) (lget o Pi)) (mid o) /\ meq m m (mmul o m (lget o Pi) (lget o P)) (mid o) /\
     meq n n (mmul o n (lget o Q) (lget o Qi)) (mid o) /\ meq n n (mmul o n (lget o Qi) (lget o Q)) (mid o) /\
     (let r := snf_rank D res in
      r <= Nat.min m n /\
      (forall k l, k < m -> l < n -> k <> l -> lget o T k l = rzero o) /\
      (forall k, k < r -> lget o T k k <> rzero o) /\
      (forall k, r <= k -> k < Nat.min m n -> lget o T k k = rzero o) /\
      (forall k, k < r -> rnunit (ed_unit D) (lget o T k k) = rone o) /\
      (forall k, S k < r -> exists q, lget o T (S k) (S k) = rmul o q (lget o T k k))) /\
     ((forall i j, i < m -> j < n -> lget o A i j = rzero o) ->
      P = id_mat D m /\ Pi = id_mat D m /\ Q = id_mat D n /\ Qi = id_mat D n)).
Proof. intros. reflexivity. Qed.
Print Assumptions C09_spec_meaning.

(* termination within the default fuel, no panic
   The fuel of [snf] is default_fuel: 2*log2 N(pivot) + 4 iterations for the while loop of eliminate_at,
   1 + sum_k (1 + log2 N(d_0*...*d_k)) passes for the restart loop of diag_normalize. *)

(* the while loop of eliminate_at at a non-zero pivot (i, i): it returns - in particular the
   "Detect endless loop" panic is unreachable and every division is by a non-zero gcd *)
Theorem C09_eliminate_at_terminates :
  forall (R : Type) (D : euc_dict R), snf_laws D -> norm_laws D -> gcdx_total D ->
  forall (m n i : nat), i < m -> i < n ->
  forall s : state R, wf m n (st_t s) -> lget (ed_ring D) (st_t s) i i <> rzero (ed_ring D) ->
  exists s', eliminate_at D (default_fuel D) m n i i s = Some s'.
Proof. exact @eliminate_at_total. Qed.
Print Assumptions C09_eliminate_at_terminates.

(* the restart loop of diag_normalize on a rank-r diagonal target (what eliminate_all leaves, [DiagR]) *)
Theorem C09_diag_normalize_terminates :
  forall (R : Type) (D : euc_dict R), snf_laws D -> norm_laws D -> gcdx_total D ->
  forall (m n r : nat) (s : state R),
  DiagR D m n r (st_t s) ->
  exists s', diag_normalize D (default_fuel D) m n s = Some s'.
Proof. exact @diag_normalize_total. Qed.
Print Assumptions C09_diag_normalize_terminates.

(* the call returns *)
Theorem C09_terminates :
  forall (R : Type) (D : euc_dict R),
  snf_laws D -> norm_laws D -> gcdx_total D -> pre_ok D -> pre_total D ->
  forall (m n : nat) (A : lmat R) (fl : bool * bool * bool * bool),
  wf m n A -> exists res, snf D (mk_dmat m n A) fl = Some res.
Proof. exact @snf_terminates. Qed.
Print Assumptions C09_terminates.

(* the property: the call returns and its result meets the whole contract
   Relative to the preprocessing (pre_ok, pre_total = property C10 for lll_hnf) only; the other hypotheses are
   theorems for the supported rings, so for the dictionaries without preprocessing the statement is closed:
   [C09_total_Z] (the i32 dictionary; i64/i128/BigInt are the same dictionary behind the LLL preprocessing),
   [C09_total_gauss], [C09_total_eisen], [C09_total_Q], [C09_total_F2], [C09_total_Fp]. *)
Theorem C09_total :
  forall (R : Type) (D : euc_dict R),
  snf_laws D -> norm_laws D -> gcdx_total D -> pre_ok D -> pre_total D ->
  forall (m n : nat) (A : lmat R) (f1 f2 f3 f4 : bool), wf m n A ->
  exists res, snf D (mk_dmat m n A) (f1, f2, f3, f4) = Some res /\ snf_spec D m n A f1 f2 f3 f4 res.
Proof. exact @snf_total. Qed.
Print Assumptions C09_total.

Theorem C09_total_Z :
  forall (m n : nat) (A : lmat Z) (f1 f2 f3 f4 : bool), wf m n A ->
  exists res, snf Z_dict (mk_dmat m n A) (f1, f2, f3, f4) = Some res /\ snf_spec Z_dict m n A f1 f2 f3 f4 res.
Proof. exact Z_snf_total. Qed.
Print Assumptions C09_total_Z.

Theorem C09_total_gauss :
  forall (m n : nat) (A : lmat quad) (f1 f2 f3 f4 : bool), wf m n A ->
  exists res, snf gauss_dict (mk_dmat m n A) (f1, f2, f3, f4) = Some res /\ snf_spec gauss_dict m n A f1 f2 f3 f4 res.
Proof. exact gauss_snf_total. Qed.
Print Assumptions C09_total_gauss.

Theorem C09_total_eisen :
  forall (m n : nat) (A : lmat quad) (f1 f2 f3 f4 : bool), wf m n A ->
  exists res, snf eisen_dict (mk_dmat m n A) (f1, f2, f3, f4) = Some res /\ snf_spec eisen_dict m n A f1 f2 f3 f4 res.
Proof. exact eisen_snf_total. Qed.
Print Assumptions C09_total_eisen.

Theorem C09_total_Q :
  forall (m n : nat) (A : lmat Qcanon.Qc) (f1 f2 f3 f4 : bool), wf m n A ->
  exists res, snf Q_dict (mk_dmat m n A) (f1, f2, f3, f4) = Some res /\ snf_spec Q_dict m n A f1 f2 f3 f4 res.
Proof. exact Q_snf_total. Qed.
Print Assumptions C09_total_Q.

Theorem C09_total_F2 :
  forall (m n : nat) (A : lmat bool) (f1 f2 f3 f4 : bool), wf m n A ->
  exists res, snf F2_dict (mk_dmat m n A) (f1, f2, f3, f4) = Some res /\ snf_spec F2_dict m n A f1 f2 f3 f4 res.
Proof. exact F2_snf_total. Qed.
Print Assumptions C09_total_F2.

Theorem C09_total_Fp :
  forall p : Z, Znumtheory.prime p ->
  forall (m n : nat) (A : lmat (fp p)) (f1 f2 f3 f4 : bool), wf m n A ->
  exists res, snf (fp_dict p) (mk_dmat m n A) (f1, f2, f3, f4) = Some res /\ snf_spec (fp_dict p) m n A f1 f2 f3 f4 res.
Proof. exact fp_snf_total. Qed.
Print Assumptions C09_total_Fp.

(* the hypotheses hold for the supported rings *)
Theorem C09_laws_Z : forall pre : option (preproc Z), snf_laws (Zpre_dict pre).
Proof. exact Zpre_snf_laws. Qed.
Print Assumptions C09_laws_Z.

Theorem C09_Z_gcdx_total : forall x y : Z, exists res, Z_gcdx x y = Some res.
Proof. exact Z_gcdx_total. Qed.
Print Assumptions C09_Z_gcdx_total.

Theorem C09_term_laws_Z : forall pre : option (preproc Z), norm_laws (Zpre_dict pre) /\ gcdx_total (Zpre_dict pre).
Proof. exact Zpre_term_laws. Qed.
Print Assumptions C09_term_laws_Z.

Theorem C09_term_laws_gauss : forall pre : option (preproc quad),
  norm_laws (gausspre_dict pre) /\ gcdx_total (gausspre_dict pre).
Proof. exact gauss_term_laws. Qed.
Print Assumptions C09_term_laws_gauss.

Theorem C09_term_laws_eisen : forall pre : option (preproc quad),
  norm_laws (eisenpre_dict pre) /\ gcdx_total (eisenpre_dict pre).
Proof. exact eisen_term_laws. Qed.
Print Assumptions C09_term_laws_eisen.

Theorem C09_term_laws_field :
  forall (F : Type) (o : ring_ops F) (finv : F -> F), ring_laws o -> rone o <> rzero o ->
  (forall a, a <> rzero o -> rmul o a (finv a) = rone o) ->
  norm_laws (field_dict o finv) /\ gcdx_total (field_dict o finv).
Proof. exact @field_term_laws. Qed.
Print Assumptions C09_term_laws_field.

Theorem C09_laws_gauss : forall pre : option (preproc quad), snf_laws (gausspre_dict pre).
Proof. exact gauss_snf_laws. Qed.
Print Assumptions C09_laws_gauss.

Theorem C09_laws_eisen : forall pre : option (preproc quad), snf_laws (eisenpre_dict pre).
Proof. exact eisen_snf_laws. Qed.
Print Assumptions C09_laws_eisen.

(* every field dictionary: [finv] inverts the non-zero elements of an integral domain *)
Theorem C09_laws_field :
  forall (F : Type) (o : ring_ops F) (finv : F -> F), ring_laws o -> rone o <> rzero o ->
  (forall a, a <> rzero o -> rmul o a (finv a) = rone o) ->
  snf_laws (field_dict o finv).
Proof. exact @field_snf_laws. Qed.
Print Assumptions C09_laws_field.

Theorem C09_laws_Q : snf_laws Q_dict.
Proof. exact Q_snf_laws. Qed.
Print Assumptions C09_laws_Q.

Theorem C09_laws_F2 : snf_laws F2_dict.
Proof. exact F2_snf_laws. Qed.
Print Assumptions C09_laws_F2.

Theorem C09_laws_Fp : forall p : Z, Znumtheory.prime p -> snf_laws (fp_dict p).
Proof. exact fp_snf_laws. Qed.
Print Assumptions C09_laws_Fp.

(* the premise of property C07
   [snf_contract] (Proofs/C07Calc.v) is the section hypothesis of every C07 theorem; [snf_adapter D] is the
   routine C07's executable model uses (the mirror of snf.rs behind the record adapter of
   Extract/ExtractC07.v, [snf_of_dict]). *)
Theorem C09_discharges_C07_contract :
  forall (R : Type) (D : euc_dict R), snf_laws D -> pre_ok D ->
  snf_contract (ed_ring D) (snf_adapter D).
Proof. exact @snf_adapter_contract. Qed.
Print Assumptions C09_discharges_C07_contract.

Theorem C09_discharges_C07_contract_Z : snf_contract Z_ring (snf_adapter Z_dict).
Proof. exact Z_snf_contract. Qed.
Print Assumptions C09_discharges_C07_contract_Z.

(* soundness of the certificate checker run on the implementation's output *)
Theorem C09_checker_pq :
  forall (R : Type) (D : euc_dict R), snf_laws D ->
  forall (m n : nat) (A T P Q : lmat R),
  chk_pq D m n A T P Q = true ->
  let o := ed_ring D in
  wf m n T /\ wf m m P /\ wf n n Q /\
  meq m n (lget o T) (mmul o m (lget o P) (mmul o n (lget o A) (lget o Q))).
Proof. exact @chk_pq_sound. Qed.
Print Assumptions C09_checker_pq.

Theorem C09_checker_inv :
  forall (R : Type) (D : euc_dict R), snf_laws D ->
  forall (n : nat) (X Xi : lmat R),
  chk_inv D n X Xi = true ->
  let o := ed_ring D in
  wf n n X /\ wf n n Xi /\
  meq n n (mmul o n (lget o X) (lget o Xi)) (mid o) /\ meq n n (mmul o n (lget o Xi) (lget o X)) (mid o).
Proof. exact @chk_inv_sound. Qed.
Print Assumptions C09_checker_inv.

Theorem C09_checker_shape :
  forall (R : Type) (D : euc_dict R), snf_laws D ->
  forall (m n : nat) (T : lmat R),
  chk_shape D m n T = true ->
  let o := ed_ring D in
  let r := diag_rank D m n T in
  wf m n T /\ r <= Nat.min m n /\
  (forall k l, k < m -> l < n -> k <> l -> lget o T k l = rzero o) /\
  (forall k, k < r -> lget o T k k <> rzero o) /\
  (forall k, r <= k -> k < Nat.min m n -> lget o T k k = rzero o) /\
  (forall k, k < r -> rnunit (ed_unit D) (lget o T k k) = rone o) /\
  (forall k, S k < r -> exists q, lget o T (S k) (S k) = rmul o q (lget o T k k)).
Proof. exact @chk_shape_sound. Qed.
Print Assumptions C09_checker_shape.

(* Proved elsewhere: uniqueness of the diagonal up to units (Properties/C09Unique.v) and, over Z, that the
   product of the first k diagonal entries is the gcd of the k x k minors of A (C09_minors in
   Properties/C09UniqueMinors.v, via CoqEAL [Smith_gcdr_spec]); over the other rings the executable reference
   [chk_minors] (gcd of all minors by Laplace expansion) is only evaluated on individual outputs of the
   correspondence run.
   Not proved: for the dictionaries with LLL-HNF preprocessing (i64, i128, BigInt, Z[i] / Z[omega] over i64 and
   BigInt) [C09_total] keeps the two premises pre_ok (H = P*A, P invertible) and pre_total (lll_hnf returns) about
   Model/Lll.v; they are property C10's.  Polynomial rings Q[x], F_p[x] are not modelled. *)

(* non-vacuity: the hypotheses are met by concrete non-trivial runs *)
Open Scope Z_scope.
Example C09_example_Z :
  snf Z_dict (mk_dmat 2 3 [[2; 4; 4]; [-6; 6; 12]]) (true, true, true, true)
  = Some (mk_snf_result (mk_dmat 2 3 [[2; 0; 0]; [0; 6; 0]])
            (Some (mk_dmat 2 2 [[1; 0]; [3; 1]])) (Some (mk_dmat 2 2 [[1; 0]; [-3; 1]]))
            (Some (mk_dmat 3 3 [[1; 0; 2]; [0; -1; -4]; [0; 1; 3]]))
            (Some (mk_dmat 3 3 [[1; 2; 2]; [0; 3; 4]; [0; -1; -1]]))).
Proof. vm_compute. reflexivity. Qed.

(* a diagonal input that is not a divisibility chain, two flags off: diag_normalize does the work *)
Example C09_example_diag :
  snf Z_dict (mk_dmat 3 3 [[6; 0; 0]; [0; 4; 0]; [0; 0; 0]]) (true, false, false, true)
  = Some (mk_snf_result (mk_dmat 3 3 [[2; 0; 0]; [0; 12; 0]; [0; 0; 0]])
            (Some (mk_dmat 3 3 [[1; 1; 0]; [2; 3; 0]; [0; 0; 1]])) None None
            (Some (mk_dmat 3 3 [[3; 2; 0]; [1; 1; 0]; [0; 0; 1]]))).
Proof. vm_compute. reflexivity. Qed.

Example C09_example_gauss :
  exists res, snf gauss_dict (mk_dmat 2 2 [[(1, 1); (2, 0)]; [(0, 0); (3, 1)]]) (true, true, true, true) = Some res /\
              sr_d res = mk_dmat 2 2 [[(1, 1); (0, 0)]; [(0, 0); (3, 1)]] /\ snf_rank gauss_dict res = 2%nat.
Proof. eexists. split; [vm_compute; reflexivity|]. split; reflexivity. Qed.
