(* Gaussian elimination in a NON-COMMUTATIVE setting (the algebra behind TngComplex::eliminate,
   yui-khovanov/src/kh/internal/v2/tng_complex.rs:548-587, [Bar-Natan '07, Lemma 4.2]).

   The entries of the differential of a TngComplex are linear combinations of cobordisms between DIFFERENT tangles: they
   are morphisms of a pre-additive category (hom sets are abelian groups, composition is bilinear and associative), they do
   not commute, and only composable entries can be multiplied.  The dictionary [preadd_ops] / [preadd_laws] below is
   exactly that (with a setoid equality on every hom set, so that matrices as functions and linear combinations as lists
   are instances without any axiom); NO commutativity of the composition is assumed anywhere in this file.  A (not
   necessarily commutative) ring is the one-object case, and matrices over a pre-additive category form a pre-additive
   category again (Proofs/TngPElimMat.v), so that the blocks A, B, A', D below may be families of objects.

   The lemma, in the exact form the code uses (C08Block.v / C08Step.v prove the commutative matrix case):

                 [x]            [a b]
                 [y]            [c d]            [z w]
        P ------------> A (+) B ------> A' (+) D ------> N              a : A -> A' an isomorphism, a' its two-sided inverse

   is replaced by

                  y             d - c a' b          w
        P ------------> B ----------------> D ------------> N

   - this is a complex again                                  ([elim_complex]);
   - f = (1 on P, [0 1], [-c a'  1], 1 on N) and g = (1, [-a' b ; 1], [0 ; 1], 1) are chain maps
                                                              ([elim_f_chain], [elim_g_chain]);
   - f g = 1                                                  ([elim_fg]);
   - g f + (h D + D h) = 1 for the homotopy h = [a' 0 ; 0 0] : A' (+) D -> A (+) B
                                                              ([elim_homotopy]);
   - f h = 0, h g = 0 (a strong deformation retraction: [elim_sdr]).
   Every block statement is written out in its components (a 2 x 2 block identity = 4 identities between morphisms). *)
From Coq Require Import Setoid Morphisms.

Record preadd_ops : Type := mk_preadd_ops {
  pobj : Type;
  phom : pobj -> pobj -> Type;
  peq : forall X Y, phom X Y -> phom X Y -> Prop;
  pzero : forall X Y, phom X Y;
  padd : forall X Y, phom X Y -> phom X Y -> phom X Y;
  pneg : forall X Y, phom X Y -> phom X Y;
  pid : forall X, phom X X;
  pcomp : forall X Y Z, phom Y Z -> phom X Y -> phom X Z;       (* pcomp g f = g after f *)
}.
Arguments peq p {X Y} _ _.
Arguments pzero p {X Y}.
Arguments padd p {X Y} _ _.
Arguments pneg p {X Y} _.
Arguments pid p {X}.
Arguments pcomp p {X Y Z} _ _.

(* NO commutativity of [pcomp] *)
Record preadd_laws (C : preadd_ops) : Prop := mk_preadd_laws {
  peq_refl : forall X Y (f : phom C X Y), peq C f f;
  peq_sym : forall X Y (f g : phom C X Y), peq C f g -> peq C g f;
  peq_trans : forall X Y (f g k : phom C X Y), peq C f g -> peq C g k -> peq C f k;
  padd_eq : forall X Y (f f' g g' : phom C X Y), peq C f f' -> peq C g g' -> peq C (padd C f g) (padd C f' g');
  pneg_eq : forall X Y (f f' : phom C X Y), peq C f f' -> peq C (pneg C f) (pneg C f');
  pcomp_eq : forall X Y Z (f f' : phom C Y Z) (g g' : phom C X Y),
      peq C f f' -> peq C g g' -> peq C (pcomp C f g) (pcomp C f' g');
  padd_assoc : forall X Y (f g k : phom C X Y), peq C (padd C (padd C f g) k) (padd C f (padd C g k));
  padd_comm : forall X Y (f g : phom C X Y), peq C (padd C f g) (padd C g f);
  padd_0_l : forall X Y (f : phom C X Y), peq C (padd C (pzero C) f) f;
  padd_neg_r : forall X Y (f : phom C X Y), peq C (padd C f (pneg C f)) (pzero C);
  pcomp_assoc : forall W X Y Z (f : phom C Y Z) (g : phom C X Y) (k : phom C W X),
      peq C (pcomp C (pcomp C f g) k) (pcomp C f (pcomp C g k));
  pcomp_id_l : forall X Y (f : phom C X Y), peq C (pcomp C (pid C) f) f;
  pcomp_id_r : forall X Y (f : phom C X Y), peq C (pcomp C f (pid C)) f;
  pcomp_add_l : forall X Y Z (f g : phom C Y Z) (k : phom C X Y),
      peq C (pcomp C (padd C f g) k) (padd C (pcomp C f k) (pcomp C g k));
  pcomp_add_r : forall X Y Z (f : phom C Y Z) (g k : phom C X Y),
      peq C (pcomp C f (padd C g k)) (padd C (pcomp C f g) (pcomp C f k));
}.

Lemma peq_Equivalence (C : preadd_ops) (L : preadd_laws C) X Y : Equivalence (@peq C X Y).
Proof.
  constructor.
  - intros f. apply (peq_refl C L).
  - intros f g. apply (peq_sym C L).
  - intros f g k. apply (peq_trans C L).
Qed.
Lemma padd_Proper (C : preadd_ops) (L : preadd_laws C) X Y :
  Proper (@peq C X Y ==> @peq C X Y ==> @peq C X Y) (@padd C X Y).
Proof. intros f f' Hf g g' Hg. now apply (padd_eq C L). Qed.
Lemma pneg_Proper (C : preadd_ops) (L : preadd_laws C) X Y : Proper (@peq C X Y ==> @peq C X Y) (@pneg C X Y).
Proof. intros f f' Hf. now apply (pneg_eq C L). Qed.
Lemma pcomp_Proper (C : preadd_ops) (L : preadd_laws C) X Y Z :
  Proper (@peq C Y Z ==> @peq C X Y ==> @peq C X Z) (@pcomp C X Y Z).
Proof. intros f f' Hf g g' Hg. now apply (pcomp_eq C L). Qed.

Section Theory.
  Context (C : preadd_ops) (L : preadd_laws C).
  Local Notation "f == g" := (peq C f g) (at level 70, no associativity).
  Local Notation "f + g" := (padd C f g).
  Local Notation "- f" := (pneg C f).
  Local Notation "f 'o' g" := (pcomp C f g) (at level 40, left associativity).
  Local Notation "0" := (pzero C).
  Local Notation "1" := (pid C).

  #[local] Instance eqv_i X Y : Equivalence (@peq C X Y) := peq_Equivalence C L X Y.
  #[local] Instance add_i X Y : Proper (@peq C X Y ==> @peq C X Y ==> @peq C X Y) (@padd C X Y) := padd_Proper C L X Y.
  #[local] Instance neg_i X Y : Proper (@peq C X Y ==> @peq C X Y) (@pneg C X Y) := pneg_Proper C L X Y.
  #[local] Instance comp_i X Y Z : Proper (@peq C Y Z ==> @peq C X Y ==> @peq C X Z) (@pcomp C X Y Z) :=
    pcomp_Proper C L X Y Z.

  Lemma padd_0_r X Y (f : phom C X Y) : f + 0 == f.
  Proof. rewrite (padd_comm C L). apply (padd_0_l C L). Qed.
  Lemma padd_neg_l X Y (f : phom C X Y) : - f + f == 0.
  Proof. rewrite (padd_comm C L). apply (padd_neg_r C L). Qed.
  Lemma padd_cancel_l X Y (f g k : phom C X Y) : f + g == f + k -> g == k.
  Proof.
    intros H.
    rewrite <- (padd_0_l C L _ _ g), <- (padd_0_l C L _ _ k).
    rewrite <- (padd_neg_l _ _ f). rewrite !(padd_assoc C L). now rewrite H.
  Qed.
  Lemma padd_eq_0_neg X Y (f g : phom C X Y) : f + g == 0 -> f == - g.
  Proof.
    intros H. apply (padd_cancel_l _ _ g). rewrite (padd_neg_r C L). now rewrite (padd_comm C L).
  Qed.
  Lemma pneg_0 X Y : - (0 : phom C X Y) == 0.
  Proof. symmetry. apply padd_eq_0_neg. apply (padd_0_l C L). Qed.
  Lemma pcomp_0_l X Y Z (f : phom C X Y) : (0 : phom C Y Z) o f == 0.
  Proof.
    apply (padd_cancel_l _ _ (0 o f)). rewrite <- (pcomp_add_l C L). rewrite (padd_0_l C L).
    now rewrite padd_0_r.
  Qed.
  Lemma pcomp_0_r X Y Z (f : phom C Y Z) : f o (0 : phom C X Y) == 0.
  Proof.
    apply (padd_cancel_l _ _ (f o 0)). rewrite <- (pcomp_add_r C L). rewrite (padd_0_l C L).
    now rewrite padd_0_r.
  Qed.
  Lemma pcomp_neg_l X Y Z (f : phom C Y Z) (g : phom C X Y) : (- f) o g == - (f o g).
  Proof.
    apply (padd_cancel_l _ _ (f o g)). rewrite <- (pcomp_add_l C L). rewrite !(padd_neg_r C L).
    apply pcomp_0_l.
  Qed.
  Lemma pcomp_neg_r X Y Z (f : phom C Y Z) (g : phom C X Y) : f o (- g) == - (f o g).
  Proof.
    apply (padd_cancel_l _ _ (f o g)). rewrite <- (pcomp_add_r C L). rewrite !(padd_neg_r C L).
    apply pcomp_0_r.
  Qed.
  Lemma pneg_add X Y (f g : phom C X Y) : - (f + g) == - f + - g.
  Proof.
    symmetry. apply padd_eq_0_neg.
    rewrite (padd_assoc C L). rewrite (padd_comm C L _ _ f g). rewrite <- (padd_assoc C L _ _ (- g)).
    rewrite padd_neg_l. rewrite (padd_0_l C L). apply padd_neg_l.
  Qed.

  Section Elim.
    Context {P A B A' D N : pobj C}.
    Context (a : phom C A A') (b : phom C B A') (c : phom C A D) (d : phom C B D) (a' : phom C A' A).
    Context (x : phom C P A) (y : phom C P B) (z : phom C A' N) (w : phom C D N).

    (* the component of the incoming differential into A, and that of the outgoing one out of A', are determined *)
    Lemma elim_x_eq : a' o a == 1 -> a o x + b o y == 0 -> x == - (a' o b o y).
    Proof.
      intros Hl Hax. apply padd_eq_0_neg in Hax.
      rewrite <- (pcomp_id_l C L _ _ x), <- Hl. rewrite (pcomp_assoc C L), Hax.
      rewrite pcomp_neg_r. now rewrite <- (pcomp_assoc C L).
    Qed.
    Lemma elim_z_eq : a o a' == 1 -> z o a + w o c == 0 -> z == - (w o (c o a')).
    Proof.
      intros Hr Hza. apply padd_eq_0_neg in Hza.
      rewrite <- (pcomp_id_r C L _ _ z), <- Hr. rewrite <- (pcomp_assoc C L), Hza.
      rewrite pcomp_neg_l. now rewrite !(pcomp_assoc C L).
    Qed.

    (* the new differential d - c a' b, with the bracketing of the code: (c * &ainv * b) = (c a') b; the result is a
       complex again *)
    Lemma elim_complex :
      a' o a == 1 -> a o a' == 1 ->
      a o x + b o y == 0 -> c o x + d o y == 0 -> z o a + w o c == 0 -> z o b + w o d == 0 ->
      (d + - (c o a' o b)) o y == 0 /\ w o (d + - (c o a' o b)) == 0.
    Proof.
      intros Hl Hr Hax Hcx Hza Hzb. split.
      - rewrite (pcomp_add_l C L), pcomp_neg_l.
        rewrite !(pcomp_assoc C L). rewrite <- (pcomp_assoc C L _ _ _ _ a' b y).
        rewrite <- pcomp_neg_r. rewrite <- (elim_x_eq Hl Hax). rewrite (padd_comm C L). exact Hcx.
      - rewrite (pcomp_add_r C L), pcomp_neg_r.
        rewrite <- (pcomp_assoc C L _ _ _ _ w (c o a') b).
        rewrite <- pcomp_neg_l. rewrite <- (elim_z_eq Hr Hza). rewrite (padd_comm C L). exact Hzb.
    Qed.

    (* f = (1 on P, [0 1] : A (+) B -> B, [-c a' 1] : A' (+) D -> D, 1 on N) is a chain map from the old complex to
       the new one *)
    Lemma elim_f_chain :
      a' o a == 1 -> a o a' == 1 -> a o x + b o y == 0 -> z o a + w o c == 0 ->
      (0 o x + 1 o y == y o 1) /\
      (- (c o a') o a + 1 o c == (d + - (c o a' o b)) o 0) /\
      (- (c o a') o b + 1 o d == (d + - (c o a' o b)) o 1) /\
      (w o - (c o a') == 1 o z) /\ (w o 1 == 1 o w).
    Proof.
      intros Hl Hr Hax Hza. repeat split.
      - rewrite pcomp_0_l, (pcomp_id_l C L), (pcomp_id_r C L). apply (padd_0_l C L).
      - rewrite pcomp_0_r, (pcomp_id_l C L), pcomp_neg_l.
        rewrite (pcomp_assoc C L), Hl, (pcomp_id_r C L). apply padd_neg_l.
      - rewrite (pcomp_id_r C L), (pcomp_id_l C L), pcomp_neg_l. apply (padd_comm C L).
      - rewrite (pcomp_id_l C L), pcomp_neg_r. symmetry. exact (elim_z_eq Hr Hza).
      - now rewrite (pcomp_id_l C L), (pcomp_id_r C L).
    Qed.

    (* g = (1, [-a' b ; 1] : B -> A (+) B, [0 ; 1] : D -> A' (+) D, 1) is a chain map from the new complex to the old *)
    Lemma elim_g_chain :
      a' o a == 1 -> a o a' == 1 -> a o x + b o y == 0 -> z o a + w o c == 0 ->
      (- (a' o b) o y == x o 1) /\ (1 o y == y o 1) /\
      (a o - (a' o b) + b o 1 == 0 o (d + - (c o a' o b))) /\
      (c o - (a' o b) + d o 1 == 1 o (d + - (c o a' o b))) /\
      (z o 0 + w o 1 == 1 o w).
    Proof.
      intros Hl Hr Hax Hza. repeat split.
      - rewrite (pcomp_id_r C L), pcomp_neg_l. symmetry. exact (elim_x_eq Hl Hax).
      - now rewrite (pcomp_id_l C L), (pcomp_id_r C L).
      - rewrite pcomp_0_l, (pcomp_id_r C L), pcomp_neg_r.
        rewrite <- (pcomp_assoc C L), Hr, (pcomp_id_l C L). apply padd_neg_l.
      - rewrite (pcomp_id_r C L), (pcomp_id_l C L), pcomp_neg_r.
        rewrite <- (pcomp_assoc C L). apply (padd_comm C L).
      - rewrite pcomp_0_r, (pcomp_id_l C L), (pcomp_id_r C L). apply (padd_0_l C L).
    Qed.

    (* f g = 1 in both degrees *)
    Lemma elim_fg :
      ((0 : phom C A B) o - (a' o b) + 1 o 1 == 1) /\ (- (c o a') o (0 : phom C D A') + 1 o 1 == 1).
    Proof.
      split.
      - rewrite pcomp_0_l, (pcomp_id_l C L). apply (padd_0_l C L).
      - rewrite pcomp_0_r, (pcomp_id_l C L). apply (padd_0_l C L).
    Qed.

    (* g f + h D = 1 on A (+) B and g f + D h = 1 on A' (+) D for the homotopy h = [a' 0 ; 0 0] : A' (+) D -> A (+) B
       (the homotopy of the neighbouring degrees is 0) *)
    Lemma elim_homotopy :
      a' o a == 1 -> a o a' == 1 ->
      (- (a' o b) o (0 : phom C A B) + (a' o a + (0 : phom C D A) o c) == 1) /\
      (- (a' o b) o 1 + (a' o b + (0 : phom C D A) o d) == 0) /\
      ((1 : phom C B B) o (0 : phom C A B) + ((0 : phom C A' B) o a + (0 : phom C D B) o c) == 0) /\
      ((1 : phom C B B) o 1 + ((0 : phom C A' B) o b + (0 : phom C D B) o d) == 1) /\
      ((0 : phom C D A') o - (c o a') + (a o a' + b o (0 : phom C A' B)) == 1) /\
      ((0 : phom C D A') o 1 + (a o (0 : phom C D A) + b o (0 : phom C D B)) == 0) /\
      ((1 : phom C D D) o - (c o a') + (c o a' + d o (0 : phom C A' B)) == 0) /\
      ((1 : phom C D D) o 1 + (c o (0 : phom C D A) + d o (0 : phom C D B)) == 1).
    Proof.
      intros Hl Hr. repeat split.
      - rewrite pcomp_0_r, pcomp_0_l, padd_0_r, (padd_0_l C L). exact Hl.
      - rewrite (pcomp_id_r C L), pcomp_0_l, padd_0_r. apply padd_neg_l.
      - rewrite pcomp_0_r, !pcomp_0_l. now rewrite !(padd_0_l C L).
      - rewrite !pcomp_0_l, (pcomp_id_l C L). now rewrite !padd_0_r.
      - rewrite pcomp_0_l, pcomp_0_r, padd_0_r, (padd_0_l C L). exact Hr.
      - rewrite pcomp_0_l, !pcomp_0_r. now rewrite !(padd_0_l C L).
      - rewrite (pcomp_id_l C L), pcomp_0_r, padd_0_r. apply padd_neg_l.
      - rewrite !pcomp_0_r, (pcomp_id_l C L). now rewrite !padd_0_r.
    Qed.

    (* f h = 0, h g = 0 (with h h = 0: h has degree -1 and is non-zero in one degree only): a strong deformation
       retraction *)
    Lemma elim_sdr :
      ((0 : phom C A B) o a' + 1 o (0 : phom C A' B) == 0) /\
      ((0 : phom C A B) o (0 : phom C D A) + 1 o (0 : phom C D B) == 0) /\
      (a' o (0 : phom C D A') + (0 : phom C D A) o 1 == 0) /\
      ((0 : phom C A' B) o (0 : phom C D A') + (0 : phom C D B) o 1 == 0).
    Proof.
      repeat split.
      - rewrite pcomp_0_l, pcomp_0_r. apply (padd_0_l C L).
      - rewrite pcomp_0_l, pcomp_0_r. apply (padd_0_l C L).
      - rewrite pcomp_0_l, pcomp_0_r. apply (padd_0_l C L).
      - rewrite !pcomp_0_l. apply (padd_0_l C L).
    Qed.
  End Elim.
End Theory.
