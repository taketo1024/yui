(* Schur::from_partial_triangular of Model/Schur.v: the run succeeds on every valid input (including r = 0
   and r = min(m, n)) and its five matrices satisfy the identities of C12. *)
From Coq Require Import Arith List Bool Lia Ring.
Require Import Yui.Base.Ring Yui.Base.MatF Yui.Model.Triang Yui.Model.Schur.
Require Import Yui.Proofs.C12Sparse Yui.Proofs.C12Triang Yui.Proofs.C12Schur.
Import ListNotations.

Section SchurMain.
  Context {R : Type} (o : ring_ops R) (L : ring_laws o) (u : unit_ops R) (UL : unit_laws o u).

  Local Notation "0" := (rzero o).
  Local Notation "1" := (rone o).
  Add Ring Rring4 : (ring_theory_of_laws o L).

  (* the leading r x r block has a stored unit in every diagonal position ... *)
  Definition lead_unit_diag (abcd : spmat R) (r : nat) : bool :=
    forallb (fun j => existsb (fun e => (fst e =? j) && ris_unit u (snd e)) (col abcd j)) (seq 0 r).
  (* ... and its non-zero stored entries lie on the allowed side (SpMat::is_triang on the block) *)
  Definition lead_triang (upper : bool) (abcd : spmat R) (r : nat) : bool :=
    forallb (fun t => let '(i, j, v) := t in
                      ris_zero o v || negb (i <? r) || negb (j <? r) || (if upper then i <=? j else j <=? i))
            (triplets abcd).

  (* the four blocks of M as functions *)
  Definition blkA (M : mat R) : mat R := M.
  Definition blkB (r : nat) (M : mat R) : mat R := fun i j => M i (r + j).
  Definition blkC (r : nat) (M : mat R) : mat R := fun i j => M (r + i) j.
  Definition blkD (r : nat) (M : mat R) : mat R := fun i j => M (r + i) (r + j).

  Record schur_ok (upper : bool) (abcd : spmat R) (r : nat) (sc : schur (R := R)) : Prop := {
    so_s_shape : nrows (sch_s sc) = nrows abcd - r /\ ncols (sch_s sc) = ncols abcd - r;
    so_srcf_shape : nrows (src_f sc) = ncols abcd - r /\ ncols (src_f sc) = ncols abcd;
    so_srcb_shape : nrows (src_b sc) = ncols abcd /\ ncols (src_b sc) = ncols abcd - r;
    so_tgtf_shape : nrows (tgt_f sc) = nrows abcd - r /\ ncols (tgt_f sc) = nrows abcd;
    so_tgtb_shape : nrows (tgt_b sc) = nrows abcd /\ ncols (tgt_b sc) = nrows abcd - r;
    (* F_tgt M B_src = S *)
    so_transfer : meq (nrows abcd - r) (ncols abcd - r)
        (mmul o (ncols abcd) (mmul o (nrows abcd) (entry o (tgt_f sc)) (entry o abcd)) (entry o (src_b sc)))
        (entry o (sch_s sc));
    (* F_src B_src = I,  F_tgt B_tgt = I *)
    so_src : meq (ncols abcd - r) (ncols abcd - r)
        (mmul o (ncols abcd) (entry o (src_f sc)) (entry o (src_b sc))) (mid o);
    so_tgt : meq (nrows abcd - r) (nrows abcd - r)
        (mmul o (nrows abcd) (entry o (tgt_f sc)) (entry o (tgt_b sc))) (mid o);
    (* S = D - C A^-1 B for every right inverse A^-1 of the leading block *)
    so_formula : forall Ainv : mat R,
        meq r r (mmul o r (entry o abcd) Ainv) (mid o) ->
        meq (nrows abcd - r) (ncols abcd - r) (entry o (sch_s sc))
            (msub o (blkD r (entry o abcd))
                    (mmul o r (blkC r (entry o abcd)) (mmul o r Ainv (blkB r (entry o abcd)))));
  }.

  Lemma unit_nonzero a ui : 1 <> 0 -> rmul o a ui = 1 -> a <> 0.
  Proof. intros H10 H E. apply H10. rewrite <- H, E. ring. Qed.

  Lemma lead_block_valid upper abcd r a b c d :
    1 <> 0 -> wf abcd = true -> r <= nrows abcd -> r <= ncols abcd ->
    lead_unit_diag abcd r = true -> lead_triang upper abcd r = true ->
    blocks_of o abcd a b c d r ->
    tvalid o u upper a r /\
    (forall j, j < r -> exists ui, rmul o (entry o abcd j j) ui = 1) /\
    (forall i j, i < r -> j < r -> (if upper then j < i else i < j) -> entry o abcd i j = 0).
  Proof.
    intros H10 Hwf Hrm Hrn Hud Hlt B.
    assert (Hdiag : forall j, j < r -> exists uj ui, In (j, uj) (col abcd j) /\ rinv u uj = Some ui).
    { intros j Hj. unfold lead_unit_diag in Hud. rewrite forallb_forall in Hud.
      specialize (Hud j). rewrite in_seq in Hud. specialize (Hud ltac:(lia)).
      apply existsb_exists in Hud. destruct Hud as [[i uj] [He Hu]]. cbn [fst snd] in Hu.
      apply andb_true_iff in Hu. destruct Hu as [Hi Hu]. apply Nat.eqb_eq in Hi. subst i.
      apply (rinv_unit o u UL) in Hu. destruct Hu as [ui Hui]. now exists uj, ui. }
    assert (Hentry : forall j uj, In (j, uj) (col abcd j) -> entry o abcd j j = uj).
    { intros j uj Hin. unfold entry. apply (centry_single o L).
      apply filter_row_single; [now apply (wf_col_spec abcd j Hwf)|assumption]. }
    assert (Htri : forall i j, i < r -> j < r -> (if upper then j < i else i < j) -> entry o abcd i j = 0).
    { intros i j Hi Hj Hij. unfold entry. apply (centry_zero o L). intros e He Hei.
      unfold lead_triang in Hlt. rewrite forallb_forall in Hlt.
      specialize (Hlt (fst e, j, snd e) (in_triplets abcd j e ltac:(lia) He)). cbv beta iota in Hlt.
      rewrite Hei in Hlt.
      replace (i <? r) with true in Hlt by (symmetry; now apply Nat.ltb_lt).
      replace (j <? r) with true in Hlt by (symmetry; now apply Nat.ltb_lt).
      cbn [negb] in Hlt. rewrite !orb_false_r in Hlt.
      apply orb_true_iff in Hlt. destruct Hlt as [Hz|Ht]; [now apply (ris_zero_true o L)|].
      exfalso. destruct upper; apply Nat.leb_le in Ht; lia. }
    split; [|split; [|exact Htri]].
    - constructor.
      + apply (bo_a_shape _ _ _ _ _ _ _ B).
      + apply (bo_a_shape _ _ _ _ _ _ _ B).
      + intros j e He. rewrite <- (proj1 (bo_a_shape _ _ _ _ _ _ _ B)).
        apply (bo_rows _ _ _ _ _ _ _ B a (or_introl eq_refl) j e He).
      + intros j Hj. destruct (Hdiag j Hj) as [uj [ui [Hin Hui]]].
        assert (Huj : uj <> 0) by (apply (unit_nonzero uj ui H10), (rinv_some o u UL uj ui Hui)).
        pose proof (bo_a_keys _ _ _ _ _ _ _ B j uj Hj Hin Huj) as Hk.
        apply in_map_iff in Hk. destruct Hk as [[j' v] [E Hv]]. cbn in E. subst j'.
        assert (Hf : filter (fun e : nat * R => fst e =? j) (col a j) = [(j, v)]).
        { apply filter_row_single; [|assumption].
          apply sorted_strict_NoDup, (bo_sorted _ _ _ _ _ _ _ B a (or_introl eq_refl)). }
        exists v, ui. split; [exact Hf|].
        assert (Ev : v = uj).
        { rewrite <- (centry_single o L _ _ _ Hf). fold (entry o a j j).
          rewrite (bo_a _ _ _ _ _ _ _ B) by assumption. now apply Hentry. }
        now rewrite Ev.
      + intros i j Hi Hj Hij. rewrite (bo_a _ _ _ _ _ _ _ B) by assumption. now apply Htri.
    - intros j Hj. destruct (Hdiag j Hj) as [uj [ui [Hin Hui]]]. exists ui.
      rewrite (Hentry j uj Hin). apply (rinv_some o u UL uj ui Hui).
  Qed.

  Lemma rows_neg (x : spmat R) j e : (forall j e, In e (col x j) -> fst e < nrows x) ->
    In e (col (sp_neg o x) j) -> fst e < nrows (sp_neg o x).
  Proof.
    intros H He. rewrite (col_neg o) in He. apply in_map_iff in He. destruct He as [e' [<- He']].
    cbn [fst sp_neg nrows]. now apply (H j).
  Qed.

  Lemma le_split r m : r <= m -> exists p, m = r + p /\ m - r = p.
  Proof. intros H. exists (m - r). lia. Qed.

  Theorem from_partial_triangular_spec upper abcd r :
    1 <> 0 -> wf abcd = true -> r <= nrows abcd -> r <= ncols abcd ->
    lead_unit_diag abcd r = true -> lead_triang upper abcd r = true ->
    exists sc, from_partial_triangular o u upper abcd r = Some sc /\
               schur_complement_only o u upper abcd r = Some (sch_s sc) /\
               schur_ok upper abcd r sc.
  Proof.
    intros H10 Hwf Hrm Hrn Hud Hlt.
    destruct (divide4_spec o L abcd r Hwf Hrm Hrn) as [a [b [c [d [Ediv B]]]]].
    destruct (lead_block_valid upper abcd r a b c d H10 Hwf Hrm Hrn Hud Hlt B) as [Va [HMu HMt]].
    destruct (bo_a_shape _ _ _ _ _ _ _ B) as [Ha1 Ha2]. destruct (bo_b_shape _ _ _ _ _ _ _ B) as [Hb1 Hb2].
    destruct (bo_c_shape _ _ _ _ _ _ _ B) as [Hc1 Hc2]. destruct (bo_d_shape _ _ _ _ _ _ _ B) as [Hd1 Hd2].
    pose proof (bo_a _ _ _ _ _ _ _ B) as Ea. pose proof (bo_b _ _ _ _ _ _ _ B) as Eb.
    pose proof (bo_c _ _ _ _ _ _ _ B) as Ec. pose proof (bo_d _ _ _ _ _ _ _ B) as Ed.
    assert (Yb : yvalid b r).
    { split; [exact Hb1|]. intros j. split.
      - apply sorted_strict_NoDup, (bo_sorted _ _ _ _ _ _ _ B b). cbn; tauto.
      - intros e He. rewrite <- Hb1. apply (bo_rows _ _ _ _ _ _ _ B b) with (j := j); [cbn; tauto|assumption]. }
    unfold from_partial_triangular, schur_complement_only.
    replace (r <=? nrows abcd) with true by (symmetry; now apply Nat.leb_le).
    replace (r <=? ncols abcd) with true by (symmetry; now apply Nat.leb_le). cbn [andb].
    (* from here on the shapes are r + p and r + q *)
    destruct (le_split r _ Hrm) as [p [Em Ep]]. destruct (le_split r _ Hrn) as [q [En Eq]].
    rewrite Ep in Hc1, Hd1. rewrite Eq in Hb2, Hd2, Eb, Ed.
    rewrite Ep, Eq, Em, En.
    rewrite Ediv. cbn [obind]. unfold solve_triangular.
    rewrite (solve_triangular_st_spec o L u UL upper a r b Va Yb). cbn [obind].
    set (x := solution o u upper a b).
    assert (Hx1 : nrows x = r) by exact Ha1.
    assert (Hx2 : ncols x = q) by exact Hb2.
    assert (Hxrows : forall j e, In e (col x j) -> fst e < r)
      by (intros j e; apply (solution_rows o L u UL upper a r b j e Va Yb)).
    pose proof (solution_solves o L u UL upper a r b Va Yb) as Hsolve. fold x in Hsolve. rewrite Hb2 in Hsolve.
    (* the complement *)
    destruct (compute_schur_spec o L x c d r Hx1 Hc2) as [s [Es [Hs1 [Hs2 Hs]]]];
      [now rewrite Hd2|now rewrite Hd1|exact Hxrows| |].
    { intros j. apply (bo_sorted _ _ _ _ _ _ _ B d). cbn; tauto. }
    rewrite Es. cbn [obind]. rewrite Hd1 in Hs1. rewrite Hd2 in Hs2, Hs.
    (* t_src *)
    destruct (sp_proj_spec o L r q) as [f1 [Ef1 [Hf11 [Hf12 HFs]]]]. rewrite Ef1. cbn [obind].
    destruct (sp_stack_id_spec o L (sp_neg o x) q) as [b1 [Eb1 [Hb11 [Hb12 Hb1e]]]].
    { exact Hx2. }
    { intros j e. apply rows_neg. intros j' e' He'. rewrite Hx1. now apply (Hxrows j'). }
    rewrite Eb1. cbn [obind]. cbn [sp_neg nrows] in Hb11, Hb1e. rewrite Hx1 in Hb11, Hb1e.
    unfold trans_new at 1. rewrite Hf11, Hf12, Hb11, Hb12, !Nat.eqb_refl.
    cbn [andb obind]. cbv beta iota.
    (* t_tgt *)
    destruct (solve_left_spec o L u UL upper a r c Va Hc2) as [z [Ez [Hz1 [Hz2 [Hz3 [Hzrows Hz]]]]]].
    { intros j. apply sorted_strict_NoDup, (bo_sorted _ _ _ _ _ _ _ B c). cbn; tauto. }
    rewrite Ez. cbn [obind]. rewrite Hc1 in Hz1, Hzrows, Hz.
    destruct (extend_cols_id_spec o L (sp_neg o z) p) as [f2 [Ef2 [Hf21 [Hf22 Hf2]]]].
    { exact Hz1. }
    { cbn [sp_neg cols ncols]. rewrite map_length. exact (eq_trans Hz3 (eq_sym Hz2)). }
    rewrite Ef2. cbn [obind]. cbn [sp_neg ncols] in Hf22, Hf2. rewrite Hz2 in Hf22, Hf2.
    destruct (sp_incl_spec o L r p) as [b2 [Eb2 [Hb21 [Hb22 HBt]]]]. rewrite Eb2. cbn [obind].
    unfold trans_new. rewrite Hf21, Hf22, Hb21, Hb22, !Nat.eqb_refl.
    cbn [andb obind]. cbv beta iota.
    eexists. split; [reflexivity|]. cbn [sch_s]. split; [reflexivity|].
    set (M := entry o abcd) in *.
    assert (HAX : forall i j, i < r -> j < q -> sum o r (fun k => rmul o (M i k) (entry o x k j)) = M i (r + j)).
    { intros i j Hi Hj. rewrite <- Eb, <- (Hsolve i j) by assumption.
      apply sum_ext. intros k Hk. now rewrite Ea. }
    assert (HZA : forall i j, i < p -> j < r -> sum o r (fun k => rmul o (entry o z i k) (M k j)) = M (r + i) j).
    { intros i j Hi Hj. rewrite <- Ec, <- (Hz i j) by assumption.
      apply sum_ext. intros k Hk. now rewrite Ea. }
    assert (HS : forall i j, i < p -> j < q ->
              entry o s i j = radd o (M (r + i) (r + j)) (rneg o (sum o r (fun k => rmul o (M (r + i) k) (entry o x k j))))).
    { intros i j Hi Hj. rewrite Hs, Ed by assumption. f_equal. f_equal.
      apply sum_ext. intros k Hk. now rewrite Ec. }
    assert (HBs : forall i j, i < r + q -> j < q ->
              entry o b1 i j = if i <? r then rneg o (entry o x i j) else mid o (i - r) j).
    { intros i j Hi Hj. rewrite Hb1e by assumption. destruct (i <? r); [apply (entry_neg o L)|reflexivity]. }
    assert (HFt : forall i j, i < p -> j < r + p ->
              entry o f2 i j = if j <? r then rneg o (entry o z i j) else mid o i (j - r)).
    { intros i j Hi Hj. rewrite Hf2 by assumption. destruct (j <? r); [apply (entry_neg o L)|].
      now rewrite (proj2 (Nat.ltb_lt _ _) Hj). }
    constructor; cbn [sch_s src_f src_b tgt_f tgt_b]; rewrite ?Ep, ?Eq, ?Em, ?En; fold M.
    - split; assumption.
    - split; assumption.
    - split; assumption.
    - split; assumption.
    - split; assumption.
    - exact (schur_transfer o L r p q M _ _ _ _ _ HAX HZA HS HBs HFt).
    - exact (src_retract o L r q _ _ _ HFs HBs).
    - exact (tgt_retract o L r p _ _ _ HFt HBt).
    - intros Ainv Hinv i j Hi Hj.
      rewrite (schur_formula o L r p q M _ _ HAX HS upper Ainv HMu HMt Hinv i j Hi Hj).
      unfold msub, mmul, blkD, blkC, blkB. reflexivity.
  Qed.

  (* inv_triangular returns a right inverse of every valid triangular matrix (so the [Ainv] of [so_formula] exists) *)
  Lemma inv_triangular_spec upper a n : tvalid o u upper a n ->
    exists x, inv_triangular o u upper a = Some x /\ nrows x = n /\ ncols x = n /\
      meq n n (mmul o n (entry o a) (entry o x)) (mid o).
  Proof.
    intros V. unfold inv_triangular, solve_triangular. rewrite (tv_nrows _ _ _ _ _ V).
    rewrite (solve_triangular_st_spec o L u UL upper a n (sp_id o n) V (yvalid_id o n)). cbn [obind].
    eexists. split; [reflexivity|]. split; [exact (tv_nrows _ _ _ _ _ V)|]. split; [reflexivity|].
    intros i j Hi Hj.
    rewrite (solution_solves o L u UL upper a n (sp_id o n) V (yvalid_id o n) i j Hi Hj).
    now apply (entry_id o L).
  Qed.
End SchurMain.
