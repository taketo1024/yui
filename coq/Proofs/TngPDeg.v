(* Tangle layer, part 3: degrees of labels in the segment graph, simple components, the invariant of a glued
   tangle (components are simple paths / cycles with pairwise disjoint label sets), and what a degree bound
   (every label lies on at most two segment ends) says about a new arc. *)
From Coq Require Import List Arith Bool Lia Permutation.
Import ListNotations.
Require Import Yui.Model.Link Yui.Model.Tng Yui.Proofs.TngPBase Yui.Proofs.TngPSegs.
Require Import Yui.Base.ListFacts.

Definition ends_of (S : list (nat * nat)) : list nat := flat_map (fun ab => [fst ab; snd ab]) S.
Definition deg (S : list (nat * nat)) (v : nat) : nat := count_occ Nat.eq_dec (ends_of S) v.
Definition deg_le2 (S : list (nat * nat)) : Prop := forall v, deg S v <= 2.

(* a simple component: no repeated label; an arc has two labels at least, a circle one *)
Definition simple (p : path) : Prop :=
  NoDup (pedges p) /\ (if pclosed p then pedges p <> [] else 2 <= length (pedges p)).
Definition verts (t : list path) : list nat := flat_map pedges t.
Definition tng_inv (t : list path) : Prop := Forall simple t /\ NoDup (verts t).
Definition is_end (p : path) (v : nat) : Prop := v = hd 0 (pedges p) \/ v = last (pedges p) 0.

Lemma simple_ne : forall p, simple p -> pedges p <> [].
Proof. intros p [_ Hs]. destruct (pclosed p); auto. intros E. rewrite E in Hs. cbn in Hs. lia. Qed.
Lemma simple_pwf : forall p, simple p -> pwf p.
Proof. intros p Hs. right. apply simple_ne; auto. Qed.
Lemma inv_simple : forall t c, tng_inv t -> In c t -> simple c.
Proof. intros t c [Hs _]. apply (proj1 (Forall_forall _ _) Hs). Qed.
Lemma inv_ne : forall t, tng_inv t -> forall c, In c t -> pedges c <> [].
Proof. intros t Hi c Hc. exact (simple_ne c (inv_simple t c Hi Hc)). Qed.
Lemma inv_twf : forall t, tng_inv t -> twf t.
Proof. intros t [Hs _]. unfold twf. eapply Forall_impl; [|exact Hs]. apply simple_pwf. Qed.

Lemma ends_of_app : forall a b, ends_of (a ++ b) = ends_of a ++ ends_of b.
Proof. intros. apply flat_map_app. Qed.
Lemma deg_app : forall a b v, deg (a ++ b) v = deg a v + deg b v.
Proof. intros. unfold deg. rewrite ends_of_app, count_occ_app. reflexivity. Qed.
Lemma count_perm : forall (l l' : list nat) v, Permutation l l' ->
  count_occ Nat.eq_dec l v = count_occ Nat.eq_dec l' v.
Proof. intros l l' v Hp. apply (proj1 (Permutation_count_occ Nat.eq_dec l l') Hp). Qed.
Lemma deg_perm : forall a b v, Permutation a b -> deg a v = deg b v.
Proof.
  intros a b v Hp. unfold deg. apply count_perm. apply Permutation_flat_map. exact Hp.
Qed.
Lemma deg_le2_perm : forall a b, Permutation a b -> deg_le2 a -> deg_le2 b.
Proof. intros a b Hp Ha v. rewrite <- (deg_perm a b v Hp). apply Ha. Qed.
Lemma deg_le2_app_l : forall a b, deg_le2 (a ++ b) -> deg_le2 a.
Proof. intros a b Hd v. specialize (Hd v). rewrite deg_app in Hd. lia. Qed.
Lemma deg_le2_app_r : forall a b, deg_le2 (a ++ b) -> deg_le2 b.
Proof. intros a b Hd v. specialize (Hd v). rewrite deg_app in Hd. lia. Qed.

Lemma nseg_ends_perm : forall a b, Permutation [fst (nseg a b); snd (nseg a b)] [a; b].
Proof.
  intros a b. unfold nseg. cbn [fst snd]. destruct (Nat.le_gt_cases a b).
  - rewrite Nat.min_l, Nat.max_r by lia. apply Permutation_refl.
  - rewrite Nat.min_r, Nat.max_l by lia. apply perm_swap.
Qed.

Lemma ends_arc_segs : forall l, Permutation (ends_of (arc_segs l)) (removelast l ++ tl l).
Proof.
  induction l as [|a l IH]; [constructor|].
  destruct l as [|b l]; [constructor|].
  rewrite arc_segs_cons2. change (ends_of (nseg a b :: arc_segs (b :: l)))
    with ([fst (nseg a b); snd (nseg a b)] ++ ends_of (arc_segs (b :: l))).
  eapply perm_trans; [apply Permutation_app; [apply nseg_ends_perm|exact IH]|].
  change (removelast (a :: b :: l)) with (a :: removelast (b :: l)). cbn [tl app].
  constructor. apply Permutation_middle.
Qed.

Lemma ends_circ_segs : forall l, l <> [] -> Permutation (ends_of (circ_segs l)) (l ++ l).
Proof.
  intros [|x l] Hl; [contradiction|]. unfold circ_segs.
  eapply perm_trans; [apply ends_arc_segs|].
  rewrite removelast_last. cbn [app tl]. constructor. apply Permutation_app_head.
  apply Permutation_sym. apply Permutation_cons_append.
Qed.

Lemma ends_segs_in : forall p v, simple p -> (In v (ends_of (segs p)) <-> In v (pedges p)).
Proof.
  intros p v [Hn Hs]. unfold segs. destruct (pclosed p).
  - rewrite (perm_in_iff _ _ v (ends_circ_segs _ Hs)), in_app_iff. tauto.
  - rewrite (perm_in_iff _ _ v (ends_arc_segs _)), in_app_iff. split.
    + intros [Hi|Hi]; [apply in_removelast|apply in_tl]; auto.
    + destruct (pedges p) as [|a [|b l]]; cbn in Hs; try lia.
      intros [<-|Hi]; [left; left; reflexivity|right; exact Hi].
Qed.

Lemma count_in_ge1 : forall (l : list nat) v, In v l -> 1 <= count_occ Nat.eq_dec l v.
Proof. intros l v Hi. apply (count_occ_In Nat.eq_dec) in Hi. lia. Qed.

Lemma deg_closed_ge2 : forall p v, simple p -> pclosed p = true -> In v (pedges p) -> 2 <= deg (segs p) v.
Proof.
  intros p v [Hn Hs] Hc Hi. rewrite Hc in Hs. unfold deg, segs. rewrite Hc.
  rewrite (count_perm _ (pedges p ++ pedges p)) by (apply ends_circ_segs; auto).
  rewrite count_occ_app. pose proof (count_in_ge1 _ _ Hi). lia.
Qed.

Lemma deg_arc_interior_ge2 : forall p v, pclosed p = false ->
  In v (removelast (pedges p)) -> In v (tl (pedges p)) -> 2 <= deg (segs p) v.
Proof.
  intros p v Hc H1 H2. unfold deg, segs. rewrite Hc.
  rewrite (count_perm _ (removelast (pedges p) ++ tl (pedges p))) by (apply ends_arc_segs).
  rewrite count_occ_app. pose proof (count_in_ge1 _ _ H1). pose proof (count_in_ge1 _ _ H2). lia.
Qed.

Lemma deg_ge1 : forall p v, simple p -> In v (pedges p) -> 1 <= deg (segs p) v.
Proof. intros p v Hs Hi. unfold deg. apply count_in_ge1. apply ends_segs_in; auto. Qed.

Lemma deg_tsegs_ge : forall t c v, In c t -> deg (segs c) v <= deg (tsegs t) v.
Proof.
  intros t c v Hc. destruct (in_split _ _ Hc) as (l1 & l2 & ->).
  rewrite (deg_perm _ _ v (tsegs_middle l1 c l2)), deg_app. lia.
Qed.

Lemma in_verts : forall t v, In v (verts t) <-> exists c, In c t /\ In v (pedges c).
Proof. intros. unfold verts. rewrite in_flat_map. tauto. Qed.

Lemma verts_ends : forall t v, Forall simple t -> (In v (verts t) <-> In v (ends_of (tsegs t))).
Proof.
  intros t v Hs. induction Hs as [|c t Sc _ IH]; [tauto|].
  cbn [verts tsegs flat_map]. rewrite ends_of_app, !in_app_iff, (ends_segs_in c v Sc). exact (or_iff_compat_l _ IH).
Qed.

Lemma end_or_interior : forall (l : list nat) v, In v l ->
  v = hd 0 l \/ v = last l 0 \/ (In v (removelast l) /\ In v (tl l)).
Proof.
  intros l v Hi. destruct (in_split_hd l v 0 Hi) as [E|Ht]; auto.
  destruct (in_split_last l v 0 Hi) as [Hr|E]; auto.
Qed.

(* what the degree bound says about a new component *)
Section Local.
  Variable t : list path.
  Variable a : path.
  Hypothesis Hinv : tng_inv t.
  Hypothesis Hdeg : deg_le2 (tsegs t ++ segs a).

  Lemma deg_split : forall v c, In c t -> deg (segs c) v + deg (segs a) v <= 2.
  Proof.
    intros v c Hc. specialize (Hdeg v). rewrite deg_app in Hdeg.
    pose proof (deg_tsegs_ge t c v Hc). lia.
  Qed.

  (* an interior label of the new arc is a new label *)
  Lemma new_interior : forall v, pclosed a = false ->
    In v (removelast (pedges a)) -> In v (tl (pedges a)) -> ~ In v (verts t).
  Proof.
    intros v Ha H1 H2 Hv. apply in_verts in Hv. destruct Hv as (c & Hc & Hvc).
    pose proof (deg_arc_interior_ge2 a v Ha H1 H2). pose proof (deg_ge1 c v (inv_simple t c Hinv Hc) Hvc).
    pose proof (deg_split v c Hc). lia.
  Qed.

  (* a label of the new component that is already there is an end of an arc *)
  Lemma old_label_is_end : forall v c, simple a -> In v (pedges a) -> In c t -> In v (pedges c) ->
    pclosed c = false /\ is_end c v.
  Proof.
    intros v c Sa Hva Hc Hvc.
    pose proof (deg_ge1 a v Sa Hva). pose proof (deg_split v c Hc).
    destruct (pclosed c) eqn:Ec.
    - pose proof (deg_closed_ge2 c v (inv_simple t c Hinv Hc) Ec Hvc). lia.
    - split; auto. destruct (end_or_interior _ _ Hvc) as [E|[E|[H1 H2]]]; [left; auto|right; auto|].
      pose proof (deg_arc_interior_ge2 c v Ec H1 H2). lia.
  Qed.

  (* a new circle is disjoint from everything *)
  Lemma new_circle : forall v, simple a -> pclosed a = true -> In v (pedges a) -> ~ In v (verts t).
  Proof.
    intros v Sa Ha Hva Hv. apply in_verts in Hv. destruct Hv as (c & Hc & Hvc).
    pose proof (deg_closed_ge2 a v Sa Ha Hva). pose proof (deg_ge1 c v (inv_simple t c Hinv Hc) Hvc).
    pose proof (deg_split v c Hc). lia.
  Qed.

  (* together: an old component and the new one can only meet where both are arcs, at ends of both *)
  Lemma meets_at_ends : forall v c, simple a -> In c t -> In v (pedges c) -> In v (pedges a) ->
    pclosed c = false /\ pclosed a = false /\ is_end c v /\ is_end a v.
  Proof.
    intros v c Sa Hc Hvc Hva. destruct (pclosed a) eqn:Ha.
    { exfalso. apply (new_circle v Sa Ha Hva). apply in_verts. eauto. }
    destruct (old_label_is_end v c Sa Hva Hc Hvc) as [Hcc He]. repeat split; [exact Hcc|exact He|].
    destruct (end_or_interior _ _ Hva) as [E|[E|[H1 H2]]]; [left; exact E|right; exact E|].
    exfalso. apply (new_interior v Ha H1 H2). apply in_verts. eauto.
  Qed.
End Local.

Lemma verts_app : forall a b, verts (a ++ b) = verts a ++ verts b.
Proof. intros. apply flat_map_app. Qed.
Lemma verts_perm : forall a b, Permutation a b -> Permutation (verts a) (verts b).
Proof. intros. apply Permutation_flat_map; auto. Qed.

Lemma inv_perm : forall a b, Permutation a b -> tng_inv a -> tng_inv b.
Proof.
  intros a b Hp [Hs Hn]. split.
  - exact (Permutation_Forall Hp Hs).
  - eapply Permutation_NoDup; [apply verts_perm; exact Hp|exact Hn].
Qed.

Lemma inv_cons : forall c rest, tng_inv (c :: rest) <->
  simple c /\ tng_inv rest /\ (forall v, In v (pedges c) -> ~ In v (verts rest)).
Proof.
  intros c rest. unfold tng_inv. cbn [verts flat_map]. rewrite Forall_cons_iff. split.
  - intros [[Sc Sr] Hn]. apply NoDup_app_inv in Hn. destruct Hn as (N1 & N2 & Hd).
    split; [exact Sc|]. split; [split; assumption|]. intros v H1 H2. eapply Hd; eauto.
  - intros (Sc & [Sr Nr] & Hd). split; [split; assumption|].
    apply NoDup_app_intro; [apply Sc|exact Nr|]. intros x H1 H2. eapply Hd; eauto.
Qed.

Lemma inv_middle : forall l1 c l2, tng_inv (l1 ++ c :: l2) <->
  simple c /\ tng_inv (l1 ++ l2) /\ (forall v, In v (pedges c) -> ~ In v (verts (l1 ++ l2))).
Proof.
  intros. rewrite <- inv_cons. split; apply inv_perm.
  - apply Permutation_sym, Permutation_middle.
  - apply Permutation_middle.
Qed.

Lemma inv_nil : tng_inv [].
Proof. split; constructor. Qed.
Lemma inv_single : forall c, simple c -> tng_inv [c].
Proof. intros c Sc. apply inv_cons. split; [exact Sc|]. split; [apply inv_nil|intros v _ []]. Qed.
