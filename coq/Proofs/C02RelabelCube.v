(* C02 invariance: order-preserving relabelling leaves the whole cube unchanged.
   For rho strictly increasing on the edge labels (and on the base edge of a reduced complex):
   the vertices of the relabelled diagram are the vertices of the original with rho applied to the
   circles, the sparse differentials [c_rows] are literally equal, [first_edge] commutes with rho, and
   the tables [kh_groups], [kh_groups_bigraded] are literally equal. *)
From Coq Require Import List Arith Bool ZArith Lia.
Require Import Yui.Model.KhCube Yui.Model.KhHomology.
Require Import Yui.Base.ListFacts.
Require Import Yui.Proofs.C02Sorted Yui.Proofs.C02Canon Yui.Proofs.C02Relabel Yui.Proofs.C02CubeMap.
Import ListNotations.

Definition opt_list (o : option nat) : list nat := match o with Some e => [e] | None => [] end.

Definition within (U : list nat) (c : circle) : Prop := forall e, In e c -> In e U.

Lemma list_eqb_map_inj rho U c d : inj_on rho U -> within U c -> within U d ->
  list_eqb (map rho c) (map rho d) = list_eqb c d.
Proof.
  intros Hinj. revert d. induction c as [|x c IH]; intros [|y d] Hc Hd; try reflexivity.
  cbn [map list_eqb]. rewrite IH; [|intros e He; apply Hc; now right|intros e He; apply Hd; now right].
  f_equal. destruct (Nat.eqb_spec x y) as [->|Hne]; [apply Nat.eqb_refl|].
  apply Nat.eqb_neq. intros E. apply Hne. apply Hinj; [apply Hc; now left|apply Hd; now left|exact E].
Qed.

Lemma mem_map_inj rho U e c : inj_on rho U -> In e U -> within U c ->
  existsb (Nat.eqb (rho e)) (map rho c) = existsb (Nat.eqb e) c.
Proof.
  intros Hinj He Hc. apply Bool.eq_iff_eq_true. rewrite !existsb_eqb_In, in_map_iff. split.
  - intros [x [E Hx]]. assert (x = e) by (apply Hinj; [now apply Hc|exact He|exact E]). now subst.
  - intros H. exists e. auto.
Qed.

Lemma base_index_relabel rho U red cs : inj_on rho U -> (forall e, In e (opt_list red) -> In e U) ->
  (forall c, In c cs -> within U c) ->
  base_index (option_map rho red) (map (map rho) cs) = base_index red cs.
Proof.
  intros Hinj Hr Hcs. destruct red as [e|]; [|reflexivity]. cbn [option_map base_index].
  rewrite index_where_map. apply index_where_ext_in. intros c Hc.
  apply (mem_map_inj rho U); [exact Hinj|apply Hr; now left|now apply Hcs].
Qed.

Section Relabel.
Variable rho : nat -> nat.
Variable l : link.
Variable red : option nat.
Let U := opt_list red ++ all_edges l.
Hypothesis Hmono : mono_on rho U.

Let Hinj : inj_on rho U := mono_inj rho U Hmono.
Let HmonoE : mono_on rho (all_edges l).
Proof. apply (mono_on_incl rho U); [|exact Hmono]. intros e He. apply in_or_app. now right. Qed.

Lemma circles_within s c : In c (circles (resolve_by l s)) -> within U c.
Proof.
  intros Hc e He. apply in_or_app. right. rewrite <- (resolve_by_edges l s).
  now apply (circles_in_edges _ c).
Qed.

Lemma make_vertex_relabel s :
  make_vertex (relabel rho l) (option_map rho red) s = vmap (map rho) (make_vertex l red s).
Proof.
  unfold make_vertex, vmap. cbn [v_state v_circles v_base v_labels].
  rewrite circles_resolve_relabel_mono by exact HmonoE.
  rewrite (base_index_relabel rho U); [now rewrite map_length|exact Hinj| |apply circles_within].
  intros e He. apply in_or_app. now left.
Qed.

Lemma all_vertices_relabel :
  all_vertices (relabel rho l) (option_map rho red) = map (vmap (map rho)) (all_vertices l red).
Proof.
  unfold all_vertices. rewrite relabel_crossing_num, map_map. apply map_ext. apply make_vertex_relabel.
Qed.

Lemma all_vertices_good : vs_good (within U) (all_vertices l red).
Proof.
  intros v Hv. unfold all_vertices in Hv. apply in_map_iff in Hv. destruct Hv as [s [<- _]].
  intros c Hc. cbn [make_vertex v_circles] in Hc. now apply (circles_within s).
Qed.

Theorem build_cube_relabel h t :
  build_cube (relabel rho l) (option_map rho red) h t = cube_map (map rho) (build_cube l red h t).
Proof.
  unfold build_cube, cube_map. cbn [c_n c_gens c_rows]. rewrite relabel_crossing_num, all_vertices_relabel.
  f_equal.
  - rewrite map_map. apply map_ext. intros k. apply gens_of_weight_map.
  - apply map_ext. intros k. f_equal.
    apply (d_images_map (map rho) (within U)); [|exact all_vertices_good].
    intros c d Hc Hd. now apply (list_eqb_map_inj rho U).
Qed.

Corollary c_rows_relabel h t :
  c_rows (build_cube (relabel rho l) (option_map rho red) h t) = c_rows (build_cube l red h t).
Proof. now rewrite build_cube_relabel. Qed.

Corollary kh_groups_relabel h t :
  kh_groups (build_cube (relabel rho l) (option_map rho red) h t) = kh_groups (build_cube l red h t).
Proof. rewrite build_cube_relabel. apply kh_groups_map. Qed.

Corollary kh_groups_bigraded_relabel h t :
  kh_groups_bigraded (build_cube (relabel rho l) (option_map rho red) h t)
  = kh_groups_bigraded (build_cube l red h t).
Proof. rewrite build_cube_relabel. apply kh_groups_bigraded_map. Qed.

End Relabel.

(* the base edge the library chooses for a reduced complex commutes with rho *)
Lemma fold_min_mono rho E x l : mono_on rho E -> (forall e, In e (x :: l) -> In e E) ->
  fold_right Nat.min (rho x) (map rho l) = rho (fold_right Nat.min x l).
Proof.
  intros H I. induction l as [|y l IH]; [reflexivity|]. cbn [map fold_right].
  rewrite IH by (intros e [<-|He]; apply I; [now left|right; now right]).
  assert (Hy : In y E) by (apply I; right; now left).
  assert (Hm : In (fold_right Nat.min x l) E)
    by (destruct (proj1 (fold_min_spec l x)) as [<-|Hm]; apply I; [now left|right; now right]).
  destruct (Nat.lt_trichotomy y (fold_right Nat.min x l)) as [L|[<-|L]].
  - pose proof (H _ _ Hy Hm L). rewrite !Nat.min_l by lia. reflexivity.
  - rewrite !Nat.min_id. reflexivity.
  - pose proof (H _ _ Hm Hy L). rewrite !Nat.min_r by lia. reflexivity.
Qed.

Lemma first_edge_relabel rho l : mono_on rho (all_edges l) ->
  first_edge (relabel rho l) = option_map rho (first_edge l).
Proof.
  destruct l as [|[t [[[a b] c] d]] l]; intros H; [reflexivity|].
  cbn [relabel map relabel_crossing first_edge crossing_edges hd option_map]. f_equal.
  apply (fold_min_mono rho _ a [a; b; c; d] H).
  intros e [<-|He]; apply in_or_app; left; [now left|exact He].
Qed.

Lemma first_edge_in l e : first_edge l = Some e -> In e (all_edges l).
Proof.
  destruct l as [|[t [[[a b] c] d]] l]; [discriminate|]. cbn [first_edge crossing_edges hd].
  intros E. injection E as <-. unfold all_edges. cbn [flat_map crossing_edges]. apply in_or_app. left.
  destruct (proj1 (fold_min_spec [a; b; c; d] a)) as [E|H]; [left; exact E|exact H].
Qed.

(* the reduced complex with the library's own choice of base edge *)
Theorem build_cube_relabel_first rho l h t : mono_on rho (all_edges l) ->
  build_cube (relabel rho l) (first_edge (relabel rho l)) h t
  = cube_map (map rho) (build_cube l (first_edge l) h t).
Proof.
  intros H. rewrite first_edge_relabel by exact H. apply build_cube_relabel.
  assert (I : forall a, In a (opt_list (first_edge l) ++ all_edges l) -> In a (all_edges l)).
  { intros a Ha. apply in_app_or in Ha. destruct Ha as [Ha|Ha]; [|exact Ha].
    destruct (first_edge l) as [e|] eqn:E; [|destruct Ha]. destruct Ha as [<-|[]]. now apply first_edge_in. }
  intros a b Ha Hb. apply H; now apply I.
Qed.
