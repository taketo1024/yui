(* C13, coordinate transforms: a Trans built by ANY finite history of new / append / append_perm /
   merge / reduce / sub applies the same linear map as the product of its factors, its forward_mat and
   backward_mat are those products (f_n ... f_0 and b_0 ... b_n), and reduce changes neither map.

   [chain d fs bs d']: the factor lists are well-formed sparse matrices whose shapes compose,
   f_k : d_k -> d_(k+1), b_k : d_(k+1) -> d_k, from d_0 = d to the last dimension d' (the invariant of Trans).
   [fprod fs] = f_n ... f_0 and [bprod bs] = b_0 ... b_n as functional matrices (MatF).
   [hF h], [hB h]: the linear maps a history denotes, defined with MatF products only. *)
From Coq Require Import Arith List Lia Bool Ring Sorted.
Require Import Yui.Base.Ring Yui.Base.MatF Yui.Base.MatL Yui.Model.Dense Yui.Model.Sparse Yui.Model.Trans.
Require Import Yui.Proofs.C13Dense Yui.Proofs.C13SpBase Yui.Proofs.C13Sparse Yui.Proofs.C13SpArith Yui.Proofs.C13SpVec.
Import ListNotations.

Section TransProofs.
  Context {R : Type} (o : ring_ops R) (L : ring_laws o).

  Local Notation "0" := (rzero o).
  Local Notation "1" := (rone o).
  Local Infix "*" := (rmul o).
  Local Notation spmat := (spmat R).
  Local Notation trans := (trans R).
  Local Notation hist := (hist R).
  Local Notation sp_wf := (@sp_wf R).
  Local Notation sp_is := (sp_is o).
  Local Notation sv_is := (sv_is o).
  Local Notation is_perm := C13Sparse.is_perm.
  Local Notation pat := C13Sparse.pat.

  Add Ring Rring : (ring_theory_of_laws o L).

  Inductive chain : nat -> list spmat -> list spmat -> nat -> Prop :=
  | chain_nil d : chain d [] [] d
  | chain_cons d f b fs bs d' :
      sp_wf f -> sp_wf b -> sp_n f = d -> sp_m b = d -> sp_n b = sp_m f ->
      chain (sp_m f) fs bs d' -> chain d (f :: fs) (b :: bs) d'.

  Definition tr_wf (t : trans) : Prop := chain (t_src t) (t_f t) (t_b t) (t_tgt t).

  Fixpoint fprod (fs : list spmat) : mat R :=            (* f_n ... f_1 f_0 *)
    match fs with [] => mid o | f :: r => mmul o (sp_m f) (fprod r) (entry o f) end.
  Fixpoint bprod (bs : list spmat) : mat R :=            (* b_0 b_1 ... b_n *)
    match bs with [] => mid o | b :: r => mmul o (sp_n b) (entry o b) (bprod r) end.

  Lemma chain_length d fs bs d' : chain d fs bs d' -> length fs = length bs.
  Proof. induction 1; cbn [length]; congruence. Qed.

  Lemma chain_app d fs bs d' fs' bs' d'' :
    chain d fs bs d' -> chain d' fs' bs' d'' -> chain d (fs ++ fs') (bs ++ bs') d''.
  Proof. induction 1; intros H'; cbn [app]; [exact H'|]. constructor; try assumption. now apply IHchain. Qed.

  Lemma chain_one f b : sp_wf f -> sp_wf b -> sp_n b = sp_m f -> sp_m b = sp_n f ->
    chain (sp_n f) [f] [b] (sp_m f).
  Proof. intros. constructor; try assumption; try reflexivity. constructor. Qed.

  Lemma mmul_mid_l n A : forall m p, (m <= n)%nat -> meq m p (mmul o n (mid o) A) A.
  Proof. intros m p H i j Hi _. apply (mmul_id_l o L). lia. Qed.
  Lemma mmul_mid_r n A : forall m p, (p <= n)%nat -> meq m p (mmul o n A (mid o)) A.
  Proof. intros m p H i j _ Hj. apply (mmul_id_r o L). lia. Qed.

  Lemma fprod_app d fs bs d' fs' bs' d'' :
    chain d fs bs d' -> chain d' fs' bs' d'' ->
    meq d'' d (fprod (fs ++ fs')) (mmul o d' (fprod fs') (fprod fs)).
  Proof.
    induction 1 as [d|d f b fs bs d' Wf Wb E1 E2 E3 C IH]; intros C'; cbn [app fprod].
    - apply meq_sym. apply mmul_mid_r. lia.
    - intros i j Hi Hj. rewrite <- (mmul_assoc o L).
      apply (mmul_ext o (sp_m f) d'' d); try assumption.
      + now apply IH.
      + apply meq_refl.
  Qed.

  Lemma bprod_app d fs bs d' fs' bs' d'' :
    chain d fs bs d' -> chain d' fs' bs' d'' ->
    meq d d'' (bprod (bs ++ bs')) (mmul o d' (bprod bs) (bprod bs')).
  Proof.
    induction 1 as [d|d f b fs bs d' Wf Wb E1 E2 E3 C IH]; intros C'; cbn [app bprod].
    - apply meq_sym. apply mmul_mid_l. lia.
    - intros i j Hi Hj. rewrite (mmul_assoc o L).
      apply (mmul_ext o (sp_n b) d d''); try assumption.
      + apply meq_refl.
      + rewrite E3. now apply IH.
  Qed.

  Lemma forward_fold d fs bs d' v g :
    chain d fs bs d' -> sv_is v d g ->
    exists w, fold_left (fun acc f => do w <- acc; sp_mul_vec o f w) fs (Some v) = Some w /\
              sv_is w d' (mvec o d (fprod fs) g).
  Proof.
    intros C. revert v g. induction C as [d|d f b fs bs d' Wf Wb E1 E2 E3 C IH]; intros v g V; cbn [fold_left fprod].
    - exists v. split; [reflexivity|]. eapply sv_is_ext; [exact V|]. intros i Hi. symmetry. now apply (mvec_id o L).
    - cbn [obind]. pose proof (sp_mul_vec_spec o L f v d g Wf V) as M.
      destruct (sp_mul_vec o f v) as [v1|]; [|exfalso; now apply M].
      destruct M as (_ & V1). destruct (IH v1 _ V1) as [w [Ew W]]. exists w. split; [exact Ew|].
      eapply sv_is_ext; [exact W|]. intros i Hi. symmetry. apply (mvec_mmul o L).
  Qed.

  Lemma backward_fold d fs bs d' v g :
    chain d fs bs d' -> sv_is v d' g ->
    exists w, fold_left (fun acc b => do w <- acc; sp_mul_vec o b w) (rev bs) (Some v) = Some w /\
              sv_is w d (mvec o d' (bprod bs) g).
  Proof.
    intros C. revert v g. induction C as [d|d f b fs bs d' Wf Wb E1 E2 E3 C IH]; intros v g V; cbn [rev bprod].
    - exists v. split; [reflexivity|]. eapply sv_is_ext; [exact V|]. intros i Hi. symmetry. now apply (mvec_id o L).
    - rewrite fold_left_app. destruct (IH v g V) as [w1 [Ew1 W1]]. rewrite Ew1. cbn [fold_left obind].
      pose proof (sp_mul_vec_spec o L b w1 (sp_m f) _ Wb W1) as M.
      destruct (sp_mul_vec o b w1) as [w|]; [|exfalso; now apply M].
      destruct M as (_ & W). exists w. split; [reflexivity|]. rewrite E2 in W.
      eapply sv_is_ext; [exact W|]. intros i Hi. symmetry. rewrite <- E3. apply (mvec_mmul o L).
  Qed.

  Theorem tr_forward_spec t v : tr_wf t -> sp_wf v -> sp_n v = 1%nat ->
    match tr_forward o t v with
    | Some w => sv_dim v = t_src t /\ sv_is w (t_tgt t) (mvec o (t_src t) (fprod (t_f t)) (ventry o v))
    | None => sv_dim v <> t_src t
    end.
  Proof.
    intros C W N. unfold tr_forward. destruct (Nat.eqb_spec (sv_dim v) (t_src t)) as [E|E]; [|exact E].
    destruct (forward_fold _ _ _ _ v (ventry o v) C) as [w [Ew Hw]].
    - unfold sv_dim in E. rewrite <- E. now apply sv_is_self.
    - rewrite Ew. now split.
  Qed.

  Theorem tr_backward_spec t v : tr_wf t -> sp_wf v -> sp_n v = 1%nat ->
    match tr_backward o t v with
    | Some w => sv_dim v = t_tgt t /\ sv_is w (t_src t) (mvec o (t_tgt t) (bprod (t_b t)) (ventry o v))
    | None => sv_dim v <> t_tgt t
    end.
  Proof.
    intros C W N. unfold tr_backward. destruct (Nat.eqb_spec (sv_dim v) (t_tgt t)) as [E|E]; [|exact E].
    destruct (backward_fold _ _ _ _ v (ventry o v) C) as [w [Ew Hw]].
    - unfold sv_dim in E. rewrite <- E. now apply sv_is_self.
    - rewrite Ew. now split.
  Qed.

  Lemma fmat_fold d fs bs d' acc m A :
    chain d fs bs d' -> sp_is acc m d' A ->
    exists r, fold_left (fun acc f => do r <- acc; sp_mul o r f) (rev fs) (Some acc) = Some r /\
              sp_is r m d (mmul o d' A (fprod fs)).
  Proof.
    intros C. revert acc A. induction C as [d|d f b fs bs d' Wf Wb E1 E2 E3 C IH]; intros acc A H; cbn [rev fprod].
    - exists acc. split; [reflexivity|]. eapply sp_is_ext; [exact H|].
      intros i j Hi Hj. symmetry. apply (mmul_id_r o L). lia.
    - rewrite fold_left_app. destruct (IH acc A H) as [r1 [Er1 (R1 & R2 & R3 & R4)]]. rewrite Er1. cbn [fold_left obind].
      pose proof (sp_mul_spec o L r1 f R3 Wf) as M. destruct (sp_mul o r1 f) as [r|]; [|exfalso; apply M; lia].
      destruct M as (_ & (M1 & M2 & M3 & M4)). exists r. split; [reflexivity|].
      unfold C13Sparse.sp_is. splits; try assumption; try lia.
      intros i j Hi Hj. rewrite M4 by lia. rewrite R2, <- (mmul_assoc o L).
      apply (mmul_ext o (sp_m f) m d); try lia.
      + exact R4.
      + apply meq_refl.
  Qed.

  Lemma bmat_fold d fs bs d' acc p A :
    chain d fs bs d' -> sp_is acc d' p A ->
    exists r, fold_left (fun acc b => do r <- acc; sp_mul o b r) (rev bs) (Some acc) = Some r /\
              sp_is r d p (mmul o d' (bprod bs) A).
  Proof.
    intros C. revert acc A. induction C as [d|d f b fs bs d' Wf Wb E1 E2 E3 C IH]; intros acc A H; cbn [rev bprod].
    - exists acc. split; [reflexivity|]. eapply sp_is_ext; [exact H|].
      intros i j Hi Hj. symmetry. apply (mmul_id_l o L). lia.
    - rewrite fold_left_app. destruct (IH acc A H) as [r1 [Er1 (R1 & R2 & R3 & R4)]]. rewrite Er1. cbn [fold_left obind].
      pose proof (sp_mul_spec o L b r1 Wb R3) as M. destruct (sp_mul o b r1) as [r|]; [|exfalso; apply M; lia].
      destruct M as (_ & (M1 & M2 & M3 & M4)). exists r. split; [reflexivity|].
      unfold C13Sparse.sp_is. splits; try assumption; try lia.
      intros i j Hi Hj. rewrite M4 by lia. rewrite (mmul_assoc o L).
      apply (mmul_ext o (sp_n b) d p); try lia.
      + apply meq_refl.
      + rewrite E3. exact R4.
  Qed.

  Theorem tr_forward_mat_spec t : tr_wf t ->
    exists F, tr_forward_mat o t = Some F /\ sp_is F (t_tgt t) (t_src t) (fprod (t_f t)).
  Proof.
    intros C. unfold tr_wf in C. unfold tr_forward_mat.
    assert (G : exists F, fold_left (fun acc f => do r <- acc; sp_mul o r f) (rev (t_f t)) (Some (sp_id o (t_tgt t))) = Some F /\
                          sp_is F (t_tgt t) (t_src t) (fprod (t_f t))).
    { destruct (fmat_fold _ _ _ _ (sp_id o (t_tgt t)) (t_tgt t) (mid o) C (sp_id_spec o L _)) as [F [EF HF]].
      exists F. split; [exact EF|]. eapply sp_is_ext; [exact HF|]. intros i j Hi Hj. apply (mmul_id_l o L). lia. }
    destruct (t_f t) as [|f [|f' r]] eqn:Ef; try exact G.
    (* exactly one factor: the clone of f_0 *)
    exists f. split; [reflexivity|]. inversion C as [|d f0 b fs bs d' Wf Wb E1 E2 E3 C' Ed Efs Ebs Ed']; subst.
    inversion C'; subst. unfold C13Sparse.sp_is. splits; try assumption; try lia.
    intros i j Hi Hj. cbn [fprod]. symmetry. apply (mmul_id_l o L). lia.
  Qed.

  Theorem tr_backward_mat_spec t : tr_wf t ->
    exists B, tr_backward_mat o t = Some B /\ sp_is B (t_src t) (t_tgt t) (bprod (t_b t)).
  Proof.
    intros C. unfold tr_wf in C. unfold tr_backward_mat.
    assert (G : exists B, fold_left (fun acc b => do r <- acc; sp_mul o b r) (rev (t_b t)) (Some (sp_id o (t_tgt t))) = Some B /\
                          sp_is B (t_src t) (t_tgt t) (bprod (t_b t))).
    { destruct (bmat_fold _ _ _ _ (sp_id o (t_tgt t)) (t_tgt t) (mid o) C (sp_id_spec o L _)) as [B [EB HB]].
      exists B. split; [exact EB|]. eapply sp_is_ext; [exact HB|]. intros i j Hi Hj. apply (mmul_id_r o L). lia. }
    destruct (t_b t) as [|b [|b' r]] eqn:Eb; try exact G.
    exists b. split; [reflexivity|]. inversion C as [|d f0 b0 fs bs d' Wf Wb E1 E2 E3 C' Ed Efs Ebs Ed']; subst.
    inversion C'; subst. unfold C13Sparse.sp_is. splits; try assumption; try lia.
    intros i j Hi Hj. cbn [bprod]. symmetry. apply (mmul_id_r o L). lia.
  Qed.

  (* forward(v) = forward_mat() * v and backward(v) = backward_mat() * v *)
  Lemma tr_forward_mat_vec t v : tr_wf t -> sp_wf v -> sp_n v = 1%nat -> sv_dim v = t_src t ->
    exists w F, tr_forward o t v = Some w /\ tr_forward_mat o t = Some F /\
      sv_is w (t_tgt t) (mvec o (t_src t) (entry o F) (ventry o v)).
  Proof.
    intros C W N E. pose proof (tr_forward_spec t v C W N) as S.
    destruct (tr_forward o t v) as [w|]; [|contradiction].
    destruct (tr_forward_mat_spec t C) as [F [EF (F1 & F2 & F3 & F4)]].
    exists w, F. splits; try reflexivity; try assumption. eapply sv_is_ext; [exact (proj2 S)|].
    intros i Hi. apply (mvec_ext_row o). intros k Hk. symmetry. now apply F4.
  Qed.

  Lemma tr_backward_mat_vec t v : tr_wf t -> sp_wf v -> sp_n v = 1%nat -> sv_dim v = t_tgt t ->
    exists w B, tr_backward o t v = Some w /\ tr_backward_mat o t = Some B /\
      sv_is w (t_src t) (mvec o (t_tgt t) (entry o B) (ventry o v)).
  Proof.
    intros C W N E. pose proof (tr_backward_spec t v C W N) as S.
    destruct (tr_backward o t v) as [w|]; [|contradiction].
    destruct (tr_backward_mat_spec t C) as [B [EB (B1 & B2 & B3 & B4)]].
    exists w, B. splits; try reflexivity; try assumption. eapply sv_is_ext; [exact (proj2 S)|].
    intros i Hi. apply (mvec_ext_row o). intros k Hk. symmetry. now apply B4.
  Qed.

  Theorem tr_forward_is_forward_mat t v : tr_wf t -> sp_wf v -> sp_n v = 1%nat -> sv_dim v = t_src t ->
    exists w F, tr_forward o t v = Some w /\ tr_forward_mat o t = Some F /\ sv_dim w = t_tgt t /\
      forall i, (i < t_tgt t)%nat -> ventry o w i = mvec o (t_src t) (entry o F) (ventry o v) i.
  Proof.
    intros C W N E. destruct (tr_forward_mat_vec t v C W N E) as (w & F & Ew & EF & S).
    exists w, F. splits; try assumption; [now destruct S|]. intros i Hi. now apply (sv_is_ventry o w _ _ i S).
  Qed.

  Theorem tr_backward_is_backward_mat t v : tr_wf t -> sp_wf v -> sp_n v = 1%nat -> sv_dim v = t_tgt t ->
    exists w B, tr_backward o t v = Some w /\ tr_backward_mat o t = Some B /\ sv_dim w = t_src t /\
      forall i, (i < t_src t)%nat -> ventry o w i = mvec o (t_tgt t) (entry o B) (ventry o v) i.
  Proof.
    intros C W N E. destruct (tr_backward_mat_vec t v C W N E) as (w & B & Ew & EB & S).
    exists w, B. splits; try assumption; [now destruct S|]. intros i Hi. now apply (sv_is_ventry o w _ _ i S).
  Qed.

  Lemma tr_id_wf n : tr_wf (tr_id n).
  Proof. constructor. Qed.

  Lemma fprod_one f : meq (sp_m f) (sp_n f) (fprod [f]) (entry o f).
  Proof. cbn [fprod]. apply mmul_mid_l. lia. Qed.
  Lemma bprod_one b : meq (sp_m b) (sp_n b) (bprod [b]) (entry o b).
  Proof. cbn [bprod]. apply mmul_mid_r. lia. Qed.

  (* what it means for t' to be "t followed by the pair (F, B)" with F : tgt -> d and B : d -> tgt *)
  Definition extends (t t' : trans) (d : nat) (F B : mat R) : Prop :=
    tr_wf t' /\ t_src t' = t_src t /\ t_tgt t' = d /\
    meq d (t_src t) (fprod (t_f t')) (mmul o (t_tgt t) F (fprod (t_f t))) /\
    meq (t_src t) d (bprod (t_b t')) (mmul o (t_tgt t) (bprod (t_b t)) B).

  Lemma extends_ext t t' d F B F' B' :
    extends t t' d F B -> meq d (t_tgt t) F F' -> meq (t_tgt t) d B B' -> extends t t' d F' B'.
  Proof.
    intros (X1 & X2 & X3 & X4 & X5) EF EB. unfold extends. splits; try assumption.
    - intros i j Hi Hj. rewrite (X4 i j Hi Hj).
      apply (mmul_ext o (t_tgt t) d (t_src t)); try assumption; apply meq_refl.
    - intros i j Hi Hj. rewrite (X5 i j Hi Hj).
      apply (mmul_ext o (t_tgt t) (t_src t) d); try assumption; apply meq_refl.
  Qed.

  Theorem tr_append_spec t f b : tr_wf t -> sp_wf f -> sp_wf b ->
    match tr_append t f b with
    | Some t' => (sp_n f = sp_m b /\ sp_m f = sp_n b /\ sp_n f = t_tgt t) /\
                 extends t t' (sp_m f) (entry o f) (entry o b)
    | None => ~ (sp_n f = sp_m b /\ sp_m f = sp_n b /\ sp_n f = t_tgt t)
    end.
  Proof.
    intros C Wf Wb. unfold tr_append.
    destruct (Nat.eqb_spec (sp_n f) (sp_m b)) as [E1|E1]; destruct (Nat.eqb_spec (sp_m f) (sp_n b)) as [E2|E2];
      destruct (Nat.eqb_spec (sp_n f) (t_tgt t)) as [E3|E3]; cbn [andb]; try tauto.
    split; [tauto|]. unfold extends, tr_wf. cbn [t_src t_tgt t_f t_b].
    assert (C1 : chain (t_tgt t) [f] [b] (sp_m f)).
    { rewrite <- E3. apply chain_one; try assumption; lia. }
    splits; try reflexivity.
    - exact (chain_app _ _ _ _ _ _ _ C C1).
    - intros i j Hi Hj. rewrite (fprod_app _ _ _ _ _ _ _ C C1 i j Hi Hj).
      apply (mmul_ext o (t_tgt t) (sp_m f) (t_src t)); try assumption.
      + rewrite <- E3. apply fprod_one.
      + apply meq_refl.
    - intros i j Hi Hj. rewrite (bprod_app _ _ _ _ _ _ _ C C1 i j Hi Hj).
      apply (mmul_ext o (t_tgt t) (t_src t) (sp_m f)); try assumption.
      + apply meq_refl.
      + rewrite <- E3, E1, E2. apply bprod_one.
  Qed.

  Theorem tr_merge_spec t u : tr_wf t -> tr_wf u ->
    match tr_merge t u with
    | Some t' => t_tgt t = t_src u /\ extends t t' (t_tgt u) (fprod (t_f u)) (bprod (t_b u))
    | None => t_tgt t <> t_src u
    end.
  Proof.
    intros C C'. unfold tr_merge. destruct (Nat.eqb_spec (t_tgt t) (t_src u)) as [E|E]; [|exact E].
    split; [exact E|]. unfold extends, tr_wf. cbn [t_src t_tgt t_f t_b].
    unfold tr_wf in C'. rewrite <- E in C'. splits; try reflexivity.
    - exact (chain_app _ _ _ _ _ _ _ C C').
    - exact (fprod_app _ _ _ _ _ _ _ C C').
    - exact (bprod_app _ _ _ _ _ _ _ C C').
  Qed.

  (* reduce changes neither map *)
  Theorem tr_reduce_spec t : tr_wf t ->
    exists t', tr_reduce o t = Some t' /\ tr_wf t' /\ t_src t' = t_src t /\ t_tgt t' = t_tgt t /\
      meq (t_tgt t) (t_src t) (fprod (t_f t')) (fprod (t_f t)) /\
      meq (t_src t) (t_tgt t) (bprod (t_b t')) (bprod (t_b t)).
  Proof.
    intros C. unfold tr_reduce. pose proof (chain_length _ _ _ _ C) as Len.
    destruct (tr_forward_mat_spec t C) as [F [EF (F1 & F2 & F3 & F4)]].
    destruct (tr_backward_mat_spec t C) as [B [EB (B1 & B2 & B3 & B4)]].
    rewrite <- Len. destruct (Nat.ltb_spec 1 (length (t_f t))) as [H|H].
    - rewrite EF, EB. cbn [obind]. eexists. split; [reflexivity|]. unfold tr_wf. cbn [t_src t_tgt t_f t_b].
      splits; try reflexivity.
      + rewrite <- F2, <- F1. apply chain_one; try assumption; lia.
      + intros i j Hi Hj. rewrite <- F1, <- F2 in *. rewrite (fprod_one F i j Hi Hj). now apply F4.
      + intros i j Hi Hj. rewrite <- B1, <- B2 in *. rewrite (bprod_one B i j Hi Hj). now apply B4.
    - cbn [obind]. eexists. split; [reflexivity|]. unfold tr_wf. cbn [t_src t_tgt t_f t_b].
      splits; try reflexivity; try exact C; apply meq_refl.
  Qed.

  (* the selection matrices of sub(indices) *)
  Definition sel_f (idx : list nat) : mat R := fun i j => if nth i idx 0%nat =? j then 1 else 0.
  Definition sel_b (idx : list nat) : mat R := fun i j => if nth j idx 0%nat =? i then 1 else 0.
  Definition perm_f (p : perm) : mat R := fun i j => if i =? pat p j then 1 else 0.
  Definition perm_b (p : perm) : mat R := fun i j => if j =? pat p i then 1 else 0.

  Theorem tr_sub_spec t idx : tr_wf t ->
    match tr_sub o t idx with
    | Some t' => (1 = 0 \/ forall x, In x idx -> (x < t_tgt t)%nat) /\
                 extends t t' (length idx) (sel_f idx) (sel_b idx)
    | None => 1 <> 0 /\ exists x, In x idx /\ (t_tgt t <= x)%nat
    end.
  Proof.
    intros C. unfold tr_sub. cbv zeta.
    pose proof (index_rows_spec o L idx (t_tgt t)) as Sf. pose proof (index_cols_spec o L idx (t_tgt t)) as Sb.
    destruct (sp_from_entries o (length idx) (t_tgt t) _) as [f|]; cbn [obind]; [|exact Sf].
    destruct (sp_from_entries o (t_tgt t) (length idx) _) as [b|]; cbn [obind]; [|exact Sb].
    destruct Sf as (F0 & F1 & F2 & F3 & F4). destruct Sb as (B1 & B2 & B3 & B4).
    pose proof (tr_append_spec t f b C F3 B3) as A. destruct (tr_append t f b) as [t'|].
    - destruct A as (_ & X). split.
      + destruct (reqb_spec o L 1 0) as [E|E]; [now left|right; now apply F0].
      + rewrite F1 in X. now apply (extends_ext _ _ _ _ _ _ _ X).
    - exfalso. apply A. lia.
  Qed.

  Theorem tr_append_perm_spec t p : tr_wf t -> is_perm p ->
    match tr_append_perm o t p with
    | Some t' => length p = t_tgt t /\ extends t t' (t_tgt t) (perm_f p) (perm_b p)
    | None => length p <> t_tgt t
    end.
  Proof.
    intros C Pp. unfold tr_append_perm, perm_dim.
    destruct (Nat.eqb_spec (length p) (t_tgt t)) as [E|E]; [|exact E].
    destruct (sp_from_row_perm_spec o L p Pp) as [f (Ef & F1 & F2 & F3 & F4)].
    destruct (sp_from_col_perm_spec o L p Pp) as [b (Eb & B1 & B2 & B3 & B4)].
    rewrite Ef, Eb. cbn [obind].
    pose proof (tr_append_spec t f b C F3 B3) as A. destruct (tr_append t f b) as [t'|].
    - destruct A as (_ & X). split; [exact E|]. rewrite F1, E in *. now apply (extends_ext _ _ _ _ _ _ _ X).
    - exfalso. apply A. lia.
  Qed.

  (* the inputs of a history are well-formed matrices and valid permutations (what the Rust types guarantee) *)
  Fixpoint hist_wf (h : hist) : Prop :=
    match h with
    | HId _ => True
    | HNew f b => sp_wf f /\ sp_wf b
    | HAppend h f b => hist_wf h /\ sp_wf f /\ sp_wf b
    | HAppendPerm h p => hist_wf h /\ is_perm p
    | HMerge h1 h2 => hist_wf h1 /\ hist_wf h2
    | HReduce h => hist_wf h
    | HSub h _ => hist_wf h
    end.

  (* source and target dimension, and the two linear maps a history denotes *)
  Fixpoint hsrc (h : hist) : nat :=
    match h with
    | HId n => n | HNew f _ => sp_n f | HAppend h _ _ => hsrc h | HAppendPerm h _ => hsrc h
    | HMerge h1 _ => hsrc h1 | HReduce h => hsrc h | HSub h _ => hsrc h
    end.
  Fixpoint htgt (h : hist) : nat :=
    match h with
    | HId n => n | HNew f _ => sp_m f | HAppend _ f _ => sp_m f | HAppendPerm h _ => htgt h
    | HMerge _ h2 => htgt h2 | HReduce h => htgt h | HSub _ idx => length idx
    end.
  Fixpoint hF (h : hist) : mat R :=
    match h with
    | HId _ => mid o
    | HNew f _ => entry o f
    | HAppend h f _ => mmul o (htgt h) (entry o f) (hF h)
    | HAppendPerm h p => mmul o (htgt h) (perm_f p) (hF h)
    | HMerge h1 h2 => mmul o (htgt h1) (hF h2) (hF h1)
    | HReduce h => hF h
    | HSub h idx => mmul o (htgt h) (sel_f idx) (hF h)
    end.
  Fixpoint hB (h : hist) : mat R :=
    match h with
    | HId _ => mid o
    | HNew _ b => entry o b
    | HAppend h _ b => mmul o (htgt h) (hB h) (entry o b)
    | HAppendPerm h p => mmul o (htgt h) (hB h) (perm_b p)
    | HMerge h1 h2 => mmul o (htgt h1) (hB h1) (hB h2)
    | HReduce h => hB h
    | HSub h idx => mmul o (htgt h) (hB h) (sel_b idx)
    end.
  (* the guards: exactly the histories that do not panic *)
  Fixpoint hist_ok (h : hist) : Prop :=
    match h with
    | HId _ => True
    | HNew f b => sp_n f = sp_m b /\ sp_m f = sp_n b
    | HAppend h f b => hist_ok h /\ sp_n f = sp_m b /\ sp_m f = sp_n b /\ sp_n f = htgt h
    | HAppendPerm h p => hist_ok h /\ length p = htgt h
    | HMerge h1 h2 => hist_ok h1 /\ hist_ok h2 /\ htgt h1 = hsrc h2
    | HReduce h => hist_ok h
    | HSub h idx => hist_ok h /\ (1 = 0 \/ forall x, In x idx -> (x < htgt h)%nat)
    end.

  Definition denotes (t : trans) (h : hist) : Prop :=
    tr_wf t /\ t_src t = hsrc h /\ t_tgt t = htgt h /\
    meq (htgt h) (hsrc h) (fprod (t_f t)) (hF h) /\ meq (hsrc h) (htgt h) (bprod (t_b t)) (hB h).

  Lemma extends_denotes t t' h d F B :
    denotes t h -> extends t t' d F B ->
    tr_wf t' /\ t_src t' = hsrc h /\ t_tgt t' = d /\
    meq d (hsrc h) (fprod (t_f t')) (mmul o (htgt h) F (hF h)) /\
    meq (hsrc h) d (bprod (t_b t')) (mmul o (htgt h) (hB h) B).
  Proof.
    intros (D1 & D2 & D3 & D4 & D5) (X1 & X2 & X3 & X4 & X5). rewrite D2, D3 in *. splits; try assumption.
    - intros i j Hi Hj. rewrite (X4 i j Hi Hj).
      apply (mmul_ext o (htgt h) d (hsrc h)); try assumption; apply meq_refl.
    - intros i j Hi Hj. rewrite (X5 i j Hi Hj).
      apply (mmul_ext o (htgt h) (hsrc h) d); try assumption; apply meq_refl.
  Qed.

  (* MAIN THEOREM: for every finite history, the transform it builds (if no guard fails) satisfies the
     invariant and its factor products are the maps the history denotes; it fails exactly when a guard
     fails.  Induction over the history. *)
  Theorem tr_run_spec h : hist_wf h ->
    match tr_run o h with
    | Some t => hist_ok h /\ denotes t h
    | None => ~ hist_ok h
    end.
  Proof.
    induction h as [n|f b|h IH f b|h IH p|h1 IH1 h2 IH2|h IH|h IH idx]; cbn [tr_run hist_wf hist_ok].
    - intros _. split; [exact I|]. unfold denotes. cbn [tr_id t_src t_tgt t_f t_b hsrc htgt hF hB fprod bprod].
      splits; try reflexivity; try apply meq_refl. apply tr_id_wf.
    - intros [Wf Wb]. unfold tr_new. pose proof (tr_append_spec (tr_id (sp_n f)) f b (tr_id_wf _) Wf Wb) as A.
      destruct (tr_append (tr_id (sp_n f)) f b) as [t|].
      + destruct A as ((E1 & E2 & _) & (A1 & A2 & A3 & A4 & A5)). split; [now split|].
        unfold denotes. cbn [tr_id t_src t_tgt t_f t_b hsrc htgt hF hB fprod bprod] in *.
        splits; try assumption.
        * intros i j Hi Hj. rewrite (A4 i j Hi Hj). apply (mmul_id_r o L). lia.
        * intros i j Hi Hj. rewrite (A5 i j Hi Hj). apply (mmul_id_l o L). lia.
      + cbn [tr_id t_tgt] in A. intros [E1 E2]. apply A. tauto.
    - intros (Wh & Wf & Wb). specialize (IH Wh). destruct (tr_run o h) as [t|]; cbn [obind]; [|tauto].
      destruct IH as (Ok & D). pose proof D as (D1 & D2 & D3 & _).
      pose proof (tr_append_spec t f b D1 Wf Wb) as A. destruct (tr_append t f b) as [t'|].
      + destruct A as ((E1 & E2 & E3) & X). split; [rewrite <- D3; tauto|].
        destruct (extends_denotes _ _ _ _ _ _ D X) as (Y1 & Y2 & Y3 & Y4 & Y5).
        unfold denotes. cbn [hsrc htgt hF hB]. now splits.
      + rewrite D3 in A. tauto.
    - intros (Wh & Pp). specialize (IH Wh). destruct (tr_run o h) as [t|]; cbn [obind]; [|tauto].
      destruct IH as (Ok & D). pose proof D as (D1 & D2 & D3 & _).
      pose proof (tr_append_perm_spec t p D1 Pp) as A. destruct (tr_append_perm o t p) as [t'|].
      + destruct A as (E & X). split; [rewrite <- D3; tauto|].
        destruct (extends_denotes _ _ _ _ _ _ D X) as (Y1 & Y2 & Y3 & Y4 & Y5).
        unfold denotes. cbn [hsrc htgt hF hB]. rewrite D3 in *. now splits.
      + rewrite D3 in A. tauto.
    - intros (W1 & W2). specialize (IH1 W1). specialize (IH2 W2).
      destruct (tr_run o h1) as [t|]; cbn [obind]; [|tauto].
      destruct (tr_run o h2) as [u|]; cbn [obind]; [|tauto].
      destruct IH1 as (Ok1 & D). destruct IH2 as (Ok2 & (U1 & U2 & U3 & U4 & U5)). pose proof D as (D1 & D2 & D3 & _).
      pose proof (tr_merge_spec t u D1 U1) as A. destruct (tr_merge t u) as [t'|].
      + destruct A as (E & X). split; [rewrite <- D3, <- U2; tauto|].
        pose proof (extends_ext _ _ _ _ _ (hF h2) (hB h2) X) as X'. rewrite E, U2, U3 in X'.
        destruct (extends_denotes _ _ _ _ _ _ D (X' U4 U5)) as (Y1 & Y2 & Y3 & Y4 & Y5).
        unfold denotes. cbn [hsrc htgt hF hB]. now splits.
      + rewrite D3, U2 in A. tauto.
    - intros Wh. specialize (IH Wh). destruct (tr_run o h) as [t|]; cbn [obind]; [|exact IH].
      destruct IH as (Ok & (D1 & D2 & D3 & D4 & D5)).
      destruct (tr_reduce_spec t D1) as [t' (E & R1 & R2 & R3 & R4 & R5)]. rewrite E.
      split; [exact Ok|]. unfold denotes. cbn [hsrc htgt hF hB]. rewrite D2, D3 in *. splits; try congruence.
      * intros i j Hi Hj. rewrite (R4 i j Hi Hj). now apply D4.
      * intros i j Hi Hj. rewrite (R5 i j Hi Hj). now apply D5.
    - intros Wh. specialize (IH Wh). destruct (tr_run o h) as [t|]; cbn [obind]; [|tauto].
      destruct IH as (Ok & D). pose proof D as (D1 & D2 & D3 & _).
      pose proof (tr_sub_spec t idx D1) as A. destruct (tr_sub o t idx) as [t'|].
      + destruct A as (E & X). split; [rewrite <- D3; tauto|].
        destruct (extends_denotes _ _ _ _ _ _ D X) as (Y1 & Y2 & Y3 & Y4 & Y5).
        unfold denotes. cbn [hsrc htgt hF hB]. now splits.
      + rewrite D3 in A. destruct A as (A1 & x & Hx & Hn). intros (_ & [E|E]); [contradiction|].
        specialize (E x Hx). lia.
  Qed.

  (* what is observed of a transform that denotes h: forward_mat / backward_mat are the denoted maps,
     forward / backward apply them and panic exactly on a wrong dimension *)
  Lemma denotes_mats t h : denotes t h ->
    exists F B, tr_forward_mat o t = Some F /\ tr_backward_mat o t = Some B /\
      sp_is F (htgt h) (hsrc h) (hF h) /\ sp_is B (hsrc h) (htgt h) (hB h).
  Proof.
    intros (D1 & D2 & D3 & D4 & D5).
    destruct (tr_forward_mat_spec t D1) as [F [EF HF]]. destruct (tr_backward_mat_spec t D1) as [B [EB HB]].
    exists F, B. rewrite D2, D3 in *. splits; try assumption.
    - eapply sp_is_ext; [exact HF|exact D4].
    - eapply sp_is_ext; [exact HB|exact D5].
  Qed.

  Lemma denotes_forward t h v : denotes t h -> sp_wf v -> sp_n v = 1%nat ->
    match tr_forward o t v with
    | Some w => sv_dim v = hsrc h /\ sv_is w (htgt h) (mvec o (hsrc h) (hF h) (ventry o v))
    | None => sv_dim v <> hsrc h
    end.
  Proof.
    intros (D1 & D2 & D3 & D4 & D5) Wv Nv. pose proof (tr_forward_spec t v D1 Wv Nv) as S.
    rewrite D2, D3 in S. destruct (tr_forward o t v) as [w|]; [|exact S].
    destruct S as (E & S). split; [exact E|].
    eapply sv_is_ext; [exact S|]. intros i Hi. apply (mvec_ext_row o). intros k Hk. now apply D4.
  Qed.

  Lemma denotes_backward t h v : denotes t h -> sp_wf v -> sp_n v = 1%nat ->
    match tr_backward o t v with
    | Some w => sv_dim v = htgt h /\ sv_is w (hsrc h) (mvec o (htgt h) (hB h) (ventry o v))
    | None => sv_dim v <> htgt h
    end.
  Proof.
    intros (D1 & D2 & D3 & D4 & D5) Wv Nv. pose proof (tr_backward_spec t v D1 Wv Nv) as S.
    rewrite D2, D3 in S. destruct (tr_backward o t v) as [w|]; [|exact S].
    destruct S as (E & S). split; [exact E|].
    eapply sv_is_ext; [exact S|]. intros i Hi. apply (mvec_ext_row o). intros k Hk. now apply D5.
  Qed.

  Theorem tr_history_observables h t : hist_wf h -> tr_run o h = Some t ->
    (exists F B, tr_forward_mat o t = Some F /\ tr_backward_mat o t = Some B /\
        sp_is F (htgt h) (hsrc h) (hF h) /\ sp_is B (hsrc h) (htgt h) (hB h)) /\
    (forall v, sp_wf v -> sp_n v = 1%nat -> sv_dim v = hsrc h ->
        exists w, tr_forward o t v = Some w /\ sv_is w (htgt h) (mvec o (hsrc h) (hF h) (ventry o v))) /\
    (forall v, sp_wf v -> sp_n v = 1%nat -> sv_dim v = htgt h ->
        exists w, tr_backward o t v = Some w /\ sv_is w (hsrc h) (mvec o (htgt h) (hB h) (ventry o v))).
  Proof.
    intros W E. pose proof (tr_run_spec h W) as S. rewrite E in S. destruct S as (_ & D).
    splits.
    - now apply denotes_mats.
    - intros v Wv Nv Ev. pose proof (denotes_forward t h v D Wv Nv) as S.
      destruct (tr_forward o t v) as [w|]; [|contradiction]. exists w. split; [reflexivity|apply S].
    - intros v Wv Nv Ev. pose proof (denotes_backward t h v D Wv Nv) as S.
      destruct (tr_backward o t v) as [w|]; [|contradiction]. exists w. split; [reflexivity|apply S].
  Qed.
End TransProofs.
