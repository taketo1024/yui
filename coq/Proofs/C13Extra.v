(* C13, remaining pieces: util::perm_for_indices, SpVec::to_dense / stack_vecs, the transform theorem in
   the form "for every history", and ring instances with laws (Z is Base.Ring.Z_ring; here the canonical
   rationals Qc and the residues Z/p as a sigma type) showing that the hypotheses [ring_laws o] of the
   C13 theorems are satisfied by the rings named in the property (non-vacuity of the quantifier). *)
From Coq Require Import Arith List Lia Bool Ring Sorted ZArith QArith Qcanon Eqdep_dec.
Require Import Yui.Base.Ring Yui.Base.MatF Yui.Base.MatL Yui.Model.Dense Yui.Model.Sparse Yui.Model.Trans.
Require Import Yui.Proofs.C13Dense Yui.Proofs.C13SpBase Yui.Proofs.C13Sparse Yui.Proofs.C13SpArith
               Yui.Proofs.C13SpVec Yui.Proofs.C13Trans.
Import ListNotations.
Close Scope Q_scope.
Close Scope Z_scope.
Open Scope nat_scope.

Lemma upd_length {A} (l : list A) k x : length (upd l k x) = length l.
Proof. revert k. induction l as [|y r IH]; intros [|k]; cbn [upd length]; try reflexivity. now rewrite IH. Qed.

Lemma nth_upd_same {A} (l : list A) k x d : k < length l -> nth k (upd l k x) d = x.
Proof.
  revert k. induction l as [|y r IH]; intros [|k] H; cbn [upd nth length] in *; try lia; try reflexivity.
  apply IH. lia.
Qed.

Lemma nth_upd_other {A} (l : list A) k x d i : i <> k -> nth i (upd l k x) d = nth i l d.
Proof.
  revert k i. induction l as [|y r IH]; intros [|k] [|i] H; cbn [upd nth]; try reflexivity; try lia.
  apply IH. lia.
Qed.

Lemma fold_left_map {A B C} (f : A -> B -> A) (g : C -> B) (l : list C) (a : A) :
  fold_left f (map g l) a = fold_left (fun a x => f a (g x)) l a.
Proof. revert a. induction l as [|x r IH]; intros a; cbn [map fold_left]; [reflexivity|]. apply IH. Qed.

Section PermForIndices.
  Local Notation is_perm := C13Sparse.is_perm.
  Local Notation pat := C13Sparse.pat.

  (* the inverse table: inv[vec[i]] = i, later positions win *)
  Definition inv_upto (vec : list nat) (n L : nat) : list nat :=
    fold_left (fun inv k => upd inv (nth k vec 0) k) (seq 0 L) (repeat 0 n).

  Lemma inv_upto_S vec n L : inv_upto vec n (S L) = upd (inv_upto vec n L) (nth L vec 0) L.
  Proof. unfold inv_upto. now rewrite seq_S, fold_left_app. Qed.

  Lemma inv_upto_length vec n L : length (inv_upto vec n L) = n.
  Proof.
    induction L as [|L IH]; [unfold inv_upto; cbn; apply repeat_length|].
    now rewrite inv_upto_S, upd_length.
  Qed.

  Lemma inv_fold vec n :
    fold_left (fun inv ij => upd inv (snd ij) (fst ij)) (enumerate vec) (repeat 0 n) = inv_upto vec n (length vec).
  Proof.
    rewrite (enumerate_map nat 0 vec). unfold inv_upto. now rewrite fold_left_map.
  Qed.

  Lemma inv_upto_inverse vec n L : NoDup vec -> (forall x, In x vec -> x < n) -> L <= length vec ->
    forall i, i < L -> nth (nth i vec 0) (inv_upto vec n L) 0 = i.
  Proof.
    intros ND B. induction L as [|L IH]; intros HL i Hi; [lia|].
    rewrite inv_upto_S. destruct (Nat.eq_dec i L) as [->|Hne].
    - apply nth_upd_same. rewrite inv_upto_length. apply B, nth_In. lia.
    - rewrite nth_upd_other; [apply IH; lia|].
      intros E. apply Hne. apply (proj1 (NoDup_nth vec 0) ND); lia.
  Qed.

  Definition pfi_rest (n : nat) (idx : list nat) : list nat :=
    filter (fun i => negb (existsb (Nat.eqb i) idx)) (seq 0 n).
  Definition pfi_vec (n : nat) (idx : list nat) : list nat := idx ++ pfi_rest n idx.

  Lemma existsb_eqb_in x l : existsb (Nat.eqb x) l = true <-> In x l.
  Proof.
    rewrite existsb_exists. split.
    - intros [y [Hy E]]. apply Nat.eqb_eq in E. now subst.
    - intros H. exists x. split; [exact H|apply Nat.eqb_refl].
  Qed.

  Lemma pfi_rest_in n idx x : In x (pfi_rest n idx) <-> x < n /\ ~ In x idx.
  Proof.
    unfold pfi_rest. rewrite filter_In, in_seq, negb_true_iff. split; intros [H1 H2]; (split; [lia|]).
    - intros Hin. apply existsb_eqb_in in Hin. congruence.
    - destruct (existsb (Nat.eqb x) idx) eqn:E; [|reflexivity]. apply existsb_eqb_in in E. contradiction.
  Qed.

  Lemma pfi_vec_covers n idx x : x < n -> In x (pfi_vec n idx).
  Proof.
    intros H. unfold pfi_vec. apply in_app_iff. destruct (in_dec Nat.eq_dec x idx) as [Hin|Hin]; [now left|right].
    now apply pfi_rest_in.
  Qed.

  Lemma pfi_vec_bound n idx x : (forall y, In y idx -> y < n) -> In x (pfi_vec n idx) -> x < n.
  Proof.
    intros B H. unfold pfi_vec in H. apply in_app_iff in H. destruct H as [H|H]; [now apply B|].
    now apply pfi_rest_in in H.
  Qed.

  Lemma pfi_rest_sorted n idx : StronglySorted lt (pfi_rest n idx).
  Proof.
    unfold pfi_rest. generalize 0. induction n as [|n IH]; intros s; cbn [seq filter]; [constructor|].
    destruct (negb (existsb (Nat.eqb s) idx)); [|apply IH].
    constructor; [apply IH|]. apply Forall_forall. intros y Hy. apply filter_In in Hy. destruct Hy as [Hy _].
    apply in_seq in Hy. lia.
  Qed.

  Lemma sorted_lt_nodup l : StronglySorted lt l -> NoDup l.
  Proof.
    induction 1 as [|x r S IH F]; constructor; [|exact IH].
    intros Hin. rewrite Forall_forall in F. specialize (F x Hin). lia.
  Qed.

  Lemma nodup_app (l1 l2 : list nat) :
    NoDup l1 -> NoDup l2 -> (forall x, In x l1 -> In x l2 -> False) -> NoDup (l1 ++ l2).
  Proof.
    induction l1 as [|x r IH]; intros N1 N2 D; cbn [app]; [exact N2|].
    inversion N1 as [|? ? Hx Hr]; subst. constructor.
    - intros Hin. apply in_app_iff in Hin. destruct Hin as [Hin|Hin]; [contradiction|].
      apply (D x); [now left|exact Hin].
    - apply IH; try assumption. intros y Hy. apply D. now right.
  Qed.

  Lemma nodup_app_l (l1 l2 : list nat) : NoDup (l1 ++ l2) -> NoDup l1.
  Proof.
    induction l1 as [|x r IH]; intros N; [constructor|]. cbn [app] in N. inversion N as [|? ? Hx Hr]; subst.
    constructor; [|now apply IH]. intros Hin. apply Hx, in_app_iff. now left.
  Qed.

  Lemma pfi_vec_nodup n idx : NoDup idx -> NoDup (pfi_vec n idx).
  Proof.
    intros ND. unfold pfi_vec. apply nodup_app; try assumption.
    - apply sorted_lt_nodup, pfi_rest_sorted.
    - intros x Hx Hr. apply pfi_rest_in in Hr. now destruct Hr.
  Qed.

  Lemma pfi_vec_length n idx : NoDup idx -> (forall y, In y idx -> y < n) -> length (pfi_vec n idx) = n.
  Proof.
    intros ND B. apply Nat.le_antisymm.
    - assert (H : length (pfi_vec n idx) <= length (seq 0 n)); [|now rewrite seq_length in H].
      apply NoDup_incl_length; [now apply pfi_vec_nodup|].
      intros x Hx. apply in_seq. pose proof (pfi_vec_bound n idx x B Hx). lia.
    - assert (H : length (seq 0 n) <= length (pfi_vec n idx)); [|now rewrite seq_length in H].
      apply NoDup_incl_length; [apply seq_NoDup|].
      intros x Hx. apply in_seq in Hx. apply pfi_vec_covers. lia.
  Qed.

  (* with a repeated index the list idx ++ rest is longer than n *)
  Lemma pfi_vec_long n idx : ~ NoDup idx -> n < length (pfi_vec n idx).
  Proof.
    intros ND. destruct (Nat.ltb_spec n (length (pfi_vec n idx))) as [H|H]; [exact H|exfalso].
    apply ND. apply (nodup_app_l idx (pfi_rest n idx)). fold (pfi_vec n idx).
    apply (@NoDup_incl_NoDup nat (seq 0 n)); [apply seq_NoDup|now rewrite seq_length|].
    intros x Hx. apply in_seq in Hx. apply pfi_vec_covers. lia.
  Qed.

  Lemma nodup_dec (l : list nat) : {NoDup l} + {~ NoDup l}.
  Proof.
    induction l as [|x r IH]; [left; constructor|].
    destruct (in_dec Nat.eq_dec x r) as [Hin|Hin].
    - right. intros N. inversion N. contradiction.
    - destruct IH as [N|N]; [left; now constructor|right]. intros N'. inversion N'. contradiction.
  Qed.

  (* perm_for_indices(n, idx) succeeds exactly when the indices are in range and pairwise distinct; the
     result p is the permutation of 0..n-1 that sends idx[k] to k and the remaining elements, in
     increasing order, to the positions length idx, .., n-1 *)
  Theorem perm_for_indices_spec n idx :
    match perm_for_indices n idx with
    | Some p =>
        (NoDup idx /\ forall x, In x idx -> x < n) /\
        is_perm p /\ length p = n /\
        (forall k, k < n -> pat p (nth k (idx ++ pfi_rest n idx) 0) = k) /\
        (forall k, k < length idx -> pat p (nth k idx 0) = k) /\
        StronglySorted lt (pfi_rest n idx) /\
        (forall x, In x (pfi_rest n idx) <-> x < n /\ ~ In x idx)
    | None => ~ (NoDup idx /\ forall x, In x idx -> x < n)
    end.
  Proof.
    unfold perm_for_indices. destruct (forallb (fun i => i <? n) idx) eqn:Eb.
    - rewrite forallb_forall in Eb.
      assert (B : forall x, In x idx -> x < n) by (intros x Hx; now apply Nat.ltb_lt, Eb).
      fold (pfi_rest n idx). fold (pfi_vec n idx). rewrite inv_fold.
      set (vec := pfi_vec n idx). set (inv := inv_upto vec n (length vec)).
      assert (Bv : forall x, In x vec -> x < n) by (intros x Hx; now apply (pfi_vec_bound n idx x B)).
      destruct (nodup_dec idx) as [ND|ND].
      + (* valid input: inv is the inverse of vec *)
        assert (Lv : length vec = n) by now apply pfi_vec_length.
        assert (NDv : NoDup vec) by now apply pfi_vec_nodup.
        assert (Inv : forall i, i < n -> nth (nth i vec 0) inv 0 = i).
        { intros i Hi. apply inv_upto_inverse; try assumption; lia. }
        assert (Li : length inv = n) by apply inv_upto_length.
        assert (P : is_perm inv).
        { split.
          - apply (proj2 (NoDup_nth inv 0)). rewrite Li. intros j j' Hj Hj' E.
            destruct (In_nth vec j 0 (pfi_vec_covers n idx j Hj)) as [i [Hi Ei]].
            destruct (In_nth vec j' 0 (pfi_vec_covers n idx j' Hj')) as [i' [Hi' Ei']].
            rewrite <- Ei, <- Ei' in E. rewrite !Inv in E by lia. rewrite <- Ei, <- Ei'. now rewrite E.
          - intros x Hx. rewrite Li. destruct (In_nth inv x 0 Hx) as [j [Hj Ej]]. rewrite Li in Hj.
            destruct (In_nth vec j 0 (pfi_vec_covers n idx j Hj)) as [i [Hi Ei]].
            rewrite <- Ei, Inv in Ej by lia. lia. }
        pose proof (perm_new_spec inv) as S. destruct (perm_new inv) as [p|]; [|contradiction].
        destruct S as [-> _]. split; [now split|]. split; [exact P|]. split; [exact Li|].
        split; [exact Inv|]. split.
        * intros k Hk. unfold C13Sparse.pat.
          assert (Hkn : k < n).
          { unfold vec, pfi_vec in Lv. rewrite app_length in Lv. lia. }
          rewrite <- (Inv k Hkn) at 2. unfold vec, pfi_vec. now rewrite app_nth1.
        * split; [apply pfi_rest_sorted|apply pfi_rest_in].
      + (* a repeated index: the last position of vec is >= n and ends up in inv *)
        pose proof (pfi_vec_long n idx ND) as Long. fold vec in Long.
        pose proof (perm_new_spec inv) as S. destruct (perm_new inv) as [p|]; [|tauto].
        exfalso. destruct S as [_ [_ Rng]].
        assert (Li : length inv = n) by apply inv_upto_length.
        set (L := length vec - 1).
        assert (E : nth (nth L vec 0) inv 0 = L).
        { unfold inv. replace (length vec) with (S L) by (unfold L; lia). rewrite inv_upto_S.
          apply nth_upd_same. rewrite inv_upto_length. apply Bv, nth_In. unfold L. lia. }
        assert (Hin : In L inv).
        { rewrite <- E. apply nth_In. rewrite Li. apply Bv, nth_In. unfold L. lia. }
        specialize (Rng L Hin). rewrite Li in Rng. unfold L in Rng. lia.
    - intros [_ B]. assert (forallb (fun i => i <? n) idx = true); [|congruence].
      apply forallb_forall. intros x Hx. now apply Nat.ltb_lt, B.
  Qed.
End PermForIndices.

Section VecExtra.
  Context {R : Type} (o : ring_ops R) (L : ring_laws o).

  Local Notation "0" := (rzero o).
  Local Infix "+" := (radd o).
  Local Notation ent := (ent R).
  Local Notation spmat := (spmat R).
  Local Notation psum := (psum o).
  Local Notation gsum := (gsum o).
  Local Notation sp_wf := (@sp_wf R).
  Local Notation klt := (@klt R).
  Local Notation sv_is := (sv_is o).

  Add Ring Rring : (ring_theory_of_laws o L).

  Lemma sorted_snoc (l : list ent) e :
    StronglySorted klt (l ++ [e]) -> StronglySorted klt l /\ forall x, In x l -> klt x e.
  Proof.
    induction l as [|y r IH]; cbn [app]; intros S; [split; [constructor|intros x []]|].
    apply StronglySorted_inv in S. destruct S as [S F]. destruct (IH S) as [S' K]. split.
    - constructor; [exact S'|]. rewrite Forall_forall in *. intros x Hx. apply F, in_app_iff. now left.
    - intros x [<-|Hx]; [|now apply K]. rewrite Forall_forall in F. apply F, in_app_iff. right. now left.
  Qed.

  (* writing the entries of a strictly sorted one-column list into a zero vector *)
  Lemma to_dense_fold (l : list ent) m :
    StronglySorted klt l -> (forall e, In e l -> (e_row e < m)%nat /\ e_col e = 0%nat) ->
    let res := fold_left (fun res e => upd res (e_row e) (e_val e)) l (repeat 0 m) in
    length res = m /\ forall i, (i < m)%nat -> nth i res 0 = gsum (fun e => e_row e =? i) l.
  Proof.
    induction l as [|e l IH] using rev_ind; intros S B; cbn zeta.
    - cbn [fold_left C13SpBase.gsum]. split; [apply repeat_length|]. intros i _. apply nth_repeat.
    - rewrite fold_left_app. cbn [fold_left]. destruct (sorted_snoc l e S) as [S' K].
      destruct (IH S') as [Len Nth]; [intros x Hx; apply B, in_app_iff; now left|].
      destruct (B e) as [He Hc]; [apply in_app_iff; right; now left|].
      split; [now rewrite upd_length|]. intros i Hi.
      rewrite (gsum_app o L). cbn [C13SpBase.gsum].
      destruct (Nat.eqb_spec (e_row e) i) as [E|E].
      + subst i. rewrite nth_upd_same by lia. rewrite (gsum_false o (fun x => e_row x =? e_row e) l); [ring|].
        intros x Hx. specialize (K x Hx). unfold C13SpBase.klt in K. apply key_lt_spec in K.
        destruct (B x) as [_ Hcx]; [apply in_app_iff; now left|]. apply Nat.eqb_neq. lia.
      + rewrite nth_upd_other by congruence. rewrite Nth by exact Hi. ring.
  Qed.

  (* to_dense / into_vec / Vec::from: the list of the entries 0 .. dim-1 *)
  Theorem sv_to_dense_spec v : vec_wf v ->
    length (sv_to_dense o v) = sv_dim v /\
    forall i, (i < sv_dim v)%nat -> nth i (sv_to_dense o v) 0 = ventry o v i.
  Proof.
    intros V. pose proof V as [W N]. pose proof (proj1 (sp_wf_iff v) W) as [Bd S].
    unfold sv_to_dense, sv_dim.
    destruct (to_dense_fold (nz o (sp_st v)) (sp_m v)) as [Len Nth].
    - unfold nz. now apply sorted_filter.
    - intros e He. apply nz_in in He; [|exact L]. destruct He as [He _]. split.
      + now apply (vec_rows v e V).
      + now apply (sv_col0 v e W N).
    - split; [exact Len|]. intros i Hi. rewrite Nth by exact Hi.
      now rewrite (gsum_nz o L), (ventry_gsum o v i V).
  Qed.

  Corollary sv_to_dense_eq v : vec_wf v -> sv_to_dense o v = map (ventry o v) (seq 0 (sv_dim v)).
  Proof.
    intros V. destruct (sv_to_dense_spec v V) as [Len Nth].
    apply (nth_ext _ _ 0 0); [now rewrite map_length, seq_length|].
    intros i Hi. rewrite Len in Hi. rewrite Nth by exact Hi.
    rewrite (nth_indep _ 0 (ventry o v 0)) by (now rewrite map_length, seq_length).
    rewrite (map_nth (ventry o v)). now rewrite seq_nth.
  Qed.

  (* the stacked vector of a list of vectors *)
  Fixpoint stackf (vs : list spmat) (i : nat) : R :=
    match vs with
    | [] => 0
    | v :: r => if i <? sp_m v then ventry o v i else stackf r (i - sp_m v)
    end.
  Definition total_dim (vs : list spmat) : nat := fold_right (fun v acc => (sp_m v + acc)%nat) 0%nat vs.

  Lemma stack_fold vs : (forall v, In v vs -> vec_wf v) -> forall d0 (st0 : list ent),
    StronglySorted klt st0 -> (forall e, In e st0 -> (e_row e < d0)%nat /\ e_col e = 0%nat) ->
    let acc := fold_left (fun acc v => ((fst acc + sp_m v)%nat, snd acc ++ shift (fst acc) 0 (sp_st v))) vs (d0, st0) in
    fst acc = (d0 + total_dim vs)%nat /\ StronglySorted klt (snd acc) /\
    (forall e, In e (snd acc) -> (e_row e < fst acc)%nat /\ e_col e = 0%nat) /\
    length (snd acc) = (length st0 + fold_right (fun v a => (sp_nnz v + a)%nat) 0%nat vs)%nat /\
    forall i, psum (fun i' j' => key_eq i' j' i 0) (snd acc)
              = psum (fun i' j' => key_eq i' j' i 0) st0 + (if d0 <=? i then stackf vs (i - d0) else 0).
  Proof.
    induction vs as [|v r IH]; intros W d0 st0 S0 B0; cbn zeta; cbn [fold_left fst snd total_dim fold_right stackf].
    - splits; try assumption; try lia. intros i. destruct (d0 <=? i); ring.
    - destruct (W v (or_introl eq_refl)) as [Wv Nv].
      pose proof (proj2 (proj1 (sp_wf_iff v) Wv)) as Sv. pose proof (sp_wf_bounds v Wv) as Bnd.
      assert (S1 : StronglySorted klt (st0 ++ shift d0 0 (sp_st v))).
      { apply sorted_app; [exact S0|now apply shift_sorted|].
        intros x y Hx Hy. unfold shift in Hy. apply in_map_iff in Hy. destruct Hy as [z [<- Hz]].
        destruct (B0 x Hx) as [Hr Hc]. destruct (Bnd z Hz). unfold C13SpBase.klt. cbn [e_row e_col fst snd].
        apply key_lt_spec. lia. }
      assert (B1 : forall e, In e (st0 ++ shift d0 0 (sp_st v)) -> (e_row e < d0 + sp_m v)%nat /\ e_col e = 0%nat).
      { intros e He. apply in_app_iff in He. destruct He as [He|He].
        - destruct (B0 e He). lia.
        - unfold shift in He. apply in_map_iff in He. destruct He as [z [<- Hz]]. destruct (Bnd z Hz).
          cbn [e_row e_col fst snd]. lia. }
      destruct (IH (fun x Hx => W x (or_intror Hx)) (d0 + sp_m v)%nat _ S1 B1) as (I1 & I2 & I3 & I4 & I5).
      cbn zeta in *. splits; try assumption.
      + rewrite I1. cbn [total_dim fold_right]. fold (total_dim r). lia.
      + rewrite I4, app_length. unfold shift at 1. rewrite map_length. unfold sp_nnz at 2. lia.
      + intros i. rewrite I5, (psum_app o L), (esum_shift o). cbn [Nat.leb andb]. rewrite Nat.sub_0_r, andb_true_r.
        rewrite <- (entry_psum o v). unfold ventry.
        destruct (Nat.leb_spec d0 i) as [H1|H1].
        * destruct (Nat.ltb_spec (i - d0) (sp_m v)) as [H2|H2]; destruct (Nat.leb_spec (d0 + sp_m v) i) as [H3|H3]; try lia.
          -- ring.
          -- rewrite (entry_outside o v (i - d0) 0 Wv) by lia.
             replace (i - (d0 + sp_m v))%nat with (i - d0 - sp_m v)%nat by lia. ring.
        * destruct (Nat.leb_spec (d0 + sp_m v) i); [lia|]. ring.
  Qed.

  Theorem sv_stack_vecs_spec vs : (forall v, In v vs -> vec_wf v) ->
    exists r, sv_stack_vecs vs = Some r /\ sv_is r (total_dim vs) (stackf vs) /\
              sp_nnz r = fold_right (fun v a => (sp_nnz v + a)%nat) 0%nat vs.
  Proof.
    intros W. unfold sv_stack_vecs.
    destruct (stack_fold vs W 0%nat [] (SSorted_nil _)) as (I1 & I2 & I3 & I4 & I5); [intros e []|].
    cbn zeta in *.
    set (acc := fold_left (fun acc v => ((fst acc + sp_m v)%nat, snd acc ++ shift (fst acc) 0 (sp_st v))) vs (0%nat, [])) in *.
    assert (V : csc_validb (fst acc) 1 (snd acc) = true).
    { unfold csc_validb. apply andb_true_iff. split; [|now apply sortedb_iff].
      apply in_bounds_iff. intros e He. destruct (I3 e He). lia. }
    unfold try_csc. rewrite V. cbn [obind]. rewrite sv_new_some by reflexivity.
    eexists. split; [reflexivity|]. split.
    - unfold C13SpVec.sv_is, C13Sparse.sp_is. cbn [sp_m sp_n]. splits; try reflexivity; [lia|exact V|].
      intros i c Hi Hc. replace c with 0%nat by lia. rewrite entry_psum. cbn [sp_st]. rewrite I5.
      cbn [C13SpBase.psum Nat.leb]. rewrite Nat.sub_0_r. ring.
    - unfold sp_nnz at 1. cbn [sp_st]. rewrite I4. reflexivity.
  Qed.
End VecExtra.

Section TransMain.
  Context {R : Type} (o : ring_ops R) (L : ring_laws o).
  Local Notation spmat := (spmat R).
  Local Notation sp_wf := (@sp_wf R).
  Local Notation sp_is := (sp_is o).
  Local Notation sv_is := (sv_is o).

  (* what is observable of a transform that denotes (F, B) : src <-> tgt *)
  Definition tr_acts (t : trans R) (src tgt : nat) (F B : mat R) : Prop :=
    t_src t = src /\ t_tgt t = tgt /\
    (exists Fm Bm, tr_forward_mat o t = Some Fm /\ tr_backward_mat o t = Some Bm /\
                   sp_is Fm tgt src F /\ sp_is Bm src tgt B) /\
    (forall v, sp_wf v -> sp_n v = 1%nat ->
       match tr_forward o t v with
       | Some w => sv_dim v = src /\ sv_is w tgt (mvec o src F (ventry o v))
       | None => sv_dim v <> src
       end) /\
    (forall v, sp_wf v -> sp_n v = 1%nat ->
       match tr_backward o t v with
       | Some w => sv_dim v = tgt /\ sv_is w src (mvec o tgt B (ventry o v))
       | None => sv_dim v <> tgt
       end).

  Lemma denotes_acts t h : denotes o t h -> tr_acts t (hsrc h) (htgt h) (hF o h) (hB o h).
  Proof.
    intros D. pose proof D as (_ & D2 & D3 & _). unfold tr_acts. splits; try assumption.
    - now apply denotes_mats.
    - intros v. now apply denotes_forward.
    - intros v. now apply denotes_backward.
  Qed.

  (* MAIN: every finite history of new / append / append_perm / merge / reduce / sub either hits a guard
     (exactly when [hist_ok] fails) or builds a transform t such that
       - forward_mat(t) and backward_mat(t) are the products the history denotes,
       - forward(v) = F v and backward(v) = B v for every vector (and panic exactly on a wrong dimension),
       - reduce() succeeds and the reduced transform has the same four observables. *)
  Theorem tr_history_main h : hist_wf h ->
    match tr_run o h with
    | Some t =>
        hist_ok o h /\ tr_wf t /\ tr_acts t (hsrc h) (htgt h) (hF o h) (hB o h) /\
        exists t', tr_reduce o t = Some t' /\ tr_wf t' /\ tr_acts t' (hsrc h) (htgt h) (hF o h) (hB o h)
    | None => ~ hist_ok o h
    end.
  Proof.
    intros W. pose proof (tr_run_spec o L h W) as S. destruct (tr_run o h) as [t|] eqn:E; [|exact S].
    destruct S as (Ok & D). split; [exact Ok|]. split; [now destruct D|]. split; [now apply denotes_acts|].
    pose proof (tr_run_spec o L (HReduce h) W) as S'. cbn [tr_run] in S'. rewrite E in S'. cbn [obind] in S'.
    destruct (tr_reduce o t) as [t'|]; [|exfalso; now apply S'].
    destruct S' as (_ & D'). exists t'. split; [reflexivity|]. split; [now destruct D'|].
    exact (denotes_acts t' (HReduce h) D').
  Qed.

  (* forward(v) = forward_mat() * v, as one statement about any history *)
  Corollary tr_history_forward_is_mat h t v : hist_wf h -> tr_run o h = Some t ->
    sp_wf v -> sp_n v = 1%nat -> sv_dim v = t_src t ->
    exists w Fm, tr_forward o t v = Some w /\ tr_forward_mat o t = Some Fm /\
                 sv_is w (t_tgt t) (mvec o (t_src t) (entry o Fm) (ventry o v)).
  Proof.
    intros W E. pose proof (tr_run_spec o L h W) as S. rewrite E in S. apply (tr_forward_mat_vec o L), S.
  Qed.

  Corollary tr_history_backward_is_mat h t v : hist_wf h -> tr_run o h = Some t ->
    sp_wf v -> sp_n v = 1%nat -> sv_dim v = t_tgt t ->
    exists w Bm, tr_backward o t v = Some w /\ tr_backward_mat o t = Some Bm /\
                 sv_is w (t_src t) (mvec o (t_tgt t) (entry o Bm) (ventry o v)).
  Proof.
    intros W E. pose proof (tr_run_spec o L h W) as S. rewrite E in S. apply (tr_backward_mat_vec o L), S.
  Qed.
End TransMain.

Definition Qc_ring : ring_ops Qc :=
  mk_ring_ops Qc (Q2Qc 0%Q) (Q2Qc 1%Q) Qcplus Qcopp Qcmult Qc_eq_bool.

Lemma Qc_ring_laws : ring_laws Qc_ring.
Proof.
  constructor; cbn.
  - apply Qcplus_comm.
  - apply Qcplus_assoc.
  - apply Qcplus_0_l.
  - apply Qcplus_opp_r.
  - apply Qcmult_comm.
  - apply Qcmult_assoc.
  - apply Qcmult_1_l.
  - apply Qcmult_plus_distr_l.
  - intros a b. split; [apply Qc_eq_bool_correct|]. intros ->. unfold Qc_eq_bool.
    destruct (Qc_eq_dec b b) as [_|N]; [reflexivity|now elim N].
Qed.

Section Fp.
  Context (p : Z).
  Local Open Scope Z_scope.

  Definition fp : Type := { x : Z | (x mod p =? x) = true }.
  Definition fp_val (a : fp) : Z := proj1_sig a.

  Lemma fp_eq (a b : fp) : fp_val a = fp_val b -> a = b.
  Proof.
    destruct a as [x Hx], b as [y Hy]. cbn. intros ->. f_equal. apply UIP_dec, bool_dec.
  Qed.

  Lemma fp_red (a : fp) : fp_val a mod p = fp_val a.
  Proof. destruct a as [x Hx]. cbn. now apply Z.eqb_eq. Qed.

  Definition fp_mk (x : Z) : fp.
  Proof. exists (x mod p). apply Z.eqb_eq. apply Zmod_mod. Defined.

  Lemma fp_val_mk x : fp_val (fp_mk x) = x mod p.
  Proof. reflexivity. Qed.

  Definition Fp_ring : ring_ops fp :=
    mk_ring_ops fp (fp_mk 0) (fp_mk 1)
      (fun a b => fp_mk (fp_val a + fp_val b)) (fun a => fp_mk (- fp_val a))
      (fun a b => fp_mk (fp_val a * fp_val b)) (fun a b => fp_val a =? fp_val b).

  Lemma Fp_ring_laws : ring_laws Fp_ring.
  Proof.
    constructor; intros; cbn [Fp_ring rzero rone radd rneg rmul reqb]; try apply fp_eq; rewrite ?fp_val_mk.
    - f_equal. apply Z.add_comm.
    - rewrite Zplus_mod_idemp_r, Zplus_mod_idemp_l. f_equal. apply Z.add_assoc.
    - rewrite Zplus_mod_idemp_l, Z.add_0_l. apply fp_red.
    - rewrite Zplus_mod_idemp_r. f_equal. apply Z.add_opp_diag_r.
    - f_equal. apply Z.mul_comm.
    - rewrite Zmult_mod_idemp_r, Zmult_mod_idemp_l. f_equal. apply Z.mul_assoc.
    - rewrite Zmult_mod_idemp_l, Z.mul_1_l. apply fp_red.
    - rewrite Zmult_mod_idemp_l, <- Zplus_mod. f_equal. apply Z.mul_add_distr_r.
    - rewrite Z.eqb_eq. split; [apply fp_eq|now intros ->].
  Qed.
End Fp.

(* the predicates used in the statements, unfolded (for the reader of Properties/C13.v) *)
Lemma sp_is_unfold {R} (o : ring_ops R) (a : spmat R) m n f :
  sp_is o a m n f <->
  sp_m a = m /\ sp_n a = n /\ sp_wfb a = true /\ forall i j, i < m -> j < n -> entry o a i j = f i j.
Proof. reflexivity. Qed.

Lemma sv_is_unfold {R} (o : ring_ops R) (v : spmat R) d f :
  sv_is o v d f <->
  sp_m v = d /\ sp_n v = 1 /\ sp_wfb v = true /\ forall i j, i < d -> j < 1 -> entry o v i j = f i.
Proof. reflexivity. Qed.

Lemma d_is_unfold {R} (o : ring_ops R) (A : dmat R) m n f :
  d_is o A m n f <->
  dm A = m /\ dn A = n /\ (length (dd A) = dm A /\ Forall (fun r => length r = dn A) (dd A)) /\
  forall i j, i < m -> j < n -> d_get o A i j = f i j.
Proof. reflexivity. Qed.

Lemma vec_wf_unfold {R} (v : spmat R) : vec_wf v <-> sp_wfb v = true /\ sp_n v = 1.
Proof. reflexivity. Qed.

Lemma sorted_klt_unfold {R} (l : list (ent R)) :
  StronglySorted klt l <->
  StronglySorted (fun e e' => e_col e < e_col e' \/ (e_col e = e_col e' /\ e_row e < e_row e')) l.
Proof.
  split; intros H.
  - induction H as [|x r S IH F]; constructor; [exact IH|]. rewrite Forall_forall in *. intros y Hy.
    specialize (F y Hy). unfold klt in F. now apply key_lt_spec in F.
  - induction H as [|x r S IH F]; constructor; [exact IH|]. rewrite Forall_forall in *. intros y Hy.
    unfold klt. apply key_lt_spec. now apply F.
Qed.

Lemma sp_wf_unfold {R} (a : spmat R) :
  sp_wf a <->
  (forall e, In e (sp_st a) -> e_row e < sp_m a /\ e_col e < sp_n a) /\
  StronglySorted (fun e e' => e_col e < e_col e' \/ (e_col e = e_col e' /\ e_row e < e_row e')) (sp_st a).
Proof. now rewrite sp_wf_iff, in_bounds_iff, sorted_klt_unfold. Qed.

Lemma is_perm_unfold (p : perm) : C13Sparse.is_perm p <-> NoDup p /\ forall x, In x p -> x < length p.
Proof. reflexivity. Qed.

Lemma entry_unfold {R} (o : ring_ops R) (L : ring_laws o) (a : spmat R) i j : sp_wf a ->
  (exists v, In (i, j, v) (sp_st a) /\ entry o a i j = v) \/
  ((forall v, ~ In (i, j, v) (sp_st a)) /\ entry o a i j = rzero o).
Proof. apply (entry_cases o L). Qed.

(* non-vacuity of the well-formedness predicates: the matrices [[1, 0s], [-, 2]] - [[1, 0s], [-, 2]] etc. *)
Definition ex_a : spmat Z := mksp 2 2 [(0, 0, 1%Z); (0, 1, 0%Z); (1, 1, 2%Z)].   (* a stored zero at (0,1) *)
Definition ex_e : spmat Z := mksp 0 3 [].                                        (* no rows *)
