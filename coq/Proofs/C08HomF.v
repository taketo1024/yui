(* C08, function-matrix part: a matrix equivalent to the block sum  I_r (+) S  inherits the Smith forms of S
   with r leading units.  Matrices are functions nat -> nat -> R (Base/MatF.v), [smith_form] is the one of
   Proofs/C07Algebra.v (the vocabulary of C07 / C09).  No integrality is needed here: only 1 <> 0. *)
From Coq Require Import Arith List Lia Ring Bool.
Require Import Yui.Base.Ring Yui.Base.MatF Yui.Proofs.C07Algebra Yui.Proofs.C09UniqueKer.

Section HomF.
  Context {R : Type} (o : ring_ops R) (L : ring_laws o).

  Local Notation "0" := (rzero o).
  Local Notation "1" := (rone o).
  Local Infix "+" := (radd o).
  Local Infix "*" := (rmul o).
  Local Notation "- x" := (rneg o x).

  Add Ring RringHF : (ring_theory_of_laws o L).

  (* vertical / horizontal stacking of function matrices: the first r rows (columns) come from X *)
  Definition vst (r : nat) (X Y : mat R) : mat R := fun i j => if i <? r then X i j else Y (i - r)%nat j.
  Definition hst (r : nat) (X Y : mat R) : mat R := fun i j => if j <? r then X i j else Y i (j - r)%nat.

  Lemma mmul_vst_l n r X Y Z i j : mmul o n (vst r X Y) Z i j = vst r (mmul o n X Z) (mmul o n Y Z) i j.
  Proof. unfold vst, mmul. destruct (i <? r); reflexivity. Qed.

  Lemma mmul_hst_r n r Z X Y i j : mmul o n Z (hst r X Y) i j = hst r (mmul o n Z X) (mmul o n Z Y) i j.
  Proof. unfold hst, mmul. destruct (j <? r); reflexivity. Qed.

  Lemma mmul_hst_vst r k X Y Z W i j :
    mmul o (r + k) (hst r X Y) (vst r Z W) i j = mmul o r X Z i j + mmul o k Y W i j.
  Proof.
    rewrite (mmul_split o L). f_equal.
    - unfold mmul. apply sum_ext. intros l Hl. unfold hst, vst.
      destruct (Nat.ltb_spec l r); [reflexivity|lia].
    - unfold mmul. apply sum_ext. intros l Hl. unfold hst, vst.
      destruct (Nat.ltb_spec (r + l) r); [lia|]. replace (r + l - r)%nat with l by lia. reflexivity.
  Qed.

  (* the block sum I_r (+) S *)
  Definition bd (r : nat) (S : mat R) : mat R := vst r (hst r (mid o) (mzero o)) (hst r (mzero o) S).

  Lemma bd_entry r S i j :
    bd r S i j = if i <? r then (if j <? r then mid o i j else 0)
                 else (if j <? r then 0 else S (i - r)%nat (j - r)%nat).
  Proof. reflexivity. Qed.

  Lemma bd_mul r k X Y i j : mmul o (r + k) (bd r X) (bd r Y) i j = bd r (mmul o k X Y) i j.
  Proof.
    rewrite (bd_entry r (mmul o k X Y)).
    unfold bd at 1. rewrite mmul_vst_l. unfold vst at 1.
    destruct (Nat.ltb_spec i r) as [Hi|Hi].
    - unfold bd. rewrite mmul_hst_vst. rewrite (mmul_id_l o L) by exact Hi.
      rewrite (mmul_zero_l o L). unfold hst, mzero. destruct (j <? r); ring.
    - unfold bd. rewrite mmul_hst_vst. rewrite (mmul_zero_l o L).
      rewrite mmul_hst_r. unfold hst. destruct (j <? r).
      + rewrite (mmul_zero_r o L). ring.
      + ring.
  Qed.

  Lemma bd_id r k : meq (r + k) (r + k) (bd r (mid o)) (mid o).
  Proof.
    intros i j Hi Hj. rewrite bd_entry. unfold mid.
    destruct (Nat.ltb_spec i r); destruct (Nat.ltb_spec j r); try reflexivity.
    - destruct (Nat.eqb_spec i j); [lia|reflexivity].
    - destruct (Nat.eqb_spec i j); [lia|reflexivity].
    - destruct (Nat.eqb_spec (i - r) (j - r)); destruct (Nat.eqb_spec i j); try reflexivity; lia.
  Qed.

  Lemma bd_ext r k l X Y : meq k l X Y -> meq (r + k) (r + l) (bd r X) (bd r Y).
  Proof.
    intros H i j Hi Hj. rewrite !bd_entry.
    destruct (Nat.ltb_spec i r); destruct (Nat.ltb_spec j r); try reflexivity.
    apply H; lia.
  Qed.

  Lemma inv_pair_bd r k X Xi : inv_pair o k X Xi -> inv_pair o (r + k) (bd r X) (bd r Xi).
  Proof.
    intros [H1 H2]. split; intros i j Hi Hj; rewrite bd_mul.
    - rewrite (bd_ext r k k _ (mid o) H1) by assumption. now apply (bd_id r k).
    - rewrite (bd_ext r k k _ (mid o) H2) by assumption. now apply (bd_id r k).
  Qed.

  Lemma inv_pair_mul m X Xi Y Yi :
    inv_pair o m X Xi -> inv_pair o m Y Yi -> inv_pair o m (mmul o m X Y) (mmul o m Yi Xi).
  Proof.
    intros [HX1 HX2] [HY1 HY2]. split.
    - exact (meq_inv_pair o L m X Y Yi Xi _ _ HY1 HX1 (meq_refl m m _) (meq_refl m m _)).
    - exact (meq_inv_pair o L m Yi Xi X Y _ _ HX2 HY2 (meq_refl m m _) (meq_refl m m _)).
  Qed.

  (* the diagonal: r units followed by ds *)
  Definition lead1 (r : nat) (ds : nat -> R) : nat -> R := fun i => if i <? r then 1 else ds (i - r)%nat.

  Lemma bd_diag r k ds i j :
    bd r (fun i j => if (i =? j) && (i <? k) then ds i else 0) i j
    = if (i =? j) && (i <? r + k) then lead1 r ds i else 0.
  Proof.
    rewrite bd_entry. unfold lead1, mid.
    destruct (Nat.ltb_spec i r) as [Hi|Hi]; destruct (Nat.ltb_spec j r) as [Hj|Hj].
    - destruct (Nat.eqb_spec i j); cbn [andb]; [|reflexivity].
      destruct (Nat.ltb_spec i (r + k)); [reflexivity|lia].
    - destruct (Nat.eqb_spec i j); [lia|reflexivity].
    - destruct (Nat.eqb_spec i j); [lia|reflexivity].
    - destruct (Nat.eqb_spec (i - r) (j - r)); destruct (Nat.eqb_spec i j); try lia; cbn [andb]; [|reflexivity].
      destruct (Nat.ltb_spec (i - r) k); destruct (Nat.ltb_spec i (r + k)); try lia; reflexivity.
  Qed.

  Theorem equiv_bd_smith (Hone : 1 <> 0) r mr nr (A S U Ui V Vi : mat R) k ds :
    inv_pair o (r + mr) U Ui -> inv_pair o (r + nr) V Vi ->
    meq (r + mr) (r + nr) (mmul o (r + mr) U (mmul o (r + nr) A V)) (bd r S) ->
    smith_form o mr nr S k ds ->
    smith_form o (r + mr) (r + nr) A (r + k) (lead1 r ds).
  Proof.
    intros HU HV HE [Ps [Psi [Qs [Qsi [HP [HQ [HEs [Hnz Hk]]]]]]]].
    exists (mmul o (r + mr) (bd r Ps) U), (mmul o (r + mr) Ui (bd r Psi)),
           (mmul o (r + nr) V (bd r Qs)), (mmul o (r + nr) (bd r Qsi) Vi).
    split; [apply inv_pair_mul; [now apply inv_pair_bd|exact HU]|].
    split; [apply inv_pair_mul; [exact HV|now apply inv_pair_bd]|].
    split; [|split].
    - intros i j Hi Hj. rewrite (mmul_assoc o L).
      rewrite (mmul_ext_r o (r + mr) (bd r Ps) _ (bd r (mmul o nr S Qs))).
      + rewrite bd_mul. rewrite (bd_ext r mr nr _ _ HEs) by assumption. apply bd_diag.
      + intros l Hl.
        rewrite (mmul_ext_r o (r + mr) U _ (mmul o (r + nr) (mmul o (r + nr) A V) (bd r Qs)))
          by (intros l' _; symmetry; apply (mmul_assoc o L)).
        rewrite <- (mmul_assoc o L).
        rewrite (mmul_ext_l o (r + nr) _ (bd r S)) by (intros l' Hl'; now apply HE).
        apply bd_mul.
    - intros i Hi. unfold lead1. destruct (Nat.ltb_spec i r); [exact Hone|]. apply Hnz. lia.
    - apply Nat.min_glb; pose proof (Nat.le_min_l mr nr); pose proof (Nat.le_min_r mr nr); lia.
  Qed.

  (* a divisibility chain stays one when units are put in front *)
  Lemma lead1_chain r k ds : chain o k ds -> chain o (r + k) (lead1 r ds).
  Proof.
    intros C i Hi. unfold lead1.
    destruct (Nat.ltb_spec i r) as [H1|H1].
    - exists (if S i <? r then 1 else ds (S i - r)%nat). ring.
    - destruct (Nat.ltb_spec (S i) r); [lia|].
      replace (S i - r)%nat with (S (i - r)) by lia. apply C. lia.
  Qed.
End HomF.
