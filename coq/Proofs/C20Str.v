(* C20: lemmas on strings (lists of code points) and on decimal printing / parsing. *)
From Coq Require Import ZArith NArith List Bool Arith Lia ZifyN ZifyBool ZifyNat.
Require Import Yui.Model.Table.
Import ListNotations.

Lemma str_eqb_eq : forall a b, str_eqb a b = true <-> a = b.
Proof.
  induction a as [|x a IH]; destruct b as [|y b]; cbn [str_eqb]; split; intro H; try reflexivity; try discriminate.
  - apply andb_true_iff in H. destruct H as [H1 H2]. apply N.eqb_eq in H1. apply IH in H2. now subst.
  - inversion H; subst. apply andb_true_iff. split; [apply N.eqb_refl | now apply IH].
Qed.
Lemma str_eqb_refl : forall a, str_eqb a a = true.
Proof. intro a. now apply str_eqb_eq. Qed.
Lemma str_eqb_neq : forall a b, str_eqb a b = false <-> a <> b.
Proof.
  intros a b. split.
  - intros H E. apply str_eqb_eq in E. congruence.
  - intro H. destruct (str_eqb a b) eqn:E; [apply str_eqb_eq in E; contradiction | reflexivity].
Qed.

Definition digit_str (s : str) : Prop := Forall (fun c => is_digit c = true) s.

Lemma is_digit_spec : forall c, is_digit c = true <-> (48 <= c <= 57)%N.
Proof.
  intro c. unfold is_digit. rewrite andb_true_iff, !N.leb_le. reflexivity.
Qed.

Lemma mod10_digit : forall n, is_digit (48 + n mod 10)%N = true.
Proof.
  intro n. apply is_digit_spec. pose proof (N.mod_lt n 10 ltac:(discriminate)). lia.
Qed.

Lemma digits_val_app : forall a b acc,
  digits_val (a ++ b) acc = match digits_val a acc with Some v => digits_val b v | None => None end.
Proof.
  induction a as [|c a IH]; intros b acc; cbn [digits_val app]; [reflexivity|].
  destruct (is_digit c); [apply IH | reflexivity].
Qed.

(* the loop prints n in front of acc: all characters are digits and the value is n followed by acc *)
Lemma digits_fuel_spec : forall fuel n acc,
  (n < 2 ^ N.of_nat fuel)%N ->
  exists ds, digits_fuel fuel n acc = ds ++ acc /\ digit_str ds /\
             (forall a, digits_val ds a = Some (a * 10 ^ N.of_nat (length ds) + n)%N) /\
             (fuel <> 0%nat -> ds <> []).
Proof.
  induction fuel as [|f IH]; intros n acc Hn.
  - cbn in Hn. assert (n = 0%N) by lia. subst. exists []. cbn. repeat split; try constructor.
    + intro a. f_equal. lia.
    + congruence.
  - cbn [digits_fuel].
    assert (Hdiv : (n / 10 < 2 ^ N.of_nat f)%N).
    { rewrite Nat2N.inj_succ, N.pow_succ_r' in Hn.
      apply N.div_lt_upper_bound; [discriminate|]. lia. }
    destruct (n / 10 =? 0)%N eqn:E.
    + apply N.eqb_eq in E. exists [(48 + n mod 10)%N]. cbn [app length]. repeat split.
      * constructor; [apply mod10_digit | constructor].
      * intro a. cbn [digits_val]. rewrite mod10_digit. f_equal.
        pose proof (N.div_mod n 10 ltac:(discriminate)). rewrite E in H.
        replace (48 + n mod 10 - 48)%N with (n mod 10)%N by lia. cbn. lia.
      * discriminate.
    + destruct (IH (n / 10)%N ((48 + n mod 10)%N :: acc) Hdiv) as (ds & Heq & Hd & Hv & _).
      exists (ds ++ [(48 + n mod 10)%N]). repeat split.
      * rewrite Heq, <- app_assoc. reflexivity.
      * apply Forall_app. split; [exact Hd | constructor; [apply mod10_digit | constructor]].
      * intro a. rewrite digits_val_app, Hv. cbn [digits_val]. rewrite mod10_digit. f_equal.
        rewrite app_length. cbn [length]. rewrite Nat.add_1_r, Nat2N.inj_succ, N.pow_succ_r'.
        pose proof (N.div_mod n 10 ltac:(discriminate)).
        replace (48 + n mod 10 - 48)%N with (n mod 10)%N by lia. lia.
      * intros _ Hnil. apply app_eq_nil in Hnil. destruct Hnil as [_ Hnil]. discriminate.
Qed.

Lemma str_of_N_spec : forall n,
  digit_str (str_of_N n) /\ str_of_N n <> [] /\ digits_val (str_of_N n) 0 = Some n.
Proof.
  intro n. unfold str_of_N.
  assert (Hn : (n < 2 ^ N.of_nat (S (N.to_nat (N.log2 n))))%N).
  { rewrite Nat2N.inj_succ, N2Nat.id.
    destruct n as [|p]; [cbn; lia|]. apply N.log2_spec. lia. }
  destruct (digits_fuel_spec _ n [] Hn) as (ds & Heq & Hd & Hv & Hne).
  rewrite Heq, app_nil_r. split; [exact Hd | split; [now apply Hne |]]. rewrite Hv. f_equal; lia.
Qed.

Lemma parse_N_dec_str_of_N : forall n, parse_N_dec (str_of_N n) = Some n.
Proof.
  intro n. destruct (str_of_N_spec n) as (_ & Hne & Hv). unfold parse_N_dec.
  destruct (str_of_N n); [congruence | exact Hv].
Qed.

Lemma digit_str_hd : forall c s, digit_str (c :: s) -> (48 <= c <= 57)%N.
Proof. intros c s H. inversion H; subst. now apply is_digit_spec. Qed.

Lemma parse_Z_dec_str_of_Z : forall z, parse_Z_dec (str_of_Z z) = Some z.
Proof.
  intro z. destruct z as [|p|p]; cbn [str_of_Z].
  - reflexivity.
  - destruct (str_of_N_spec (Npos p)) as (Hd & Hne & _).
    pose proof (parse_N_dec_str_of_N (Npos p)) as HP.
    unfold parse_Z_dec. destruct (str_of_N (Npos p)) as [|c r] eqn:E; [congruence|].
    apply digit_str_hd in Hd.
    destruct (c =? 45)%N eqn:E1; [apply N.eqb_eq in E1; lia|].
    destruct (c =? 43)%N eqn:E2; [apply N.eqb_eq in E2; lia|].
    rewrite HP. reflexivity.
  - unfold parse_Z_dec. rewrite N.eqb_refl, parse_N_dec_str_of_N. reflexivity.
Qed.

(* the characters of a printed integer: digits or '-' *)
Lemma str_of_Z_chars : forall z c, In c (str_of_Z z) -> (48 <= c <= 57)%N \/ c = 45%N.
Proof.
  intros z c H. destruct z as [|p|p]; cbn [str_of_Z] in H.
  - destruct H as [H|[]]. subst. left. lia.
  - destruct (str_of_N_spec (Npos p)) as (Hd & _). left. unfold digit_str in Hd. rewrite Forall_forall in Hd.
    apply is_digit_spec. now apply Hd.
  - destruct H as [H|H]; [now right|].
    destruct (str_of_N_spec (Npos p)) as (Hd & _). left. unfold digit_str in Hd. rewrite Forall_forall in Hd.
    apply is_digit_spec. now apply Hd.
Qed.
Lemma str_of_Z_nonempty : forall z, str_of_Z z <> [].
Proof.
  intro z. destruct z as [|p|p]; cbn [str_of_Z]; try discriminate.
  now destruct (str_of_N_spec (Npos p)) as (_ & Hne & _).
Qed.
