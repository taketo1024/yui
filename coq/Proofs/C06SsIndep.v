(* C06 (ss oracle) - the divisibility of a homology class does not depend on the homology coordinates:
   for two coordinate systems (p, q, tors), (p', q', tors') of the homology of d1, d2 that both satisfy
   [gens_ok] and [complete_ok] (Proofs/C07Calc.v) with the same rank and non-zero torsion orders, the free
   coordinates of every cycle are related by an integer matrix in each direction
        p'_free z = (p'_free q_free) (p_free z),        p_free z = (p_free q'_free) (p'_free z),
   hence every integer divides all free coordinates in one system iff it does in the other, and [div_c]
   of the two coordinate vectors agree.  In particular the d of [ss_spec] does not depend on the route
   by which the Smith normal forms were found. *)
From Coq Require Import List Arith Bool ZArith Lia.
Require Import Yui.Base.Ring Yui.Base.MatF Yui.Base.MatL.
Require Import Yui.Base.ListFacts.
Require Import Yui.Model.HomologyCalc Yui.Model.KhSs.
Require Import Yui.Proofs.C07Calc Yui.Proofs.C06SsDiv.
Import ListNotations.
Open Scope Z_scope.

Local Notation sumZ := (sum Z_ring).
Local Notation mvZ := (mvec Z_ring).
Local Notation mmZ := (mmul Z_ring).
Local Notation mg := (mget Z_ring).

Lemma sumZ_divide m n f : (forall k, (k < n)%nat -> (m | f k)) -> (m | sumZ n f).
Proof.
  induction n as [|n IH]; intros H; cbn [sum].
  - apply Z.divide_0_r.
  - change (m | sumZ n f + f n). apply Z.divide_add_r; [apply IH; intros; apply H; lia|apply H; lia].
Qed.

Lemma mmZ_unfold n A B i j : mmZ n A B i j = sumZ n (fun k => A i k * B k j).
Proof. reflexivity. Qed.

Lemma mvZ_add n A u v i : mvZ n A (fun k => u k + v k) i = mvZ n A u i + mvZ n A v i.
Proof. unfold mvec. rewrite <- (sum_add Z_ring Z_ring_laws). apply (sum_ext Z_ring). intros k _. cbn. ring. Qed.
Lemma mvZ_scal n A a v i : mvZ n A (fun k => a * v k) i = a * mvZ n A v i.
Proof. unfold mvec. rewrite <- (sum_scal_l Z_ring Z_ring_laws). apply (sum_ext Z_ring). intros k _. cbn. ring. Qed.
Lemma mvZ_col n A B j i : mvZ n A (fun k => B k j) i = mmZ n A B i j.
Proof. reflexivity. Qed.

Section Indep.
  Variables (d1 d2 : dmat Z) (rank : nat).
  Let n := nr d1.

  Definition tors_nz (tors : list Z) : Prop := forall s, (s < length tors)%nat -> nth s tors 0 <> 0.

  (* the torsion generators of one system have zero free coordinates in every other system *)
  Lemma tors_gen_free_zero tors p q tors' p' q' :
    gens_ok Z_ring d1 d2 rank tors p q -> complete_ok Z_ring d1 d2 rank tors p q -> tors_nz tors ->
    gens_ok Z_ring d1 d2 rank tors' p' q' ->
    forall i j, (i < rank)%nat -> (rank <= j < rank + length tors)%nat ->
    mmZ n (mg p') (mg q) i j = 0.
  Proof.
    intros G1 C1 Tnz G2 i j Hi Hj.
    unfold gens_ok in G1, G2. cbn zeta in G1, G2. fold n in G1, G2.
    destruct G1 as [_ [_ [_ [_ [Gcyc [Gid _]]]]]].
    destruct G2 as [_ [_ [_ [_ [_ [_ Gbd']]]]]].
    unfold complete_ok in C1. cbn zeta in C1. fold n in C1.
    set (h := (rank + length tors)%nat) in *.
    set (s := (j - rank)%nat).
    set (t := nth s tors 0).
    assert (Ht : t <> 0) by (apply Tnz; unfold s; lia).
    set (z := fun k => t * mg q k j).
    (* z is a cycle *)
    assert (Zc : forall i', (i' < nr d2)%nat -> mvZ n (mg d2) z i' = 0).
    { intros i' Hi'. unfold z. rewrite mvZ_scal, mvZ_col.
      rewrite (Gcyc i' j Hi' ltac:(lia)). unfold mzero. cbn. lia. }
    (* its coordinates *)
    assert (Zp : forall i', (i' < h)%nat -> mvZ n (mg p) z i' = t * (if (i' =? j)%nat then 1 else 0)).
    { intros i' Hi'. unfold z. rewrite mvZ_scal, mvZ_col.
      rewrite (Gid i' j Hi' ltac:(lia)). reflexivity. }
    destruct (C1 z Zc) as [_ Cb].
    destruct Cb as [x Hx].
    - intros i' Hi'. rewrite Zp by lia. destruct (Nat.eqb_spec i' j); [lia|]. cbn. lia.
    - intros s' Hs'. rewrite Zp by lia.
      destruct (Nat.eqb_spec (rank + s') j) as [E|E].
      + exists 1. replace s' with s by (unfold s; lia). fold t. cbn. lia.
      + exists 0. cbn. lia.
    - (* t * (p' q)_(i j) = (p' z)_i = (p' d1 x)_i = 0 *)
      assert (E : t * mmZ n (mg p') (mg q) i j = 0).
      { rewrite <- mvZ_col, <- mvZ_scal. fold z.
        rewrite (mvec_ext Z_ring (mg p') z (mvZ (nc d1) (mg d1) x) n) by exact Hx.
        destruct (Gbd' x i ltac:(lia)) as [G0 _]. exact (G0 Hi). }
      apply Z.mul_eq_0 in E. destruct E; [contradiction|assumption].
  Qed.

  (* the free coordinates in one system are an integer combination of the free coordinates in the other *)
  Lemma free_coords_change tors p q tors' p' q' (z : nat -> Z) :
    gens_ok Z_ring d1 d2 rank tors p q -> complete_ok Z_ring d1 d2 rank tors p q -> tors_nz tors ->
    gens_ok Z_ring d1 d2 rank tors' p' q' ->
    (forall i, (i < nr d2)%nat -> mvZ n (mg d2) z i = 0) ->
    forall i, (i < rank)%nat ->
    mvZ n (mg p') z i = sumZ rank (fun j => mmZ n (mg p') (mg q) i j * mvZ n (mg p) z j).
  Proof.
    intros G1 C1 Tnz G2 Zc i Hi.
    pose proof (tors_gen_free_zero _ _ _ _ _ _ G1 C1 Tnz G2 i) as Hz.
    unfold gens_ok in G2. cbn zeta in G2. fold n in G2.
    destruct G2 as [_ [_ [_ [_ [_ [_ Gbd']]]]]].
    unfold complete_ok in C1. cbn zeta in C1. fold n in C1.
    destruct (C1 z Zc) as [[x Hx] _].
    rewrite (mvec_ext Z_ring (mg p') z _ n i Hx).
    rewrite mvZ_add.
    destruct (Gbd' x i ltac:(lia)) as [G0 _]. cbn zeta in G0.
    replace (mvZ n (mg p') (mvZ (nc d1) (mg d1) x) i) with 0 by (symmetry; exact (G0 Hi)).
    rewrite Z.add_0_r, <- (mvec_mmul Z_ring Z_ring_laws). unfold mvec at 1.
    rewrite (sum_split Z_ring Z_ring_laws), (sum_zero_ext Z_ring Z_ring_laws (length tors)); [apply Z.add_0_r|].
    intros k Hk. rewrite Hz by lia. reflexivity.
  Qed.

  (* every integer m (m = 0: vanishing) divides the free coordinates in one system iff in the other *)
  Theorem free_divisibility_independent tors p q tors' p' q' (z : nat -> Z) (m : Z) :
    gens_ok Z_ring d1 d2 rank tors p q -> complete_ok Z_ring d1 d2 rank tors p q -> tors_nz tors ->
    gens_ok Z_ring d1 d2 rank tors' p' q' -> complete_ok Z_ring d1 d2 rank tors' p' q' -> tors_nz tors' ->
    (forall i, (i < nr d2)%nat -> mvZ n (mg d2) z i = 0) ->
    ((forall i, (i < rank)%nat -> (m | mvZ n (mg p) z i)) <-> (forall i, (i < rank)%nat -> (m | mvZ n (mg p') z i))).
  Proof.
    intros G1 C1 T1 G2 C2 T2 Zc. split; intros H i Hi.
    - rewrite (free_coords_change _ _ _ _ _ _ z G1 C1 T1 G2 Zc i Hi).
      apply sumZ_divide. intros j Hj. apply Z.divide_mul_r. now apply H.
    - rewrite (free_coords_change _ _ _ _ _ _ z G2 C2 T2 G1 Zc i Hi).
      apply sumZ_divide. intros j Hj. apply Z.divide_mul_r. now apply H.
  Qed.
End Indep.

Lemma div_c_same c v w : 2 <= Z.abs c ->
  (forall m, divides_all m v <-> divides_all m w) -> div_c c v = div_c c w.
Proof.
  intros Hc H. destruct (div_c c v) as [d|] eqn:E.
  - symmetry. apply (div_c_characterised c w d Hc). apply (div_c_characterised c v d Hc) in E.
    destruct E as [E0 [E1 E2]]. rewrite is_zero_divides_0 in *. rewrite <- !H. tauto.
  - symmetry. apply div_c_none. apply div_c_none in E. rewrite is_zero_divides_0 in *. now apply H.
Qed.

Lemma divides_all_tab m (f : nat -> Z) k :
  divides_all m (map f (seq 0 k)) <-> (forall i, (i < k)%nat -> (m | f i)).
Proof.
  unfold divides_all. rewrite Forall_forall. split.
  - intros H i Hi. apply H. apply in_map. apply in_seq. lia.
  - intros H a Ha. apply in_map_iff in Ha. destruct Ha as [i [<- Hi]]. apply in_seq in Hi. apply H. lia.
Qed.

Lemma divides_all_firstn m (w : list Z) k : (k <= length w)%nat ->
  (divides_all m (firstn k w) <-> (forall i, (i < k)%nat -> (m | nth i w 0))).
Proof.
  intros Hk. unfold divides_all. rewrite Forall_forall. split.
  - intros H i Hi. rewrite <- (nth_firstn_lt w k i 0 Hi). apply H. apply nth_In. rewrite firstn_length. lia.
  - intros H a Ha. destruct (In_nth _ _ 0 Ha) as [i [Hi <-]]. rewrite firstn_length in Hi.
    rewrite nth_firstn_lt by lia. apply H. lia.
Qed.
