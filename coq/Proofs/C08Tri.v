(* The triangular inversion of Model/Reducer.v returns a two-sided inverse. *)
From Coq Require Import Arith List Lia Bool Ring.
Require Import Yui.Base.Ring Yui.Base.MatF Yui.Base.MatL Yui.Model.Reducer Yui.Proofs.C08Mat.
Import ListNotations.

Section Tri.
  Context {R : Type} (o : ring_ops R) (L : ring_laws o) (u : unit_ops R) (UL : unit_laws o u).
  Add Ring Rring4 : (ring_theory_of_laws o L).
  Local Notation dmat := (dmat R).
  Local Notation r0 := (rzero o).
  Local Notation r1 := (rone o).
  Local Notation dwf := (@dwf R).

  Definition lower_tri (a : dmat) (r : nat) : Prop := forall i j, i < j -> j < r -> dget o a i j = r0.
  Definition upper_tri (a : dmat) (r : nat) : Prop := forall i j, j < i -> i < r -> dget o a i j = r0.
  Definition tri_ok (t : ttype) (a : dmat) (r : nat) : Prop :=
    match t with Lower => lower_tri a r | Upper => upper_tri a r end.
  Definition unit_diag (a : dmat) (r : nat) : Prop := forall i, i < r -> ris_unit u (dget o a i i) = true.

  Lemma tri_okb_ok t a r : tri_okb o t a r = true -> tri_ok t a r.
  Proof.
    unfold tri_okb. rewrite forallb_forall. intros H. destruct t; intros i j Hij Hr.
    - specialize (H i). rewrite in_seq in H. specialize (H ltac:(lia)). rewrite forallb_forall in H.
      specialize (H j). rewrite in_seq in H. specialize (H ltac:(lia)).
      destruct (Nat.ltb_spec j i); [|lia]. now apply (reqb_eq o L) in H.
    - specialize (H i). rewrite in_seq in H. specialize (H ltac:(lia)). rewrite forallb_forall in H.
      specialize (H j). rewrite in_seq in H. specialize (H ltac:(lia)).
      destruct (Nat.ltb_spec i j); [|lia]. now apply (reqb_eq o L) in H.
  Qed.

  Lemma tri_ok_okb t a r : tri_ok t a r -> tri_okb o t a r = true.
  Proof.
    intros H. unfold tri_okb. apply forallb_forall. intros i Hi. apply forallb_forall. intros j Hj.
    rewrite in_seq in Hi, Hj. destruct t.
    - destruct (Nat.ltb_spec j i); [|reflexivity]. apply (reqb_eq o L). apply H; lia.
    - destruct (Nat.ltb_spec i j); [|reflexivity]. apply (reqb_eq o L). apply H; lia.
  Qed.

  Lemma lget_app_l (X Y : lmat R) k j : k < length X -> lget o (X ++ Y) k j = lget o X k j.
  Proof. intros H. unfold lget. now rewrite app_nth1. Qed.

  Lemma lget_app_last (X : lmat R) row j : lget o (X ++ [row]) (length X) j = nth j row r0.
  Proof. unfold lget. rewrite app_nth2 by lia. now rewrite Nat.sub_diag. Qed.

  Lemma inv_rows_spec a r i X :
    lower_tri a r -> i <= r -> inv_rows o u a r i = Some X ->
    length X = i /\ Forall (fun row => length row = r) X /\
    (forall k j, k < i -> j < r -> sum o i (fun l => rmul o (dget o a k l) (lget o X l j)) = mid o k j) /\
    (forall k j, k < i -> k < j -> j < r -> lget o X k j = r0) /\
    (forall k, k < i -> rmul o (dget o a k k) (lget o X k k) = r1).
  Proof.
    intros Hlow. revert X. induction i as [|i IH]; intros X Hi E; cbn [inv_rows] in E.
    - injection E as <-. repeat split; try (intros; lia). constructor.
    - destruct (inv_rows o u a r i) as [X0|] eqn:E0; [|discriminate]. cbn [obind] in E.
      destruct (rinv u (dget o a i i)) as [di|] eqn:Ed; [|discriminate]. cbn [obind] in E.
      injection E as <-.
      destruct (IH X0 ltac:(lia) eq_refl) as (Hlen & Hrows & Hinv & Htri & Hdiag).
      pose proof (rinv_some o u UL _ _ Ed) as Hdi.
      set (f := fun j => rmul o di (rsub o (if i =? j then r1 else r0)
                          (sum o i (fun k => rmul o (dget o a i k) (lget o X0 k j))))).
      assert (Hnew : forall j, j < r -> lget o (X0 ++ [map f (seq 0 r)]) i j = f j).
      { intros j Hj.
        replace (lget o (X0 ++ [map f (seq 0 r)]) i j) with (lget o (X0 ++ [map f (seq 0 r)]) (length X0) j)
          by (now rewrite Hlen).
        rewrite lget_app_last.
        rewrite nth_indep with (d' := f 0) by (now rewrite map_length, seq_length).
        rewrite map_nth, seq_nth by assumption. reflexivity. }
      assert (Hold : forall k j, k < i -> lget o (X0 ++ [map f (seq 0 r)]) k j = lget o X0 k j).
      { intros k j Hk. apply lget_app_l. lia. }
      repeat split.
      + rewrite app_length, Hlen. cbn. lia.
      + apply Forall_app. split; [exact Hrows|]. constructor; [|constructor].
        now rewrite map_length, seq_length.
      + intros k j Hk Hj. cbn [sum].
        destruct (Nat.eq_dec k i) as [->|Hne].
        * rewrite (sum_ext o i _ (fun l => rmul o (dget o a i l) (lget o X0 l j)))
            by (intros l Hl; now rewrite Hold).
          rewrite Hnew by assumption. unfold f, mid, rsub.
          set (S := sum o i _). set (d := if i =? j then r1 else r0).
          transitivity (radd o S (rmul o (rmul o (dget o a i i) di) (radd o d (rneg o S)))); [ring|].
          rewrite Hdi. ring.
        * rewrite (sum_ext o i _ (fun l => rmul o (dget o a k l) (lget o X0 l j)))
            by (intros l Hl; now rewrite Hold).
          rewrite Hinv by (try assumption; lia). rewrite (Hlow k i) by lia. ring.
      + intros k j Hk Hkj Hj. destruct (Nat.eq_dec k i) as [->|Hne].
        * rewrite Hnew by assumption. unfold f, rsub.
          destruct (Nat.eqb_spec i j); [lia|].
          rewrite (sum_zero_ext o L) by (intros l Hl; rewrite (Htri l j) by lia; ring). ring.
        * rewrite Hold by lia. apply Htri; lia.
      + intros k Hk. destruct (Nat.eq_dec k i) as [->|Hne].
        * rewrite Hnew by lia. unfold f, rsub. rewrite Nat.eqb_refl.
          rewrite (sum_zero_ext o L) by (intros l Hl; rewrite (Htri l i) by lia; ring).
          transitivity (rmul o (dget o a i i) di); [ring|exact Hdi].
        * rewrite Hold by lia. apply Hdiag. lia.
  Qed.

  Lemma inv_rows_some a r i :
    (forall k, k < i -> ris_unit u (dget o a k k) = true) -> exists X, inv_rows o u a r i = Some X.
  Proof.
    induction i as [|i IH]; intros H; cbn [inv_rows]; [eauto|].
    destruct IH as [X0 ->]; [intros; apply H; lia|]. cbn [obind].
    destruct (proj1 (rinv_unit o u UL _) (H i ltac:(lia))) as [di ->]. cbn [obind]. eauto.
  Qed.

  Lemma inv_lower_right a r X :
    dr a = r -> dc a = r -> lower_tri a r -> inv_lower o u a r = Some X ->
    dwf X /\ dr X = r /\ dc X = r /\ dmul o a X = did o r /\ lower_tri X r /\
    (forall k, k < r -> rmul o (dget o a k k) (dget o X k k) = r1).
  Proof.
    intros Hr Hc Hlow E. unfold inv_lower in E.
    destruct (inv_rows o u a r r) as [X0|] eqn:E0; [|discriminate]. cbn [obind] in E. injection E as <-.
    destruct (inv_rows_spec a r r X0 Hlow (le_n r) E0) as (Hlen & Hrows & Hinv & Htri & Hdiag).
    split; [split; assumption|]. split; [reflexivity|]. split; [reflexivity|]. split; [|split].
    - unfold dmul, did. cbn [dr dc]. rewrite Hr, Hc. apply (dmk_ext o). intros i j Hi Hj.
      apply Hinv; assumption.
    - intros i j Hij Hj. unfold dget. cbn [de]. apply Htri; lia.
    - intros k Hk. unfold dget at 2. cbn [de]. now apply Hdiag.
  Qed.

  Lemma inv_lower_some a r : unit_diag a r -> exists X, inv_lower o u a r = Some X.
  Proof.
    intros H. unfold inv_lower. destruct (inv_rows_some a r r H) as [X ->]. cbn [obind]. eauto.
  Qed.

  (* the right inverse of a lower triangular matrix is also its left inverse *)
  Lemma inv_lower_spec a r X :
    dwf a -> dr a = r -> dc a = r -> lower_tri a r -> inv_lower o u a r = Some X ->
    dwf X /\ dr X = r /\ dc X = r /\ dmul o a X = did o r /\ dmul o X a = did o r.
  Proof.
    intros Wa Hr Hc Hlow E.
    destruct (inv_lower_right a r X Hr Hc Hlow E) as (WX & HXr & HXc & Hright & HXlow & HXdiag).
    split; [exact WX|]. split; [exact HXr|]. split; [exact HXc|]. split; [exact Hright|].
    assert (HXu : unit_diag X r).
    { intros k Hk. apply (runit_complete o u UL _ (dget o a k k)). rewrite (rmul_comm o L). now apply HXdiag. }
    destruct (inv_lower_some X r HXu) as [Y EY].
    destruct (inv_lower_right X r Y HXr HXc HXlow EY) as (WY & HYr & HYc & HXY & _ & _).
    assert (EaY : a = Y).
    { rewrite <- (dmul_id_r o L a r Wa Hc), <- HXY, <- (dmul_assoc o L) by lia.
      rewrite Hright. now apply (dmul_id_l o L). }
    rewrite EaY at 1. exact HXY.
  Qed.

  Lemma tri_inv_spec t a r X :
    dwf a -> dr a = r -> dc a = r -> tri_ok t a r -> tri_inv o u t a r = Some X ->
    dwf X /\ dr X = r /\ dc X = r /\ dmul o a X = did o r /\ dmul o X a = did o r.
  Proof.
    intros Wa Hr Hc Ht E. destruct t; cbn [tri_inv tri_ok] in *.
    - destruct (inv_lower o u (dtrans o a) r) as [Y|] eqn:EY; [|discriminate]. cbn [obind] in E.
      injection E as <-.
      assert (Hlow : lower_tri (dtrans o a) r).
      { intros i j Hij Hj. rewrite (dget_dtrans o) by lia. apply Ht; lia. }
      destruct (inv_lower_spec (dtrans o a) r Y (dwf_dtrans o a) ltac:(dims) ltac:(dims) Hlow EY)
        as (WY & HYr & HYc & H1 & H2).
      split; [apply dwf_dtrans|]. split; [dims|]. split; [dims|]. split.
      + rewrite <- (dtrans_invol o a Wa) at 1. rewrite <- (dtrans_dmul o L) by dims.
        rewrite H2. apply (dtrans_did o).
      + rewrite <- (dtrans_invol o a Wa) at 1. rewrite <- (dtrans_dmul o L) by dims.
        rewrite H1. apply (dtrans_did o).
    - now apply inv_lower_spec.
  Qed.

  Lemma tri_inv_some t a r : dr a = r -> dc a = r -> unit_diag a r -> exists X, tri_inv o u t a r = Some X.
  Proof.
    intros Hr Hc H. destruct t; cbn [tri_inv].
    - destruct (inv_lower_some (dtrans o a) r) as [Y ->]; [|cbn [obind]; eauto].
      intros k Hk. rewrite (dget_dtrans o) by lia. now apply H.
    - now apply inv_lower_some.
  Qed.
End Tri.
