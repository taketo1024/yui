(* C15, K[x] as a Euclidean domain: the normal-form coefficient lists over a field form a subset type NP
   whose dictionary [NPD] (the operations of [poly_dict] restricted to NP) satisfies [euc_dict_laws]
   (potential 2^length - 1); the generic
   theorems of C15Gcd.v are transported back to the model's functions on plain lists along the
   projection NP -> list K ([dict_morph]: the generic code commutes with a homomorphism of dictionaries). *)
From Coq Require Import ZArith Lia Bool Ring Arith List Setoid Eqdep_dec.
Require Import Yui.Base.Ring Yui.Model.Euclid Yui.Model.EuclidPoly.
Require Import Yui.Proofs.C15Gcd Yui.Proofs.C15Field Yui.Proofs.C15Main Yui.Proofs.C15Poly.
Import ListNotations.

(* the generic code commutes with dictionary homomorphisms *)
Section Morph.
  Context {R' R : Type} (D' : euc_dict R') (D : euc_dict R) (phi : R' -> R).
  Record dict_morph : Prop := mk_dict_morph {
    m_zero : phi (rzero (d_ring D')) = rzero (d_ring D);
    m_one : phi (rone (d_ring D')) = rone (d_ring D);
    m_add : forall a b, phi (radd (d_ring D') a b) = radd (d_ring D) (phi a) (phi b);
    m_neg : forall a, phi (rneg (d_ring D') a) = rneg (d_ring D) (phi a);
    m_mul : forall a b, phi (rmul (d_ring D') a b) = rmul (d_ring D) (phi a) (phi b);
    m_eqb : forall a b, reqb (d_ring D') a b = reqb (d_ring D) (phi a) (phi b);
    m_div : forall a b, d_div D (phi a) (phi b) = option_map phi (d_div D' a b);
    m_rem : forall a b, d_rem D (phi a) (phi b) = option_map phi (d_rem D' a b);
    m_nunit : forall a, phi (d_nunit D' a) = d_nunit D (phi a);
  }.
  Context (M : dict_morph).

  Lemma m_sub a b : phi (rsub (d_ring D') a b) = rsub (d_ring D) (phi a) (phi b).
  Proof. unfold rsub. now rewrite (m_add M), (m_neg M). Qed.
  Lemma m_is_zero a : is_zero D (phi a) = is_zero D' a.
  Proof. unfold is_zero. now rewrite (m_eqb M), (m_zero M). Qed.
  Lemma m_is_one a : is_one D (phi a) = is_one D' a.
  Proof. unfold is_one. now rewrite (m_eqb M), (m_one M). Qed.
  Lemma m_normalized a : normalized D (phi a) = phi (normalized D' a).
  Proof.
    unfold normalized. rewrite <- (m_nunit M), m_is_one. destruct (is_one D' (d_nunit D' a)); [reflexivity|].
    now rewrite (m_mul M).
  Qed.
  Lemma m_divides x y : divides D (phi x) (phi y) = divides D' x y.
  Proof.
    unfold divides. rewrite m_is_zero. destruct (is_zero D' x); [reflexivity|].
    rewrite (m_rem M). destruct (d_rem D' y x) as [r|]; [|reflexivity]. cbn. now rewrite m_is_zero.
  Qed.
  Lemma m_gcd_loop : forall fuel x y,
    gcd_loop D fuel (phi x) (phi y) = option_map phi (gcd_loop D' fuel x y).
  Proof.
    induction fuel as [|f IH]; intros x y; [reflexivity|]. cbn [gcd_loop]. rewrite m_is_zero.
    destruct (is_zero D' y); [reflexivity|]. rewrite (m_rem M).
    destruct (d_rem D' x y) as [r|]; [|reflexivity]. cbn [option_map obind]. apply IH.
  Qed.
  Lemma m_gcd fuel x y : gcd D fuel (phi x) (phi y) = option_map phi (gcd D' fuel x y).
  Proof.
    unfold gcd. rewrite !m_is_zero, !m_divides, m_gcd_loop, !m_normalized.
    destruct (is_zero D' x && is_zero D' y); [cbn; now rewrite (m_zero M)|].
    destruct (divides D' x y) as [[|]|]; cbn [obind option_map]; try reflexivity.
    destruct (divides D' y x) as [[|]|]; cbn [obind option_map]; try reflexivity.
    destruct (gcd_loop D' fuel x y) as [d|]; cbn [obind option_map]; [|reflexivity]. now rewrite m_normalized.
  Qed.
  Definition phi3 (r : R' * R' * R') : R * R * R :=
    let '(d, s, t) := r in (phi d, phi s, phi t).
  Lemma m_gcdx_loop : forall fuel x y s0 s1 t0 t1,
    gcdx_loop D fuel (phi x) (phi y) (phi s0) (phi s1) (phi t0) (phi t1)
    = option_map phi3 (gcdx_loop D' fuel x y s0 s1 t0 t1).
  Proof.
    induction fuel as [|f IH]; intros x y s0 s1 t0 t1; [reflexivity|]. cbn [gcdx_loop]. rewrite m_is_zero.
    destruct (is_zero D' y); [reflexivity|]. rewrite (m_div M), (m_rem M).
    destruct (d_div D' x y) as [q|]; [|reflexivity]. destruct (d_rem D' x y) as [r|]; [|reflexivity].
    cbn [option_map obind]. rewrite <- !(m_mul M), <- !m_sub. apply IH.
  Qed.
  Lemma m_gcdx fuel x y : gcdx D fuel (phi x) (phi y) = option_map phi3 (gcdx D' fuel x y).
  Proof.
    unfold gcdx. rewrite !m_is_zero, !m_divides, <- !(m_nunit M), <- !(m_mul M).
    rewrite <- (m_one M), <- (m_zero M), m_gcdx_loop.
    destruct (is_zero D' x && is_zero D' y); [reflexivity|].
    destruct (divides D' x y) as [[|]|]; cbn [obind option_map]; try reflexivity.
    destruct (divides D' y x) as [[|]|]; cbn [obind option_map]; try reflexivity.
    destruct (gcdx_loop D' fuel x y _ _ _ _) as [[[d s] t]|]; cbn [obind option_map phi3]; [|reflexivity].
    rewrite <- (m_nunit M), m_is_one. destruct (is_one D' (d_nunit D' d)); cbn [option_map phi3]; [reflexivity|].
    now rewrite !(m_mul M).
  Qed.
  Lemma m_lcm fuel x y : lcm D fuel (phi x) (phi y) = option_map phi (lcm D' fuel x y).
  Proof.
    unfold lcm. rewrite m_gcd. destruct (gcd D' fuel x y) as [g|]; cbn [obind option_map]; [|reflexivity].
    rewrite (m_div M). destruct (d_div D' y g) as [q|]; cbn [obind option_map]; [|reflexivity].
    now rewrite <- (m_mul M), m_normalized.
  Qed.
End Morph.

Section PolyUnits.
  Context {K : Type} (o : ring_ops K) (inv : K -> option K) (FL : field_laws o inv).
  Notation F := (field_dict o inv).
  Let L : ring_laws (d_ring F) := fl_ring o inv FL.
  Add Ring PUring : (ring_theory_of_laws o (fl_ring o inv FL)).
  Notation zero := (rzero o).
  Notation one := (rone o).
  Notation mul := (rmul o).
  Notation nf := (fun f : list K => p_norm F f = f).

  Lemma kz_false c : c <> zero -> kzero F c = false.
  Proof. intros N. destruct (kz_reflect F L c) as [Z|_]; [contradiction|reflexivity]. Qed.
  Lemma const_normal c : c <> zero -> p_norm F [c] = [c].
  Proof. intros N. cbn [p_norm]. now rewrite (kz_false c N). Qed.
  Lemma one_normal : p_norm F (p_one F) = p_one F.
  Proof. apply const_normal. exact (fl_nontrivial o inv FL). Qed.
  Lemma normal_const_nonzero c : p_norm F [c] = [c] -> c <> zero.
  Proof. intros H Z. cbn [p_norm] in H. destruct (kz_reflect F L c) as [_|N]; [discriminate|contradiction]. Qed.

  Lemma last_mul_nonzero (f g : list K) : nf f -> nf g -> f <> [] -> g <> [] -> mul (last f zero) (last g zero) <> zero.
  Proof.
    intros Nf Ng Ef Eg. apply (f_mul_nonzero o inv FL); [apply (normal_last F L f Nf Ef)|apply (normal_last F L g Ng Eg)].
  Qed.
  Lemma mul_nonzero (f g : list K) : nf f -> nf g -> f <> [] -> g <> [] ->
    p_mul F f g <> [] /\ length f <= length (p_mul F f g) /\ length g <= length (p_mul F f g) /\
    length (p_mul F f g) = S (pred (length f) + pred (length g)) /\
    last (p_mul F f g) zero = mul (last f zero) (last g zero).
  Proof.
    intros Nf Ng Ef Eg. destruct (mul_lead F L f g (last_mul_nonzero f g Nf Ng Ef Eg)) as [Len La].
    split; [intros E; rewrite E in Len; discriminate|]. destruct f; [contradiction|]. destruct g; [contradiction|].
    cbn [length pred] in *. repeat split; try lia. exact La.
  Qed.

  (* the normalising unit: the constant polynomial inverse-of-the-leading-coefficient (1 for f = 0) *)
  Lemma nunit_form (f : list K) : exists u, u <> zero /\ p_nunit F f = [u] /\ u = field_nunit o inv (last f zero).
  Proof.
    exists (field_nunit o inv (last f zero)).
    assert (N : field_nunit o inv (last f zero) <> zero).
    { pose proof (rnunit_unit _ _ (field_unit_laws o inv FL) (last f zero)) as U. cbn in U. unfold f_is_unit in U.
      destruct (f_zero_reflect o inv FL (field_nunit o inv (last f zero))) as [|N]; [discriminate|exact N]. }
    split; [exact N|]. split; [|reflexivity]. unfold p_nunit, p_lead_coeff. cbn [d_nunit field_dict d_ring].
    apply const_normal. exact N.
  Qed.

  Lemma is_unit_form (f : list K) : nf f -> (p_is_unit F f = true <-> exists a, f = [a]).
  Proof.
    intros Nf. destruct f as [|a [|b f]]; cbn [p_is_unit].
    - split; [discriminate|intros [a E]; discriminate].
    - split; [eauto|]. intros _. cbn [d_is_unit field_dict]. unfold f_is_unit.
      destruct (f_zero_reflect o inv FL a) as [Z|_]; [|reflexivity]. exfalso. exact (normal_const_nonzero a Nf Z).
    - split; [discriminate|intros [c E]; discriminate].
  Qed.

  Lemma inv_form (f g : list K) : p_inv F f = Some g -> exists a i, f = [a] /\ g = [i] /\ inv a = Some i /\ mul a i = one /\ i <> zero.
  Proof.
    destruct f as [|a [|b f]]; cbn [p_inv]; try discriminate. cbn [d_inv field_dict].
    destruct (inv a) as [i|] eqn:Ei; [|discriminate]. cbn [obind]. intros [= <-].
    destruct (f_inv_some o inv FL a i Ei) as [Na H]. exists a, i. repeat split; try assumption.
    intros Z. apply (fl_nontrivial o inv FL). rewrite <- H, Z. ring.
  Qed.
  Lemma inv_normal (f g : list K) : p_inv F f = Some g -> p_norm F g = g.
  Proof. intros H. destruct (inv_form f g H) as (a & i & _ & -> & _ & _ & Ni). now apply const_normal. Qed.

  Lemma mul_consts a b : p_mul F [a] [b] = p_norm F [mul a b].
  Proof.
    apply (norm_peq F L). intros n. rewrite (coef_mul_raw F L), (conv_cons F L). destruct n as [|m].
    - cbn. ring.
    - rewrite (conv_nil_l F L). rewrite !(coef_cons_S F), !(coef_nil F). cbn [d_ring field_dict]. ring.
  Qed.
  Lemma inv_mul (f g : list K) : p_inv F f = Some g -> p_mul F f g = p_one F.
  Proof.
    intros H. destruct (inv_form f g H) as (a & i & -> & -> & _ & E & _). rewrite mul_consts, E. apply one_normal.
  Qed.
  Lemma inv_iff_unit (f : list K) : nf f -> (p_is_unit F f = true <-> exists g, p_inv F f = Some g).
  Proof.
    intros Nf. rewrite (is_unit_form f Nf). split.
    - intros [a ->]. pose proof (normal_const_nonzero a Nf) as Na.
      destruct (fl_inv o inv FL a Na) as (i & Ei & _). exists [i]. cbn [p_inv d_inv field_dict]. rewrite Ei. reflexivity.
    - intros [g H]. destruct (inv_form f g H) as (a & _ & -> & _). eauto.
  Qed.
  Lemma unit_complete (f g : list K) : nf f -> nf g -> p_mul F f g = p_one F -> p_is_unit F f = true.
  Proof.
    intros Nf Ng E. apply (is_unit_form f Nf).
    assert (Ef : f <> []) by (intros ->; discriminate E).
    assert (Eg : g <> []) by (intros ->; rewrite (mul_nil_r F L) in E; discriminate E).
    destruct (mul_nonzero f g Nf Ng Ef Eg) as (_ & _ & _ & Len & _). rewrite E in Len. cbn in Len.
    destruct f as [|a [|b f]]; [contradiction|eauto|cbn in Len; lia].
  Qed.
  Lemma nunit_is_unit (f : list K) : p_is_unit F (p_nunit F f) = true.
  Proof.
    destruct (nunit_form f) as (u & Nu & -> & _). cbn [p_is_unit d_is_unit field_dict]. unfold f_is_unit.
    destruct (f_zero_reflect o inv FL u) as [|_]; [contradiction|reflexivity].
  Qed.
  Lemma nunit_monic (f : list K) : last f zero = one -> p_nunit F f = p_one F.
  Proof.
    intros E. unfold p_nunit, p_lead_coeff. cbn [d_nunit field_dict d_ring]. rewrite E. unfold field_nunit.
    destruct (f_zero_reflect o inv FL one) as [Z|_]; [exfalso; exact (fl_nontrivial o inv FL Z)|].
    rewrite (f_inv_one o inv FL). apply one_normal.
  Qed.
  Lemma nunit_one : p_nunit F (p_one F) = p_one F.
  Proof. now apply nunit_monic. Qed.
  Lemma nunit_nil : p_nunit F [] = p_one F.
  Proof.
    unfold p_nunit, p_lead_coeff. cbn [last d_nunit field_dict d_ring]. rewrite (field_nunit_zero o inv FL). apply one_normal.
  Qed.

  (* the monic polynomials and 0 are the normal forms of associates *)
  Definition monic0 (f : list K) : Prop := f = [] \/ last f zero = one.

  Lemma mul_nunit_monic (f : list K) : nf f -> monic0 (p_mul F f (p_nunit F f)).
  Proof.
    intros Nf. destruct f as [|a f'] eqn:E; [left; reflexivity|right]. rewrite <- E in *.
    assert (Ef : f <> []) by (rewrite E; discriminate). clear E a f'.
    destruct (nunit_form f) as (u & Nu & Eu & Hu). rewrite Eu.
    destruct (mul_nonzero f [u] Nf (const_normal u Nu) Ef ltac:(discriminate)) as (_ & _ & _ & _ & La).
    rewrite La. cbn [last]. rewrite Hu.
    destruct (field_nunit_nonzero o inv FL (last f zero) (normal_last F L f Nf Ef)) as (w & _ & -> & H). exact H.
  Qed.
  Lemma monic_nunit (f : list K) : monic0 f -> p_nunit F f = p_one F.
  Proof. intros [->|E]; [apply nunit_nil|now apply nunit_monic]. Qed.
  Lemma monic_unique (f v : list K) : nf f -> nf v -> p_is_unit F v = true ->
    monic0 f -> monic0 (p_mul F f v) -> p_mul F f v = f.
  Proof.
    intros Nf Nv Uv Mf Mfv. apply (is_unit_form v Nv) in Uv. destruct Uv as [c ->].
    destruct Mf as [->|Mf]; [reflexivity|].
    assert (Ef : f <> []). { intros ->. apply (fl_nontrivial o inv FL). symmetry. exact Mf. }
    destruct (mul_nonzero f [c] Nf Nv Ef ltac:(discriminate)) as (NEm & _ & _ & _ & La). cbn [last] in La.
    destruct Mfv as [E|E]; [contradiction|].
    (* the leading coefficient 1 * c of f * [c] is 1 *)
    rewrite La, Mf in E. assert (Ec : c = one) by (rewrite <- E; cbn [d_ring field_dict]; ring). subst c.
    rewrite (poly_mul_comm F L). apply (poly_mul_1_l F L). exact Nf.
  Qed.
End PolyUnits.

(* the subset type of normal forms and its dictionary *)
Section PolySigma.
  Context {K : Type} (o : ring_ops K) (inv : K -> option K) (FL : field_laws o inv).
  Notation F := (field_dict o inv).
  Notation P := (poly_dict (field_dict o inv)).
  Let L : ring_laws (d_ring F) := fl_ring o inv FL.
  Local Open Scope Z_scope.

  Definition nfb (f : list K) : bool := p_eqb F (p_norm F f) f.
  Lemma nfb_spec f : nfb f = true <-> p_norm F f = f.
  Proof. apply (poly_eqb_eq F L). Qed.
  Definition NP : Type := { f : list K | nfb f = true }.
  Definition val (a : NP) : list K := proj1_sig a.
  Definition mk (f : list K) (H : p_norm F f = f) : NP := exist _ f (proj2 (nfb_spec f) H).
  Lemma val_mk f H : val (mk f H) = f.
  Proof. reflexivity. Qed.
  Lemma val_normal (a : NP) : p_norm F (val a) = val a.
  Proof. apply nfb_spec. exact (proj2_sig a). Qed.
  Lemma val_inj (a b : NP) : val a = val b -> a = b.
  Proof.
    destruct a as [f p], b as [g q]. cbn. intros E. subst g. f_equal. apply UIP_dec. apply bool_dec.
  Qed.

  Definition lift (x : option (list K)) : (forall q, x = Some q -> p_norm F q = q) -> option NP :=
    match x as x' return (forall q, x' = Some q -> p_norm F q = q) -> option NP with
    | Some q => fun H => Some (mk q (H q eq_refl))
    | None => fun _ => None
    end.
  Lemma lift_spec x H : option_map val (lift x H) = x.
  Proof. destruct x; reflexivity. Qed.
  Lemma lift_some x H q : x = Some q -> exists a, lift x H = Some a /\ val a = q.
  Proof. intros E. subst x. eexists. split; [reflexivity|reflexivity]. Qed.
  Lemma lift_none x H : x = None -> lift x H = None.
  Proof. intros E. subst x. reflexivity. Qed.
  Lemma lift_inv x H a : lift x H = Some a -> x = Some (val a).
  Proof. intros E. rewrite <- (lift_spec x H), E. reflexivity. Qed.

  Lemma div_normal (f g : list K) : p_norm F f = f -> p_norm F g = g ->
    (forall q, d_div P f g = Some q -> p_norm F q = q) /\ (forall r, d_rem P f g = Some r -> p_norm F r = r).
  Proof.
    intros Nf Ng. destruct (poly_division_main o inv FL f g Nf Ng) as [H1 H0].
    destruct g as [|b g'] eqn:Eg.
    - destruct (H0 eq_refl) as [-> ->]. split; intros ? [=].
    - destruct (H1 ltac:(discriminate)) as (q & r & -> & -> & _ & Nq & Nr & _). split; intros ? [= <-]; assumption.
  Qed.

  Definition np_zero : NP := mk [] eq_refl.
  Definition np_one : NP := mk (p_one F) (one_normal o inv FL).
  Definition np_add (a b : NP) : NP := mk (p_add F (val a) (val b)) (norm_idem F L _).
  Definition np_neg (a : NP) : NP := mk (p_neg F (val a)) (normal_neg F L _ (val_normal a)).
  Definition np_mul (a b : NP) : NP := mk (p_mul F (val a) (val b)) (norm_idem F L _).
  Definition np_eqb (a b : NP) : bool := p_eqb F (val a) (val b).
  Definition np_div (a b : NP) : option NP :=
    lift (d_div P (val a) (val b)) (proj1 (div_normal _ _ (val_normal a) (val_normal b))).
  Definition np_rem (a b : NP) : option NP :=
    lift (d_rem P (val a) (val b)) (proj2 (div_normal _ _ (val_normal a) (val_normal b))).
  Definition np_is_unit (a : NP) : bool := p_is_unit F (val a).
  Definition np_inv (a : NP) : option NP := lift (p_inv F (val a)) (inv_normal o inv FL (val a)).
  Definition np_nunit (a : NP) : NP := mk (p_nunit F (val a)) (norm_idem F L _).
  Definition np_ring : ring_ops NP := mk_ring_ops NP np_zero np_one np_add np_neg np_mul np_eqb.
  Definition NPD : euc_dict NP := mk_euc_dict NP np_ring np_div np_rem np_is_unit np_inv np_nunit.

  Lemma np_morph : dict_morph NPD P val.
  Proof.
    constructor; try reflexivity.
    - intros a b. cbn [d_div NPD]. unfold np_div. now rewrite lift_spec.
    - intros a b. cbn [d_rem NPD]. unfold np_rem. now rewrite lift_spec.
  Qed.

  Definition np_phi (a : NP) : Z := 2 ^ Z.of_nat (length (val a)) - 1.

  Lemma np_ring_laws : ring_laws np_ring.
  Proof.
    constructor; cbn [radd rneg rmul rzero rone reqb np_ring]; intros.
    - apply val_inj. apply (poly_add_comm F L).
    - apply val_inj. apply (poly_add_assoc F L).
    - apply val_inj. apply (poly_add_0_l F). apply val_normal.
    - apply val_inj. apply (poly_add_neg F L).
    - apply val_inj. apply (poly_mul_comm F L).
    - apply val_inj. apply (poly_mul_assoc F L).
    - apply val_inj. apply (poly_mul_1_l F L). apply val_normal.
    - apply val_inj. apply (poly_distr_l F L).
    - unfold np_eqb. rewrite (poly_eqb_eq F L). split; [apply val_inj|intros ->; reflexivity].
  Qed.

  Lemma np_nonzero (a : NP) : a <> np_zero -> val a <> [].
  Proof. intros N E. apply N. apply val_inj. exact E. Qed.

  Lemma np_integral : integral np_ring.
  Proof.
    split; cbn [rone rzero rmul np_ring].
    - intros E. apply (f_equal val) in E. discriminate E.
    - intros a b E. apply (f_equal val) in E. cbn in E.
      destruct (val a) as [|x f] eqn:Ea; [left; apply val_inj; exact Ea|].
      destruct (val b) as [|y g] eqn:Eb; [right; apply val_inj; exact Eb|]. exfalso.
      rewrite <- Ea, <- Eb in E.
      destruct (mul_nonzero o inv FL (val a) (val b) (val_normal a) (val_normal b)) as [NE _];
        [rewrite Ea; discriminate|rewrite Eb; discriminate|]. exact (NE E).
  Qed.

  Lemma np_unit_laws : unit_laws np_ring (dict_units NPD).
  Proof.
    apply (unit_laws_of_normal_forms _ np_ring_laws _ (fun a => monic0 o (val a)));
      cbn [rinv ris_unit rnunit dict_units d_inv d_is_unit d_nunit NPD rmul rone np_ring].
    - intros a b E. apply lift_inv in E. apply val_inj. cbn. apply (inv_mul o inv FL). exact E.
    - intros a. unfold np_is_unit. rewrite (inv_iff_unit o inv FL (val a) (val_normal a)). split.
      + intros [g E]. destruct (lift_some _ (inv_normal o inv FL (val a)) g E) as (b & Eb & _). exists b. exact Eb.
      + intros [b E]. apply lift_inv in E. eauto.
    - intros a b E. apply (f_equal val) in E. cbn in E.
      exact (unit_complete o inv FL (val a) (val b) (val_normal a) (val_normal b) E).
    - intros a. split; [apply (nunit_is_unit o inv FL)|apply (mul_nunit_monic o inv FL), val_normal].
    - intros a Ma. apply val_inj. exact (monic_nunit o inv FL (val a) Ma).
    - intros a v Uv Ma Mav. apply val_inj.
      exact (monic_unique o inv FL (val a) (val v) (val_normal a) (val_normal v) Uv Ma Mav).
  Qed.

  Lemma pow2_pos n : 0 < 2 ^ Z.of_nat n.
  Proof. apply Z.pow_pos_nonneg; lia. Qed.

  Theorem np_laws : euc_dict_laws NPD np_phi.
  Proof.
    constructor.
    - exact np_ring_laws.
    - exact np_integral.
    - exact np_unit_laws.
    - intros a. unfold np_phi. pose proof (pow2_pos (length (val a))). lia.
    - intros a H. unfold np_phi in H. apply val_inj. cbn.
      destruct (val a) as [|x f]; [reflexivity|]. exfalso. cbn [length] in H.
      rewrite Nat2Z.inj_succ, Z.pow_succ_r in H by lia. pose proof (pow2_pos (length f)). lia.
    - intros b c Nb Nc. unfold np_phi. cbn [d_ring NPD rmul np_ring].
      change (val (np_mul c b)) with (p_mul F (val c) (val b)).
      destruct (mul_nonzero o inv FL (val c) (val b) (val_normal c) (val_normal b) (np_nonzero c Nc) (np_nonzero b Nb))
        as (_ & _ & Hl & _).
      assert (2 ^ Z.of_nat (length (val b)) <= 2 ^ Z.of_nat (length (p_mul F (val c) (val b))))
        by (apply Z.pow_le_mono_r; lia). lia.
    - intros a. cbn [d_div d_rem NPD d_ring rzero np_ring]. unfold np_div, np_rem. split; apply lift_none.
      + apply (proj2 (poly_division_main o inv FL (val a) [] (val_normal a) eq_refl) eq_refl).
      + apply (proj2 (poly_division_main o inv FL (val a) [] (val_normal a) eq_refl) eq_refl).
    - intros a b Nb. cbn [d_div d_rem NPD d_ring rzero radd rmul np_ring].
      destruct (proj1 (poly_division_main o inv FL (val a) (val b) (val_normal a) (val_normal b)) (np_nonzero b Nb))
        as (q0 & r0 & E1 & E2 & _ & Nq & Nr & Eq & Hr).
      unfold np_div, np_rem.
      destruct (lift_some _ (proj1 (div_normal _ _ (val_normal a) (val_normal b))) q0 E1) as (q & -> & Vq).
      destruct (lift_some _ (proj2 (div_normal _ _ (val_normal a) (val_normal b))) r0 E2) as (r & -> & Vr).
      exists q, r. split; [reflexivity|]. split; [reflexivity|]. split.
      + apply val_inj. cbn. rewrite Vq, Vr. exact Eq.
      + unfold np_phi. rewrite Vr.
        assert (Hl : (length r0 < length (val b))%nat).
        { destruct Hr as [->|Hr]; [|exact Hr]. pose proof (np_nonzero b Nb). destruct (val b); [contradiction|cbn; lia]. }
        assert (2 ^ Z.of_nat (S (length r0)) <= 2 ^ Z.of_nat (length (val b))) by (apply Z.pow_le_mono_r; lia).
        rewrite Nat2Z.inj_succ, Z.pow_succ_r in H by lia. lia.
  Qed.

  (* the model's fuel is good for the potential *)
  Lemma np_fuel (b : NP) : good_fuel np_phi (p_fuel (val b)) b.
  Proof.
    unfold good_fuel, p_fuel, np_phi. eexists. split; [reflexivity|].
    rewrite Nat2Z.inj_succ, Z.pow_succ_r by lia. pose proof (pow2_pos (length (val b))). lia.
  Qed.
End PolySigma.

(* the theorems about the model's functions on plain coefficient lists *)
Section PolyMain.
  Context {K : Type} (o : ring_ops K) (inv : K -> option K) (FL : field_laws o inv).
  Notation F := (field_dict o inv).
  Notation P := (poly_dict (field_dict o inv)).
  Notation D' := (NPD o inv FL).
  Notation nf := (fun f : list K => p_norm F f = f).
  Let L : ring_laws (d_ring F) := fl_ring o inv FL.
  Let M := np_morph o inv FL.
  Let EL := np_laws o inv FL.

  Lemma mul_norm_l (x y : list K) : p_mul F (p_norm F x) y = p_mul F x y.
  Proof.
    apply (norm_peq F L). intros n. rewrite !(coef_mul_raw F L). apply (conv_ext_l F). intros m. apply (coef_norm F L).
  Qed.

  Lemma dvd_to_list (c a : NP o inv) : dvd D' c a -> exists c1, nf c1 /\ val o inv a = p_mul F c1 (val o inv c).
  Proof. intros [c1 E]. exists (val o inv c1). split; [apply (val_normal o inv FL)|]. rewrite E. reflexivity. Qed.
  Lemma dvd_of_list (c a : NP o inv) c1 : val o inv a = p_mul F c1 (val o inv c) -> dvd D' c a.
  Proof.
    intros E. exists (mk o inv FL (p_norm F c1) (norm_idem F L c1)). apply val_inj.
    change (val o inv a = p_mul F (p_norm F c1) (val o inv c)). rewrite mul_norm_l. exact E.
  Qed.

  Lemma tr_gcd fuel f g Nf Ng :
    gcd P fuel f g = option_map (val o inv) (gcd D' fuel (mk o inv FL f Nf) (mk o inv FL g Ng)).
  Proof. exact (m_gcd D' P _ M fuel (mk o inv FL f Nf) (mk o inv FL g Ng)). Qed.
  Lemma tr_gcdx fuel f g Nf Ng :
    gcdx P fuel f g = option_map (phi3 (val o inv)) (gcdx D' fuel (mk o inv FL f Nf) (mk o inv FL g Ng)).
  Proof. exact (m_gcdx D' P _ M fuel (mk o inv FL f Nf) (mk o inv FL g Ng)). Qed.
  Lemma tr_lcm fuel f g Nf Ng :
    lcm P fuel f g = option_map (val o inv) (lcm D' fuel (mk o inv FL f Nf) (mk o inv FL g Ng)).
  Proof. exact (m_lcm D' P _ M fuel (mk o inv FL f Nf) (mk o inv FL g Ng)). Qed.
  Lemma tr_divides f g Nf Ng : divides P f g = divides D' (mk o inv FL f Nf) (mk o inv FL g Ng).
  Proof. exact (m_divides D' P _ M (mk o inv FL f Nf) (mk o inv FL g Ng)). Qed.
  Lemma tr_normalized f Nf : normalized P f = val o inv (normalized D' (mk o inv FL f Nf)).
  Proof. exact (m_normalized D' P _ M (mk o inv FL f Nf)). Qed.

  Theorem poly_gcd_main (f g : list K) : nf f -> nf g ->
    exists d s t,
      p_gcd F f g = Some d /\ p_gcdx F f g = Some (d, s, t) /\
      nf d /\ nf s /\ nf t /\
      (exists c, nf c /\ f = p_mul F c d) /\ (exists c, nf c /\ g = p_mul F c d) /\
      (forall c, nf c -> (exists c1, f = p_mul F c1 c) -> (exists c2, g = p_mul F c2 c) -> exists c', nf c' /\ d = p_mul F c' c) /\
      p_add F (p_mul F s f) (p_mul F t g) = d /\
      p_nunit F d = p_one F /\
      (d = [] <-> f = [] /\ g = []) /\
      p_gcd F g f = Some d.
  Proof.
    intros Nf Ng. set (a := mk o inv FL f Nf). set (b := mk o inv FL g Ng).
    destruct (gcd_main D' (np_phi o inv) EL (p_fuel g) (p_fuel f) a b (np_fuel o inv b) (np_fuel o inv a))
      as (d & s & t & E1 & E2 & G1 & G2 & G3 & B & N & Z & E3).
    exists (val o inv d), (val o inv s), (val o inv t).
    split. { unfold p_gcd. rewrite (tr_gcd _ f g Nf Ng). fold a b. rewrite E1. reflexivity. }
    split. { unfold p_gcdx. rewrite (tr_gcdx _ f g Nf Ng). fold a b. rewrite E2. reflexivity. }
    split; [apply (val_normal o inv FL)|]. split; [apply (val_normal o inv FL)|]. split; [apply (val_normal o inv FL)|].
    split; [exact (dvd_to_list d a G1)|]. split; [exact (dvd_to_list d b G2)|].
    split.
    { intros c Nc [c1 H1] [c2 H2]. set (c' := mk o inv FL c Nc).
      apply (dvd_to_list c' d). apply G3; [exact (dvd_of_list c' a c1 H1)|exact (dvd_of_list c' b c2 H2)]. }
    split; [exact (f_equal (val o inv) B)|].
    split; [exact (f_equal (val o inv) N)|].
    split.
    { split.
      - intros E. destruct (proj1 Z (val_inj o inv d (np_zero o inv FL) E)) as [Ea Eb].
        split; [exact (f_equal (val o inv) Ea)|exact (f_equal (val o inv) Eb)].
      - intros [Ea Eb]. change (val o inv d = val o inv (np_zero o inv FL)). f_equal. apply Z.
        split; apply val_inj; assumption. }
    unfold p_gcd. rewrite (tr_gcd _ g f Ng Nf). fold a b. rewrite E3. reflexivity.
  Qed.

  Theorem poly_lcm_main (f g : list K) : nf f -> nf g ->
    (f = [] /\ g = [] -> p_lcm F f g = None) /\
    (~ (f = [] /\ g = []) ->
       exists m d, p_lcm F f g = Some m /\ p_gcd F f g = Some d /\ nf m /\
         (exists v, nf v /\ p_is_unit F v = true /\ p_mul F m d = p_mul F (p_mul F f g) v) /\
         p_nunit F m = p_one F).
  Proof.
    intros Nf Ng. set (a := mk o inv FL f Nf). set (b := mk o inv FL g Ng).
    pose proof (lcm_zero_zero D' (np_phi o inv) EL (p_fuel g) a b) as H0.
    pose proof (lcm_spec D' (np_phi o inv) EL (p_fuel g) a b (np_fuel o inv b)) as H1.
    unfold p_lcm, p_gcd. rewrite (tr_lcm _ f g Nf Ng), (tr_gcd _ f g Nf Ng). fold a b. split.
    - intros [Ea Eb]. rewrite H0; [reflexivity|]. split; apply val_inj; assumption.
    - intros NZ. destruct H1 as (m & d & -> & -> & (v & Uv & Ev) & Nm).
      { intros [Ea Eb]. apply NZ. split; [exact (f_equal (val o inv) Ea)|exact (f_equal (val o inv) Eb)]. }
      exists (val o inv m), (val o inv d). split; [reflexivity|]. split; [reflexivity|]. split; [apply (val_normal o inv FL)|].
      split; [|exact (f_equal (val o inv) Nm)].
      exists (val o inv v). split; [apply (val_normal o inv FL)|]. split; [exact Uv|]. exact (f_equal (val o inv) Ev).
  Qed.

  Theorem poly_units_main :
    (forall f, nf f -> (p_is_unit F f = true <-> exists g, p_inv F f = Some g)) /\
    (forall f g, p_inv F f = Some g -> nf g /\ p_mul F f g = p_one F) /\
    (forall f g, nf f -> nf g -> p_mul F f g = p_one F -> p_is_unit F f = true) /\
    (forall f, p_is_unit F (p_nunit F f) = true /\ nf (p_nunit F f)) /\
    (forall f, nf f -> normalized P f = p_mul F f (p_nunit F f)) /\
    (forall f, nf f -> p_nunit F (normalized P f) = p_one F) /\
    (forall f, nf f -> normalized P (normalized P f) = normalized P f) /\
    (forall f v, nf f -> nf v -> p_is_unit F v = true -> normalized P (p_mul F f v) = normalized P f).
  Proof.
    split; [apply (inv_iff_unit o inv FL)|].
    split; [intros f g H; split; [exact (inv_normal o inv FL f g H)|exact (inv_mul o inv FL f g H)]|].
    split; [apply (unit_complete o inv FL)|].
    split; [intros f; split; [apply (nunit_is_unit o inv FL)|apply (norm_idem F L)]|].
    split.
    { intros f Nf. rewrite (tr_normalized f Nf), (normalized_eq D' (np_phi o inv) EL (mk o inv FL f Nf)). reflexivity. }
    split.
    { intros f Nf. rewrite (tr_normalized f Nf). exact (f_equal (val o inv) (nunit_normalized D' (np_phi o inv) EL (mk o inv FL f Nf))). }
    split.
    { intros f Nf. rewrite (tr_normalized f Nf). rewrite (m_normalized D' P _ M), (normalized_idem D' (np_phi o inv) EL (mk o inv FL f Nf)). reflexivity. }
    intros f v Nf Nv Uv. set (a := mk o inv FL f Nf). set (b := mk o inv FL v Nv).
    rewrite (tr_normalized f Nf). fold a.
    change (p_mul F f v) with (val o inv (rmul (d_ring D') a b)).
    rewrite (m_normalized D' P _ M), (normalized_assoc D' (np_phi o inv) EL a b Uv). reflexivity.
  Qed.

  Theorem poly_divides_main (f g : list K) : nf f -> nf g ->
    exists b, divides P f g = Some b /\ (b = true <-> f <> [] /\ exists c, nf c /\ g = p_mul F c f).
  Proof.
    intros Nf Ng. set (a := mk o inv FL f Nf). set (b := mk o inv FL g Ng).
    destruct (divides_spec D' (np_phi o inv) EL a b) as (r & E & H). exists r.
    split. { rewrite (tr_divides f g Nf Ng). exact E. }
    rewrite H. split.
    - intros [Na Dv]. split; [intros Ef; apply Na; apply val_inj; exact Ef|]. exact (dvd_to_list a b Dv).
    - intros [Na [c [_ Ec]]]. split; [intros Ea; apply Na; exact (f_equal (val o inv) Ea)|]. exact (dvd_of_list a b c Ec).
  Qed.
End PolyMain.
