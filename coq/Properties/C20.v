(* C20 - The ykh command reports the library's result for every option combination.
   Each theorem is proved by [exact <lemma>] and is followed by Print Assumptions; the Examples at the end
   instantiate the hypotheses on concrete values (non-vacuity).

   Models: Model/Cli.v (clap value of -t, poly_vars, the dispatch macros, the FromStr implementations
   behind parse_pair, the ensure! guards, the bigraded / sequence choice, exit status) and
   Model/Table.v (rmod_str, display_table / display_seq, the prettytable FORMAT_CLEAN layout,
   trim / trim_end, println!) together with a reader of the printed text.
   Strings are lists of code points.  The link loader and the library computation are parameters of
   [run] ([link_status], [oracle]; the oracle's None = the library call panics). *)
From Coq Require Import ZArith NArith List Bool Arith Sorted.
Require Import Yui.Model.Table Yui.Model.Cli.
Require Import Yui.Proofs.C20Str Yui.Proofs.C20Layout Yui.Proofs.C20Table Yui.Proofs.C20Rmod
               Yui.Proofs.C20Print Yui.Proofs.C20Cli Yui.Proofs.C20Final Yui.Proofs.C20Pair.
Import ListNotations.

(* -t: exactly the six verbatim names are accepted (anything else is clap's usage error, exit 2) *)
Theorem C20_ctype_names : forall s ty, parse_ctype s = Some ty <-> s = ctype_name ty.
Proof. exact parse_ctype_spec. Qed.
Print Assumptions C20_ctype_names.

(* the comma separated pieces of the -c string (what poly_vars looks at) *)
Theorem C20_split_comma : forall c,
  join [44%N] (split_on 44 c) = c /\ (forall t, In t (split_on 44 c) -> ~ In 44%N t).
Proof. exact split_comma_spec. Qed.
Print Assumptions C20_split_comma.

Theorem C20_poly_vars : forall c,
  poly_vars c = match existsb (str_eqb s_H) (split_on 44 c), existsb (str_eqb s_T) (split_on 44 c) with
                | true, true => PV_HT | true, false => PV_H | false, true => PV_T | false, false => PV_None
                end
  /\ (existsb (str_eqb s_H) (split_on 44 c) = true <-> In s_H (split_on 44 c))
  /\ (existsb (str_eqb s_T) (split_on 44 c) = true <-> In s_T (split_on 44 c)).
Proof. exact poly_vars_spec. Qed.
Print Assumptions C20_poly_vars.

(* the macro cascade try_ring / try_eucring / try_std / try_qint / try_euc_poly / try_noneuc_poly selects a
   ring exactly on the set [supported] (written independently: scalars always; one polynomial variable
   unless kh over Z; two variables only for ckh; Gauss / Eisen never), and then it is the ring
   base(-t)[variables of -c]; otherwise the result is an error *)
Theorem C20_dispatch_total : forall cmd ty c,
  dispatch cmd ty c = if supported cmd ty (poly_vars c)
                      then TRun (Ring (base_of ty) (poly_vars c))
                      else TErr (unsupported_error ty (poly_vars c)).
Proof. exact dispatch_spec. Qed.
Print Assumptions C20_dispatch_total.

(* the decision for every (command, -t, -c string, -r) *)
Theorem C20_decide_spec : forall cmd ty c reduced,
  decide cmd ty c reduced =
    if negb (supported cmd ty (poly_vars c)) then DError (unsupported_error ty (poly_vars c))
    else match parse_pair (Ring (base_of ty) (poly_vars c)) c with
         | PErr => DError EParse
         | PPanic => DError EPanic
         | POk (h, t) =>
             if reduced && negb (is_zero t) then DError EGuardReduced
             else DCompute (mk_params (Ring (base_of ty) (poly_vars c)) h t reduced
                    match cmd with
                    | Ckh => DGrid
                    | Kh => if (is_zero h && is_zero t) || str_eqb c s_H || str_eqb c s_0T then DBigraded else DSeq
                    end)
         end.
Proof. exact decide_spec. Qed.
Print Assumptions C20_decide_spec.

(* -c <integer>, for ALL integers z (printed in decimal): scalar ring, h = z (mod p over F_p), t = 0,
   bigraded table iff h = 0; outside the machine range (i64 for Z and Q, i32 for F_p): parse error *)
Theorem C20_decide_integer : forall cmd ty z reduced, is_scalar ty = true ->
  decide cmd ty (str_of_Z z) reduced =
    if (int_lo ty <=? z)%Z && (z <=? int_hi ty)%Z
    then DCompute (mk_params (Ring (base_of ty) PV_None) (VInt (reduce ty z)) (VInt 0) reduced
           match cmd with
           | Ckh => DGrid
           | Kh => if (reduce ty z =? 0)%Z then DBigraded else DSeq
           end)
    else DError EParse.
Proof. exact decide_integer. Qed.
Print Assumptions C20_decide_integer.

(* -c <a>,<b>, for ALL pairs of integers (pair_str a b = the decimal a, a comma, the decimal b): scalar ring,
   h = a and t = b (mod p over F_p); -r with t <> 0 in the ring is the guard error; `kh` prints the bigraded
   table iff BOTH constants vanish in the ring (kh.rs: h.is_zero() && t.is_zero()), otherwise the sequence:
   Lee-type theories `-c 0,1`, `-c 0,2`, `-t F2 -c 2,1` are sequences, `-t F2 -c 0,2` is bigraded *)
Theorem C20_decide_int_pair : forall cmd ty a b reduced, is_scalar ty = true ->
  decide cmd ty (pair_str a b) reduced =
    if in_range ty a && in_range ty b
    then if reduced && negb (reduce ty b =? 0)%Z then DError EGuardReduced
         else DCompute (mk_params (Ring (base_of ty) PV_None) (VInt (reduce ty a)) (VInt (reduce ty b)) reduced
                match cmd with
                | Ckh => DGrid
                | Kh => if (reduce ty a =? 0)%Z && (reduce ty b =? 0)%Z then DBigraded else DSeq
                end)
    else DError EParse.
Proof. exact decide_int_pair. Qed.
Print Assumptions C20_decide_int_pair.

Theorem C20_kh_int_pair_bigraded_iff : forall ty a b reduced p, is_scalar ty = true ->
  decide Kh ty (pair_str a b) reduced = DCompute p ->
  (p_display p = DBigraded <-> reduce ty a = 0%Z /\ reduce ty b = 0%Z) /\
  (p_display p = DSeq <-> ~ (reduce ty a = 0%Z /\ reduce ty b = 0%Z)).
Proof. exact kh_int_pair_bigraded_iff. Qed.
Print Assumptions C20_kh_int_pair_bigraded_iff.

Theorem C20_int_print_parse : forall z, parse_Z_dec (str_of_Z z) = Some z.
Proof. exact parse_Z_dec_str_of_Z. Qed.
Print Assumptions C20_int_print_parse.

(* the listed symbolic values -c H, -c 0,T, -c H,T for every command, -t and -r *)
Theorem C20_decide_H : forall cmd ty reduced,
  decide cmd ty s_H reduced =
    if supported cmd ty PV_H
    then DCompute (mk_params (Ring (base_of ty) PV_H) (VMono 1 0) (VInt 0) reduced
                             match cmd with Kh => DBigraded | Ckh => DGrid end)
    else DError EUnsupported.
Proof. exact decide_H. Qed.
Print Assumptions C20_decide_H.

Theorem C20_decide_0T : forall cmd ty reduced,
  decide cmd ty s_0T reduced =
    if supported cmd ty PV_T
    then if reduced then DError EGuardReduced
         else DCompute (mk_params (Ring (base_of ty) PV_T) (VInt 0) (VMono 0 1) false
                                  match cmd with Kh => DBigraded | Ckh => DGrid end)
    else DError EUnsupported.
Proof. exact decide_0T. Qed.
Print Assumptions C20_decide_0T.

Theorem C20_decide_HT : forall cmd ty reduced,
  decide cmd ty s_HT reduced =
    if supported cmd ty PV_HT
    then if reduced then DError EGuardReduced
         else DCompute (mk_params (Ring (base_of ty) PV_HT) (VMono 1 0) (VMono 0 1) false DGrid)
    else DError EUnsupported.
Proof. exact decide_HT. Qed.
Print Assumptions C20_decide_HT.

Theorem C20_decide_error_iff : forall cmd ty c reduced e,
  decide cmd ty c reduced = DError e <->
    (supported cmd ty (poly_vars c) = false /\ e = unsupported_error ty (poly_vars c)) \/
    (supported cmd ty (poly_vars c) = true /\
       match parse_pair (Ring (base_of ty) (poly_vars c)) c with
       | PErr => e = EParse
       | PPanic => e = EPanic
       | POk (h, t) => reduced = true /\ is_zero t = false /\ e = EGuardReduced
       end).
Proof. exact decide_error_iff. Qed.
Print Assumptions C20_decide_error_iff.

Theorem C20_run_spec : forall cmd t_arg c_arg mirror reduced link lib,
  run cmd t_arg c_arg mirror reduced link lib =
    match ctype_of_arg t_arg with
    | None => OError EClap
    | Some ty =>
        match decide cmd ty (cvalue_of_arg c_arg) reduced with
        | DError e => OError e
        | DCompute p =>
            match link with
            | LInvalid => OError ELink
            | LOk => match rendered p mirror lib with Some out => OTable out | None => OError EPanic end
            end
        end
    end.
Proof. exact run_spec. Qed.
Print Assumptions C20_run_spec.

(* a rejected -t, an unsupported combination, an unparsable or panicking -c, the reduced guard, an invalid
   link, a panic of the library: an error result with non-zero exit status *)
Theorem C20_error_not_table : forall cmd t_arg c_arg mirror reduced link lib,
  (ctype_of_arg t_arg = None \/
   (exists ty, ctype_of_arg t_arg = Some ty /\
      ((exists e, decide cmd ty (cvalue_of_arg c_arg) reduced = DError e) \/
       link = LInvalid \/
       (exists p, decide cmd ty (cvalue_of_arg c_arg) reduced = DCompute p /\ rendered p mirror lib = None)))) ->
  exists e, run cmd t_arg c_arg mirror reduced link lib = OError e /\ exit_code (OError e) <> 0%N.
Proof. exact run_error. Qed.
Print Assumptions C20_error_not_table.

(* conversely a table is printed only when every stage succeeded *)
Theorem C20_table_only_on_success : forall cmd t_arg c_arg mirror reduced link lib out,
  run cmd t_arg c_arg mirror reduced link lib = OTable out ->
  exists ty p, ctype_of_arg t_arg = Some ty /\
               decide cmd ty (cvalue_of_arg c_arg) reduced = DCompute p /\
               link = LOk /\ rendered p mirror lib = Some out.
Proof. exact run_table_inv. Qed.
Print Assumptions C20_table_only_on_success.

(* the FORMAT_CLEAN layout loses nothing: for every table whose title cells are non-empty and free of spaces
   and line breaks and whose other cells have no line break and no trailing space *)
Theorem C20_layout_roundtrip : forall t, wf_table t -> parse_layout (layout t) = Some t.
Proof. exact parse_layout_layout. Qed.
Print Assumptions C20_layout_roundtrip.

(* columns = the distinct i, ascending; rows = the distinct j, descending; the cell in row j, column i is
   the printed group at (i, j), or "." when there is none or it prints as "0" *)
Theorem C20_table_shape : forall sym g,
  Sorted Z.lt (cols_of g) /\ Sorted Z.lt (rev (rows_of g)) /\
  (forall i, In i (cols_of g) <-> exists j m, In ((i, j), m) g) /\
  (forall j, In j (rows_of g) <-> exists i m, In ((i, j), m) g) /\
  display_table sym s_i s_j g =
    (title_ij :: map str_of_Z (cols_of g)) ::
    map (fun j => str_of_Z j ::
                  map (fun i => match lookup2 g i j with
                                | Some m => if str_eqb (rmod_str sym m) [48%N] then dot else rmod_str sym m
                                | None => dot
                                end) (cols_of g))
        (rows_of g).
Proof. exact display_table_shape. Qed.
Print Assumptions C20_table_shape.

(* "0" is printed exactly for the zero module *)
Theorem C20_rmod_zero : forall symbol m, symbol <> [] -> symbol <> [48%N] ->
  (rmod_str symbol m = [48%N] <-> s_rank m = 0%N /\ s_tors m = []).
Proof. exact rmod_str_zero. Qed.
Print Assumptions C20_rmod_zero.

Theorem C20_ring_symbols_printable : forall r, good_symbol (ring_symbol r).
Proof. exact ring_symbol_good. Qed.
Print Assumptions C20_ring_symbols_printable.

(* the cells a reader must find = the supported (i, j) with a non-zero group, with the printed group *)
Theorem C20_cells_spec : forall sym g i j s, good_symbol sym ->
  (In ((i, j), s) (nonzero_cells sym g) <->
   exists m, lookup2 g i j = Some m /\ ~ is_zero_summand m /\ s = rmod_str sym m).
Proof. exact nonzero_cells_spec. Qed.
Print Assumptions C20_cells_spec.

(* reading back what `kh` (bigraded), `ckh` and `kh` (sequence) write to stdout *)
Theorem C20_kh_bigraded_roundtrip : forall sym g, good_symbol sym -> (forall e, In e g -> tors_one_line (snd e)) ->
  read_kh_bigraded (kh_stdout_bigraded sym g) = Some (nonzero_cells sym g).
Proof. exact kh_bigraded_roundtrip. Qed.
Print Assumptions C20_kh_bigraded_roundtrip.

Theorem C20_ckh_roundtrip : forall sym g, good_symbol sym -> (forall e, In e g -> tors_one_line (snd e)) ->
  read_ckh (ckh_stdout sym g) = Some (nonzero_cells sym g).
Proof. exact ckh_roundtrip. Qed.
Print Assumptions C20_ckh_roundtrip.

Theorem C20_kh_seq_roundtrip : forall sym g, good_symbol sym -> g <> [] -> (forall e, In e g -> tors_one_line (snd e)) ->
  read_kh_seq (kh_stdout_seq sym g) = Some (seq_cells sym g).
Proof. exact kh_seq_roundtrip. Qed.
Print Assumptions C20_kh_seq_roundtrip.

(* end to end in the model: whenever the command prints a table, the text is the rendering of what the library
   returned for the decided ring, h, t, reduced flag and mirror flag, and - when every torsion string is one
   line - read back it is exactly the list of non-zero groups at their (i, j) (bigraded table, ckh grid) resp.
   the group printed at every index i of a non-empty sequence, zero groups included as "0" (kh sequence) *)
Theorem C20_table_roundtrip : forall cmd t_arg c_arg mirror reduced link lib out,
  run cmd t_arg c_arg mirror reduced link lib = OTable out ->
  exists ty p,
    ctype_of_arg t_arg = Some ty /\ decide cmd ty (cvalue_of_arg c_arg) reduced = DCompute p /\ link = LOk /\
    let sym := ring_symbol (p_ring p) in
    match p_display p with
    | DBigraded =>
        exists g, lib_kh_bigraded lib p mirror = Some g /\ out = kh_stdout_bigraded sym g /\
                  ((forall e, In e g -> tors_one_line (snd e)) ->
                   read_kh_bigraded out = Some (nonzero_cells sym g))
    | DSeq =>
        exists g, lib_kh_seq lib p mirror = Some g /\ out = kh_stdout_seq sym g /\
                  (g <> [] -> (forall e, In e g -> tors_one_line (snd e)) ->
                   read_kh_seq out = Some (seq_cells sym g))
    | DGrid =>
        exists g, lib_ckh lib p mirror = Some g /\ out = ckh_stdout sym g /\
                  ((forall e, In e g -> tors_one_line (snd e)) ->
                   read_ckh out = Some (nonzero_cells sym g))
    end.
Proof. exact table_outcome_roundtrip. Qed.
Print Assumptions C20_table_roundtrip.

Definition sZ : str := [90%N].
(* Kh(3_1; Z) as the library returns it (support = a 4 x 5 rectangle, mostly zero groups) *)
Definition trefoil_grid : grid2 :=
  [((-3,-9), mk_summand 1 []); ((-3,-7), zero_summand); ((-2,-7), mk_summand 0 [[50%N]]);
   ((-2,-5), mk_summand 1 []); ((-1,-5), zero_summand); ((0,-3), mk_summand 1 []); ((0,-1), mk_summand 1 []);
   ((-1,-1), zero_summand)]%Z.
Definition lib0 : oracle :=
  mk_oracle (fun _ _ => None) (fun _ m => if m then None else Some trefoil_grid) (fun _ _ => Some trefoil_grid).

Example C20_hypotheses_satisfiable :
  good_symbol sZ /\ (forall e, In e trefoil_grid -> tors_one_line (snd e)) /\
  wf_table (display_table sZ s_i s_j trefoil_grid).
Proof.
  split; [apply (ring_symbol_good (Ring BZ PV_None))|]. split.
  - intros e He. cbn in He. unfold tors_one_line.
    repeat (destruct He as [<-|He]; [cbn; repeat constructor; intros c [<-|[]]; discriminate|]). destruct He.
  - apply table_of_strs_wf.
    + intros i j s H. eapply show_cells_good; [apply (ring_symbol_good (Ring BZ PV_None)) | | exact H].
      intros e He. cbn in He. unfold tors_one_line.
      repeat (destruct He as [<-|He]; [cbn; repeat constructor; intros c [<-|[]]; discriminate|]). destruct He.
    + apply zero_goodc.
Qed.

(* `ykh kh 3_1` : the exact text, and what the reader recovers from it *)
Example C20_trefoil_text :
  run Kh None None false false LOk lib0 =
  OTable [106;92;105;32;32;45;51;32;32;45;50;32;32;32;32;32;45;49;32;32;48;32;10;
          32;45;49;32;32;32;46;32;32;32;46;32;32;32;32;32;32;46;32;32;32;90;32;10;
          32;45;51;32;32;32;46;32;32;32;46;32;32;32;32;32;32;46;32;32;32;90;32;10;
          32;45;53;32;32;32;46;32;32;32;90;32;32;32;32;32;32;46;32;32;32;46;32;10;
          32;45;55;32;32;32;46;32;32;32;40;90;47;50;41;32;32;46;32;32;32;46;32;10;
          32;45;57;32;32;32;90;32;32;32;46;32;32;32;32;32;32;46;32;32;32;46;10]%N.
Proof. vm_compute. reflexivity. Qed.
Example C20_trefoil_read_back :
  read_kh_bigraded (kh_stdout_bigraded sZ trefoil_grid) =
  Some [((0,-1), sZ); ((0,-3), sZ); ((-2,-5), sZ); ((-2,-7), [40;90;47;50;41]%N); ((-3,-9), sZ)]%Z.
Proof. vm_compute. reflexivity. Qed.

(* error outcomes: unsupported, parse error, guard, invalid link, library panic, clap *)
Example C20_errors :
  run Kh (Some [90%N]) (Some s_H) false false LOk lib0 = OError EUnsupported /\
  run Ckh (Some [90%N]) (Some s_H) false false LOk lib0 = OTable (ckh_stdout (ring_symbol (Ring BZ PV_H)) trefoil_grid) /\
  run Kh None (Some [49; 44]%N) false false LOk lib0 = OError EParse /\
  run Kh (Some [81%N]) (Some s_0T) false true LOk lib0 = OError EGuardReduced /\
  run Kh None None false false LInvalid lib0 = OError ELink /\
  run Kh None None true false LOk lib0 = OError EPanic /\
  run Kh (Some [88%N]) None false false LOk lib0 = OError EClap /\
  run Kh (Some [81%N]) (Some [49; 47; 48]%N) false false LOk lib0 = OError EPanic /\
  run Kh (Some [71; 97; 117; 115; 115]%N) None false false LOk lib0 = OError EFeature.
Proof. repeat split; vm_compute; reflexivity. Qed.

(* the integer theorem at the boundary of i64 *)
Example C20_integer_boundary :
  decide Kh TZ (str_of_Z (2 ^ 63 - 1)) false =
    DCompute (mk_params (Ring BZ PV_None) (VInt (2 ^ 63 - 1)) (VInt 0) false DSeq) /\
  decide Kh TZ (str_of_Z (2 ^ 63)) false = DError EParse /\
  decide Ckh TF3 (str_of_Z (-4)) true = DCompute (mk_params (Ring BF3 PV_None) (VInt 2) (VInt 0) true DGrid).
Proof. repeat split; vm_compute; reflexivity. Qed.

(* constant pairs: zero-ness is decided in the ring (2 = 0 in F2, 3 = 0 in F3); h = 0 with a non-zero
   constant t is a sequence, not a bigraded table *)
Example C20_constant_pairs :
  pair_str 0 1 = [48; 44; 49]%N /\ pair_str 0 (-1) = [48; 44; 45; 49]%N /\
  decide Kh TQ (pair_str 0 1) false = DCompute (mk_params (Ring BQ PV_None) (VInt 0) (VInt 1) false DSeq) /\
  decide Kh TZ (pair_str 0 2) false = DCompute (mk_params (Ring BZ PV_None) (VInt 0) (VInt 2) false DSeq) /\
  decide Kh TF2 (pair_str 0 2) false = DCompute (mk_params (Ring BF2 PV_None) (VInt 0) (VInt 0) false DBigraded) /\
  decide Kh TF2 (pair_str 2 1) false = DCompute (mk_params (Ring BF2 PV_None) (VInt 0) (VInt 1) false DSeq) /\
  decide Kh TF3 (pair_str 2 3) true = DCompute (mk_params (Ring BF3 PV_None) (VInt 2) (VInt 0) true DSeq) /\
  decide Kh TF3 (pair_str 3 3) true = DCompute (mk_params (Ring BF3 PV_None) (VInt 0) (VInt 0) true DBigraded) /\
  decide Kh TF3 (pair_str 0 (-1)) false = DCompute (mk_params (Ring BF3 PV_None) (VInt 0) (VInt 2) false DSeq) /\
  decide Kh TZ (pair_str 0 (-1)) true = DError EGuardReduced /\
  decide Ckh TF2 (pair_str 2 3) false = DCompute (mk_params (Ring BF2 PV_None) (VInt 0) (VInt 1) false DGrid).
Proof. repeat split; vm_compute; reflexivity. Qed.
