(* C07, part 4: the rank read off a diagonal (Smith-type) form is an invariant of the matrix.
   Over an integral domain, if A is equivalent to diag(a_0..a_(r-1), 0..) and to diag(a'_0..a'_(r'-1), 0..)
   with all a_i, a'_i non-zero then r = r'.  Hence "rank(d)" in the rank formula of C07 does not depend on
   the Smith form used to compute it.  The proof is elementary: a homogeneous linear system with more
   unknowns than equations has a non-trivial solution (fraction-free elimination). *)
From Coq Require Import Arith List Lia Ring Bool.
Require Import Yui.Base.Ring Yui.Base.MatF Yui.Proofs.C07Algebra.
Import ListNotations.

Section C07Rank.
  Context {R : Type} (o : ring_ops R) (L : ring_laws o) (Hint : integral o).

  Local Notation "0" := (rzero o).
  Local Notation "1" := (rone o).
  Local Infix "+" := (radd o).
  Local Infix "*" := (rmul o).
  Local Notation "- x" := (rneg o x).

  Add Ring Rring07r : (ring_theory_of_laws o L).

  (* the index map that skips j0 *)
  Definition skip (j0 j : nat) : nat := if j <? j0 then j else S j.

  Lemma sum_skip c j0 (f : nat -> R) :
    (j0 < S c)%nat -> sum o (S c) f = f j0 + sum o c (fun j => f (skip j0 j)).
  Proof.
    induction c as [|c IH]; intros Hj.
    - assert (j0 = O) by lia. subst j0. cbn [sum]. ring.
    - destruct (Nat.eq_dec j0 (S c)) as [->|Hne].
      + cbn [sum]. rewrite (sum_ext o c (fun j => f (skip (S c) j)) f).
        * unfold skip. destruct (Nat.ltb_spec c (S c)); [ring|lia].
        * intros j Hjc. unfold skip. destruct (Nat.ltb_spec j (S c)); [reflexivity|lia].
      + change (sum o (S (S c)) f) with (sum o (S c) f + f (S c)).
        rewrite IH by lia.
        change (sum o (S c) (fun j => f (skip j0 j))) with (sum o c (fun j => f (skip j0 j)) + f (skip j0 c)).
        unfold skip at 3. destruct (Nat.ltb_spec c j0); [lia|]. ring.
  Qed.

  Lemma find_nz c (f : nat -> R) :
    (exists j, (j < c)%nat /\ f j <> 0) \/ (forall j, (j < c)%nat -> f j = 0).
  Proof.
    induction c as [|c IH].
    - right. intros j Hj. lia.
    - destruct IH as [[j [Hj Hn]]|Hall].
      + left. exists j. split; [lia|exact Hn].
      + destruct (reqb_spec o L (f c) 0) as [E|E].
        * right. intros j Hj. destruct (Nat.eq_dec j c) as [->|Hne]; [exact E|apply Hall; lia].
        * left. exists c. split; [lia|exact E].
  Qed.

  Lemma mul_nz a b : a <> 0 -> b <> 0 -> a * b <> 0.
  Proof. intros Ha Hb E. destruct (proj2 Hint a b E); contradiction. Qed.

  (* more unknowns than equations: a non-trivial solution *)
  Lemma kernel_vector r :
    forall c (M : mat R), (r < c)%nat ->
    exists x : nat -> R, (exists j, (j < c)%nat /\ x j <> 0) /\
                         forall i, (i < r)%nat -> sum o c (fun j => M i j * x j) = 0.
  Proof.
    induction r as [|r IH]; intros c M Hrc.
    - exists (fun _ => 1). split; [|intros i Hi; lia].
      exists O. split; [lia|]. exact (proj1 Hint).
    - destruct c as [|c]; [lia|].
      destruct (find_nz (S c) (fun j => M r j)) as [[j0 [Hj0 Hnz]]|Hall].
      + (* pivot M r j0: eliminate the unknown j0 from the first r equations *)
        set (M' := fun i j => M r j0 * M i (skip j0 j) + - (M i j0 * M r (skip j0 j))).
        destruct (IH c M' ltac:(lia)) as [x' [[j1 [Hj1 Hx1]] Hker]].
        set (xj0 := - sum o c (fun l => M r (skip j0 l) * x' l)).
        exists (fun j => if j =? j0 then xj0 else M r j0 * x' (if j <? j0 then j else pred j)).
        assert (Hskip : forall l, (if skip j0 l =? j0 then xj0
                                   else M r j0 * x' (if skip j0 l <? j0 then skip j0 l else pred (skip j0 l)))
                                  = M r j0 * x' l).
        { intros l. unfold skip. destruct (Nat.ltb_spec l j0) as [Hl|Hl].
          - destruct (Nat.eqb_spec l j0); [lia|]. destruct (Nat.ltb_spec l j0); [reflexivity|lia].
          - destruct (Nat.eqb_spec (S l) j0); [lia|]. destruct (Nat.ltb_spec (S l) j0); [lia|reflexivity]. }
        split.
        * exists (skip j0 j1). split.
          -- unfold skip. destruct (Nat.ltb_spec j1 j0); lia.
          -- rewrite Hskip. now apply mul_nz.
        * intros i Hi. rewrite (sum_skip c j0) by assumption.
          rewrite Nat.eqb_refl.
          rewrite (sum_ext o c _ (fun l => M i (skip j0 l) * (M r j0 * x' l)))
            by (intros l Hl; now rewrite Hskip).
          destruct (Nat.eq_dec i r) as [->|Hne].
          -- unfold xj0.
             rewrite (sum_ext o c (fun l => M r (skip j0 l) * (M r j0 * x' l))
                        (fun l => M r j0 * (M r (skip j0 l) * x' l))) by (intros; ring).
             rewrite (sum_scal_l o L). ring.
          -- specialize (Hker i ltac:(lia)). unfold M' in Hker.
             rewrite (sum_ext o c _ (fun l => M i (skip j0 l) * (M r j0 * x' l)
                                               + - (M i j0 * (M r (skip j0 l) * x' l)))) in Hker
               by (intros; ring).
             rewrite (sum_add o L), (sum_neg o L), (sum_scal_l o L) in Hker.
             unfold xj0. rewrite <- Hker. ring.
      + (* the last equation is trivial *)
        destruct (IH (S c) M ltac:(lia)) as [x [Hx Hker]].
        exists x. split; [exact Hx|]. intros i Hi.
        destruct (Nat.eq_dec i r) as [->|Hne]; [|apply Hker; lia].
        apply (sum_zero_ext o L). intros j Hj. rewrite Hall by assumption. ring.
  Qed.

  Definition dg (r : nat) (a : nat -> R) : mat R := fun i j => if (i =? j) && (i <? r) then a i else 0.

  Lemma form_smith m n A r a P Pi Q Qi :
    inv_pair o m P Pi -> inv_pair o n Q Qi ->
    meq m n (mmul o m P (mmul o n A Q)) (dg r a) ->
    (forall i, (i < r)%nat -> a i <> 0) -> (r <= Nat.min m n)%nat ->
    smith o m n A P Pi Q Qi (dg r a) r.
  Proof.
    intros HP HQ He Hnz Hr. constructor; try assumption.
    - now apply meq_sym.
    - intros i j Hi Hj Hne. unfold dg. destruct (Nat.eqb_spec i j); [contradiction|reflexivity].
    - intros i Hi. unfold dg. rewrite Nat.eqb_refl. destruct (Nat.ltb_spec i r); [now apply Hnz|lia].
    - intros i Hi _. unfold dg. rewrite Nat.eqb_refl. destruct (Nat.ltb_spec i r); [lia|reflexivity].
  Qed.

  Lemma mvec_zero p (A : mat R) (v : nat -> R) i :
    (forall l, (l < p)%nat -> v l = 0) -> mvec o p A v i = 0.
  Proof. intros H. unfold mvec. apply (sum_zero_ext o L). intros l Hl. rewrite H by assumption. ring. Qed.

  (* a vector supported on [0, r) only meets the first r columns *)
  Lemma mvec_trunc n r (M : mat R) (x : nat -> R) i :
    (r <= n)%nat -> mvec o n M (fun j => if j <? r then x j else 0) i = sum o r (fun j => M i j * x j).
  Proof.
    intros Hr. unfold mvec. replace n with (r + (n - r))%nat by lia. rewrite (sum_split o L).
    rewrite (sum_zero_ext o L (n - r)).
    - rewrite (sum_ext o r _ (fun j => M i j * x j)); [ring|].
      intros j Hj. destruct (Nat.ltb_spec j r); [reflexivity|lia].
    - intros j Hj. destruct (Nat.ltb_spec (r + j) r); [lia|ring].
  Qed.

  Lemma rank_le m n A r a r' a' :
    smith_form o m n A r a -> smith_form o m n A r' a' -> (r' <= r)%nat.
  Proof.
    intros [P [Pi [Q [Qi [HP [HQ [He [Hnz Hr]]]]]]]] [P' [Pi' [Q' [Qi' [HP' [HQ' [He' [Hnz' Hr']]]]]]]].
    destruct (le_lt_dec r' r) as [Hle|Hlt]; [exact Hle|exfalso].
    pose proof (form_smith m n A r a P Pi Q Qi HP HQ He Hnz Hr) as S.
    pose proof (form_smith m n A r' a' P' Pi' Q' Qi' HP' HQ' He' Hnz' Hr') as S'.
    (* a non-trivial x supported on [0, r') with (Qi Q' x)_l = 0 for l < r *)
    destruct (kernel_vector r r' (mmul o n Qi Q') Hlt) as [x [[j0 [Hj0 Hx0]] Hker]].
    set (xt := fun j => if j <? r' then x j else 0).
    (* dg r' a' * xt is non-zero at j0 *)
    assert (Hne : mvec o n (dg r' a') xt j0 <> 0).
    { unfold mvec. rewrite (sum_single o L n j0).
      - unfold dg, xt. rewrite Nat.eqb_refl. destruct (Nat.ltb_spec j0 r'); [|lia]. cbn [andb].
        apply mul_nz; [now apply Hnz'|exact Hx0].
      - lia.
      - intros l Hl Hnel. unfold dg. destruct (Nat.eqb_spec j0 l); [congruence|]. cbn [andb]. ring. }
    apply Hne. clear Hne.
    (* but dg r' a' = P' A Q' and A = Pi (dg r a) Qi *)
    assert (Hj0m : (j0 < m)%nat) by lia.
    rewrite (mvec_ext_row o _ (mmul o m P' (mmul o n A Q'))) by (intros l Hl; now apply (sm_eq _ _ _ _ _ _ _ _ _ _ S')).
    rewrite (mvec_mmul o L). apply mvec_zero. intros i Hi.
    rewrite (mvec_mmul o L).
    rewrite (mvec_ext_row o _ (mmul o m Pi (mmul o n (dg r a) Qi))).
    2:{ intros l Hl. rewrite <- (mmul_cancel_l o L m Pi P A i l) by (try assumption; apply HP).
        apply (mmul_ext_r o). intros l' Hl'. now apply (smith_PA o L _ _ _ _ _ _ _ _ _ S). }
    rewrite (mvec_mmul o L). apply mvec_zero. intros l Hl.
    rewrite (mvec_mmul o L).
    (* (dg r a) u with u = Qi Q' xt vanishing on [0, r) *)
    unfold mvec at 1. apply (sum_zero_ext o L). intros l' Hl'.
    unfold dg. destruct (Nat.eqb_spec l l') as [<-|Hnel]; cbn [andb]; [|ring].
    destruct (Nat.ltb_spec l r) as [Hlr|Hlr]; [|ring].
    rewrite <- (mvec_mmul o L).
    assert (E : mvec o n (mmul o n Qi Q') xt l = 0).
    { unfold xt. rewrite mvec_trunc by lia. now apply Hker. }
    rewrite E. ring.
  Qed.

  Theorem smith_form_rank_unique m n A r a r' a' :
    smith_form o m n A r a -> smith_form o m n A r' a' -> r = r'.
  Proof.
    intros S S'. apply Nat.le_antisymm.
    - exact (rank_le m n A r' a' r a S' S).
    - exact (rank_le m n A r a r' a' S S').
  Qed.
End C07Rank.
