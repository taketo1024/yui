(* Bit-level toolkit for the BitSeq proofs: testbit characterisations of the u64 primitives and
   nth-characterisations of the list operations. *)
From Coq Require Import NArith List Bool Arith Lia ZifyBool ZifyNat ZifyN.
Require Import Yui.Model.BitSeq.
Require Import Yui.Base.ListFacts.
Import ListNotations.

Definition tb (v : N) (i : nat) : bool := N.testbit v (N.of_nat i).

Lemma tb_ext a b : (forall i, tb a i = tb b i) -> a = b.
Proof.
  intros H. apply N.bits_inj. intros n. specialize (H (N.to_nat n)). unfold tb in H.
  rewrite N2Nat.id in H. exact H.
Qed.

Lemma tb_0 i : tb 0 i = false.
Proof. unfold tb. apply N.bits_0. Qed.

Lemma tb_land a b i : tb (N.land a b) i = tb a i && tb b i.
Proof. apply N.land_spec. Qed.
Lemma tb_lor a b i : tb (N.lor a b) i = tb a i || tb b i.
Proof. apply N.lor_spec. Qed.
Lemma tb_ldiff a b i : tb (N.ldiff a b) i = tb a i && negb (tb b i).
Proof. apply N.ldiff_spec. Qed.

Lemma tb_shiftl v k i : tb (N.shiftl v (N.of_nat k)) i = if i <? k then false else tb v (i - k).
Proof.
  unfold tb. destruct (Nat.ltb_spec i k) as [H|H].
  - apply N.shiftl_spec_low. lia.
  - rewrite N.shiftl_spec_high by lia. f_equal. lia.
Qed.

Lemma tb_shiftr v k i : tb (N.shiftr v (N.of_nat k)) i = tb v (i + k).
Proof. unfold tb. rewrite N.shiftr_spec by lia. f_equal. lia. Qed.

Lemma tb_ones n i : tb (N.ones (N.of_nat n)) i = (i <? n).
Proof.
  unfold tb. destruct (Nat.ltb_spec i n) as [H|H].
  - apply N.ones_spec_low. lia.
  - apply N.ones_spec_high. lia.
Qed.

Lemma tb_u64max i : tb u64max i = (i <? 64).
Proof. unfold u64max. change 64%N with (N.of_nat 64). apply tb_ones. Qed.

Lemma tb_1 i : tb 1 i = (i =? 0).
Proof.
  unfold tb. destruct i as [|i]; [reflexivity|].
  change 1%N with (N.ones 1). rewrite N.ones_spec_high by lia. reflexivity.
Qed.

Lemma tb_lnot64 v i : tb (lnot64 v) i = (i <? 64) && negb (tb v i).
Proof. unfold lnot64. rewrite tb_ldiff, tb_u64max. reflexivity. Qed.

Lemma small_tb v n : (v < 2 ^ N.of_nat n)%N <-> (forall i, n <= i -> tb v i = false).
Proof.
  split.
  - intros H i Hi. unfold tb. rewrite <- (N.mod_small v (2 ^ N.of_nat n)) by exact H.
    apply N.mod_pow2_bits_high. lia.
  - intros H. assert (E : (v mod 2 ^ N.of_nat n = v)%N).
    { apply N.bits_inj. intros m.
      destruct (N.lt_ge_cases m (N.of_nat n)) as [Hm|Hm].
      - apply N.mod_pow2_bits_low. exact Hm.
      - rewrite N.mod_pow2_bits_high by exact Hm. symmetry.
        specialize (H (N.to_nat m)). unfold tb in H. rewrite N2Nat.id in H. apply H. lia. }
    rewrite <- E. apply N.mod_upper_bound. apply N.pow_nonzero. lia.
Qed.

Lemma small_mono v n m : n <= m -> (v < 2 ^ N.of_nat n)%N -> (v < 2 ^ N.of_nat m)%N.
Proof. intros H Hv. rewrite small_tb in *. intros i Hi. apply Hv. lia. Qed.

Lemma shl_some x k : k < 64 -> shl x k = Some (N.land (N.shiftl x (N.of_nat k)) u64max).
Proof. intros H. unfold shl. destruct (Nat.ltb_spec k 64); [reflexivity|lia]. Qed.
Lemma shl_none x k : 64 <= k -> shl x k = None.
Proof. intros H. unfold shl. destruct (Nat.ltb_spec k 64); [lia|reflexivity]. Qed.
Lemma shr_some x k : k < 64 -> shr x k = Some (N.shiftr x (N.of_nat k)).
Proof. intros H. unfold shr. destruct (Nat.ltb_spec k 64); [reflexivity|lia]. Qed.

(* A shift that keeps the word below 2^64 is not truncated. *)
Lemma shl_small x n k :
  k < 64 -> (forall i, n <= i -> tb x i = false) -> n + k <= 64 ->
  shl x k = Some (N.shiftl x (N.of_nat k)).
Proof.
  intros Hk Hx H. rewrite shl_some by lia. f_equal. apply tb_ext. intros i.
  rewrite tb_land, tb_u64max, tb_shiftl.
  destruct (Nat.ltb_spec i 64); [apply andb_true_r|]. rewrite andb_false_r.
  destruct (Nat.ltb_spec i k); [reflexivity|]. symmetry. apply Hx. lia.
Qed.

Lemma tb_bit (x : bool) i : tb (if x then 1 else 0) i = x && (i =? 0).
Proof. destruct x; [apply tb_1|apply tb_0]. Qed.

Lemma shl_bit (x : bool) k : k < 64 -> shl (if x then 1 else 0) k = Some (N.shiftl (if x then 1 else 0) (N.of_nat k)).
Proof.
  intros H. apply shl_small with (n := 1); [exact H| |lia].
  intros i Hi. rewrite tb_bit. destruct i; [lia|apply andb_false_r].
Qed.

Lemma shl_one k : k < 64 -> shl 1 k = Some (N.shiftl 1 (N.of_nat k)).
Proof. exact (shl_bit true k). Qed.

Lemma tb_bit_shl (x : bool) k i : tb (N.shiftl (if x then 1 else 0) (N.of_nat k)) i = x && (i =? k).
Proof.
  rewrite tb_shiftl, tb_bit.
  destruct (Nat.ltb_spec i k), (Nat.eqb_spec i k), (Nat.eqb_spec (i - k) 0); try lia; now destruct x.
Qed.

Lemma tb_one_shl k i : tb (N.shiftl 1 (N.of_nat k)) i = (i =? k).
Proof. exact (tb_bit_shl true k i). Qed.

(* On a word below 2^64, [v & !m] clears the bits of [m]. *)
Lemma land_lnot64 v m : (forall i, 64 <= i -> tb v i = false) -> N.land v (lnot64 m) = N.ldiff v m.
Proof.
  intros Hv. apply tb_ext. intros i. rewrite tb_land, tb_lnot64, tb_ldiff.
  destruct (Nat.ltb_spec i 64); [reflexivity|]. now rewrite Hv.
Qed.

Lemma one_shl_pred k : (N.shiftl 1 (N.of_nat k) - 1)%N = N.ones (N.of_nat k).
Proof. unfold N.ones. rewrite N.pred_sub. reflexivity. Qed.

Lemma mask_some l : l <= 64 -> mask l = Some (N.ones (N.of_nat l)).
Proof.
  intros H. unfold mask, MAX_LEN. destruct (Nat.leb_spec l 64); [|lia].
  destruct (Nat.eqb_spec l 64) as [->|Hne]; [reflexivity|].
  rewrite shl_one by lia. cbn [obind]. rewrite one_shl_pred. reflexivity.
Qed.
Lemma mask_none l : 64 < l -> mask l = None.
Proof. intros H. unfold mask, MAX_LEN. destruct (Nat.leb_spec l 64); [lia|reflexivity]. Qed.

Lemma le_ones v n : (v <= N.ones (N.of_nat n))%N <-> (v < 2 ^ N.of_nat n)%N.
Proof.
  rewrite N.ones_equiv. assert (H : (2 ^ N.of_nat n <> 0)%N) by (apply N.pow_nonzero; lia).
  generalize dependent (2 ^ N.of_nat n)%N. intros p Hp. lia.
Qed.

Lemma bits_length v n : length (bits v n) = n.
Proof. revert v. induction n as [|n IH]; intros v; cbn [bits length]; [reflexivity|]. now rewrite IH. Qed.

Lemma nth_bits v n i : i < n -> nth i (bits v n) false = tb v i.
Proof.
  revert v i. induction n as [|n IH]; intros v i H; [lia|].
  cbn [bits]. destruct i as [|i]; cbn [nth].
  - unfold tb. cbn. symmetry. apply N.bit0_odd.
  - rewrite IH by lia. unfold tb. rewrite N.div2_spec, N.shiftr_spec by lia. f_equal. lia.
Qed.

Lemma nth_bits_all v n i : nth i (bits v n) false = (i <? n) && tb v i.
Proof.
  destruct (Nat.ltb_spec i n) as [H|H]; [now rewrite nth_bits|].
  rewrite nth_overflow by (rewrite bits_length; lia). reflexivity.
Qed.

Lemma list_ext (l l' : list bool) :
  length l = length l' -> (forall i, i < length l -> nth i l false = nth i l' false) -> l = l'.
Proof. intros H1 H2. apply (nth_ext l l' false false H1 H2). Qed.

Lemma bits_ext l v n :
  length l = n -> (forall i, i < n -> nth i l false = tb v i) -> bits v n = l.
Proof.
  intros H1 H2. apply list_ext; [rewrite bits_length; lia|].
  intros i Hi. rewrite bits_length in Hi. rewrite nth_bits by lia. symmetry. apply H2. lia.
Qed.

Lemma nth_skipn_add {A} (l : list A) n i d : nth i (skipn n l) d = nth (n + i) l d.
Proof.
  revert l. induction n as [|n IH]; intros l; [reflexivity|].
  destruct l as [|x l]; cbn [skipn Nat.add nth]; [now destruct i|]. apply IH.
Qed.

Lemma nth_app {A} (l l' : list A) i d :
  nth i (l ++ l') d = if i <? length l then nth i l d else nth (i - length l) l' d.
Proof.
  destruct (Nat.ltb_spec i (length l)); [apply app_nth1; lia|apply app_nth2; lia].
Qed.

Lemma nth_cons {A} (x : A) l i d : nth i (x :: l) d = if i =? 0 then x else nth (i - 1) l d.
Proof. destruct i as [|i]; cbn [nth Nat.eqb]; [reflexivity|]. f_equal. lia. Qed.

Lemma nth_firstn_app {A} (l r : list A) n i d :
  n <= length l -> nth i (firstn n l ++ r) d = if i <? n then nth i l d else nth (i - n) r d.
Proof.
  intros H. rewrite nth_app, firstn_length, Nat.min_l by exact H.
  destruct (Nat.ltb_spec i n); [now apply nth_firstn_lt|reflexivity].
Qed.

(* The list operations, position by position. *)
Lemma length_l_set l i x : i < length l -> length (l_set l i x) = length l.
Proof. intros H. unfold l_set. rewrite app_length, firstn_length. cbn [length]. rewrite skipn_length. lia. Qed.

Lemma nth_l_set l i x j : i < length l -> nth j (l_set l i x) false = if j =? i then x else nth j l false.
Proof.
  intros H. unfold l_set. rewrite nth_firstn_app, nth_cons, nth_skipn_add by lia.
  destruct (Nat.ltb_spec j i), (Nat.eqb_spec j i), (Nat.eqb_spec (j - i) 0); try lia; try reflexivity.
  f_equal. lia.
Qed.

Lemma length_l_insert l i x : i <= length l -> length (l_insert l i x) = S (length l).
Proof. intros H. unfold l_insert. rewrite app_length, firstn_length. cbn [length]. rewrite skipn_length. lia. Qed.

Lemma nth_l_insert l i x j : i <= length l ->
  nth j (l_insert l i x) false = if j <? i then nth j l false else if j =? i then x else nth (j - 1) l false.
Proof.
  intros H. unfold l_insert. rewrite nth_firstn_app, nth_cons, nth_skipn_add by lia.
  destruct (Nat.ltb_spec j i), (Nat.eqb_spec j i), (Nat.eqb_spec (j - i) 0); try lia; try reflexivity.
  f_equal. lia.
Qed.

Lemma length_l_remove l i : i < length l -> length (l_remove l i) = length l - 1.
Proof. intros H. unfold l_remove. rewrite app_length, firstn_length, skipn_length. lia. Qed.

Lemma nth_l_remove l i j : i < length l ->
  nth j (l_remove l i) false = if j <? i then nth j l false else nth (S j) l false.
Proof.
  intros H. unfold l_remove. rewrite nth_firstn_app, nth_skipn_add by lia.
  destruct (Nat.ltb_spec j i); [reflexivity|]. f_equal. lia.
Qed.

Lemma nth_snoc {A} (l : list A) x i d : nth i (l ++ [x]) d = if i =? length l then x else nth i l d.
Proof.
  rewrite nth_app. destruct (Nat.ltb_spec i (length l)), (Nat.eqb_spec i (length l)); try lia; try reflexivity.
  - subst i. now rewrite Nat.sub_diag.
  - rewrite !nth_overflow by (cbn [length]; lia). reflexivity.
Qed.

Lemma nth_repeat_all {A} (x d : A) n i : nth i (repeat x n) d = if i <? n then x else d.
Proof.
  revert i. induction n as [|n IH]; intros i; cbn [repeat]; [now destruct i|].
  destruct i as [|i]; cbn [nth]; [reflexivity|]. rewrite IH. reflexivity.
Qed.

Lemma firstn_length_min {A} (l : list A) n : length (firstn n l) = Nat.min n (length l).
Proof. apply firstn_length. Qed.

Lemma of_bits_tb l i : tb (of_bits l) i = nth i l false.
Proof.
  revert i. induction l as [|b l IH]; intros i; cbn [of_bits].
  - rewrite tb_0. now destruct i.
  - unfold tb. destruct i as [|i]; cbn [nth].
    + change (N.of_nat 0) with 0%N. rewrite N.add_comm.
      destruct b; [apply N.testbit_odd_0 | rewrite N.add_0_r; apply N.testbit_even_0].
    + replace (N.of_nat (S i)) with (N.succ (N.of_nat i)) by lia. rewrite N.add_comm.
      destruct b.
      * rewrite N.testbit_odd_succ by lia. apply IH.
      * rewrite N.add_0_r. rewrite N.testbit_even_succ by lia. apply IH.
Qed.

Lemma of_bits_bits v n : (v < 2 ^ N.of_nat n)%N -> of_bits (bits v n) = v.
Proof.
  intros H. apply tb_ext. intros i. rewrite of_bits_tb, nth_bits_all.
  destruct (Nat.ltb_spec i n); [reflexivity|]. symmetry. apply small_tb with (n := n); [exact H|lia].
Qed.

Lemma bits_of_bits l : bits (of_bits l) (length l) = l.
Proof. apply bits_ext; [reflexivity|]. intros i _. now rewrite of_bits_tb. Qed.

Lemma of_bits_small l : (of_bits l < 2 ^ N.of_nat (length l))%N.
Proof. apply small_tb. intros i Hi. rewrite of_bits_tb. apply nth_overflow. lia. Qed.

Lemma tb_reverse_bits v i : tb (reverse_bits v) i = (i <? 64) && tb v (63 - i).
Proof.
  unfold reverse_bits. rewrite of_bits_tb.
  destruct (Nat.ltb_spec i 64) as [H|H].
  - rewrite rev_nth by (rewrite bits_length; lia). rewrite bits_length.
    rewrite nth_bits by lia. cbn [andb]. f_equal; lia.
  - apply nth_overflow. rewrite rev_length, bits_length. lia.
Qed.
