(* C11 - result(): on a pivot table satisfying the invariant the Kahn mirror succeeds for every hash
   order and returns every pivot in a valid order; soundness of the checker [pivots_ok];
   perm_for_indices / perms_by_pivots and triangularity of the permuted leading block. *)
From Coq Require Import List Bool Arith Lia Permutation.
Require Import Yui.Model.Pivot Yui.Proofs.C11Base Yui.Proofs.C11TopSort.
Require Import Yui.Base.ListFacts.
Import ListNotations.

Definition swap (p : nat * nat) : nat * nat := (snd p, fst p).
(* returned list (matrix coordinates) -> coordinates of the search (for Cols the search runs on the transpose) *)
Definition to_str (pt : ptype) (l : list (nat * nat)) : list (nat * nat) :=
  match pt with Rows => l | Cols => map swap l end.

Section Checker.
Variable M : mstr.

(* upper triangular in list order: the column of an earlier pivot does not occur in a later pivot row *)
Definition tri_spec (pivs : list (nat * nat)) : Prop :=
  forall l1 p l2, pivs = l1 ++ p :: l2 -> forall q, In q l2 -> ~ In (snd p) (cols_in M (fst q)).

Lemma tri_ok_spec : forall pivs, tri_ok M pivs = true <-> tri_spec pivs.
Proof.
  induction pivs as [|p r IH]; cbn [tri_ok].
  - split; [|reflexivity]. intros _ l1 p l2 E. destruct l1; discriminate.
  - rewrite andb_true_iff, forallb_forall, IH. split.
    + intros [H1 H2] l1 p0 l2 E q Hq. destruct l1 as [|x l1]; cbn [app] in E; inversion E; subst.
      * specialize (H1 q Hq). apply negb_true_iff in H1. apply memb_false in H1. exact H1.
      * eapply H2; [reflexivity | exact Hq].
    + intros H. split.
      * intros q Hq. apply negb_true_iff. apply memb_false. apply (H [] p r eq_refl q Hq).
      * intros l1 p0 l2 E q Hq. apply (H (p :: l1) p0 l2); [cbn [app]; rewrite E; reflexivity | exact Hq].
Qed.

Theorem pivots_ok_sound : forall pivs, pivots_ok M pivs = true <->
  NoDup (map fst pivs) /\ NoDup (map snd pivs) /\
  (forall p, In p pivs -> In (snd p) (cols_in M (fst p)) /\ is_cand M (fst p) (snd p) = true) /\
  tri_spec pivs.
Proof.
  intros pivs. unfold pivots_ok. rewrite !andb_true_iff, !nodupb_NoDup, forallb_forall, tri_ok_spec.
  split.
  - intros [[[H1 H2] H3] H4]. splits; auto. intros p Hp. specialize (H3 p Hp).
    apply andb_true_iff in H3. destruct H3 as [A B]. apply memb_In in A. split; assumption.
  - intros [H1 [H2 [H3 H4]]]. splits; auto. intros p Hp. destruct (H3 p Hp) as [A B].
    apply andb_true_iff. split; [apply memb_In; exact A | exact B].
Qed.

End Checker.

Section Result.
Variable M : mstr.
Variable P : plog.
Hypothesis HP : PInv M P.

Let tree := dep_tree M P.

Lemma tree_keys : map fst tree = map snd P.
Proof. unfold tree, dep_tree. rewrite map_map. reflexivity. Qed.

Lemma tree_get_pivot : forall i j, In (i, j) P -> tree_get tree j = dep_list M P (i, j).
Proof.
  destruct HP as [[_ [Hnd _]] _]. unfold tree, dep_tree. clear tree.
  assert (G : forall Q, NoDup (map snd Q) -> forall i j, In (i, j) Q ->
             tree_get (map (fun p => (snd p, dep_list M P p)) Q) j = dep_list M P (i, j)).
  { induction Q as [|[a b] r IH]; intros Hq i j Hin; [destruct Hin|].
    cbn [map snd] in *. inversion Hq as [|? ? Hb Hr]; subst. unfold tree_get. cbn [find fst snd].
    destruct (b =? j) eqn:E.
    - apply Nat.eqb_eq in E. subst b. destruct Hin as [Hin|Hin]; [inversion Hin; subst; reflexivity|].
      exfalso. apply Hb. apply pcol_map. exists i. exact Hin.
    - destruct Hin as [Hin|Hin]; [inversion Hin; subst; rewrite Nat.eqb_refl in E; discriminate|].
      apply (IH Hr i j Hin). }
  exact (G P Hnd).
Qed.

Lemma dep_list_edge : forall i a b, In (i, a) P -> (In b (dep_list M P (i, a)) <-> In b (cols_in M i) /\ b <> a /\ pcol P b).
Proof.
  intros i a b Hin. unfold dep_list. cbn [fst snd]. rewrite filter_In, andb_true_iff, negb_true_iff, Nat.eqb_neq, has_col_pcol.
  split; [intros [H1 [H2 H3]]; splits; auto | intros [H1 [H2 H3]]; splits; auto].
Qed.

Definition rowof (j : nat) : nat := match row_for P j with Some i => i | None => 0 end.

Lemma rowof_In : forall j, pcol P j -> In (rowof j, j) P.
Proof.
  intros j Hj. unfold rowof. destruct (row_for_pcol P j Hj) as [i E]. rewrite E. apply row_for_Some. exact E.
Qed.

Lemma rowof_pivot : forall i j, In (i, j) P -> rowof j = i.
Proof.
  intros i j Hin. destruct HP as [[_ [Hnd _]] _].
  eapply nodup_snd_fun; [exact Hnd | apply rowof_In; exists i; exact Hin | exact Hin].
Qed.

Definition str_pivs (ord : list nat) : list (nat * nat) := map (fun j => (rowof j, j)) ord.

Lemma str_pivs_perm : forall ord, Permutation ord (map snd P) -> Permutation (str_pivs ord) P.
Proof.
  intros ord Hp. unfold str_pivs.
  apply Permutation_trans with (map (fun j => (rowof j, j)) (map snd P)); [apply Permutation_map; exact Hp|].
  rewrite map_map. rewrite <- (map_id P) at 2. apply Permutation_refl'. apply map_ext_in.
  intros [i j] Hin. cbn [snd]. rewrite (rowof_pivot i j Hin). reflexivity.
Qed.

Lemma result_with_eq : forall pt keys ord, top_sort keys tree = Some ord -> (forall j, In j ord -> pcol P j) ->
  result_with M pt P keys = Some (match pt with Rows => str_pivs ord | Cols => map swap (str_pivs ord) end).
Proof.
  intros pt keys ord E Hall. unfold result_with. fold tree. rewrite E. clear E.
  induction ord as [|j r IH]; cbn [fold_right str_pivs map]; [destruct pt; reflexivity|].
  rewrite IH by (intros x Hx; apply Hall; right; exact Hx).
  assert (Hj : pcol P j) by (apply Hall; left; reflexivity).
  destruct (row_for_pcol P j Hj) as [i Ei].
  assert (Er : rowof j = i) by (unfold rowof; rewrite Ei; reflexivity).
  rewrite Ei. destruct pt; cbn [map swap fst snd]; rewrite Er; reflexivity.
Qed.

Theorem result_ok : forall pt keys, Permutation keys (map snd P) ->
  exists pivs, result_with M pt P keys = Some pivs /\
    pivots_ok M (to_str pt pivs) = true /\ Permutation (to_str pt pivs) P.
Proof.
  intros pt keys Hk. destruct HP as [[Hr [Hc He]] [rk Hrk]].
  assert (HV : NoDup (map fst tree)) by (rewrite tree_keys; exact Hc).
  assert (Hdata : forall a b, In a (map fst tree) -> In b (tree_get tree a) ->
                  exists i, In (i, a) P /\ In b (cols_in M i) /\ b <> a /\ pcol P b).
  { intros a b Ha Hb. rewrite tree_keys in Ha. apply pcol_map in Ha. destruct Ha as [i Hi].
    rewrite (tree_get_pivot i a Hi) in Hb. apply (dep_list_edge i a b Hi) in Hb. exists i. split; [exact Hi | exact Hb]. }
  destruct (top_sort_spec tree HV) with (rk := rk) (keys := keys) as [ord [E [Hp Hs]]].
  - intros a b Ha Hb. destruct (Hdata a b Ha Hb) as [i [_ [_ [_ H]]]]. rewrite tree_keys. apply pcol_map. exact H.
  - intros a b Ha Hb. destruct (Hdata a b Ha Hb) as [i [H1 [H2 [H3 H4]]]]. apply Hrk. exists i. splits; assumption.
  - rewrite tree_keys. exact Hk.
  - rewrite tree_keys in Hp.
    assert (Hall : forall j, In j ord -> pcol P j).
    { intros j Hj. apply pcol_map. eapply Permutation_in; [exact Hp | exact Hj]. }
    exists (match pt with Rows => str_pivs ord | Cols => map swap (str_pivs ord) end).
    split; [apply result_with_eq; assumption|].
    assert (Hto : to_str pt (match pt with Rows => str_pivs ord | Cols => map swap (str_pivs ord) end) = str_pivs ord).
    { destruct pt; cbn [to_str]; [reflexivity|]. rewrite map_map. rewrite <- (map_id (str_pivs ord)) at 2.
      apply map_ext. intros [a b]. reflexivity. }
    rewrite Hto. pose proof (str_pivs_perm ord Hp) as Hperm. split; [|exact Hperm].
    apply pivots_ok_sound. splits.
    + eapply Permutation_NoDup; [apply Permutation_sym, Permutation_map; exact Hperm | exact Hr].
    + eapply Permutation_NoDup; [apply Permutation_sym, Permutation_map; exact Hperm | exact Hc].
    + intros [i j] Hin. cbn [fst snd]. apply He. eapply Permutation_in; [exact Hperm | exact Hin].
    + (* triangular: from the order of popping *)
      assert (Hndo : NoDup ord) by (eapply Permutation_NoDup; [apply Permutation_sym; exact Hp | exact Hc]).
      intros l1 p l2 Epiv q Hq Hin.
      unfold str_pivs in Epiv. apply map_eq_app in Epiv. destruct Epiv as [o1 [o2' [Eo [E1 E2]]]].
      destruct o2' as [|b o2]; [discriminate|]. cbn [map] in E2. inversion E2 as [[Ep El2]]. subst p.
      rewrite <- El2 in Hq. apply in_map_iff in Hq. destruct Hq as [a [Ea Hao2]]. subst q. cbn [fst snd] in Hin.
      (* a comes after b in ord, and b occurs in the pivot row of a: edge a -> b, so a was popped before b *)
      assert (HaP : pcol P a) by (apply Hall; rewrite Eo; apply in_or_app; right; right; exact Hao2).
      assert (HbP : pcol P b) by (apply Hall; rewrite Eo; apply in_or_app; right; left; reflexivity).
      assert (Hab : b <> a).
      { intros Eab. subst a. rewrite Eo in Hndo. apply NoDup_remove_2 in Hndo. apply Hndo. apply in_or_app. right. exact Hao2. }
      assert (Hdep : In b (tree_get tree a)).
      { rewrite (tree_get_pivot (rowof a) a (rowof_In a HaP)). apply dep_list_edge; [apply rowof_In; exact HaP|]. splits; assumption. }
      (* tsorted (rev ord): predecessors of b lie in o1 *)
      assert (Hpre : In a o1).
      { assert (G : forall res, tsorted tree res -> forall r1 x r2, res = r1 ++ x :: r2 ->
                      forall y, In y (map fst tree) -> In x (tree_get tree y) -> In y r2).
        { induction res as [|z res IHr]; intros Hts r1 x r2 Er y Hy Hxy; [destruct r1; discriminate|].
          cbn [tsorted] in Hts. destruct Hts as [Hz Hts]. destruct r1 as [|z' r1]; cbn [app] in Er; inversion Er; subst.
          - apply Hz; assumption.
          - eapply IHr; [exact Hts | reflexivity | exact Hy | exact Hxy]. }
        assert (Er : rev ord = rev o2 ++ b :: rev o1).
        { rewrite Eo, rev_app_distr. cbn [rev]. rewrite <- app_assoc. reflexivity. }
        apply in_rev. eapply (G (rev ord) Hs (rev o2) b (rev o1) Er a); [|exact Hdep].
        rewrite tree_keys. apply pcol_map. exact HaP. }
      rewrite Eo in Hndo. apply NoDup_app_inv in Hndo. destruct Hndo as [_ [_ Hdis]].
      apply (Hdis a Hpre). right. exact Hao2.
Qed.

End Result.

Lemma set_nth_length : forall l k v, length (set_nth l k v) = length l.
Proof. induction l as [|x r IH]; intros [|k] v; cbn [set_nth length]; try reflexivity. rewrite IH. reflexivity. Qed.

Lemma set_nth_same : forall l k v d, k < length l -> nth k (set_nth l k v) d = v.
Proof.
  induction l as [|x r IH]; intros [|k] v d H; cbn [length] in H; try lia; cbn [set_nth nth]; [reflexivity|].
  apply IH. lia.
Qed.

Lemma set_nth_other : forall l k v d k', k' <> k -> nth k' (set_nth l k v) d = nth k' l d.
Proof.
  induction l as [|x r IH]; intros [|k] v d [|k'] H; cbn [set_nth nth]; try reflexivity; try lia.
  apply IH. lia.
Qed.

Lemma write_inv_spec : forall vec k inv, NoDup vec -> (forall x, In x vec -> x < length inv) ->
  length (write_inv vec k inv) = length inv /\
  (forall m, m < length vec -> nth (nth m vec 0) (write_inv vec k inv) 0 = k + m) /\
  (forall x, ~ In x vec -> nth x (write_inv vec k inv) 0 = nth x inv 0).
Proof.
  induction vec as [|j r IH]; intros k inv Hnd Hlt; cbn [write_inv].
  - splits; [reflexivity | intros m Hm; cbn in Hm; lia | reflexivity].
  - inversion Hnd as [|? ? Hj Hr]; subst.
    destruct (IH (S k) (set_nth inv j k) Hr) as [I1 [I2 I3]].
    { intros x Hx. rewrite set_nth_length. apply Hlt. right. exact Hx. }
    rewrite set_nth_length in I1. splits.
    + exact I1.
    + intros [|m] Hm; cbn [nth length] in *.
      * rewrite (I3 j Hj). rewrite set_nth_same; [lia | apply Hlt; left; reflexivity].
      * rewrite I2 by lia. lia.
    + intros x Hx. rewrite I3 by (intros H; apply Hx; right; exact H).
      apply set_nth_other. intros E. apply Hx. left. symmetry. exact E.
Qed.

Lemma perm_vec_props : forall n idx, NoDup idx -> (forall i, In i idx -> i < n) ->
  NoDup (perm_vec n idx) /\ Permutation (seq 0 n) (perm_vec n idx) /\ length (perm_vec n idx) = n.
Proof.
  intros n idx Hnd Hlt. unfold perm_vec.
  assert (Hp : Permutation (seq 0 n) (idx ++ filter (fun x => negb (memb x idx)) (seq 0 n))).
  { apply split_perm; [apply seq_NoDup | exact Hnd | intros x Hx; apply in_seq; specialize (Hlt x Hx); lia]. }
  splits.
  - eapply Permutation_NoDup; [exact Hp | apply seq_NoDup].
  - exact Hp.
  - rewrite <- (Permutation_length Hp). apply seq_length.
Qed.

Theorem perm_for_indices_spec : forall n idx, NoDup idx -> (forall i, In i idx -> i < n) ->
  exists inv, perm_for_indices n idx = Some inv /\ length inv = n /\
    (forall k, k < length idx -> nth (nth k idx 0) inv 0 = k) /\
    (forall x, x < n -> nth x inv 0 < n) /\
    (forall x, x < n -> nth x inv 0 < length idx -> In x idx) /\
    (forall x y, x < n -> y < n -> nth x inv 0 = nth y inv 0 -> x = y).
Proof.
  intros n idx Hnd Hlt. unfold perm_for_indices.
  assert (Hfa : forallb (fun i => i <? n) idx = true).
  { apply forallb_forall. intros i Hi. apply Nat.ltb_lt. apply Hlt. exact Hi. }
  rewrite Hfa. cbn [negb].
  destruct (perm_vec_props n idx Hnd Hlt) as [Hvnd [Hvp Hvl]].
  set (vec := perm_vec n idx) in *.
  destruct (write_inv_spec vec 0 (repeat 0 n) Hvnd) as [W1 [W2 W3]].
  { intros x Hx. rewrite repeat_length. apply (Permutation_in _ (Permutation_sym Hvp)) in Hx. apply in_seq in Hx. lia. }
  set (inv := write_inv vec 0 (repeat 0 n)) in *. rewrite repeat_length in W1.
  (* every x < n is vec[m] for some m < n, and then inv[x] = m *)
  assert (Hpos : forall x, x < n -> exists m, m < n /\ nth m vec 0 = x /\ nth x inv 0 = m).
  { intros x Hx. assert (Hin : In x vec) by (eapply Permutation_in; [exact Hvp | apply in_seq; lia]).
    destruct (In_nth vec x 0 Hin) as [m [Hm Em]]. exists m. rewrite Hvl in Hm. splits; auto.
    rewrite <- Em. rewrite W2 by (rewrite Hvl; exact Hm). lia. }
  assert (Hinj : forall x y, x < n -> y < n -> nth x inv 0 = nth y inv 0 -> x = y).
  { intros x y Hx Hy E. destruct (Hpos x Hx) as [m [_ [Em Ei]]]. destruct (Hpos y Hy) as [m' [_ [Em' Ei']]].
    rewrite <- Em, <- Em'. f_equal. lia. }
  assert (Hrange : forallb (fun i => i <? n) inv = true).
  { apply forallb_forall. intros v Hv. apply Nat.ltb_lt. destruct (In_nth inv v 0 Hv) as [x [Hx Ex]].
    rewrite W1 in Hx. destruct (Hpos x Hx) as [m [Hm [_ Ei]]]. lia. }
  assert (Hndi : nodupb inv = true).
  { apply nodupb_NoDup. apply (NoDup_nth inv 0). intros x y Hx Hy E. rewrite W1 in Hx, Hy. apply Hinj; assumption. }
  rewrite Hrange, Hndi. cbn [andb]. exists inv. splits; auto.
  - intros k Hk. assert (Ek : nth k idx 0 = nth k vec 0) by (unfold vec, perm_vec; rewrite app_nth1 by exact Hk; reflexivity).
    rewrite Ek, W2; [lia|]. rewrite Hvl. assert (length idx <= n); [|lia].
    rewrite <- Hvl. unfold vec, perm_vec. rewrite app_length. lia.
  - intros x Hx. destruct (Hpos x Hx) as [m [Hm [_ Ei]]]. lia.
  - intros x Hx Hl. destruct (Hpos x Hx) as [m [Hm [Em Ei]]]. rewrite Ei in Hl.
    rewrite <- Em. unfold vec, perm_vec. rewrite app_nth1 by exact Hl. apply nth_In. exact Hl.
Qed.

Lemma nth_map_fst : forall (l : list (nat * nat)) k, nth k (map fst l) 0 = fst (nth k l (0, 0)).
Proof. intros l k. change 0 with (fst (0, 0)) at 1. apply map_nth. Qed.
Lemma nth_map_snd : forall (l : list (nat * nat)) k, nth k (map snd l) 0 = snd (nth k l (0, 0)).
Proof. intros l k. change 0 with (snd (0, 0)) at 1. apply map_nth. Qed.

(* [pivs] is a returned list in the coordinates of the search, accepted by the checker; p, q are the
   permutations built from its rows and columns; an entry (i, j) of the structure is moved to
   (p[i], q[j]).  Inside the leading r x r block every entry lies on or above the diagonal and the
   k-th diagonal entry is the k-th pivot. *)
Theorem triangular_block : forall M pivs, wf_str M -> pivots_ok M pivs = true ->
  exists p q, perm_for_indices (m_rows M) (map fst pivs) = Some p /\
              perm_for_indices (m_cols M) (map snd pivs) = Some q /\
    let r := length pivs in
    (forall k, k < r -> nth (fst (nth k pivs (0, 0))) p 0 = k /\ nth (snd (nth k pivs (0, 0))) q 0 = k /\
                        In (snd (nth k pivs (0, 0))) (cols_in M (fst (nth k pivs (0, 0)))) /\
                        is_cand M (fst (nth k pivs (0, 0))) (snd (nth k pivs (0, 0))) = true) /\
    (forall i j, In j (cols_in M i) -> nth i p 0 < r -> nth j q 0 < r -> nth i p 0 <= nth j q 0).
Proof.
  intros M pivs Hwf Hok. apply pivots_ok_sound in Hok. destruct Hok as [Hr [Hc [He Htri]]].
  assert (Hrl : forall i, In i (map fst pivs) -> i < m_rows M).
  { intros i Hi. apply in_map_iff in Hi. destruct Hi as [p [E Hp]]. subst. destruct (He p Hp) as [A _]. eapply wf_row_lt; eassumption. }
  assert (Hcl : forall j, In j (map snd pivs) -> j < m_cols M).
  { intros j Hj. apply in_map_iff in Hj. destruct Hj as [p [E Hp]]. subst. destruct (He p Hp) as [A _]. destruct Hwf as [_ [Hcr _]]. eapply Hcr. exact A. }
  destruct (perm_for_indices_spec (m_rows M) (map fst pivs) Hr Hrl) as [p [Ep [Lp [P1 [P2 [P3 P4]]]]]].
  destruct (perm_for_indices_spec (m_cols M) (map snd pivs) Hc Hcl) as [q [Eq [Lq [Q1 [Q2 [Q3 Q4]]]]]].
  rewrite map_length in *.
  exists p, q. cbv zeta. splits; auto.
  - intros k Hk.
    rewrite <- nth_map_fst, <- nth_map_snd. rewrite P1, Q1 by exact Hk. rewrite nth_map_fst, nth_map_snd.
    destruct (He (nth k pivs (0, 0)) (nth_In _ _ Hk)) as [A B]. splits; auto.
  - intros i j Hij Hpi Hqj.
    assert (Hi : i < m_rows M) by (eapply wf_row_lt; eassumption).
    assert (Hj : j < m_cols M) by (destruct Hwf as [_ [Hcr _]]; eapply Hcr; exact Hij).
    pose proof (P3 i Hi Hpi) as Hin_i. pose proof (Q3 j Hj Hqj) as Hin_j.
    set (a := nth i p 0) in *. set (b := nth j q 0) in *.
    (* i is the row of the a-th pivot, j the column of the b-th *)
    assert (Ea : fst (nth a pivs (0, 0)) = i).
    { rewrite <- nth_map_fst. apply P4; [apply Hrl; apply nth_In; rewrite map_length; exact Hpi | exact Hi|].
      rewrite P1 by exact Hpi. reflexivity. }
    assert (Eb : snd (nth b pivs (0, 0)) = j).
    { rewrite <- nth_map_snd. apply Q4; [apply Hcl; apply nth_In; rewrite map_length; exact Hqj | exact Hj|].
      rewrite Q1 by exact Hqj. reflexivity. }
    destruct (Nat.le_gt_cases a b) as [Hle|Hgt]; [exact Hle|]. exfalso.
    (* b < a: the b-th pivot precedes the a-th, so its column must not occur in the a-th pivot row *)
    destruct (nth_split pivs (0, 0) Hqj) as [l1 [l2 [El Hl1]]].
    remember (nth b pivs (0, 0)) as x eqn:Ex.
    assert (Hlen : length pivs = length l1 + S (length l2)) by (rewrite El, app_length; reflexivity).
    apply (Htri l1 x l2 El (nth a pivs (0, 0))).
    + rewrite El. rewrite app_nth2 by lia. rewrite Hl1.
      destruct (a - b) as [|d] eqn:Ed; [lia|]. cbn [nth]. apply nth_In. lia.
    + rewrite Ea, Eb. exact Hij.
Qed.
