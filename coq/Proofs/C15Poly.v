(* C15, univariate polynomials over a field (poly.rs: div_rem; Model/EuclidPoly.v): the long division
   loop.  A polynomial is its coefficient list, lowest degree first, in normal form (no trailing zero,
   [p_norm f = f]).  For every normal f and every normal g <> 0 the loop returns (q, r), both normal, with
   f = q g + r (computed with the model's own + and * ) and r = 0 or deg r < deg g; division by 0 panics.
   Only what the loop needs is assumed of the coefficient dictionary F: the ring laws and that x / b is
   x * b^-1 for b <> 0 and panics for b = 0 (true of every field dictionary, C15Field.v). *)
From Coq Require Import ZArith Lia Bool Ring Arith List Setoid.
Require Import Yui.Base.Ring Yui.Model.Euclid Yui.Model.EuclidPoly.
Require Import Yui.Proofs.C15Gcd Yui.Proofs.C15Field.
Import ListNotations.

Section PolyDiv.
  Context {K : Type} (F : euc_dict K).
  Notation o := (d_ring F).
  Context (L : ring_laws o).
  Hypothesis one_neq_zero : rone o <> rzero o.
  Hypothesis div_by_zero : forall a, d_div F a (rzero o) = None.
  Hypothesis div_field : forall b, b <> rzero o ->
    exists i, rmul o b i = rone o /\ forall a, d_div F a b = Some (rmul o a i).
  Add Ring PKring : (ring_theory_of_laws o L).
  Declare Scope P_scope.
  Delimit Scope P_scope with P.
  Notation "0" := (rzero o) : P_scope.
  Notation "1" := (rone o) : P_scope.
  Notation "a + b" := (radd o a b) : P_scope.
  Notation "a * b" := (rmul o a b) : P_scope.
  Notation "a - b" := (rsub o a b) : P_scope.
  Notation "- a" := (rneg o a) : P_scope.

  Definition coef (f : list K) (n : nat) : K := nth n f 0%P.
  Definition peq (f g : list K) : Prop := forall n, coef f n = coef g n.
  Definition normal (f : list K) : Prop := p_norm F f = f.

  Lemma kz_reflect a : reflect (a = 0%P) (kzero F a).
  Proof. apply (reqb_spec o L). Qed.

  Lemma coef_nil n : coef [] n = 0%P.
  Proof. destruct n; reflexivity. Qed.
  Lemma coef_cons_0 a f : coef (a :: f) O = a.
  Proof. reflexivity. Qed.
  Lemma coef_cons_S a f m : coef (a :: f) (S m) = coef f m.
  Proof. reflexivity. Qed.
  Lemma coef_overflow f n : length f <= n -> coef f n = 0%P.
  Proof. apply nth_overflow. Qed.
  Lemma coef_last f : coef f (pred (length f)) = last f 0%P.
  Proof.
    induction f as [|a f IH]; [reflexivity|]. destruct f as [|b f]; [reflexivity|].
    change (coef (b :: f) (pred (length (b :: f))) = last (b :: f) 0%P). exact IH.
  Qed.

  Lemma coef_norm f n : coef (p_norm F f) n = coef f n.
  Proof.
    revert n. induction f as [|a f IH]; intros n; [reflexivity|]. cbn [p_norm].
    destruct (p_norm F f) as [|b r] eqn:E.
    - destruct (kz_reflect a) as [Z|NZ].
      + rewrite coef_nil. destruct n as [|m]; [symmetry; exact Z|]. rewrite coef_cons_S, <- (IH m). symmetry. apply coef_nil.
      + destruct n as [|m]; [reflexivity|]. rewrite !coef_cons_S, <- (IH m). reflexivity.
    - destruct n as [|m]; [reflexivity|]. rewrite !coef_cons_S. apply (IH m).
  Qed.
  Lemma norm_of_zero g : (forall n, coef g n = 0%P) -> p_norm F g = [].
  Proof.
    induction g as [|b g IH]; intros H; [reflexivity|]. cbn [p_norm].
    rewrite IH by (intros n; apply (H (S n))).
    destruct (kz_reflect b) as [_|N]; [reflexivity|]. exfalso. apply N. apply (H O).
  Qed.
  Lemma norm_peq f : forall g, peq f g -> p_norm F f = p_norm F g.
  Proof.
    induction f as [|a f IH]; intros g H.
    - symmetry. apply norm_of_zero. intros n. rewrite <- (H n). apply coef_nil.
    - destruct g as [|b g].
      + apply norm_of_zero. intros n. rewrite (H n). apply coef_nil.
      + cbn [p_norm]. rewrite (IH g) by (intros n; apply (H (S n))).
        pose proof (H O) as E. cbn in E. subst b. reflexivity.
  Qed.
  Lemma norm_idem f : normal (p_norm F f).
  Proof. apply norm_peq. intros n. apply coef_norm. Qed.
  Lemma normal_unique f g : normal f -> normal g -> peq f g -> f = g.
  Proof. intros Nf Ng H. rewrite <- Nf, <- Ng. now apply norm_peq. Qed.
  Lemma norm_last f : p_norm F f <> [] -> last (p_norm F f) 0%P <> 0%P.
  Proof.
    induction f as [|a f IH]; [intros H; contradiction|]. cbn [p_norm].
    destruct (p_norm F f) as [|b r] eqn:E.
    - destruct (kz_reflect a) as [Z|NZ]; [intros H; contradiction|]. intros _. exact NZ.
    - intros _. change (last (b :: r) 0%P <> 0%P). apply IH. discriminate.
  Qed.
  Lemma normal_last f : normal f -> f <> [] -> last f 0%P <> 0%P.
  Proof. intros N H. rewrite <- N. apply norm_last. rewrite N. exact H. Qed.
  Lemma last_normal f : last f 0%P <> 0%P -> normal f.
  Proof.
    unfold normal. induction f as [|a f IH]; intros H; [reflexivity|]. cbn [p_norm].
    destruct f as [|b f].
    - cbn. destruct (kz_reflect a) as [Z|_]; [contradiction|reflexivity].
    - rewrite IH by exact H. reflexivity.
  Qed.
  Lemma normal_length f m : normal f -> (forall n, m <= n -> coef f n = 0%P) -> length f <= m.
  Proof.
    intros N H. destruct (le_lt_dec (length f) m) as [|Gt]; [assumption|]. exfalso.
    assert (NE : f <> []) by (intros ->; cbn in Gt; lia).
    apply (normal_last f N NE). rewrite <- coef_last. apply H. lia.
  Qed.
  Lemma normal_nil : normal [].
  Proof. reflexivity. Qed.

  Lemma coef_add_raw f : forall g n, coef (p_add_raw F f g) n = (coef f n + coef g n)%P.
  Proof.
    induction f as [|a f IH]; intros g n.
    - cbn [p_add_raw]. rewrite coef_nil. ring.
    - destruct g as [|b g]; [cbn [p_add_raw]; rewrite coef_nil; ring|].
      cbn [p_add_raw]. destruct n as [|m]; [reflexivity|]. rewrite !coef_cons_S. apply IH.
  Qed.
  Lemma coef_neg f n : coef (p_neg F f) n = (- coef f n)%P.
  Proof.
    revert n. unfold p_neg. induction f as [|a f IH]; intros n; [cbn [map]; rewrite coef_nil; ring|].
    cbn [map]. destruct n as [|m]; [reflexivity|]. rewrite !coef_cons_S. apply IH.
  Qed.
  Lemma coef_scale c f n : coef (p_scale F c f) n = (c * coef f n)%P.
  Proof.
    revert n. unfold p_scale. induction f as [|a f IH]; intros n; [cbn [map]; rewrite coef_nil; ring|].
    cbn [map]. destruct n as [|m]; [reflexivity|]. rewrite !coef_cons_S. apply IH.
  Qed.

  (* sum_{i <= n} G i *)
  Fixpoint sumn (n : nat) (G : nat -> K) : K :=
    match n with O => G O | S m => (sumn m G + G (S m))%P end.
  Lemma sumn_ext n G G' : (forall i, i <= n -> G i = G' i) -> sumn n G = sumn n G'.
  Proof.
    induction n as [|n IH]; intros H; cbn; [apply H; lia|]. rewrite IH by (intros; apply H; lia).
    rewrite (H (S n)) by lia. reflexivity.
  Qed.
  Lemma sumn_add n G G' : sumn n (fun i => (G i + G' i)%P) = (sumn n G + sumn n G')%P.
  Proof. induction n as [|n IH]; cbn; [reflexivity|]. rewrite IH. ring. Qed.
  Lemma sumn_zero n : sumn n (fun _ => 0%P) = 0%P.
  Proof. induction n as [|n IH]; cbn; [reflexivity|]. rewrite IH. ring. Qed.
  Lemma sumn_shift n G : sumn (S n) G = (G O + sumn n (fun j => G (S j)))%P.
  Proof. induction n as [|n IH]; [reflexivity|]. cbn [sumn] in *. rewrite IH. ring. Qed.

  Definition conv (f g : list K) (n : nat) : K := sumn n (fun i => (coef f i * coef g (n - i))%P).

  Lemma coef_mul_raw f : forall g n, coef (p_mul_raw F f g) n = conv f g n.
  Proof.
    induction f as [|a f IH]; intros g n.
    - cbn [p_mul_raw]. rewrite coef_nil. unfold conv.
      rewrite (sumn_ext n _ (fun _ => 0%P)); [symmetry; apply sumn_zero|]. intros i _. rewrite coef_nil. ring.
    - cbn [p_mul_raw]. rewrite coef_add_raw, coef_scale. destruct n as [|m].
      + unfold conv. cbn. ring.
      + change (coef (0%P :: p_mul_raw F f g) (S m)) with (coef (p_mul_raw F f g) m). rewrite IH.
        unfold conv. rewrite sumn_shift. cbn [coef nth Nat.sub]. reflexivity.
  Qed.
  Lemma conv_ext_l f f' g n : peq f f' -> conv f g n = conv f' g n.
  Proof. intros H. apply sumn_ext. intros i _. now rewrite (H i). Qed.
  Lemma conv_add_l f f' g n : conv (p_add_raw F f f') g n = (conv f g n + conv f' g n)%P.
  Proof.
    unfold conv. rewrite <- sumn_add. apply sumn_ext. intros i _. rewrite coef_add_raw. ring.
  Qed.

  Lemma sumn_scale n a G : sumn n (fun i => (a * G i)%P) = (a * sumn n G)%P.
  Proof. induction n as [|n IH]; cbn; [reflexivity|]. rewrite IH. ring. Qed.
  Lemma sumn_all_zero n G : (forall i, i <= n -> G i = 0%P) -> sumn n G = 0%P.
  Proof. intros H. rewrite (sumn_ext n G (fun _ => 0%P) H). apply sumn_zero. Qed.
  Lemma sumn_rev n G : sumn n G = sumn n (fun i => G (n - i)).
  Proof.
    induction n as [|n IH]; [reflexivity|]. rewrite (sumn_shift n (fun i => G (S n - i))).
    cbn [sumn Nat.sub]. rewrite IH. ring.
  Qed.
  Lemma sumn_single n k G : k <= n -> (forall i, i <= n -> i <> k -> G i = 0%P) -> sumn n G = G k.
  Proof.
    induction n as [|n IH]; intros Hk H.
    - replace k with O by lia. reflexivity.
    - cbn [sumn]. destruct (Nat.eq_dec k (S n)) as [->|Ne].
      + rewrite sumn_all_zero by (intros i Hi; apply H; lia). ring.
      + rewrite IH by (try lia; intros i Hi Hik; apply H; lia). rewrite (H (S n)) by lia. ring.
  Qed.

  Lemma conv_comm f g n : conv f g n = conv g f n.
  Proof.
    unfold conv. rewrite sumn_rev. apply sumn_ext. intros i Hi.
    replace (n - (n - i)) with i by lia. ring.
  Qed.
  Lemma conv_ext_r f g g' n : peq g g' -> conv f g n = conv f g' n.
  Proof. intros H. apply sumn_ext. intros i _. now rewrite (H (n - i)). Qed.
  Lemma conv_add_r f g g' n : conv f (p_add_raw F g g') n = (conv f g n + conv f g' n)%P.
  Proof. rewrite conv_comm, conv_add_l, (conv_comm g), (conv_comm g'). reflexivity. Qed.
  Lemma conv_nil_l g n : conv [] g n = 0%P.
  Proof. unfold conv. apply sumn_all_zero. intros i _. rewrite coef_nil. ring. Qed.
  Lemma conv_cons a f g n :
    conv (a :: f) g n = (a * coef g n + match n with O => 0 | S m => conv f g m end)%P.
  Proof.
    rewrite <- coef_mul_raw. cbn [p_mul_raw]. rewrite coef_add_raw, coef_scale.
    destruct n as [|m]; [reflexivity|]. rewrite coef_cons_S, coef_mul_raw. reflexivity.
  Qed.
  Lemma conv_scale_l a g h n : conv (p_scale F a g) h n = (a * conv g h n)%P.
  Proof. unfold conv. rewrite <- sumn_scale. apply sumn_ext. intros i _. rewrite coef_scale. ring. Qed.
  Lemma conv_assoc f g h : forall n, conv (p_mul_raw F f g) h n = conv f (p_mul_raw F g h) n.
  Proof.
    induction f as [|a f IH]; intros n.
    - cbn [p_mul_raw]. rewrite !conv_nil_l. reflexivity.
    - cbn [p_mul_raw]. rewrite conv_add_l, conv_scale_l, !conv_cons, coef_mul_raw.
      destruct n as [|m]; [ring|]. rewrite IH. ring.
  Qed.

  (* c x^k * g *)
  Lemma coef_shift_mul c g : forall k n,
    coef (p_mul_raw F (repeat 0%P k ++ [c]) g) n = if n <? k then 0%P else (c * coef g (n - k))%P.
  Proof.
    induction k as [|k IH]; intros n.
    - cbn [repeat app p_mul_raw]. rewrite coef_add_raw, coef_scale. rewrite Nat.sub_0_r.
      replace (coef [0%P] n) with 0%P by (destruct n as [|[|m]]; reflexivity). cbn. ring.
    - cbn [repeat app p_mul_raw]. rewrite coef_add_raw, coef_scale. destruct n as [|m].
      + cbn. ring.
      + change (coef (0%P :: p_mul_raw F (repeat 0%P k ++ [c]) g) (S m))
          with (coef (p_mul_raw F (repeat 0%P k ++ [c]) g) m).
        rewrite IH. change (S m <? S k) with (m <? k). cbn [Nat.sub]. destruct (m <? k); ring.
  Qed.
  Lemma coef_mono_mul k c g n :
    coef (p_mul_raw F (p_mono F k c) g) n = if n <? k then 0%P else (c * coef g (n - k))%P.
  Proof.
    unfold p_mono. destruct (kz_reflect c) as [Z|_]; [|apply coef_shift_mul].
    cbn [p_mul_raw]. rewrite coef_nil, Z. destruct (n <? k); ring.
  Qed.
  Lemma normal_mono k c : normal (p_mono F k c).
  Proof.
    unfold p_mono. destruct (kz_reflect c) as [_|NZ]; [reflexivity|].
    apply last_normal. rewrite last_last. exact NZ.
  Qed.

  (* coefficients of the normalising operations *)
  Lemma coef_add f g n : coef (p_add F f g) n = (coef f n + coef g n)%P.
  Proof. unfold p_add. rewrite coef_norm. apply coef_add_raw. Qed.
  Lemma coef_mul f g n : coef (p_mul F f g) n = conv f g n.
  Proof. unfold p_mul. rewrite coef_norm. apply coef_mul_raw. Qed.
  Lemma coef_sub f g n : coef (p_sub F f g) n = (coef f n - coef g n)%P.
  Proof. unfold p_sub. rewrite coef_add, coef_neg. reflexivity. Qed.
  Lemma normal_add f g : normal (p_add F f g).
  Proof. apply norm_idem. Qed.

  Lemma poly_add_comm f g : p_add F f g = p_add F g f.
  Proof. apply norm_peq. intros n. rewrite !coef_add_raw. ring. Qed.
  Lemma poly_add_assoc f g h : p_add F f (p_add F g h) = p_add F (p_add F f g) h.
  Proof. apply norm_peq. intros n. rewrite !coef_add_raw, !coef_add. ring. Qed.
  Lemma poly_add_0_l f : normal f -> p_add F p_zero f = f.
  Proof. intros N. exact N. Qed.
  Lemma poly_add_neg f : p_add F f (p_neg F f) = p_zero.
  Proof. apply norm_of_zero. intros n. rewrite coef_add_raw, coef_neg. ring. Qed.
  Lemma poly_mul_comm f g : p_mul F f g = p_mul F g f.
  Proof. apply norm_peq. intros n. rewrite !coef_mul_raw. apply conv_comm. Qed.
  Lemma poly_mul_assoc f g h : p_mul F f (p_mul F g h) = p_mul F (p_mul F f g) h.
  Proof.
    apply norm_peq. intros n. rewrite !coef_mul_raw.
    rewrite (conv_ext_r f (p_mul F g h) (p_mul_raw F g h)) by (intros m; apply coef_norm).
    rewrite (conv_ext_l (p_mul F f g) (p_mul_raw F f g)) by (intros m; apply coef_norm).
    symmetry. apply conv_assoc.
  Qed.
  Lemma poly_mul_1_l f : normal f -> p_mul F (p_one F) f = f.
  Proof.
    intros N. unfold normal in N. rewrite <- N at 2. apply norm_peq. intros n. rewrite coef_mul_raw. unfold p_one.
    rewrite conv_cons. destruct n as [|m]; [ring|]. rewrite conv_nil_l. ring.
  Qed.
  Lemma poly_distr_l f g h : p_mul F (p_add F f g) h = p_add F (p_mul F f h) (p_mul F g h).
  Proof.
    apply norm_peq. intros n. rewrite coef_mul_raw, coef_add_raw, !coef_mul.
    rewrite (conv_ext_l (p_add F f g) (p_add_raw F f g)) by (intros m; apply coef_norm).
    apply conv_add_l.
  Qed.
  Lemma poly_eqb_eq f : forall g, p_eqb F f g = true <-> f = g.
  Proof.
    induction f as [|a f IH]; intros [|b g]; cbn [p_eqb]; try (split; [discriminate|congruence]); [tauto|].
    rewrite andb_true_iff, IH, (reqb_eq o L). split; [intros [-> ->]; reflexivity|intros [= -> ->]; auto].
  Qed.
  Lemma normal_mul f g : normal (p_mul F f g).
  Proof. apply norm_idem. Qed.
  Lemma normal_neg f : normal f -> normal (p_neg F f).
  Proof.
    intros N. destruct f as [|a f'] eqn:Ef; [reflexivity|]. rewrite <- Ef in *.
    apply last_normal. assert (NE : f <> []) by (rewrite Ef; discriminate).
    pose proof (normal_last f N NE) as H. unfold p_neg.
    assert (E : last (map (rneg o) f) 0%P = (- last f 0)%P).
    { clear -L. induction f as [|x [|y f] IH]; cbn [map last]; [ring|reflexivity|]. exact IH. }
    rewrite E. intros Z. apply H. transitivity (- - last f 0)%P; [ring|]. rewrite Z. ring.
  Qed.

  Lemma conv_lead f g : conv f g (pred (length f) + pred (length g)) = (last f 0 * last g 0)%P.
  Proof.
    unfold conv. rewrite (sumn_single _ (pred (length f))); [|lia|].
    - replace (pred (length f) + pred (length g) - pred (length f)) with (pred (length g)) by lia.
      rewrite !coef_last. reflexivity.
    - intros i Hi Ne. destruct (le_lt_dec i (pred (length f))) as [Le|Gt].
      + rewrite (coef_overflow g) by lia. ring.
      + rewrite (coef_overflow f) by lia. ring.
  Qed.
  Lemma conv_high f g n : pred (length f) + pred (length g) < n -> conv f g n = 0%P.
  Proof.
    intros H. unfold conv. apply sumn_all_zero. intros i Hi.
    destruct (le_lt_dec i (pred (length f))) as [Le|Gt].
    - rewrite (coef_overflow g) by lia. ring.
    - rewrite (coef_overflow f) by lia. ring.
  Qed.
  Lemma mul_length_le f g : length (p_mul F f g) <= S (pred (length f) + pred (length g)).
  Proof.
    apply normal_length; [apply norm_idem|]. intros n Hn. rewrite coef_mul. apply conv_high. lia.
  Qed.
  Lemma mul_lead f g : (last f 0 * last g 0)%P <> 0%P ->
    length (p_mul F f g) = S (pred (length f) + pred (length g)) /\
    last (p_mul F f g) 0%P = (last f 0 * last g 0)%P.
  Proof.
    intros NZ.
    assert (E : coef (p_mul F f g) (pred (length f) + pred (length g)) = (last f 0 * last g 0)%P)
      by (rewrite coef_mul; apply conv_lead).
    assert (Len : length (p_mul F f g) = S (pred (length f) + pred (length g))).
    { pose proof (mul_length_le f g) as Hle.
      destruct (le_lt_dec (length (p_mul F f g)) (pred (length f) + pred (length g))) as [Le|Gt]; [|lia].
      exfalso. apply NZ. rewrite <- E. apply coef_overflow. exact Le. }
    split; [exact Len|]. rewrite <- coef_last, Len. exact E.
  Qed.
  Lemma mul_nil_l g : p_mul F [] g = [].
  Proof. reflexivity. Qed.
  Lemma mul_nil_r f : p_mul F f [] = [].
  Proof. rewrite poly_mul_comm. reflexivity. Qed.
  Notation deg := (@p_lead_deg K).

  Lemma iter_small r g : (deg r <? deg g) = true -> p_iter F r g = Some (p_zero, r).
  Proof. intros H. unfold p_iter. rewrite H. reflexivity. Qed.

  Lemma iter_step r g : normal r -> normal g -> g <> [] -> (deg r <? deg g) = false ->
    exists q1 r1, p_iter F r g = Some (q1, r1) /\ normal q1 /\ normal r1 /\
      (forall n, (conv q1 g n + coef r1 n)%P = coef r n) /\
      length r1 <= pred (length r).
  Proof.
    intros Nr Ng NEg Hd. apply Nat.ltb_ge in Hd. unfold p_lead_deg in Hd.
    pose proof (normal_last g Ng NEg) as Lg.
    destruct (div_field (p_lead_coeff F g) Lg) as (i & Hi & Hdiv).
    unfold p_iter. rewrite (proj2 (Nat.ltb_ge _ _)) by exact Hd. rewrite Hdiv. cbn [obind].
    set (c := (p_lead_coeff F r * i)%P). set (k := p_lead_deg r - p_lead_deg g).
    do 2 eexists. split; [reflexivity|]. split; [apply normal_mono|]. split; [apply norm_idem|].
    assert (C : forall n, coef (p_sub F r (p_mul F (p_mono F k c) g)) n
                          = (coef r n - (if n <? k then 0 else c * coef g (n - k)))%P).
    { intros n. rewrite coef_sub, coef_mul, <- coef_mul_raw, coef_mono_mul. reflexivity. }
    split.
    - intros n. rewrite C, <- coef_mul_raw, coef_mono_mul. destruct (n <? k); ring.
    - apply normal_length; [apply norm_idem|]. intros n Hn. rewrite C.
      unfold k, p_lead_deg in *. destruct (Nat.ltb_spec n (pred (length r) - pred (length g))) as [Lt|Ge]; [lia|].
      destruct (Nat.eq_dec n (pred (length r))) as [->|Ne].
      + replace (pred (length r) - (pred (length r) - pred (length g))) with (pred (length g)) by lia.
        rewrite !coef_last. unfold c, p_lead_coeff.
        transitivity (last r 0 - last r 0 * (last g 0 * i))%P; [ring|]. fold (p_lead_coeff F g). rewrite Hi. ring.
      + rewrite (coef_overflow r n) by lia. rewrite (coef_overflow g) by (destruct g; [contradiction|cbn in *; lia]). ring.
  Qed.

  Lemma div_loop_spec f g : normal g -> g <> [] -> forall n q r,
    normal q -> normal r -> (forall m, (conv q g m + coef r m)%P = coef f m) ->
    length r <= pred (length g) + n ->
    exists q' r', p_div_loop F n q r g = Some (q', r') /\ normal q' /\ normal r' /\
      (forall m, (conv q' g m + coef r' m)%P = coef f m) /\ length r' <= pred (length g).
  Proof.
    intros Ng NEg. induction n as [|n IH]; intros q r Nq Nr Inv Len.
    - exists q, r. cbn [p_div_loop]. repeat split; try assumption. lia.
    - cbn [p_div_loop]. destruct (deg r <? deg g) eqn:Hd.
      + rewrite (iter_small r g Hd). cbn [obind fst snd]. apply IH.
        * apply normal_add.
        * exact Nr.
        * intros m. rewrite (conv_ext_l (p_add F q p_zero) q); [apply Inv|].
          intros j. rewrite coef_add. unfold p_zero. rewrite coef_nil. ring.
        * apply Nat.ltb_lt in Hd. unfold p_lead_deg in Hd. lia.
      + destruct (iter_step r g Nr Ng NEg Hd) as (q1 & r1 & E & Nq1 & Nr1 & St & Len1).
        rewrite E. cbn [obind fst snd]. apply IH.
        * apply normal_add.
        * exact Nr1.
        * intros m. rewrite (conv_ext_l (p_add F q q1) (p_add_raw F q q1)) by (intros j; apply coef_norm).
          rewrite conv_add_l. rewrite <- (Inv m), <- (St m). ring.
        * lia.
  Qed.

  Theorem poly_div_rem f g : normal f -> normal g -> g <> [] ->
    exists q r, p_div_rem F f g = Some (q, r) /\ normal q /\ normal r /\
      f = p_add F (p_mul F q g) r /\ (r = [] \/ length r < length g).
  Proof.
    intros Nf Ng NEg. unfold p_div_rem.
    destruct (div_loop_spec f g Ng NEg
                (if p_lead_deg g <=? p_lead_deg f then S (p_lead_deg f - p_lead_deg g) else O) p_zero f)
      as (q & r & E & Nq & Nr & Inv & Len).
    - apply normal_nil.
    - exact Nf.
    - intros m. unfold conv, p_zero. rewrite (sumn_ext m _ (fun _ => 0%P)) by (intros i _; rewrite coef_nil; ring).
      rewrite sumn_zero. ring.
    - unfold p_lead_deg. destruct (Nat.leb_spec (pred (length g)) (pred (length f))); lia.
    - exists q, r. split; [exact E|]. split; [exact Nq|]. split; [exact Nr|]. split.
      + apply normal_unique; [exact Nf|apply normal_add|]. intros m. rewrite coef_add, coef_mul. symmetry. apply Inv.
      + destruct r as [|b r]; [left; reflexivity|right]. destruct g; [contradiction|]. cbn [length pred] in *. lia.
  Qed.

  Theorem poly_div_by_zero f : p_div_rem F f [] = None.
  Proof.
    unfold p_div_rem. change (p_lead_deg (@nil K)) with O. cbn [Nat.leb]. cbn [p_div_loop].
    unfold p_iter. replace (deg f <? deg []) with false by (symmetry; apply Nat.ltb_ge, Nat.le_0_l).
    change (p_lead_coeff F []) with 0%P. rewrite div_by_zero. reflexivity.
  Qed.
End PolyDiv.

(* every field dictionary qualifies *)
Section PolyField.
  Context {K : Type} (o : ring_ops K) (inv : K -> option K) (FL : field_laws o inv).
  Notation F := (field_dict o inv).

  Theorem poly_division_main (f g : list K) : p_norm F f = f -> p_norm F g = g ->
    (g <> [] ->
       exists q r, d_div (poly_dict F) f g = Some q /\ d_rem (poly_dict F) f g = Some r /\
         p_div_rem F f g = Some (q, r) /\ p_norm F q = q /\ p_norm F r = r /\
         f = p_add F (p_mul F q g) r /\ (r = [] \/ length r < length g)) /\
    (g = [] -> d_div (poly_dict F) f g = None /\ d_rem (poly_dict F) f g = None).
  Proof.
    intros Nf Ng.
    assert (D0 : forall a, d_div F a (rzero (d_ring F)) = None).
    { intros a. cbn. unfold f_div. destruct (f_zero_reflect o inv FL (rzero o)) as [_|N]; [reflexivity|contradiction]. }
    assert (D1 : forall b, b <> rzero (d_ring F) ->
               exists i, rmul (d_ring F) b i = rone (d_ring F) /\ forall a, d_div F a b = Some (rmul (d_ring F) a i)).
    { intros b NZ. cbn in *. destruct (fl_inv o inv FL b NZ) as (i & Ei & Hi). exists i. split; [exact Hi|].
      intros a. unfold f_div. destruct (f_zero_reflect o inv FL b) as [|_]; [contradiction|]. rewrite Ei. reflexivity. }
    split.
    - intros NE. destruct (poly_div_rem F (fl_ring o inv FL) D1 f g Nf Ng NE) as (q & r & E & H).
      exists q, r. cbn [d_div d_rem poly_dict]. unfold p_div, p_rem. rewrite E. cbn [obind fst snd].
      split; [reflexivity|]. split; [reflexivity|]. split; [reflexivity|]. exact H.
    - intros ->. cbn [d_div d_rem poly_dict]. unfold p_div, p_rem.
      rewrite (poly_div_by_zero F D0 f). split; reflexivity.
  Qed.

  (* gcd / gcdx over K[x]: termination on the model's fuel (no correctness claim) *)
  Notation P := (poly_dict (field_dict o inv)).
  Notation nf := (fun f : list K => p_norm (field_dict o inv) f = f).

  Lemma p_is_zero_spec (f : list K) : is_zero P f = true <-> f = [].
  Proof. unfold is_zero. cbn. destruct f; cbn; split; congruence. Qed.

  Lemma p_rem_total (x y : list K) : nf x -> nf y -> y <> [] ->
    exists q r, d_div P x y = Some q /\ d_rem P x y = Some r /\ nf q /\ nf r /\ length r < length y.
  Proof.
    intros Nx Ny NE. destruct (proj1 (poly_division_main x y Nx Ny) NE) as (q & r & E1 & E2 & _ & Nq & Nr & _ & H).
    exists q, r. repeat split; try assumption. destruct H as [->|H]; [|exact H].
    destruct y; [contradiction|cbn; lia].
  Qed.

  (* gcd and gcdx run the same remainder sequence *)
  Lemma p_loops_total : forall fuel (x y s0 s1 t0 t1 : list K), nf x -> nf y -> length y < fuel ->
    exists d s t, gcd_loop P fuel x y = Some d /\ gcdx_loop P fuel x y s0 s1 t0 t1 = Some (d, s, t) /\ nf d.
  Proof.
    induction fuel as [|fuel IH]; intros x y s0 s1 t0 t1 Nx Ny Hf; [lia|]. cbn [gcd_loop gcdx_loop].
    destruct (is_zero P y) eqn:Z.
    - exists x, s0, t0. auto.
    - assert (NE : y <> []) by (intros E; apply p_is_zero_spec in E; congruence).
      destruct (p_rem_total x y Nx Ny NE) as (q & r & -> & -> & _ & Nr & Hr). cbn [obind].
      apply IH; [exact Ny|exact Nr|lia].
  Qed.

  Lemma p_ring_ops_normal (a b : list K) :
    nf (radd (d_ring P) a b) /\ nf (rmul (d_ring P) a b) /\ nf (rsub (d_ring P) a b).
  Proof.
    pose proof (fl_ring o inv FL) as L.
    repeat split; cbn; unfold rsub; cbn; try apply (norm_idem (field_dict o inv) L).
  Qed.

  Lemma p_divides_total (x y : list K) : nf x -> nf y -> exists b, divides P x y = Some b.
  Proof.
    intros Nx Ny. unfold divides. destruct (is_zero P x) eqn:Z; [eauto|].
    assert (NE : x <> []) by (intros E; apply p_is_zero_spec in E; congruence).
    destruct (p_rem_total y x Ny Nx NE) as (q & r & _ & -> & _). cbn [obind]. eauto.
  Qed.

  Lemma p_normalized_normal (x : list K) : nf x -> nf (normalized P x).
  Proof.
    intros Nx. unfold normalized. destruct (is_one P (d_nunit P x)); [exact Nx|]. apply p_ring_ops_normal.
  Qed.

  Theorem poly_gcd_total (f g : list K) : nf f -> nf g ->
    (exists d, p_gcd (field_dict o inv) f g = Some d /\ nf d) /\
    (exists d s t, p_gcdx (field_dict o inv) f g = Some (d, s, t) /\ nf d).
  Proof.
    intros Nf Ng. unfold p_gcd, p_gcdx, gcd, gcdx, p_fuel. split.
    - destruct (is_zero P f && is_zero P g); [exists []; split; reflexivity|].
      destruct (p_divides_total f g Nf Ng) as [b1 ->]. cbn [obind].
      destruct b1; [eexists; split; [reflexivity|apply p_normalized_normal; exact Nf]|].
      destruct (p_divides_total g f Ng Nf) as [b2 ->]. cbn [obind].
      destruct b2; [eexists; split; [reflexivity|apply p_normalized_normal; exact Ng]|].
      destruct (p_loops_total (S (S (length g))) f g [] [] [] [] Nf Ng ltac:(lia)) as (d & _ & _ & -> & _ & Nd). cbn [obind].
      eexists; split; [reflexivity|apply p_normalized_normal; exact Nd].
    - destruct (is_zero P f && is_zero P g); [exists [], [], []; split; reflexivity|].
      destruct (p_divides_total f g Nf Ng) as [b1 ->]. cbn [obind].
      destruct b1; [do 3 eexists; split; [reflexivity|apply p_ring_ops_normal]|].
      destruct (p_divides_total g f Ng Nf) as [b2 ->]. cbn [obind].
      destruct b2; [do 3 eexists; split; [reflexivity|apply p_ring_ops_normal]|].
      destruct (p_loops_total (S (S (length g))) f g (rone (d_ring P)) (rzero (d_ring P)) (rzero (d_ring P)) (rone (d_ring P))
                  Nf Ng ltac:(lia)) as (d & s & t & _ & -> & Nd). cbn [obind].
      destruct (is_one P (d_nunit P d)); do 3 eexists; (split; [reflexivity|]); [exact Nd|apply p_ring_ops_normal].
  Qed.
End PolyField.
