(* C11 - progress of the transition system: no reachable non-terminal state is stuck (every busy
   thread can take its next step on its own, an idle thread can take any remaining row), and every run
   is finite: each enabled step decreases a measure bounded by (2*Pmax + 3) * rows.  A retry strictly
   advances the thread's snapshot (it consumes a pivot committed by another thread), and at most one
   pivot per remaining row is ever committed. *)
From Coq Require Import List Bool Arith Lia Permutation.
Require Import Yui.Model.Pivot Yui.Proofs.C11Base Yui.Proofs.C11Seq Yui.Proofs.C11Worker Yui.Proofs.C11Safety.
Import ListNotations.

Section Progress.
Variable M : mstr.
Hypothesis Hwf : wf_str M.
Variable nthr : nat.
Variable Pmax : nat.       (* bound on the length of the pivot log *)

Definition tau (th : thread) : nat :=
  match t_pc th with
  | PIdle => 0
  | PSearched _ => 2 * (Pmax - t_snap th) + 1
  | PRetrying => 2 * (Pmax - t_snap th) + 2
  end.
Definition beta (th : thread) : nat := match t_pc th with PIdle => 0 | _ => 1 end.

Definition sumf (f : thread -> nat) (g : nat -> thread) : nat :=
  list_sum (map (fun t => f (g t)) (seq 0 nthr)).

Definition W : nat := 2 * Pmax + 3.
Definition mu (s : gstate) : nat := W * length (g_todo s) + sumf tau (g_thr s).
(* the log can still grow by one pivot per row that is waiting or being processed *)
Definition PB (s : gstate) : Prop := length (g_log s) + length (g_todo s) + sumf beta (g_thr s) <= Pmax.

Lemma list_sum_cons : forall a l, list_sum (a :: l) = a + list_sum l.
Proof. reflexivity. Qed.

Lemma sum_upd_gen : forall (f : thread -> nat) g t v l, NoDup l -> In t l ->
  list_sum (map (fun x => f (thr_upd g t v x)) l) + f (g t) = list_sum (map (fun x => f (g x)) l) + f v.
Proof.
  intros f g t v l. induction l as [|a r IH]; intros Hnd Hin; [destruct Hin|].
  inversion Hnd as [|? ? Ha Hr]; subst. cbn [map]. rewrite !list_sum_cons. destruct Hin as [Hin|Hin].
  - subst a. rewrite thr_upd_same.
    assert (E : map (fun x => f (thr_upd g t v x)) r = map (fun x => f (g x)) r).
    { apply map_ext_in. intros x Hx. rewrite thr_upd_other; [reflexivity|]. intros E. subst. apply Ha. exact Hx. }
    rewrite E. lia.
  - specialize (IH Hr Hin). rewrite thr_upd_other by (intros E; subst; apply Ha; exact Hin). lia.
Qed.

Lemma sumf_upd : forall f g t v, t < nthr -> sumf f (thr_upd g t v) + f (g t) = sumf f g + f v.
Proof.
  intros f g t v Ht. unfold sumf. apply sum_upd_gen; [apply seq_NoDup | apply in_seq; lia].
Qed.

Lemma remove_row_length : forall x l, In x l -> S (length (remove_row x l)) = length l.
Proof.
  intros x l. induction l as [|y r IH]; intros H; [destruct H|]. cbn [remove_row].
  destruct (x =? y) eqn:E; [reflexivity|]. cbn [length]. f_equal. apply IH.
  destruct H as [H|H]; [subst; rewrite Nat.eqb_refl in E; discriminate | exact H].
Qed.

Lemma update_diff_nil : forall w, wk_update_diff [] w = w.
Proof. reflexivity. Qed.

(* thread t is replaced (and possibly the log, the waiting rows): what has to hold of the parts *)
Lemma upd_decreases : forall s t th' L' T', t < nthr -> PB s ->
  length L' + length T' + beta th' <= length (g_log s) + length (g_todo s) + beta (g_thr s t) ->
  W * length T' + tau th' < W * length (g_todo s) + tau (g_thr s t) ->
  PB (mk_gstate L' T' (thr_upd (g_thr s) t th')) /\ mu (mk_gstate L' T' (thr_upd (g_thr s) t th')) < mu s.
Proof.
  intros s t th' L' T' Ht HB Hb Hm. unfold PB, mu in *. cbn [g_log g_todo g_thr].
  pose proof (sumf_upd tau (g_thr s) t th' Ht). pose proof (sumf_upd beta (g_thr s) t th' Ht). split; lia.
Qed.

Lemma tau_beta_choice : forall k w c,
  tau (mk_thread k w (pc_of_choice c)) <= 2 * (Pmax - k) + 1 /\ beta (mk_thread k w (pc_of_choice c)) <= 1.
Proof. intros k w c. unfold tau, beta. cbn [t_pc t_snap]. destruct c; cbn [pc_of_choice]; lia. Qed.

Lemma step_decreases : forall s e, GInv M s -> PB s -> enabled nthr s e = true ->
  exists s', step M nthr s e = Some s' /\ GInv M s' /\ PB s' /\ mu s' < mu s.
Proof.
  intros s e G HB Hen. destruct (step_ok M Hwf nthr s e G) as [s' [Es HG']]. exists s'. split; [exact Es|]. split; [exact HG'|].
  unfold step in Es. rewrite Hen in Es. cbn [negb] in Es.
  destruct e as [t row | t | t]; cbn [enabled] in Hen.
  - (* start *)
    apply andb_true_iff in Hen. destruct Hen as [Hen Hrow]. apply andb_true_iff in Hen. destruct Hen as [Ht Hidle].
    apply Nat.ltb_lt in Ht. apply memb_In in Hrow.
    destruct (wk_init M (g_log s) row) as [w0|]; [|discriminate].
    destruct (wk_search M (g_log s) w0) as [[w1 c]|]; [|discriminate]. inversion Es; subst s'. clear Es.
    pose proof (remove_row_length row (g_todo s) Hrow) as Hl.
    destruct (tau_beta_choice (length (g_log s)) w1 c) as [Hn1 Hn2].
    assert (Hold : tau (g_thr s t) = 0 /\ beta (g_thr s t) = 0).
    { unfold tau, beta, is_idle in *. destruct (t_pc (g_thr s t)); try discriminate. split; reflexivity. }
    destruct Hold as [Ho1 Ho2]. apply upd_decreases; try assumption.
    + rewrite Ho2, <- Hl. cbn [length]. lia.
    + rewrite Ho1, <- Hl, Nat.mul_succ_r. unfold W. lia.
  - (* enter *)
    apply andb_true_iff in Hen. destruct Hen as [Ht Hpc]. apply Nat.ltb_lt in Ht.
    destruct (t_pc (g_thr s t)) as [|j|] eqn:Epc; try discriminate.
    pose proof (gi_thr M s G t) as Hti. unfold thread_inv_of in Hti. rewrite Epc in Hti. destruct Hti as [Hk [_ [_ [Hq _]]]].
    set (k := t_snap (g_thr s t)) in *.
    destruct (wk_should_retry (wk_update_diff (skipn k (g_log s)) (t_w (g_thr s t)))) eqn:Er.
    + (* retry: the snapshot strictly advances *)
      inversion Es; subst s'. clear Es.
      assert (Hlt : k < length (g_log s)).
      { destruct (Nat.lt_ge_cases k (length (g_log s))) as [H|H]; [exact H|]. exfalso.
        rewrite skipn_all2 in Er by exact H. rewrite update_diff_nil in Er. unfold wk_should_retry in Er. rewrite Hq in Er. discriminate. }
      assert (Hlog : length (g_log s) <= Pmax) by (unfold PB in HB; lia).
      apply upd_decreases; try assumption; unfold tau, beta; rewrite Epc; cbn [t_pc t_snap]; fold k; lia.
    + (* commit *)
      destruct (pset (g_log s) _ j) as [P'|] eqn:Eps; [|discriminate]. inversion Es; subst s'. clear Es.
      apply pset_inv in Eps. destruct Eps as [EP' _]. subst P'.
      apply upd_decreases; try assumption; unfold tau, beta; rewrite Epc, ?app_length; cbn [t_pc length]; lia.
  - (* research *)
    apply andb_true_iff in Hen. destruct Hen as [Ht Hpc]. apply Nat.ltb_lt in Ht.
    destruct (t_pc (g_thr s t)) as [|j|] eqn:Epc; try discriminate.
    set (k := t_snap (g_thr s t)) in *.
    destruct (wk_search M (firstn k (g_log s)) (t_w (g_thr s t))) as [[w1 c]|]; [|discriminate].
    inversion Es; subst s'. clear Es. destruct (tau_beta_choice k w1 c) as [Hn1 Hn2].
    apply upd_decreases; try assumption.
    + unfold beta at 2. rewrite Epc. lia.
    + unfold tau at 2. rewrite Epc. fold k. lia.
Qed.

(* number of enabled events taken by a run *)
Fixpoint eff_steps (sched : list event) (s : gstate) : nat :=
  match sched with
  | [] => 0
  | e :: r =>
      match step M nthr s e with
      | Some s' => (if enabled nthr s e then 1 else 0) + eff_steps r s'
      | None => 0
      end
  end.

Lemma disabled_step : forall s e, enabled nthr s e = false -> step M nthr s e = Some s.
Proof. intros s e H. unfold step. rewrite H. reflexivity. Qed.

Theorem runs_bounded : forall sched s, GInv M s -> PB s -> eff_steps sched s <= mu s.
Proof.
  induction sched as [|e r IH]; intros s G HB; cbn [eff_steps]; [lia|].
  destruct (enabled nthr s e) eqn:Een.
  - destruct (step_decreases s e G HB Een) as [s' [Es [G' [HB' Hlt]]]]. rewrite Es. specialize (IH s' G' HB'). lia.
  - rewrite (disabled_step s e Een). specialize (IH s G HB). lia.
Qed.

(* no stuck state: a busy thread's own next event is enabled; an idle thread can start any waiting row *)
Theorem no_stuck : forall s t, t < nthr ->
  match t_pc (g_thr s t) with
  | PSearched _ => enabled nthr s (EEnter t) = true
  | PRetrying => enabled nthr s (EResearch t) = true
  | PIdle => forall row, In row (g_todo s) -> enabled nthr s (EStart t row) = true
  end.
Proof.
  intros s t Ht. apply Nat.ltb_lt in Ht. destruct (t_pc (g_thr s t)) eqn:Epc; cbn [enabled].
  - intros row Hrow. unfold is_idle. rewrite Ht, Epc. apply memb_In in Hrow. rewrite Hrow. reflexivity.
  - rewrite Ht, Epc. reflexivity.
  - rewrite Ht, Epc. reflexivity.
Qed.

Theorem nonterminal_enabled : forall s, 0 < nthr -> terminal nthr s = false -> exists e, enabled nthr s e = true.
Proof.
  intros s Hn Hterm. unfold terminal in Hterm. apply andb_false_iff in Hterm.
  destruct (forallb (fun t => is_idle (g_thr s t)) (seq 0 nthr)) eqn:Eall.
  - (* every thread idle: rows are waiting, thread 0 can start one *)
    destruct Hterm as [Hterm|Hterm]; [|discriminate].
    destruct (g_todo s) as [|row rest] eqn:Et; [discriminate|].
    exists (EStart 0 row). pose proof (no_stuck s 0 Hn) as H.
    assert (Hi : is_idle (g_thr s 0) = true).
    { rewrite forallb_forall in Eall. apply Eall. apply in_seq. lia. }
    unfold is_idle in Hi. destruct (t_pc (g_thr s 0)); try discriminate. apply H. rewrite Et. left. reflexivity.
  - (* some thread is busy: its own step is enabled *)
    assert (Hex : exists t, t < nthr /\ is_idle (g_thr s t) = false).
    { clear Hterm. assert (G : forall l, forallb (fun t => is_idle (g_thr s t)) l = false -> exists t, In t l /\ is_idle (g_thr s t) = false).
      { induction l as [|a r IH]; cbn [forallb]; intros H; [discriminate|]. apply andb_false_iff in H.
        destruct (is_idle (g_thr s a)) eqn:Ea.
        - destruct H as [H|H]; [discriminate|]. destruct (IH H) as [t [Ht1 Ht2]]. exists t. split; [right; exact Ht1 | exact Ht2].
        - exists a. split; [left; reflexivity | exact Ea]. }
      destruct (G _ Eall) as [t [Ht1 Ht2]]. exists t. apply in_seq in Ht1. split; [lia | exact Ht2]. }
    destruct Hex as [t [Ht Hb]]. pose proof (no_stuck s t Ht) as H. unfold is_idle in Hb.
    destruct (t_pc (g_thr s t)); [discriminate | exists (EEnter t); exact H | exists (EResearch t); exact H].
Qed.

End Progress.

Lemma sumf_idle : forall nthr f, f idle_thread = 0 -> sumf nthr f (fun _ => idle_thread) = 0.
Proof.
  intros nthr f H. unfold sumf. induction (seq 0 nthr) as [|a r IH]; [reflexivity|].
  cbn [map]. now rewrite list_sum_cons, IH, H.
Qed.

Lemma init_PB : forall M nthr P, PB nthr (length P + length (remain_rows M P)) (init_state M P).
Proof.
  intros M nthr P. unfold PB, init_state. cbn [g_log g_todo g_thr]. rewrite sumf_idle by reflexivity. lia.
Qed.

Lemma init_mu : forall M nthr Pmax P, mu nthr Pmax (init_state M P) = W Pmax * length (remain_rows M P).
Proof.
  intros M nthr Pmax P. unfold mu, init_state. cbn [g_log g_todo g_thr]. rewrite sumf_idle by reflexivity. lia.
Qed.

Theorem progress_bound : forall M (Hwf : wf_str M) nthr P sched, PInv M P ->
  let R := length (remain_rows M P) in
  eff_steps M nthr sched (init_state M P) <= (2 * (length P + R) + 3) * R.
Proof.
  intros M Hwf nthr P sched HP R.
  pose proof (runs_bounded M Hwf nthr (length P + R) sched (init_state M P) (init_state_inv M P HP) (init_PB M nthr P)) as H.
  rewrite init_mu in H. exact H.
Qed.
