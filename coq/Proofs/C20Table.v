(* C20: [table_of_strs] over a grid of strings puts the right cells in the right places (sorted distinct
   columns, descending rows, default string elsewhere), and its FORMAT_CLEAN layout, trimmed the way kh / ckh
   print it, reads back to exactly the non-default cells ([read_kh_text], [read_ckh_text]).  The grids of
   modules (display_table, display_seq) are in C20Print.v. *)
From Coq Require Import ZArith NArith List Bool Arith Lia ZifyN ZifyBool ZifyNat Sorted.
Require Import Yui.Model.Table Yui.Proofs.C20Str Yui.Proofs.C20Layout.
Require Import Yui.Base.ListFacts.
Import ListNotations.

Lemma insert_u_In : forall x l z, In z (insert_u x l) <-> z = x \/ In z l.
Proof.
  induction l as [|y r IH]; intro z; cbn [insert_u].
  - cbn. intuition auto.
  - destruct (Z.compare_spec x y) as [E|L|G].
    + subst. cbn. intuition auto.
    + cbn. intuition auto.
    + cbn [In]. rewrite IH. intuition auto.
Qed.
Lemma sort_u_In : forall l z, In z (sort_u l) <-> In z l.
Proof.
  induction l as [|x l IH]; intro z; [reflexivity|].
  unfold sort_u in *. cbn [fold_right]. rewrite insert_u_In, IH. cbn. intuition auto.
Qed.
Lemma insert_u_HdRel : forall y x r, HdRel Z.lt y r -> (y < x)%Z -> HdRel Z.lt y (insert_u x r).
Proof.
  intros y x [|z r'] H Hyx; cbn [insert_u]; [now constructor|].
  inversion H; subst. destruct (Z.compare_spec x z); now constructor.
Qed.
Lemma insert_u_Sorted : forall x l, Sorted Z.lt l -> Sorted Z.lt (insert_u x l).
Proof.
  induction l as [|y r IH]; intro H; cbn [insert_u]; [repeat constructor|].
  inversion H as [|y' r' Hr Hhd]; subst.
  destruct (Z.compare_spec x y) as [E|L|G].
  - exact H.
  - constructor; [exact H | now constructor].
  - constructor; [now apply IH | now apply insert_u_HdRel].
Qed.
Lemma sort_u_Sorted : forall l, Sorted Z.lt (sort_u l).
Proof.
  induction l as [|x l IH]; [constructor|]. unfold sort_u in *. cbn [fold_right]. now apply insert_u_Sorted.
Qed.

Lemma lookup2_In : forall A (g : list ((Z * Z) * A)) i j a, lookup2 g i j = Some a -> In ((i, j), a) g.
Proof.
  induction g as [|[[i' j'] a'] g IH]; intros i j a H; [discriminate|].
  cbn [lookup2] in H. destruct (Z.eqb i i' && Z.eqb j j') eqn:E.
  - apply andb_true_iff in E. destruct E as [E1 E2]. apply Z.eqb_eq in E1, E2. inversion H; subst. now left.
  - right. now apply IH.
Qed.
Lemma lookup2_keys : forall A (g : list ((Z * Z) * A)) i j a, lookup2 g i j = Some a ->
  In i (cols_of g) /\ In j (rev (rows_of g)).
Proof.
  intros A g i j a H. apply lookup2_In in H. unfold cols_of, rows_of. rewrite rev_involutive, !sort_u_In.
  split; apply in_map_iff; exists ((i, j), a); auto.
Qed.

Lemma all_some_map : forall A B (f : A -> option B) (h : A -> B) l,
  (forall a, In a l -> f a = Some (h a)) -> all_some (map f l) = Some (map h l).
Proof.
  induction l as [|a l IH]; intro H; [reflexivity|].
  cbn [map all_some]. rewrite (H a (or_introl eq_refl)), IH by (intros; apply H; now right). reflexivity.
Qed.
Lemma all_some_ints : forall l, all_some (map parse_Z_dec (map str_of_Z l)) = Some l.
Proof.
  intro l. rewrite map_map. rewrite (all_some_map _ _ _ (fun z => z)); [now rewrite map_id|].
  intros. apply parse_Z_dec_str_of_Z.
Qed.
Lemma combine_map_r : forall A B (f : A -> B) l, combine l (map f l) = map (fun a => (a, f a)) l.
Proof. induction l as [|a l IH]; cbn; congruence. Qed.

Definition getd (g : list ((Z * Z) * str)) (def : str) (i j : Z) : str :=
  match lookup2 g i j with Some s => s | None => def end.
(* the non-default cells, rows from the top, columns from the left *)
Definition expected_cells (g : list ((Z * Z) * str)) (def : str) : list ((Z * Z) * str) :=
  flat_map (fun j => flat_map (fun i => let s := getd g def i j in
                                        if str_eqb s def then [] else [((i, j), s)]) (cols_of g))
           (rows_of g).

Theorem read_grid_table : forall l0 l1 g def,
  (forall i j s, lookup2 g i j = Some s -> s <> dot) ->
  read_grid (table_of_strs l0 l1 g def) = Some (expected_cells g def).
Proof.
  intros l0 l1 g def Hdot. unfold table_of_strs, read_grid. rewrite all_some_ints.
  rewrite map_map.
  rewrite (all_some_map _ _ _ (fun j => flat_map (fun i => let s := getd g def i j in
                                   if str_eqb s def then [] else [((i, j), s)]) (cols_of g))).
  - cbn [option_map]. unfold expected_cells. now rewrite flat_map_concat_map.
  - intros j _. unfold read_row. rewrite parse_Z_dec_str_of_Z, combine_map_r. f_equal.
    rewrite flat_map_concat_map, map_map, <- flat_map_concat_map.
    apply flat_map_ext. intro i. cbn [fst snd]. unfold getd.
    destruct (lookup2 g i j) as [s|] eqn:E.
    + destruct (str_eqb s def) eqn:Ed.
      * now rewrite str_eqb_refl.
      * assert (Hs : str_eqb s dot = false) by (apply str_eqb_neq; eapply Hdot; eauto).
        now rewrite Hs.
    + now rewrite !str_eqb_refl.
Qed.

Theorem expected_cells_spec : forall g def i j s,
  In ((i, j), s) (expected_cells g def) <-> lookup2 g i j = Some s /\ s <> def.
Proof.
  intros g def i j s. unfold expected_cells. rewrite in_flat_map. split.
  - intros (j' & Hj & H). apply in_flat_map in H. destruct H as (i' & Hi & H).
    cbn zeta in H. destruct (str_eqb (getd g def i' j') def) eqn:E; [destruct H|].
    destruct H as [H|[]]. inversion H; subst. apply str_eqb_neq in E. split; [|exact E].
    unfold getd in *. destruct (lookup2 g i j); [reflexivity | congruence].
  - intros [Hl Hs]. destruct (lookup2_keys _ g i j s Hl) as [Hi Hj]. apply in_rev in Hj.
    exists j. split; [exact Hj|]. apply in_flat_map. exists i. split; [exact Hi|].
    cbn zeta. unfold getd. rewrite Hl. apply str_eqb_neq in Hs. rewrite Hs. now left.
Qed.

(* the structure of the table itself (no reading involved) *)
Theorem table_of_strs_shape : forall l0 l1 g def,
  Sorted Z.lt (cols_of g) /\ Sorted Z.lt (rev (rows_of g)) /\
  (forall i, In i (cols_of g) <-> exists j s, In ((i, j), s) g) /\
  (forall j, In j (rows_of g) <-> exists i s, In ((i, j), s) g) /\
  table_of_strs l0 l1 g def =
    ((l1 ++ [92%N] ++ l0) :: map str_of_Z (cols_of g)) ::
    map (fun j => str_of_Z j :: map (fun i => if str_eqb (getd g def i j) def then dot else getd g def i j) (cols_of g))
        (rows_of g).
Proof.
  intros l0 l1 g def. unfold cols_of, rows_of. rewrite rev_involutive.
  repeat split; try apply sort_u_Sorted.
  - rewrite sort_u_In, in_map_iff. intros ([[i' j] s] & E & H). cbn in E. subst. eauto.
  - intros (j & s & H). apply sort_u_In, in_map_iff. exists ((i, j), s). auto.
  - rewrite <- in_rev, sort_u_In, in_map_iff. intros ([[i j'] s] & E & H). cbn in E. subst. eauto.
  - intros (i & s & H). apply in_rev. rewrite rev_involutive. apply sort_u_In, in_map_iff. exists ((i, j), s). auto.
Qed.

(* a data cell: non-empty, one line, last character not white space *)
Definition goodc (s : str) : Prop := s <> [] /\ (forall c, In c s -> c <> 10%N) /\ is_ws (last s 0%N) = false.

Lemma is_space_ws : forall c, is_space c = true -> is_ws c = true.
Proof. intros c H. unfold is_space in H. apply N.eqb_eq in H. now subst. Qed.
Lemma goodc_okc : forall s, goodc s -> okc s.
Proof.
  intros s (Hne & Hnl & Hl). split; [exact Hnl|]. apply rstrip_id. right.
  destruct (is_space (last s 0%N)) eqn:E; [apply is_space_ws in E; congruence | reflexivity].
Qed.
Lemma str_of_Z_okh : forall z, okh (str_of_Z z).
Proof.
  intro z. split; [apply str_of_Z_nonempty|]. intros c Hc. apply str_of_Z_chars in Hc.
  unfold is_space. split; [lia|]. apply N.eqb_neq. lia.
Qed.
Lemma str_of_Z_goodc : forall z, goodc (str_of_Z z).
Proof.
  intro z. pose proof (str_of_Z_nonempty z) as Hne. split; [exact Hne|]. split.
  - intros c Hc. apply str_of_Z_chars in Hc. lia.
  - destruct (exists_last Hne) as (s' & x & E). rewrite E, last_last.
    assert (Hx : In x (str_of_Z z)) by (rewrite E; apply in_or_app; right; now left).
    apply str_of_Z_chars in Hx. unfold is_ws. lia.
Qed.
Lemma dot_goodc : goodc dot.
Proof. split; [discriminate|]. split; [intros c [<-|[]]; discriminate | reflexivity]. Qed.

(* what a data cell of the table shows: the entry, or a dot in place of the default *)
Lemma table_cell_goodc : forall (g : list ((Z * Z) * str)) def i j,
  (forall i j s, lookup2 g i j = Some s -> goodc s) ->
  goodc (if str_eqb (getd g def i j) def then dot else getd g def i j).
Proof.
  intros g def i j Hg. unfold getd. destruct (lookup2 g i j) as [s|] eqn:E.
  - destruct (str_eqb s def); [apply dot_goodc | now apply (Hg i j)].
  - rewrite str_eqb_refl. apply dot_goodc.
Qed.

Definition title_ij : str := s_j ++ [92%N] ++ s_i.
Lemma title_okh : okh title_ij.
Proof.
  split; [discriminate|]. intros c Hc. cbn in Hc. unfold is_space.
  destruct Hc as [<-|[<-|[<-|[]]]]; split; try discriminate; reflexivity.
Qed.

Lemma table_of_strs_wf : forall g def,
  (forall i j s, lookup2 g i j = Some s -> goodc s) -> goodc def ->
  wf_table (table_of_strs s_i s_j g def).
Proof.
  intros g def Hg Hdef. unfold table_of_strs, wf_table. split; [discriminate|]. split.
  - constructor; [apply title_okh|]. apply Forall_forall. intros c Hc. apply in_map_iff in Hc.
    destruct Hc as (z & <- & _). apply str_of_Z_okh.
  - apply Forall_forall. intros r Hr. apply in_map_iff in Hr. destruct Hr as (j & <- & _). split.
    + cbn [length]. now rewrite !map_length.
    + constructor; [apply goodc_okc, str_of_Z_goodc|]. apply Forall_forall. intros c Hc.
      apply in_map_iff in Hc. destruct Hc as (i & <- & _). apply goodc_okc, table_cell_goodc, Hg.
Qed.

Lemma render_row_shape : forall ws r, ws <> [] -> length r = length ws ->
  exists P, render_row ws r = 32%N :: P ++ [32%N] /\ (exists S, P = hd [] r ++ S) /\ (exists S', P = S' ++ last r []).
Proof.
  induction ws as [|w ws IH]; intros r Hne Hlen; [congruence|].
  destruct r as [|c r]; [discriminate|]. cbn [render_row hd tl].
  destruct ws as [|w' ws'].
  - destruct r; [|discriminate]. exists c. cbn [last]. split; [reflexivity|].
    split; [exists []; now rewrite app_nil_r | exists []; reflexivity].
  - cbn [length] in Hlen. destruct (IH r ltac:(discriminate) ltac:(cbn [length] in *; lia)) as (P & E & _ & (S' & ES')).
    rewrite E. exists (c ++ spaces (w - length c) ++ [32%N] ++ 32%N :: P). split.
    + cbn [app]. f_equal. rewrite <- !app_assoc. cbn [app]. reflexivity.
    + split; [eexists; reflexivity|].
      exists (c ++ spaces (w - length c) ++ [32%N] ++ 32%N :: S').
      destruct r as [|c2 r2]; [discriminate|]. rewrite ES'.
      change (last (c :: c2 :: r2) []) with (last (c2 :: r2) ([] : str)).
      rewrite <- !app_assoc. cbn [app]. reflexivity.
Qed.

Lemma layout_rows_shape : forall ws t, ws <> [] -> t <> [] -> Forall (fun r => length r = length ws) t ->
  exists P, concat (map (fun r => render_row ws r ++ [10%N]) t) = 32%N :: P ++ [32%N; 10%N] /\
            (exists S, P = hd [] (hd [] t) ++ S) /\ (exists S', P = S' ++ last (last t []) []).
Proof.
  intros ws. induction t as [|r t IH]; intros Hws Hne Hall; [congruence|].
  inversion Hall as [|r0 t0 Hr Ht]; subst.
  destruct (render_row_shape ws r Hws Hr) as (P & E & (S & ES) & (S' & ES')).
  cbn [map concat]. rewrite E. destruct t as [|r2 t2].
  - exists P. cbn [map concat hd last]. rewrite app_nil_r. split.
    + cbn [app]. rewrite <- app_assoc. reflexivity.
    + split; eauto.
  - destruct (IH Hws ltac:(discriminate) Ht) as (P2 & E2 & _ & (S2 & ES2)).
    rewrite E2. exists (P ++ [32%N; 10%N; 32%N] ++ P2). split.
    + cbn [app]. f_equal. rewrite <- !app_assoc. cbn [app]. reflexivity.
    + split.
      * exists (S ++ [32%N; 10%N; 32%N] ++ P2). cbn [hd]. rewrite ES, <- app_assoc. reflexivity.
      * exists (P ++ [32%N; 10%N; 32%N] ++ S2).
        change (last (r :: r2 :: t2) []) with (last (r2 :: t2) ([] : list str)).
        rewrite ES2, <- !app_assoc. reflexivity.
Qed.

Lemma drop_ws_rev_good : forall P, P <> [] -> is_ws (last P 0%N) = false -> drop_ws (rev P) = rev P.
Proof.
  intros P Hne Hl. destruct (exists_last Hne) as (P' & x & ->). rewrite last_last in Hl.
  rewrite rev_unit. cbn [drop_ws]. now rewrite Hl.
Qed.
Lemma drop_ws_tail3 : forall X, drop_ws (10%N :: 10%N :: 32%N :: X) = drop_ws X.
Proof. reflexivity. Qed.
Lemma trim_end_shape0 : forall Q, Q <> [] -> is_ws (last Q 0%N) = false ->
  trim_end (Q ++ [32%N; 10%N; 10%N]) = Q.
Proof.
  intros Q Hne Hl. unfold trim_end. rewrite rev_app_distr.
  change (rev [32%N; 10%N; 10%N]) with [10%N; 10%N; 32%N]. cbn [app]. rewrite drop_ws_tail3.
  rewrite drop_ws_rev_good by assumption. apply rev_involutive.
Qed.
Lemma trim_end_shape : forall P, P <> [] -> is_ws (last P 0%N) = false ->
  trim_end ((32%N :: P ++ [32%N; 10%N]) ++ [10%N]) = 32%N :: P.
Proof.
  intros P Hne Hl.
  replace ((32%N :: P ++ [32%N; 10%N]) ++ [10%N]) with ((32%N :: P) ++ [32%N; 10%N; 10%N])
    by (cbn [app]; now rewrite <- app_assoc).
  apply trim_end_shape0; [discriminate|]. destruct P; [congruence | exact Hl].
Qed.
Lemma trim_shape : forall P, P <> [] -> is_ws (hd 0%N P) = false -> is_ws (last P 0%N) = false ->
  trim ((32%N :: P ++ [32%N; 10%N]) ++ [10%N]) = P.
Proof.
  intros P Hne Hh Hl. unfold trim.
  assert (Hd : drop_ws ((32%N :: P ++ [32%N; 10%N]) ++ [10%N]) = P ++ [32%N; 10%N; 10%N]).
  { cbn [app]. change (drop_ws (32%N :: (P ++ [32%N; 10%N]) ++ [10%N]))
      with (drop_ws ((P ++ [32%N; 10%N]) ++ [10%N])).
    rewrite <- app_assoc. cbn [app]. destruct P as [|a P']; [congruence|]. cbn [hd] in Hh.
    cbn [app drop_ws]. now rewrite Hh. }
  rewrite Hd. now apply trim_end_shape0.
Qed.

Lemma strip_final_nl_app : forall s, strip_final_nl (s ++ [10%N]) = Some s.
Proof. intro s. unfold strip_final_nl. rewrite rev_unit. now rewrite rev_involutive. Qed.

(* the first title cell begins, and the last cell of the last row ends, with a visible character *)
Definition visible_ends (t : list (list str)) : Prop :=
  hd [] (hd [] t) <> [] /\ is_ws (hd 0%N (hd [] (hd [] t))) = false /\
  last (last t []) [] <> [] /\ is_ws (last (last (last t []) []) 0%N) = false.

Lemma layout_shape : forall t, wf_table t -> visible_ends t ->
  exists P, layout t = 32%N :: P ++ [32%N; 10%N] /\ P <> [] /\ is_ws (hd 0%N P) = false /\ is_ws (last P 0%N) = false.
Proof.
  intros t Hwf (Hh1 & Hh2 & Hl1 & Hl2). destruct (wf_table_rows t Hwf) as (h & rows & -> & Hlen & _).
  destruct Hwf as (Hne & _).
  destruct (col_widths_fits (length h) (h :: rows) Hlen) as [Hwl _].
  set (ws := col_widths (h :: rows)) in *.
  assert (Hws : ws <> []) by (destruct ws; [destruct h; [congruence | discriminate] | discriminate]).
  unfold layout. fold ws.
  destruct (layout_rows_shape ws (h :: rows) Hws ltac:(discriminate)) as (P & E & (S & ES) & (S' & ES')).
  { eapply Forall_impl; [|exact Hlen]. intros r Hr. cbn beta in Hr. rewrite Hwl. exact Hr. }
  exists P. split; [exact E|].
  set (c1 := hd [] (hd [] (h :: rows))) in *. set (cl := last (last (h :: rows) []) []) in *.
  split; [rewrite ES; destruct c1; [congruence | discriminate]|]. split.
  - rewrite ES. destruct c1 as [|a c1']; [congruence|]. exact Hh2.
  - rewrite ES'. destruct (exists_last Hl1) as (cl' & x & Ecl). rewrite Ecl in *.
    rewrite app_assoc, last_last. now rewrite last_last in Hl2.
Qed.

Theorem untrim_kh_layout : forall t, wf_table t -> visible_ends t ->
  untrim_kh (trim (layout t ++ [10%N])) = layout t.
Proof.
  intros t Hwf Hv. destruct (layout_shape t Hwf Hv) as (P & E & Hne & Hh & Hl).
  rewrite E, trim_shape by assumption. reflexivity.
Qed.
Theorem untrim_ckh_layout : forall t, wf_table t -> visible_ends t ->
  untrim_ckh (trim_end (layout t ++ [10%N])) = layout t.
Proof.
  intros t Hwf Hv. destruct (layout_shape t Hwf Hv) as (P & E & Hne & Hh & Hl).
  rewrite E, trim_end_shape by assumption. unfold untrim_ckh. reflexivity.
Qed.

Lemma last_map : forall A B (f : A -> B) l d, l <> [] -> last (map f l) (f d) = f (last l d).
Proof.
  induction l as [|x l IH]; intros d Hl; [contradiction|]. destruct l as [|y l]; [reflexivity|].
  cbn [map] in *. rewrite !(last_cons_ne _ (_ :: _)) by discriminate. now apply IH.
Qed.
Lemma last_default : forall A (l : list A) d d', l <> [] -> last l d = last l d'.
Proof. exact (@ListFacts.last_indep). Qed.

Lemma goodc_last : forall s, goodc s -> s <> [] /\ is_ws (last s 0%N) = false.
Proof. intros s (H1 & _ & H3). auto. Qed.

Lemma last_row_cell_good : forall t : list (list str), t <> [] ->
  Forall (fun r => r <> [] /\ Forall goodc r) t -> goodc (last (last t []) []).
Proof.
  intros t Hne Hall. rewrite Forall_forall in Hall.
  destruct (Hall (last t []) (last_In t [] Hne)) as [Hr Hg].
  rewrite Forall_forall in Hg. apply Hg. now apply last_In.
Qed.
Lemma title_goodc : goodc title_ij.
Proof.
  split; [discriminate|]. split; [|reflexivity].
  intros c Hc. cbn in Hc. destruct Hc as [<-|[<-|[<-|[]]]]; discriminate.
Qed.

Lemma table_of_strs_visible : forall g def,
  (forall i j s, lookup2 g i j = Some s -> goodc s) -> goodc def ->
  visible_ends (table_of_strs s_i s_j g def).
Proof.
  intros g def Hg Hdef. unfold visible_ends. split; [discriminate|]. split; [reflexivity|].
  apply goodc_last. apply last_row_cell_good; [discriminate|]. unfold table_of_strs.
  constructor.
  - split; [discriminate|]. constructor; [apply title_goodc|]. apply Forall_forall. intros c Hc.
    apply in_map_iff in Hc. destruct Hc as (z & <- & _). apply str_of_Z_goodc.
  - apply Forall_forall. intros r Hr. apply in_map_iff in Hr. destruct Hr as (j & <- & _).
    split; [discriminate|]. constructor; [apply str_of_Z_goodc|]. apply Forall_forall. intros c Hc.
    apply in_map_iff in Hc. destruct Hc as (i & <- & _). apply table_cell_goodc, Hg.
Qed.

(* the printed text of a grid of strings can be read back *)
Definition kh_text (g : list ((Z * Z) * str)) (def : str) : str :=
  trim (layout (table_of_strs s_i s_j g def) ++ [10%N]) ++ [10%N].
Definition ckh_text (g : list ((Z * Z) * str)) (def : str) : str :=
  trim_end (layout (table_of_strs s_i s_j g def) ++ [10%N]) ++ [10%N].

(* both commands trim the layout on their own side; the reader only needs the trimming undone *)
Lemma read_trimmed_text : forall (tr untr : str -> str) g def,
  (forall t, wf_table t -> visible_ends t -> untr (tr (layout t ++ [10%N])) = layout t) ->
  (forall i j s, lookup2 g i j = Some s -> goodc s /\ s <> dot) -> goodc def ->
  obind (strip_final_nl (tr (layout (table_of_strs s_i s_j g def) ++ [10%N]) ++ [10%N]))
        (fun s => obind (parse_layout (untr s)) read_grid) = Some (expected_cells g def).
Proof.
  intros tr untr g def Hun Hg Hdef. rewrite strip_final_nl_app. cbn [obind].
  assert (Hg1 : forall i j s, lookup2 g i j = Some s -> goodc s) by (intros i j s H; now apply (Hg i j s)).
  rewrite Hun by (auto using table_of_strs_wf, table_of_strs_visible).
  rewrite parse_layout_layout by (auto using table_of_strs_wf). cbn [obind].
  apply read_grid_table. intros i j s H. now apply (Hg i j s).
Qed.
Theorem read_kh_text : forall g def,
  (forall i j s, lookup2 g i j = Some s -> goodc s /\ s <> dot) -> goodc def ->
  read_kh_bigraded (kh_text g def) = Some (expected_cells g def).
Proof. intros g def. exact (read_trimmed_text trim untrim_kh g def untrim_kh_layout). Qed.
Theorem read_ckh_text : forall g def,
  (forall i j s, lookup2 g i j = Some s -> goodc s /\ s <> dot) -> goodc def ->
  read_ckh (ckh_text g def) = Some (expected_cells g def).
Proof. intros g def. exact (read_trimmed_text trim_end untrim_ckh g def untrim_ckh_layout). Qed.
