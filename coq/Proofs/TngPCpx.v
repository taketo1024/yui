(* The tangle complex model (Model/TngComplex.v): what one `eliminate` step does to the edge map, the keys and the
   tangles of the complex - for EVERY vertex list (no well-formedness needed: the statements are "whenever the step
   returns").  The semantic reading (d - c a^-1 b, d d = 0 is preserved) is in Proofs/TngPCpxSem.v.
   At the end: what a passed validate says about every edge ([validate_sound]) and the sign used by connect_edges
   ([connect_sign_is_degree]). *)
From Coq Require Import List Arith Bool ZArith Lia.
Import ListNotations.
Require Import Yui.Model.Link Yui.Model.Tng Yui.Model.TngCob Yui.Model.TngStack Yui.Model.TngComplex.

Lemma bits_eqb_eq a b : bits_eqb a b = true <-> a = b.
Proof.
  revert b. induction a as [|x a IH]; intros [|y b]; cbn [bits_eqb]; split; intros E; try reflexivity; try discriminate.
  - apply andb_true_iff in E. destruct E as [E1 E2]. apply eqb_prop in E1. apply IH in E2. now subst.
  - injection E as -> ->. rewrite eqb_reflx. cbn. now apply IH.
Qed.
Lemma key_eqb_eq k l : key_eqb k l = true <-> k = l.
Proof.
  destruct k as [s1 b1], l as [s2 b2]. unfold key_eqb. cbn [kstate klabel]. rewrite andb_true_iff, !bits_eqb_eq.
  split; [intros [-> ->]; reflexivity | intros [= -> ->]; now split].
Qed.
Lemma key_eqb_refl k : key_eqb k k = true.
Proof. now apply key_eqb_eq. Qed.
Lemma key_eqb_neq k l : key_eqb k l = false <-> k <> l.
Proof.
  split.
  - intros E1 E2. apply key_eqb_eq in E2. congruence.
  - intros E1. destruct (key_eqb k l) eqn:E2; [|reflexivity]. apply key_eqb_eq in E2. contradiction.
Qed.
Lemma key_eqb_sym k l : key_eqb k l = key_eqb l k.
Proof.
  destruct (key_eqb k l) eqn:E1; symmetry.
  - apply key_eqb_eq in E1. subst. apply key_eqb_refl.
  - apply key_eqb_neq. apply key_eqb_neq in E1. congruence.
Qed.
Lemma key_eqb_spec k l : reflect (k = l) (key_eqb k l).
Proof. destruct (key_eqb k l) eqn:E; constructor; [now apply key_eqb_eq | now apply key_eqb_neq]. Qed.

Lemma key_mem_In k ks : key_mem k ks = true <-> In k ks.
Proof.
  unfold key_mem. rewrite existsb_exists. split.
  - intros (x & Hi & He). apply key_eqb_eq in He. now subst.
  - intros Hi. exists k. split; [assumption|apply key_eqb_refl].
Qed.

Definition keeps_key (f : vertex -> vertex) : Prop := forall v, vkey (f v) = vkey v.
Definition keeps_out (f : vertex -> vertex) : Prop := forall v, vout (f v) = vout v.
Definition keeps_tng (f : vertex -> vertex) : Prop := forall v, vtng (f v) = vtng v.

Lemma keeps_set_in i : keeps_key (fun w => set_in w (i w)) /\ keeps_out (fun w => set_in w (i w)) /\
                       keeps_tng (fun w => set_in w (i w)).
Proof. repeat split. Qed.
Lemma keeps_set_out o : keeps_key (fun w => set_out w (o w)) /\ keeps_tng (fun w => set_out w (o w)).
Proof. repeat split. Qed.

Lemma find_v_upd vs k f j :
  keeps_key f -> find_v (upd_v vs k f) j = if key_eqb j k then option_map f (find_v vs j) else find_v vs j.
Proof.
  intros Kf. induction vs as [|v vs IH]; cbn [upd_v map find_v].
  - now destruct (key_eqb j k).
  - fold (upd_v vs k f). destruct (key_eqb_spec (vkey v) k) as [E1|E1].
    + rewrite Kf. destruct (key_eqb_spec (vkey v) j) as [E2|E2].
      * subst. rewrite key_eqb_refl. reflexivity.
      * rewrite IH. reflexivity.
    + destruct (key_eqb_spec (vkey v) j) as [E2|E2].
      * subst j. destruct (key_eqb_spec (vkey v) k); [contradiction|reflexivity].
      * apply IH.
Qed.
Lemma find_v_del vs k j : find_v (del_v vs k) j = if key_eqb j k then None else find_v vs j.
Proof.
  induction vs as [|v vs IH]; cbn [del_v filter find_v].
  - now destruct (key_eqb j k).
  - fold (del_v vs k). destruct (key_eqb_spec (vkey v) k) as [E1|E1]; cbn [negb find_v].
    + rewrite IH. destruct (key_eqb_spec j k) as [E2|E2]; [reflexivity|].
      destruct (key_eqb_spec (vkey v) j); [congruence|reflexivity].
    + destruct (key_eqb_spec (vkey v) j) as [E2|E2].
      * subst j. destruct (key_eqb_spec (vkey v) k); [contradiction|reflexivity].
      * apply IH.
Qed.
Lemma keys_upd vs k f : keeps_key f -> map vkey (upd_v vs k f) = map vkey vs.
Proof.
  intros Kf. unfold upd_v. rewrite map_map. apply map_ext. intros v. destruct (key_eqb (vkey v) k); [apply Kf|reflexivity].
Qed.
Lemma keys_del vs k : map vkey (del_v vs k) = filter (fun j => negb (key_eqb j k)) (map vkey vs).
Proof.
  induction vs as [|v vs IH]; [reflexivity|]. cbn [del_v filter map]. fold (del_v vs k).
  destruct (key_eqb (vkey v) k); cbn [negb map]; now rewrite IH.
Qed.
Lemma has_key_find vs k : has_key vs k = true <-> exists v, find_v vs k = Some v.
Proof.
  unfold has_key. destruct (find_v vs k) as [v|]; split; try discriminate; [now exists v | reflexivity | intros [? [=]]].
Qed.

Lemma find_e_del es l m : find_e (del_e es l) m = if key_eqb m l then None else find_e es m.
Proof.
  induction es as [|[k f] es IH]; cbn [del_e filter find_e fst].
  - now destruct (key_eqb m l).
  - fold (del_e es l). destruct (key_eqb_spec k l) as [E1|E1]; cbn [negb find_e].
    + rewrite IH. destruct (key_eqb_spec m l) as [E2|E2]; [reflexivity|].
      destruct (key_eqb_spec k m); [congruence|reflexivity].
    + destruct (key_eqb_spec k m) as [E2|E2].
      * subst m. destruct (key_eqb_spec k l); [contradiction|reflexivity].
      * apply IH.
Qed.
Lemma find_e_app es l f m :
  find_e (es ++ [(l, f)]) m =
  match find_e es m with Some g => Some g | None => if key_eqb l m then Some f else None end.
Proof.
  induction es as [|[k g] es IH]; cbn [app find_e]; [reflexivity|].
  destruct (key_eqb k m); [reflexivity|apply IH].
Qed.
Lemma key_mem_find_e es l : key_mem l (map fst es) = match find_e es l with Some _ => true | None => false end.
Proof.
  induction es as [|[k g] es IH]; [reflexivity|]. cbn [map fst key_mem existsb find_e].
  rewrite (key_eqb_sym l k). destruct (key_eqb k l); [reflexivity|]. apply IH.
Qed.

Lemma edge_upd_in vs l g a b : keeps_key g -> keeps_out g -> edge (upd_v vs l g) a b = edge vs a b.
Proof.
  intros Kg Og. unfold edge. rewrite find_v_upd by assumption.
  destruct (key_eqb a l); [|reflexivity]. destruct (find_v vs a); cbn [option_map]; [now rewrite Og|reflexivity].
Qed.
Lemma edge_upd_out vs k g a b :
  keeps_key g ->
  edge (upd_v vs k g) a b =
  if key_eqb a k then match find_v vs a with None => None | Some v => find_e (vout (g v)) b end else edge vs a b.
Proof.
  intros Kg. unfold edge. rewrite find_v_upd by assumption.
  destruct (key_eqb a k); [|reflexivity]. now destruct (find_v vs a).
Qed.
Lemma has_edge_edge vs k l : has_edge vs k l = Some false -> edge vs k l = None.
Proof.
  unfold has_edge, edge. destruct (find_v vs k) as [v|]; [|discriminate]. unfold out_keys. rewrite key_mem_find_e.
  now destruct (find_e (vout v) l).
Qed.

(* the relation "same keys, same tangles" *)
Definition same_frame (s s' : list vertex) : Prop :=
  map vkey s' = map vkey s /\ forall j, option_map vtng (find_v s' j) = option_map vtng (find_v s j).
Lemma same_frame_refl s : same_frame s s.
Proof. now split. Qed.
Lemma same_frame_trans s1 s2 s3 : same_frame s1 s2 -> same_frame s2 s3 -> same_frame s1 s3.
Proof. intros [E1 T1] [E2 T2]. split; [congruence|]. intros j. now rewrite T2, T1. Qed.
Lemma same_frame_upd vs k g : keeps_key g -> keeps_tng g -> same_frame vs (upd_v vs k g).
Proof.
  intros Kg Tg. split; [now apply keys_upd|]. intros j. rewrite find_v_upd by assumption.
  destruct (key_eqb j k); [|reflexivity]. destruct (find_v vs j); cbn [option_map]; [now rewrite Tg|reflexivity].
Qed.

Definition nz (f : lccob) : option lccob := if is_nil f then None else Some f.

Lemma add_edge_spec vs k l f vs' :
  add_edge vs k l f = Some vs' ->
  same_frame vs vs' /\ is_nil f = false /\
  forall a b, edge vs' a b = if key_eqb a k && key_eqb b l then Some f else edge vs a b.
Proof.
  unfold add_edge. destruct (has_edge vs k l) as [[|]|] eqn:Ehe; try discriminate.
  destruct (is_nil f) eqn:Enil; [discriminate|]. destruct (has_key vs l); [|discriminate]. intros [= <-].
  split; [|split; [reflexivity|]].
  - eapply same_frame_trans; apply same_frame_upd; now intros v.
  - intros a b. rewrite edge_upd_in by (now intros v). rewrite edge_upd_out by (now intros v).
    destruct (key_eqb_spec a k) as [->|Ea]; cbn [andb]; [|reflexivity].
    pose proof (has_edge_edge _ _ _ Ehe) as Enone. unfold edge in *. unfold has_edge in Ehe.
    destruct (find_v vs k) as [v|]; [|discriminate]. cbn [set_out vout]. rewrite find_e_app.
    destruct (key_eqb_spec b l) as [->|Eb].
    + rewrite Enone. now rewrite key_eqb_refl.
    + destruct (find_e (vout v) b); [reflexivity|]. destruct (key_eqb_spec l b); [congruence|reflexivity].
Qed.

Lemma remove_edge_spec vs k l vs' f :
  remove_edge vs k l = Some (vs', f) ->
  same_frame vs vs' /\ edge vs k l = Some f /\
  forall a b, edge vs' a b = if key_eqb a k && key_eqb b l then None else edge vs a b.
Proof.
  unfold remove_edge. destruct (has_edge vs k l) as [[|]|]; try discriminate.
  destruct (edge vs k l) as [g|] eqn:Ee; [|discriminate]. destruct (has_key vs l); [|discriminate]. intros [= <- <-].
  split; [|split; [reflexivity|]].
  - eapply same_frame_trans; apply same_frame_upd; now intros v.
  - intros a b. rewrite edge_upd_out by (now intros v). rewrite find_v_upd by (now intros v).
    destruct (key_eqb_spec a k) as [->|Ea]; cbn [andb].
    + unfold edge. destruct (find_v vs k) as [v|] eqn:Ev.
      * destruct (key_eqb k l); cbn [option_map set_out set_in vout]; rewrite find_e_del;
          now destruct (key_eqb b l).
      * destruct (key_eqb k l); cbn [option_map]; now destruct (key_eqb b l).
    + now rewrite edge_upd_in by (now intros v).
Qed.

(* generic: a fold all of whose steps satisfy a preorder *)
Lemma fold_opt_inv {A S} (R : S -> S -> Prop) (f : S -> A -> option S) :
  (forall s, R s s) -> (forall s1 s2 s3, R s1 s2 -> R s2 s3 -> R s1 s3) ->
  (forall s x s', f s x = Some s' -> R s s') ->
  forall l s s', fold_opt f l s = Some s' -> R s s'.
Proof.
  intros Rr Rt Rf. induction l as [|x l IH]; intros s s' E; cbn [fold_opt] in E.
  - injection E as <-. apply Rr.
  - destruct (f s x) as [s1|] eqn:E1; [|discriminate]. eapply Rt; [eapply Rf; eassumption|now apply IH].
Qed.

Definition keep_edges_but (k : tkey) (s s' : list vertex) : Prop :=
  same_frame s s' /\ forall a b, b <> k -> edge s' a b = edge s a b.
Lemma keep_edges_but_refl k s : keep_edges_but k s s.
Proof. split; [apply same_frame_refl|reflexivity]. Qed.
Lemma keep_edges_but_trans k s1 s2 s3 : keep_edges_but k s1 s2 -> keep_edges_but k s2 s3 -> keep_edges_but k s1 s3.
Proof.
  intros [F1 E1] [F2 E2]. split; [eapply same_frame_trans; eassumption|]. intros a b Hb. now rewrite E2, E1.
Qed.

Lemma remove_vertex_spec vs k vs' v :
  remove_vertex vs k = Some (vs', v) ->
  find_v vs k = Some v /\
  map vkey vs' = filter (fun j => negb (key_eqb j k)) (map vkey vs) /\
  (forall j, option_map vtng (find_v vs' j) = if key_eqb j k then None else option_map vtng (find_v vs j)) /\
  (forall a b, a <> k -> b <> k -> edge vs' a b = edge vs a b).
Proof.
  unfold remove_vertex. destruct (find_v vs k) as [v0|] eqn:Ev; [|discriminate].
  destruct (fold_opt _ (vin v0) (del_v vs k)) as [vs2|] eqn:E2; [|discriminate].
  destruct (fold_opt _ (out_keys v0) vs2) as [vs3|] eqn:E3; [|discriminate]. intros [= <- <-].
  assert (R2 : keep_edges_but k (del_v vs k) vs2).
  { revert E2. apply (fold_opt_inv (keep_edges_but k)); [apply keep_edges_but_refl|apply keep_edges_but_trans|].
    intros s j s' E. destruct (has_key s j); [|discriminate]. injection E as <-. split.
    - apply same_frame_upd; now intros u.
    - intros a b Hb. rewrite edge_upd_out by (now intros u). destruct (key_eqb a j) eqn:Ea; [|reflexivity].
      unfold edge. destruct (find_v s a) as [u|]; [|reflexivity]. cbn [set_out vout]. rewrite find_e_del.
      destruct (key_eqb_spec b k); [contradiction|reflexivity]. }
  assert (R3 : keep_edges_but k vs2 vs3).
  { revert E3. apply (fold_opt_inv (keep_edges_but k)); [apply keep_edges_but_refl|apply keep_edges_but_trans|].
    intros s j s' E. destruct (has_key s j); [|discriminate]. injection E as <-. split.
    - apply same_frame_upd; now intros u.
    - intros a b Hb. apply edge_upd_in; now intros u. }
  destruct (keep_edges_but_trans _ _ _ _ R2 R3) as [[Ek Et] Ee].
  split; [reflexivity|]. split; [now rewrite Ek, keys_del|]. split.
  - intros j. rewrite Et, find_v_del. now destruct (key_eqb j k).
  - intros a b Ha Hb. rewrite Ee by assumption. unfold edge. rewrite find_v_del.
    destruct (key_eqb_spec a k); [contradiction|reflexivity].
Qed.

Definition elim_write (s : list vertex) (q : tkey * tkey * lccob) : option (list vertex) :=
  let '(l0, l1, f) := q in
  match has_edge s l0 l1 with
  | None => None
  | Some he =>
      match (if he then option_map fst (remove_edge s l0 l1) else Some s) with
      | None => None
      | Some s1 => if is_nil f then Some s1 else add_edge s1 l0 l1 f
      end
  end.

Lemma elim_write_spec s l0 l1 f s' :
  elim_write s (l0, l1, f) = Some s' ->
  same_frame s s' /\ forall a b, edge s' a b = if key_eqb a l0 && key_eqb b l1 then nz f else edge s a b.
Proof.
  unfold elim_write. destruct (has_edge s l0 l1) as [he|] eqn:Ehe; [|discriminate].
  assert (E1 : forall s1, (if he then option_map fst (remove_edge s l0 l1) else Some s) = Some s1 ->
                same_frame s s1 /\ forall a b, edge s1 a b = if key_eqb a l0 && key_eqb b l1 then None else edge s a b).
  { intros s1 E. destruct he.
    - destruct (remove_edge s l0 l1) as [[s2 g]|] eqn:Er; [|discriminate]. cbn in E. injection E as <-.
      apply remove_edge_spec in Er. destruct Er as (F & _ & Ee). now split.
    - injection E as <-. split; [apply same_frame_refl|]. intros a b.
      destruct (key_eqb_spec a l0) as [->|]; [|reflexivity]. destruct (key_eqb_spec b l1) as [->|]; [|reflexivity].
      cbn [andb]. now apply has_edge_edge. }
  destruct (if he then option_map fst (remove_edge s l0 l1) else Some s) as [s1|]; [|discriminate].
  destruct (E1 s1 eq_refl) as [F1 Ee1]. unfold nz. destruct (is_nil f) eqn:Enil.
  - intros [= <-]. now split.
  - intros Ea. apply add_edge_spec in Ea. destruct Ea as (F2 & _ & Ee2). split; [eapply same_frame_trans; eassumption|].
    intros a b. rewrite Ee2, Ee1. now destruct (key_eqb a l0 && key_eqb b l1).
Qed.

Definition pair_mem (a b : tkey) (ps : list (tkey * tkey)) : bool :=
  existsb (fun p => key_eqb a (fst p) && key_eqb b (snd p)) ps.

(* the whole loop: the values are computed first, for every pair of [keys], then written one by one *)
Lemma elim_writes_spec (val : tkey -> tkey -> option lccob) keys : forall values,
  map_opt (fun p => option_map (fun f => (fst p, snd p, f)) (val (fst p) (snd p))) keys = Some values ->
  (forall a b, pair_mem a b keys = true -> exists f, val a b = Some f) /\
  forall s s', fold_opt elim_write values s = Some s' ->
  same_frame s s' /\
  forall a b, edge s' a b = if pair_mem a b keys then match val a b with Some f => nz f | None => None end
                            else edge s a b.
Proof.
  induction keys as [|p keys IH]; intros values E; cbn [map_opt] in E.
  - injection E as <-. split; [intros a b [=]|]. intros s s' [= <-]. split; [apply same_frame_refl|reflexivity].
  - destruct (val (fst p) (snd p)) as [f|] eqn:E3; [|discriminate]. cbn [option_map] in E.
    destruct (map_opt _ keys) as [vs|]; [|discriminate]. injection E as <-. destruct (IH vs eq_refl) as [Hv Hw]. split.
    + intros a b Hm. cbn [pair_mem existsb] in Hm. apply orb_true_iff in Hm. destruct Hm as [Hm|Hm]; [|now apply Hv].
      apply andb_true_iff in Hm. destruct Hm as [H1 H2]. apply key_eqb_eq in H1, H2. subst. eauto.
    + intros s s' E. cbn [fold_opt] in E. destruct (elim_write s (fst p, snd p, f)) as [s1|] eqn:Ew; [|discriminate].
      apply elim_write_spec in Ew. destruct Ew as [Fw Eew]. destruct (Hw _ _ E) as [Fi Eei].
      split; [eapply same_frame_trans; eassumption|]. intros a b. rewrite Eei, Eew. cbn [pair_mem existsb].
      fold (pair_mem a b keys). destruct (pair_mem a b keys); [now rewrite orb_true_r|]. rewrite orb_false_r.
      destruct (key_eqb_spec a (fst p)) as [->|]; [|reflexivity]. destruct (key_eqb_spec b (snd p)) as [->|]; [|reflexivity].
      cbn [andb]. now rewrite E3.
Qed.

(* the pairs whose entry is rewritten: (predecessors of k1 other than k0) x (successors of k0 other than k1) *)
Definition elim_ins (k0 : tkey) (v1 : vertex) : list tkey := filter (fun l0 => negb (key_eqb l0 k0)) (vin v1).
Definition elim_outs (k1 : tkey) (v0 : vertex) : list tkey := filter (fun l1 => negb (key_eqb l1 k1)) (out_keys v0).

Lemma pair_mem_product a b xs ys :
  pair_mem a b (flat_map (fun x => map (fun y => (x, y)) ys) xs) = key_mem a xs && key_mem b ys.
Proof.
  unfold pair_mem, key_mem.
  assert (Aux : forall x, existsb (fun p : tkey * tkey => key_eqb a (fst p) && key_eqb b (snd p))
                            (map (fun y => (x, y)) ys) = key_eqb a x && existsb (key_eqb b) ys).
  { intros x. induction ys as [|y ys IH]; cbn [map existsb fst snd]; [now rewrite andb_false_r|].
    rewrite IH. now destruct (key_eqb a x), (key_eqb b y). }
  induction xs as [|x xs IH]; cbn [flat_map existsb]; [reflexivity|].
  rewrite existsb_app, IH, Aux. now destruct (key_eqb a x), (existsb (key_eqb a) xs), (existsb (key_eqb b) ys).
Qed.

Theorem eliminate_spec c k0 k1 c' :
  cpx_eliminate c k0 k1 = Some c' ->
  exists a ainv v0 v1,
    edge (c_verts c) k0 k1 = Some a /\ lc_inv a = Some (Some ainv) /\
    find_v (c_verts c) k0 = Some v0 /\ find_v (c_verts c) k1 = Some v1 /\
    (* the constants *)
    c_h c' = c_h c /\ c_t c' = c_t c /\ c_shift c' = c_shift c /\ c_base c' = c_base c /\ c_xs c' = c_xs c /\
    (* the vertices: k0 and k1 are removed, nothing else changes *)
    map vkey (c_verts c') =
      filter (fun j => negb (key_eqb j k1)) (filter (fun j => negb (key_eqb j k0)) (map vkey (c_verts c))) /\
    (forall j, option_map vtng (find_v (c_verts c') j) =
               if key_eqb j k0 || key_eqb j k1 then None else option_map vtng (find_v (c_verts c) j)) /\
    (* the edges between the remaining vertices *)
    (forall l0 l1, l0 <> k0 -> l0 <> k1 -> l1 <> k0 -> l1 <> k1 ->
       edge (c_verts c') l0 l1 =
       if key_mem l0 (elim_ins k0 v1) && key_mem l1 (elim_outs k1 v0)
       then match elim_value (c_h c) (c_t c) (c_verts c) k0 k1 ainv l0 l1 with Some f => nz f | None => None end
       else edge (c_verts c) l0 l1) /\
    (* every rewritten entry has been computed (no panic) *)
    (forall l0 l1, key_mem l0 (elim_ins k0 v1) && key_mem l1 (elim_outs k1 v0) = true ->
       exists f, elim_value (c_h c) (c_t c) (c_verts c) k0 k1 ainv l0 l1 = Some f).
Proof.
  unfold cpx_eliminate. destruct (edge (c_verts c) k0 k1) as [a|] eqn:Ea; [|discriminate].
  destruct (lc_inv a) as [[ainv|]|] eqn:Einv; try discriminate.
  destruct (find_v (c_verts c) k1) as [v1|] eqn:Ev1; [|discriminate].
  destruct (find_v (c_verts c) k0) as [v0|] eqn:Ev0; [|discriminate].
  set (keys := flat_map _ _).
  destruct (map_opt _ keys) as [values|] eqn:Evals; [|discriminate].
  match goal with |- context [@fold_opt ?A ?S ?f values ?s0] =>
    destruct (@fold_opt A S f values s0) as [vs1|] eqn:Efold; [|discriminate] end.
  change (fold_opt elim_write values (c_verts c) = Some vs1) in Efold.
  destruct (remove_vertex vs1 k0) as [[vs2 u0]|] eqn:Er0; [|discriminate].
  destruct (remove_vertex vs2 k1) as [[vs3 u1]|] eqn:Er1; [|discriminate]. intros [= <-].
  exists a, ainv, v0, v1. split; [reflexivity|]. split; [exact Einv|]. repeat (split; [reflexivity|]).
  cbn [c_verts set_verts].
  destruct (elim_writes_spec (elim_value (c_h c) (c_t c) (c_verts c) k0 k1 ainv) keys values Evals) as [Hval Hw].
  destruct (Hw _ _ Efold) as [[Fk Ft] Fe].
  apply remove_vertex_spec in Er0. destruct Er0 as (_ & Rk0 & Rt0 & Re0).
  apply remove_vertex_spec in Er1. destruct Er1 as (_ & Rk1 & Rt1 & Re1).
  split; [now rewrite Rk1, Rk0, Fk|]. split; [|split].
  - intros j. rewrite Rt1, Rt0, Ft. destruct (key_eqb j k0), (key_eqb j k1); reflexivity.
  - intros l0 l1 N00 N01 N10 N11. rewrite Re1, Re0, Fe by assumption. unfold keys. now rewrite pair_mem_product.
  - intros l0 l1 Hm. apply Hval. unfold keys. now rewrite pair_mem_product.
Qed.

Lemma all_opt_fold l acc :
  fold_left (fun acc x => match acc, x with Some a, Some b => Some (a && b) | _, _ => None end) l acc = Some true ->
  acc = Some true /\ forall x : option bool, In x l -> x = Some true.
Proof.
  revert acc. induction l as [|y l IH]; intros acc E; cbn [fold_left] in E.
  - split; [assumption|]. intros x [].
  - apply IH in E. destruct E as [E1 E2]. destruct acc as [[|]|], y as [[|]|]; try discriminate.
    split; [reflexivity|]. intros x [<-|Hx]; [reflexivity|now apply E2].
Qed.
Lemma all_opt_true l : all_opt l = Some true -> forall x, In x l -> x = Some true.
Proof. intros E. exact (proj2 (all_opt_fold l (Some true) E)). Qed.

Lemma find_v_some vs k v : find_v vs k = Some v -> In v vs /\ vkey v = k.
Proof.
  induction vs as [|u vs IH]; cbn [find_v]; [discriminate|].
  destruct (key_eqb_spec (vkey u) k) as [E|E].
  - intros [= <-]. split; [now left|assumption].
  - intros Ev. destruct (IH Ev). split; [now right|assumption].
Qed.
Lemma find_e_some es l f : find_e es l = Some f -> In (l, f) es.
Proof.
  induction es as [|[k g] es IH]; cbn [find_e]; [discriminate|].
  destruct (key_eqb_spec k l) as [->|E]; [intros [= <-]; now left|]. intros Ef. right. now apply IH.
Qed.

(* what TngComplex::validate checks: in_edges records every edge, no edge is the zero combination, and every term of
   an edge k -> l is a cobordism from the tangle of k to the tangle of l (up to the unoriented equality of tangles) *)
Definition term_typed (s t : tng) (x : cob) : Prop :=
  exists s' t', cob_src x = Some s' /\ cob_tgt x = Some t' /\ tng_eqb s' s = true /\ tng_eqb t' t = true.

Theorem validate_sound c :
  cpx_validate c = Some true ->
  forall k l f, edge (c_verts c) k l = Some f ->
    exists vk vl, find_v (c_verts c) k = Some vk /\ find_v (c_verts c) l = Some vl /\
      In k (vin vl) /\ f <> [] /\ forall p, In p f -> term_typed (vtng vk) (vtng vl) (fst p).
Proof.
  unfold cpx_validate. intros Ev k l f Ee. unfold edge in Ee.
  destruct (find_v (c_verts c) k) as [u|] eqn:Eu; [|discriminate].
  destruct (find_v_some _ _ _ Eu) as [Hu Hk]. apply find_e_some in Ee.
  pose proof (all_opt_true _ Ev) as A1.
  specialize (A1 _ (in_map _ _ _ Hu)). cbv beta in A1.
  pose proof (all_opt_true _ A1) as A2. clear A1.
  (* the out-edge check, then the cobordism check *)
  pose proof (A2 _ (in_or_app _ _ _ (or_intror (in_or_app _ _ _ (or_introl
                 (in_map _ _ _ (in_map fst _ _ Ee : In l (out_keys u)))))))) as B2. cbv beta in B2.
  destruct (find_v (c_verts c) l) as [w|] eqn:Ew; [|discriminate]. injection B2 as B2. apply key_mem_In in B2.
  pose proof (A2 _ (in_or_app _ _ _ (or_intror (in_or_app _ _ _ (or_intror (in_map _ _ _ Ee)))))) as B3. cbv beta in B3.
  cbn [fst snd] in B3. rewrite Ew in B3. destruct f as [|p0 f0]; [discriminate|]. cbn [is_nil] in B3.
  exists u, w. subst k. repeat split; try assumption; [discriminate|].
  intros p Hp. pose proof (all_opt_true _ B3 _ (in_map _ _ _ Hp)) as B4. cbv beta in B4.
  destruct (cob_src (fst p)) as [s'|] eqn:Es; [|discriminate]. destruct (cob_tgt (fst p)) as [t'|] eqn:Et; [|discriminate].
  injection B4 as B4. apply andb_true_iff in B4. destruct B4. exists s', t'. now repeat split.
Qed.

(* keys stay distinct under eliminate *)
Lemma eliminate_nodup c k0 k1 c' :
  cpx_eliminate c k0 k1 = Some c' -> NoDup (map vkey (c_verts c)) -> NoDup (map vkey (c_verts c')).
Proof.
  intros E Hn. apply eliminate_spec in E.
  destruct E as (a & ainv & v0 & v1 & _ & _ & _ & _ & _ & _ & _ & _ & _ & Hk & _). rewrite Hk.
  now apply NoDup_filter, NoDup_filter.
Qed.

(* connect_edges computes the sign of D(1, f) from weight(k0) - left.deg_shift.0 while the homological degree of k0
   is weight(k0) + left.deg_shift.0: the same parity, so the sign is (-1)^deg(k0) as the comment in the code says *)
Lemma connect_sign_is_degree (left : cpx) (k0 : tkey) :
  sign_of_parity (Z.of_nat (key_weight k0) - fst (c_shift left)) = sign_of_parity (key_deg left k0).
Proof.
  unfold sign_of_parity, key_deg. replace (Z.even (Z.of_nat (key_weight k0) - fst (c_shift left)))
    with (Z.even (Z.of_nat (key_weight k0) + fst (c_shift left))); [reflexivity|].
  rewrite Z.even_add, Z.even_sub. reflexivity.
Qed.
