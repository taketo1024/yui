(* C06 (ss oracle) - the coordinates that [ss_spec] (Model/KhSs.v) reads the divisibility from ARE
   coordinates of the homology H^0 of the cube complex: whenever [ss_setup] returns, the two dense
   matrices compose to zero, the canonical chains are cycles, and the forward / backward matrices of the
   returned [trans] satisfy [gens_ok] and [complete_ok] of Proofs/C07Calc.v (generators are cycles, their
   coordinates are the standard basis, boundaries have coordinates 0 / multiples of the torsion orders,
   every cycle is homologous to the combination of the generators given by its coordinates, a cycle is a
   boundary as soon as its coordinates vanish modulo the torsion orders).  This is C07's theorem for the
   homology calculator instantiated with the mirror of snf.rs, whose contract is C09's theorem. *)
From Coq Require Import List Arith Bool ZArith Lia.
Require Import Yui.Base.Ring Yui.Base.MatF Yui.Base.MatL.
Require Import Yui.Model.KhCube Yui.Model.KhHomology Yui.Model.KhLee Yui.Model.KhSigns Yui.Model.HomologyCalc Yui.Model.KhSs.
Require Yui.Model.Snf Yui.Model.Link.
Require Import Yui.Proofs.C07Algebra Yui.Proofs.C07Calc Yui.Proofs.C07UctCalc Yui.Proofs.C09Contract.
Import ListNotations.

(* the SNF routine of the oracle is the routine for which C09 discharges C07's contract *)
Lemma ss_snf_contract : snf_contract Z_ring ss_snf.
Proof. exact Z_snf_contract. Qed.

Lemma dense_d_wf c k A : dense_d c k = Some A -> mwf A.
Proof.
  unfold dense_d. destruct (rows_at c k); [|discriminate]. intros H. injection H as <-. apply mwf_dmk.
Qed.
Lemma dense_in_wf c k A : dense_in c k = Some A -> mwf A.
Proof.
  destruct k as [|k]; cbn [dense_in]; [|apply dense_d_wf]. intros H. injection H as <-. apply mwf_dmk.
Qed.

Lemma dense_vec_length n z : length (dense_vec n z) = n.
Proof. unfold dense_vec. now rewrite map_length, seq_length. Qed.

Record ss_coords_ok (red : bool) (D : ss_data) : Prop := mk_ss_coords_ok {
  sc_wf1 : mwf (sd_d1 D);
  sc_wf2 : mwf (sd_d2 D);
  sc_shape : nr (sd_d1 D) = nc (sd_d2 D);
  sc_dd : zero_prod Z_ring (sd_d1 D) (sd_d2 D);
  sc_cycles : forall z, In z (sd_chains D) -> length z = nr (sd_d1 D) /\ is_cycle (sd_d2 D) z = true;
  sc_calc : calculate Z_ring Snf.Z_is_unit ss_snf (sd_d1 D) (sd_d2 D) true
            = Some (sd_rank D, sd_tors D, Some (sd_trans D));
  sc_rank : sd_rank D = (if red then 1 else 2)%nat;
}.

Lemma ss_setup_ok l c red D : ss_setup l c red = Some D -> ss_coords_ok red D.
Proof.
  unfold ss_setup. intros H.
  destruct (Z.abs c <? 2)%Z; [discriminate|].
  destruct (Link.is_knot (to_link l)) as [[|]|]; try discriminate.
  inv_bind H. inv_bind H.
  inv_bind_as H chains Ech.
  inv_bind_as H d1 E1. inv_bind_as H d2 E2.
  inv_guard H En. apply Nat.eqb_eq in En.
  inv_bind_as H dd E3.
  inv_guard H Ez.
  inv_guard H Ecy.
  inv_bind_as H res E4. destruct res as [[rank tors] ot]. inv_bind H.
  inv_guard H Erk.
  injection H as <-.
  pose proof (dense_in_wf _ _ _ E1) as W1. pose proof (dense_d_wf _ _ _ E2) as W2.
  constructor; cbn [sd_d1 sd_d2 sd_chains sd_rank sd_tors sd_trans].
  - exact W1.
  - exact W2.
  - exact En.
  - apply (dmul_inv Z_ring) in E3 as [_ ->].
    rewrite (d_is_zero_spec Z_ring Z_ring_laws) in Ez. cbn [nr nc dmk] in Ez.
    unfold zero_prod. intros i j Hi Hj. rewrite En, <- (mget_dmk Z_ring (nr d2) (nc d1)) by assumption.
    now apply Ez.
  - intros z Hz. apply in_map_iff in Hz. destruct Hz as [x [<- Hx]]. split; [apply dense_vec_length|].
    rewrite forallb_forall in Ecy. apply Ecy. now apply in_map.
  - exact E4.
  - now apply Nat.eqb_eq in Erk.
Qed.

(* the coordinates are homology coordinates *)
Theorem ss_setup_coordinates l c red D :
  ss_setup l c red = Some D ->
  exists p q,
    forward_mat Z_ring (sd_trans D) = Some p /\ backward_mat Z_ring (sd_trans D) = Some q /\
    gens_ok Z_ring (sd_d1 D) (sd_d2 D) (sd_rank D) (sd_tors D) p q /\
    complete_ok Z_ring (sd_d1 D) (sd_d2 D) (sd_rank D) (sd_tors D) p q.
Proof.
  intros H. destruct (ss_setup_ok _ _ _ _ H) as [W1 W2 En Hdd _ Hc _].
  destruct (calculate_gens_complete Z_ring Z_ring_laws Z_integral Snf.Z_is_unit Z_isu_complete ss_snf Z_isu_sound
              _ _ _ _ _ ss_snf_contract W1 W2 Hdd Hc) as [t [p [q [Et [Hp [Hq [_ [_ Hgc]]]]]]]].
  injection Et as <-.
  exists p, q. split; [exact Hp|]. split; [exact Hq|exact Hgc].
Qed.

(* rank H^0 = dim C^0 - rank d^{-1} - rank d^0, and it is the 1 (reduced) / 2 (unreduced) the library asserts *)
Theorem ss_setup_rank l c red D :
  ss_setup l c red = Some D ->
  sd_rank D = (if red then 1 else 2)%nat /\
  exists (r1 r2 : nat) (a b : nat -> Z),
    smith_form Z_ring (nr (sd_d1 D)) (nc (sd_d1 D)) (mget Z_ring (sd_d1 D)) r1 a /\
    smith_form Z_ring (nr (sd_d2 D)) (nc (sd_d2 D)) (mget Z_ring (sd_d2 D)) r2 b /\
    (sd_rank D + r1 + r2 = nr (sd_d1 D))%nat.
Proof.
  intros H. destruct (ss_setup_ok _ _ _ _ H) as [W1 W2 En Hdd _ Hc Hrk].
  split; [exact Hrk|].
  destruct (calculate_rank_tors Z_ring Z_ring_laws Z_integral Snf.Z_is_unit Z_isu_complete ss_snf Z_isu_sound
                _ _ _ _ _ _ ss_snf_contract W1 W2 Hdd Hc) as [_ [r1 [r2 [a [b [t [S1 [S2 [Hr _]]]]]]]]].
    exists r1, r2, a, b. split; [exact S1|]. split; [exact S2|exact Hr].
Qed.
