(* C02 invariance: relabelling the edges of a diagram.
   For rho injective on the edge labels the circles of every resolution of the relabelled diagram are
   the images of the circles of the original resolution, re-sorted ([circles_relabel]); when rho is
   strictly increasing on the edge labels nothing has to be re-sorted ([circles_relabel_mono]). *)
From Coq Require Import List Arith Bool Lia.
Require Import Yui.Model.KhCube Yui.Proofs.C02Sorted Yui.Proofs.C02Canon.
Import ListNotations.

Definition relabel_crossing (rho : nat -> nat) (c : crossing) : crossing :=
  let '(t, (e0, e1, e2, e3)) := c in (t, (rho e0, rho e1, rho e2, rho e3)).
Definition relabel (rho : nat -> nat) (l : link) : link := map (relabel_crossing rho) l.

Definition inj_on (rho : nat -> nat) (E : list nat) : Prop :=
  forall a b, In a E -> In b E -> rho a = rho b -> a = b.
Definition mono_on (rho : nat -> nat) (E : list nat) : Prop :=
  forall a b, In a E -> In b E -> a < b -> rho a < rho b.

Lemma mono_inj rho E : mono_on rho E -> inj_on rho E.
Proof.
  intros H a b Ha Hb E0. destruct (Nat.lt_trichotomy a b) as [L|[L|L]]; [|exact L|].
  - pose proof (H a b Ha Hb L). lia.
  - pose proof (H b a Hb Ha L). lia.
Qed.

Lemma inj_on_incl rho E E' : (forall e, In e E' -> In e E) -> inj_on rho E -> inj_on rho E'.
Proof. intros Hi H a b Ha Hb. apply H; now apply Hi. Qed.
Lemma mono_on_incl rho E E' : (forall e, In e E' -> In e E) -> mono_on rho E -> mono_on rho E'.
Proof. intros Hi H a b Ha Hb. apply H; now apply Hi. Qed.

Lemma relabel_fst rho c : fst (relabel_crossing rho c) = fst c.
Proof. now destruct c as [t [[[e0 e1] e2] e3]]. Qed.

Lemma relabel_retype rho t c : relabel_crossing rho (t, snd c) = (t, snd (relabel_crossing rho c)).
Proof. now destruct c as [t0 [[[e0 e1] e2] e3]]. Qed.

Lemma relabel_crossing_num rho l : crossing_num (relabel rho l) = crossing_num l.
Proof. exact (map_crossing_num _ (relabel_fst rho) l). Qed.

Lemma resolve_by_relabel rho l s : resolve_by (relabel rho l) s = relabel rho (resolve_by l s).
Proof. exact (resolve_by_map _ (relabel_fst rho) (relabel_retype rho) l s). Qed.

Lemma relabel_crossing_edges rho c : crossing_edges (relabel_crossing rho c) = map rho (crossing_edges c).
Proof. now destruct c as [t [[[e0 e1] e2] e3]]. Qed.

Definition rho2 (rho : nat -> nat) (ab : nat * nat) : nat * nat := (rho (fst ab), rho (snd ab)).

Lemma relabel_arcs rho c : arcs (relabel_crossing rho c) = map (rho2 rho) (arcs c).
Proof. destruct c as [t [[[e0 e1] e2] e3]]. now destruct t. Qed.

Lemma relabel_all_edges rho l : all_edges (relabel rho l) = map rho (all_edges l).
Proof.
  unfold all_edges, relabel. induction l as [|c l IH]; [reflexivity|]. cbn [map flat_map].
  now rewrite map_app, IH, relabel_crossing_edges.
Qed.

Lemma relabel_all_arcs rho l : all_arcs (relabel rho l) = map (rho2 rho) (all_arcs l).
Proof.
  unfold all_arcs, relabel. induction l as [|c l IH]; [reflexivity|]. cbn [map flat_map].
  now rewrite map_app, IH, relabel_arcs.
Qed.

Lemma resolve_by_edges l s : all_edges (resolve_by l s) = all_edges l.
Proof.
  unfold all_edges. revert s. induction l as [|c l IH]; intros s; [reflexivity|]. cbn [resolve_by].
  destruct (is_resolved c); [cbn [flat_map]; now rewrite IH|].
  destruct s as [|b s]; cbn [flat_map]; rewrite IH; [reflexivity|]. f_equal.
  now destruct c as [t [[[e0 e1] e2] e3]].
Qed.

Lemma conn_in_edges l a b : conn l a b -> In a (all_edges l) /\ In b (all_edges l).
Proof.
  intros H. induction H as [a b [<- H]|a b H|a b _ IH|a b c _ IH1 _ IH2].
  - auto.
  - now apply arcs_in_edges.
  - tauto.
  - tauto.
Qed.

Lemma conn_relabel_fwd rho l a b : conn l a b -> conn (relabel rho l) (rho a) (rho b).
Proof.
  intros H. induction H as [a b [<- H]|a b H|a b _ IH|a b c _ IH1 _ IH2].
  - apply gen_base. split; [reflexivity|]. rewrite relabel_all_edges. now apply in_map.
  - apply gen_arc. rewrite relabel_all_arcs. now apply (in_map (rho2 rho) _ (a, b)).
  - now apply gen_sym.
  - now apply gen_trans with (rho b).
Qed.

Lemma conn_relabel_bwd rho l : inj_on rho (all_edges l) ->
  forall a' b', conn (relabel rho l) a' b' -> exists a b, a' = rho a /\ b' = rho b /\ conn l a b.
Proof.
  intros Hinj a' b' H. induction H as [a' b' [<- H]|a' b' H|a' b' _ IH|a' b' c' _ IH1 _ IH2].
  - rewrite relabel_all_edges in H. apply in_map_iff in H. destruct H as [a [<- Ha]].
    exists a, a. split; [reflexivity|]. split; [reflexivity|]. now apply gen_base.
  - rewrite relabel_all_arcs in H. apply in_map_iff in H. destruct H as [[a b] [E Hab]].
    injection E as <- <-. exists a, b. split; [reflexivity|]. split; [reflexivity|]. now apply gen_arc.
  - destruct IH as [a [b [-> [-> H]]]]. exists b, a. split; [reflexivity|]. split; [reflexivity|]. now apply gen_sym.
  - destruct IH1 as [a [m1 [-> [-> H1]]]]. destruct IH2 as [m2 [b [E [-> H2]]]].
    assert (m1 = m2).
    { apply Hinj; [apply (conn_in_edges l a m1 H1)|apply (conn_in_edges l m2 b H2)|exact E]. }
    subst m2. exists a, b. split; [reflexivity|]. split; [reflexivity|]. now apply gen_trans with m1.
Qed.

Definition push (rho : nat -> nat) (c : circle) : circle := sort_nodup (map rho c).

Lemma push_In rho c e' : In e' (push rho c) <-> exists e, In e c /\ e' = rho e.
Proof.
  unfold push. rewrite sort_nodup_In, in_map_iff. split; intros [e [H1 H2]]; exists e; auto.
Qed.

Lemma NoDup_map_inj_on {A B} (f : A -> B) (l : list A) :
  NoDup l -> (forall x y, In x l -> In y l -> f x = f y -> x = y) -> NoDup (map f l).
Proof.
  induction l as [|x l IH]; intros Hnd Hinj; [constructor|]. inversion Hnd as [|? ? Hx Hnd']; subst.
  cbn [map]. constructor.
  - intros Hin. apply in_map_iff in Hin. destruct Hin as [y [E Hy]]. apply Hx.
    assert (y = x) by (apply Hinj; [now right|now left|exact E]). now subst.
  - apply IH; [exact Hnd'|]. intros a b Ha Hb. apply Hinj; now right.
Qed.

Lemma push_good rho p E :
  pgood p -> (forall c e, In c p -> In e c -> In e E) -> inj_on rho E -> pgood (map (push rho) p).
Proof.
  intros G HE Hinj.
  assert (Hshare : forall c d e', In c p -> In d p -> In e' (push rho c) -> In e' (push rho d) -> c = d).
  { intros c d e' Hc Hd H1 H2. apply push_In in H1, H2. destruct H1 as [a [Ha ->]], H2 as [b [Hb E0]].
    assert (a = b) by (apply Hinj; [now apply (HE c)|now apply (HE d)|exact E0]). subst b.
    exact (pg_disj p G c d a Hc Hd Ha Hb). }
  assert (Hne : forall c, In c p -> exists e', In e' (push rho c)).
  { intros c Hc. pose proof (pg_ne p G c Hc). destruct c as [|a c]; [congruence|].
    exists (rho a). apply push_In. exists a. split; [now left|reflexivity]. }
  constructor.
  - intros c' Hc'. apply in_map_iff in Hc'. destruct Hc' as [c [<- _]]. apply sort_nodup_sorted.
  - intros c' Hc'. apply in_map_iff in Hc'. destruct Hc' as [c [<- Hc]].
    destruct (Hne c Hc) as [e' He']. intros E0. rewrite E0 in He'. exact He'.
  - intros c' d' e' Hc' Hd'. apply in_map_iff in Hc', Hd'.
    destruct Hc' as [c [<- Hc]], Hd' as [d [<- Hd]]. intros H1 H2. now rewrite (Hshare c d e' Hc Hd H1 H2).
  - apply NoDup_map_inj_on; [exact (pg_nodup p G)|].
    intros c d Hc Hd E0. destruct (Hne c Hc) as [e' He']. apply (Hshare c d e' Hc Hd He'). now rewrite <- E0.
Qed.

Lemma push_cls rho p a' b' :
  cls (map (push rho) p) a' b' <-> exists a b, a' = rho a /\ b' = rho b /\ cls p a b.
Proof.
  split.
  - intros [c' [Hc' [Ha Hb]]]. apply in_map_iff in Hc'. destruct Hc' as [c [<- Hc]].
    apply push_In in Ha, Hb. destruct Ha as [a [Ha ->]], Hb as [b [Hb ->]].
    exists a, b. split; [reflexivity|]. split; [reflexivity|]. exists c. auto.
  - intros [a [b [-> [-> [c [Hc [Ha Hb]]]]]]]. exists (push rho c). split; [now apply in_map|].
    split; apply push_In; eauto.
Qed.

Lemma circles_in_edges l c e : In c (circles l) -> In e c -> In e (all_edges l).
Proof.
  intros Hc He. destruct (circles_spec l) as [_ [_ [C _]]]. apply C. exists c. auto.
Qed.

Theorem circles_relabel rho l : inj_on rho (all_edges l) ->
  circles (relabel rho l) = sort_classes (map (push rho) (circles l)).
Proof.
  intros Hinj.
  destruct (circles_spec l) as [G [S [_ K]]].
  destruct (circles_spec (relabel rho l)) as [G' [S' [_ K']]].
  assert (Gq : pgood (map (push rho) (circles l)))
    by exact (push_good rho _ _ G (circles_in_edges l) Hinj).
  destruct (sort_classes_good _ Gq) as [G2 S2].
  apply canon_unique; try assumption.
  intros a' b'. rewrite K', sort_classes_cls, push_cls. split.
  - intros H. destruct (conn_relabel_bwd rho l Hinj a' b' H) as [a [b [-> [-> H']]]].
    exists a, b. split; [reflexivity|]. split; [reflexivity|]. now apply K.
  - intros [a [b [-> [-> H]]]]. apply conn_relabel_fwd. now apply K.
Qed.

Lemma map_mono_sorted rho E c :
  mono_on rho E -> (forall e, In e c -> In e E) -> ksorted id c -> ksorted id (map rho c).
Proof.
  intros Hm HE S. apply ksorted_map. revert S. apply ksorted_ext.
  intros x y Hx Hy. unfold id. apply Hm; now apply HE.
Qed.

Theorem circles_relabel_mono rho l : mono_on rho (all_edges l) ->
  circles (relabel rho l) = map (map rho) (circles l).
Proof.
  intros Hm. rewrite circles_relabel by now apply mono_inj.
  destruct (circles_spec l) as [G [S _]].
  assert (E1 : map (push rho) (circles l) = map (map rho) (circles l)).
  { apply map_ext_in. intros c Hc. unfold push. apply sort_nodup_id.
    apply (map_mono_sorted rho (all_edges l)); [exact Hm| |now apply (pg_sorted _ G)].
    intros e He. now apply (circles_in_edges l c). }
  rewrite E1. apply sort_classes_id. apply ksorted_map. revert S. apply ksorted_ext.
  intros c d Hc Hd Hlt.
  pose proof (pg_ne _ G c Hc) as Nc. pose proof (pg_ne _ G d Hd) as Nd.
  destruct c as [|a c]; [congruence|]. destruct d as [|b d]; [congruence|]. cbn [map hd] in *.
  apply Hm; [apply (circles_in_edges l (a :: c)); [exact Hc|now left]
            |apply (circles_in_edges l (b :: d)); [exact Hd|now left]|exact Hlt].
Qed.

Corollary circles_resolve_relabel rho l s : inj_on rho (all_edges l) ->
  circles (resolve_by (relabel rho l) s) = sort_classes (map (push rho) (circles (resolve_by l s))).
Proof.
  intros H. rewrite resolve_by_relabel. apply circles_relabel. now rewrite resolve_by_edges.
Qed.

Corollary circles_resolve_relabel_mono rho l s : mono_on rho (all_edges l) ->
  circles (resolve_by (relabel rho l) s) = map (map rho) (circles (resolve_by l s)).
Proof.
  intros H. rewrite resolve_by_relabel. apply circles_relabel_mono. now rewrite resolve_by_edges.
Qed.

(* same number of circles, for any injective rho *)
Corollary circles_relabel_length rho l s : inj_on rho (all_edges l) ->
  length (circles (resolve_by (relabel rho l) s)) = length (circles (resolve_by l s)).
Proof.
  intros H. rewrite circles_resolve_relabel by exact H.
  now rewrite sort_classes_length, map_length.
Qed.
