(* C02 invariance: the cube and the homology tables depend on the circles only through
   equality tests between circles.  If phi is a map on circles that preserves [list_eqb] on the circles
   that occur, applying phi to the circles of every vertex leaves the differentials [d_images] (hence
   [c_rows]) literally unchanged, and the tables ([kh_groups], [kh_groups_bigraded]) do not look at the
   circles of the generators at all. *)
From Coq Require Import List Arith Bool ZArith Lia.
Require Import Yui.Model.KhCube Yui.Model.KhHomology Yui.Proofs.C02Sorted.
Require Import Yui.Base.ListFacts.
Import ListNotations.

Lemma existsb_map {A B} (f : B -> bool) (g : A -> B) l : existsb f (map g l) = existsb (fun x => f (g x)) l.
Proof. induction l as [|x l IH]; [reflexivity|]. cbn [map existsb]. now rewrite IH. Qed.

Lemma existsb_ext_in {A} (f g : A -> bool) l : (forall x, In x l -> f x = g x) -> existsb f l = existsb g l.
Proof.
  induction l as [|x l IH]; intros H; [reflexivity|]. cbn [existsb].
  rewrite (H x (or_introl eq_refl)), IH; [reflexivity|]. intros y Hy. apply H. now right.
Qed.

Lemma index_where_map {A B} (f : B -> bool) (g : A -> B) l :
  index_where f (map g l) = index_where (fun x => f (g x)) l.
Proof. induction l as [|x l IH]; [reflexivity|]. cbn [map index_where]. now rewrite IH. Qed.

Lemma index_where_ext_in {A} (f g : A -> bool) l :
  (forall x, In x l -> f x = g x) -> index_where f l = index_where g l.
Proof.
  induction l as [|x l IH]; intros H; [reflexivity|]. cbn [index_where].
  rewrite (H x (or_introl eq_refl)), IH; [reflexivity|]. intros y Hy. apply H. now right.
Qed.

Lemma flat_map_map {A B C} (f : B -> list C) (g : A -> B) l : flat_map f (map g l) = flat_map (fun x => f (g x)) l.
Proof. induction l as [|x l IH]; [reflexivity|]. cbn [map flat_map]. now rewrite IH. Qed.

Lemma map_flat_map {A B C} (f : A -> list B) (g : B -> C) l : map g (flat_map f l) = flat_map (fun x => map g (f x)) l.
Proof. induction l as [|x l IH]; [reflexivity|]. cbn [flat_map]. now rewrite map_app, IH. Qed.

Lemma flat_map_ext_in {A B} (f g : A -> list B) l : (forall x, In x l -> f x = g x) -> flat_map f l = flat_map g l.
Proof. exact (ListFacts.flat_map_ext_in f g l). Qed.

Section CircleMap.
Variable phi : circle -> circle.
Variable good : circle -> Prop.
Hypothesis Hphi : forall c d, good c -> good d -> list_eqb (phi c) (phi d) = list_eqb c d.

Definition vmap (v : vertex) : vertex :=
  mk_vertex (v_state v) (map phi (v_circles v)) (v_base v) (v_labels v).
Definition gmap (g : vertex * label) : vertex * label := (vmap (fst g), snd g).
Definition cube_map (c : cube) : cube := mk_cube (c_n c) (map (map gmap) (c_gens c)) (c_rows c).

Definition cs_good (cs : list circle) : Prop := forall c, In c cs -> good c.
Definition vs_good (vs : list vertex) : Prop := forall v, In v vs -> cs_good (v_circles v).

Lemma in_part_map c ds : good c -> cs_good ds -> in_part (phi c) (map phi ds) = in_part c ds.
Proof.
  intros Hc Hd. unfold in_part. rewrite existsb_map. apply existsb_ext_in. intros d Hin. apply Hphi; [exact Hc|now apply Hd].
Qed.

Lemma label_of_map cs x c : good c -> cs_good cs -> label_of (map phi cs) x (phi c) = label_of cs x c.
Proof.
  intros Hc Hcs. unfold label_of. rewrite index_where_map.
  rewrite (index_where_ext_in _ (list_eqb c) cs); [reflexivity|]. intros d Hd. apply Hphi; [exact Hc|now apply Hcs].
Qed.

Lemma edge_images_map h t v w x : cs_good (v_circles v) -> cs_good (v_circles w) ->
  edge_images h t (vmap v) (vmap w) x = edge_images h t v w x.
Proof.
  intros Gv Gw. unfold edge_images. cbn [vmap v_circles].
  set (cs := v_circles v) in *. set (ds := v_circles w) in *.
  rewrite !filter_map_comm.
  rewrite (filter_ext_in (fun c => negb (in_part (phi c) (map phi ds))) (fun c => negb (in_part c ds)) cs)
    by (intros c Hc; now rewrite in_part_map by auto).
  rewrite (filter_ext_in (fun c => negb (in_part (phi c) (map phi cs))) (fun c => negb (in_part c cs)) ds)
    by (intros c Hc; now rewrite in_part_map by auto).
  assert (Rin : forall a, In a (filter (fun c => negb (in_part c ds)) cs) -> good a)
    by (intros a Ha; apply filter_In in Ha; apply Gv; tauto).
  assert (Ain : forall a, In a (filter (fun c => negb (in_part c cs)) ds) -> good a)
    by (intros a Ha; apply filter_In in Ha; apply Gw; tauto).
  destruct (filter (fun c => negb (in_part c ds)) cs) as [|a [|b [|b3 rr]]];
    destruct (filter (fun c => negb (in_part c cs)) ds) as [|c [|c2 [|c3 aa]]]; try reflexivity.
  - (* split: removed [a], added [c; c2] *)
    cbn [map].
    assert (Ga : good a) by (apply Rin; now left).
    assert (Gc : good c) by (apply Ain; now left).
    assert (Gc2 : good c2) by (apply Ain; right; now left).
    rewrite !label_of_map by assumption.
    apply map_ext. intros p. f_equal. rewrite map_map. apply map_ext_in. intros d Hd.
    rewrite !Hphi by auto. destruct (list_eqb d c); [reflexivity|]. destruct (list_eqb d c2); [reflexivity|].
    apply label_of_map; auto.
  - (* merge: removed [a; b], added [c] *)
    cbn [map].
    assert (Ga : good a) by (apply Rin; now left).
    assert (Gb : good b) by (apply Rin; right; now left).
    assert (Gc : good c) by (apply Ain; now left).
    rewrite !label_of_map by assumption.
    apply map_ext. intros p. f_equal. rewrite map_map. apply map_ext_in. intros d Hd.
    rewrite Hphi by auto. destruct (list_eqb d c); [reflexivity|]. apply label_of_map; auto.
Qed.

Lemma vertex_at_map vs s : vertex_at (map vmap vs) s = vmap (vertex_at vs s).
Proof. unfold vertex_at. change dummy_vertex with (vmap dummy_vertex) at 1. apply map_nth. Qed.

Lemma vertex_at_good vs s : vs_good vs -> cs_good (v_circles (vertex_at vs s)).
Proof.
  intros G. unfold vertex_at. destruct (nth_in_or_default (state_pos s) vs dummy_vertex) as [H| ->].
  - now apply G.
  - intros c [].
Qed.

Lemma gens_of_weight_map vs k : gens_of_weight (map vmap vs) k = map gmap (gens_of_weight vs k).
Proof.
  unfold gens_of_weight. rewrite filter_map_comm, flat_map_map, map_flat_map. cbn [vmap v_state v_labels].
  apply flat_map_ext. intros v. now rewrite map_map.
Qed.

Lemma gen_index_map gs s x : gen_index (map gmap gs) s x = gen_index gs s x.
Proof. unfold gen_index. now rewrite index_where_map. Qed.

Lemma gens_of_weight_In vs k v x : In (v, x) (gens_of_weight vs k) -> In v vs.
Proof.
  unfold gens_of_weight. intros H. apply in_flat_map in H. destruct H as [v' [Hv' H]].
  apply in_map_iff in H. destruct H as [y [E _]]. injection E as -> _. apply filter_In in Hv'. tauto.
Qed.

Lemma d_images_map vs h t k : vs_good vs -> d_images (map vmap vs) h t k = d_images vs h t k.
Proof.
  intros G. unfold d_images. rewrite !gens_of_weight_map, map_map.
  apply map_ext_in. intros [v x] Hin. cbn [gmap fst snd vmap v_state].
  apply gens_of_weight_In in Hin.
  apply flat_map_ext. intros i. rewrite vertex_at_map.
  change (mk_vertex (v_state v) (map phi (v_circles v)) (v_base v) (v_labels v)) with (vmap v).
  rewrite edge_images_map; [|now apply G|now apply vertex_at_good].
  apply map_ext. intros yc. now rewrite gen_index_map.
Qed.

(* the tables do not look at the circles *)
Definition sel_inv (sel : vertex * label -> bool) : Prop := forall g, sel (gmap g) = sel g.

Lemma gens_at_map c k : gens_at (cube_map c) k = map gmap (gens_at c k).
Proof. unfold gens_at. cbn [cube_map c_gens]. change (@nil (vertex * label)) with (map gmap []) at 1. apply map_nth. Qed.

Lemma combine_filter_map {R} (sel : vertex * label -> bool) gs (rows : list R) : sel_inv sel ->
  map snd (filter (fun p => sel (fst p)) (combine (map gmap gs) rows))
  = map snd (filter (fun p => sel (fst p)) (combine gs rows)).
Proof.
  intros Hs. revert rows. induction gs as [|g gs IH]; intros [|r rows]; try reflexivity.
  cbn [map combine filter fst]. rewrite Hs. destruct (sel g); cbn [map snd]; now rewrite IH.
Qed.

Lemma factors_map c k sel : sel_inv sel -> factors (cube_map c) k sel = factors c k sel.
Proof.
  intros Hs. unfold factors. change (rows_at (cube_map c) k) with (rows_at c k).
  destruct (rows_at c k) as [rows|]; [|reflexivity]. now rewrite gens_at_map, combine_filter_map.
Qed.

Lemma count_gens_map c k sel : sel_inv sel -> count_gens (cube_map c) k sel = count_gens c k sel.
Proof.
  intros Hs. unfold count_gens. rewrite gens_at_map, filter_map_comm, map_length.
  f_equal. apply filter_ext. exact Hs.
Qed.

Lemma groups_from_map c sel todo : sel_inv sel -> forall k dprev,
  groups_from (cube_map c) sel k todo dprev = groups_from c sel k todo dprev.
Proof.
  intros Hs. induction todo as [|m IH]; intros k dprev; [reflexivity|]. cbn [groups_from].
  rewrite factors_map by exact Hs. destruct (factors c k sel) as [dk|]; [|reflexivity].
  now rewrite IH, count_gens_map.
Qed.

Lemma cube_ok_map c : cube_ok (cube_map c) = cube_ok c.
Proof. reflexivity. Qed.

Lemma q_local_map g : q_local (gmap g) = q_local g.
Proof. reflexivity. Qed.

Lemma q_values_map c : q_values (cube_map c) = q_values c.
Proof.
  unfold q_values. f_equal. cbn [cube_map c_gens]. rewrite flat_map_map. apply flat_map_ext.
  intros gs. rewrite map_map. reflexivity.
Qed.

Theorem kh_groups_map c : kh_groups (cube_map c) = kh_groups c.
Proof.
  unfold kh_groups. rewrite cube_ok_map. destruct (cube_ok c); [|reflexivity].
  apply groups_from_map. intros g. reflexivity.
Qed.

Theorem kh_groups_bigraded_map c : kh_groups_bigraded (cube_map c) = kh_groups_bigraded c.
Proof.
  unfold kh_groups_bigraded. rewrite cube_ok_map, q_values_map. destruct (cube_ok c); [|reflexivity].
  generalize (q_values c). intros qs. induction qs as [|q qs IH]; [reflexivity|]. cbn [fold_right]. rewrite IH.
  rewrite groups_from_map; [reflexivity|]. intros g. reflexivity.
Qed.

End CircleMap.
