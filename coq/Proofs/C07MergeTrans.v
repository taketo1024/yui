(* C07, composition of coordinate maps, part 1: Trans.
   A Trans built through its API (id / new / append / merge(d) / reduce) always satisfies [trans_ok]: its factors
   f_k : n_(k+1) x n_k and b_k : n_k x n_(k+1) have the shapes of a chain src = n_0, .., n_last = tgt.  For such a
   Trans  forward_mat / backward_mat  return the products  f_n * .. * f_0  ([fwd_fun]) and  b_0 * .. * b_n
   ([bwd_fun]) - with and without the one-factor shortcut -,  forward / backward  apply them to vectors,
   merge composes them and reduce changes neither. *)
From Coq Require Import Arith List Lia Ring Bool.
Require Import Yui.Base.Ring Yui.Base.MatF Yui.Base.MatL Yui.Model.HomologyCalc Yui.Model.HomologyMerge.
Require Import Yui.Base.ListFacts.
Require Import Yui.Proofs.C07Algebra Yui.Proofs.C07Calc.
Import ListNotations.

Section C07MergeTrans.
  Context {R : Type} (o : ring_ops R) (L : ring_laws o).

  Local Notation "0" := (rzero o).
  Local Notation mg := (mget o).

  (* f_n * .. * f_1 * f_0   for the list [f_0; f_1; ..; f_n] *)
  Fixpoint fwd_fun (fs : list (dmat R)) : mat R :=
    match fs with
    | [] => mid o
    | f :: r => mmul o (nr f) (fwd_fun r) (mg f)
    end.
  (* b_0 * b_1 * .. * b_n   for the list [b_0; b_1; ..; b_n] *)
  Fixpoint bwd_fun (bs : list (dmat R)) : mat R :=
    match bs with
    | [] => mid o
    | b :: r => mmul o (nc b) (mg b) (bwd_fun r)
    end.

  (* the shape invariant of a Trans *)
  Inductive chain_ok : nat -> list (dmat R) -> list (dmat R) -> nat -> Prop :=
  | co_nil n : chain_ok n [] [] n
  | co_cons n f b fs bs m :
      nc f = n -> nr b = n -> nc b = nr f -> chain_ok (nr f) fs bs m -> chain_ok n (f :: fs) (b :: bs) m.
  Definition trans_ok (t : trans R) : Prop := chain_ok (src_dim t) (f_mats t) (b_mats t) (tgt_dim t).

  Lemma chain_ok_length n fs bs m : chain_ok n fs bs m -> length fs = length bs.
  Proof. induction 1; cbn; congruence. Qed.

  Lemma chain_ok_app n fs bs m fs' bs' k :
    chain_ok n fs bs m -> chain_ok m fs' bs' k -> chain_ok n (fs ++ fs') (bs ++ bs') k.
  Proof. induction 1; intros H'; cbn; [exact H'|]. constructor; auto. Qed.

  Lemma dmul_spec A B :
    nc A = nr B ->
    exists C, dmul o A B = Some C /\ nr C = nr A /\ nc C = nc B /\
              forall i j, (i < nr A)%nat -> (j < nc B)%nat -> mg C i j = mmul o (nc A) (mg A) (mg B) i j.
  Proof.
    intros H. unfold dmul. destruct (Nat.eqb_spec (nc A) (nr B)) as [_|N]; [|contradiction].
    eexists. split; [reflexivity|].
    cbn [nr nc dmk]. split; [reflexivity|]. split; [reflexivity|].
    intros i j Hi Hj. rewrite (mget_dmk o) by assumption. reflexivity.
  Qed.

  Lemma dmul_none A B : nc A <> nr B -> dmul o A B = None.
  Proof. intros H. unfold dmul. apply Nat.eqb_neq in H. now rewrite H. Qed.

  Lemma mat_vec_spec A v :
    nc A = length v ->
    exists w, mat_vec o A v = Some w /\ length w = nr A /\
              forall i, (i < nr A)%nat -> vget o w i = mvec o (nc A) (mg A) (vget o v) i.
  Proof.
    intros H. unfold mat_vec. destruct (Nat.eqb_spec (nc A) (length v)) as [_|N]; [|contradiction].
    eexists. split; [reflexivity|].
    split; [now rewrite map_length, seq_length|].
    intros i Hi. unfold vget at 1. rewrite nth_map_seq by exact Hi. reflexivity.
  Qed.

  Lemma mat_vec_none A v : nc A <> length v -> mat_vec o A v = None.
  Proof. intros H. unfold mat_vec. apply Nat.eqb_neq in H. now rewrite H. Qed.

  Lemma vec_ext (v w : list R) n :
    length v = n -> length w = n -> (forall i, (i < n)%nat -> vget o v i = vget o w i) -> v = w.
  Proof.
    intros Hv Hw H. apply (nth_ext v w 0 0); [congruence|].
    intros i Hi. apply H. congruence.
  Qed.

  Lemma ofold_mul_r_snoc ms f res :
    ofold_mul_r o (ms ++ [f]) res = obind (ofold_mul_r o ms res) (fun x => dmul o x f).
  Proof.
    revert res. induction ms as [|a ms IH]; intros res; cbn [app ofold_mul_r].
    - cbn [obind]. destruct (dmul o res f); reflexivity.
    - destruct (dmul o res a); cbn [obind]; [apply IH|reflexivity].
  Qed.

  Lemma ofold_mul_l_snoc ms b res :
    ofold_mul_l o (ms ++ [b]) res = obind (ofold_mul_l o ms res) (fun x => dmul o b x).
  Proof.
    revert res. induction ms as [|a ms IH]; intros res; cbn [app ofold_mul_l].
    - cbn [obind]. destruct (dmul o b res); reflexivity.
    - destruct (dmul o a res); cbn [obind]; [apply IH|reflexivity].
  Qed.

  Lemma fwd_fold n fs bs m :
    chain_ok n fs bs m ->
    exists p, ofold_mul_r o (rev fs) (d_id o m) = Some p /\ nr p = m /\ nc p = n /\
              meq m n (mg p) (fwd_fun fs).
  Proof.
    induction 1 as [n|n f b fs bs m Hf Hb Hbf Hc IH].
    - exists (d_id o n). cbn [rev ofold_mul_r]. split; [reflexivity|]. split; [reflexivity|]. split; [reflexivity|].
      intros i j Hi Hj. cbn [fwd_fun]. now apply (mget_d_id o).
    - destruct IH as [x [Ex [X1 [X2 X3]]]].
      cbn [rev]. rewrite ofold_mul_r_snoc, Ex. cbn [obind].
      destruct (dmul_spec x f X2) as [p [Ep [P1 [P2 P3]]]].
      exists p. split; [exact Ep|]. split; [congruence|]. split; [congruence|].
      intros i j Hi Hj. rewrite P3 by lia. cbn [fwd_fun]. rewrite X2.
      apply (mmul_ext_l o). intros l Hl. apply X3; assumption.
  Qed.

  Lemma bwd_fold n fs bs m :
    chain_ok n fs bs m ->
    exists q, ofold_mul_l o (rev bs) (d_id o m) = Some q /\ nr q = n /\ nc q = m /\
              meq n m (mg q) (bwd_fun bs).
  Proof.
    induction 1 as [n|n f b fs bs m Hf Hb Hbf Hc IH].
    - exists (d_id o n). cbn [rev ofold_mul_l]. split; [reflexivity|]. split; [reflexivity|]. split; [reflexivity|].
      intros i j Hi Hj. cbn [bwd_fun]. now apply (mget_d_id o).
    - destruct IH as [x [Ex [X1 [X2 X3]]]].
      cbn [rev]. rewrite ofold_mul_l_snoc, Ex. cbn [obind].
      assert (Hbx : nc b = nr x) by congruence.
      destruct (dmul_spec b x Hbx) as [q [Eq [Q1 [Q2 Q3]]]].
      exists q. split; [exact Eq|]. split; [congruence|]. split; [congruence|].
      intros i j Hi Hj. rewrite Q3 by lia. cbn [bwd_fun].
      apply (mmul_ext_r o). intros l Hl. apply X3; lia.
  Qed.

  Lemma fwd_fun_single f i j : (i < nr f)%nat -> fwd_fun [f] i j = mg f i j.
  Proof. intros Hi. cbn [fwd_fun]. now apply (mmul_id_l o L). Qed.
  Lemma bwd_fun_single b i j : (j < nc b)%nat -> bwd_fun [b] i j = mg b i j.
  Proof. intros Hj. cbn [bwd_fun]. now apply (mmul_id_r o L). Qed.

  (* forward_mat returns the product of the forward factors (shortcut for one factor included) *)
  Theorem forward_mat_spec t :
    trans_ok t ->
    exists p, forward_mat o t = Some p /\ nr p = tgt_dim t /\ nc p = src_dim t /\
              meq (tgt_dim t) (src_dim t) (mg p) (fwd_fun (f_mats t)).
  Proof.
    unfold trans_ok, forward_mat. intros H.
    destruct (f_mats t) as [|f [|f' r]] eqn:E.
    - rewrite <- E in *. apply (fwd_fold _ _ _ _ H).
    - inversion H as [|n f0 b fs bs m Hf Hb Hbf Hc]; subst. inversion Hc; subst.
      exists f. split; [reflexivity|]. split; [congruence|]. split; [congruence|].
      intros i j Hi Hj. symmetry. apply fwd_fun_single. congruence.
    - rewrite <- E in *. apply (fwd_fold _ _ _ _ H).
  Qed.

  Theorem backward_mat_spec t :
    trans_ok t ->
    exists q, backward_mat o t = Some q /\ nr q = src_dim t /\ nc q = tgt_dim t /\
              meq (src_dim t) (tgt_dim t) (mg q) (bwd_fun (b_mats t)).
  Proof.
    unfold trans_ok, backward_mat. intros H.
    destruct (b_mats t) as [|b [|b' r]] eqn:E.
    - rewrite <- E in *. apply (bwd_fold _ _ _ _ H).
    - inversion H as [|n f0 b0 fs bs m Hf Hb Hbf Hc]; subst. inversion Hc; subst.
      exists b. split; [reflexivity|]. split; [congruence|]. split; [congruence|].
      intros i j Hi Hj. symmetry. apply bwd_fun_single. congruence.
    - rewrite <- E in *. apply (bwd_fold _ _ _ _ H).
  Qed.

  Lemma ofold_vec_fwd n fs bs m :
    chain_ok n fs bs m -> forall v, length v = n ->
    exists w, ofold_vec o fs v = Some w /\ length w = m /\
              forall i, (i < m)%nat -> vget o w i = mvec o n (fwd_fun fs) (vget o v) i.
  Proof.
    induction 1 as [n|n f b fs bs m Hf Hb Hbf Hc IH]; intros v Hv.
    - exists v. split; [reflexivity|]. split; [exact Hv|].
      intros i Hi. cbn [fwd_fun]. symmetry. now apply (mvec_id o L).
    - assert (Hfv : nc f = length v) by congruence.
      destruct (mat_vec_spec f v Hfv) as [y [Ey [Y1 Y2]]].
      destruct (IH y Y1) as [w [Ew [W1 W2]]].
      exists w. cbn [ofold_vec]. rewrite Ey. cbn [obind]. split; [exact Ew|]. split; [exact W1|].
      intros i Hi. rewrite W2 by exact Hi. cbn [fwd_fun].
      rewrite (mvec_mmul o L). apply (mvec_ext o). intros l Hl. rewrite Y2 by exact Hl. now rewrite Hf.
  Qed.

  Theorem forward_spec t v :
    trans_ok t -> length v = src_dim t ->
    exists w, forward o t v = Some w /\ length w = tgt_dim t /\
              forall i, (i < tgt_dim t)%nat -> vget o w i = mvec o (src_dim t) (fwd_fun (f_mats t)) (vget o v) i.
  Proof.
    intros H Hv. unfold forward. rewrite Hv, Nat.eqb_refl. exact (ofold_vec_fwd _ _ _ _ H v Hv).
  Qed.

  Lemma forward_none t v : length v <> src_dim t -> forward o t v = None.
  Proof. intros H. unfold forward. apply Nat.eqb_neq in H. now rewrite H. Qed.

  (* two transforms with the same products act in the same way on every vector *)
  Lemma forward_ext t u :
    trans_ok t -> trans_ok u -> src_dim t = src_dim u -> tgt_dim t = tgt_dim u ->
    meq (tgt_dim t) (src_dim t) (fwd_fun (f_mats t)) (fwd_fun (f_mats u)) ->
    forall v, forward o t v = forward o u v.
  Proof.
    intros Ht Hu Hs Hg He v.
    destruct (Nat.eq_dec (length v) (src_dim t)) as [Hv|Hv].
    - destruct (forward_spec t v Ht Hv) as [w [Ew [W1 W2]]].
      assert (Hv' : length v = src_dim u) by congruence.
      destruct (forward_spec u v Hu Hv') as [w' [Ew' [W1' W2']]].
      rewrite Ew, Ew'. f_equal. apply (vec_ext w w' (tgt_dim t)); [exact W1|congruence|].
      intros i Hi. rewrite W2 by exact Hi. rewrite W2' by congruence. rewrite <- Hs.
      apply (mvec_ext_row o). intros l Hl. now apply He.
    - rewrite (forward_none t v Hv). rewrite forward_none; [reflexivity|congruence].
  Qed.

  Lemma trans_id_ok n : trans_ok (trans_id n).
  Proof. unfold trans_ok, trans_id. cbn. constructor. Qed.

  Lemma trans_append_ok t f b t' : trans_ok t -> trans_append t f b = Some t' -> trans_ok t'.
  Proof.
    unfold trans_ok, trans_append. intros H E.
    destruct ((nc f =? nr b) && (nr f =? nc b) && (nc f =? tgt_dim t)) eqn:G; [|discriminate].
    injection E as <-. cbn [src_dim tgt_dim f_mats b_mats].
    rewrite !andb_true_iff, !Nat.eqb_eq in G. destruct G as [[G1 G2] G3].
    apply (chain_ok_app _ _ _ _ _ _ _ H). constructor; try congruence. constructor.
  Qed.

  Lemma trans_new_ok f b t : trans_new f b = Some t -> trans_ok t.
  Proof. unfold trans_new. apply trans_append_ok. apply trans_id_ok. Qed.

  Lemma trans_merged_ok t u tu : trans_ok t -> trans_ok u -> trans_merged t u = Some tu -> trans_ok tu.
  Proof.
    unfold trans_ok, trans_merged. intros Ht Hu E.
    destruct (tgt_dim t =? src_dim u) eqn:G; [|discriminate]. injection E as <-.
    apply Nat.eqb_eq in G. cbn [src_dim tgt_dim f_mats b_mats].
    apply (chain_ok_app _ _ _ _ _ _ _ Ht). now rewrite G.
  Qed.

  Lemma fwd_fun_app n fs bs m fs' bs' k :
    chain_ok n fs bs m -> chain_ok m fs' bs' k ->
    meq k n (fwd_fun (fs ++ fs')) (mmul o m (fwd_fun fs') (fwd_fun fs)).
  Proof.
    induction 1 as [n|n f b fs bs m Hf Hb Hbf Hc IH]; intros H' i j Hi Hj.
    - cbn [app fwd_fun]. symmetry. now apply (mmul_id_r o L).
    - cbn [app fwd_fun]. rewrite <- (mmul_assoc o L).
      apply (mmul_ext_l o). intros l Hl. apply (IH H'); assumption.
  Qed.

  Lemma bwd_fun_app n fs bs m fs' bs' k :
    chain_ok n fs bs m -> chain_ok m fs' bs' k ->
    meq n k (bwd_fun (bs ++ bs')) (mmul o m (bwd_fun bs) (bwd_fun bs')).
  Proof.
    induction 1 as [n|n f b fs bs m Hf Hb Hbf Hc IH]; intros H' i j Hi Hj.
    - cbn [app bwd_fun]. symmetry. now apply (mmul_id_l o L).
    - cbn [app bwd_fun]. rewrite (mmul_assoc o L).
      apply (mmul_ext_r o). intros l Hl. apply (IH H'); lia.
  Qed.

  (* backward is forward of the same Trans read from the other end *)
  Definition opp (t : trans R) : trans R := mk_trans (tgt_dim t) (src_dim t) (rev (b_mats t)) (rev (f_mats t)).

  Lemma chain_ok_rev n fs bs m : chain_ok n fs bs m -> chain_ok m (rev bs) (rev fs) n.
  Proof.
    induction 1 as [n|n f b fs bs m Hf Hb Hbf Hc IH]; [constructor|].
    cbn [rev]. apply (chain_ok_app _ _ _ _ _ _ _ IH). constructor; try congruence. rewrite Hb. constructor.
  Qed.

  Lemma fwd_fun_rev n fs bs m : chain_ok n fs bs m -> meq n m (fwd_fun (rev bs)) (bwd_fun bs).
  Proof.
    induction 1 as [n|n f b fs bs m Hf Hb Hbf Hc IH]; intros i j Hi Hj; [reflexivity|].
    assert (Hb1 : chain_ok (nr f) [b] [f] n) by (constructor; try congruence; rewrite Hb; constructor).
    cbn [rev bwd_fun]. rewrite (fwd_fun_app _ _ _ _ _ _ _ (chain_ok_rev _ _ _ _ Hc) Hb1) by assumption.
    rewrite Hbf. rewrite (mmul_ext_l o _ _ (mg b)) by (intros; apply fwd_fun_single; congruence).
    apply (mmul_ext_r o). intros l Hl. now apply IH.
  Qed.

  Theorem backward_spec t v :
    trans_ok t -> length v = tgt_dim t ->
    exists w, backward o t v = Some w /\ length w = src_dim t /\
              forall i, (i < src_dim t)%nat -> vget o w i = mvec o (tgt_dim t) (bwd_fun (b_mats t)) (vget o v) i.
  Proof.
    intros H Hv. destruct (forward_spec (opp t) v (chain_ok_rev _ _ _ _ H) Hv) as [w [E [W1 W2]]].
    exists w. split; [exact E|]. split; [exact W1|].
    intros i Hi. rewrite (W2 i Hi). apply (mvec_ext_row o). intros l Hl. exact (fwd_fun_rev _ _ _ _ H i l Hi Hl).
  Qed.

  Lemma backward_none t v : length v <> tgt_dim t -> backward o t v = None.
  Proof. exact (forward_none (opp t) v). Qed.

  Lemma backward_ext t u :
    trans_ok t -> trans_ok u -> src_dim t = src_dim u -> tgt_dim t = tgt_dim u ->
    meq (src_dim t) (tgt_dim t) (bwd_fun (b_mats t)) (bwd_fun (b_mats u)) ->
    forall v, backward o t v = backward o u v.
  Proof.
    intros Ht Hu Hs Hg He.
    apply (forward_ext (opp t) (opp u) (chain_ok_rev _ _ _ _ Ht) (chain_ok_rev _ _ _ _ Hu) Hg Hs).
    intros i j Hi Hj. cbn [opp f_mats src_dim tgt_dim] in *.
    rewrite (fwd_fun_rev _ _ _ _ Ht i j Hi Hj), (fwd_fun_rev _ _ _ _ Hu i j) by congruence. now apply He.
  Qed.

  (* a Trans whose products are those of t followed by u acts as t followed by u, failures included *)
  Lemma forward_compose t u tu :
    trans_ok t -> trans_ok u -> trans_ok tu ->
    src_dim tu = src_dim t -> tgt_dim tu = tgt_dim u -> tgt_dim t = src_dim u ->
    meq (tgt_dim u) (src_dim t) (fwd_fun (f_mats tu)) (mmul o (tgt_dim t) (fwd_fun (f_mats u)) (fwd_fun (f_mats t))) ->
    forall v, forward o tu v = obind (forward o t v) (forward o u).
  Proof.
    intros Ht Hu Htu S T G He v.
    destruct (Nat.eq_dec (length v) (src_dim t)) as [Hv|Hv].
    - destruct (forward_spec t v Ht Hv) as [y [Ey [Y1 Y2]]].
      destruct (forward_spec tu v Htu ltac:(congruence)) as [w' [Ew' [W1' W2']]].
      destruct (forward_spec u y Hu ltac:(congruence)) as [w [Ew [W1 W2]]].
      rewrite Ey, Ew'. cbn [obind]. rewrite Ew. f_equal.
      apply (vec_ext w' w (tgt_dim u)); [congruence|exact W1|].
      intros i Hi. rewrite W2' by congruence. rewrite W2 by exact Hi. rewrite S, <- G.
      rewrite (mvec_ext_row o _ (mmul o (tgt_dim t) (fwd_fun (f_mats u)) (fwd_fun (f_mats t))))
        by (intros l Hl; now apply He).
      rewrite (mvec_mmul o L). apply (mvec_ext o). intros l Hl. now rewrite Y2.
    - rewrite (forward_none t v Hv), (forward_none tu v) by congruence. reflexivity.
  Qed.

  Lemma backward_compose t u tu :
    trans_ok t -> trans_ok u -> trans_ok tu ->
    src_dim tu = src_dim t -> tgt_dim tu = tgt_dim u -> tgt_dim t = src_dim u ->
    meq (src_dim t) (tgt_dim u) (bwd_fun (b_mats tu)) (mmul o (tgt_dim t) (bwd_fun (b_mats t)) (bwd_fun (b_mats u))) ->
    forall v, backward o tu v = obind (backward o u v) (backward o t).
  Proof.
    intros Ht Hu Htu S T G He.
    apply (forward_compose (opp u) (opp t) (opp tu) (chain_ok_rev _ _ _ _ Hu) (chain_ok_rev _ _ _ _ Ht)
             (chain_ok_rev _ _ _ _ Htu) T S (eq_sym G)).
    intros i j Hi Hj. cbn [opp f_mats src_dim tgt_dim] in *.
    rewrite (fwd_fun_rev _ _ _ _ Htu i j), He by congruence. rewrite <- G.
    unfold mmul. apply (sum_ext o). intros l Hl.
    now rewrite (fwd_fun_rev _ _ _ _ Ht i l), (fwd_fun_rev _ _ _ _ Hu l j) by congruence.
  Qed.

  Theorem trans_merged_spec t u :
    trans_ok t -> trans_ok u -> tgt_dim t = src_dim u ->
    exists tu, trans_merged t u = Some tu /\ trans_ok tu /\ src_dim tu = src_dim t /\ tgt_dim tu = tgt_dim u /\
      meq (tgt_dim u) (src_dim t) (fwd_fun (f_mats tu)) (mmul o (tgt_dim t) (fwd_fun (f_mats u)) (fwd_fun (f_mats t))) /\
      meq (src_dim t) (tgt_dim u) (bwd_fun (b_mats tu)) (mmul o (tgt_dim t) (bwd_fun (b_mats t)) (bwd_fun (b_mats u))).
  Proof.
    intros Ht Hu G. unfold trans_merged.
    destruct (Nat.eqb_spec (tgt_dim t) (src_dim u)) as [_|N]; [|contradiction]. eexists. split; [reflexivity|].
    unfold trans_ok in *. cbn [src_dim tgt_dim f_mats b_mats]. rewrite <- G in Hu.
    split; [exact (chain_ok_app _ _ _ _ _ _ _ Ht Hu)|]. split; [reflexivity|]. split; [reflexivity|].
    split; [exact (fwd_fun_app _ _ _ _ _ _ _ Ht Hu)|exact (bwd_fun_app _ _ _ _ _ _ _ Ht Hu)].
  Qed.

  Lemma trans_merged_none (t u : trans R) : tgt_dim t <> src_dim u -> trans_merged t u = None.
  Proof. intros H. unfold trans_merged. apply Nat.eqb_neq in H. now rewrite H. Qed.

  Theorem trans_reduce_spec t :
    trans_ok t ->
    exists t', trans_reduce o t = Some t' /\ trans_ok t' /\ src_dim t' = src_dim t /\ tgt_dim t' = tgt_dim t /\
      (length (f_mats t') <= 1)%nat /\ (length (b_mats t') <= 1)%nat /\
      meq (tgt_dim t) (src_dim t) (fwd_fun (f_mats t')) (fwd_fun (f_mats t)) /\
      meq (src_dim t) (tgt_dim t) (bwd_fun (b_mats t')) (bwd_fun (b_mats t)).
  Proof.
    intros H. pose proof (chain_ok_length _ _ _ _ H) as Hlen. unfold trans_reduce.
    destruct (Nat.ltb_spec 1 (length (f_mats t))) as [G|G].
    - destruct (forward_mat_spec t H) as [p [Ep [P1 [P2 P3]]]].
      destruct (backward_mat_spec t H) as [q [Eq [Q1 [Q2 Q3]]]].
      rewrite Ep. cbn [obind b_mats f_mats src_dim tgt_dim].
      destruct (Nat.ltb_spec 1 (length (b_mats t))) as [G'|G']; [|lia].
      (* backward_mat only reads b_mats and tgt_dim *)
      replace (backward_mat o (mk_trans (src_dim t) (tgt_dim t) [p] (b_mats t))) with (backward_mat o t) by reflexivity.
      rewrite Eq. cbn [obind]. eexists. split; [reflexivity|].
      unfold trans_ok. cbn [src_dim tgt_dim f_mats b_mats].
      split; [constructor; try congruence; rewrite P1; constructor|].
      split; [reflexivity|]. split; [reflexivity|]. split; [cbn; lia|]. split; [cbn; lia|]. split.
      + intros i j Hi Hj. rewrite fwd_fun_single by congruence. now apply P3.
      + intros i j Hi Hj. rewrite bwd_fun_single by congruence. now apply Q3.
    - cbn [obind]. destruct (Nat.ltb_spec 1 (length (b_mats t))) as [G'|G']; [lia|].
      exists t. split; [reflexivity|]. split; [exact H|]. split; [reflexivity|]. split; [reflexivity|].
      split; [exact G|]. split; [exact G'|]. split; apply meq_refl.
  Qed.

  Corollary trans_reduce_forward t t' :
    trans_ok t -> trans_reduce o t = Some t' -> forall v, forward o t' v = forward o t v.
  Proof.
    intros H E v. destruct (trans_reduce_spec t H) as [t'' [E' [Ok [S1 [S2 [_ [_ [F _]]]]]]]].
    rewrite E in E'. injection E' as <-.
    apply forward_ext; try assumption. now rewrite S1, S2.
  Qed.

  Corollary trans_reduce_backward t t' :
    trans_ok t -> trans_reduce o t = Some t' -> forall v, backward o t' v = backward o t v.
  Proof.
    intros H E v. destruct (trans_reduce_spec t H) as [t'' [E' [Ok [S1 [S2 [_ [_ [_ B]]]]]]]].
    rewrite E in E'. injection E' as <-.
    apply backward_ext; try assumption. now rewrite S1, S2.
  Qed.
End C07MergeTrans.
