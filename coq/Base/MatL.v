(* Executable dense matrices as lists of rows, related to the functional matrices of MatF by [lget].
   The operations are defined through [lmk] (tabulation), which makes their entry lemmas immediate;
   they are meant as reference implementations for small matrices (specification side), not as mirrors
   of the Rust containers. *)
From Coq Require Import Arith List Lia Bool.
Require Import Yui.Base.Ring Yui.Base.MatF.
Import ListNotations.

Section MatL.
  Context {R : Type} (o : ring_ops R).

  Definition lmat := list (list R).

  Definition lget (A : lmat) (i j : nat) : R := nth j (nth i A []) (rzero o).

  Definition wf (m n : nat) (A : lmat) : Prop := length A = m /\ Forall (fun r => length r = n) A.

  Definition wfb (m n : nat) (A : lmat) : bool :=
    (length A =? m) && forallb (fun r => length r =? n) A.

  Definition lmk (m n : nat) (f : nat -> nat -> R) : lmat :=
    map (fun i => map (fun j => f i j) (seq 0 n)) (seq 0 m).

  Lemma wf_lmk m n f : wf m n (lmk m n f).
  Proof.
    split; [unfold lmk; now rewrite map_length, seq_length|].
    apply Forall_forall. intros r Hr. unfold lmk in Hr. apply in_map_iff in Hr.
    destruct Hr as [i [<- _]]. now rewrite map_length, seq_length.
  Qed.

  Lemma lget_lmk m n f i j : i < m -> j < n -> lget (lmk m n f) i j = f i j.
  Proof.
    intros Hi Hj. unfold lget, lmk.
    rewrite nth_indep with (d' := map (fun j => f 0 j) (seq 0 n)) by (now rewrite map_length, seq_length).
    rewrite (map_nth (fun i => map (fun j => f i j) (seq 0 n)) (seq 0 m) 0 i), seq_nth by lia. cbn [Nat.add].
    rewrite nth_indep with (d' := f i 0) by (now rewrite map_length, seq_length).
    rewrite (map_nth (fun j => f i j) (seq 0 n) 0 j), seq_nth by lia. reflexivity.
  Qed.

  Lemma wfb_wf m n A : wfb m n A = true <-> wf m n A.
  Proof.
    unfold wfb, wf. rewrite andb_true_iff, Nat.eqb_eq, forallb_forall, Forall_forall.
    split; intros [H1 H2]; (split; [exact H1|]); intros r Hr; specialize (H2 r Hr).
    - now apply Nat.eqb_eq in H2.
    - now apply Nat.eqb_eq.
  Qed.

  Lemma lmat_ext m n A B :
    wf m n A -> wf m n B -> (forall i j, i < m -> j < n -> lget A i j = lget B i j) -> A = B.
  Proof.
    intros [HA1 HA2] [HB1 HB2] H.
    apply nth_ext with (d := []) (d' := []); [congruence|].
    intros i Hi. rewrite HA1 in Hi.
    assert (La : length (nth i A []) = n).
    { rewrite Forall_forall in HA2. apply HA2, nth_In. lia. }
    assert (Lb : length (nth i B []) = n).
    { rewrite Forall_forall in HB2. apply HB2, nth_In. lia. }
    apply nth_ext with (d := rzero o) (d' := rzero o); [congruence|].
    intros j Hj. rewrite La in Hj. apply (H i j Hi Hj).
  Qed.

  (* outside its shape a well-formed matrix reads as zero *)
  Lemma lget_out_row m n A i j : wf m n A -> m <= i -> lget A i j = rzero o.
  Proof. intros [H1 _] Hi. unfold lget. rewrite (nth_overflow A) by lia. now destruct j. Qed.

  Lemma lget_out_col m n A i j : wf m n A -> n <= j -> lget A i j = rzero o.
  Proof.
    intros [H1 H2] Hj. destruct (Nat.lt_ge_cases i m) as [Hi|Hi]; [|now apply (lget_out_row m n)].
    unfold lget. apply nth_overflow. rewrite Forall_forall in H2. rewrite (H2 (nth i A [])); [exact Hj|].
    apply nth_In. lia.
  Qed.

  Definition lnrows (A : lmat) : nat := length A.
  Definition lncols (A : lmat) : nat := match A with [] => 0 | r :: _ => length r end.

  Definition lzero (m n : nat) : lmat := lmk m n (fun _ _ => rzero o).
  Definition lid (n : nat) : lmat := lmk n n (fun i j => if i =? j then rone o else rzero o).
  Definition ladd (m n : nat) (A B : lmat) : lmat := lmk m n (fun i j => radd o (lget A i j) (lget B i j)).
  Definition lneg (m n : nat) (A : lmat) : lmat := lmk m n (fun i j => rneg o (lget A i j)).
  Definition lsub (m n : nat) (A B : lmat) : lmat := lmk m n (fun i j => rsub o (lget A i j) (lget B i j)).
  Definition lscal (m n : nat) (a : R) (A : lmat) : lmat := lmk m n (fun i j => rmul o a (lget A i j)).
  Definition ltrans (m n : nat) (A : lmat) : lmat := lmk n m (fun i j => lget A j i).   (* A is m x n *)
  Definition lmul (m n p : nat) (A B : lmat) : lmat :=                                   (* (m x n)(n x p) *)
    lmk m p (fun i j => sum o n (fun k => rmul o (lget A i k) (lget B k j))).

  Definition leqb (m n : nat) (A B : lmat) : bool :=
    forallb (fun i => forallb (fun j => reqb o (lget A i j) (lget B i j)) (seq 0 n)) (seq 0 m).

  Lemma lget_lmul m n p A B i j : i < m -> j < p -> lget (lmul m n p A B) i j = mmul o n (lget A) (lget B) i j.
  Proof. intros Hi Hj. unfold lmul. now rewrite lget_lmk. Qed.

  Lemma lget_lid n i j : i < n -> j < n -> lget (lid n) i j = mid o i j.
  Proof. intros Hi Hj. unfold lid. now rewrite lget_lmk. Qed.

  Lemma lget_ladd m n A B i j : i < m -> j < n -> lget (ladd m n A B) i j = madd o (lget A) (lget B) i j.
  Proof. intros Hi Hj. unfold ladd. now rewrite lget_lmk. Qed.

  Lemma lget_lzero m n i j : i < m -> j < n -> lget (lzero m n) i j = rzero o.
  Proof. intros Hi Hj. unfold lzero. now rewrite lget_lmk. Qed.

  Lemma lget_ltrans m n A i j : i < n -> j < m -> lget (ltrans m n A) i j = lget A j i.
  Proof. intros Hi Hj. unfold ltrans. now rewrite lget_lmk. Qed.

  Lemma leqb_meq (Lw : ring_laws o) m n A B : leqb m n A B = true <-> meq m n (lget A) (lget B).
  Proof.
    unfold leqb, meq. rewrite forallb_forall. split.
    - intros H i j Hi Hj. specialize (H i). rewrite in_seq in H. specialize (H ltac:(lia)).
      rewrite forallb_forall in H. specialize (H j). rewrite in_seq in H. specialize (H ltac:(lia)).
      now apply (reqb_eq o Lw).
    - intros H i Hi. rewrite in_seq in Hi. apply forallb_forall. intros j Hj. rewrite in_seq in Hj.
      apply (reqb_eq o Lw). apply H; lia.
  Qed.
End MatL.

Arguments lmat R : clear implicits.
