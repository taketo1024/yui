(* Vertical composition, part 8: the identity cobordism on top.  c.stack(Cob::id(&c.tgt())) gives back the components
   of c (unit test `stack_id` of cob.rs). *)
From Coq Require Import List Arith Bool Lia ZArith Permutation Sorted.
Import ListNotations.
Require Import Yui.Model.Link Yui.Model.Tng Yui.Model.TngCob Yui.Model.TngStack.
Require Import Yui.Proofs.TngPBase Yui.Proofs.TngPSegs Yui.Proofs.TngPDeg Yui.Proofs.TngPJoin Yui.Proofs.TngPStep
  Yui.Proofs.TngPSeq Yui.Proofs.TngPConn Yui.Proofs.TngPMain Yui.Proofs.TngPCob Yui.Proofs.TngPCobDeg
  Yui.Proofs.TngPStackBase Yui.Proofs.TngPStackBfs Yui.Proofs.TngPStackWf Yui.Proofs.TngPStackDeg
  Yui.Proofs.TngPStackAssoc Yui.Proofs.TngPStackId Yui.Proofs.TngPStackIdL.

Definition idr_inv (bot top : list cobcomp) : Prop :=
  stack_wf bot top /\ Permutation top (ids_of (flat ctgt bot)) /\ Forall ok_comp bot.

Lemma idr_step : forall b0 bot1 top bot' top' gb gt, idr_inv (b0 :: bot1) top ->
  take_stackable (b0 :: bot1) top = Some (bot', top', gb, gt) ->
  exists x, round_of gb gt x /\ idr_inv bot' top' /\ Permutation (b0 :: bot1) (x :: bot').
Proof.
  intros b0 bot1 top bot' top' gb gt (W & PT & OK) Et.
  pose proof (wf_mid_t _ _ W) as IT. pose proof (wf_mid_b _ _ W) as IB.
  assert (Htop : forall t, In t top -> exists m, t = cc_id m /\ In m (flat ctgt (b0 :: bot1))).
  { intros t Ht. apply in_ids_of. eapply Permutation_in; [exact PT|exact Ht]. }
  destruct (take_stackable_wf _ _ _ _ _ _ W Et) as (Pa & Pb & [C1 C2] & W').
  destruct (take_stackable_perm _ _ _ _ _ _ Et) as (_ & _ & _ & Hhd & _). destruct (Hhd _ _ eq_refl) as (more & Hgb).
  assert (Hb0 : In b0 (b0 :: bot1)) by (left; reflexivity).
  destruct (take_stackable_sound (eq b0) (fun t => exists m, t = cc_id m /\ In m (ctgt b0)) _ _ _ _ _ _ Et) as [Fb Ft].
  { intros b t m <- Ht Hm Hh. destruct (Htop t Ht) as (m1 & -> & Hm1). exists m. split; auto.
    apply hit_iff in Hh. destruct Hh as (m2 & Hm2 & He). cbn in Hm2. destruct Hm2 as [<-|[]]. f_equal.
    apply (unori_eq_in (flat ctgt (b0 :: bot1)) m1 m IB Hm1); [eapply flat_in; eauto|exact He]. }
  { intros t b m (m1 & -> & Hm1) Hb Hm Hh. cbn in Hm. destruct Hm as [<-|[]].
    exact (hit_owner ctgt (b0 :: bot1) b0 b m1 IB Hb0 Hb Hm1 Hh). }
  { intros b r E. inversion E. reflexivity. }
  { intros t r E. discriminate. }
  (* the top half of the group: the identities over the target tangle of b0 *)
  assert (Ib0 : tng_inv (ctgt b0)) by (apply (flat_inv_in ctgt (b0 :: bot1)); auto).
  assert (Pg : Permutation gt (ids_of (ctgt b0))).
  { apply NoDup_Permutation.
    - apply (flat_nodup csrc); [apply (flat_sub csrc _ top' gt Pb IT)|].
      intros x Hx. rewrite Forall_forall in Ft. destruct (Ft x Hx) as (m & -> & _). discriminate.
    - apply nodup_ids_of. apply inv_nodup_paths. exact Ib0.
    - intros x. rewrite in_ids_of. split.
      + intros Hx. rewrite Forall_forall in Ft. apply Ft. exact Hx.
      + intros (m & -> & Hm).
        assert (Hin : In (cc_id m) top).
        { eapply Permutation_in; [apply Permutation_sym; exact PT|]. apply in_ids_of. exists m. split; auto. eapply flat_in; eauto. }
        apply (closed_half_in _ _ _ _ _ b0 m _ C1); [rewrite Hgb; left; reflexivity|exact Hm| |apply hit_self; left; reflexivity].
        eapply Permutation_in; eauto. }
  assert (Egb : gb = [b0]).
  { destruct (ctgt b0) as [|m0 r0] eqn:Eb0.
    - cbn in Pg. apply Permutation_sym, Permutation_nil in Pg. subst gt.
      destruct (take_stackable_no_top _ _ _ _ _ Et) as [(E & _)|(b & r & E & ->)]; [discriminate|]. inversion E. reflexivity.
    - apply (all_equal_one ctgt gb b0); auto; [apply (flat_sub ctgt _ bot' gb Pa IB)|rewrite Eb0; discriminate|rewrite Hgb; left; reflexivity]. }
  clear Hgb Fb. subst gb.
  assert (OK0 : ok_comp b0) by (inversion OK; assumption).
  destruct OK0 as (Os & Ot & On). destruct (cc_nbdr b0) as [nb|] eqn:Enb; [|congruence].
  destruct (perm_ids_data gt (ctgt b0) Pg) as (Eu & _ & Dx & Dy & _ & Ptg).
  exists b0. split.
  { unfold round_of. destruct (is_nil gt) eqn:Hgne; [reflexivity|]. apply is_nil_false in Hgne.
    rewrite (stack_comps_compute [b0] gt (2 - 2 * Z.of_nat (cgenus b0) - Z.of_nat nb)%Z (Z.of_nat (tng_euler_num (ctgt b0)))
               (csrc b0) (ctgt b0) nb (cgenus b0)); auto.
    - rewrite Dx, Dy. destruct b0 as [s t g x y]. cbn. f_equal. f_equal; lia.
    - discriminate.
    - rewrite euls_single. unfold cc_euler. rewrite Enb. reflexivity.
    - cbn [map]. apply fold_connect_single. exact Os.
    - apply (fold_connect_perm gt ctgt); auto. eapply inv_perm; [apply Permutation_sym; exact Ptg|exact Ib0].
    - intros dx dy. rewrite <- Enb. apply cc_nbdr_ext; reflexivity.
    - unfold arcs_of. cbn [map sum_nat fold_right]. lia. }
  split; [|eapply perm_trans; [exact Pa|apply Permutation_sym, Permutation_cons_append]].
  split; [exact W'|]. split; [|eapply ok_tail; eauto].
  apply (Permutation_app_inv_r gt).
  eapply perm_trans; [apply Permutation_sym; exact Pb|]. eapply perm_trans; [exact PT|].
  eapply perm_trans; [apply Permutation_map; apply flat_perm; exact Pa|]. fold (ids_of (flat ctgt (bot' ++ [b0]))).
  rewrite flat_app, ids_of_app. apply Permutation_app_head. unfold flat at 1. cbn [flat_map]. rewrite app_nil_r.
  apply Permutation_sym. exact Pg.
Qed.

Definition cob_okr (a : list cobcomp) : Prop := tng_inv (flat csrc a) /\ tng_inv (flat ctgt a) /\ Forall ok_comp a.

Theorem cob_stack_id_r : forall a, cob_okr a ->
  exists T ids c, cob_tgt a = Some T /\ cob_id T = Some ids /\ cob_stack a ids = Some c /\ Permutation c a.
Proof.
  intros a (Is & Ia & OK).
  destruct (fold_connect_disjoint (map ctgt a)) as (T & ET & PT & ST); [rewrite concat_map_flat; exact Ia|].
  rewrite concat_map_flat in PT.
  assert (ITT : tng_inv T) by (eapply inv_perm; [apply Permutation_sym; exact PT|exact Ia]).
  pose proof (cob_id_some T (proj1 ITT)) as Eid.
  exists T, (cc_isort (ids_of T)).
  assert (Pids : Permutation (cc_isort (ids_of T)) (ids_of (flat ctgt a))).
  { eapply perm_trans; [apply cc_isort_perm|]. apply Permutation_map. exact PT. }
  assert (Inv : idr_inv a (cc_isort (ids_of T))).
  { split; [|split; [exact Pids|exact OK]]. apply stack_wf_perm; auto.
    eapply perm_trans; [apply flat_perm; exact Pids|]. rewrite flat_src_ids. apply Permutation_refl. }
  unfold cob_stack, cob_stack_fuel.
  destruct (is_nil a) eqn:N1.
  { destruct a; [|discriminate]. cbn in Pids. apply Permutation_sym, Permutation_nil in Pids. rewrite Pids in *. exists []. repeat split; auto. }
  destruct (is_nil (cc_isort (ids_of T))) eqn:N2.
  { exists a. repeat split; auto. }
  destruct (stack_loop_run idr_inv (fun bot _ => bot) (fun top I => proj1 (proj2 I)) idr_step
              (length a + length (cc_isort (ids_of T))) _ _ [] Inv (Nat.le_refl _)) as (out & Eo & Po).
  rewrite Eo, (cob_sort_ok out a Po OK). cbn [app] in Po.
  exists (cc_isort out). repeat split; auto. eapply perm_trans; [apply cc_isort_perm|exact Po].
Qed.
