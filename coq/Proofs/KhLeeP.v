(* The algebra behind Lee's canonical cycles (t = 0): a = X and b = X - h satisfy a.b = 0,
   a.a = h a, b.b = -h b, comul a = a (x) a, comul b = b (x) b.  Only these identities are proved here.
   Their use: on the Seifert state every crossing joins two circles of different colours, so every cube
   edge leaving it merges an a-circle with a b-circle and the image vanishes because a.b = 0; that the
   chains are cycles is checked per instance by [lee_check] (Model/KhLee.v). *)
From Coq Require Import List Bool ZArith Lia Ring.
Require Import Yui.Model.KhCube Yui.Proofs.KhAlg.
Import ListNotations.
Open Scope Z_scope.

Definition lee_a : A := (0, 1).
Definition lee_b (h : Z) : A := (- h, 1).
Definition tensor (u v : A) : AA := (fst u * fst v, fst u * snd v, snd u * fst v, snd u * snd v).

Lemma lee_ab h : mul h 0 lee_a (lee_b h) = (0, 0).
Proof. unfold mul, lee_a, lee_b. peq. Qed.
Lemma lee_ba h : mul h 0 (lee_b h) lee_a = (0, 0).
Proof. unfold mul, lee_a, lee_b. peq. Qed.
Lemma lee_aa h : mul h 0 lee_a lee_a = a_scal h lee_a.
Proof. unfold mul, lee_a, a_scal. cbn [fst snd]. peq. Qed.
Lemma lee_bb h : mul h 0 (lee_b h) (lee_b h) = a_scal (- h) (lee_b h).
Proof. unfold mul, lee_b, a_scal. cbn [fst snd]. peq. Qed.
Lemma lee_comul_a h : comul h 0 lee_a = tensor lee_a lee_a.
Proof. unfold comul, tensor, lee_a. cbn [fst snd]. peq. Qed.
Lemma lee_comul_b h : comul h 0 (lee_b h) = tensor (lee_b h) (lee_b h).
Proof. unfold comul, tensor, lee_b. cbn [fst snd]. peq. Qed.
