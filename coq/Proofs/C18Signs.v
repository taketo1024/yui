(* C18 - crossing signs: negated by mirror, invariant under injective relabelling of the edges
   (both for every code, valid or not); components are relabelled accordingly. *)
From Coq Require Import List Arith Bool Lia ZArith.
Require Import Yui.Model.Link Yui.Proofs.C18Base.
Import ListNotations.

Lemma traverse_loop_InR : forall l start fuel cur ps, InR l start -> InR l cur ->
  traverse_loop l start fuel cur = Some ps -> forall p, In p ps -> InR l p.
Proof.
  intros l start. induction fuel as [|fuel IH]; intros cur ps Hs Hc E p Hp; cbn in E; [discriminate|].
  unfold succ in E. destruct (pass_edge l (exit_of l cur)) as [nx|] eqn:PE.
  - apply pass_edge_some in PE. destruct PE as (Hn & _ & _).
    destruct (pos_eqb nx start).
    + inversion E; subst. destruct Hp as [<-|[<-|[]]]; auto.
    + destruct (traverse_loop l start fuel nx) as [r|] eqn:T; cbn in E; [|discriminate].
      inversion E; subst. destruct Hp as [<-|Hp]; auto. eapply IH; eauto.
  - inversion E; subst. destruct Hp as [<-|[<-|[]]]; auto. apply exit_InR; auto.
Qed.
Lemma traverse_InR : forall l start ps, traverse_edges l start = Some ps -> forall p, In p ps -> InR l p.
Proof.
  intros l start ps E p Hp. unfold traverse_edges in E. destruct (in_range l start) eqn:R; [|discriminate].
  apply in_range_spec in R. eapply traverse_loop_InR; eauto.
Qed.

(* two diagrams with the same shape: same half-edge pairing and same passage through crossings *)
Definition sim (l l' : link) : Prop :=
  length l' = length l /\
  forall p, InR l p -> exit_of l' p = exit_of l p /\ pass_edge l' p = pass_edge l p.

Lemma traverse_loop_sim : forall l l', sim l l' -> forall start fuel cur, InR l cur ->
  traverse_loop l' start fuel cur = traverse_loop l start fuel cur.
Proof.
  intros l l' [HL HS] start. induction fuel as [|fuel IH]; intros cur Hc; cbn; auto.
  unfold succ. destruct (HS cur Hc) as [E1 _]. rewrite E1.
  destruct (HS (exit_of l cur) (exit_InR l cur Hc)) as [_ E2]. rewrite E2.
  destruct (pass_edge l (exit_of l cur)) as [nx|] eqn:PE; auto.
  apply pass_edge_some in PE. destruct PE as (Hn & _ & _).
  destruct (pos_eqb nx start); auto. rewrite IH; auto.
Qed.
Lemma traverse_sim : forall l l', sim l l' -> forall start, traverse_edges l' start = traverse_edges l start.
Proof.
  intros l l' S start. unfold traverse_edges. pose proof S as [HL _].
  assert (in_range l' start = in_range l start) as -> by (unfold in_range; rewrite HL; auto).
  destruct (in_range l start) eqn:R; auto. apply in_range_spec in R. rewrite HL.
  apply traverse_loop_sim; auto.
Qed.

Lemma cross_at_map : forall (f : crossing -> crossing) l i, i < length l ->
  cross_at (map f l) i = f (cross_at l i).
Proof.
  intros f l i Hi. unfold cross_at. rewrite (nth_indep _ dummy_c (f dummy_c)) by (rewrite map_length; auto).
  apply map_nth.
Qed.
Lemma cross_at_out : forall l i, length l <= i -> cross_at l i = dummy_c.
Proof. intros. unfold cross_at. apply nth_overflow; auto. Qed.

Lemma mirror_length : forall l, length (mirror l) = length l.
Proof. intros. apply map_length. Qed.
Lemma mirror_hedges : forall l i, hedges_from i (mirror l) = hedges_from i l.
Proof. induction l as [|c l IH]; intros; cbn; auto. rewrite IH. reflexivity. Qed.
Lemma mirror_edge_at : forall l p, edge_at (mirror l) p = edge_at l p.
Proof.
  intros l [i j]. unfold edge_at. cbn [fst snd]. destruct (lt_dec i (length l)) as [Hi|Hi].
  - unfold mirror. rewrite cross_at_map; auto.
  - rewrite !cross_at_out; auto; try lia. rewrite mirror_length. lia.
Qed.
Lemma mirror_ct : forall l i, i < length l -> ct (cross_at (mirror l) i) = mirror_t (ct (cross_at l i)).
Proof. intros. unfold mirror. rewrite cross_at_map; auto. Qed.
Lemma pass_mirror_t : forall t j, pass (mirror_t t) j = pass t j.
Proof. destruct t; reflexivity. Qed.
Lemma mirror_pass_edge : forall l p, pass_edge (mirror l) p = pass_edge l p.
Proof. intros. unfold pass_edge, hedges. rewrite mirror_hedges, mirror_edge_at. reflexivity. Qed.
Lemma mirror_sim : forall l, sim l (mirror l).
Proof.
  intros l. split; [apply mirror_length|]. intros p [Hi Hj]. split; [|apply mirror_pass_edge].
  unfold exit_of. rewrite mirror_ct; auto. rewrite pass_mirror_t. reflexivity.
Qed.

Lemma set_nth_map : forall A B (f : A -> B) i x l, set_nth i (f x) (map f l) = map f (set_nth i x l).
Proof. induction i; destruct l; cbn; auto. rewrite IHi. auto. Qed.
Lemma set_nth_length : forall A i (x : A) l, length (set_nth i x l) = length l.
Proof. induction i; destruct l; cbn; auto. Qed.

Lemma sign_of_mirror : forall t j, sign_of (mirror_t t) j = option_map neg_sign (sign_of t j).
Proof.
  intros t j. destruct t; cbn; auto; do 4 (destruct j as [|j]; cbn; auto).
Qed.

Lemma is_resolved_mirror : forall c, is_resolved (mirror_c c) = is_resolved c.
Proof. intros [[] ? ? ? ?]; reflexivity. Qed.
Lemma crossing_num_mirror : forall l, crossing_num (mirror l) = crossing_num l.
Proof.
  intros. unfold crossing_num, mirror. induction l as [|c l IH]; cbn; auto.
  rewrite is_resolved_mirror. destruct (is_resolved c); cbn; auto.
Qed.
(* relabelling by a map that is injective on the labels of the code *)
Definition inj_on (rho : nat -> nat) (s : list nat) : Prop :=
  forall a b, In a s -> In b s -> rho a = rho b -> a = b.

Lemma relabel_length : forall rho l, length (relabel rho l) = length l.
Proof. intros. apply map_length. Qed.
Lemma relabel_ct : forall rho l i, ct (cross_at (relabel rho l) i) = ct (cross_at l i).
Proof.
  intros. destruct (lt_dec i (length l)).
  - unfold relabel. rewrite cross_at_map; auto.
  - rewrite !cross_at_out; auto; try lia. rewrite relabel_length; lia.
Qed.
Lemma relabel_edge_at : forall rho l p, InR l p -> edge_at (relabel rho l) p = rho (edge_at l p).
Proof.
  intros rho l [i j] [Hi Hj]. unfold edge_at, relabel. cbn [fst snd] in *. rewrite cross_at_map; auto.
  destruct (cross_at l i). do 4 (destruct j as [|j]; [reflexivity|]). reflexivity.
Qed.
Lemma relabel_hedges : forall rho l i,
  hedges_from i (relabel rho l) = map (fun h => (fst h, rho (snd h))) (hedges_from i l).
Proof. induction l as [|c l IH]; intros; cbn; auto. rewrite IH. reflexivity. Qed.

Lemma find_map' : forall A B (f : A -> B) (g : B -> bool) l,
  find g (map f l) = option_map f (find (fun x => g (f x)) l).
Proof. induction l as [|a l IH]; cbn; auto. destruct (g (f a)); auto. Qed.
Lemma find_ext_in : forall A (f g : A -> bool) l, (forall x, In x l -> f x = g x) -> find f l = find g l.
Proof.
  induction l as [|a l IH]; intros H; cbn; auto. rewrite (H a) by (cbn; auto).
  destruct (g a); auto. apply IH. intros; apply H; cbn; auto.
Qed.

Lemma relabel_pass_edge : forall rho l, inj_on rho (edge_labels l) ->
  forall p, InR l p -> pass_edge (relabel rho l) p = pass_edge l p.
Proof.
  intros rho l Hinj p Hp. unfold pass_edge, hedges. rewrite relabel_hedges, relabel_edge_at; auto.
  rewrite find_map'. cbn [fst snd].
  rewrite (find_ext_in _ _ (fun h => (snd h =? edge_at l p) && negb (pos_eqb (fst h) p))).
  - destruct (find _ (hedges_from 0 l)); reflexivity.
  - intros [q e] Hq. cbn [fst snd]. f_equal.
    apply (hedges_spec l q e) in Hq. destruct Hq as [Hq ->].
    destruct (Nat.eqb_spec (edge_at l q) (edge_at l p)) as [E|N].
    + rewrite E. apply Nat.eqb_refl.
    + apply Nat.eqb_neq. intros E. apply N. apply Hinj; auto; apply edge_at_in_labels; auto.
Qed.
Lemma relabel_sim : forall rho l, inj_on rho (edge_labels l) -> sim l (relabel rho l).
Proof.
  intros rho l Hinj. split; [apply relabel_length|]. intros p Hp. split.
  - unfold exit_of. rewrite relabel_ct. reflexivity.
  - apply relabel_pass_edge; auto.
Qed.

Lemma is_resolved_relabel : forall rho c, is_resolved (relabel_c rho c) = is_resolved c.
Proof. intros rho [[] ? ? ? ?]; reflexivity. Qed.
Lemma crossing_num_relabel : forall rho l, crossing_num (relabel rho l) = crossing_num l.
Proof.
  intros. unfold crossing_num, relabel. induction l as [|c l IH]; cbn; auto.
  rewrite is_resolved_relabel. destruct (is_resolved c); cbn; auto.
Qed.
Lemma mem_map_inj : forall rho s e passed, inj_on rho s -> In e s -> incl passed s ->
  mem (rho e) (map rho passed) = mem e passed.
Proof.
  intros rho s e passed Hinj He Hinc. destruct (mem e passed) eqn:M.
  - apply mem_spec in M. apply mem_spec. apply in_map; auto.
  - apply mem_false in M. apply mem_false. intros Hx. apply in_map_iff in Hx.
    destruct Hx as [a [E Ha]]. apply M. assert (a = e) by (apply Hinj; auto). subst; auto.
Qed.

Lemma traverse_labels_incl : forall l p ps, traverse_edges l p = Some ps ->
  incl (map (edge_at l) ps) (edge_labels l).
Proof.
  intros l p ps T e He. apply in_map_iff in He. destruct He as [q [<- Hq]].
  apply edge_at_in_labels. eapply traverse_InR; eauto.
Qed.
Lemma starts_j_InR : forall l j0 p, j0 < 4 -> In p (starts_j l j0) -> InR l p.
Proof.
  intros l j0 [i j] Hj Hp. unfold starts_j in Hp. apply in_map_iff in Hp. destruct Hp as [i0 [E Hi]].
  inversion E; subst. apply in_seq in Hi. split; cbn; lia.
Qed.

Lemma sign_loop_passed_incl : forall l starts passed sg passed' sg',
  incl passed (edge_labels l) -> sign_loop l starts passed sg = Some (passed', sg') -> incl passed' (edge_labels l).
Proof.
  intros l. induction starts as [|p r IH]; intros passed sg passed' sg' Hp E; cbn [sign_loop] in E.
  - inversion E; subst; auto.
  - destruct (mem (edge_at l p) passed); [eapply IH; eauto|].
    destruct (traverse_edges l p) as [ps|] eqn:T; [|discriminate].
    eapply IH; [|exact E]. apply incl_app; auto. apply (traverse_labels_incl l p ps T).
Qed.

Lemma last_cons_indep : forall A (l : list A) a d d', last (a :: l) d = last (a :: l) d'.
Proof. induction l as [|x l IH]; intros; cbn; auto. apply (IH x). Qed.
Lemma last_map_cons : forall (rho : nat -> nat) l a d, last (map rho (a :: l)) d = rho (last (a :: l) d).
Proof.
  induction l as [|x l IH]; intros; cbn; auto. apply (IH x).
Qed.
Lemma last_cons_In : forall A (l : list A) a d, In (last (a :: l) d) (a :: l).
Proof. induction l as [|x l IH]; intros; cbn; auto. right. apply (IH x). Qed.
Lemma removelast_map' : forall A B (f : A -> B) l, removelast (map f l) = map f (removelast l).
Proof. induction l as [|x [|y l'] IH]; cbn in *; auto. f_equal. apply IH. Qed.

Lemma mk_comp_map : forall rho es, inj_on rho es -> mk_comp (map rho es) = relabel_path rho (mk_comp es).
Proof.
  intros rho es Hinj. unfold mk_comp. rewrite map_length.
  destruct es as [|a es]; [reflexivity|].
  destruct (1 <? length (a :: es)) eqn:Len; cbn [andb]; [|reflexivity].
  rewrite last_map_cons. cbn [hd map].
  pose proof (last_cons_In _ es a 0) as Hin.
  destruct (Nat.eqb_spec a (last (a :: es) 0)) as [E|N].
  - rewrite <- E. rewrite Nat.eqb_refl. unfold relabel_path. cbn [pedges pclosed]. f_equal.
    change (rho a :: map rho es) with (map rho (a :: es)). apply removelast_map'.
  - assert (rho a =? rho (last (a :: es) 0) = false) as ->; [|reflexivity].
    apply Nat.eqb_neq. intros E. apply N. apply Hinj; cbn; auto.
Qed.

(* two diagrams of the same shape whose labels correspond by rho (injective on the labels of the first) and
   whose crossings record signs that correspond by phi: the sign loop and the component loop run in
   parallel.  The mirror diagram (rho = identity, phi = neg_sign) and a relabelled diagram (phi = identity)
   are the two instances. *)
Section Corresponding.
  Variables (l l' : link) (rho : nat -> nat) (phi : sign -> sign).
  Hypothesis HS : sim l l'.
  Hypothesis HE : forall p, InR l p -> edge_at l' p = rho (edge_at l p).
  Hypothesis HI : inj_on rho (edge_labels l).
  Hypothesis HT : forall i, i < length l ->
    is_resolved (cross_at l' i) = is_resolved (cross_at l i) /\
    forall j, sign_of (ct (cross_at l' i)) j = option_map phi (sign_of (ct (cross_at l i)) j).
  Hypothesis HN : crossing_num l' = crossing_num l.

  Definition smap (sg : list (option sign)) : list (option sign) := map (option_map phi) sg.
  Definition sim_res (r : list nat * list (option sign)) := (map rho (fst r), smap (snd r)).

  Lemma visit_sign_sim : forall sg p, InR l p -> visit_sign l' (smap sg) p = smap (visit_sign l sg p).
  Proof.
    intros sg p [Hi _]. unfold visit_sign. rewrite (proj2 (HT _ Hi)).
    destruct (sign_of (ct (cross_at l (fst p))) (snd p)); cbn [option_map]; auto.
    unfold smap. rewrite <- set_nth_map. reflexivity.
  Qed.
  Lemma fold_visit_sim : forall ps sg, (forall p, In p ps -> InR l p) ->
    fold_left (visit_sign l') ps (smap sg) = smap (fold_left (visit_sign l) ps sg).
  Proof.
    induction ps as [|p ps IH]; intros sg H; cbn; auto.
    rewrite visit_sign_sim by (apply H; cbn; auto). apply IH. intros; apply H; cbn; auto.
  Qed.
  Lemma traverse_labels_sim : forall p ps, traverse_edges l p = Some ps ->
    map (edge_at l') ps = map rho (map (edge_at l) ps).
  Proof.
    intros p ps T. rewrite map_map. apply map_ext_in. intros q Hq. apply HE. eapply traverse_InR; eauto.
  Qed.

  Lemma sign_loop_sim : forall starts passed sg,
    (forall p, In p starts -> InR l p) -> incl passed (edge_labels l) ->
    sign_loop l' starts (map rho passed) (smap sg) = option_map sim_res (sign_loop l starts passed sg).
  Proof.
    induction starts as [|p r IH]; intros passed sg Hs Hp; cbn [sign_loop]; auto.
    assert (HpR : InR l p) by (apply Hs; cbn; auto).
    rewrite HE by exact HpR.
    rewrite (mem_map_inj rho (edge_labels l)); auto; [|apply edge_at_in_labels; auto].
    destruct (mem (edge_at l p) passed); [apply IH; auto; intros; apply Hs; cbn; auto|].
    rewrite (traverse_sim l l' HS).
    destruct (traverse_edges l p) as [ps|] eqn:T; auto.
    rewrite fold_visit_sim by (eapply traverse_InR; eauto).
    rewrite (traverse_labels_sim p ps T), <- map_app.
    apply IH; [intros; apply Hs; cbn; auto|]. apply incl_app; auto. apply (traverse_labels_incl l p ps T).
  Qed.

  Lemma unsigned_left_sim : forall sg, unsigned_left l' (smap sg) = unsigned_left l sg.
  Proof.
    intros. unfold unsigned_left. rewrite (proj1 HS).
    assert (H : forall i, In i (seq 0 (length l)) ->
      negb (is_resolved (cross_at l' i)) && is_none (nth i (smap sg) None) =
      negb (is_resolved (cross_at l i)) && is_none (nth i sg None)).
    { intros i Hi. apply in_seq in Hi. rewrite (proj1 (HT i (proj2 Hi))). f_equal. unfold smap.
      change (@None sign) with (option_map phi None) at 1. rewrite map_nth.
      destruct (nth i sg None); reflexivity. }
    induction (seq 0 (length l)) as [|i s IH]; cbn; auto.
    rewrite H by (cbn; auto). rewrite IH; auto. intros; apply H; cbn; auto.
  Qed.
  Lemma flatten_smap : forall sg, flatten_opt (smap sg) = map phi (flatten_opt sg).
  Proof.
    unfold flatten_opt, smap. induction sg as [|[s|] sg IH]; cbn; auto. rewrite IH. reflexivity.
  Qed.
  Lemma smap_repeat : forall n, smap (repeat None n) = repeat None n.
  Proof. induction n; cbn; auto. unfold smap in *. rewrite IHn. reflexivity. Qed.

  Theorem crossing_signs_sim : crossing_signs l' = option_map (map phi) (crossing_signs l).
  Proof.
    unfold crossing_signs. rewrite (proj1 HS), HN.
    unfold starts_j. rewrite (proj1 HS). fold (starts_j l 0) (starts_j l 1) (starts_j l 2).
    rewrite <- (smap_repeat (length l)) at 1. change (@nil nat) with (map rho []) at 1.
    rewrite sign_loop_sim; [|intros p Hp; apply (starts_j_InR l 0); auto; lia|intros e []].
    destruct (sign_loop l (starts_j l 0) [] (repeat None (length l))) as [[passed sg]|] eqn:S0;
      cbn [option_map]; auto.
    unfold sim_res at 1. cbn [fst snd]. rewrite unsigned_left_sim.
    destruct (unsigned_left l sg).
    - rewrite sign_loop_sim.
      + destruct (sign_loop l (starts_j l 1 ++ starts_j l 2) passed sg) as [[passed' sg']|];
          cbn [option_map]; auto.
        unfold sim_res. cbn [fst snd]. rewrite flatten_smap, map_length.
        destruct (length (flatten_opt sg') =? crossing_num l); reflexivity.
      + intros p Hp. apply in_app_iff in Hp.
        destruct Hp as [Hp|Hp]; [apply (starts_j_InR l 1)|apply (starts_j_InR l 2)]; auto; lia.
      + eapply sign_loop_passed_incl; [|exact S0]. intros e [].
    - rewrite flatten_smap, map_length.
      destruct (length (flatten_opt sg) =? crossing_num l); reflexivity.
  Qed.

  Lemma comp_loop_sim : forall starts passed,
    (forall p, In p starts -> InR l p) -> incl passed (edge_labels l) ->
    comp_loop l' starts (map rho passed) = option_map (map (relabel_path rho)) (comp_loop l starts passed).
  Proof.
    induction starts as [|p r IH]; intros passed Hs Hp; cbn [comp_loop]; auto.
    assert (HpR : InR l p) by (apply Hs; cbn; auto).
    rewrite HE by exact HpR.
    rewrite (mem_map_inj rho (edge_labels l)); auto; [|apply edge_at_in_labels; auto].
    destruct (mem (edge_at l p) passed); [apply IH; auto; intros; apply Hs; cbn; auto|].
    rewrite (traverse_sim l l' HS).
    destruct (traverse_edges l p) as [ps|] eqn:T; auto.
    pose proof (traverse_labels_incl l p ps T) as Hinc.
    rewrite (traverse_labels_sim p ps T), <- map_app, IH; [|intros; apply Hs; cbn; auto|apply incl_app; auto].
    rewrite mk_comp_map.
    - destruct (comp_loop l r (map (edge_at l) ps ++ passed)); reflexivity.
    - intros a b Ha Hb. apply HI; auto.
  Qed.

  Theorem components_sim : components l' = option_map (map (relabel_path rho)) (components l).
  Proof.
    unfold components, comp_starts, starts_j. rewrite (proj1 HS).
    fold (starts_j l 0) (starts_j l 1) (starts_j l 2).
    change (@nil nat) with (map rho []) at 1. apply comp_loop_sim; [|intros e []].
    intros p Hp. apply in_app_iff in Hp. destruct Hp as [Hp|Hp]; [apply (starts_j_InR l 0); auto; lia|].
    apply in_app_iff in Hp.
    destruct Hp as [Hp|Hp]; [apply (starts_j_InR l 1)|apply (starts_j_InR l 2)]; auto; lia.
  Qed.
End Corresponding.

Lemma mirror_corr : forall l i, i < length l ->
  is_resolved (cross_at (mirror l) i) = is_resolved (cross_at l i) /\
  forall j, sign_of (ct (cross_at (mirror l) i)) j = option_map neg_sign (sign_of (ct (cross_at l i)) j).
Proof.
  intros l i Hi. unfold mirror. rewrite cross_at_map by exact Hi.
  split; [apply is_resolved_mirror|intros j; apply sign_of_mirror].
Qed.
Theorem crossing_signs_mirror : forall l,
  crossing_signs (mirror l) = option_map (map neg_sign) (crossing_signs l).
Proof.
  intros l. exact (crossing_signs_sim l (mirror l) (fun e => e) neg_sign (mirror_sim l)
    (fun p _ => mirror_edge_at l p) (fun a b _ _ E => E) (mirror_corr l) (crossing_num_mirror l)).
Qed.

Lemma count_pos_neg : forall sg, count_pos (map neg_sign sg) = count_neg sg /\ count_neg (map neg_sign sg) = count_pos sg.
Proof.
  unfold count_pos, count_neg. induction sg as [|[] sg [IH1 IH2]]; cbn; auto; rewrite IH1, IH2; auto.
Qed.
Theorem signed_nums_mirror : forall l,
  signed_crossing_nums (mirror l) = option_map (fun pn => (snd pn, fst pn)) (signed_crossing_nums l).
Proof.
  intros. unfold signed_crossing_nums. rewrite crossing_signs_mirror.
  destruct (crossing_signs l) as [sg|]; cbn; auto. destruct (count_pos_neg sg) as [-> ->]. reflexivity.
Qed.
Theorem writhe_mirror : forall l, writhe (mirror l) = option_map Z.opp (writhe l).
Proof.
  intros. unfold writhe. rewrite signed_nums_mirror.
  destruct (signed_crossing_nums l) as [[p n]|]; cbn; auto. f_equal. lia.
Qed.

Lemma relabel_corr : forall rho l i, i < length l ->
  is_resolved (cross_at (relabel rho l) i) = is_resolved (cross_at l i) /\
  forall j, sign_of (ct (cross_at (relabel rho l) i)) j = option_map (fun s => s) (sign_of (ct (cross_at l i)) j).
Proof.
  intros rho l i _. unfold is_resolved. rewrite relabel_ct.
  split; [reflexivity|intros j; destruct (sign_of _ j); reflexivity].
Qed.
Theorem crossing_signs_relabel : forall rho l, inj_on rho (edge_labels l) ->
  crossing_signs (relabel rho l) = crossing_signs l.
Proof.
  intros rho l Hinj.
  rewrite (crossing_signs_sim l (relabel rho l) rho (fun s => s) (relabel_sim rho l Hinj)
    (relabel_edge_at rho l) Hinj (relabel_corr rho l) (crossing_num_relabel rho l)).
  destruct (crossing_signs l); cbn [option_map]; [rewrite map_id|]; reflexivity.
Qed.

Theorem writhe_relabel : forall rho l, inj_on rho (edge_labels l) ->
  signed_crossing_nums (relabel rho l) = signed_crossing_nums l /\ writhe (relabel rho l) = writhe l.
Proof.
  intros rho l Hinj. unfold writhe, signed_crossing_nums. rewrite crossing_signs_relabel; auto.
Qed.

Theorem components_relabel : forall rho l, inj_on rho (edge_labels l) ->
  components (relabel rho l) = option_map (map (relabel_path rho)) (components l).
Proof.
  intros rho l Hinj.
  exact (components_sim l (relabel rho l) rho (relabel_sim rho l Hinj) (relabel_edge_at rho l) Hinj).
Qed.
