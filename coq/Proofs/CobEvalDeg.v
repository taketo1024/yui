(* The closed evaluation with symbolic parameters H, T (polynomials of KhCheck.v over Z):
     - specialising H -> h, T -> t gives the numeric evaluation,
     - the result is homogeneous of quantum degree  deg = 2 - 2g - 2(x+y)  when deg H = -2, deg T = -4
       (CobComp::deg of the closed component), and products are homogeneous of the summed degree. *)
From Coq Require Import List Arith Bool ZArith Lia Ring.
Require Import Yui.Model.KhCheck Yui.Model.CobEval Yui.Proofs.KhCheckP Yui.Proofs.CobEvalP.
Import ListNotations.
Open Scope Z_scope.

(* every monomial of p has quantum degree d (the zero polynomial is homogeneous of every degree) *)
Definition hom (d : Z) (p : poly) : Prop := forall e, In e p -> mono_qdeg (fst e) = d.

Lemma hom_nil d : hom d [].
Proof. intros e []. Qed.
Lemma hom_cast d d' p : hom d p -> d = d' -> hom d' p.
Proof. intros H <-. exact H. Qed.

Lemma insert_keys m e p x : In x (p_insert m e p) -> fst x = fst e \/ In x p.
Proof.
  induction p as [|[k c] r IH]; cbn [p_insert].
  - destruct (cred m (snd e) =? 0); [intros []|]. intros [<-|[]]. left. reflexivity.
  - destruct (mono_ltb (fst e) k).
    + destruct (cred m (snd e) =? 0); [auto|]. intros [<-|H]; [left; reflexivity|auto].
    + destruct (mono_eqb (fst e) k) eqn:Ek.
      * apply mono_eqb_eq in Ek. cbv zeta.
        destruct (cred m (c + snd e) =? 0).
        -- intros H. right. right. exact H.
        -- intros [<-|H]; [left; cbn [fst]; congruence|right; right; exact H].
      * intros [<-|H]; [right; left; reflexivity|].
        destruct (IH H) as [E|E]; [left; exact E|right; right; exact E].
Qed.

Lemma hom_insert m d e p : mono_qdeg (fst e) = d -> hom d p -> hom d (p_insert m e p).
Proof.
  intros He Hp x Hx. destruct (insert_keys m e p x Hx) as [E|E]; [rewrite E; exact He|exact (Hp x E)].
Qed.

Lemma hom_norm m d p : hom d p -> hom d (p_norm m p).
Proof.
  unfold p_norm. induction p as [|e p IH]; intros H; cbn [fold_right]; [apply hom_nil|].
  apply hom_insert; [apply H; left; reflexivity|]. apply IH. intros x Hx. apply H. right. exact Hx.
Qed.

Lemma hom_add m d a b : hom d a -> hom d b -> hom d (p_add m a b).
Proof.
  unfold p_add. induction a as [|e a IH]; intros Ha Hb; cbn [fold_right]; [exact Hb|].
  apply hom_insert; [apply Ha; left; reflexivity|]. apply IH; [|exact Hb]. intros x Hx. apply Ha. right. exact Hx.
Qed.

Lemma mono_qdeg_add a b a' b' :
  mono_qdeg ((a + a')%nat, (b + b')%nat) = mono_qdeg (a, b) + mono_qdeg (a', b').
Proof. unfold mono_qdeg. cbn [fst snd]. rewrite !Nat2Z.inj_add. ring. Qed.

Lemma hom_scale_mono m d1 d2 e b : mono_qdeg (fst e) = d1 -> hom d2 b -> hom (d1 + d2) (p_scale_mono m e b).
Proof.
  intros He Hb. unfold p_scale_mono. apply hom_norm. intros x Hx.
  apply in_map_iff in Hx. destruct Hx as [y [<- Hy]]. cbn [fst].
  rewrite mono_qdeg_add. rewrite <- He, <- (Hb y Hy).
  destruct e as [[e1 e2] ec], y as [[y1 y2] yc]. reflexivity.
Qed.

Lemma hom_mul m d1 d2 a b : hom d1 a -> hom d2 b -> hom (d1 + d2) (p_mul m a b).
Proof.
  unfold p_mul. induction a as [|e a IH]; intros Ha Hb; cbn [fold_right]; [apply hom_nil|].
  apply hom_add.
  - apply hom_scale_mono; [apply Ha; left; reflexivity|exact Hb].
  - apply IH; [|exact Hb]. intros x Hx. apply Ha. right. exact Hx.
Qed.

Lemma hom_neg m d a : hom d a -> hom d (p_neg m a).
Proof.
  intros Ha. unfold p_neg. apply hom_norm. intros x Hx.
  apply in_map_iff in Hx. destruct Hx as [y [<- Hy]]. cbn [fst]. exact (Ha y Hy).
Qed.

Lemma hom_pH : hom (-2) pH.
Proof. intros e [<-|[]]. reflexivity. Qed.
Lemma hom_pT : hom (-4) pT.
Proof. intros e [<-|[]]. reflexivity. Qed.
Lemma hom_pOne : hom 0 pOne.
Proof. intros e [<-|[]]. reflexivity. Qed.

Notation PEY := (pe_y (p_neg 0) (p_add 0) (p_mul 0) [] pOne pH pT).
Notation PE0 := (pe_0 (p_neg 0) (p_add 0) (p_mul 0) [] pOne pOne pH pT).

Lemma pe_x_homog p x : hom (-2) p -> hom (2 - 2 * Z.of_nat x) (pe_x (p_add 0) (p_mul 0) [] pOne p pT x).
Proof.
  intros Hp. induction x as [| |n IH0 IH1] using nat_ind2.
  - apply hom_nil.
  - exact hom_pOne.
  - rewrite pe_x_SS. apply hom_add.
    + eapply hom_cast; [apply hom_mul; [exact Hp|exact IH1]|lia].
    + eapply hom_cast; [apply hom_mul; [exact hom_pT|exact IH0]|lia].
Qed.

Lemma pe_y_homog y : hom (2 - 2 * Z.of_nat y) (PEY y).
Proof. rewrite pe_y_as_pe_x. apply pe_x_homog, hom_neg, hom_pH. Qed.

Lemma pe_0_homog x y : hom (2 - 2 * Z.of_nat x - 2 * Z.of_nat y) (PE0 x y).
Proof.
  revert y. induction x as [|x IH]; intros [|y].
  - apply hom_nil.
  - eapply hom_cast; [apply (pe_y_homog (S y))|lia].
  - eapply hom_cast; [apply (pe_x_homog pH (S x) hom_pH)|lia].
  - cbn [pe_0]. eapply hom_cast; [apply hom_mul; [exact hom_pT|apply IH]|lia].
Qed.

Theorem eval_closed_poly_homog g x y : hom (deg (mk_ccomp g x y)) (eval_closed_poly g x y).
Proof.
  rewrite deg_closed. cbn [cc_g cc_x cc_y]. unfold eval_closed_poly.
  revert x y. induction g as [|g IH]; intros x y.
  - cbn [pe]. eapply hom_cast; [apply pe_0_homog|lia].
  - cbn [pe]. apply hom_add.
    + eapply hom_cast; [apply IH|lia].
    + eapply hom_cast; [apply IH|lia].
Qed.

(* specialisation H -> h, T -> t *)
Lemma eval_pH h t : p_eval h t pH = h.
Proof. unfold p_eval, pH. cbn [fold_right fst snd zpow]. ring. Qed.
Lemma eval_pT h t : p_eval h t pT = t.
Proof. unfold p_eval, pT. cbn [fold_right fst snd zpow]. ring. Qed.
Lemma eval_pOne h t : p_eval h t pOne = 1.
Proof. unfold p_eval, pOne. cbn [fold_right fst snd zpow]. ring. Qed.

Theorem eval_closed_poly_spec g x y h t : p_eval h t (eval_closed_poly g x y) = eval_closed g x y h t.
Proof.
  unfold eval_closed_poly, eval_closed.
  rewrite (pe_hom (p_neg 0) (p_add 0) (p_mul 0) Z.opp Z.add Z.mul (p_eval h t) (p_eval h t)
             (eval_neg h t) (eval_add h t) (eval_mul h t)).
  rewrite eval_pH, eval_pT, eval_pOne. reflexivity.
Qed.

Lemma cob_eval_poly_acc_spec h t cs a :
  p_eval h t (fold_left (fun acc c => p_mul 0 acc (eval_closed_poly (cc_g c) (cc_x c) (cc_y c))) cs a)
  = p_eval h t a * cob_eval h t cs.
Proof.
  revert a. induction cs as [|c cs IH]; intros a; cbn [fold_left].
  - rewrite cob_eval_nil. ring.
  - rewrite IH, eval_mul, eval_closed_poly_spec, cob_eval_cons. unfold comp_eval. ring.
Qed.

Theorem cob_eval_poly_spec h t cs : p_eval h t (cob_eval_poly cs) = cob_eval h t cs.
Proof. unfold cob_eval_poly. rewrite cob_eval_poly_acc_spec, eval_pOne. ring. Qed.

Lemma cob_eval_poly_acc_homog cs a d :
  hom d a -> hom (d + cob_deg cs)
               (fold_left (fun acc c => p_mul 0 acc (eval_closed_poly (cc_g c) (cc_x c) (cc_y c))) cs a).
Proof.
  revert a d. induction cs as [|c cs IH]; intros a d Ha; cbn [fold_left].
  - eapply hom_cast; [exact Ha|unfold cob_deg; cbn [fold_left]; ring].
  - eapply hom_cast; [apply IH; apply hom_mul; [exact Ha|apply (eval_closed_poly_homog (cc_g c) (cc_x c) (cc_y c))]|].
    rewrite cob_deg_cons. destruct c as [g x y]. cbn [cc_g cc_x cc_y]. ring.
Qed.

Theorem cob_eval_poly_homog cs : hom (cob_deg cs) (cob_eval_poly cs).
Proof.
  unfold cob_eval_poly. eapply hom_cast; [apply cob_eval_poly_acc_homog; exact hom_pOne|ring].
Qed.
