(* C04 - Graded Euler characteristic of Kh is the Jones polynomial.
   Each theorem is proved by [exact <lemma>] or a short combination of proved lemmas and is followed by
   Print Assumptions; the Examples at the end instantiate the hypotheses on concrete values (non-vacuity).

   Model: Model/Jones.v.  [jones_model] mirrors yui_link::util::jones_polynomial (state sum over all 2^n
   resolution states with the resolution / circle count of Model/Link.v, the factor (-q)^w (q+q^-1)^r and
   the prefactor (-1)^{n-} q^{n+ - 2n-}; [None] = panic).  Laurent polynomials are canonical lists of
   (exponent, coefficient); [coeff p e] is the coefficient of q^e and two canonical lists with the same
   coefficients are equal ([C04_canonical_unique]).  [kh_gens l] lists the bidegrees (h, q) of the
   generators of the cube of resolutions exactly as the library assigns them (kh/gen.rs h_deg, q_deg with
   deg_shift_for (-n-, n+ - 2n-); one generator per labelling of the circles of each vertex by {1, X});
   [kh_euler l] = sum over these generators of (-1)^h q^j.

   PROVED for every diagram (valid or not; the two sides panic on the same inputs):
     C04_euler       sum over the generators of the cube of (-1)^h q^j  =  jones_model
     C04_homology    for ANY finite bigraded complex given by numbers (dimension table + ranks of the
                     differentials, zero differential out of the last degree) the alternating sum of
                     rank H^{i,j} := dim - rank d_i - rank d_(i-1) equals the alternating sum of the dimensions
     C04_cube_table  a table whose dimensions are the counts of a generator list gens has Euler polynomial
                     euler_poly gens (kh_euler l = euler_poly of kh_gens l); hence C04_identity: sum (-1)^i q^j rank H^{i,j} = jones_model for every such
                     complex, whatever the ranks of its differentials
     C04_mirror      jones_model (mirror l) = option_map pinv (jones_model l): the polynomial of the mirror
                     diagram is the polynomial of the diagram with q -> q^-1, and the model panics on mirror l
                     exactly when it panics on l (C04_mirror_returns).  [pinv] (reverse the list, negate the
                     exponents) is the substitution q -> q^-1: coeff (pinv p) e = coeff p (-e), canonical forms are
                     preserved without re-canonicalisation, it is an involutive ring homomorphism for
                     padd (second argument canonical) / pmul / ppow (theorems C04_subst_xxx).  Link level:
                     circles (mirror l) s = circles l (map negb s) for every state s (C04_mirror_state);
                     per state: C04_mirror_term
     C04_relabel     jones_model (relabel rho l) = jones_model l for every rho injective on the labels of l
   STAGED / not proved here:
     - invariance under isotopy moves is a theorem of knot theory; covered by `jinv same` cases on moved
       diagrams (Reidemeister I kinks, braid-word moves before closure, reordering);
     - that the library's homology ranks are those of a complex with the cube's dimension table is the
       content of C01; here the implementation's ranks enter through the differential run (EULER-OK). *)
From Coq Require Import List Arith Bool ZArith.
Require Import Yui.Model.Link Yui.Model.Jones.
Require Import Yui.Proofs.C04Poly Yui.Proofs.C04Euler Yui.Proofs.C04Homology.
Require Import Yui.Proofs.C18Signs Yui.Proofs.C04Mirror Yui.Proofs.C04Relabel.
Import ListNotations.
Local Open Scope Z_scope.

(* canonical polynomials are determined by their coefficients; every polynomial the model returns is canonical *)
Theorem C04_canonical_unique : forall p q, canon p -> canon q -> (forall e, coeff p e = coeff q e) -> p = q.
Proof. exact canon_ext. Qed.
Print Assumptions C04_canonical_unique.

Theorem C04_results_canonical : forall l p, jones_model l = Some p -> canon p.
Proof. exact jones_model_canon. Qed.
Print Assumptions C04_results_canonical.

(* the polynomial operations mean what they should *)
Theorem C04_poly_semantics : forall p q e,
  coeff (padd p q) e = coeff p e + coeff q e /\
  coeff (pmul p q) e = zsum (fun t => snd t * coeff q (e - fst t)) p /\
  coeff (pmul p q) e = coeff (pmul q p) e.
Proof. intros p q e. exact (conj (coeff_padd p q e) (conj (coeff_pmul p q e) (coeff_pmul_comm p q e))). Qed.
Print Assumptions C04_poly_semantics.

(* per vertex: (q + q^-1)^r counts the labellings by degree *)
Theorem C04_vertex : forall r x, coeff (ppow q0 r) x = lab_count r x.
Proof. exact coeff_ppow_q0. Qed.
Print Assumptions C04_vertex.

(* the graded Euler characteristic of the cube of resolutions is the state sum *)
Theorem C04_euler : forall l, kh_euler l = jones_model l.
Proof. exact kh_euler_jones. Qed.
Print Assumptions C04_euler.

(* passing to homology: one column, then the whole table *)
Theorem C04_homology_column : forall c sgn, last_rank c = 0 -> alt_hom sgn 0 c = alt_dim sgn c.
Proof. exact column_euler. Qed.
Print Assumptions C04_homology_column.

Theorem C04_homology : forall sgn tbl, (forall jc, In jc tbl -> last_rank (snd jc) = 0) ->
  euler_of_table (alt_hom sgn 0) tbl = euler_of_table (alt_dim sgn) tbl.
Proof. exact table_euler. Qed.
Print Assumptions C04_homology.

Theorem C04_cube_table : forall gens i0 tbl, dims_match gens i0 tbl ->
  euler_of_table (alt_dim (hsign i0)) tbl = euler_poly gens.
Proof. exact cube_table_euler. Qed.
Print Assumptions C04_cube_table.

(* together: for every diagram and every bigraded complex on the generators of its cube *)
Theorem C04_identity : forall l gens J i0 tbl,
  kh_gens l = Some gens -> jones_model l = Some J ->
  dims_match gens i0 tbl -> (forall jc, In jc tbl -> last_rank (snd jc) = 0) ->
  euler_of_table (alt_hom (hsign i0) 0) tbl = J.
Proof. exact euler_identity. Qed.
Print Assumptions C04_identity.

(* the substitution q -> q^-1 on canonical Laurent polynomials: semantics, canonical forms, homomorphism *)
Theorem C04_subst_semantics : forall p e, coeff (pinv p) e = coeff p (- e).
Proof. exact coeff_pinv. Qed.
Print Assumptions C04_subst_semantics.

Theorem C04_subst_canonical : forall p, canon p -> canon (pinv p).
Proof. exact pinv_canon. Qed.
Print Assumptions C04_subst_canonical.

Theorem C04_subst_hom :
  (forall p q, canon q -> pinv (padd p q) = padd (pinv p) (pinv q)) /\
  (forall p q, pinv (pmul p q) = pmul (pinv p) (pinv q)) /\
  (forall p n, pinv (ppow p n) = ppow (pinv p) n) /\
  pinv pone = pone /\ (forall c, pinv (pconst c) = pconst c) /\ (forall k, pinv (qpow k) = qpow (- k)) /\
  pinv q0 = q0 /\ (forall p, pinv (pinv p) = p).
Proof.
  exact (conj pinv_padd (conj pinv_pmul (conj pinv_ppow (conj pinv_pone (conj pinv_pconst (conj pinv_qpow
          (conj pinv_q0 pinv_involutive))))))).
Qed.
Print Assumptions C04_subst_hom.

(* resolving the mirror diagram by s = mirror of resolving the diagram by the complemented state; the
   circle count does not see the remaining crossing types *)
Theorem C04_mirror_resolve : forall s l,
  resolved_by (mirror l) s = option_map mirror (resolved_by l (map negb s)).
Proof. exact resolved_by_mirror. Qed.
Print Assumptions C04_mirror_resolve.

Theorem C04_mirror_state : forall l s, circles (mirror l) s = circles l (map negb s).
Proof. exact circles_mirror. Qed.
Print Assumptions C04_mirror_state.

(* one state (w = weight of the complemented state, n+ + n- crossings): prefactor and term of the mirror
   diagram at q^e against prefactor and term of the diagram at q^-e *)
Theorem C04_mirror_term : forall np nn w r e, (w <= np + nn)%nat ->
  sgn_nat np * coeff (jones_term (np + nn - w) r) (e - (Z.of_nat nn - 2 * Z.of_nat np)) =
  sgn_nat nn * coeff (jones_term w r) (- e - (Z.of_nat np - 2 * Z.of_nat nn)).
Proof. exact mirror_term. Qed.
Print Assumptions C04_mirror_term.

(* the sum over all 2^n states is invariant under complementing the states *)
Theorem C04_state_reindex : forall n (f : list bool -> Z),
  zsum (fun s => f (map negb s)) (all_states n) = zsum f (all_states n).
Proof. exact zsum_all_states_compl. Qed.
Print Assumptions C04_state_reindex.

(* the mirror rule as an equation of options: both sides panic together *)
Theorem C04_mirror : forall l, jones_model (mirror l) = option_map pinv (jones_model l).
Proof. exact jones_mirror. Qed.
Print Assumptions C04_mirror.

Theorem C04_mirror_returns : forall l, jones_model (mirror l) = None <-> jones_model l = None.
Proof. exact jones_mirror_none. Qed.
Print Assumptions C04_mirror_returns.

Theorem C04_mirror_coeff : forall l p, jones_model l = Some p ->
  exists p', jones_model (mirror l) = Some p' /\ canon p' /\ forall e, coeff p' e = coeff p (- e).
Proof. exact jones_mirror_coeff. Qed.
Print Assumptions C04_mirror_coeff.

Theorem C04_mirror_euler : forall l, kh_euler (mirror l) = option_map pinv (kh_euler l).
Proof. exact kh_euler_mirror. Qed.
Print Assumptions C04_mirror_euler.

Theorem C04_relabel : forall rho l, inj_on rho (edge_labels l) -> jones_model (relabel rho l) = jones_model l.
Proof. exact jones_relabel. Qed.
Print Assumptions C04_relabel.

Definition ex_trefoil : link := map (fun x => match x with (a, b, c, d) => from_pd a b c d end)
  [(1,4,2,5); (3,6,4,1); (5,2,6,3)]%nat.
Example C04_trefoil :
  jones_model ex_trefoil = Some [(-9, -1); (-5, 1); (-3, 1); (-1, 1)] /\
  option_map (@length (Z * Z)) (kh_gens ex_trefoil) = Some 30%nat.
Proof. vm_compute. auto. Qed.
(* the mirror rule on the trefoil: both sides are defined and the polynomial is not symmetric *)
Example C04_trefoil_mirror :
  jones_model (mirror ex_trefoil) = Some [(1, 1); (3, 1); (5, 1); (9, -1)] /\
  option_map pinv (jones_model ex_trefoil) = Some [(1, 1); (3, 1); (5, 1); (9, -1)] /\
  jones_model (mirror ex_trefoil) <> jones_model ex_trefoil.
Proof. vm_compute. repeat split; auto. discriminate. Qed.
(* relabelling by an injective map that changes every label *)
Example C04_trefoil_relabel :
  inj_on (fun e => 2 * e + 7)%nat (edge_labels ex_trefoil) /\
  relabel (fun e => 2 * e + 7)%nat ex_trefoil <> ex_trefoil /\
  jones_model (relabel (fun e => 2 * e + 7)%nat ex_trefoil) = Some [(-9, -1); (-5, 1); (-3, 1); (-1, 1)].
Proof.
  split; [intros a b _ _ H; apply (f_equal (fun x => (x - 7) / 2)%nat) in H;
          rewrite !Nat.add_sub, !(Nat.mul_comm 2), !Nat.div_mul in H by discriminate; exact H|].
  split; [vm_compute; discriminate | vm_compute; reflexivity].
Qed.
(* a one-crossing diagram of the unknot (positive kink): its cube has 4 + 2 generators; a bigraded table
   on these generators with differentials of rank 1 in q-degrees 1 and 3 - the hypotheses of C04_identity
   hold and the conclusion is q^-1 + q *)
Definition ex_kink : link := [from_pd 0 0 1 1].
Definition ex_kink_table : list (Z * column) := [(-1, [(1, 0); (0, 0)]); (1, [(2, 1); (1, 0)]); (3, [(1, 1); (1, 0)])].
Example C04_kink_table :
  kh_gens ex_kink = Some [(0, -1); (0, 1); (0, 1); (0, 3); (1, 1); (1, 3)] /\
  jones_model ex_kink = Some [(-1, 1); (1, 1)] /\
  dims_match [(0, -1); (0, 1); (0, 1); (0, 3); (1, 1); (1, 3)] 0 ex_kink_table /\
  (forall jc, In jc ex_kink_table -> last_rank (snd jc) = 0) /\
  euler_of_table (alt_hom (hsign 0) 0) ex_kink_table = [(-1, 1); (1, 1)].
Proof.
  split; [vm_compute; reflexivity|]. split; [vm_compute; reflexivity|]. split; [|split].
  - split; [|split].
    + repeat constructor; cbn; intuition discriminate.
    + intros j c k [E|[E|[E|[]]]] Hk; inversion E; subst; clear E;
        (destruct k as [|[|k]]; [vm_compute; reflexivity | vm_compute; reflexivity | cbn in Hk; exfalso; clear -Hk; abstract (apply Nat.ltb_lt in Hk; discriminate)]).
    + intros h j [E|[E|[E|[E|[E|[E|[]]]]]]]; inversion E; subst; clear E;
        [exists [(1, 0); (0, 0)] | exists [(2, 1); (1, 0)] | exists [(2, 1); (1, 0)] | exists [(1, 1); (1, 0)]
        | exists [(2, 1); (1, 0)] | exists [(1, 1); (1, 0)]]; (split; [cbn; tauto | cbn; split; [apply Z.leb_le | apply Z.ltb_lt]; reflexivity]).
  - intros jc [<-|[<-|[<-|[]]]]; reflexivity.
  - vm_compute. reflexivity.
Qed.
