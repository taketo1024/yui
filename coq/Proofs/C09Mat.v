(* C09 - entry lemmas for the list-matrix operations of Model/Snf.v and the elementary matrices
   they are multiplication by (DESIGN.md appendix A.3). *)
From Coq Require Import ZArith List Bool Arith Lia Ring.
Require Import Yui.Base.Ring Yui.Base.MatF Yui.Base.MatL Yui.Model.Snf.
Import ListNotations.

Section Mapi.
  Context {A : Type}.
  Lemma mapi_from_length k (f : nat -> A -> A) l : length (mapi_from k f l) = length l.
  Proof. revert k. induction l as [|x r IH]; intros k; cbn; [reflexivity|]. now rewrite IH. Qed.
  Lemma mapi_length (f : nat -> A -> A) l : length (mapi f l) = length l.
  Proof. apply mapi_from_length. Qed.
  Lemma mapi_from_nth k (f : nat -> A -> A) l i d :
    i < length l -> nth i (mapi_from k f l) d = f (k + i) (nth i l d).
  Proof.
    revert k i. induction l as [|x r IH]; intros k i Hi; cbn in Hi; [lia|].
    destruct i as [|i]; cbn.
    - now rewrite Nat.add_0_r.
    - rewrite IH by lia. f_equal. lia.
  Qed.
  Lemma mapi_nth (f : nat -> A -> A) l i d : i < length l -> nth i (mapi f l) d = f i (nth i l d).
  Proof. intros H. unfold mapi. now rewrite mapi_from_nth. Qed.
  Lemma mapi_from_in k (f : nat -> A -> A) l y :
    In y (mapi_from k f l) -> exists i x, In x l /\ y = f i x.
  Proof.
    revert k. induction l as [|x r IH]; intros k H; cbn in H; [contradiction|].
    destruct H as [<-|H].
    - exists k, x. split; [now left|reflexivity].
    - destruct (IH _ H) as [i [x' [Hin ->]]]. exists i, x'. split; [now right|reflexivity].
  Qed.
End Mapi.

(* case analysis on every [x =? y] in the goal *)
Ltac ncase0 :=
  repeat match goal with |- context [Nat.eqb ?x ?y] => destruct (Nat.eqb_spec x y) end; try subst.

Section MatOps.
  Context {R : Type} (D : euc_dict R).
  Let o := ed_ring D.
  Context (L : ring_laws o).
  Add Ring Rring : (ring_theory_of_laws o L).

  Local Notation "0" := (rzero o).
  Local Notation "1" := (rone o).
  Local Infix "+" := (radd o).
  Local Infix "*" := (rmul o).
  Local Notation "- x" := (rneg o x).
  Local Notation get := (lget o).
  Implicit Types A : lmat R.
  Implicit Types M E : mat R.

  Lemma mget_lget A i j : mget D A i j = get A i j.
  Proof. reflexivity. Qed.

  Lemma wf_row m n A i : wf m n A -> i < m -> length (nth i A []) = n.
  Proof.
    intros [H1 H2] Hi. rewrite Forall_forall in H2. apply H2, nth_In. lia.
  Qed.

  Lemma wf_intro m n (A : lmat R) :
    length A = m -> (forall r, In r A -> length r = n) -> wf m n A.
  Proof. intros H1 H2. split; [exact H1|]. now apply Forall_forall. Qed.

  Lemma wf_in m n (A : lmat R) r : wf m n A -> In r A -> length r = n.
  Proof. intros [_ H] Hr. rewrite Forall_forall in H. now apply H. Qed.

  (* the two ways the list operations act: on every row by a length-preserving map, or row by row with the index *)
  Lemma wf_map_rows m n (f : list R -> list R) A : (forall r, length (f r) = length r) -> wf m n A -> wf m n (map f A).
  Proof.
    intros Hf W. apply wf_intro; [rewrite map_length; apply W|].
    intros r Hr. apply in_map_iff in Hr. destruct Hr as [x [<- Hx]]. rewrite Hf. now apply (wf_in m n A).
  Qed.

  Lemma wf_mapi_rows m n (f : nat -> list R -> list R) A :
    (forall k r, In r A -> length (f k r) = n) -> wf m n A -> wf m n (mapi f A).
  Proof.
    intros Hf W. apply wf_intro; [rewrite mapi_length; apply W|].
    intros r Hr. apply mapi_from_in in Hr. destruct Hr as [k [x [Hx ->]]]. now apply Hf.
  Qed.

  Lemma id_mat_eq n : id_mat D n = lid o n.
  Proof. reflexivity. Qed.
  Lemma wf_id n : wf n n (id_mat D n).
  Proof. rewrite id_mat_eq. apply wf_lmk. Qed.
  Lemma get_id n i j : i < n -> j < n -> get (id_mat D n) i j = mid o i j.
  Proof. intros. rewrite id_mat_eq. now apply lget_lid. Qed.

  Definition swp (i j r : nat) : nat := if r =? i then j else if r =? j then i else r.

  Lemma wf_swap_rows m n i j A : wf m n A -> i < m -> j < m -> wf m n (m_swap_rows i j A).
  Proof.
    intros W Hi Hj. apply wf_mapi_rows; [|exact W]. intros k r Hr.
    destruct (k =? i); [|destruct (k =? j)]; apply (wf_in m n A _ W); try exact Hr; apply nth_In; destruct W; lia.
  Qed.

  Lemma get_swap_rows m n i j A r c :
    wf m n A -> i < m -> j < m -> r < m -> get (m_swap_rows i j A) r c = get A (swp i j r) c.
  Proof.
    intros W Hi Hj Hr. unfold lget, m_swap_rows, swp.
    rewrite mapi_nth by (destruct W; lia).
    destruct (r =? i); [|destruct (r =? j)]; try reflexivity;
      f_equal; apply nth_indep; destruct W; lia.
  Qed.

  Lemma l_swap_length i j (r : list R) : length (l_swap i j r) = length r.
  Proof. apply mapi_length. Qed.

  Lemma wf_swap_cols m n i j A : wf m n A -> wf m n (m_swap_cols i j A).
  Proof. apply wf_map_rows. intros r. apply l_swap_length. Qed.

  Lemma nth_map_row (f : list R -> list R) A r : f [] = [] -> nth r (map f A) [] = f (nth r A []).
  Proof. intros H. rewrite <- H at 1. apply map_nth. Qed.

  Lemma get_swap_cols m n i j A r c :
    wf m n A -> i < n -> j < n -> r < m -> c < n -> get (m_swap_cols i j A) r c = get A r (swp i j c).
  Proof.
    intros W Hi Hj Hr Hc. unfold lget, m_swap_cols.
    rewrite nth_map_row by reflexivity.
    pose proof (wf_row m n A r W Hr) as Hl.
    unfold l_swap. rewrite mapi_nth by lia. unfold swp.
    destruct (c =? i); [|destruct (c =? j)]; try reflexivity; apply nth_indep; lia.
  Qed.

  Lemma wf_mul_row m n i u A : wf m n A -> wf m n (m_mul_row D i u A).
  Proof.
    intros W. apply wf_mapi_rows; [|exact W]. intros k r Hr.
    destruct (k =? i); [rewrite map_length|]; now apply (wf_in m n A).
  Qed.

  Lemma get_mul_row m n i u A r c :
    wf m n A -> r < m -> c < n ->
    get (m_mul_row D i u A) r c = if r =? i then get A r c * u else get A r c.
  Proof.
    intros W Hr Hc. unfold lget, m_mul_row. rewrite mapi_nth by (destruct W; lia).
    destruct (r =? i); [|reflexivity].
    pose proof (wf_row m n A r W Hr) as Hl.
    rewrite nth_indep with (d' := 0 * u) by (rewrite map_length; lia).
    now rewrite (map_nth (fun x => x * u)).
  Qed.

  Lemma wf_mul_col m n j u A : wf m n A -> wf m n (m_mul_col D j u A).
  Proof. apply wf_map_rows. intros r. apply mapi_length. Qed.

  Lemma get_mul_col m n j u A r c :
    wf m n A -> r < m -> c < n ->
    get (m_mul_col D j u A) r c = if c =? j then get A r c * u else get A r c.
  Proof.
    intros W Hr Hc. unfold lget, m_mul_col. rewrite nth_map_row by reflexivity.
    pose proof (wf_row m n A r W Hr) as Hl. now rewrite mapi_nth by lia.
  Qed.

  Lemma comb_length a b (ri rj : list R) : length (comb D a b ri rj) = Nat.min (length ri) (length rj).
  Proof. unfold comb. now rewrite map_length, combine_length. Qed.

  Lemma combine_nth_lt {X Y : Type} (l : list X) (l' : list Y) k x y :
    k < length l -> k < length l' -> nth k (combine l l') (x, y) = (nth k l x, nth k l' y).
  Proof.
    revert l' k. induction l as [|a l IH]; intros [|b l'] k H1 H2; cbn in *; try lia.
    destruct k; [reflexivity|]. apply IH; lia.
  Qed.

  Lemma comb_nth a b (ri rj : list R) k :
    k < length ri -> k < length rj -> nth k (comb D a b ri rj) 0 = nth k ri 0 * a + nth k rj 0 * b.
  Proof.
    intros H1 H2. unfold comb.
    rewrite nth_indep with (d' := (fun p => fst p * a + snd p * b) (0, 0))
      by (rewrite map_length, combine_length; lia).
    rewrite (map_nth (fun p => fst p * a + snd p * b)), combine_nth_lt by lia. reflexivity.
  Qed.

  Lemma wf_left_elem m n a b c d i j A : wf m n A -> i < m -> j < m -> wf m n (m_left_elem D a b c d i j A).
  Proof.
    intros W Hi Hj. apply wf_mapi_rows; [|exact W]. intros k r Hr.
    pose proof (wf_row m n A i W Hi). pose proof (wf_row m n A j W Hj).
    destruct (k =? j); [|destruct (k =? i)]; try (rewrite comb_length; lia). now apply (wf_in m n A).
  Qed.

  Lemma get_left_elem m n a b c d i j A r k :
    wf m n A -> i < m -> j < m -> r < m -> k < n ->
    get (m_left_elem D a b c d i j A) r k =
      if r =? j then get A i k * c + get A j k * d
      else if r =? i then get A i k * a + get A j k * b
      else get A r k.
  Proof.
    intros W Hi Hj Hr Hk. unfold lget, m_left_elem. rewrite mapi_nth by (destruct W; lia).
    pose proof (wf_row m n A i W Hi). pose proof (wf_row m n A j W Hj).
    destruct (r =? j); [|destruct (r =? i)]; try reflexivity; now rewrite comb_nth by lia.
  Qed.

  Lemma wf_right_elem m n a b c d i j A : wf m n A -> wf m n (m_right_elem D a b c d i j A).
  Proof. apply wf_map_rows. intros r. apply mapi_length. Qed.

  Lemma get_right_elem m n a b c d i j A r k :
    wf m n A -> r < m -> k < n ->
    get (m_right_elem D a b c d i j A) r k =
      if k =? j then get A r i * c + get A r j * d
      else if k =? i then get A r i * a + get A r j * b
      else get A r k.
  Proof.
    intros W Hr Hk. unfold lget, m_right_elem.
    rewrite (nth_map_row (fun r0 => mapi _ r0)) by reflexivity.
    pose proof (wf_row m n A r W Hr) as Hl. now rewrite mapi_nth by lia.
  Qed.

  (* identity except for the 2x2 block [a b; c d] at rows/columns (i, j) *)
  Definition E2 (a b c d : R) (i j : nat) : mat R := fun r l =>
    if r =? j then (if l =? i then c else if l =? j then d else 0)
    else if r =? i then (if l =? i then a else if l =? j then b else 0)
    else if r =? l then 1 else 0.
  (* diagonal matrix: u at (i, i), 1 elsewhere *)
  Definition Esc (u : R) (i : nat) : mat R := fun r l => if r =? l then (if r =? i then u else 1) else 0.

  Lemma sum_two n i j (f g : nat -> R) :
    i <> j -> i < n -> j < n ->
    sum o n (fun l => if l =? i then f l else if l =? j then g l else 0) = f i + g j.
  Proof.
    intros Hij Hi Hj.
    rewrite (sum_ext o n _ (fun l => (if l =? i then f l else 0) + (if l =? j then g l else 0))).
    - rewrite (sum_add o L), (sum_delta o L), (sum_delta o L) by assumption. reflexivity.
    - intros l _. destruct (Nat.eqb_spec l i) as [E1|E1]; destruct (Nat.eqb_spec l j) as [E3|E3]; try ring.
      exfalso. congruence.
  Qed.

  Lemma E2_left n a b c d i j (M : mat R) r k :
    i <> j -> i < n -> j < n -> r < n ->
    mmul o n (E2 a b c d i j) M r k =
      if r =? j then c * M i k + d * M j k
      else if r =? i then a * M i k + b * M j k
      else M r k.
  Proof.
    intros Hij Hi Hj Hr. unfold mmul, E2.
    destruct (Nat.eqb_spec r j) as [->|Hrj]; [|destruct (Nat.eqb_spec r i) as [->|Hri]].
    - rewrite (sum_ext o n _ (fun l => if l =? i then c * M l k else if l =? j then d * M l k else 0)).
      + now rewrite sum_two.
      + intros l _. destruct (l =? i); [reflexivity|]. destruct (l =? j); [reflexivity|ring].
    - rewrite (sum_ext o n _ (fun l => if l =? i then a * M l k else if l =? j then b * M l k else 0)).
      + now rewrite sum_two.
      + intros l _. destruct (l =? i); [reflexivity|]. destruct (l =? j); [reflexivity|ring].
    - rewrite (sum_ext o n _ (fun l => if l =? r then M l k else 0)).
      + now rewrite (sum_delta o L).
      + intros l _. rewrite (Nat.eqb_sym r l). destruct (l =? r); ring.
  Qed.

  Lemma Esc_left n u i (M : mat R) r k :
    r < n -> mmul o n (Esc u i) M r k = if r =? i then u * M r k else M r k.
  Proof.
    intros Hr. unfold mmul, Esc.
    rewrite (sum_ext o n _ (fun l => if l =? r then (if r =? i then u * M l k else M l k) else 0)).
    - rewrite (sum_delta o L) by assumption. reflexivity.
    - intros l _. rewrite (Nat.eqb_sym r l). destruct (l =? r); [|ring]. destruct (r =? i); ring.
  Qed.

  (* right action, by transposition *)
  Lemma mmul_trans_r n (M E : mat R) r k : mmul o n M (mtrans E) r k = mmul o n E (mtrans M) k r.
  Proof. unfold mmul, mtrans. apply sum_ext. intros l _. ring. Qed.

  Lemma E2_trans a b c d i j r l : i <> j -> mtrans (E2 a b c d i j) r l = E2 a c b d i j r l.
  Proof.
    intros Hij. unfold mtrans, E2. ncase0; congruence.
  Qed.

  Lemma E2_right n a b c d i j (M : mat R) r k :
    i <> j -> i < n -> j < n -> k < n ->
    mmul o n M (E2 a b c d i j) r k =
      if k =? j then M r i * b + M r j * d
      else if k =? i then M r i * a + M r j * c
      else M r k.
  Proof.
    intros Hij Hi Hj Hk.
    transitivity (mmul o n M (mtrans (E2 a c b d i j)) r k).
    { unfold mmul. apply sum_ext. intros l _. now rewrite E2_trans. }
    rewrite mmul_trans_r, E2_left by assumption. unfold mtrans.
    destruct (k =? j); [ring|]. destruct (k =? i); [ring|reflexivity].
  Qed.

  Lemma Esc_right n u i (M : mat R) r k :
    k < n -> mmul o n M (Esc u i) r k = if k =? i then M r k * u else M r k.
  Proof.
    intros Hk. unfold mmul, Esc.
    rewrite (sum_ext o n _ (fun l => if l =? k then (if k =? i then M r l * u else M r l) else 0)).
    - rewrite (sum_delta o L) by assumption. reflexivity.
    - intros l _. destruct (Nat.eqb_spec l k) as [->|]; [|ring]. destruct (k =? i); ring.
  Qed.

  Lemma E2_row_i a b c d i j l : i <> j -> E2 a b c d i j i l = if l =? i then a else if l =? j then b else 0.
  Proof. intros Hij. unfold E2. apply Nat.eqb_neq in Hij. now rewrite Hij, Nat.eqb_refl. Qed.
  Lemma E2_row_j a b c d i j l : E2 a b c d i j j l = if l =? i then c else if l =? j then d else 0.
  Proof. unfold E2. now rewrite Nat.eqb_refl. Qed.

  Lemma E2_mul n a b c d a' b' c' d' i j r k :
    i <> j -> i < n -> j < n -> r < n ->
    a * a' + b * c' = 1 -> a * b' + b * d' = 0 -> c * a' + d * c' = 0 -> c * b' + d * d' = 1 ->
    mmul o n (E2 a b c d i j) (E2 a' b' c' d' i j) r k = mid o r k.
  Proof.
    intros Hij Hi Hj Hr H1 H2 H3 H4. rewrite E2_left, E2_row_i, E2_row_j by assumption. unfold mid.
    destruct (Nat.eqb_spec r j) as [->|Hrj]; [|destruct (Nat.eqb_spec r i) as [->|Hri]].
    - ncase0; try assumption; try ring; exfalso; congruence.
    - ncase0; try assumption; try ring; exfalso; congruence.
    - unfold E2. apply Nat.eqb_neq in Hrj, Hri. now rewrite Hrj, Hri.
  Qed.

  Lemma Esc_mul n u v i r k : r < n -> u * v = 1 -> mmul o n (Esc u i) (Esc v i) r k = mid o r k.
  Proof.
    intros Hr Huv. rewrite Esc_left by assumption. unfold Esc, mid.
    ncase0; try assumption; try ring; exfalso; congruence.
  Qed.

  (* the inverses used by the algorithm: determinant 1, a transposition, a unit on the diagonal *)
  Lemma E2_inv n a b c d i j : i <> j -> i < n -> j < n -> a * d + - (b * c) = 1 ->
    meq n n (mmul o n (E2 a b c d i j) (E2 d (- b) (- c) a i j)) (mid o) /\
    meq n n (mmul o n (E2 d (- b) (- c) a i j) (E2 a b c d i j)) (mid o).
  Proof.
    intros Hij Hi Hj Hdet. split; intros r k Hr Hk; apply E2_mul; try assumption; try ring;
      (transitivity (a * d + - (b * c)); [ring|exact Hdet]).
  Qed.

  Lemma E2_swap_inv n i j : i <> j -> i < n -> j < n ->
    meq n n (mmul o n (E2 0 1 1 0 i j) (E2 0 1 1 0 i j)) (mid o).
  Proof. intros Hij Hi Hj r k Hr Hk. apply E2_mul; try assumption; ring. Qed.

  Lemma Esc_inv n u v i : u * v = 1 ->
    meq n n (mmul o n (Esc u i) (Esc v i)) (mid o) /\ meq n n (mmul o n (Esc v i) (Esc u i)) (mid o).
  Proof.
    intros Huv. split; intros r k Hr Hk; apply Esc_mul; try assumption.
    transitivity (u * v); [ring|exact Huv].
  Qed.

  Lemma left_elem_mmul m n a b c d i j A r k :
    wf m n A -> i <> j -> i < m -> j < m -> r < m -> k < n ->
    get (m_left_elem D a b c d i j A) r k = mmul o m (E2 a b c d i j) (get A) r k.
  Proof.
    intros W Hij Hi Hj Hr Hk. rewrite (get_left_elem m n), E2_left by assumption.
    destruct (r =? j); [ring|]. destruct (r =? i); [ring|reflexivity].
  Qed.

  Lemma right_elem_mmul m n a b c d i j A r k :
    wf m n A -> i <> j -> i < n -> j < n -> r < m -> k < n ->
    get (m_right_elem D a b c d i j A) r k = mmul o n (get A) (E2 a c b d i j) r k.
  Proof.
    intros W Hij Hi Hj Hr Hk. rewrite (get_right_elem m n), E2_right by assumption. reflexivity.
  Qed.

  Lemma swap_rows_mmul m n i j A r k :
    wf m n A -> i <> j -> i < m -> j < m -> r < m -> k < n ->
    get (m_swap_rows i j A) r k = mmul o m (E2 0 1 1 0 i j) (get A) r k.
  Proof.
    intros W Hij Hi Hj Hr Hk. rewrite (get_swap_rows m n), E2_left by assumption. unfold swp.
    ncase0; try ring; exfalso; congruence.
  Qed.

  Lemma swap_cols_mmul m n i j A r k :
    wf m n A -> i <> j -> i < n -> j < n -> r < m -> k < n ->
    get (m_swap_cols i j A) r k = mmul o n (get A) (E2 0 1 1 0 i j) r k.
  Proof.
    intros W Hij Hi Hj Hr Hk. rewrite (get_swap_cols m n), E2_right by assumption. unfold swp.
    ncase0; try ring; exfalso; congruence.
  Qed.

  Lemma mul_row_mmul m n i u A r k :
    wf m n A -> r < m -> k < n -> get (m_mul_row D i u A) r k = mmul o m (Esc u i) (get A) r k.
  Proof.
    intros W Hr Hk. rewrite (get_mul_row m n), Esc_left by assumption. destruct (r =? i); [ring|reflexivity].
  Qed.

  Lemma mul_col_mmul m n j u A r k :
    wf m n A -> r < m -> k < n -> get (m_mul_col D j u A) r k = mmul o n (get A) (Esc u j) r k.
  Proof.
    intros W Hr Hk. rewrite (get_mul_col m n), Esc_right by assumption. reflexivity.
  Qed.
End MatOps.
