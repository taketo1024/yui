(* Tangle layer, part 5: one append_arc on a glued tangle.  If the components are simple and pairwise disjoint,
   the new arc is simple and no label ends up on more than two segment ends, then append_arc does not panic, the
   second match lies AFTER the first one (no index shift), and the result is again simple, pairwise disjoint and
   sorted.  Before that: what unori_eq says about two arcs ([unori_eq_refl], [unori_eq_arc]) and the sorting done by
   normalize ([tng_sorted] ... [sort_inv]). *)
From Coq Require Import List Arith Bool Lia Permutation Sorted.
Import ListNotations.
Require Import Yui.Model.Link Yui.Model.Tng Yui.Proofs.TngPBase Yui.Proofs.TngPSegs Yui.Proofs.TngPDeg
  Yui.Proofs.TngPJoin.
Require Import Yui.Base.ListFacts.

Lemma nlist_eqb_eq : forall a b, nlist_eqb a b = true <-> a = b.
Proof.
  induction a as [|x a IH]; intros [|y b]; cbn; split; try congruence; try discriminate; auto.
  - intros Hc. apply andb_true_iff in Hc. destruct Hc as [H1 H2]. apply Nat.eqb_eq in H1. apply IH in H2. congruence.
  - intros Hc. inversion Hc; subst. rewrite Nat.eqb_refl. apply IH. reflexivity.
Qed.

Lemma combine_all_eq : forall a b : list nat, length a = length b ->
  forallb (fun ef => fst ef =? snd ef) (combine a b) = true -> a = b.
Proof.
  induction a as [|x a IH]; intros [|y b] Hl; cbn in *; try discriminate; auto.
  intros Hc. apply andb_true_iff in Hc. destruct Hc as [H1 H2]. apply Nat.eqb_eq in H1. f_equal; auto.
Qed.

Lemma unori_eq_refl : forall p, unori_eq p p = true.
Proof.
  intros p. unfold unori_eq. rewrite eqb_reflx, !Nat.eqb_refl. cbn.
  assert (nlist_eqb (pedges p) (pedges p) = true) as -> by (apply nlist_eqb_eq; reflexivity).
  reflexivity.
Qed.

Lemma unori_eq_arc : forall p q, pclosed p = false -> unori_eq p q = true ->
  pclosed q = false /\ (pedges p = pedges q \/ pedges p = rev (pedges q)).
Proof.
  intros p q Hp. unfold unori_eq. rewrite Hp.
  destruct (pclosed q); cbn [Bool.eqb negb orb]; [discriminate|].
  destruct (length (pedges p) =? length (pedges q)) eqn:El; cbn [negb orb]; [|discriminate].
  destruct (edge_sum p =? edge_sum q); cbn [negb]; [|discriminate].
  apply Nat.eqb_eq in El.
  destruct (nlist_eqb (pedges p) (pedges q)) eqn:En.
  - apply nlist_eqb_eq in En. auto.
  - intros Hc. split; auto. right. apply combine_all_eq; auto. rewrite rev_length. auto.
Qed.

Definition tng_sorted (t : list path) : Prop := StronglySorted (fun a b => comp_le a b = true) t.

Lemma sort_total : forall cs, Forall simple cs -> tng_sort cs = Some (isort cs).
Proof.
  intros cs Hs. unfold tng_sort.
  assert (sort_panics cs = false) as ->; [|reflexivity].
  unfold sort_panics. apply not_true_is_false. intros Hc. apply existsb_exists in Hc.
  destruct Hc as (c & Hc & Hn). rewrite Forall_forall in Hs. pose proof (simple_ne c (Hs c Hc)) as Hne.
  destruct (pedges c); [contradiction|]. cbn in Hn. discriminate.
Qed.

Lemma comp_le_total : forall a b, comp_le a b = false -> comp_le b a = true.
Proof.
  intros a b. unfold comp_le. destruct (pclosed a), (pclosed b); cbn; try discriminate; auto;
    intros Hc; apply Nat.leb_gt in Hc; apply Nat.leb_le; lia.
Qed.
Lemma comp_le_trans : forall a b c, comp_le a b = true -> comp_le b c = true -> comp_le a c = true.
Proof.
  intros a b c. unfold comp_le. destruct (pclosed a), (pclosed b), (pclosed c); cbn; try discriminate; auto;
    intros H1 H2; apply Nat.leb_le in H1; apply Nat.leb_le in H2; apply Nat.leb_le; lia.
Qed.

Lemma ins_sorted : forall x l, tng_sorted l -> tng_sorted (ins x l).
Proof.
  intros x l Hs. induction Hs as [|y l Hs IH Hy]; cbn [ins].
  - constructor; constructor.
  - destruct (comp_le x y) eqn:Exy.
    + constructor; [constructor; auto|]. constructor; auto.
      rewrite Forall_forall in *. intros z Hz. eapply comp_le_trans; eauto.
    + constructor; auto. rewrite Forall_forall in *. intros z Hz.
      apply (Permutation_in _ (ins_perm x l)) in Hz. destruct Hz as [<-|Hz]; auto.
      apply comp_le_total; auto.
Qed.
Lemma isort_sorted : forall l, tng_sorted (isort l).
Proof. induction l as [|x l IH]; [constructor|]. cbn [isort fold_right]. apply ins_sorted. exact IH. Qed.

(* normalize on simple, pairwise disjoint components: no panic, and the normal form *)
Lemma sort_inv : forall cs, tng_inv cs ->
  exists t, tng_sort cs = Some t /\ tng_inv t /\ tng_sorted t /\ Permutation t cs.
Proof.
  intros cs Hi. exists (isort cs). split; [apply sort_total, Hi|].
  split; [|split; [apply isort_sorted|apply isort_perm]].
  eapply inv_perm; [apply Permutation_sym, isort_perm|exact Hi].
Qed.

Lemma app_eq_middle : forall (l1 : list path) a l2 m1 b m2, l1 ++ a :: l2 = m1 ++ b :: m2 ->
  (exists k, l1 = m1 ++ b :: k /\ m2 = k ++ a :: l2) \/ (l1 = m1 /\ a = b /\ l2 = m2) \/
  (exists k, m1 = l1 ++ a :: k /\ l2 = k ++ b :: m2).
Proof.
  induction l1 as [|x l1 IH]; intros a l2 m1 b m2 E.
  - destruct m1 as [|y m1]; cbn in E; inversion E; subst.
    + right. left. auto.
    + right. right. exists m1. auto.
  - destruct m1 as [|y m1]; cbn in E; inversion E; subst.
    + left. exists l1. auto.
    + destruct (IH _ _ _ _ _ H1) as [(k & -> & ->)|[(-> & -> & ->)|(k & -> & ->)]].
      * left. exists k. auto.
      * right. left. auto.
      * right. right. exists k. auto.
Qed.

Lemma in_middle_weaken : forall (l1 : list path) c l2 x, In x (l1 ++ l2) -> In x (l1 ++ c :: l2).
Proof. intros l1 c l2 x. rewrite !in_app_iff. cbn. tauto. Qed.

Lemma is_end_in : forall p v, simple p -> is_end p v -> In v (pedges p).
Proof.
  intros p v Sp [->| ->]; [apply hd_in|apply last_In]; apply simple_ne; auto.
Qed.

Lemma two_ends : forall p s v w, is_end p s -> is_end p v -> is_end p w -> v <> s -> w <> s -> v = w.
Proof. unfold is_end. intros p s v w [->| ->] [->| ->] [->| ->]; congruence. Qed.

(* under the degree bound, a component that shares a label with the new one can be connected to it *)
Lemma touch_connectable : forall t a c v, tng_inv t -> simple a -> deg_le2 (tsegs t ++ segs a) ->
  In c t -> In v (pedges c) -> In v (pedges a) -> p_connectable c a = true.
Proof.
  intros t a c v Hinv Sa Hdeg Hc Hvc Hva.
  destruct (meets_at_ends t a Hinv Hdeg v c Sa Hc Hvc Hva) as (C & A & Ec & Ea).
  exact (shares_end_connectable c a v C A Ec Ea).
Qed.

Theorem append_arc_inv : forall t arc, tng_inv t -> simple arc -> pclosed arc = false ->
  deg_le2 (tsegs t ++ segs arc) ->
  exists t', append_arc t arc = Some t' /\ tng_inv t' /\ tng_sorted t'.
Proof.
  intros t arc Hinv Sa Ha Hdeg. unfold append_arc. rewrite Ha.
  pose proof (fun v c => meets_at_ends t arc Hinv Hdeg v c Sa) as Hmeet.
  destruct (find_index (fun c => p_connectable c arc) t) as [i|] eqn:Fi.
  2:{ (* nothing to connect to: push *)
    pose proof (find_index_none _ _ Fi) as Hnone. cbn beta in Hnone.
    assert (Hi : tng_inv (arc :: t)).
    { apply inv_cons. split; [auto|split; [auto|]]. intros v Hv Hvt.
      apply in_verts in Hvt. destruct Hvt as (c & Hc & Hvc).
      pose proof (Hnone c Hc) as Hn. rewrite (touch_connectable t arc c v Hinv Sa Hdeg Hc Hvc Hv) in Hn. discriminate. }
    assert (Hi' : tng_inv (t ++ [arc])).
    { eapply inv_perm; [|exact Hi]. apply Permutation_cons_append. }
    destruct (sort_inv _ Hi') as (t' & E & I & S & _). eauto. }
  destruct (find_index_split _ _ _ Fi) as (l1 & c & l2 & Et & Hl & Fc & Hall). cbn beta in Fc, Hall.
  subst i. rewrite Et in *. clear Et.
  destruct (connectable_arcs _ _ Fc) as [Hcc _].
  pose proof (proj1 (inv_middle l1 c l2) Hinv) as (Sc & Hrest & Hdisj).
  pose proof (in_elt c l1 l2) as Hct. pose proof (in_middle_weaken l1 c l2) as Hsub.
  assert (Hpq : forall v, In v (pedges c) -> In v (pedges arc) -> is_end c v /\ is_end arc v).
  { intros v H1 H2. apply (Hmeet v c Hct H1 H2). }
  destruct (connect_simple c arc Sc Sa Fc Hpq) as (ci & Eci & Sci & Vci).
  rewrite nth_middle, Eci, set_nth_middle.
  (* the other components and ci are again a glued tangle and a new component under the degree bound *)
  assert (Hdeg' : deg_le2 (tsegs (l1 ++ l2) ++ segs ci)).
  { eapply deg_le2_perm; [|exact Hdeg].
    pose proof (p_connect_segs c arc ci (simple_pwf _ Sc) (simple_pwf _ Sa) Eci) as Ps.
    eapply perm_trans; [apply Permutation_app_tail, tsegs_middle|]. rewrite <- app_assoc.
    exact (perm_trans (Permutation_app_swap_app _ _ _) (Permutation_app_head _ (Permutation_sym Ps))). }
  pose proof (fun v x => meets_at_ends (l1 ++ l2) ci Hrest Hdeg' v x Sci) as Hmeet'.
  (* a label shared by ci and another component is an end of arc *)
  assert (F1 : forall x v, In x (l1 ++ l2) -> In v (pedges x) -> In v (pedges ci) ->
     ~ In v (pedges c) /\ is_end arc v).
  { intros x v Hx Hvx Hvci.
    assert (Hnc : ~ In v (pedges c)) by (intros Hvc; apply (Hdisj v Hvc), in_verts; eauto).
    split; [exact Hnc|]. apply (Hmeet v x (Hsub x Hx) Hvx). apply Vci in Hvci. tauto. }
  assert (F2 : forall x, In x (l1 ++ l2) -> p_connectable x ci = true -> p_connectable x arc = true).
  { intros x Hx Hc. destruct (connectable_shares_end _ _ Hc) as (v & Hvx & Hvci).
    apply (is_end_in _ _ (inv_simple _ x Hrest Hx)) in Hvx. apply (is_end_in _ _ Sci) in Hvci.
    destruct (F1 x v Hx Hvx Hvci) as [Hnc _]. apply (touch_connectable _ arc x v Hinv Sa Hdeg (Hsub x Hx) Hvx).
    apply Vci in Hvci. tauto. }
  assert (F3 : forall x, In x (l1 ++ l2) -> pclosed x = false -> unori_eq x ci = true -> False).
  { intros x Hx Hxc Hu. destruct (unori_eq_arc _ _ Hxc Hu) as [_ Hsame].
    assert (Hh : In (hd 0 (pedges c)) (pedges c)) by (apply hd_in; apply simple_ne; auto).
    apply (Hdisj _ Hh). apply in_verts. exists x. split; auto.
    assert (Hhci : In (hd 0 (pedges c)) (pedges ci)) by (apply Vci; auto).
    destruct Hsame as [->| ->]; [auto|apply in_rev in Hhci; auto]. }
  destruct (find_index (fun c0 => negb (unori_eq c0 ci) && p_connectable c0 ci) (l1 ++ ci :: l2)) as [j|] eqn:Fj.
  2:{ (* one end connected *)
    pose proof (find_index_none _ _ Fj) as Hnone. cbn beta in Hnone.
    assert (Hi : tng_inv (l1 ++ ci :: l2)).
    { apply inv_middle. split; [auto|split; [auto|]]. intros v Hv Hvt.
      apply in_verts in Hvt. destruct Hvt as (x & Hx & Hvx).
      pose proof (touch_connectable _ ci x v Hrest Sci Hdeg' Hx Hvx Hv) as Hc.
      specialize (Hnone x (in_middle_weaken l1 ci l2 x Hx)). rewrite Hc, andb_true_r in Hnone.
      apply negb_false_iff in Hnone. exact (F3 x Hx (proj1 (connectable_arcs _ _ Hc)) Hnone). }
    destruct (sort_inv _ Hi) as (t' & E & I & S & _). eauto. }
  (* both ends connected *)
  destruct (find_index_split _ _ _ Fj) as (m1 & cj & m2 & Em & Hm & Fcj & Hallj). cbn beta in Fcj, Hallj.
  apply andb_true_iff in Fcj. destruct Fcj as [Fne Fcc]. apply negb_true_iff in Fne.
  destruct (app_eq_middle _ _ _ _ _ _ Em) as [(k & E1 & E2)|[(E1 & E2 & E3)|(k & E1 & E2)]].
  { exfalso. subst l1. pose proof (in_elt cj m1 k) as Hcj.
    pose proof (F2 cj (in_or_app _ l2 _ (or_introl Hcj)) Fcc) as Hc. rewrite Hall in Hc; [discriminate|exact Hcj]. }
  { exfalso. subst cj. rewrite unori_eq_refl in Fne. discriminate. }
  subst m1 l2 j. rewrite Em.
  rewrite nth_middle, remove_nth_middle. rewrite <- app_assoc. cbn [app].
  rewrite nth_error_middle.
  assert (Hcj : In cj (l1 ++ k ++ cj :: m2)) by (rewrite app_assoc; apply in_elt).
  destruct (connectable_arcs _ _ Fcc) as [Hcjc Hcic].
  pose proof (inv_simple _ cj Hrest Hcj) as Scj.
  assert (Hpq2 : forall v, In v (pedges ci) -> In v (pedges cj) -> is_end ci v /\ is_end cj v).
  { intros v H1 H2. destruct (Hmeet' v cj Hcj H2 H1) as (_ & _ & A & B). auto. }
  rewrite p_connectable_sym in Fcc.
  destruct (connect_simple ci cj Sci Scj Fcc Hpq2) as (c2 & Ec2 & Sc2 & Vc2).
  rewrite Ec2, set_nth_middle.
  (* the rest without cj *)
  assert (Hrest' : tng_inv ((l1 ++ k) ++ cj :: m2)) by (rewrite <- app_assoc; exact Hrest).
  pose proof (proj1 (inv_middle (l1 ++ k) cj m2) Hrest') as (_ & Hrest2 & Hdisj2).
  rewrite <- app_assoc in Hrest2, Hdisj2.
  assert (Hi : tng_inv (l1 ++ c2 :: k ++ m2)).
  { apply inv_middle. split; [auto|split; [auto|]]. intros v Hv Hvt.
    apply Vc2 in Hv. destruct Hv as [Hv|Hv]; [|apply (Hdisj2 v Hv Hvt)].
    apply in_verts in Hvt. destruct Hvt as (x & Hx & Hvx).
    pose proof (in_middle_weaken (l1 ++ k) cj m2 x) as Hx'. rewrite <- !app_assoc in Hx'.
    destruct (F1 x v (Hx' Hx) Hvx Hv) as [Hvc Hva].
    (* the label w shared by ci and cj is the other end of arc, hence v = w lies on cj *)
    rewrite p_connectable_sym in Fcc.
    destruct (connectable_shares_end _ _ Fcc) as (w & Hwj & Hwi).
    destruct (F1 cj w Hcj (is_end_in _ _ Scj Hwj) (is_end_in _ _ Sci Hwi)) as [Hwc Hwa].
    destruct (connectable_shares_end _ _ Fc) as (s & Hsc & Hsa).
    assert (Hs : In s (pedges c)) by (apply is_end_in; auto).
    assert (Evw : v = w).
    { apply (two_ends arc s v w); auto; intros ->; contradiction. }
    subst w. apply (Hdisj2 v (is_end_in _ _ Scj Hwj)). apply in_verts. eauto. }
  destruct (sort_inv _ Hi) as (t' & E & I & S & _). eauto.
Qed.
