(* C03 - the F_2, F_3 and Q columns of the Khovanov oracle's tables are dimensions of the homology of the base-changed
   cube complex: for every entry of [groups_from] (hence of [kh_groups] and of every quantum-degree piece of
   [kh_groups_bigraded]) in cube degree k
       g_dim2 = n_k - rank_(F_2) d_k - rank_(F_2) d_(k-1),   g_dim3 likewise over F_3,
       g_rank = n_k - rank_Q d_k - rank_Q d_(k-1),
   where the rank over a field F of d_k is the size of ANY Smith-type form over F (diagonal, non-zero entries) of the
   base change of the dense matrix of the selected rows of [rows_at c k] - the matrix [factors] diagonalises over Z.
   (The rank is an invariant of the matrix: Proofs/C07Rank.v.)
   Ingredients: soundness of the sparse Smith routine (KhSmithMain.smith_diag_sound), the rank modulo p read off the
   invariant factors (C09UniqueCor.SmithOf_modp_rank), and Z -> Q (C07Uct.rank_over_Q).
   The end of the file ([pdivides], [count_div_tors], [factors_pos], [groups_from_table_uct]) restates the F_2 and
   F_3 columns of an entry through the torsion orders the table lists in degrees k and k+1. *)
From Coq Require Import List Arith Bool ZArith Znumtheory Lia QArith Qcanon.
Require Import Yui.Base.Ring Yui.Base.MatF Yui.Model.Snf.
Require Import Yui.Proofs.C07Algebra Yui.Proofs.C07Rank Yui.Proofs.C09UniqueModP Yui.Proofs.C09UniqueCor Yui.Proofs.C07Uct.
Require Import Yui.Model.KhCube Yui.Model.KhHomology.
Require Import Yui.Proofs.KhSmithRows Yui.Proofs.KhSmithMat Yui.Proofs.KhSmithSteps Yui.Proofs.KhSmithMain
  Yui.Proofs.KhSmithTables Yui.Proofs.KhOracle.
Import ListNotations.
Local Close Scope Q_scope.
Local Close Scope Qc_scope.
Local Open Scope Z_scope.

(* r is the rank over the ring o' (through the base change phi) of the selected differential d_k of the cube:
   the matrix has one row per selected source generator (count_gens c k sel of them); n is any width that
   contains all its columns *)
Definition is_rank_of {F : Type} (o' : ring_ops F) (phi : Z -> F)
           (c : cube) (sel : vertex * label -> bool) (k : nat) (r : nat) : Prop :=
  exists (rows : list row) (n : nat) (cc : nat -> F),
    rows_at c k = Some rows /\
    rows_wf n (sel_rows c k sel rows) /\
    smith_form o' (count_gens c k sel) n (fun i j => phi (dense (sel_rows c k sel rows) i j)) r cc.

(* the incoming differential of degree k: none in degree 0 *)
Definition is_rank_prev {F : Type} (o' : ring_ops F) (phi : Z -> F)
           (c : cube) (sel : vertex * label -> bool) (k : nat) (r : nat) : Prop :=
  match k with O => r = O | S k' => is_rank_of o' phi c sel k' r end.

Lemma sel_rows_count c k sel rows :
  cube_shape c -> rows_at c k = Some rows -> length (sel_rows c k sel rows) = count_gens c k sel.
Proof.
  intros Hc Er. destruct (Hc k rows Er) as [_ Hlen].
  unfold sel_rows, count_gens. apply sel_rows_length. now rewrite Hlen.
Qed.

Lemma factors_SmithOf c k sel ds rows n :
  cube_shape c -> factors c k sel = Some ds -> rows_at c k = Some rows -> rows_wf n (sel_rows c k sel rows) ->
  SmithOf (count_gens c k sel) n (dense (sel_rows c k sel rows)) ds.
Proof.
  intros Hc H Er Hn. unfold factors in H. rewrite Er in H. cbv zeta in H. fold (sel_rows c k sel rows) in H.
  rewrite <- (sel_rows_count c k sel rows Hc Er). exact (smith_diag_sound n _ _ ds Hn H).
Qed.

Lemma factors_modp_rank p c k sel ds r :
  prime p -> cube_shape c -> factors c k sel = Some ds ->
  is_rank_of (fp_ring p) (fp_mk p) c sel k r -> r = length (filter (not_div p) ds).
Proof.
  intros Hp Hc H [rows [n [cc [Er [Hn F]]]]].
  exact (SmithOf_modp_rank p Hp _ n _ ds r cc (factors_SmithOf c k sel ds rows n Hc H Er Hn) F).
Qed.

Lemma factors_Q_rank c k sel ds r :
  cube_shape c -> factors c k sel = Some ds ->
  is_rank_of Q_ring z2q c sel k r -> r = length ds.
Proof.
  intros Hc H [rows [n [cc [Er [Hn F]]]]].
  pose proof (SmithOf_smith_form _ n _ ds (factors_SmithOf c k sel ds rows n Hc H Er Hn)) as FZ.
  exact (rank_over_Q _ n _ _ _ r cc FZ F).
Qed.

Lemma factors_Z_rank c k sel ds r :
  cube_shape c -> factors c k sel = Some ds ->
  is_rank_of Z_ring (fun a => a) c sel k r -> r = length ds.
Proof.
  intros Hc H [rows [n [cc [Er [Hn F]]]]].
  exact (SmithOf_rank_unique _ n _ ds (factors_SmithOf c k sel ds rows n Hc H Er Hn) r cc F).
Qed.

(* such ranks exist (non-vacuity of [is_rank_of]) *)
Lemma factors_rank_exists p c k sel ds :
  prime p -> cube_shape c -> factors c k sel = Some ds ->
  (exists r, is_rank_of (fp_ring p) (fp_mk p) c sel k r) /\ (exists r, is_rank_of Q_ring z2q c sel k r).
Proof.
  intros Hp Hc H. destruct (factors_sound c k sel ds Hc H) as [rows [n [Er [Hn [_ HS]]]]].
  pose proof (SmithOf_smith_form _ n _ ds HS) as FZ. destruct HS as [_ [Hch _]].
  split.
  - eexists. exists rows, n. eexists. split; [exact Er|]. split; [exact Hn|].
    exact (modp_smith_form p Hp _ n _ _ _ FZ Hch).
  - eexists. exists rows, n. eexists. split; [exact Er|]. split; [exact Hn|].
    exact (Q_smith_form _ n _ _ _ FZ).
Qed.

(* what one table entry denotes over F_2, F_3, Q (and Z) *)
Definition entry_uct (c : cube) (sel : vertex * label -> bool) (k : nat) (g : group) : Prop :=
  let nk := Z.of_nat (count_gens c k sel) in
  (forall r r', is_rank_of (fp_ring 2) (fp_mk 2) c sel k r -> is_rank_prev (fp_ring 2) (fp_mk 2) c sel k r' ->
     g_dim2 g = nk - Z.of_nat r - Z.of_nat r') /\
  (forall r r', is_rank_of (fp_ring 3) (fp_mk 3) c sel k r -> is_rank_prev (fp_ring 3) (fp_mk 3) c sel k r' ->
     g_dim3 g = nk - Z.of_nat r - Z.of_nat r') /\
  (forall r r', is_rank_of Q_ring z2q c sel k r -> is_rank_prev Q_ring z2q c sel k r' ->
     g_rank g = nk - Z.of_nat r - Z.of_nat r') /\
  (forall r r', is_rank_of Z_ring (fun a => a) c sel k r -> is_rank_prev Z_ring (fun a => a) c sel k r' ->
     g_rank g = nk - Z.of_nat r - Z.of_nat r').

Lemma group_at_uct_true c sel k dp dk :
  cube_shape c -> factors c k sel = Some dk ->
  match k with O => dp = [] | S k' => factors c k' sel = Some dp end ->
  entry_uct c sel k (group_at (count_gens c k sel) dp dk).
Proof.
  intros Hc Hk Hprev. unfold entry_uct, group_at, zlen. cbn [g_dim2 g_dim3 g_rank]. cbv zeta.
  assert (P : forall (F : Type) (o' : ring_ops F) (phi : Z -> F) (cnt : list Z -> nat),
             cnt [] = O ->
             (forall k0 ds r, factors c k0 sel = Some ds -> is_rank_of o' phi c sel k0 r -> r = cnt ds) ->
             forall r r', is_rank_of o' phi c sel k r -> is_rank_prev o' phi c sel k r' ->
                          r = cnt dk /\ r' = cnt dp).
  { intros F o' phi cnt C0 HR r r' H1 H2. split; [exact (HR k dk r Hk H1)|].
    destruct k as [|k']; cbn [is_rank_prev] in H2.
    - subst dp. rewrite C0. exact H2.
    - exact (HR k' dp r' Hprev H2). }
  split; [|split; [|split]]; intros r r' H1 H2.
  - destruct (P _ (fp_ring 2) (fp_mk 2) (fun ds => length (filter (not_div 2) ds)) eq_refl
                (fun k0 ds r0 => factors_modp_rank 2 c k0 sel ds r0 prime_2 Hc) r r' H1 H2) as [-> ->]. reflexivity.
  - destruct (P _ (fp_ring 3) (fp_mk 3) (fun ds => length (filter (not_div 3) ds)) eq_refl
                (fun k0 ds r0 => factors_modp_rank 3 c k0 sel ds r0 prime_3 Hc) r r' H1 H2) as [-> ->]. reflexivity.
  - destruct (P _ Q_ring z2q (@length Z) eq_refl
                (fun k0 ds r0 => factors_Q_rank c k0 sel ds r0 Hc) r r' H1 H2) as [-> ->]. reflexivity.
  - destruct (P _ Z_ring (fun a => a) (@length Z) eq_refl
                (fun k0 ds r0 => factors_Z_rank c k0 sel ds r0 Hc) r r' H1 H2) as [-> ->]. reflexivity.
Qed.

Theorem groups_from_uct c sel todo gs :
  cube_shape c -> groups_from c sel 0 todo [] = Some gs ->
  forall k, (k < todo)%nat -> exists g, nth_error gs k = Some (k, g) /\ entry_uct c sel k g.
Proof.
  intros Hc H k Hk. destruct (groups_from_entries c sel todo 0 [] gs H k Hk) as [dp [dk [F1 [F2 F3]]]].
  cbn [Nat.add] in *. eexists. split; [exact F3|].
  apply group_at_uct_true; [exact Hc|exact F1|]. destruct k; exact F2.
Qed.

Theorem kh_groups_uct l red h t gs :
  kh_groups (build_cube l red h t) = Some gs ->
  let c := build_cube l red h t in
  forall k, (k <= crossing_num l)%nat ->
  exists g, nth_error gs k = Some (k, g) /\ entry_uct c (fun _ => true) k g.
Proof.
  intros H c k Hk. unfold kh_groups in H. fold c in H. destruct (cube_ok c); [|discriminate].
  apply (groups_from_uct c _ (S (c_n c)) gs (build_cube_shape l red h t) H). cbn [c build_cube c_n]. lia.
Qed.

Theorem kh_groups_bigraded_uct l red h t tbl :
  kh_groups_bigraded (build_cube l red h t) = Some tbl ->
  let c := build_cube l red h t in
  forall q gq, In (q, gq) tbl ->
  forall k, (k <= crossing_num l)%nat ->
  exists g, nth_error gq k = Some (k, g) /\ entry_uct c (fun g0 => q_local g0 =? q) k g.
Proof.
  intros H c q gq Hin k Hk.
  pose proof (kh_groups_bigraded_entries c tbl H q gq Hin) as G.
  apply (groups_from_uct c _ (S (c_n c)) gq (build_cube_shape l red h t) G). cbn [c build_cube c_n]. lia.
Qed.

(* the ranks the theorem quantifies over exist for every entry of a table *)
Theorem groups_from_ranks_exist c sel todo gs :
  cube_shape c -> groups_from c sel 0 todo [] = Some gs ->
  forall k, (k < todo)%nat -> forall p, prime p ->
  (exists r, is_rank_of (fp_ring p) (fp_mk p) c sel k r) /\ (exists r, is_rank_of Q_ring z2q c sel k r).
Proof.
  intros Hc H k Hk p Hp. destruct (groups_from_entries c sel todo 0 [] gs H k Hk) as [dp [dk [F1 _]]].
  cbn [Nat.add] in F1. exact (factors_rank_exists p c k sel dk Hp Hc F1).
Qed.

(* the relation between the columns of one table, in terms of the listed torsion; [pdivides p t] decides p | t *)
Definition pdivides (p t : Z) : bool := t mod p =? 0.

Lemma count_div_tors p ds :
  1 < p -> (forall d, In d ds -> 0 < d) ->
  length (filter (fun d => negb (not_div p d)) ds) = length (filter (pdivides p) (filter (fun d => 1 <? d) ds)).
Proof.
  intros Hp Hpos. rewrite filter_filter_implied.
  - f_equal. apply filter_ext. intros d. unfold not_div, pdivides. apply negb_involutive.
  - intros d Hd Hdiv. unfold pdivides in Hdiv. apply Z.eqb_eq in Hdiv. apply Z.ltb_lt.
    specialize (Hpos d Hd). apply Z.mod_divide in Hdiv; [|lia]. apply Z.divide_pos_le in Hdiv; lia.
Qed.

Lemma factors_pos c k sel ds : cube_shape c -> factors c k sel = Some ds -> forall d, In d ds -> 0 < d.
Proof. intros Hc H. destruct (factors_sound c k sel ds Hc H) as [rows [n [_ [_ [_ [Hpos _]]]]]]. exact Hpos. Qed.

(* dim_(F_p) H^k = rank H^k + #{t in tors H^k : p | t} + #{t in tors H^(k+1) : p | t}, p = 2, 3;
   tors H^(k+1) = the factors > 1 of d_k, which is what the table lists in degree k+1 whenever it has that entry *)
Theorem groups_from_table_uct c sel todo gs :
  cube_shape c -> groups_from c sel 0 todo [] = Some gs ->
  forall k, (k < todo)%nat -> exists g tnext,
    nth_error gs k = Some (k, g) /\
    (exists dk, factors c k sel = Some dk /\ tnext = filter (fun d => 1 <? d) dk) /\
    (forall e, nth_error gs (S k) = Some e -> fst e = S k /\ g_tors (snd e) = tnext) /\
    g_dim2 g = g_rank g + Z.of_nat (length (filter (pdivides 2) (g_tors g)))
                        + Z.of_nat (length (filter (pdivides 2) tnext)) /\
    g_dim3 g = g_rank g + Z.of_nat (length (filter (pdivides 3) (g_tors g)))
                        + Z.of_nat (length (filter (pdivides 3) tnext)).
Proof.
  intros Hc H k Hk. destruct (groups_from_entries c sel todo 0 [] gs H k Hk) as [dp [dk [F1 [F2 F3]]]].
  cbn [Nat.add] in *.
  exists (group_at (count_gens c k sel) dp dk), (filter (fun d => 1 <? d) dk).
  split; [exact F3|]. split; [exists dk; split; [exact F1|reflexivity]|]. split.
  - intros e He.
    destruct (Nat.lt_ge_cases (S k) todo) as [Hlt|Hge].
    + destruct (groups_from_entries c sel todo 0 [] gs H (S k) Hlt) as [dp' [dk' [G1 [G2 G3]]]].
      cbn [Nat.add] in *. rewrite G3 in He. injection He as <-. cbn [fst snd].
      split; [reflexivity|]. rewrite G2 in F1. injection F1 as ->. reflexivity.
    + exfalso. pose proof (groups_from_degrees c sel 0 todo [] gs H) as HD.
      assert (HL : length gs = todo) by (rewrite <- (map_length fst), HD; apply seq_length).
      assert (HN : nth_error gs (S k) = None) by (apply nth_error_None; lia). congruence.
  - assert (Pk : forall d, In d dk -> 0 < d) by exact (factors_pos c k sel dk Hc F1).
    assert (Pp : forall d, In d dp -> 0 < d).
    { destruct k as [|k']; [subst dp; intros d []|exact (factors_pos c k' sel dp Hc F2)]. }
    pose proof (group_at_uct 2 (count_gens c k sel) dp dk (or_introl eq_refl)) as U2.
    pose proof (group_at_uct 3 (count_gens c k sel) dp dk (or_intror eq_refl)) as U3.
    cbv zeta in U2, U3. cbn [Z.eqb Pos.eqb] in U2, U3.
    rewrite (count_div_tors 2 dk), (count_div_tors 2 dp) in U2 by (try assumption; lia).
    rewrite (count_div_tors 3 dk), (count_div_tors 3 dp) in U3 by (try assumption; lia).
    change (g_tors (group_at (count_gens c k sel) dp dk)) with (filter (fun d => 1 <? d) dp).
    split; [rewrite U2|rewrite U3]; lia.
Qed.
