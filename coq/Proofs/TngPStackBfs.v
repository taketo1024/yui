(* Vertical composition, part 2: what the breadth-first search of take_stackable_comps computes.
   * soundness: every collected component is linked (through `contains`) to a component collected before it -
     stated with two predicates closed under links ([bfs_sound]);
   * closure: when every middle component has at most one owner in the opposite pool ([cnt] <= 1), no component left
     in the pools is linked to a collected one ([bfs_closed]);
   * the Euler number, the dots and the tangles of the component built by stack_comps ([stack_comps_spec]). *)
From Coq Require Import List Arith Bool Lia ZArith Permutation.
Import ListNotations.
Require Import Yui.Model.Link Yui.Model.Tng Yui.Model.TngCob Yui.Model.TngStack.
Require Import Yui.Proofs.TngPSegs Yui.Proofs.TngPCob Yui.Proofs.TngPStackBase.

Definition cnt (sel : cobcomp -> tng) (pool : list cobcomp) (m : path) : nat := length (filter (hit sel m) pool).

Lemma cnt_app : forall sel a b m, cnt sel (a ++ b) m = cnt sel a m + cnt sel b m.
Proof. intros. unfold cnt. rewrite filter_app, app_length. reflexivity. Qed.

Lemma cnt_cons : forall sel x l m, cnt sel (x :: l) m = (if hit sel m x then 1 else 0) + cnt sel l m.
Proof. intros. unfold cnt. cbn [filter]. destruct (hit sel m x); reflexivity. Qed.

Lemma cnt_perm : forall sel a b m, Permutation a b -> cnt sel a m = cnt sel b m.
Proof.
  intros sel a b m Hp. unfold cnt. induction Hp; cbn [filter].
  - reflexivity.
  - destruct (hit sel m x); cbn [length]; lia.
  - destruct (hit sel m x), (hit sel m y); cbn [length]; lia.
  - lia.
Qed.

Lemma cnt_sub : forall sel pool pulled pool' m, Permutation pool (pulled ++ pool') -> cnt sel pool' m <= cnt sel pool m.
Proof. intros sel pool pulled pool' m Hp. rewrite (cnt_perm _ _ _ m Hp), cnt_app. lia. Qed.

Lemma cnt_zero : forall sel pool m, cnt sel pool m = 0 -> forall t, In t pool -> hit sel m t = false.
Proof.
  intros sel pool m. unfold cnt. induction pool as [|x r IH]; cbn [filter]; [intros _ t []|].
  destruct (hit sel m x) eqn:Ex; cbn [length]; [discriminate|]. intros E t [<-|Ht]; auto.
Qed.

Lemma perm_in_sub : forall (pool pulled pool' : list cobcomp) t, Permutation pool (pulled ++ pool') -> In t pool' -> In t pool.
Proof.
  intros pool pulled pool' t Hp Ht. eapply Permutation_in; [apply Permutation_sym; exact Hp|]. apply in_or_app. auto.
Qed.
Lemma perm_in_pulled : forall (pool pulled pool' : list cobcomp) t, Permutation pool (pulled ++ pool') -> In t pulled -> In t pool.
Proof.
  intros pool pulled pool' t Hp Ht. eapply Permutation_in; [apply Permutation_sym; exact Hp|]. apply in_or_app. auto.
Qed.

Lemma pull_closed : forall sel cs pool q pool' q', pull sel cs pool q = (pool', q') ->
  (forall m, In m cs -> cnt sel pool m <= 1) ->
  forall m, In m cs -> forall t, In t pool' -> hit sel m t = false.
Proof.
  intros sel. induction cs as [|m0 r IH]; intros pool q pool' q'; cbn [pull]; [intros _ _ m []|].
  destruct (find_index _ pool) as [i|] eqn:Ef.
  - destruct (find_index_split _ _ _ Ef) as (l1 & x & l2 & -> & <- & Hx & _).
    rewrite remove_nth_middle, nth_middle. intros E Hc.
    destruct (pull_spec _ _ _ _ _ _ E) as (pl & _ & Hp & _).
    assert (H0 : cnt sel (l1 ++ l2) m0 = 0).
    { pose proof (Hc m0 (or_introl eq_refl)) as H1. rewrite cnt_app, cnt_cons in H1. rewrite cnt_app.
      unfold hit in H1 at 1. rewrite Hx in H1. lia. }
    intros m [<-|Hm] t Ht.
    + apply (cnt_zero _ _ _ H0). eapply perm_in_sub; eauto.
    + eapply (IH _ _ _ _ E); eauto. intros m' Hm'. pose proof (Hc m' (or_intror Hm')) as H1.
      rewrite cnt_app, cnt_cons in H1. rewrite cnt_app. lia.
  - intros E Hc. destruct (pull_spec _ _ _ _ _ _ E) as (pl & _ & Hp & _). intros m [<-|Hm] t Ht.
    + apply (find_index_none _ _ Ef). eapply perm_in_sub; eauto.
    + eapply (IH _ _ _ _ E); eauto. intros m' Hm'. apply Hc. right. exact Hm'.
Qed.

Lemma drain_closed : forall other own q pool qo res pool' qo' res',
  drain other own q pool qo res = (pool', qo', res') ->
  (forall b m, In b q -> In m (own b) -> cnt other pool m <= 1) ->
  forall b m t, In b q -> In m (own b) -> In t pool' -> hit other m t = false.
Proof.
  intros other own. induction q as [|b0 r IH]; intros pool qo res pool' qo' res'; cbn [drain]; [intros _ _ b m t []|].
  destruct (pull other (own b0) pool qo) as [pool1 qo1] eqn:Ep. intros E Hc.
  destruct (pull_spec _ _ _ _ _ _ Ep) as (p1 & _ & Hp1 & _).
  destruct (drain_spec _ _ _ _ _ _ _ _ _ E) as (p2 & _ & _ & Hp2 & _).
  intros b m t [<-|Hb] Hm Ht.
  - eapply (pull_closed _ _ _ _ _ _ Ep); eauto.
    + intros m' Hm'. apply (Hc b0 m'); auto. left. reflexivity.
    + eapply perm_in_sub; eauto.
  - eapply (IH _ _ _ _ _ _ E); eauto. intros b' m' Hb' Hm'.
    eapply Nat.le_trans; [eapply cnt_sub; exact Hp1|]. apply (Hc b' m'); auto. right. exact Hb'.
Qed.

Lemma bfs_closed : forall fuel bot top qb qt resb rest bot' top' gb gt,
  bfs fuel bot top qb qt resb rest = Some (bot', top', gb, gt) ->
  (forall b m, In b (bot ++ qb) -> In m (ctgt b) -> cnt csrc top m <= 1) ->
  (forall t m, In t (top ++ qt) -> In m (csrc t) -> cnt ctgt bot m <= 1) ->
  (forall b m t, In b resb -> In m (ctgt b) -> In t top -> hit csrc m t = false) ->
  (forall t m b, In t rest -> In m (csrc t) -> In b bot -> hit ctgt m b = false) ->
  (forall b m t, In b gb -> In m (ctgt b) -> In t top' -> hit csrc m t = false) /\
  (forall t m b, In t gt -> In m (csrc t) -> In b bot' -> hit ctgt m b = false).
Proof.
  refine (bfs_rounds _ _ _); [auto|].
  intros bot top qb qt resb rest top1 p1 bot1 p2 bot' top' gb gt E1 E2 Hp1 Hp2 _ _ IH U1 U2 C1 C2.
  assert (D1 := drain_closed _ _ _ _ _ _ _ _ _ E1). assert (D2 := drain_closed _ _ _ _ _ _ _ _ _ E2).
  apply IH.
  + intros b m Hb Hm. eapply Nat.le_trans; [eapply cnt_sub; exact Hp1|]. apply (U1 b m); auto.
    apply in_or_app. left. apply in_app_or in Hb. destruct Hb as [Hb|Hb].
    * eapply perm_in_sub; eauto.
    * eapply perm_in_pulled; eauto.
  + intros t m Ht Hm. rewrite app_nil_r in Ht. eapply Nat.le_trans; [eapply cnt_sub; exact Hp2|]. apply (U2 t m); auto.
    apply in_or_app. left. eapply perm_in_sub; eauto.
  + intros b m t Hb Hm Ht. apply in_app_or in Hb. destruct Hb as [Hb|Hb].
    * apply (C1 b m t); auto. eapply perm_in_sub; eauto.
    * apply (D1 ltac:(intros b' m' Hb' Hm'; apply (U1 b' m'); auto; apply in_or_app; right; exact Hb') b m t); auto.
  + intros t m b Ht Hm Hb. apply in_app_or in Ht. destruct Ht as [Ht|Ht].
    * apply (C2 t m b); auto. eapply perm_in_sub; eauto.
    * apply (D2 ltac:(intros t' m' Ht' Hm'; apply (U2 t' m'); auto; apply in_or_app;
                        apply in_app_or in Ht'; destruct Ht' as [Ht'|Ht']; [right; exact Ht'|left; eapply perm_in_pulled; eauto])
               t m b); auto.
Qed.

Lemma bfs_sound : forall (Pb Pt : cobcomp -> Prop) fuel bot top qb qt resb rest bot' top' gb gt,
  bfs fuel bot top qb qt resb rest = Some (bot', top', gb, gt) ->
  (forall b t m, Pb b -> In t top -> In m (ctgt b) -> hit csrc m t = true -> Pt t) ->
  (forall t b m, Pt t -> In b bot -> In m (csrc t) -> hit ctgt m b = true -> Pb b) ->
  Forall Pb (qb ++ resb) -> Forall Pt (qt ++ rest) -> Forall Pb gb /\ Forall Pt gt.
Proof.
  intros Pb Pt. refine (bfs_rounds _ _ _); [auto|].
  intros bot top qb qt resb rest top1 p1 bot1 p2 bot' top' gb gt _ _ Hp1 Hp2 Hf1 Hf2 IH L1 L2 Fb Ft.
  apply Forall_app in Fb. destruct Fb as [Fqb Frb]. apply Forall_app in Ft. destruct Ft as [Fqt Frt].
  assert (F1 : Forall Pt p1).
  { rewrite Forall_forall in *. intros t Ht. destruct (Hf1 t Ht) as (b & m & Hb & Hm & Hh).
    apply (L1 b t m); auto. eapply perm_in_pulled; eauto. }
  assert (F2 : Forall Pb p2).
  { rewrite Forall_forall in *. intros b Hb. destruct (Hf2 b Hb) as (t & m & Ht & Hm & Hh).
    apply (L2 t b m); auto; [|eapply perm_in_pulled; eauto].
    apply in_app_or in Ht. destruct Ht as [Ht|Ht]; auto. }
  apply IH.
  * intros b t m Hb Ht. apply L1; auto. eapply perm_in_sub; eauto.
  * intros t b m Ht Hb. apply L2; auto. eapply perm_in_sub; eauto.
  * apply Forall_app. split; [exact F2|apply Forall_app; split; assumption].
  * cbn [app]. apply Forall_app. split; [exact Frt|apply Forall_app; split; assumption].
Qed.

Lemma is_nil_false : forall (A : Type) (l : list A), is_nil l = false <-> l <> [].
Proof. intros A [|x l]; cbn; split; congruence. Qed.

Theorem stack_comps_spec : forall bs ts c, stack_comps bs ts = Some c ->
  bs <> [] /\ ts <> [] /\
  exists x0 x1, sum_opt (map cc_euler bs) = Some x0 /\ sum_opt (map cc_euler ts) = Some x1 /\
    cc_euler c = Some (x0 + x1 - Z.of_nat (sum_nat (map (fun b => tng_euler_num (ctgt b)) bs)))%Z /\
    tng_fold_connect (map csrc bs) = Some (csrc c) /\ tng_fold_connect (map ctgt ts) = Some (ctgt c) /\
    cdx c = sum_nat (map cdx bs) + sum_nat (map cdx ts) /\ cdy c = sum_nat (map cdy bs) + sum_nat (map cdy ts).
Proof.
  intros bs ts c. unfold stack_comps.
  destruct (is_nil bs) eqn:Nb; cbn [orb]; [discriminate|]. destruct (is_nil ts) eqn:Nt; [discriminate|].
  apply is_nil_false in Nb, Nt.
  destruct (sum_opt (map cc_euler bs)) as [x0|] eqn:E0; [|discriminate].
  destruct (sum_opt (map cc_euler ts)) as [x1|] eqn:E1; [|discriminate].
  destruct (tng_fold_connect (map csrc bs)) as [s'|] eqn:Es; [|discriminate].
  destruct (tng_fold_connect (map ctgt ts)) as [t'|] eqn:Et; [|discriminate].
  destruct (cc_nbdr _) as [b|] eqn:Eb; [|discriminate].
  set (a := sum_nat (map (fun b0 => tng_euler_num (ctgt b0)) bs)).
  set (g := (2 - (x0 + x1 + Z.of_nat b) + Z.of_nat a)%Z).
  destruct (g <? 0)%Z eqn:Eg; [discriminate|]. apply Z.ltb_ge in Eg.
  destruct (Z.even g) eqn:Ee; cbn [negb]; [|discriminate].
  intros E. inversion E; subst c; clear E. split; [exact Nb|]. split; [exact Nt|]. exists x0, x1.
  cbn [csrc ctgt cdx cdy]. repeat split; auto.
  unfold cc_euler. rewrite (cc_nbdr_ext _ (mkCC s' t' 0 (sum_nat (map cdx bs) + sum_nat (map cdx ts))
    (sum_nat (map cdy bs) + sum_nat (map cdy ts)))) by reflexivity. rewrite Eb.
  cbn [cgenus]. f_equal. pose proof (even_half g Eg Ee). unfold g in *. lia.
Qed.
