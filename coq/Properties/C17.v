(* C17 - Bit sequences behave as sequences of at most 64 bits.
   Each theorem is proved by [exact <lemma>] and is followed by Print Assumptions; the Examples at the end
   instantiate the hypotheses on concrete values (non-vacuity).
   Model: Model/BitSeq.v (mirror of yui/src/misc/bitseq.rs, u64 word explicit, panic = None).
   [abs b] is the list of booleans a value denotes, [Inv b] the representation invariant
   (len <= 64, val < 2^len).  [refines r s]: when the list-level operation is defined ([s = Some l])
   the model returns [Some b'] with [Inv b'] and [abs b' = l]; when it is not (index out of range,
   result longer than 64) the model returns [None], i.e. the Rust call panics before writing. *)
From Coq Require Import NArith List Bool Arith.
Require Import Yui.Model.BitSeq Yui.Proofs.BitSeqBits Yui.Proofs.BitSeq.
Import ListNotations.

Theorem C17_new : forall v l,
  refines (new v l) (if (l <=? 64) && (v <? 2 ^ N.of_nat l)%N then Some (bits v l) else None).
Proof. exact new_spec. Qed.
Print Assumptions C17_new.

Theorem C17_new_rev : forall v l, (v < 2 ^ 64)%N ->
  refines (new_rev v l) (if l <=? 64 then Some (rev (bits v l)) else None).
Proof. exact (fun v l _ => new_rev_spec v l). Qed.
Print Assumptions C17_new_rev.

Theorem C17_empty : refines empty (Some []).
Proof. exact empty_spec. Qed.
Print Assumptions C17_empty.

Theorem C17_zeros : forall l, refines (zeros l) (if l <=? 64 then Some (repeat false l) else None).
Proof. exact zeros_spec. Qed.
Print Assumptions C17_zeros.

Theorem C17_ones : forall l, refines (ones l) (if l <=? 64 then Some (repeat true l) else None).
Proof. exact ones_spec. Qed.
Print Assumptions C17_ones.

Theorem C17_from_iter : forall bs, refines (from_iter bs) (if length bs <=? 64 then Some bs else None).
Proof. exact from_iter_spec. Qed.
Print Assumptions C17_from_iter.

(* every mutator (set, push, append, remove, insert, prefix) refines the list operation, and an
   operation the list cannot perform within 64 bits is rejected *)
Theorem C17_step : forall b o, Inv b -> refines (step b o) (l_step (abs b) o).
Proof. exact step_refines. Qed.
Print Assumptions C17_step.

(* ... hence for every finite history from every valid value (a rejected call leaves the value as it was) *)
Theorem C17_histories : forall ops b, Inv b ->
  Inv (fold_left run_step ops b) /\ abs (fold_left run_step ops b) = fold_left l_run_step ops (abs b).
Proof. exact history_refines. Qed.
Print Assumptions C17_histories.

Theorem C17_weight : forall b, Inv b -> weight b = Some (l_weight (abs b)).
Proof. exact weight_spec. Qed.
Print Assumptions C17_weight.

Theorem C17_iter : forall b, iter b = abs b.
Proof. exact iter_spec. Qed.
Print Assumptions C17_iter.

Theorem C17_index : forall b i, Inv b ->
  index b i = if i <? length (abs b) then Some (nth i (abs b) false) else None.
Proof. exact index_spec. Qed.
Print Assumptions C17_index.

Theorem C17_is_sub : forall a b, Inv a -> Inv b -> is_sub a b = Some (l_is_prefix (abs a) (abs b)).
Proof. exact is_sub_spec. Qed.
Print Assumptions C17_is_sub.

Theorem C17_is_prefix_meaning : forall a b,
  l_is_prefix a b = true <-> (length a <= length b /\ forall i, i < length a -> nth i a false = nth i b false).
Proof. exact l_is_prefix_spec. Qed.
Print Assumptions C17_is_prefix_meaning.

Theorem C17_generate : forall l, l <= 64 ->
  exists gs, generate l = Some gs /\ length gs = 2 ^ l /\
    (forall k, k < 2 ^ l -> exists g, nth_error gs k = Some g /\ Inv g /\ abs g = bits (N.of_nat k) l).
Proof. exact generate_spec. Qed.
Print Assumptions C17_generate.

Theorem C17_generate_rejects : forall l, 64 < l -> generate l = None.
Proof. exact generate_none. Qed.
Print Assumptions C17_generate_rejects.

Theorem C17_print : forall b, to_string b = chars_of (abs b).
Proof. exact to_string_spec. Qed.
Print Assumptions C17_print.

Theorem C17_parse_print : forall b, Inv b -> from_str (to_string b) = POk b.
Proof. exact from_str_to_string. Qed.
Print Assumptions C17_parse_print.

Theorem C17_parse : forall l,
  match from_str (chars_of l) with
  | POk b => length l <= 64 /\ Inv b /\ abs b = l
  | PErr => False
  | PPanic => 64 < length l
  end.
Proof. exact from_str_chars. Qed.
Print Assumptions C17_parse.

Theorem C17_parse_rejects : forall cs, (exists c, In c cs /\ c <> 0 /\ c <> 1) -> forall b, from_str cs <> POk b.
Proof. exact from_str_invalid. Qed.
Print Assumptions C17_parse_rejects.

(* the order: by length, then weight, then value; total and consistent with equality *)
Theorem C17_cmp : forall a b, Inv a -> Inv b -> cmp a b = Some (l_cmp (abs a) (abs b)).
Proof. exact cmp_spec. Qed.
Print Assumptions C17_cmp.

Theorem C17_order_eq : forall a b, l_cmp a b = Eq <-> a = b.
Proof. exact l_cmp_eq. Qed.
Print Assumptions C17_order_eq.

Theorem C17_order_antisym : forall a b, l_cmp b a = CompOpp (l_cmp a b).
Proof. exact l_cmp_antisym. Qed.
Print Assumptions C17_order_antisym.

Theorem C17_order_trans : forall a b c, l_cmp a b = Lt -> l_cmp b c = Lt -> l_cmp a c = Lt.
Proof. exact l_cmp_lt_trans. Qed.
Print Assumptions C17_order_trans.

Theorem C17_abs_injective : forall a b, Inv a -> Inv b -> abs a = abs b -> a = b.
Proof. exact abs_inj. Qed.
Print Assumptions C17_abs_injective.

(* non-vacuity: a full-length value meets the hypotheses and the operations behave at the boundary *)
Example C17_inv_at_64 : Inv (mk (N.ones 64) 64) /\ Inv (mk 5 3) /\ Inv (mk 0 0).
Proof. repeat split; cbn; try apply le_n; try (repeat constructor); reflexivity. Qed.
Example C17_full_push_rejected : push (mk (N.ones 64) 64) false = None /\ push (mk (N.ones 63) 63) true = Some (mk (N.ones 64) 64).
Proof. split; vm_compute; reflexivity. Qed.
Example C17_remove_at_63 : remove (mk (N.ones 64) 64) 63 = Some (mk (N.ones 63) 63).
Proof. vm_compute. reflexivity. Qed.
