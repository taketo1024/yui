(* F_p = FF<p> (Model/Fp.v): representatives stay in [0, p), the operations are the operations of
   Z modulo p and - for (p-1)^2 < 2^31 - never overflow the i32 they are computed in; the extended
   Euclidean loop of num_integer terminates within the model's fuel, stays inside i32 for p < 2^30,
   and yields the modular inverse.  F_2 = FF2 on booleans. *)
From Coq Require Import ZArith Bool Lia Znumtheory.
Require Import Yui.Model.Ints Yui.Model.Fp Yui.Proofs.C14Ints.
Open Scope Z_scope.

(* nonlinear facts, proved in a minimal context (nia diverges in the context of the loop proof) *)
Lemma nl_prod_small r0 r1 : 0 <= r0 < r1 -> r0 * r1 < 1 -> r0 = 0.
Proof. intros H1 H2. nia. Qed.
Lemma nl_quot_bounds r0 r1 q m : 0 < r0 < r1 -> r1 = r0 * q + m -> 0 <= m < r0 ->
  1 <= q /\ q <= r1 /\ q * r0 <= r1.
Proof. intros H1 H2 H3. repeat split; nia. Qed.
Lemma nl_coef r0 r1 q p A B : 1 <= r0 -> r0 < r1 -> 1 <= q -> q * r0 <= r1 -> 0 <= A -> 0 <= B ->
  A * r1 + B * r0 = p -> A <= p /\ B <= p /\ 0 <= q * A <= p.
Proof.
  intros H1 H2 H3 H4 H5 H6 H7.
  assert (E1 : 0 <= B * r0) by nia.
  assert (E2 : A <= A * r1) by nia.
  assert (E3 : B <= B * r0) by nia.
  assert (E4 : 0 <= A * r1) by nia.
  assert (E5 : q * A <= q * A * r0) by nia.
  assert (E6 : q * A * r0 <= A * r1) by nia.
  repeat split; nia.
Qed.
Lemma nl_measure r0 r1 q X : 0 < r0 < r1 -> 1 <= q -> 0 <= r1 - q * r0 < r0 -> r0 * r1 < 2 * X ->
  (r1 - q * r0) * r0 < X.
Proof.
  intros H1 H2 H3 H4. set (m := r1 - q * r0) in *.
  assert (E1 : r0 <= q * r0) by nia.
  assert (E2 : 2 * m + 1 <= r1) by lia.
  assert (E3 : (2 * m + 1) * r0 <= r1 * r0) by nia.
  nia.
Qed.
Lemma nl_mul_lt a p x y : 0 <= a <= x -> 0 <= p <= y -> 0 < x -> 0 < y -> a * p < 2 * (x * y).
Proof. intros H1 H2 H3 H4. assert (a * p <= x * y) by nia. nia. Qed.

Lemma egcd_loop_S w f r s t :
  egcd_loop w (S f) r s t =
    if fst r =? 0 then
      if 0 <=? snd r then Some (snd r, snd s, snd t)
      else do g <- isub w 0 (snd r); do x <- isub w 0 (snd s); do y <- isub w 0 (snd t); Some (g, x, y)
    else
      do q <- iquot w (snd r) (fst r);
      do r' <- egcd_f w q r; do s' <- egcd_f w q s; do t' <- egcd_f w q t;
      egcd_loop w f r' s' t'.
Proof. reflexivity. Qed.

Section Egcd.
  Variable w : width.
  Variables a p : Z.
  Hypothesis Hfit : forall z, - (2 * p) <= z <= 2 * p -> fitsb w z = true.
  Hypothesis Ha : 0 <= a <= p.

  Lemma ckf z : - (2 * p) <= z <= 2 * p -> ck w z = Some z.
  Proof. intros H. apply ck_fits. now apply Hfit. Qed.

  Lemma egcd_loop_spec : forall n r0 r1 s0 s1 t0 t1 sg,
    0 <= r0 < r1 -> r1 <= p -> r0 * r1 < 2 ^ Z.of_nat n ->
    (sg = 1 \/ sg = -1) ->
    0 <= sg * s0 -> sg * s1 <= 0 -> sg * (s0 * r1 - s1 * r0) = p ->
    0 <= - sg * t0 -> - sg * t1 <= 0 -> - sg * (t0 * r1 - t1 * r0) = a ->
    exists x y, egcd_loop w (S n) (r0, r1) (s0, s1) (t0, t1) = Some (Z.gcd r0 r1, x, y).
  Proof.
    induction n as [|n IH]; intros r0 r1 s0 s1 t0 t1 sg Hr Hr1 Hm Hsg S0 S1 Sd T0 T1 Td.
    - (* r0 * r1 < 1 *)
      change (2 ^ Z.of_nat 0) with 1 in Hm.
      assert (Hz : r0 = 0) by (apply nl_prod_small with r1; assumption). rewrite Hz in *. clear Hz.
      rewrite egcd_loop_S. cbn [fst snd]. change (0 =? 0) with true. cbv iota.
      assert (E : (0 <=? r1) = true) by (apply Z.leb_le; lia). rewrite E.
      exists s1, t1. rewrite Z.gcd_0_l, Z.abs_eq by lia. reflexivity.
    - rewrite egcd_loop_S. cbn [fst snd]. destruct (r0 =? 0) eqn:E0.
      + apply Z.eqb_eq in E0. rewrite E0 in *.
        assert (E : (0 <=? r1) = true) by (apply Z.leb_le; lia). rewrite E.
        exists s1, t1. rewrite Z.gcd_0_l, Z.abs_eq by lia. reflexivity.
      + apply Z.eqb_neq in E0.
        assert (Hq : r1 ÷ r0 = r1 / r0) by (apply Z.quot_div_nonneg; lia).
        set (q := r1 / r0) in *.
        assert (Hqr : r1 = r0 * q + r1 mod r0) by (apply Z.div_mod; lia).
        assert (Hmod : 0 <= r1 mod r0 < r0) by (apply Z.mod_pos_bound; lia).
        destruct (nl_quot_bounds r0 r1 q (r1 mod r0)) as (Hq1 & Hqp & Hqr0); [lia|exact Hqr|exact Hmod|].
        assert (Hrem : r1 - q * r0 = r1 mod r0) by lia.
        assert (Ha' : 0 <= a) by lia.
        (* bounds on the cofactors: |s0|, |s1|, q |s0| <= p and the same for t with a <= p *)
        assert (Bs : 0 <= sg * s0 <= p /\ 0 <= - sg * s1 <= p /\ 0 <= q * (sg * s0) <= p).
        { destruct (nl_coef r0 r1 q p (sg * s0) (- sg * s1)) as (B1 & B2 & B3); try lia; destruct Hsg; subst sg; lia. }
        assert (Bt : 0 <= - sg * t0 <= p /\ 0 <= sg * t1 <= p /\ 0 <= q * (- sg * t0) <= p).
        { destruct (nl_coef r0 r1 q a (- sg * t0) (sg * t1)) as (B1 & B2 & B3); try lia; destruct Hsg; subst sg; lia. }
        assert (As : - p <= q * s0 <= p /\ - (2 * p) <= s1 - q * s0 <= 2 * p /\
                     - p <= q * t0 <= p /\ - (2 * p) <= t1 - q * t0 <= 2 * p)
          by (destruct Hsg; subst sg; lia).
        unfold iquot. apply Z.eqb_neq in E0 as E0'. rewrite E0'. rewrite Hq.
        rewrite ckf by lia. cbn [obind].
        unfold egcd_f. cbn [fst snd]. unfold imul, isub.
        rewrite (ckf (q * r0)) by lia. cbn [obind]. rewrite (ckf (r1 - q * r0)) by lia. cbn [obind].
        rewrite (ckf (q * s0)) by lia. cbn [obind]. rewrite (ckf (s1 - q * s0)) by lia. cbn [obind].
        rewrite (ckf (q * t0)) by lia. cbn [obind]. rewrite (ckf (t1 - q * t0)) by lia. cbn [obind].
        (* the invariants of the next round are linear in the products sg * s_i, sg * q * s0, sg * s_i * r_j *)
        destruct (IH (r1 - q * r0) r0 (s1 - q * s0) s0 (t1 - q * t0) t0 (- sg)) as (x & y & Hl); try lia.
        * rewrite Nat2Z.inj_succ, Z.pow_succ_r in Hm by lia.
          apply nl_measure; try lia.
        * exists x, y. rewrite Hl, Hrem, Z.gcd_mod by lia. reflexivity.
  Qed.

  (* self.extended_gcd(other) with self = a, other = p, for 0 < a < p *)
  Lemma egcd_spec : 0 < a < p ->
    exists x y, egcd w a p = Some (Z.gcd a p, x, y).
  Proof.
    intros Hap. unfold egcd, egcd_fuel.
    set (n := Z.to_nat (Z.log2_up (Z.abs a) + Z.log2_up (Z.abs p))).
    rewrite egcd_loop_S. cbn [fst snd].
    assert (E0 : (p =? 0) = false) by (apply Z.eqb_neq; lia). rewrite E0.
    unfold iquot. rewrite E0. rewrite Z.quot_small by lia. rewrite ckf by lia. cbn [obind].
    unfold egcd_f. cbn [fst snd]. unfold imul, isub. rewrite !Z.mul_0_l.
    rewrite !ckf by lia. cbn [obind]. rewrite !ckf by lia. cbn [obind].
    rewrite !Z.sub_0_r.
    destruct (egcd_loop_spec (S n) a p 1 0 0 1 1) as (x & y & Hl); try lia.
    - (* a * p < 2 ^ (n + 1) *)
      assert (Hla : a <= 2 ^ Z.log2_up a) by (apply Z.log2_up_le_pow2; lia).
      assert (Hlp : p <= 2 ^ Z.log2_up p) by (apply Z.log2_up_le_pow2; lia).
      pose proof (Z.log2_up_nonneg a). pose proof (Z.log2_up_nonneg p).
      unfold n. rewrite !Z.abs_eq by lia. rewrite Nat2Z.inj_succ, Z2Nat.id by lia.
      rewrite Z.pow_succ_r, Z.pow_add_r by lia.
      assert (0 < 2 ^ Z.log2_up a) by (apply Z.pow_pos_nonneg; lia).
      assert (0 < 2 ^ Z.log2_up p) by (apply Z.pow_pos_nonneg; lia).
      apply nl_mul_lt; lia.
    - exists x, y. exact Hl.
  Qed.
End Egcd.

Definition InF (p a : Z) : Prop := 0 <= a < p.
Definition inFb (p a : Z) : bool := (0 <=? a) && (a <? p).
Lemma inFb_spec p a : inFb p a = true <-> InF p a.
Proof. unfold inFb, InF. rewrite andb_true_iff, Z.leb_le, Z.ltb_lt. tauto. Qed.

(* the moduli for which FF<p> is claimed: products of two representatives fit i32 *)
Definition SmallMod (p : Z) : Prop := 1 < p /\ (p - 1) * (p - 1) < 2 ^ 31.

Lemma small_bound p : SmallMod p -> 1 < p <= 46341.
Proof. intros [H1 H2]. change (2 ^ 31) with 2147483648 in H2. nia. Qed.

Lemma ff_new_spec p a : 0 < p -> ff_new p a = Some (a mod p) /\ InF p (a mod p).
Proof.
  intros Hp. unfold ff_new. assert (E : (0 <? p) = true) by (apply Z.ltb_lt; lia). rewrite E.
  split; [reflexivity|]. apply Z.mod_pos_bound. lia.
Qed.

Lemma ff_new_nonpos p a : p <= 0 -> ff_new p a = None.
Proof. intros Hp. unfold ff_new. assert (E : (0 <? p) = false) by (apply Z.ltb_ge; lia). now rewrite E. Qed.

Lemma ff_new_id p a : InF p a -> ff_new p a = Some a.
Proof.
  intros H. destruct (ff_new_spec p a) as [E _]; [unfold InF in H; lia|]. rewrite E. f_equal.
  now apply Z.mod_small.
Qed.

Lemma ck32 z : -2147483648 <= z <= 2147483647 -> ck i32 z = Some z.
Proof. intros H. apply ck_fits. now apply fitsb_i32. Qed.

Lemma ff_add_spec p a b : SmallMod p -> InF p a -> InF p b ->
  ff_add p a b = Some ((a + b) mod p) /\ InF p ((a + b) mod p).
Proof.
  intros Hp Ha Hb. pose proof (small_bound p Hp). unfold InF in *. unfold ff_add, iadd.
  rewrite ck32 by lia. cbn [obind]. apply ff_new_spec. lia.
Qed.

Lemma ff_sub_spec p a b : SmallMod p -> InF p a -> InF p b ->
  ff_sub p a b = Some ((a - b) mod p) /\ InF p ((a - b) mod p).
Proof.
  intros Hp Ha Hb. pose proof (small_bound p Hp). unfold InF in *. unfold ff_sub, isub.
  rewrite ck32 by lia. cbn [obind]. apply ff_new_spec. lia.
Qed.

Lemma ff_mul_spec p a b : SmallMod p -> InF p a -> InF p b ->
  ff_mul p a b = Some ((a * b) mod p) /\ InF p ((a * b) mod p).
Proof.
  intros Hp Ha Hb. pose proof (small_bound p Hp). destruct Hp as [Hp1 Hp2].
  change (2 ^ 31) with 2147483648 in Hp2. unfold InF in *. unfold ff_mul, imul.
  rewrite ck32 by nia. cbn [obind]. apply ff_new_spec. lia.
Qed.

Lemma ff_neg_spec p a : SmallMod p -> InF p a ->
  ff_neg p a = Some ((- a) mod p) /\ InF p ((- a) mod p).
Proof.
  intros Hp Ha. pose proof (small_bound p Hp). unfold InF in *. unfold ff_neg, ineg.
  rewrite ck32 by lia. cbn [obind]. apply ff_new_spec. lia.
Qed.

(* the operations commute with reduction modulo p: FF::new is a ring homomorphism Z -> F_p *)
Lemma ff_add_hom p x y : SmallMod p -> ff_add p (x mod p) (y mod p) = ff_new p (x + y).
Proof.
  intros Hp. pose proof (small_bound p Hp).
  destruct (ff_add_spec p (x mod p) (y mod p) Hp) as [E _]; try (apply Z.mod_pos_bound; lia).
  rewrite E. destruct (ff_new_spec p (x + y)) as [E' _]; [lia|]. rewrite E'. f_equal.
  symmetry. apply Z.add_mod. lia.
Qed.

Lemma ff_sub_hom p x y : SmallMod p -> ff_sub p (x mod p) (y mod p) = ff_new p (x - y).
Proof.
  intros Hp. pose proof (small_bound p Hp).
  destruct (ff_sub_spec p (x mod p) (y mod p) Hp) as [E _]; try (apply Z.mod_pos_bound; lia).
  rewrite E. destruct (ff_new_spec p (x - y)) as [E' _]; [lia|]. rewrite E'. f_equal.
  symmetry. apply Zminus_mod.
Qed.

Lemma ff_mul_hom p x y : SmallMod p -> ff_mul p (x mod p) (y mod p) = ff_new p (x * y).
Proof.
  intros Hp. pose proof (small_bound p Hp).
  destruct (ff_mul_spec p (x mod p) (y mod p) Hp) as [E _]; try (apply Z.mod_pos_bound; lia).
  rewrite E. destruct (ff_new_spec p (x * y)) as [E' _]; [lia|]. rewrite E'. f_equal.
  symmetry. apply Z.mul_mod. lia.
Qed.

Lemma ff_neg_hom p x : SmallMod p -> ff_neg p (x mod p) = ff_new p (- x).
Proof.
  intros Hp. pose proof (small_bound p Hp).
  destruct (ff_neg_spec p (x mod p) Hp) as [E _]; try (apply Z.mod_pos_bound; lia).
  rewrite E. destruct (ff_new_spec p (- x)) as [E' _]; [lia|]. rewrite E'. f_equal.
  rewrite <- (Z.sub_0_l (x mod p)), <- (Z.sub_0_l x). rewrite Zminus_mod_idemp_r. reflexivity.
Qed.

(* an overflow of the i32 product is a panic, never a wrapped value *)
Lemma ff_mul_no_wrap p a b r : ff_mul p a b = Some r -> r = (a * b) mod p /\ fitsb i32 (a * b) = true.
Proof.
  unfold ff_mul, imul. intros H. destruct (ck i32 (a * b)) as [s|] eqn:E; cbn [obind] in H; [|discriminate].
  apply ck_inv in E as [-> F]. unfold ff_new in H. destruct (0 <? p); inversion H. auto.
Qed.

Lemma fits32_2p p : 0 < p < 2 ^ 30 -> forall z, - (2 * p) <= z <= 2 * p -> fitsb i32 z = true.
Proof. intros Hp z Hz. apply fitsb_i32. change (2 ^ 30) with 1073741824 in Hp. lia. Qed.

Lemma ff_inv_zero p : ff_inv p 0 = Some None.
Proof. reflexivity. Qed.

(* whatever the i32 computation returns is an inverse, for any modulus (prime or not):
   the loop run in i32 agrees with the loop run over Z, which returns Bezout coefficients *)
Lemma egcd_f_mono w q r : ole (egcd_f w q r) (egcd_f Big q r).
Proof. unfold egcd_f. ole_mono. Qed.

Lemma egcd_loop_mono w fuel : forall r s t, ole (egcd_loop w fuel r s t) (egcd_loop Big fuel r s t).
Proof.
  induction fuel as [|f IH]; intros r s t; cbn [egcd_loop]; [apply ole_none|].
  ole_mono_with ltac:(first [apply egcd_f_mono | apply IH]).
Qed.

Lemma ff_inv_mono p a : ole (ff_inv p a) (ff_inv_w Big p a).
Proof. unfold ff_inv, ff_inv_w, egcd. ole_mono_with ltac:(apply egcd_loop_mono). Qed.

Lemma egcd_f_big q r : egcd_f Big q r = Some (snd r - q * fst r, fst r).
Proof. reflexivity. Qed.

(* Bezout invariant of the loop over Z, for arbitrary arguments and fuel *)
Lemma egcd_loop_bezout a p fuel : forall r s t g x y,
  snd s * a + snd t * p = snd r -> fst s * a + fst t * p = fst r ->
  egcd_loop Big fuel r s t = Some (g, x, y) -> x * a + y * p = g /\ 0 <= g.
Proof.
  induction fuel as [|f IH]; intros [r0 r1] [s0 s1] [t0 t1] g x y I1 I0 H; cbn [egcd_loop fst snd] in *;
    [discriminate|].
  destruct (r0 =? 0) eqn:E0.
  - destruct (0 <=? r1) eqn:E1.
    + inversion H; subst. apply Z.leb_le in E1. auto.
    + cbn in H. inversion H; subst. apply Z.leb_gt in E1. split; lia.
  - apply Z.eqb_neq in E0. rewrite iquot_big in H by auto. cbn [obind] in H.
    rewrite !egcd_f_big in H. cbn [obind fst snd] in H.
    apply IH in H; auto; cbn [fst snd].
    rewrite <- I1, <- I0. ring.
Qed.

Lemma ff_inv_sound p a b : ff_inv p a = Some (Some b) -> InF p b /\ (a * b) mod p = 1 mod p.
Proof.
  intros H. apply ff_inv_mono in H. unfold ff_inv_w in H.
  destruct (ff_is_zero a); [discriminate|].
  destruct (egcd Big a p) as [[[g x] y]|] eqn:E; cbn [obind fst snd] in H; [|discriminate].
  destruct (g =? 1) eqn:Eg; [|discriminate]. apply Z.eqb_eq in Eg. subst g.
  unfold egcd in E. apply (egcd_loop_bezout a p) in E; cbn [fst snd]; try ring.
  destruct E as [Hb _].
  unfold ff_new in H. destruct (0 <? p) eqn:Ep; cbn [obind] in H; [|discriminate].
  apply Z.ltb_lt in Ep. inversion H; subst b. split; [apply Z.mod_pos_bound; lia|].
  rewrite Z.mul_mod_idemp_r by lia. replace (a * x) with (1 + (- y) * p) by lia.
  now rewrite Z_mod_plus_full.
Qed.

(* for a prime p < 2^30 every non-zero residue has the inverse, computed without leaving i32 *)
Lemma ff_inv_spec p a : prime p -> p < 2 ^ 30 -> 0 < a < p ->
  exists b, ff_inv p a = Some (Some b) /\ InF p b /\ (a * b) mod p = 1.
Proof.
  intros Hprime Hp Ha. assert (Hp1 : 1 < p) by (destruct Hprime; lia).
  assert (E : exists b, ff_inv p a = Some (Some b)).
  { unfold ff_inv, ff_inv_w, ff_is_zero.
    assert (E0 : (a =? 0) = false) by (apply Z.eqb_neq; lia). rewrite E0.
    destruct (egcd_spec i32 a p (fits32_2p p ltac:(lia)) ltac:(lia) Ha) as (x & y & ->).
    assert (Hg : Z.gcd a p = 1).
    { apply Zgcd_1_rel_prime. apply rel_prime_sym. apply prime_rel_prime; auto.
      intros D. apply Z.divide_pos_le in D; lia. }
    cbn [obind fst snd]. rewrite Hg. change (1 =? 1) with true. cbv iota.
    destruct (ff_new_spec p x) as [-> _]; [lia|]. cbn [obind]. eauto. }
  destruct E as [b E]. exists b. split; [exact E|].
  destruct (ff_inv_sound p a b E) as [Hb Hm].
  split; [exact Hb|]. rewrite Hm. apply Z.mod_small. lia.
Qed.

Lemma f2_from_spec a : f2_from a = if fitsb i64 a then Some (Z.odd a) else None.
Proof. unfold f2_from, ck. destruct (fitsb i64 a); reflexivity. Qed.

Lemma f2_add_xor a b : f2_add a b = xorb a b.
Proof. destruct a, b; reflexivity. Qed.

(* FF2::from is the ring homomorphism Z -> F_2 *)
Lemma f2_odd_add x y : Z.odd (x + y) = f2_add (Z.odd x) (Z.odd y).
Proof. rewrite Z.odd_add, f2_add_xor. reflexivity. Qed.
Lemma f2_odd_mul x y : Z.odd (x * y) = f2_mul (Z.odd x) (Z.odd y).
Proof. apply Z.odd_mul. Qed.
Lemma f2_odd_neg x : Z.odd (- x) = f2_neg (Z.odd x).
Proof. apply Z.odd_opp. Qed.
Lemma f2_odd_sub x y : Z.odd (x - y) = f2_sub (Z.odd x) (Z.odd y).
Proof. rewrite Z.odd_sub. unfold f2_sub. rewrite f2_add_xor. reflexivity. Qed.

Lemma f2_inv_spec a : match f2_inv a with Some b => f2_mul a b = true | None => a = false end.
Proof. destruct a; reflexivity. Qed.
