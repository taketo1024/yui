(* C11 - safety of the concurrent phase: every step of the transition system is defined (no panic,
   fuel suffices) and preserves the global invariant, for every schedule. *)
From Coq Require Import List Bool Arith Lia Permutation.
Require Import Yui.Model.Pivot Yui.Proofs.C11Base Yui.Proofs.C11Seq Yui.Proofs.C11Worker.
Import ListNotations.

Section Safety.
Variable M : mstr.
Hypothesis Hwf : wf_str M.
Variable nthr : nat.

(* what a thread knows, relative to the shared log P *)
Definition thread_inv_of (P : plog) (th : thread) : Prop :=
  match t_pc th with
  | PIdle => True
  | PSearched j => t_snap th <= length P /\ searched_ok M (firstn (t_snap th) P) (t_w th) j
  | PRetrying => t_snap th <= length P /\ wk_inv M (firstn (t_snap th) P) (t_w th) /\ row_seen M (t_w th)
  end.

(* the row a thread is working on *)
Definition busy_of (th : thread) : option nat :=
  match t_pc th with PIdle => None | _ => Some (w_row (t_w th)) end.

Record GInv (s : gstate) : Prop := mk_GInv {
  gi_piv : PInv M (g_log s);
  gi_todo_nd : NoDup (g_todo s);
  gi_todo_free : forall i, In i (g_todo s) -> ~ prow (g_log s) i;
  gi_busy_free : forall t i, busy_of (g_thr s t) = Some i -> ~ prow (g_log s) i /\ ~ In i (g_todo s);
  gi_busy_inj : forall t t' i, busy_of (g_thr s t) = Some i -> busy_of (g_thr s t') = Some i -> t = t';
  gi_thr : forall t, thread_inv_of (g_log s) (g_thr s t)
}.

Lemma firstn_app_le : forall {A} (l x : list A) k, k <= length l -> firstn k (l ++ x) = firstn k l.
Proof.
  intros A l x k H. rewrite firstn_app. replace (k - length l) with 0 by lia.
  cbn [firstn]. apply app_nil_r.
Qed.

Lemma thread_inv_app : forall P X th, thread_inv_of P th -> thread_inv_of (P ++ X) th.
Proof.
  intros P X th. unfold thread_inv_of. destruct (t_pc th) as [|j|]; [auto| |].
  - intros [H1 H2]. rewrite app_length, firstn_app_le by exact H1. split; [lia | exact H2].
  - intros [H1 H2]. rewrite app_length, firstn_app_le by exact H1. split; [lia | exact H2].
Qed.

Lemma thr_upd_same : forall f t v, thr_upd f t v t = v.
Proof. intros f t v. unfold thr_upd. rewrite Nat.eqb_refl. reflexivity. Qed.

Lemma thr_upd_other : forall f t v t0, t0 <> t -> thr_upd f t v t0 = f t0.
Proof. intros f t v t0 H. unfold thr_upd. apply Nat.eqb_neq in H. rewrite H. reflexivity. Qed.

(* thread t is replaced by th', the log grows by X (pivots in rows that t was working on only), the waiting
   rows shrink to T': the global invariant is kept when th' satisfies its own invariant and the row it is
   busy with, if any, is free and was t's row or a waiting row *)
Lemma GInv_upd : forall s t th' X T', GInv s ->
  PInv M (g_log s ++ X) -> NoDup T' -> (forall i, In i T' -> In i (g_todo s)) ->
  (forall i, prow (g_log s ++ X) i -> prow (g_log s) i \/ busy_of (g_thr s t) = Some i) ->
  (forall i, busy_of th' = Some i ->
     ~ prow (g_log s ++ X) i /\ ~ In i T' /\ (busy_of (g_thr s t) = Some i \/ In i (g_todo s))) ->
  thread_inv_of (g_log s ++ X) th' ->
  GInv (mk_gstate (g_log s ++ X) T' (thr_upd (g_thr s) t th')).
Proof.
  intros s t th' X T' G HP Hnd Hsub Hrows Hnew Hth.
  assert (Hx : forall t0 i, t0 <> t -> busy_of th' = Some i -> busy_of (g_thr s t0) = Some i -> False).
  { intros t0 i E H H0. destruct (Hnew i H) as (_ & _ & [Hb|Hi]).
    - apply E. eapply (gi_busy_inj s G); eassumption.
    - exact (proj2 (gi_busy_free s G t0 i H0) Hi). }
  constructor; cbn [g_log g_todo g_thr].
  - exact HP.
  - exact Hnd.
  - intros i Hi Hp. apply Hsub in Hi. destruct (Hrows i Hp) as [Hp'|Hb].
    + exact (gi_todo_free s G i Hi Hp').
    + exact (proj2 (gi_busy_free s G t i Hb) Hi).
  - intros t0 i. destruct (Nat.eq_dec t0 t) as [->|E].
    + rewrite thr_upd_same. intros H. destruct (Hnew i H) as (A & B & _). now split.
    + rewrite thr_upd_other by exact E. intros H. destruct (gi_busy_free s G t0 i H) as [H1 H2]. split.
      * intros Hp. destruct (Hrows i Hp) as [Hp'|Hb]; [now apply H1|]. apply E. eapply (gi_busy_inj s G); eassumption.
      * intros Hi. apply H2, Hsub, Hi.
  - intros t0 t0' i. destruct (Nat.eq_dec t0 t) as [->|E]; destruct (Nat.eq_dec t0' t) as [->|E'];
      rewrite ?thr_upd_same, ?thr_upd_other by assumption; intros H H'.
    + reflexivity.
    + destruct (Hx t0' i E' H H').
    + destruct (Hx t0 i E H' H).
    + eapply (gi_busy_inj s G); eassumption.
  - intros t0. destruct (Nat.eq_dec t0 t) as [->|E]; [now rewrite thr_upd_same|].
    rewrite thr_upd_other by exact E. apply thread_inv_app, (gi_thr s G).
Qed.

Lemma GInv_upd_thr : forall s t th' T', GInv s -> NoDup T' -> (forall i, In i T' -> In i (g_todo s)) ->
  (forall i, busy_of th' = Some i ->
     ~ prow (g_log s) i /\ ~ In i T' /\ (busy_of (g_thr s t) = Some i \/ In i (g_todo s))) ->
  thread_inv_of (g_log s) th' ->
  GInv (mk_gstate (g_log s) T' (thr_upd (g_thr s) t th')).
Proof.
  intros s t th' T' G Hnd Hsub Hnew Hth. pose proof (GInv_upd s t th' [] T' G) as H. rewrite app_nil_r in H.
  apply H; auto. apply (gi_piv s G).
Qed.

Lemma step_start : forall s t row, GInv s ->
  is_idle (g_thr s t) = true -> In row (g_todo s) ->
  exists w1 c, wk_init M (g_log s) row <> None /\
    (forall w0, wk_init M (g_log s) row = Some w0 -> wk_search M (g_log s) w0 = Some (w1, c)) /\
    GInv (mk_gstate (g_log s) (remove_row row (g_todo s))
            (thr_upd (g_thr s) t (mk_thread (length (g_log s)) w1 (pc_of_choice c)))).
Proof.
  intros s t row G Hidle Hrow. set (P := g_log s).
  destruct (init_spec M P row (wf_row_NoDup M row Hwf)) as [w0 [E0 [Hinv0 [Hrow0 Hrs0]]]].
  destruct (search_spec M P w0 Hinv0 Hrs0) as [w1 [c [E1 [Hrow1 Hc]]]].
  exists w1, c. split; [fold P; rewrite E0; discriminate|]. split.
  { intros w0' E0'. fold P in E0'. rewrite E0 in E0'. inversion E0'; subst. exact E1. }
  destruct (remove_row_NoDup row (g_todo s) (gi_todo_nd s G)) as [Hnd' Hnot'].
  apply GInv_upd_thr; [exact G|exact Hnd'|intros i; apply remove_row_In| |].
  - intros i. unfold busy_of. cbn [t_pc t_w]. destruct c as [j|]; cbn [pc_of_choice]; [|discriminate].
    intros H. inversion H. rewrite Hrow1, Hrow0.
    split; [apply (gi_todo_free s G); exact Hrow|]. split; [exact Hnot'|right; exact Hrow].
  - unfold thread_inv_of. cbn [t_pc t_snap t_w].
    destruct c as [j|]; cbn [pc_of_choice]; [|exact I]. fold P. rewrite firstn_all. split; [lia | exact Hc].
Qed.

Lemma step_research : forall s t, GInv s -> t_pc (g_thr s t) = PRetrying ->
  exists w1 c, wk_search M (firstn (t_snap (g_thr s t)) (g_log s)) (t_w (g_thr s t)) = Some (w1, c) /\
    GInv (mk_gstate (g_log s) (g_todo s)
            (thr_upd (g_thr s) t (mk_thread (t_snap (g_thr s t)) w1 (pc_of_choice c)))).
Proof.
  intros s t G Hpc. pose proof (gi_thr s G t) as Ht. unfold thread_inv_of in Ht. rewrite Hpc in Ht.
  destruct Ht as [Hk [Hinv Hrs]].
  destruct (search_spec M _ _ Hinv Hrs) as [w1 [c [E1 [Hrow1 Hc]]]].
  exists w1, c. split; [exact E1|].
  assert (Hb : busy_of (g_thr s t) = Some (w_row (t_w (g_thr s t)))) by (unfold busy_of; rewrite Hpc; reflexivity).
  apply GInv_upd_thr; [exact G|apply (gi_todo_nd s G)|auto| |].
  - intros i. unfold busy_of at 1. cbn [t_pc t_w]. destruct c as [j|]; cbn [pc_of_choice]; [|discriminate].
    intros H. inversion H. rewrite Hrow1. destruct (gi_busy_free s G t _ Hb). auto.
  - unfold thread_inv_of. cbn [t_pc t_snap t_w].
    destruct c as [j|]; cbn [pc_of_choice]; [|exact I]. split; [exact Hk | exact Hc].
Qed.

Lemma should_retry_false : forall w, wk_should_retry w = false <-> w_queue w = [].
Proof. intros w. unfold wk_should_retry. destruct (w_queue w); split; intros H; try reflexivity; discriminate. Qed.

Lemma step_enter : forall s t j, GInv s -> t_pc (g_thr s t) = PSearched j ->
  let th := g_thr s t in
  let P := g_log s in
  let w1 := wk_update_diff (skipn (t_snap th) P) (t_w th) in
  if wk_should_retry w1 then
    GInv (mk_gstate P (g_todo s) (thr_upd (g_thr s) t (mk_thread (length P) w1 PRetrying)))
  else
    exists P', pset P (w_row w1) j = Some P' /\
      GInv (mk_gstate P' (g_todo s) (thr_upd (g_thr s) t (mk_thread (t_snap th) w1 PIdle))).
Proof.
  intros s t j G Hpc th P w1. pose proof (gi_thr s G t) as Ht. unfold thread_inv_of in Ht. fold th in Ht.
  unfold th in Hpc. fold th in Hpc. rewrite Hpc in Ht. fold P in Ht. destruct Ht as [Hk Hso].
  set (L := firstn (t_snap th) P) in *. set (D := skipn (t_snap th) P) in *.
  assert (HLD : L ++ D = P) by apply firstn_skipn.
  destruct Hso as [Hinv [Hrs [Hq Hj]]].
  destruct (update_diff_spec M D L (t_w th) Hinv) as [U1 [U2 [U3 U4]]]. cbv zeta in *. fold w1 in U1, U2, U3, U4.
  rewrite HLD in U1.
  assert (Hb : busy_of (g_thr s t) = Some (w_row (t_w th))) by (unfold busy_of; fold th; rewrite Hpc; reflexivity).
  assert (Hrow1 : w_row w1 = w_row (t_w th)) by apply (le_row _ _ U2).
  destruct (gi_busy_free s G t _ Hb) as [Hfree Hnt].
  destruct (wk_should_retry w1) eqn:Er.
  - (* retry: re-sync *)
    apply GInv_upd_thr; [exact G|apply (gi_todo_nd s G)|auto| |].
    + intros i. unfold busy_of at 1. cbn [t_pc t_w]. intros H. inversion H. rewrite Hrow1. auto.
    + unfold thread_inv_of. cbn [t_pc t_snap t_w]. fold P. rewrite firstn_all.
      split; [lia|]. split; [exact U1|]. intros c Hc. apply (le_seen _ _ U2). apply Hrs. rewrite <- Hrow1. exact Hc.
  - (* commit *)
    apply should_retry_false in Er.
    assert (Ew : w1 = t_w th) by (apply U4; rewrite Er, Hq; reflexivity).
    rewrite Ew in *. clear Ew.
    destruct (gi_piv s G) as [Hpw Hac]. fold P in Hpw, Hac.
    assert (Hso : searched_ok M P (t_w th) j) by (unfold searched_ok; splits; assumption).
    destruct (commit_ok M P (t_w th) j (proj1 (proj2 Hpw)) Hac Hso) as [C1 [C2 [C3 C4]]].
    set (i := w_row (t_w th)) in *.
    exists (P ++ [(i, j)]). split; [apply pset_Some; exact C1|].
    apply (GInv_upd s t _ [(i, j)]); [exact G| |apply (gi_todo_nd s G)|auto| | |exact I].
    + split; [apply pivots_wf_add; assumption | exact C4].
    + intros i' Hp. apply prow_snoc in Hp. destruct Hp as [Hp| ->]; [left; exact Hp|right; exact Hb].
    + intros i'. unfold busy_of. cbn [t_pc]. discriminate.
Qed.

Lemma step_ok : forall s e, GInv s -> exists s', step M nthr s e = Some s' /\ GInv s'.
Proof.
  intros s e G. unfold step. destruct (enabled nthr s e) eqn:Een; cbn [negb]; [|exists s; split; [reflexivity | exact G]].
  destruct e as [t row | t | t]; cbn [enabled] in Een.
  - apply andb_true_iff in Een. destruct Een as [Een Hrow]. apply andb_true_iff in Een. destruct Een as [_ Hidle].
    apply memb_In in Hrow.
    destruct (step_start s t row G Hidle Hrow) as [w1 [c [Hi [Hs HG]]]].
    destruct (wk_init M (g_log s) row) as [w0|] eqn:E0; [|exfalso; apply Hi; reflexivity].
    rewrite (Hs w0 eq_refl). eexists. split; [reflexivity | exact HG].
  - apply andb_true_iff in Een. destruct Een as [_ Hpc].
    destruct (t_pc (g_thr s t)) as [|j|] eqn:Epc; try discriminate.
    pose proof (step_enter s t j G Epc) as H. cbv zeta in H.
    destruct (wk_should_retry (wk_update_diff (skipn (t_snap (g_thr s t)) (g_log s)) (t_w (g_thr s t)))).
    + eexists. split; [reflexivity | exact H].
    + destruct H as [P' [E HG]]. rewrite E. eexists. split; [reflexivity | exact HG].
  - apply andb_true_iff in Een. destruct Een as [_ Hpc].
    destruct (t_pc (g_thr s t)) as [|j|] eqn:Epc; try discriminate.
    destruct (step_research s t G Epc) as [w1 [c [E HG]]]. rewrite E. eexists. split; [reflexivity | exact HG].
Qed.

Lemma run_ok : forall sched s, GInv s -> exists s', run M nthr sched s = Some s' /\ GInv s'.
Proof.
  intros sched s G. unfold run. apply fold_opt_inv; [exact G|]. intros a b _ Ha. apply step_ok. exact Ha.
Qed.

Lemma init_state_inv : forall P, PInv M P -> GInv (init_state M P).
Proof.
  intros P HP. constructor; cbn [init_state g_log g_todo g_thr].
  - exact HP.
  - apply remain_rows_NoDup.
  - intros i Hi. apply (remain_rows_In M P i Hi).
  - intros t i H. unfold busy_of, idle_thread in H. cbn [t_pc] in H. discriminate.
  - intros t t' i H. unfold busy_of, idle_thread in H. cbn [t_pc] in H. discriminate.
  - intros t. unfold thread_inv_of, idle_thread. cbn [t_pc]. exact I.
Qed.

(* the whole search, for every schedule of the parallel phase *)
Theorem find_pivots_safe : forall sched,
  exists s, find_pivots_sched M nthr sched = Some s /\ GInv s.
Proof.
  intros sched. unfold find_pivots_sched.
  destruct (find_fl_pivots_ok M Hwf) as [P1 [E1 HP1]]. rewrite E1.
  destruct (find_fl_col_pivots_ok M P1 HP1) as [P2 [E2 [HP2 _]]]. rewrite E2.
  apply run_ok. apply init_state_inv. exact HP2.
Qed.

End Safety.

(* the invariant spelled out for the shared pivot table *)
Lemma GInv_explicit : forall M nthr sched, wf_str M ->
  exists s, find_pivots_sched M nthr sched = Some s /\
    NoDup (map fst (g_log s)) /\ NoDup (map snd (g_log s)) /\
    (forall i j, In (i, j) (g_log s) ->
       i < m_rows M /\ j < m_cols M /\ In j (cols_in M i) /\ is_cand M i j = true) /\
    (exists rk : nat -> nat, forall j j', edge M (g_log s) j j' -> rk j < rk j') /\
    (forall j, ~ Relation_Operators.clos_trans nat (edge M (g_log s)) j j).
Proof.
  intros M nthr sched Hwf. destruct (find_pivots_safe M Hwf nthr sched) as [s [E G]].
  exists s. split; [exact E|]. destruct (gi_piv M s G) as [[H1 [H2 H3]] H4]. splits; auto.
  - intros i j Hin. destruct (H3 i j Hin) as [A B]. splits; auto.
    + eapply wf_row_lt; eassumption.
    + destruct Hwf as [_ [Hc _]]. eapply Hc. exact A.
  - apply acyclic_no_cycle. exact H4.
Qed.
