(* Tangle layer, part 11: relation with the C18 model of yui-link (Model/Link.v, Proofs/C18Components.v):
   the strand-through-crossing relation of C18 is the adjacency of the segment graph, so for a valid, completely
   resolved diagram the components of the glued tangle are the circles `Link::components` finds. *)
From Coq Require Import List Arith Bool Lia Permutation Sorted Relations.
Import ListNotations.
Require Import Yui.Model.Link Yui.Model.Tng Yui.Proofs.TngPBase Yui.Proofs.TngPSegs Yui.Proofs.TngPDeg
  Yui.Proofs.TngPJoin Yui.Proofs.TngPStep Yui.Proofs.TngPSeq Yui.Proofs.TngPConn Yui.Proofs.TngPMain.
Require Yui.Proofs.C18Base Yui.Proofs.C18Components.

Module B := Yui.Proofs.C18Base.
Module K := Yui.Proofs.C18Components.

Local Opaque nseg.
Lemma crossing_segs_pass : forall x j, j < 4 -> In (nseg (edge x j) (edge x (pass (ct x) j))) (crossing_segs x).
Proof.
  intros x j Hj. unfold crossing_segs.
  destruct (ct x); do 4 (destruct j as [|j];
    [cbn; first [now auto | now (left; apply nseg_sym) | now (right; left; apply nseg_sym)]|]); lia.
Qed.

Lemma crossing_segs_thru : forall x e e', In (nseg e e') (crossing_segs x) ->
  exists j, j < 4 /\ edge x j = e /\ edge x (pass (ct x) j) = e'.
Proof.
  intros x e e'. unfold crossing_segs.
  destruct (ct x); cbn [In]; intros [E|[E|[]]]; destruct (nseg_inj _ _ _ _ E) as [[<- <-]|[<- <-]].
  all: first [ exists 0; cbn; repeat split; (lia || reflexivity)
             | exists 1; cbn; repeat split; (lia || reflexivity)
             | exists 2; cbn; repeat split; (lia || reflexivity)
             | exists 3; cbn; repeat split; (lia || reflexivity) ].
Qed.

Local Transparent nseg.

Lemma thru_adj : forall l e e', K.thru l e e' <-> adj (flat_map crossing_segs l) e e'.
Proof.
  intros l e e'. unfold K.thru, adj, B.InR, edge_at, exit_of, cross_at. split.
  - intros ([i j] & [Hi Hj] & E1 & E2). cbn [fst snd] in *. subst e e'.
    apply in_flat_map. exists (nth i l dummy_c). split; [apply nth_In; auto|]. apply crossing_segs_pass; auto.
  - intros Hin. apply in_flat_map in Hin. destruct Hin as (x & Hx & Hs).
    destruct (In_nth _ _ dummy_c Hx) as (i & Hi & Ei).
    destruct (crossing_segs_thru _ _ _ Hs) as (j & Hj & E1 & E2).
    exists (i, j). cbn [fst snd]. rewrite Ei. auto.
Qed.

Lemma conn_conn : forall l e e', K.conn l e e' <-> conn (flat_map crossing_segs l) e e'.
Proof.
  intros l e e'. unfold K.conn, conn. split; apply rt_mono; intros a b; apply thru_adj.
Qed.

Theorem tng_circles_are_link_components : forall l, B.Valid l -> Forall (fun x => is_resolved x = true) l ->
  exists cs t, components l = Some cs /\ tng_of_crossings l = Some t /\ tng_ok t /\ tng_is_closed t = true /\
    length cs = length t /\
    (forall c, In c cs -> exists c', In c' t /\ forall e, In e (pedges c) <-> In e (pedges c')) /\
    (forall c', In c' t -> exists c, In c cs /\ forall e, In e (pedges c) <-> In e (pedges c')).
Proof.
  intros l Hv Hr.
  destruct (K.components_valid l Hv) as (cs & Ecs & Fcs & _ & Covcs & Clcs). rewrite Forall_forall in Fcs.
  assert (Hl : forall v, In v (edge_labels l) -> count_occ Nat.eq_dec (edge_labels l) v = 2).
  { intros v Hi. rewrite <- B.count_label_occ. apply Hv; auto. }
  destruct (crossings_components l Hr (twice_le2 l Hl)) as (t & Et & Ot & Hvt & Hct). pose proof (proj1 Ot) as It.
  exists cs, t. split; [exact Ecs|]. split; [exact Et|]. split; [exact Ot|].
  split; [exact (closed_diagram_circles l t Hr Hl Et)|].
  (* the class of a label in C18's sense is the label set of its component in t *)
  assert (Hcls : forall c' e e', In c' t -> In e (pedges c') -> (K.conn l e e' <-> In e' (pedges c'))).
  { intros c' e e' Hc' He. rewrite conn_conn, (Hct e e') by (apply Hvt, in_verts; eauto). split.
    - intros (d & Hd & H0 & H1). rewrite (inv_same_comp t c' d e It Hc' Hd He H0). exact H1.
    - intros He'. exists c'. auto. }
  (* a component of cs and one of t that share a label have the same labels *)
  assert (Hset : forall c c' e0, In c cs -> In c' t -> In e0 (pedges c) -> In e0 (pedges c') ->
            forall e, In e (pedges c) <-> In e (pedges c')).
  { intros c c' e0 Hc Hc' H0 H0' e. rewrite (Clcs c Hc e0 H0 e). apply Hcls; auto. }
  assert (Hcov : forall e, In e (edge_labels l) <-> exists c, In c cs /\ In e (pedges c)).
  { intros e. rewrite <- Covcs, in_concat. split.
    - intros (es & Hes & He). apply in_map_iff in Hes. destruct Hes as (c & <- & Hc). eauto.
    - intros (c & Hc & He). exists (pedges c). split; [apply in_map|]; auto. }
  set (hdf := fun c' : path => hd 0 (pedges c')).
  assert (Hhd : forall c', In c' t -> In (hdf c') (pedges c')) by (intros c' Hc'; apply hd_in, (inv_ne t It c' Hc')).
  split; [|split].
  - (* the numbers agree: the first labels of the components of t are representatives of the classes *)
    rewrite (K.components_count l Hv cs Ecs (map hdf t)); [apply map_length|]. split; [|split; [|split]].
    + clear - It Hhd. induction t as [|c r IH]; [constructor|].
      apply inv_cons in It. destruct It as (Sc & Ir & Hd). cbn [map]. constructor; [|apply IH; [exact Ir|intros; apply Hhd; right; auto]].
      intros Hi. apply in_map_iff in Hi. destruct Hi as (d & Ed & Hdr).
      apply (Hd (hdf c)); [apply Hhd; left; auto|]. apply in_verts. exists d. split; auto. rewrite <- Ed. apply Hhd. right. auto.
    + intros r Hr'. apply in_map_iff in Hr'. destruct Hr' as (c' & <- & Hc'). apply Hvt, in_verts. eauto.
    + intros a b Ha Hb Hc. apply in_map_iff in Ha. destruct Ha as (c1 & <- & H1).
      apply in_map_iff in Hb. destruct Hb as (c2 & <- & H2). apply (Hcls c1 _ _ H1 (Hhd c1 H1)) in Hc.
      rewrite (inv_same_comp t c1 c2 (hdf c2) It H1 H2 Hc (Hhd c2 H2)). reflexivity.
    + intros e He. apply Hvt, in_verts in He. destruct He as (c' & Hc' & Hec).
      exists (hdf c'). split; [apply in_map; auto|]. apply (Hcls c'); auto.
  - intros c Hc. destruct (Fcs c Hc) as (_ & Hne & _). pose proof (hd_in _ Hne) as H0.
    assert (H0' : In (hd 0 (pedges c)) (verts t)) by (apply Hvt, Hcov; eauto).
    apply in_verts in H0'. destruct H0' as (c' & Hc' & H0'). exists c'. split; [exact Hc'|]. eapply Hset; eauto.
  - intros c' Hc'. assert (H0 : In (hdf c') (edge_labels l)) by (apply Hvt, in_verts; eauto).
    apply Hcov in H0. destruct H0 as (c & Hc & H0). exists c. split; [exact Hc|]. eapply Hset; eauto.
Qed.
