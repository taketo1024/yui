(* Cobordism bookkeeping, part 2: the end points of a glued tangle are the labels of degree 1 of its segment graph;
   the end points of Tng::connect are the symmetric difference; hence CobComp::deg is additive under
   CobComp::connect and Cob::deg under Cob::connect / connect_comp / connected. *)
From Coq Require Import List Arith Bool Lia ZArith Permutation Sorted.
Import ListNotations.
Require Import Yui.Model.Link Yui.Model.Tng Yui.Model.TngCob.
Require Import Yui.Base.ListFacts.
Require Import Yui.Proofs.TngPBase Yui.Proofs.TngPSegs Yui.Proofs.TngPDeg Yui.Proofs.TngPJoin Yui.Proofs.TngPStep
  Yui.Proofs.TngPSeq Yui.Proofs.TngPConn Yui.Proofs.TngPMain Yui.Proofs.TngPCob.

Lemma endpts_cons : forall c t, tng_endpts (c :: t) =
  (match p_ends c with Some (a, b) => [a; b] | None => [] end) ++ tng_endpts t.
Proof. reflexivity. Qed.

Lemma endpts_iff : forall t v, In v (tng_endpts t) <-> exists c, In c t /\ pclosed c = false /\ is_end c v.
Proof.
  intros t v. unfold tng_endpts, p_ends, is_end. rewrite in_flat_map.
  split; intros (c & Hc & H); exists c; (split; [exact Hc|]).
  - destruct (pclosed c); [contradiction|]. split; [reflexivity|]. destruct H as [<-|[<-|[]]]; auto.
  - destruct H as [-> H]. destruct H as [->| ->]; cbn; auto.
Qed.

Lemma endpts_nodup : forall t, tng_inv t -> NoDup (tng_endpts t).
Proof.
  induction t as [|c t IH]; intros Hinv; [constructor|]. apply inv_cons in Hinv. destruct Hinv as (Sc & Ir & Hd).
  rewrite endpts_cons. apply NoDup_app_intro; [|apply IH; auto|].
  - unfold p_ends. destruct (pclosed c) eqn:Ec; [constructor|]. destruct Sc as [Nc Lc]. rewrite Ec in Lc.
    constructor; [|constructor; [intros []|constructor]]. intros [E|[]].
    apply (NoDup_last_notin (pedges c) 0 Nc (len2_ne _ Lc)). rewrite E, <- (hd_removelast _ 0 Lc).
    apply hd_in. apply removelast_ne; auto.
  - intros v H1 H2. apply endpts_iff in H2. destruct H2 as (d & Hd' & _ & He).
    apply (Hd v).
    + unfold p_ends in H1. destruct (pclosed c); [contradiction|].
      destruct H1 as [<-|[<-|[]]]; [apply hd_in|apply last_In]; apply simple_ne; auto.
    + apply in_verts. exists d. split; auto. apply is_end_in; auto. apply (inv_simple t d Ir Hd').
Qed.

Lemma endpts_deg1 : forall t v, tng_inv t -> (In v (tng_endpts t) <-> deg (tsegs t) v = 1).
Proof.
  intros t v Hinv. split.
  - intros Hv. apply endpts_iff in Hv. destruct Hv as (c & Hc & Hcc & He). apply (deg_arc_end t c); auto.
  - intros Hd. assert (Hv : In v (verts t)).
    { apply verts_ends; [apply Hinv|]. apply (count_occ_In Nat.eq_dec). unfold deg in Hd. lia. }
    apply in_verts in Hv. destruct Hv as (c & Hc & Hvc).
    pose proof (deg_tsegs_ge t c v Hc) as Hge.
    destruct (pclosed c) eqn:Ec.
    + pose proof (deg_closed_ge2 c v (inv_simple t c Hinv Hc) Ec Hvc). lia.
    + apply endpts_iff. exists c. split; [exact Hc|]. split; [exact Ec|].
      destruct (end_or_interior _ _ Hvc) as [E|[E|[H1 H2]]]; [left; exact E|right; exact E|].
      pose proof (deg_arc_interior_ge2 c v Ec H1 H2). lia.
Qed.

Lemma endpts_length : forall t, length (tng_endpts t) = 2 * tng_euler_num t.
Proof.
  induction t as [|c t IH]; [reflexivity|]. rewrite endpts_cons, app_length, IH.
  assert (Ee : tng_euler_num (c :: t) = (if pclosed c then 0 else 1) + tng_euler_num t).
  { unfold tng_euler_num. cbn [filter]. unfold p_is_arc at 1. destruct (pclosed c); reflexivity. }
  rewrite Ee. unfold p_ends. destruct (pclosed c); cbn [length]; lia.
Qed.

Lemma endpts_set_inv : forall t, tng_inv t -> endpts_set t = tng_endpts t.
Proof. intros t Hinv. unfold endpts_set. apply nodup_fixed_point. apply endpts_nodup; auto. Qed.

Lemma nodup_same_length : forall l l' : list nat, NoDup l -> NoDup l' -> (forall v, In v l <-> In v l') ->
  length l = length l'.
Proof. intros l l' N N' H. apply Permutation_length. apply NoDup_Permutation; auto. Qed.

Lemma mem_false_iff : forall e l, mem e l = false <-> ~ In e l.
Proof. intros e l. rewrite <- mem_iff. destruct (mem e l); split; congruence. Qed.

Lemma glued_endpts_length : forall t1 t2 t', tng_inv t1 -> tng_inv t2 -> tng_inv t' ->
  Permutation (tsegs t') (tsegs t1 ++ tsegs t2) -> deg_le2 (tsegs t1 ++ tsegs t2) ->
  length (tng_endpts t') + 2 * length (filter (fun v => mem v (tng_endpts t2)) (tng_endpts t1))
  = length (tng_endpts t1) + length (tng_endpts t2).
Proof.
  intros t1 t2 t' I1 I2 I' Hp Hd.
  set (E1 := tng_endpts t1). set (E2 := tng_endpts t2).
  pose proof (endpts_nodup t1 I1) as N1. pose proof (endpts_nodup t2 I2) as N2. fold E1 in N1. fold E2 in N2.
  set (A1 := filter (fun v => negb (mem v E2)) E1). set (A2 := filter (fun v => negb (mem v E1)) E2).
  set (B1 := filter (fun v => mem v E2) E1). set (B2 := filter (fun v => mem v E1) E2).
  assert (HE1 : forall v, In v E1 <-> deg (tsegs t1) v = 1) by (intros v; apply endpts_deg1; auto).
  assert (HE2 : forall v, In v E2 <-> deg (tsegs t2) v = 1) by (intros v; apply endpts_deg1; auto).
  assert (Hlen : length (tng_endpts t') = length (A1 ++ A2)).
  { apply nodup_same_length.
    - apply endpts_nodup; auto.
    - apply NoDup_app_intro; [apply NoDup_filter; auto|apply NoDup_filter; auto|].
      intros v H1 H2. unfold A1, A2 in *. apply filter_In in H1, H2. destruct H1 as [H1 _], H2 as [_ H2].
      apply negb_true_iff, mem_false_iff in H2. contradiction.
    - intros v. rewrite (endpts_deg1 t' v I'), (deg_perm _ _ v Hp), deg_app.
      pose proof (Hd v) as Hb. rewrite deg_app in Hb.
      rewrite in_app_iff. unfold A1, A2. rewrite !filter_In, !negb_true_iff, !mem_false_iff, !HE1, !HE2. lia. }
  assert (Hb : length B1 = length B2).
  { apply nodup_same_length; [apply NoDup_filter; auto|apply NoDup_filter; auto|].
    intros v. unfold B1, B2. rewrite !filter_In, !mem_iff. tauto. }
  assert (S1 : length E1 = length B1 + length A1) by (apply (filter_split_length (fun v => mem v E2) E1)).
  assert (S2 : length E2 = length B2 + length A2) by (apply (filter_split_length (fun v => mem v E1) E2)).
  rewrite app_length in Hlen. lia.
Qed.

Lemma half_double : forall k, (2 * k) / 2 = k.
Proof. intros k. rewrite Nat.mul_comm. apply Nat.div_mul. lia. Qed.

Theorem cc_connect_deg : forall c o r, cc_connect c o = Some r ->
  tng_inv (csrc c) -> tng_inv (csrc o) -> deg_le2 (tsegs (csrc c) ++ tsegs (csrc o)) ->
  exists d1 d2, cc_deg c = Some d1 /\ cc_deg o = Some d2 /\ cc_deg r = Some (d1 + d2)%Z /\
    tng_ok (csrc r) /\ Permutation (tsegs (csrc r)) (tsegs (csrc c) ++ tsegs (csrc o)).
Proof.
  intros c o r E I1 I2 Hd.
  destruct (cc_connect_euler c o r E) as (x1 & x2 & E1 & E2 & Er & Ha & Es & Et & Edx & Edy).
  destruct (tng_connect_ok (csrc c) (csrc o) I1 (proj1 I2) Hd) as (t' & Et' & Ot' & Pt').
  rewrite Es in Et'. inversion Et'; subst t'; clear Et'.
  pose proof (glued_endpts_length (csrc c) (csrc o) (csrc r) I1 I2 (proj1 Ot') Pt' Hd) as Hlen.
  unfold cc_deg. rewrite E1, E2, Er.
  rewrite (endpts_set_inv _ I1), (endpts_set_inv _ I2), (endpts_set_inv _ (proj1 Ot')).
  unfold shared_endpts in *. rewrite (endpts_set_inv _ I1), (endpts_set_inv _ I2) in *.
  set (a := length (filter (fun v => mem v (tng_endpts (csrc o))) (tng_endpts (csrc c)))) in *.
  rewrite (endpts_length (csrc c)), (endpts_length (csrc o)) in *.
  set (k1 := tng_euler_num (csrc c)) in *. set (k2 := tng_euler_num (csrc o)) in *.
  assert (Hm : length (tng_endpts (csrc r)) = 2 * (k1 + k2 - a)) by lia.
  rewrite Hm, !half_double. unfold cc_ndots. rewrite Edx, Edy.
  eexists. eexists. split; [reflexivity|]. split; [reflexivity|]. split; [|split; auto].
  f_equal. lia.
Qed.

Definition ssegs (s : list cobcomp) : list (nat * nat) := flat_map (fun c => tsegs (csrc c)) s.
Definition cob_wf (s : list cobcomp) : Prop := Forall (fun c => tng_inv (csrc c)) s /\ deg_le2 (ssegs s).

Lemma cob_wf_perm : forall a b, Permutation a b -> cob_wf a -> cob_wf b.
Proof.
  intros a b Hp [Hf Hd]. split.
  - exact (Permutation_Forall Hp Hf).
  - eapply deg_le2_perm; [|exact Hd]. unfold ssegs. apply Permutation_flat_map. exact Hp.
Qed.

Lemma sum_opt_perm : forall a b, Permutation a b -> sum_opt a = sum_opt b.
Proof.
  intros a b Hp. induction Hp; cbn [sum_opt].
  - reflexivity.
  - destruct x; [rewrite IHHp|]; reflexivity.
  - destruct x as [x|], y as [y|]; try reflexivity; destruct (sum_opt l); try reflexivity. f_equal. lia.
  - congruence.
Qed.

Lemma sum_opt_app : forall a b, sum_opt (a ++ b) =
  match sum_opt a, sum_opt b with Some x, Some y => Some (x + y)%Z | _, _ => None end.
Proof.
  induction a as [|[x|] a IH]; intros b; cbn [app sum_opt].
  - destruct (sum_opt b); reflexivity.
  - rewrite IH. destruct (sum_opt a), (sum_opt b); try reflexivity. f_equal. lia.
  - reflexivity.
Qed.

Definition degs (s : list cobcomp) : option Z := sum_opt (map cc_deg s).

Lemma degs_perm : forall a b, Permutation a b -> degs a = degs b.
Proof. intros a b Hp. unfold degs. apply sum_opt_perm. apply Permutation_map. exact Hp. Qed.

Lemma cc_isort_perm : forall l, Permutation (cc_isort l) l.
Proof.
  induction l as [|x l IH]; [constructor|]. cbn [cc_isort fold_right].
  assert (Hi : forall y m, Permutation (cc_ins y m) (y :: m)).
  { intros y m. induction m as [|z m IHm]; cbn [cc_ins]; [apply Permutation_refl|].
    destruct (cc_le y z); [apply Permutation_refl|].
    eapply perm_trans; [apply perm_skip; exact IHm|apply perm_swap]. }
  eapply perm_trans; [apply Hi|]. constructor. exact IH.
Qed.
Lemma cob_sort_perm : forall cs t, cob_sort cs = Some t -> Permutation t cs.
Proof.
  intros cs t. unfold cob_sort. destruct (_ && _); [discriminate|]. intros E. inversion E. apply cc_isort_perm.
Qed.

(* [b] is again well formed and has the degree of [a]: what every step of Cob::connect does, whatever the order of
   the components *)
Definition keeps (a b : list cobcomp) : Prop := cob_wf a -> cob_wf b /\ degs b = degs a.

Lemma keeps_perm : forall a b, Permutation a b -> keeps a b.
Proof. intros a b Hp W. split; [exact (cob_wf_perm a b Hp W)|exact (degs_perm b a (Permutation_sym Hp))]. Qed.
Lemma keeps_trans : forall a b c, keeps a b -> keeps b c -> keeps a c.
Proof. intros a b c H1 H2 W. destruct (H1 W) as [W1 E1]. destruct (H2 W1) as [W2 E2]. split; [exact W2|congruence]. Qed.

Lemma keeps_connect : forall c c2 c' rest, cc_connect c c2 = Some c' -> keeps (c :: c2 :: rest) (c' :: rest).
Proof.
  intros c c2 c' rest Ec [Hf Hd]. inversion Hf as [|? ? I1 Hf1]; subst. inversion Hf1 as [|? ? I2 Hf2]; subst.
  unfold ssegs in Hd. cbn [flat_map] in Hd. rewrite app_assoc in Hd.
  destruct (cc_connect_deg c c2 c' Ec I1 I2 (deg_le2_app_l _ _ Hd)) as (d1 & d2 & D1 & D2 & D' & O' & P').
  split; [split|].
  - constructor; [apply O'|exact Hf2].
  - eapply deg_le2_perm; [|exact Hd]. unfold ssegs. cbn [flat_map]. apply Permutation_app_tail, Permutation_sym, P'.
  - unfold degs. cbn [map sum_opt]. rewrite D1, D2, D'. destruct (sum_opt _); [f_equal; lia|reflexivity].
Qed.

(* Cob::_connect_comp with a frame of untouched components *)
Lemma connect_comp_loop_deg : forall rest c kept fr res, connect_comp_loop c rest kept = Some res ->
  keeps (c :: rest ++ kept ++ fr) (res ++ fr).
Proof.
  induction rest as [|c2 r IH]; intros c kept fr res; cbn [connect_comp_loop app].
  - intros E. inversion E. apply keeps_perm. rewrite <- app_assoc. apply Permutation_middle.
  - destruct (cc_is_connectable c c2).
    + destruct (cc_connect c c2) as [c'|] eqn:Ec; [|discriminate]. intros E.
      exact (keeps_trans _ _ _ (keeps_connect c c2 c' _ Ec) (IH c' kept fr res E)).
    + intros E. refine (keeps_trans _ _ _ (keeps_perm _ _ _) (IH c (kept ++ [c2]) fr res E)).
      constructor. rewrite <- (app_assoc kept). cbn [app]. rewrite !app_assoc. apply Permutation_middle.
Qed.

Lemma cob_connect_loop_deg : forall other s res, cob_connect_loop s other = Some res -> keeps (s ++ other) res.
Proof.
  induction other as [|c r IH]; intros s res; cbn [cob_connect_loop].
  - intros E. inversion E. rewrite app_nil_r. apply keeps_perm, Permutation_refl.
  - unfold cob_connect_comp_raw. destruct (connect_comp_loop c s []) as [s'|] eqn:Ec; [|discriminate]. intros E.
    pose proof (connect_comp_loop_deg s c [] r s' Ec) as K. cbn [app] in K.
    exact (keeps_trans _ _ _ (keeps_perm _ _ (Permutation_sym (Permutation_middle _ _ _)))
             (keeps_trans _ _ _ K (IH s' res E))).
Qed.

(* Cob::connect / Cob::connected: the degree is additive (None = some nbdr_comps panics) *)
Theorem cob_connect_deg : forall a b c, cob_wf (a ++ b) -> cob_connect a b = Some c ->
  cob_wf c /\
  cob_deg c = match cob_deg a, cob_deg b with Some x, Some y => Some (x + y)%Z | _, _ => None end.
Proof.
  intros a b c Hwf. unfold cob_connect.
  destruct (cob_connect_loop a b) as [cs|] eqn:El; [|discriminate]. intros Es.
  destruct (keeps_trans _ _ _ (cob_connect_loop_deg b a cs El)
              (keeps_perm _ _ (Permutation_sym (cob_sort_perm _ _ Es))) Hwf) as [W R].
  split; [exact W|]. change (cob_deg c) with (degs c). rewrite R. unfold degs. rewrite map_app. apply sum_opt_app.
Qed.

Theorem cob_connect_comp_deg : forall s c r, cob_wf (c :: s) -> cob_connect_comp s c = Some r ->
  cob_wf r /\
  cob_deg r = match cob_deg s, cc_deg c with Some x, Some y => Some (x + y)%Z | _, _ => None end.
Proof.
  intros s c r Hwf. unfold cob_connect_comp, cob_connect_comp_raw.
  destruct (connect_comp_loop c s []) as [cs|] eqn:El; [|discriminate]. intros Es.
  pose proof (connect_comp_loop_deg s c [] [] cs El) as K. cbn [app] in K. rewrite !app_nil_r in K.
  destruct (keeps_trans _ _ _ K (keeps_perm _ _ (Permutation_sym (cob_sort_perm _ _ Es))) Hwf) as [W R].
  split; [exact W|]. change (cob_deg r) with (degs r). rewrite R. unfold degs, cob_deg. cbn [map sum_opt].
  destruct (cc_deg c), (sum_opt (map cc_deg s)); try reflexivity. f_equal. lia.
Qed.
