(* C16 (rest): exact specification of the checked division, divides, is_unit and inv of the monomial
   types Var, Var2, Var3 (Model/Mono.v), for every exponent type with [exp_laws] (N = usize, Z = isize).
   MultiDeg / MultiVar is in C16RestMDeg.v.

   [mono_div_laws m ok]   x / y = Some z  <->  z valid and z * y = x;   y.divides(x) <-> x / y does not panic
   [mono_unit_laws m ok]  inv x = Some y -> x * y = 1;  is_unit x <-> inv x is Some;  every invertible monomial
                          is recognised by is_unit
   plus, per type, the exponent-wise description: for unsigned exponents the division is defined exactly
   when every exponent of the divisor is <= that of the dividend, for signed exponents always. *)
From Coq Require Import List Bool Arith NArith ZArith Lia.
Require Import Yui.Model.Mono Yui.Proofs.C16Mono.
Import ListNotations.

Record mono_div_laws {X : Type} (m : mono_ops X) (ok : X -> Prop) : Prop := mk_mono_div_laws {
  mdiv_iff : forall x y z, ok x -> ok y -> (mdiv m x y = Some z <-> ok z /\ mmul m z y = x);
  mdivides_iff : forall x y, ok x -> ok y -> (mdivides m y x = true <-> exists z, mdiv m x y = Some z);
}.

Record mono_unit_laws {X : Type} (m : mono_ops X) (ok : X -> Prop) : Prop := mk_mono_unit_laws {
  minv_some : forall x y, ok x -> minv m x = Some y -> ok y /\ mmul m x y = mone m;
  mis_unit_iff : forall x, ok x -> (mis_unit m x = true <-> exists y, minv m x = Some y);
  munit_complete : forall x y, ok x -> ok y -> mmul m x y = mone m -> mis_unit m x = true;
}.

(* when a chain of checked subtractions yields a value *)
Lemma obind_defined {A B} (o : option A) (f : A -> option B) (P Q : Prop) :
  ((exists a, o = Some a) <-> P) -> (forall a, (exists z, f a = Some z) <-> Q) ->
  ((exists z, obind o f = Some z) <-> P /\ Q).
Proof.
  intros HP HQ. destruct o as [a|]; cbn [obind].
  - rewrite HQ. split; [intros q; split; [apply HP; now exists a|exact q]|intros [_ q]; exact q].
  - split; [intros [z [=]]|intros [p _]; apply HP in p as [a [=]]].
Qed.
Lemma some_defined {A} (a : A) : (exists z, Some a = Some z) <-> True.
Proof. split; [trivial|intros _; now exists a]. Qed.
(* divides: always for signed exponents, otherwise the exponentwise comparison [b] *)
Lemma divides_iff_defined (sg b : bool) (D P : Prop) :
  (D <-> (sg = true \/ P)) -> (b = true <-> P) -> ((if sg then true else b) = true <-> D).
Proof.
  intros HD HP. rewrite HD. destruct sg; [split; auto|]. rewrite HP. split; [now right|].
  intros [H|H]; [discriminate|assumption].
Qed.
Lemma if_some_defined {A} (c : bool) (a : A) : c = true <-> exists y, (if c then Some a else None) = Some y.
Proof. destruct c; split; [intros _; now exists a|reflexivity|discriminate|intros [y [=]]]. Qed.

Section Generic.
  Context {X : Type} (m : mono_ops X) (ok : X -> Prop) (ML : mono_laws m ok).

  (* the product is cancellative (the orders are compatible with it) *)
  Lemma mmul_cancel_r x y z : ok x -> ok y -> ok z -> mmul m x z = mmul m y z -> x = y.
  Proof.
    intros Hx Hy Hz E. destruct (mgrlex_ord m ok ML) as (OE & _ & _).
    apply (OE x y Hx Hy). rewrite <- (mgrlex_mul m ok ML x y z Hx Hy Hz), E.
    apply OE; auto using (mmul_ok m ok ML).
  Qed.

  (* soundness (in mono_laws) + "None only if no quotient exists" = the exact specification *)
  Lemma mdiv_iff_of_none :
    (forall x y z, ok x -> ok y -> ok z -> mmul m z y = x -> mdiv m x y <> None) ->
    forall x y z, ok x -> ok y -> (mdiv m x y = Some z <-> ok z /\ mmul m z y = x).
  Proof.
    intros HN x y z Hx Hy. split; [now apply (mdiv_sound m ok ML)|]. intros [Hz E].
    destruct (mdiv m x y) as [z'|] eqn:D; [|exfalso; now apply (HN x y z Hx Hy Hz E)].
    destruct (mdiv_sound m ok ML x y z' Hx Hy D) as [Hz' E']. f_equal.
    apply (mmul_cancel_r z' z y); congruence.
  Qed.

  Context (DL : mono_div_laws m ok).
  (* y.divides(x) is divisibility in the monoid of valid monomials *)
  Theorem mdivides_spec x y : ok x -> ok y -> (mdivides m y x = true <-> exists z, ok z /\ mmul m z y = x).
  Proof.
    intros Hx Hy. rewrite (mdivides_iff m ok DL x y Hx Hy). split.
    - intros [z D]. exists z. now apply (mdiv_iff m ok DL x y z Hx Hy).
    - intros [z Hz]. exists z. now apply (mdiv_iff m ok DL x y z Hx Hy).
  Qed.
  (* the quotient is unique, and division undoes multiplication *)
  Theorem mdiv_mul x y : ok x -> ok y -> mdiv m (mmul m x y) y = Some x.
  Proof. intros Hx Hy. apply (mdiv_iff m ok DL); auto using (mmul_ok m ok ML). Qed.
End Generic.

Section Vars.
  Context {I : Type} (e : exp_ops I) (eZ : I -> Z) (EL : exp_laws e eZ).

  Lemma ele_Z a b : ele e a b = true <-> (eZ a <= eZ b)%Z.
  Proof.
    unfold ele. rewrite (ecmp_Z e eZ EL). destruct (Z.compare_spec (eZ a) (eZ b)); split; intros; try lia; try reflexivity; discriminate.
  Qed.

  (* `-=` on exponents does not panic iff the type is signed or there is no underflow *)
  Lemma esub_is_some a b : (exists c, esub e a b = Some c) <-> (esigned e = true \/ (eZ b <= eZ a)%Z).
  Proof.
    pose proof (esub_none e eZ EL a b) as HN. destruct (esub e a b) as [c|] eqn:E.
    - split; [|intros _; now exists c]. intros _. destruct (esigned e) eqn:S; [now left|right].
      destruct (Z.le_gt_cases (eZ b) (eZ a)) as [H|H]; [assumption|]. exfalso.
      assert (@None I = Some c) by (rewrite <- (proj2 HN (conj eq_refl H)); reflexivity). discriminate.
    - destruct (proj1 HN eq_refl) as [S H]. split; [intros [c [=]]|]. intros [S'|H']; [congruence|lia].
  Qed.
  Lemma esub_is_none a b : esub e a b = None <-> (esigned e = false /\ (eZ a < eZ b)%Z).
  Proof. apply (esub_none e eZ EL). Qed.

  Lemma esub_add a b : esub e (eadd e a b) b = Some a.
  Proof.
    destruct (esub e (eadd e a b) b) as [c|] eqn:E.
    - f_equal. apply (eZ_inj e eZ EL). apply (esub_some e eZ EL) in E. rewrite (eZ_add e eZ EL) in E. lia.
    - exfalso. apply esub_is_none in E as [S H]. rewrite (eZ_add e eZ EL) in H.
      pose proof (eunsigned e eZ EL S a). lia.
  Qed.

  Lemma signed_dec : esigned e = true \/ esigned e = false.
  Proof. destruct (esigned e); auto. Qed.

  Lemma eZ_zero_iff a : eZ a = 0%Z <-> a = ezero e.
  Proof. split; [intros H; apply (eZ_inj e eZ EL); now rewrite (eZ_0 e eZ EL)|intros ->; apply (eZ_0 e eZ EL)]. Qed.

  (* x + y = 0 with unsigned exponents forces x = 0 *)
  Lemma eadd_zero_unsigned a b : esigned e = false -> eadd e a b = ezero e -> a = ezero e.
  Proof.
    intros S E. apply eZ_zero_iff. apply (f_equal eZ) in E. rewrite (eZ_add e eZ EL), (eZ_0 e eZ EL) in E.
    pose proof (eunsigned e eZ EL S a). pose proof (eunsigned e eZ EL S b). lia.
  Qed.
  Lemma eadd_neg a : esigned e = true -> eadd e a (eneg e a) = ezero e.
  Proof. intros S. apply (eZ_inj e eZ EL). rewrite (eZ_add e eZ EL), (eneg_Z e eZ EL S), (eZ_0 e eZ EL). lia. Qed.

  Theorem var_div_defined x y :
    (exists z, mdiv (var_mono e) x y = Some z) <-> (esigned e = true \/ (eZ y <= eZ x)%Z).
  Proof. apply esub_is_some. Qed.

  Theorem var_div_laws : mono_div_laws (var_mono e) any.
  Proof.
    constructor.
    - apply (mdiv_iff_of_none (var_mono e) any (var_laws e eZ EL)).
      intros x y z _ _ _ E. cbn in *. subst x. now rewrite esub_add.
    - intros x y _ _. apply (divides_iff_defined _ _ _ _ (esub_is_some x y) (ele_Z y x)).
  Qed.

  Theorem var_unit_spec x :
    (esigned e = true -> mis_unit (var_mono e) x = true /\ minv (var_mono e) x = Some (eneg e x)) /\
    (esigned e = false -> (mis_unit (var_mono e) x = true <-> x = ezero e) /\
                          (minv (var_mono e) x = if eis_zero e x then Some (ezero e) else None)).
  Proof.
    cbn [mis_unit minv var_mono]. split; intros ->; [auto|]. split; [apply (eis_zero_iff e eZ EL)|reflexivity].
  Qed.

  Theorem var_unit_laws : mono_unit_laws (var_mono e) any.
  Proof.
    constructor; cbn [mis_unit minv mmul mone var_mono]; unfold any.
    - intros x y _ H. split; [exact Logic.I|]. destruct (esigned e) eqn:S.
      + injection H as <-. now apply eadd_neg.
      + destruct (eis_zero e x) eqn:Z; [|discriminate]. injection H as <-.
        apply (eis_zero_iff e eZ EL) in Z. subst x. apply (eadd_0_l e eZ EL).
    - intros x _. destruct (esigned e); [split; eauto|apply if_some_defined].
    - intros x y _ _ E. destruct (esigned e) eqn:S; [reflexivity|].
      apply (eis_zero_iff e eZ EL). now apply (eadd_zero_unsigned x y).
  Qed.

  Theorem var2_div_defined x y :
    (exists z, mdiv (var2_mono e) x y = Some z) <->
    (esigned e = true \/ ((eZ (fst y) <= eZ (fst x))%Z /\ (eZ (snd y) <= eZ (snd x))%Z)).
  Proof.
    cbn [mdiv var2_mono].
    rewrite (obind_defined _ _ _ _ (esub_is_some _ _) (fun a =>
             obind_defined _ _ _ _ (esub_is_some _ _) (fun b => some_defined _))).
    tauto.
  Qed.

  Theorem var2_div_laws : mono_div_laws (var2_mono e) any.
  Proof.
    constructor.
    - apply (mdiv_iff_of_none (var2_mono e) any (var2_laws e eZ EL)).
      intros x y [z1 z2] _ _ _ E. cbn in *. subst x. cbn [fst snd]. now rewrite !esub_add.
    - intros x y _ _. apply (divides_iff_defined _ _ _ _ (var2_div_defined x y)).
      now rewrite andb_true_iff, !ele_Z.
  Qed.

  Theorem var2_unit_spec x :
    (esigned e = true -> mis_unit (var2_mono e) x = true /\
                         minv (var2_mono e) x = Some (eneg e (fst x), eneg e (snd x))) /\
    (esigned e = false -> (mis_unit (var2_mono e) x = true <-> x = mone (var2_mono e)) /\
                          (minv (var2_mono e) x = if mis_unit (var2_mono e) x then Some (mone (var2_mono e)) else None)).
  Proof.
    cbn [mis_unit minv mone var2_mono]. split; intros ->; [auto|]. split; [|reflexivity].
    rewrite andb_true_iff, !(eis_zero_iff e eZ EL). destruct x as [a b]. cbn [fst snd].
    split; [intros [-> ->]; reflexivity|intros [= -> ->]; auto].
  Qed.

  Theorem var2_unit_laws : mono_unit_laws (var2_mono e) any.
  Proof.
    constructor; cbn [mis_unit minv mmul mone var2_mono]; unfold any.
    - intros [x1 x2] y _ H. cbn [fst snd] in *. split; [exact Logic.I|]. destruct (esigned e) eqn:S.
      + injection H as <-. cbn [fst snd]. now rewrite !eadd_neg.
      + destruct (eis_zero e x1) eqn:Z1; [|discriminate]. destruct (eis_zero e x2) eqn:Z2; [|discriminate].
        injection H as <-. apply (eis_zero_iff e eZ EL) in Z1, Z2. subst. cbn [fst snd]. now rewrite !(eadd_0_l e eZ EL).
    - intros x _. destruct (esigned e); [split; eauto|apply if_some_defined].
    - intros [x1 x2] [y1 y2] _ _ E. cbn [fst snd] in *. destruct (esigned e) eqn:S; [reflexivity|].
      injection E as E1 E2. rewrite andb_true_iff, !(eis_zero_iff e eZ EL).
      split; [now apply (eadd_zero_unsigned x1 y1)|now apply (eadd_zero_unsigned x2 y2)].
  Qed.

  Theorem var3_div_defined x y :
    (exists z, mdiv (var3_mono e) x y = Some z) <->
    (esigned e = true \/ ((eZ (v3_0 y) <= eZ (v3_0 x))%Z /\ (eZ (v3_1 y) <= eZ (v3_1 x))%Z /\ (eZ (v3_2 y) <= eZ (v3_2 x))%Z)).
  Proof.
    cbn [mdiv var3_mono].
    rewrite (obind_defined _ _ _ _ (esub_is_some _ _) (fun a =>
             obind_defined _ _ _ _ (esub_is_some _ _) (fun b =>
             obind_defined _ _ _ _ (esub_is_some _ _) (fun c => some_defined _)))).
    tauto.
  Qed.

  Theorem var3_div_laws : mono_div_laws (var3_mono e) any.
  Proof.
    constructor.
    - apply (mdiv_iff_of_none (var3_mono e) any (var3_laws e eZ EL)).
      intros x y [[z0 z1] z2] _ _ _ E. cbn in *. subst x. unfold v3_0, v3_1, v3_2. cbn [fst snd]. now rewrite !esub_add.
    - intros x y _ _. apply (divides_iff_defined _ _ _ _ (var3_div_defined x y)).
      rewrite !andb_true_iff, !ele_Z. tauto.
  Qed.

  Theorem var3_unit_spec x :
    (esigned e = true -> mis_unit (var3_mono e) x = true /\
                         minv (var3_mono e) x = Some (eneg e (v3_0 x), eneg e (v3_1 x), eneg e (v3_2 x))) /\
    (esigned e = false -> (mis_unit (var3_mono e) x = true <-> x = mone (var3_mono e)) /\
                          (minv (var3_mono e) x = if mis_unit (var3_mono e) x then Some (mone (var3_mono e)) else None)).
  Proof.
    cbn [mis_unit minv mone var3_mono]. split; intros ->; [auto|]. split; [|reflexivity].
    unfold v3_is_one. rewrite !andb_true_iff, !(eis_zero_iff e eZ EL). destruct x as [[a b] c]. unfold v3_0, v3_1, v3_2. cbn [fst snd].
    split; [intros [[-> ->] ->]; reflexivity|intros [= -> -> ->]; auto].
  Qed.

  Theorem var3_unit_laws : mono_unit_laws (var3_mono e) any.
  Proof.
    constructor; cbn [mis_unit minv mmul mone var3_mono]; unfold any.
    - intros [[x0 x1] x2] y _ H. unfold v3_is_one, v3_0, v3_1, v3_2 in *. cbn [fst snd] in *. split; [exact Logic.I|].
      destruct (esigned e) eqn:S.
      + injection H as <-. cbn [fst snd]. now rewrite !eadd_neg.
      + destruct (eis_zero e x0) eqn:Z0; [|discriminate]. destruct (eis_zero e x1) eqn:Z1; [|discriminate].
        destruct (eis_zero e x2) eqn:Z2; [|discriminate].
        injection H as <-. apply (eis_zero_iff e eZ EL) in Z0, Z1, Z2. subst. cbn [fst snd]. now rewrite !(eadd_0_l e eZ EL).
    - intros x _. destruct (esigned e); [split; eauto|apply if_some_defined].
    - intros [[x0 x1] x2] [[y0 y1] y2] _ _ E. unfold v3_is_one, v3_0, v3_1, v3_2 in *. cbn [fst snd] in *.
      destruct (esigned e) eqn:S; [reflexivity|].
      injection E as E0 E1 E2. rewrite !andb_true_iff, !(eis_zero_iff e eZ EL).
      split; [split|]; [now apply (eadd_zero_unsigned x0 y0)|now apply (eadd_zero_unsigned x1 y1)|now apply (eadd_zero_unsigned x2 y2)].
  Qed.
End Vars.
