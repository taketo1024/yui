(* The reduction step in block form.  For [a b; c d] with a invertible, [x; y] and [z w] with
   [a b; c d][x; y] = 0 and [z w][a b; c d] = 0 (pure block-matrix algebra over any commutative ring):
     s = d - c a^-1 b,    f_src = [0 1], b_src = [-a^-1 b; 1],   f_tgt = [-c a^-1  1], b_tgt = [0; 1],
     h = [a^-1 0; 0 0]
   form a strong deformation retraction of the three-term complex onto  y, s, w. *)
From Coq Require Import Arith List Lia Bool Ring.
Require Import Yui.Base.Ring Yui.Base.MatF Yui.Base.MatL Yui.Model.Reducer Yui.Proofs.C08Mat.
Import ListNotations.

Section Aux.
  Context {R : Type} (o : ring_ops R) (L : ring_laws o).
  Add Ring Rring5 : (ring_theory_of_laws o L).
  Local Notation dmat := (dmat R).
  Local Notation dwf := (@dwf R).

  Lemma dadd_zero_inv X Y : dwf Y -> dr X = dr Y -> dc X = dc Y ->
    dadd o X Y = dzero o (dr X) (dc X) -> Y = dneg o X.
  Proof.
    intros WY H1 H2 E. apply (dmat_ext o); dwfs; dims. intros i j Hi Hj.
    assert (X0 : dget o (dadd o X Y) i j = dget o (dzero o (dr X) (dc X)) i j) by now rewrite E.
    rewrite (dget_dadd o), (dget_dzero o) in X0 by lia. rewrite (dget_dneg o) by lia.
    transitivity (radd o (radd o (dget o X i j) (dget o Y i j)) (rneg o (dget o X i j))); [ring|].
    rewrite X0. ring.
  Qed.

  Lemma dneg_invol X : dwf X -> dneg o (dneg o X) = X.
  Proof.
    intros W. apply (dmat_ext o); dwfs; dims. intros i j Hi Hj.
    rewrite !(dget_dneg o) by dims. ring.
  Qed.

  Lemma dsub_self X Y : X = Y -> dsub o X Y = dzero o (dr X) (dc X).
  Proof.
    intros <-. apply (dmat_ext o); dwfs; dims. intros i j Hi Hj.
    rewrite (dget_dsub o), (dget_dzero o) by lia. ring.
  Qed.

  Lemma dmul_sub_l A B C : dr A = dr B -> dc A = dc B ->
    dmul o (dsub o A B) C = dsub o (dmul o A C) (dmul o B C).
  Proof.
    intros H1 H2. rewrite !(dsub_eq o) by dims. rewrite (dmul_add_l o L) by dims.
    now rewrite (dmul_neg_l o L).
  Qed.

  Lemma dmul_sub_r A B C : dc A = dr B -> dr B = dr C -> dc B = dc C ->
    dmul o A (dsub o B C) = dsub o (dmul o A B) (dmul o A C).
  Proof.
    intros H1 H2 H3. rewrite !(dsub_eq o) by dims. rewrite (dmul_add_r o L) by dims.
    now rewrite (dmul_neg_r o L) by dims.
  Qed.

  Lemma dadd_zero_r' A m n : dwf A -> dr A = m -> dc A = n -> dadd o A (dzero o m n) = A.
  Proof. intros W <- <-. now apply (dadd_zero_r o L). Qed.

  Lemma dadd_zero_l' A m n : dwf A -> dr A = m -> dc A = n -> dadd o (dzero o m n) A = A.
  Proof. intros W <- <-. now apply (dadd_zero_l o L). Qed.

  Lemma dadd_neg_sub A B : dr A = dr B -> dc A = dc B -> dadd o (dneg o B) A = dsub o A B.
  Proof.
    intros H1 H2. rewrite (dsub_eq o) by dims. apply (dadd_comm o L); dims.
  Qed.
End Aux.

Section Block.
  Context {R : Type} (o : ring_ops R) (L : ring_laws o).
  Local Notation dmat := (dmat R).
  Local Notation dwf := (@dwf R).
  (* shapes: a r x r, b r x nr, c mr x r, d mr x nr, x r x l, y nr x l, z k x r, w k x mr *)
  Context (r mr nr l k : nat) (fa fb fc fd fx fy fz fw fi : nat -> nat -> R).
  Local Notation a := (dmk r r fa).
  Local Notation b := (dmk r nr fb).
  Local Notation c := (dmk mr r fc).
  Local Notation d := (dmk mr nr fd).
  Local Notation x := (dmk r l fx).
  Local Notation y := (dmk nr l fy).
  Local Notation z := (dmk k r fz).
  Local Notation w := (dmk k mr fw).
  Local Notation ainv := (dmk r r fi).

  Definition blk_A := dvcat o (dhcat o a b) (dhcat o c d).
  Definition blk_a0 := dvcat o x y.
  Definition blk_a2 := dhcat o z w.
  Definition blk_ainvb := dmul o ainv b.
  Definition blk_cainv := dmul o c ainv.
  Definition blk_s := dsub o d (dmul o c blk_ainvb).
  Definition blk_fs := dhcat o (dzero o nr r) (did o nr).
  Definition blk_bs := dvcat o (dneg o blk_ainvb) (did o nr).
  Definition blk_ft := dhcat o (dneg o blk_cainv) (did o mr).
  Definition blk_bt := dvcat o (dzero o r mr) (did o mr).
  Definition blk_h := dvcat o (dhcat o ainv (dzero o r mr)) (dzero o nr (r + mr)).

  Context (Hinv1 : dmul o a ainv = did o r) (Hinv2 : dmul o ainv a = did o r).

  (* dd: unfold the block definitions;  side: close a well-formedness or shape side condition *)
  Ltac dd := unfold blk_A, blk_a0, blk_a2, blk_ainvb, blk_cainv, blk_s, blk_fs, blk_bs, blk_ft, blk_bt, blk_h in *.
  Ltac side := solve [dwfs | shapes; (lia || reflexivity)].

  (* a^-1 (a X) = X,  a (a^-1 X) = X,  (X a^-1) a = X, (X a) a^-1 = X *)
  Lemma ainv_a_cancel (X : dmat) : dwf X -> dr X = r -> dmul o ainv (dmul o a X) = X.
  Proof. exact (dmul_cancel_l o L a ainv X r eq_refl Hinv2). Qed.
  Lemma a_ainv_cancel (X : dmat) : dwf X -> dr X = r -> dmul o a (dmul o ainv X) = X.
  Proof. exact (dmul_cancel_l o L ainv a X r eq_refl Hinv1). Qed.
  Lemma cancel_ainv_a (X : dmat) : dwf X -> dc X = r -> dmul o (dmul o X ainv) a = X.
  Proof. exact (dmul_cancel_r o L ainv a X r Hinv2). Qed.
  Lemma cancel_a_ainv (X : dmat) : dwf X -> dc X = r -> dmul o (dmul o X a) ainv = X.
  Proof. exact (dmul_cancel_r o L a ainv X r Hinv1). Qed.

  Section WithComplex.
    (* [a b; c d][x; y] = 0 and [z w][a b; c d] = 0 in block form *)
    Context (Hax : dadd o (dmul o a x) (dmul o b y) = dzero o r l)
            (Hcx : dadd o (dmul o c x) (dmul o d y) = dzero o mr l)
            (Hza : dadd o (dmul o z a) (dmul o w c) = dzero o k r)
            (Hzb : dadd o (dmul o z b) (dmul o w d) = dzero o k nr).

    Lemma by_eq : dmul o b y = dneg o (dmul o a x).
    Proof. apply (dadd_zero_inv o L); try side; try exact Hax. Qed.
    Lemma dy_eq : dmul o d y = dneg o (dmul o c x).
    Proof. apply (dadd_zero_inv o L); try side; try exact Hcx. Qed.
    Lemma wc_eq : dmul o w c = dneg o (dmul o z a).
    Proof. apply (dadd_zero_inv o L); try side; try exact Hza. Qed.
    Lemma wd_eq : dmul o w d = dneg o (dmul o z b).
    Proof. apply (dadd_zero_inv o L); try side; try exact Hzb. Qed.

    Lemma ainvb_y : dmul o blk_ainvb y = dneg o x.
    Proof.
      dd. rewrite (dmul_assoc o L) by side. rewrite by_eq. rewrite (dmul_neg_r o L) by side.
      rewrite ainv_a_cancel by side. reflexivity.
    Qed.

    Lemma w_cainv : dmul o w blk_cainv = dneg o z.
    Proof.
      dd. rewrite <- (dmul_assoc o L) by side. rewrite wc_eq. rewrite (dmul_neg_l o L).
      rewrite cancel_a_ainv by side. reflexivity.
    Qed.

    (* the reduced matrices form a complex *)
    Theorem blk_complex_src : dmul o blk_s y = dzero o mr l.
    Proof.
      unfold blk_s. rewrite (dmul_sub_l o L) by side.
      rewrite (dsub_self o L); [shapes; reflexivity|].
      rewrite (dmul_assoc o L) by (dd; side). rewrite ainvb_y. rewrite (dmul_neg_r o L) by side.
      exact dy_eq.
    Qed.

    Theorem blk_complex_tgt : dmul o w blk_s = dzero o k nr.
    Proof.
      unfold blk_s. rewrite (dmul_sub_r o L) by (dd; side).
      rewrite (dsub_self o L); [shapes; reflexivity|].
      unfold blk_ainvb. rewrite <- (dmul_assoc o L c) by side. fold blk_cainv.
      rewrite <- (dmul_assoc o L) by (dd; side). rewrite w_cainv. rewrite (dmul_neg_l o L).
      exact wd_eq.
    Qed.

    (* the neighbouring differentials factor through the retraction *)
    Theorem blk_a2_factor : dmul o w blk_ft = blk_a2.
    Proof.
      unfold blk_ft, blk_a2. rewrite (dmul_hcat_r o) by (dd; side).
      rewrite (dmul_neg_r o L) by (dd; side). rewrite w_cainv.
      rewrite (dneg_invol o L) by side. rewrite (dmul_id_r o L) by side. reflexivity.
    Qed.

    Theorem blk_a0_factor : dmul o blk_bs y = blk_a0.
    Proof.
      unfold blk_bs, blk_a0. rewrite (dmul_vcat_l o) by (dd; side).
      rewrite (dmul_neg_l o L). rewrite ainvb_y.
      rewrite (dneg_invol o L) by side. rewrite (dmul_id_l o L) by side. reflexivity.
    Qed.
  End WithComplex.

  Theorem blk_fs_a0 : dmul o blk_fs blk_a0 = y.
  Proof.
    unfold blk_fs, blk_a0. rewrite (dmul_hcat_vcat o L) by side.
    rewrite (dmul_zero_l o L), (dmul_id_l o L) by side. shapes. apply (dadd_zero_l o L y). side.
  Qed.

  Theorem blk_a2_bt : dmul o blk_a2 blk_bt = w.
  Proof.
    unfold blk_bt, blk_a2. rewrite (dmul_hcat_vcat o L) by side.
    rewrite (dmul_zero_r o L), (dmul_id_r o L) by side. shapes. apply (dadd_zero_l o L w). side.
  Qed.

  (* f and b commute with the middle differential *)
  Theorem blk_f_chain : dmul o blk_ft blk_A = dmul o blk_s blk_fs.
  Proof.
    unfold blk_ft, blk_A, blk_fs.
    rewrite (dmul_hcat_vcat o L) by (dd; side).
    rewrite !(dmul_hcat_r o) by (dd; side).
    rewrite (dmul_id_l o L), (dmul_id_l o L) by side.
    rewrite !(dmul_neg_l o L).
    rewrite (dadd_hcat o) by (dd; side).
    unfold blk_cainv at 1. rewrite cancel_ainv_a by side.
    rewrite (dadd_neg_l o L). rewrite (dadd_neg_sub o L) by (dd; side).
    unfold blk_cainv. rewrite (dmul_assoc o L) by side. fold blk_ainvb. fold blk_s.
    rewrite (dmul_zero_r o L), (dmul_id_r o L) by (dd; side). dd. shapes. reflexivity.
  Qed.

  Theorem blk_b_chain : dmul o blk_A blk_bs = dmul o blk_bt blk_s.
  Proof.
    unfold blk_A, blk_bs, blk_bt.
    rewrite !(dmul_vcat_l o) by (dd; side).
    rewrite !(dmul_hcat_vcat o L) by (dd; side).
    rewrite !(dmul_id_r o L) by side.
    rewrite !(dmul_neg_r o L) by (dd; side).
    unfold blk_ainvb at 1. rewrite a_ainv_cancel by side.
    rewrite (dadd_neg_l o L). rewrite (dadd_neg_sub o L) by (dd; side). fold blk_s.
    rewrite (dmul_zero_l o L), (dmul_id_l o L) by (dd; side). dd. shapes. reflexivity.
  Qed.

  (* f b = 1 *)
  Theorem blk_fb_src : dmul o blk_fs blk_bs = did o nr.
  Proof.
    unfold blk_fs, blk_bs. rewrite (dmul_hcat_vcat o L) by (dd; side).
    rewrite (dmul_zero_l o L), (dmul_id_l o L) by side. shapes.
    apply (dadd_zero_l o L (did o nr)). side.
  Qed.

  Theorem blk_fb_tgt : dmul o blk_ft blk_bt = did o mr.
  Proof.
    unfold blk_ft, blk_bt. rewrite (dmul_hcat_vcat o L) by (dd; side).
    rewrite (dmul_zero_r o L), (dmul_id_l o L) by side. dd. shapes.
    apply (dadd_zero_l o L (did o mr)). side.
  Qed.

  (* b f + h d = 1 and b f + d h = 1 *)
  Theorem blk_homotopy_src : dadd o (dmul o blk_bs blk_fs) (dmul o blk_h blk_A) = did o (r + nr).
  Proof.
    unfold blk_bs, blk_fs, blk_h, blk_A.
    rewrite !(dmul_vcat_l o) by (dd; side).
    rewrite (dmul_hcat_vcat o L) by (dd; side).
    rewrite !(dmul_hcat_r o) by (dd; side).
    rewrite ?(dmul_zero_l o L), ?(dmul_zero_r o L).
    rewrite ?(dmul_id_l o L), ?(dmul_id_r o L) by (dd; side).
    rewrite Hinv2. dd. shapes.
    rewrite <- (dzero_hcat o nr r nr).
    rewrite (dadd_hcat o (did o r)) by side.
    rewrite (dadd_vcat o) by side.
    rewrite !(dadd_hcat o) by side.
    rewrite !(dadd_zero_r' o L) by side. rewrite !(dadd_zero_l' o L) by side.
    rewrite (dadd_neg_l o L). shapes. apply (did_blocks o).
  Qed.

  Theorem blk_homotopy_tgt : dadd o (dmul o blk_bt blk_ft) (dmul o blk_A blk_h) = did o (r + mr).
  Proof.
    unfold blk_bt, blk_ft, blk_h, blk_A.
    rewrite !(dmul_vcat_l o) by (dd; side).
    rewrite !(dmul_hcat_vcat o L) by (dd; side).
    rewrite !(dmul_hcat_r o) by (dd; side).
    rewrite ?(dmul_zero_l o L), ?(dmul_zero_r o L).
    rewrite ?(dmul_id_l o L), ?(dmul_id_r o L) by (dd; side).
    rewrite Hinv1. dd. shapes.
    rewrite !(dadd_zero_r' o L) by side.
    rewrite (dadd_vcat o) by side.
    rewrite !(dadd_hcat o) by side.
    rewrite !(dadd_zero_r' o L) by side. rewrite !(dadd_zero_l' o L) by side.
    rewrite (dadd_neg_l o L). shapes. apply (did_blocks o).
  Qed.

  (* side conditions of a strong deformation retraction *)
  Theorem blk_fh : dmul o blk_fs blk_h = dzero o nr (r + mr).
  Proof.
    unfold blk_fs, blk_h. rewrite (dmul_hcat_vcat o L) by side.
    rewrite (dmul_zero_l o L), (dmul_id_l o L) by side. shapes.
    apply (dadd_zero_l' o L); side.
  Qed.

  Theorem blk_hb : dmul o blk_h blk_bt = dzero o (r + nr) mr.
  Proof.
    unfold blk_h, blk_bt. rewrite (dmul_vcat_l o) by side.
    rewrite (dmul_hcat_vcat o L) by side.
    rewrite !(dmul_zero_l o L), !(dmul_zero_r o L) by side. shapes.
    rewrite (dadd_zero_l' o L) by side. apply (dzero_vcat o).
  Qed.
End Block.
