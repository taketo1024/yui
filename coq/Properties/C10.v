(* C10 - LLL and LLL-based Hermite normal form return unimodular, reduced results.
   Property theorems only: each is proved by [exact <lemma>] or a short combination of proved lemmas and is
   followed by Print Assumptions; the Examples instantiate the hypotheses on concrete values.

   Model: Model/Lll.v mirrors yui-matrix/src/dense/lll.rs as it is after the fixes dfe26dc exact
   div_round, 7156934 normalisation of the last row in lll_hnf, b5d7608 lll on a matrix without rows:
   LLLData (new, setup/orthogonalize, lovasz_ok, reduce, swap with the exact det/lambda update, mul_row,
   add_row_to, nz_col_in, next/back), LLLCalc (iterate, process, result), LLLHNFCalc (reduce, is_ok, iterate,
   process with its epilogue, result with the row reversal), generic in the dictionary [lll_ring] with the
   instances [Z_lll] (i64/i128/BigInt without overflow), [G_lll] = Z[i] and [E_lll] = Z[w] (pairs (a, b) for
   a + b w).  A Rust panic (assert!, division by zero, index out of bounds) and exhausted fuel are [None]; one
   unit of fuel is one call of `iterate`.  Matrices are lists of rows ([lmat], entry [lget o M i j]); the
   shape of the input A is (length A, lncols A); identities are stated with the functional matrices of
   Base/MatF.v ([mmul o m P A] = product with inner dimension m, [meq m n] = equality on the m x n window).
   All theorems hold for every dictionary with [lll_laws] (Proofs/C10Laws.v); C10_instances proves the laws
   for the three rings of the property.

   WHAT IS PROVED FOR ALL INPUTS, SHAPES, RANKS AND FLAGS
     C10_unimodular           every state either algorithm can reach (any interleaving of iterate steps from
                              new/setup, and the HNF epilogue) has target = P A with P Q = I = Q P, where P / Q
                              are exactly the stored matrices when the corresponding flag is set
     C10_unimodular_hnf       lll_hnf returns (H, P, Pinv) with H = P A, P Pinv = I = Pinv P; the flags only
     C10_unimodular_lll       erase P / Pinv from the result (they never change H resp. B)
     C10_hnf_shape_partial    whenever lll_hnf returns (no panic, fuel not exhausted): H is in row echelon form
                              with the zero rows last, every pivot is normalised, all entries below and
                              left-below a pivot are zero, every entry above a pivot has strictly smaller norm
     C10_lll_exit_partial     whenever lll returns: with respect to the MAINTAINED data (det, lambda) every k
                              passes lovasz_ok and every lambda[k][i] (i < k) lies in the rounding cell of det[i]
     C10_checkers_sound       the executable predicates [hnf_shape_b] and [check_trans] imply the Prop-level
                              clauses ([gs_consistent] and [lll_reduced_q], below, have no such statement)

   WHAT IS NOT PROVED (hence the names ..._partial)
     - Termination of the two loops: the full statement would be
         forall A, wf A -> exists fuel H P Q, lll_hnf L A (true, true) fuel = Some (H, Some P, Some Q)
         forall A with independent rows, exists fuel B P, lll L A true fuel = Some (B, Some P)
       (needs the classical potential argument on prod det[i] and, for lll_hnf, that det[i] never vanishes).
       The theorems say "whenever the run returns Some"; the correspondence run reports fuel exhaustion.
     - That the maintained (det, lambda) are the integral Gram-Schmidt data of the current target
       (det[i] = D_i, lambda[i][j] = D_j mu_ij).  With it C10_lll_exit_partial would give: B is size-reduced and
       satisfies the Lovasz condition for alpha = 3/4 (Z, Z[i]) resp. 2/3 (Z[w]).  This step is validated by
       execution only: the checkers [gs_consistent] (exact rational Gram-Schmidt of the target against det, lambda)
       and [lll_reduced_q] (size-reducedness and Lovasz condition of B itself) run on every explored output. *)
From Coq Require Import ZArith List Bool Arith.
Require Import Yui.Base.Ring Yui.Base.MatF Yui.Base.MatL Yui.Model.Lll.
Require Import Yui.Proofs.C10Laws Yui.Proofs.C10Ops Yui.Proofs.C10Unimod Yui.Proofs.C10Exit Yui.Proofs.C10Hnf.
Import ListNotations.

Theorem C10_instances : lll_laws Z_lll /\ lll_laws G_lll /\ lll_laws E_lll.
Proof. exact (conj Z_lll_laws (conj G_lll_laws E_lll_laws)). Qed.
Print Assumptions C10_instances.

(* [hnf_reach L A fl s]: s is LLLData::new(A, fl) or is obtained from a reachable state by one
   LLLHNFCalc::iterate or by the epilogue of process;  [lll_reach L A fl s]: s is LLLData::new(A, fl), the state
   after setup, or obtained from a reachable state by one LLLCalc::iterate.  No assumption on the shape, the
   rank or the number of steps. *)
Theorem C10_unimodular : forall (R : Type) (L : lll_ring R), lll_laws L ->
  forall (A : lmat R) (fl : bool * bool) (s : lll_data),
  hnf_reach L A fl s \/ lll_reach L A fl s ->
  let o := lops L in
  let m := length A in
  let n := lncols A in
  nr s = m /\ nc s = n /\
  exists P Q,
    tp s = (if fst fl then Some P else None) /\ tpinv s = (if snd fl then Some Q else None) /\
    meq m n (lget o (target s)) (mmul o m (lget o P) (lget o A)) /\
    meq m m (mmul o m (lget o P) (lget o Q)) (mid o) /\
    meq m m (mmul o m (lget o Q) (lget o P)) (mid o).
Proof. exact @reach_unimodular. Qed.
Print Assumptions C10_unimodular.

(* the final states of the two entry points are reachable states *)
Theorem C10_runs_reachable : forall (R : Type) (L : lll_ring R), lll_laws L ->
  forall (A : lmat R) (fl : bool * bool) (fuel : nat) (s : lll_data),
  (hnf_run L A fl fuel = Some s -> hnf_reach L A fl s) /\
  (lll_run L A fl fuel = Some s -> lll_reach L A fl s).
Proof. exact (fun R L LW A fl fuel s => conj (hnf_run_reach L A fl fuel s) (lll_run_reach L A fl fuel s)). Qed.
Print Assumptions C10_runs_reachable.

Theorem C10_unimodular_hnf : forall (R : Type) (L : lll_ring R), lll_laws L ->
  forall (A : lmat R) (f1 f2 : bool) (fuel : nat) (H : lmat R) (oP oQ : option (lmat R)),
  lll_hnf L A (f1, f2) fuel = Some (H, oP, oQ) ->
  let o := lops L in
  let m := length A in
  let n := lncols A in
  exists P Q,
    lll_hnf L A (true, true) fuel = Some (H, Some P, Some Q) /\
    oP = (if f1 then Some P else None) /\ oQ = (if f2 then Some Q else None) /\
    meq m n (lget o H) (mmul o m (lget o P) (lget o A)) /\
    meq m m (mmul o m (lget o P) (lget o Q)) (mid o) /\
    meq m m (mmul o m (lget o Q) (lget o P)) (mid o).
Proof. exact @lll_hnf_unimodular. Qed.
Print Assumptions C10_unimodular_hnf.

Theorem C10_unimodular_lll : forall (R : Type) (L : lll_ring R), lll_laws L ->
  forall (A : lmat R) (with_trans : bool) (fuel : nat) (B : lmat R) (oP : option (lmat R)),
  lll L A with_trans fuel = Some (B, oP) ->
  let o := lops L in
  let m := length A in
  let n := lncols A in
  exists P Q,
    oP = (if with_trans then Some P else None) /\
    lll L A true fuel = Some (B, Some P) /\
    meq m n (lget o B) (mmul o m (lget o P) (lget o A)) /\
    meq m m (mmul o m (lget o P) (lget o Q)) (mid o) /\
    meq m m (mmul o m (lget o Q) (lget o P)) (mid o).
Proof. exact @lll_unimodular. Qed.
Print Assumptions C10_unimodular_lll.

(* [wf (length A) (lncols A) A]: the input is rectangular (always true for a Rust `Mat`).
   Partial with respect to fuel and panics: "whenever the run returns Some". *)
Theorem C10_hnf_shape_partial : forall (R : Type) (L : lll_ring R), lll_laws L ->
  forall (A : lmat R) (fl : bool * bool) (fuel : nat) (H : lmat R) (oP oQ : option (lmat R)),
  wf (length A) (lncols A) A ->
  lll_hnf L A fl fuel = Some (H, oP, oQ) ->
  let o := lops L in
  let m := length A in
  let n := lncols A in
  wf m n H /\
  forall i, i < m ->
    (* a zero row, and every later row is zero *)
    ((forall b, b < n -> lget o H i b = rzero o) /\
     (forall i' b, i < i' -> i' < m -> b < n -> lget o H i' b = rzero o))
    \/
    (* or a pivot in column j: *)
    (exists j, j < n /\ lget o H i j <> rzero o /\ (forall b, b < j -> lget o H i b = rzero o) /\
       lnunit L (lget o H i j) = rone o /\                                           (* normalised *)
       (forall i' b, i < i' -> i' < m -> b <= j -> lget o H i' b = rzero o) /\       (* echelon; zeros below *)
       (forall i', i' < i -> (lnormz L (lget o H i' j) < lnormz L (lget o H i j))%Z)). (* reduced above *)
Proof. exact @lll_hnf_shape. Qed.
Print Assumptions C10_hnf_shape_partial.

(* lovasz_ok s k = Some true  is  q (d[k-2] d[k] + N(lambda[k][k-1])) >= p d[k-1]^2  with alpha = p/q, d[-1] = 1;
   lsize_ok x d = true        is  "x/d has coordinates of absolute value <= 1/2" in the basis in which div_round
                              rounds (for Z: 2 |x| <= |d|). *)
Theorem C10_lll_exit_partial : forall (R : Type) (L : lll_ring R), lll_laws L ->
  forall (A : lmat R) (fl : bool * bool) (fuel : nat) (s : lll_data),
  lll_run L A fl fuel = Some s ->
  (forall k, 1 <= k -> k < nr s -> lovasz_ok L s k = Some true) /\
  (forall i k, i < k -> k < nr s -> lsize_ok L (mget L (lambda s) k i) (vget L (det s) i) = true).
Proof. exact @lll_exit. Qed.
Print Assumptions C10_lll_exit_partial.

Theorem C10_checkers_sound : forall (R : Type) (L : lll_ring R), lll_laws L ->
  forall (m n : nat) (A H P Q : lmat R),
  let o := lops L in
  (wf m n H -> hnf_shape_b L m n H = true -> hnf_shape L m n (lget o H)) /\
  (check_trans L m n A H P Q = true ->
     meq m n (lget o H) (mmul o m (lget o P) (lget o A)) /\
     meq m m (mmul o m (lget o P) (lget o Q)) (mid o) /\
     meq m m (mmul o m (lget o Q) (lget o P)) (mid o)).
Proof. exact (fun R L LW m n A H P Q => conj (hnf_shape_b_sound L LW m n H) (check_trans_sound L LW m n A H P Q)). Qed.
Print Assumptions C10_checkers_sound.

(* non-vacuity: the hypotheses "returns Some" are satisfiable by non-trivial runs *)
Local Open Scope Z_scope.

(* the repository's own HNF example (4 x 3, rank 3) *)
Example C10_ex_hnf :
  lll_hnf Z_lll [[8; 44; 43]; [4; 10; 43]; [56; -550; -328]; [76; 10; 42]] (true, false) 200
  = Some ([[4; -2; 2]; [0; 6; -2]; [0; 0; 5]; [0; 0; 0]],
          Some [[502; -158; 36; -71]; [2134; -672; 153; -302]; [-530; 167; -38; 75]; [12245; -3855; 878; -1733]],
          None).
Proof. vm_compute. reflexivity. Qed.

(* the fixed defect 7156934: the pivot of the only row is normalised *)
Example C10_ex_hnf_last_row : lll_hnf Z_lll [[-2]] (true, true) 10 = Some ([[2]], Some [[-1]], Some [[-1]]).
Proof. vm_compute. reflexivity. Qed.

(* Gaussian 2 x 2 examples with non-trivial normalizing units *)
Example C10_ex_hnf_gauss :
  lll_hnf G_lll [[(0, 2); (1, 1)]; [(0, 0); (0, -3)]] (false, false) 50
  = Some ([[(2, 0); (1, -1)]; [(0, 0); (3, 0)]], None, None).
Proof. vm_compute. reflexivity. Qed.

Example C10_ex_hnf_gauss2 :
  lll_hnf G_lll [[(1, 2); (1, 1)]; [(3, 0); (0, -3)]] (true, false) 50
  = Some ([[(1, 0); (3, -2)]; [(0, 0); (6, 3)]], Some [[(-1, -1); (0, 1)]; [(0, -3); (-2, 1)]], None).
Proof. vm_compute. reflexivity. Qed.

(* the repository's own LLL example *)
Example C10_ex_lll :
  lll Z_lll [[1; -1; 3]; [1; 0; 5]; [1; 2; 6]] true 100
  = Some ([[0; 1; -1]; [1; 0; -1]; [1; 1; 1]], Some [[1; -2; 1]; [4; -5; 2]; [3; -4; 2]]).
Proof. vm_compute. reflexivity. Qed.

(* an Eisenstein example *)
Example C10_ex_lll_eisen :
  lll E_lll [[(1, 2); (1, 1)]; [(3, 0); (0, -3)]] true 50
  = Some ([[(1, 2); (1, 1)]; [(0, 1); (-2, -2)]], Some [[(1, 0); (0, 0)]; [(-1, 1); (1, 0)]]).
Proof. vm_compute. reflexivity. Qed.

(* the fixed defect b5d7608: a matrix without rows *)
Example C10_ex_lll_empty : lll Z_lll [] true 1 = Some ([], Some []).
Proof. vm_compute. reflexivity. Qed.
