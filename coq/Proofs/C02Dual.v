(* C02, duality of a finite complex at the level of the table arithmetic.
   (a) The transpose of an integer matrix has the same Smith factors ([SmithOf_transpose], in the
       vocabulary of Proofs/KhSmithMain.v).
   (b) The tables of KhHomology.v are the function [tables] of the dimensions n_0..n_N and the factor
       lists D_0..D_N of the differentials ([groups_from_tables]).  The dual complex has dimensions
       n_N..n_0 and - by (a) - factor lists D_(N-1)..D_0, [] ; its table entry in degree N-i is
       [group_at n_i D_i D_(i-1)], the entry of the original in degree i with the two factor lists
       exchanged ([dual_tables]).  Hence ranks and F_p-dimensions move i -> N-i and torsion moves
       i+1 -> N-i (after the global degree shift of the mirror: rank (i) -> (-i), torsion (i) -> (1-i)). *)
From Coq Require Import List Arith Bool ZArith Lia.
Require Import Yui.Base.Ring Yui.Base.MatF Yui.Proofs.C07Algebra.
Require Import Yui.Model.KhCube Yui.Model.KhHomology.
Require Import Yui.Proofs.KhSmithRows Yui.Proofs.KhSmithMat Yui.Proofs.KhSmithSteps Yui.Proofs.KhSmithMain.
Import ListNotations.
Open Scope Z_scope.

(* (a) transpose *)
Definition ztr (A : zmat) : zmat := fun i j => A j i.

Lemma diagZ_sym ds i j : diagZ ds j i = diagZ ds i j.
Proof.
  unfold diagZ. rewrite (Nat.eqb_sym j i). destruct (Nat.eqb_spec i j) as [->|]; reflexivity.
Qed.

Theorem SmithOf_transpose m n A ds : SmithOf m n A ds -> SmithOf n m (ztr A) ds.
Proof.
  intros [H1 [H2 [H3 H4]]]. split; [exact H1|]. split; [exact H2|]. split; [lia|].
  apply (equiv_meq_r n m _ (ztr (diagZ ds))); [exact (equiv_tr m n A (diagZ ds) H4)|].
  intros i j _ _. unfold ztr. apply diagZ_sym.
Qed.

(* (b) the table arithmetic *)
Fixpoint tables_from (ns : list nat) (Ds : list (list Z)) (dprev : list Z) : list group :=
  match ns, Ds with
  | n :: ns', dk :: Ds' => group_at n dprev dk :: tables_from ns' Ds' dk
  | _, _ => []
  end.
Definition tables (ns : list nat) (Ds : list (list Z)) : list group := tables_from ns Ds [].

Definition g0 : group := mk_group 0 [] 0 0.

Lemma tables_from_nth ns : forall Ds dprev i, (i < length ns)%nat -> (i < length Ds)%nat ->
  nth i (tables_from ns Ds dprev) g0
  = group_at (nth i ns O) (match i with O => dprev | S j => nth j Ds [] end) (nth i Ds []).
Proof.
  induction ns as [|n ns IH]; intros [|dk Ds] dprev i Hn HD; cbn [length] in *; try lia.
  cbn [tables_from]. destruct i as [|i]; [reflexivity|]. cbn [nth].
  rewrite IH by lia. destruct i; reflexivity.
Qed.

Lemma tables_from_length ns : forall Ds d, (length (tables_from ns Ds d) <= length ns)%nat.
Proof.
  induction ns as [|n ns IH]; intros [|dk Ds] d; cbn [tables_from length]; try lia.
  specialize (IH Ds dk). lia.
Qed.

(* the model's tables are [tables_from] of the generator counts and the factor lists *)
Lemma groups_from_tables c sel todo : forall k dprev gs,
  groups_from c sel k todo dprev = Some gs ->
  exists Ds, length Ds = todo /\
    (forall j, (j < todo)%nat -> factors c (k + j) sel = Some (nth j Ds [])) /\
    map snd gs = tables_from (map (fun k => count_gens c k sel) (seq k todo)) Ds dprev.
Proof.
  induction todo as [|m IH]; intros k dprev gs H; cbn [groups_from] in H.
  - injection H as <-. exists []. split; [reflexivity|]. split; [intros j Hj; lia|reflexivity].
  - destruct (factors c k sel) as [dk|] eqn:Ef; [|discriminate].
    destruct (groups_from c sel (S k) m dk) as [rest|] eqn:Er; [|discriminate].
    injection H as <-. destruct (IH (S k) dk rest Er) as [Ds [HL [HF HT]]].
    exists (dk :: Ds). split; [cbn [length]; now rewrite HL|]. split.
    + intros [|j] Hj; cbn [nth]; [now rewrite Nat.add_0_r|].
      replace (k + S j)%nat with (S k + j)%nat by lia. apply HF. lia.
    + cbn [map snd seq tables_from]. now rewrite HT.
Qed.

(* exchanging the two factor lists: rank and F_p-dimensions stay, the torsion is that of the next degree *)
Lemma group_at_swap n dprev dk :
  g_rank (group_at n dk dprev) = g_rank (group_at n dprev dk) /\
  g_dim2 (group_at n dk dprev) = g_dim2 (group_at n dprev dk) /\
  g_dim3 (group_at n dk dprev) = g_dim3 (group_at n dprev dk) /\
  forall n' dnext, g_tors (group_at n dk dprev) = g_tors (group_at n' dk dnext).
Proof. unfold group_at. cbn [g_rank g_dim2 g_dim3 g_tors]. repeat split; lia. Qed.

Section Dual.
Variable ns : list nat.               (* n_0 .. n_N *)
Variable Ds0 : list (list Z).         (* factors of d_0 .. d_(N-1);  d_N = 0 *)
Variable N : nat.
Hypothesis Hns : length ns = S N.
Hypothesis HDs : length Ds0 = N.

Definition orig_tables : list group := tables ns (Ds0 ++ [[]]).
Definition dual_tables_of : list group := tables (rev ns) (rev Ds0 ++ [[]]).

Definition Dat (i : nat) : list Z := nth i (Ds0 ++ [[]]) [].
Definition Dprev (i : nat) : list Z := match i with O => [] | S j => Dat j end.

Lemma orig_nth i : (i <= N)%nat -> nth i orig_tables g0 = group_at (nth i ns O) (Dprev i) (Dat i).
Proof.
  intros Hi. unfold orig_tables, tables. rewrite tables_from_nth; [reflexivity|lia|].
  rewrite app_length. cbn [length]. lia.
Qed.

Lemma dual_nth i : (i <= N)%nat -> nth (N - i) dual_tables_of g0 = group_at (nth i ns O) (Dat i) (Dprev i).
Proof.
  intros Hi. unfold dual_tables_of, tables.
  rewrite tables_from_nth; [|rewrite rev_length; lia|rewrite app_length, rev_length; cbn [length]; lia].
  f_equal.
  - rewrite rev_nth by lia. f_equal. lia.
  - (* previous list of the dual in degree N-i  =  D_i *)
    unfold Dat. destruct (Nat.eq_dec i N) as [->|Hne].
    + rewrite Nat.sub_diag. rewrite app_nth2 by lia. now rewrite HDs, Nat.sub_diag.
    + destruct (N - i)%nat as [|j] eqn:Ej; [lia|].
      rewrite app_nth1 by (rewrite rev_length; lia). rewrite rev_nth by lia.
      rewrite app_nth1 by lia. f_equal. lia.
  - (* current list of the dual in degree N-i  =  D_(i-1) *)
    unfold Dprev, Dat. destruct i as [|i].
    + rewrite Nat.sub_0_r. rewrite app_nth2 by (rewrite rev_length; lia).
      now rewrite rev_length, HDs, Nat.sub_diag.
    + rewrite app_nth1 by (rewrite rev_length; lia). rewrite rev_nth by lia.
      rewrite app_nth1 by lia. f_equal. lia.
Qed.

Theorem dual_tables i : (i <= N)%nat ->
  let g := nth i orig_tables g0 in
  let g' := nth (N - i) dual_tables_of g0 in
  g_rank g' = g_rank g /\ g_dim2 g' = g_dim2 g /\ g_dim3 g' = g_dim3 g /\
  g_tors g' = g_tors (nth (S i) orig_tables g0) /\
  g_tors (nth 0 orig_tables g0) = [].
Proof.
  intros Hi. cbv zeta. rewrite orig_nth, dual_nth by exact Hi.
  destruct (group_at_swap (nth i ns O) (Dprev i) (Dat i)) as [E1 [E2 [E3 E4]]].
  split; [exact E1|]. split; [exact E2|]. split; [exact E3|]. split.
  - destruct (Nat.eq_dec i N) as [->|Hne].
    + (* degree N: D_N = [] and there is no degree N+1 *)
      rewrite (nth_overflow orig_tables).
      * unfold group_at, Dat. cbn [g_tors g0]. rewrite app_nth2 by lia. now rewrite HDs, Nat.sub_diag.
      * unfold orig_tables, tables. pose proof (tables_from_length ns (Ds0 ++ [[]]) []). lia.
    + rewrite orig_nth by lia. apply E4.
  - rewrite orig_nth by lia. reflexivity.
Qed.

End Dual.
