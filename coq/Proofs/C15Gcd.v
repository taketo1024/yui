(* C15: correctness of the generic EucRing::{divides, gcd, gcdx, lcm} (Model/Euclid.v, section
   Generic) for every dictionary that satisfies [euc_dict_laws]: a commutative integral domain with
   the unit laws of Base/Ring.v and a division with remainder whose potential [Phi] at least halves
   (Phi = norm for Z[i], norm^3 for Z[omega]).  The fuel [fuel_of (Phi y)] is proved sufficient. *)
From Coq Require Import ZArith Lia Bool Ring.
Require Import Yui.Base.Ring Yui.Model.Euclid.
Local Open Scope Z_scope.

Definition dict_units {R} (D : euc_dict R) : unit_ops R :=
  mk_unit_ops R (d_is_unit D) (d_inv D) (d_nunit D).

(* The laws of the normalizing unit from a set [P] of normal forms that meets every class of associates exactly
   once: [rnunit u a] carries [a] into [P], it is 1 on [P], and a unit that keeps an element of [P] in [P] fixes it. *)
Section NormalForms.
  Context {R : Type} (o : ring_ops R) (L : ring_laws o) (u : unit_ops R) (P : R -> Prop).
  Add Ring NFring : (ring_theory_of_laws o L).
  Hypothesis inv_some : forall a b, rinv u a = Some b -> rmul o a b = rone o.
  Hypothesis inv_unit : forall a, ris_unit u a = true <-> exists b, rinv u a = Some b.
  Hypothesis unit_complete : forall a b, rmul o a b = rone o -> ris_unit u a = true.
  Hypothesis nunit_normal : forall a, ris_unit u (rnunit u a) = true /\ P (rmul o a (rnunit u a)).
  Hypothesis normal_nunit : forall a, P a -> rnunit u a = rone o.
  Hypothesis normal_unique : forall a v, ris_unit u v = true -> P a -> P (rmul o a v) -> rmul o a v = a.

  Lemma unit_laws_of_normal_forms : unit_laws o u.
  Proof.
    constructor; try assumption.
    - apply nunit_normal.
    - intros a. apply normal_nunit, nunit_normal.
    - (* a v m = (a n) (n' v m) with both a v m and a n in P, where n n' = 1 *)
      intros a v Hv. set (n := rnunit u a). set (m := rnunit u (rmul o a v)).
      assert (I : forall x, ris_unit u x = true -> exists x', rmul o x x' = rone o).
      { intros x [x' E]%inv_unit. eauto. }
      destruct (I v Hv) as [v' Ev], (I n (proj1 (nunit_normal a))) as [n' En],
        (I m (proj1 (nunit_normal (rmul o a v)))) as [m' Em].
      assert (E : rmul o (rmul o a n) (rmul o n' (rmul o v m)) = rmul o (rmul o a v) m).
      { transitivity (rmul o (rmul o n n') (rmul o (rmul o a v) m)); [ring|rewrite En; ring]. }
      rewrite <- E. apply normal_unique; [|apply nunit_normal|rewrite E; apply nunit_normal].
      apply (unit_complete _ (rmul o n (rmul o v' m'))).
      transitivity (rmul o (rmul o n n') (rmul o (rmul o v v') (rmul o m m'))); [ring|rewrite En, Ev, Em; ring].
  Qed.
End NormalForms.

Record euc_dict_laws {R} (D : euc_dict R) (Phi : R -> Z) : Prop := mk_euc_dict_laws {
  l_ring : ring_laws (d_ring D);
  l_integral : integral (d_ring D);
  l_units : unit_laws (d_ring D) (dict_units D);
  l_phi_nonneg : forall a, 0 <= Phi a;
  l_phi_zero : forall a, Phi a = 0 -> a = rzero (d_ring D);
  l_phi_mul : forall b c, b <> rzero (d_ring D) -> c <> rzero (d_ring D) -> Phi b <= Phi (rmul (d_ring D) c b);
  l_div_zero : forall a, d_div D a (rzero (d_ring D)) = None /\ d_rem D a (rzero (d_ring D)) = None;
  l_div_rem : forall a b, b <> rzero (d_ring D) ->
      exists q r, d_div D a b = Some q /\ d_rem D a b = Some r /\
                  a = radd (d_ring D) (rmul (d_ring D) q b) r /\ 2 * Phi r <= Phi b;
}.

Section GenericProofs.
  Context {R : Type} (D : euc_dict R) (Phi : R -> Z) (EL : euc_dict_laws D Phi).
  Declare Scope R_scope.
  Notation o := (d_ring D).
  Notation "0" := (rzero o) : R_scope.
  Notation "1" := (rone o) : R_scope.
  Notation "a + b" := (radd o a b) : R_scope.
  Notation "a * b" := (rmul o a b) : R_scope.
  Notation "a - b" := (rsub o a b) : R_scope.
  Notation "- a" := (rneg o a) : R_scope.
  Delimit Scope R_scope with R.

  Let L : ring_laws o := l_ring D Phi EL.
  Let U := l_units D Phi EL.
  Add Ring Rring : (ring_theory_of_laws o L).

  Definition dvd (a b : R) : Prop := exists c, b = (c * a)%R.
  Definition unit (v : R) : Prop := d_is_unit D v = true.
  Definition assoc (a b : R) : Prop := exists v, unit v /\ b = (a * v)%R.
  Definition is_gcd (d x y : R) : Prop := dvd d x /\ dvd d y /\ forall c, dvd c x -> dvd c y -> dvd c d.

  Lemma is_zero_spec a : is_zero D a = true <-> a = 0%R.
  Proof. apply (reqb_eq o L). Qed.
  Lemma is_zero_reflect a : reflect (a = 0%R) (is_zero D a).
  Proof. apply (reqb_spec o L). Qed.
  Lemma is_one_reflect a : reflect (a = 1%R) (is_one D a).
  Proof. apply (reqb_spec o L). Qed.

  Lemma mul_zero_cases a b : (a * b)%R = 0%R -> a = 0%R \/ b = 0%R.
  Proof. apply (proj2 (l_integral D Phi EL)). Qed.

  Lemma normalized_eq a : normalized D a = (a * d_nunit D a)%R.
  Proof.
    unfold normalized. destruct (is_one_reflect (d_nunit D a)) as [E|_]; [|reflexivity].
    rewrite E. ring.
  Qed.

  Lemma nunit_unit a : unit (d_nunit D a).
  Proof. exact (rnunit_unit o _ U a). Qed.
  Lemma nunit_normalized a : d_nunit D (normalized D a) = 1%R.
  Proof. rewrite normalized_eq. exact (rnunit_idem o _ U a). Qed.
  Lemma nunit_zero : d_nunit D 0%R = 1%R.
  Proof.
    pose proof (rnunit_idem o _ U 0%R) as H. cbn in H.
    replace (0 * d_nunit D 0)%R with 0%R in H by ring. exact H.
  Qed.
  Lemma normalized_zero : normalized D 0%R = 0%R.
  Proof. rewrite normalized_eq. ring. Qed.

  Lemma unit_has_inverse v : unit v -> exists w, (v * w)%R = 1%R.
  Proof.
    intros Hv. apply (rinv_unit o _ U) in Hv. destruct Hv as [w Hw]. exists w.
    exact (rinv_some o _ U v w Hw).
  Qed.

  Lemma dvd_refl a : dvd a a.
  Proof. exists 1%R. ring. Qed.
  Lemma dvd_zero a : dvd a 0%R.
  Proof. exists 0%R. ring. Qed.
  Lemma dvd_trans a b c : dvd a b -> dvd b c -> dvd a c.
  Proof. intros [x ->] [y ->]. exists (y * x)%R. ring. Qed.
  Lemma dvd_zero_l a : dvd 0%R a -> a = 0%R.
  Proof. intros [c ->]. ring. Qed.
  Lemma dvd_mul_unit a v : unit v -> dvd (a * v)%R a.
  Proof. intros Hv. destruct (unit_has_inverse v Hv) as [w Hw]. exists w. rewrite <- (rmul_1_l o L a) at 1. rewrite <- Hw. ring. Qed.
  Lemma dvd_mul_r a v : dvd a (a * v)%R.
  Proof. exists v. ring. Qed.
  Lemma dvd_normalized_l a b : dvd (normalized D a) b <-> dvd a b.
  Proof.
    rewrite normalized_eq. split; intros H.
    - eapply dvd_trans; [apply dvd_mul_r|exact H].
    - eapply dvd_trans; [apply dvd_mul_unit, nunit_unit|exact H].
  Qed.
  Lemma dvd_normalized_r a b : dvd a (normalized D b) <-> dvd a b.
  Proof.
    rewrite normalized_eq. split; intros H.
    - eapply dvd_trans; [exact H|apply dvd_mul_unit, nunit_unit].
    - eapply dvd_trans; [exact H|apply dvd_mul_r].
  Qed.
  Lemma is_gcd_normalized d x y : is_gcd d x y -> is_gcd (normalized D d) x y.
  Proof.
    intros (H1 & H2 & H3). repeat split; try (apply dvd_normalized_l; assumption).
    intros c Hx Hy. apply dvd_normalized_r. auto.
  Qed.
  Lemma is_gcd_sym d x y : is_gcd d x y -> is_gcd d y x.
  Proof. intros (H1 & H2 & H3). repeat split; auto. Qed.

  (* exact division: when b | a the remainder is zero *)
  Lemma rem_of_multiple a b q r : b <> 0%R -> dvd b a ->
    a = (q * b + r)%R -> 2 * Phi r <= Phi b -> r = 0%R.
  Proof.
    intros Hb [c Hc] E Hphi.
    assert (Er : r = ((c - q) * b)%R).
    { transitivity (a - q * b)%R; [rewrite E; ring|rewrite Hc; ring]. }
    destruct (is_zero_reflect (c - q)%R) as [Z|NZ].
    - rewrite Er, Z. ring.
    - pose proof (l_phi_mul D Phi EL b (c - q)%R Hb NZ) as H1. rewrite <- Er in H1.
      pose proof (l_phi_nonneg D Phi EL r) as H2.
      assert (Phi b = 0) by lia. exfalso. apply Hb. now apply (l_phi_zero D Phi EL).
  Qed.

  (* a multiple is divided exactly *)
  Lemma div_of_multiple c b : b <> 0%R -> d_div D (c * b)%R b = Some c /\ d_rem D (c * b)%R b = Some 0%R.
  Proof.
    intros Hb. destruct (l_div_rem D Phi EL (c * b)%R b Hb) as (q & r & -> & -> & E & Hphi).
    assert (Zr : r = 0%R) by (apply (rem_of_multiple (c * b)%R b q); [assumption|exists c; reflexivity|assumption..]).
    subst r. split; [|reflexivity]. f_equal.
    assert (Z : ((q - c) * b)%R = 0%R) by (transitivity (q * b + 0 - c * b)%R; [ring|rewrite <- E; ring]).
    destruct (mul_zero_cases _ _ Z) as [Z'|]; [|contradiction].
    transitivity (q - c + c)%R; [ring|rewrite Z'; ring].
  Qed.

  Lemma divides_spec x y :
    exists b, divides D x y = Some b /\ (b = true <-> x <> 0%R /\ dvd x y).
  Proof.
    unfold divides. destruct (is_zero_reflect x) as [Zx|NZx].
    - exists false. split; [reflexivity|]. split; [discriminate|]. intros [H _]. contradiction.
    - destruct (l_div_rem D Phi EL y x NZx) as (q & r & _ & Hr & E & Hphi). rewrite Hr. cbn [obind].
      eexists. split; [reflexivity|]. rewrite is_zero_spec. split.
      + intros ->. split; [assumption|]. exists q. rewrite E. ring.
      + intros [_ Hd]. eapply rem_of_multiple; eauto.
  Qed.

  Lemma gcd_loop_total : forall f x y, Phi y < 2 ^ Z.of_nat f -> exists d, gcd_loop D (S f) x y = Some d.
  Proof.
    induction f as [|f IH]; intros x y Hphi; cbn [gcd_loop].
    - destruct (is_zero_reflect y) as [Zy|NZy]; [eauto|]. exfalso. apply NZy.
      apply (l_phi_zero D Phi EL). pose proof (l_phi_nonneg D Phi EL y). cbn in Hphi. lia.
    - destruct (is_zero_reflect y) as [Zy|NZy]; [eauto|].
      destruct (l_div_rem D Phi EL x y NZy) as (q & r & _ & Hr & E & H2). rewrite Hr. cbn [obind].
      apply IH. rewrite Nat2Z.inj_succ, Z.pow_succ_r in Hphi by lia. lia.
  Qed.

  Lemma fuel_of_spec phi : 0 <= phi -> exists f, fuel_of phi = S f /\ phi < 2 ^ Z.of_nat f.
  Proof.
    intros H. unfold fuel_of. eexists. split; [reflexivity|].
    pose proof (Z.log2_nonneg phi). rewrite Z2Nat.id by lia.
    destruct (Z.eq_dec phi 0) as [->|NZ]; [cbn; lia|].
    pose proof (Z.log2_spec phi ltac:(lia)). unfold Z.succ in *. lia.
  Qed.

  Lemma gcd_loop_fuel x y : exists d, gcd_loop D (fuel_of (Phi y)) x y = Some d.
  Proof.
    destruct (fuel_of_spec (Phi y) (l_phi_nonneg D Phi EL y)) as (f & -> & Hf).
    now apply gcd_loop_total.
  Qed.

  Lemma gcd_loop_is_gcd : forall fuel x y d, gcd_loop D fuel x y = Some d -> is_gcd d x y.
  Proof.
    induction fuel as [|f IH]; intros x y d E; cbn [gcd_loop] in E; [discriminate|].
    destruct (is_zero_reflect y) as [Zy|NZy].
    - injection E as <-. subst y. repeat split; auto using dvd_refl, dvd_zero.
    - destruct (l_div_rem D Phi EL x y NZy) as (q & r & _ & Hr & Ex & _). rewrite Hr in E. cbn [obind] in E.
      apply IH in E. destruct E as (H1 & H2 & H3). repeat split; [|assumption|].
      + destruct H1 as [c1 Hc1], H2 as [c2 Hc2]. exists (q * c1 + c2)%R. rewrite Ex, Hc2 at 1. rewrite Hc1 at 1. ring.
      + intros c [cx Hx] [cy Hy]. apply H3; [exists cy; assumption|].
        exists (cx - q * cy)%R. transitivity (x - q * y)%R; [rewrite Ex; ring|]. rewrite Hx, Hy. ring.
  Qed.

  (* gcdx runs the same remainder sequence and maintains the Bezout combination *)
  Lemma gcdx_loop_spec X Y : forall fuel x y s0 s1 t0 t1,
    x = (s0 * X + t0 * Y)%R -> y = (s1 * X + t1 * Y)%R ->
    match gcd_loop D fuel x y with
    | Some d => exists s t, gcdx_loop D fuel x y s0 s1 t0 t1 = Some (d, s, t) /\ d = (s * X + t * Y)%R
    | None => gcdx_loop D fuel x y s0 s1 t0 t1 = None
    end.
  Proof.
    induction fuel as [|f IH]; intros x y s0 s1 t0 t1 Hx Hy; cbn [gcd_loop gcdx_loop]; [reflexivity|].
    destruct (is_zero_reflect y) as [Zy|NZy]; [eauto|].
    destruct (l_div_rem D Phi EL x y NZy) as (q & r & Hq & Hr & Ex & _). rewrite Hq, Hr. cbn [obind].
    apply IH; [assumption|].
    transitivity (x - q * y)%R; [rewrite Ex; ring|]. rewrite Hx, Hy. ring.
  Qed.

  Definition good_fuel (fuel : nat) (y : R) : Prop := exists f, fuel = S f /\ Phi y < 2 ^ Z.of_nat f.
  Lemma good_fuel_of y : good_fuel (fuel_of (Phi y)) y.
  Proof. apply fuel_of_spec, (l_phi_nonneg D Phi EL). Qed.

  (* every return of gcd other than 0 is a normalised gcd *)
  Lemma gcd_return d x y : is_gcd d x y ->
    exists d', Some (normalized D d) = Some d' /\ is_gcd d' x y /\ d_nunit D d' = 1%R.
  Proof. intros G. eexists. split; [reflexivity|]. split; [now apply is_gcd_normalized|apply nunit_normalized]. Qed.

  Lemma gcd_spec fuel x y : good_fuel fuel y ->
    exists d, gcd D fuel x y = Some d /\ is_gcd d x y /\ d_nunit D d = 1%R.
  Proof.
    intros (f & -> & Hf). unfold gcd.
    destruct (is_zero_reflect x) as [Zx|NZx]; destruct (is_zero_reflect y) as [Zy|NZy]; cbn [andb].
    - exists 0%R. subst. repeat split; auto using dvd_zero, nunit_zero.
    - (* x = 0, y <> 0 : the second early return *)
      destruct (divides_spec x y) as (b1 & -> & Hb1). cbn [obind].
      destruct b1; [exfalso; apply (proj1 (proj1 Hb1 eq_refl)); assumption|].
      destruct (divides_spec y x) as (b2 & -> & Hb2). cbn [obind].
      assert (b2 = true) as -> by (apply Hb2; split; [assumption|subst x; apply dvd_zero]).
      apply gcd_return. subst x. repeat split; auto using dvd_refl, dvd_zero.
    - destruct (divides_spec x y) as (b1 & -> & Hb1). cbn [obind].
      assert (b1 = true) as -> by (apply Hb1; split; [assumption|subst y; apply dvd_zero]).
      apply gcd_return. subst y. repeat split; auto using dvd_refl, dvd_zero.
    - destruct (divides_spec x y) as (b1 & -> & Hb1). cbn [obind]. destruct b1.
      { destruct (proj1 Hb1 eq_refl) as [_ Hd]. apply gcd_return. repeat split; auto using dvd_refl. }
      destruct (divides_spec y x) as (b2 & -> & Hb2). cbn [obind]. destruct b2.
      { destruct (proj1 Hb2 eq_refl) as [_ Hd]. apply gcd_return. repeat split; auto using dvd_refl. }
      destruct (gcd_loop_total f x y Hf) as [d Hd]. rewrite Hd. cbn [obind].
      apply gcd_return. eapply gcd_loop_is_gcd; eassumption.
  Qed.

  (* two normalised gcds of the same pair are equal *)
  Lemma is_gcd_unique d d' x y :
    is_gcd d x y -> is_gcd d' x y -> d_nunit D d = 1%R -> d_nunit D d' = 1%R -> d = d'.
  Proof.
    intros (A1 & A2 & A3) (B1 & B2 & B3) N1 N2.
    destruct (B3 d A1 A2) as [c Hc]. destruct (A3 d' B1 B2) as [c' Hc'].
    (* d' = c * d, d = c' * d' *)
    destruct (is_zero_reflect d) as [Zd|NZd].
    - rewrite Hc, Zd. ring.
    - assert (E : ((c * c' - 1) * d)%R = 0%R).
      { transitivity (c' * (c * d) - d)%R; [ring|]. rewrite <- Hc, <- Hc'. ring. }
      apply mul_zero_cases in E. destruct E as [E|E]; [|contradiction].
      assert (E1 : (c * c')%R = 1%R).
      { transitivity ((c * c' - 1) + 1)%R; [ring|]. rewrite E. ring. }
      assert (Uc : unit c) by exact (runit_complete o _ U c c' E1).
      pose proof (rnunit_assoc o _ U d c Uc) as H. cbn in H.
      replace (d * c)%R with d' in H by (rewrite Hc; ring).
      rewrite N1, N2 in H. transitivity (d * 1)%R; [ring|]. rewrite <- H. ring.
  Qed.

  Lemma gcd_comm fuel fuel' x y d d' : good_fuel fuel y -> good_fuel fuel' x ->
    gcd D fuel x y = Some d -> gcd D fuel' y x = Some d' -> d = d'.
  Proof.
    intros F F' E E'.
    destruct (gcd_spec fuel x y F) as (d1 & E1 & G1 & N1).
    destruct (gcd_spec fuel' y x F') as (d2 & E2 & G2 & N2).
    rewrite E in E1. rewrite E' in E2. injection E1 as <-. injection E2 as <-.
    eapply is_gcd_unique; eauto using is_gcd_sym.
  Qed.

  Lemma gcd_zero_iff fuel x y d : good_fuel fuel y -> gcd D fuel x y = Some d ->
    (d = 0%R <-> x = 0%R /\ y = 0%R).
  Proof.
    intros F E. destruct (gcd_spec fuel x y F) as (d1 & E1 & (G1 & G2 & G3) & _).
    rewrite E in E1. injection E1 as <-. split.
    - intros ->. split; now apply dvd_zero_l.
    - intros [-> ->]. apply dvd_zero_l. apply G3; apply dvd_refl.
  Qed.

  Lemma gcdx_spec fuel x y : good_fuel fuel y ->
    exists d s t, gcdx D fuel x y = Some (d, s, t) /\ gcd D fuel x y = Some d /\ (s * x + t * y)%R = d.
  Proof.
    intros (f & -> & Hf). unfold gcdx, gcd.
    destruct (is_zero D x && is_zero D y) eqn:Ez.
    { apply andb_true_iff in Ez. destruct Ez as [Zx%is_zero_spec Zy%is_zero_spec]. subst.
      do 3 eexists. split; [reflexivity|]. split; [reflexivity|]. ring. }
    destruct (divides_spec x y) as (b1 & -> & Hb1). cbn [obind]. destruct b1.
    { do 3 eexists. split; [reflexivity|]. split; [rewrite normalized_eq; reflexivity|]. ring. }
    destruct (divides_spec y x) as (b2 & -> & Hb2). cbn [obind]. destruct b2.
    { do 3 eexists. split; [reflexivity|]. split; [rewrite normalized_eq; reflexivity|]. ring. }
    destruct (gcd_loop_total f x y Hf) as [d Hd].
    pose proof (gcdx_loop_spec x y (S f) x y 1%R 0%R 0%R 1%R) as H. rewrite Hd in H.
    destruct H as (s & t & -> & Hst); [ring|ring|]. rewrite Hd. cbn [obind]. rewrite normalized_eq.
    destruct (is_one_reflect (d_nunit D d)) as [E1|NE1].
    - do 3 eexists. split; [reflexivity|]. split; [rewrite E1; f_equal; ring|]. symmetry. exact Hst.
    - do 3 eexists. split; [reflexivity|]. split; [reflexivity|]. rewrite Hst at 3. ring.
  Qed.

  Lemma lcm_spec fuel x y : good_fuel fuel y -> ~ (x = 0%R /\ y = 0%R) ->
    exists m g, lcm D fuel x y = Some m /\ gcd D fuel x y = Some g /\
                assoc (x * y)%R (m * g)%R /\ d_nunit D m = 1%R.
  Proof.
    intros F NZ. destruct (gcd_spec fuel x y F) as (g & Eg & (G1 & G2 & G3) & Ng).
    assert (NZg : g <> 0%R). { intros Zg. apply NZ. eapply gcd_zero_iff; eauto. }
    unfold lcm. rewrite Eg. cbn [obind].
    destruct (l_div_rem D Phi EL y g NZg) as (q & r & -> & _ & Ey & Hphi). cbn [obind].
    assert (Zr : r = 0%R) by (eapply rem_of_multiple; eauto).
    do 2 eexists. split; [reflexivity|]. split; [reflexivity|]. split; [|apply nunit_normalized].
    exists (d_nunit D (x * q)%R). split; [apply nunit_unit|].
    rewrite normalized_eq. rewrite Ey at 1. rewrite Zr. ring.
  Qed.

  Lemma lcm_zero_zero fuel x y : x = 0%R /\ y = 0%R -> lcm D fuel x y = None.
  Proof.
    intros [-> ->]. unfold lcm, gcd. destruct (is_zero_reflect 0%R) as [_|N]; [|contradiction]. cbn [andb obind].
    rewrite (proj1 (l_div_zero D Phi EL 0%R)). reflexivity.
  Qed.

  Lemma normalized_idem a : normalized D (normalized D a) = normalized D a.
  Proof. rewrite (normalized_eq (normalized D a)), nunit_normalized. ring. Qed.
  Lemma normalized_assoc a v : unit v -> normalized D (a * v)%R = normalized D a.
  Proof. intros Hv. rewrite !normalized_eq. exact (rnunit_assoc o _ U a v Hv). Qed.
  Lemma normalized_is_assoc a : assoc a (normalized D a).
  Proof. exists (d_nunit D a). split; [apply nunit_unit|apply normalized_eq]. Qed.
End GenericProofs.
