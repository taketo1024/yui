(* C09 - termination of eliminate_at (no "Detect endless loop" panic, the while loop ends within the fuel
   2*log2 N(pivot) + 4) and hence of the whole run, relative to the termination of EucRing::gcdx
   ([gcdx_total]) and of the preprocessing ([pre_total]).
   One iteration of the loop = eliminate_col; eliminate_row at the pivot (i, i):
     - eliminate_col clears column i (every step replaces the pivot by a divisor d = s*x + t*y of itself and
       makes the entry below zero), possibly filling row i;
     - eliminate_row clears row i; a step whose cofactor x/d is a unit takes the shortcut (d, (x/d)^-1, 0) of
       SnfCalc::gcdx and therefore only scales column i, every other step replaces the pivot by a PROPER divisor.
   So after an iteration either row and column are clean (the loop test fails next time) or the pivot is a
   proper divisor of the previous one, whose norm is at most half as large.
   At the end of the file: [snf_terminates], [snf_total] (the call returns and meets [snf_spec]) and the closed
   instances for Z, Z[i], Z[omega], Q, F_2, F_p.  [norm_laws], [gcdx_total] are defined in C09Term.v. *)
From Coq Require Import ZArith NArith List Bool Arith Lia Ring.
Require Import Yui.Base.Ring Yui.Base.MatF Yui.Base.MatL Yui.Model.Snf Yui.Proofs.C09Mat Yui.Proofs.C09Inv
  Yui.Proofs.C09Run Yui.Proofs.C09Exit Yui.Proofs.C09Diag Yui.Proofs.C09Laws Yui.Proofs.C09Term
  Yui.Proofs.C09Total.
Require Import Yui.Base.ListFacts.
Import ListNotations.

Lemma filter_at_most_one {X : Type} (p : X -> bool) (d : X) (l : list X) : forall i,
  (forall k, k < length l -> k <> i -> p (nth k l d) = false) -> length (filter p l) <= 1.
Proof.
  induction l as [|x l IH]; intros i H; cbn [filter]; [cbn; lia|].
  destruct i as [|i].
  - assert (E : filter p l = []).
    { apply filter_none. intros y Hy. destruct (In_nth l y d Hy) as [k [Hk <-]].
      apply (H (S k)); cbn; lia. }
    rewrite E. destruct (p x); cbn; lia.
  - assert (E0 : p x = false) by (apply (H 0); cbn; lia). rewrite E0. apply (IH i). intros k Hk Hne. apply (H (S k)); cbn; lia.
Qed.

(* a fold over an index range that never fails and carries an invariant *)
Lemma ofold_seq_total {S : Type} (I : nat -> S -> Prop) (f : nat -> S -> option S) len : forall a s,
  (forall k x, a <= k < a + len -> I k x -> exists x', f k x = Some x' /\ I (Datatypes.S k) x') ->
  I a s -> exists s', ofold f (seq a len) s = Some s' /\ I (a + len) s'.
Proof.
  induction len as [|len IH]; intros a s Hf Hs; cbn [seq ofold].
  - exists s. rewrite Nat.add_0_r. now split.
  - destruct (Hf a s ltac:(lia) Hs) as [s1 [E H1]]. rewrite E.
    replace (a + Datatypes.S len) with (Datatypes.S a + len) by lia.
    apply IH; [|exact H1]. intros k x Hk. apply Hf. lia.
Qed.

Section Elim.
  Context {R : Type} (D : euc_dict R) (SL : snf_laws D) (NL : norm_laws D) (GT : gcdx_total D).
  Let o := ed_ring D.
  Let L : ring_laws o := sl_ring D SL.
  Add Ring Rring : (ring_theory_of_laws o L).

  Local Notation "0" := (rzero o).
  Local Notation "1" := (rone o).
  Local Infix "+" := (radd o).
  Local Infix "*" := (rmul o).
  Local Notation "- x" := (rneg o x).
  Local Notation get := (lget o).
  Local Notation nonunit := (nonunit D).
  Implicit Types T : lmat R.

  Variables m n : nat.

  Definition ColClean (i : nat) T : Prop := forall k, k < m -> k <> i -> get T k i = 0.
  Definition RowClean (i : nat) T : Prop := forall l, l < n -> l <> i -> get T i l = 0.

  Lemma col_nz_clean T i : wf m n T -> ColClean i T -> col_nz D T i <= 1.
  Proof.
    intros W H. unfold col_nz. apply (filter_at_most_one _ [] T i).
    intros k Hk Hne. apply negb_false_iff. apply (ris_zero_true o L).
    apply (H k); [destruct W; lia|exact Hne].
  Qed.

  Lemma row_nz_clean T i : wf m n T -> i < m -> RowClean i T -> row_nz D T i <= 1.
  Proof.
    intros W Hi H. unfold row_nz. apply (filter_at_most_one _ 0 (nth i T []) i).
    intros k Hk Hne. rewrite (wf_row m n T i W Hi) in Hk.
    apply negb_false_iff. apply (ris_zero_true o L). apply (H k Hk Hne).
  Qed.

  Lemma nonunit_mul_l c a : nonunit c -> nonunit (a * c).
  Proof. intros Hc z Hz. apply (Hc (a * z)). fold o. transitivity (a * c * z); [ring|exact Hz]. Qed.
  Lemma nonunit_mul_r c a : nonunit c -> nonunit (c * a).
  Proof. intros Hc z Hz. apply (Hc (a * z)). fold o. transitivity (c * a * z); [ring|exact Hz]. Qed.

  (* SnfCalc::gcdx on a non-zero pivot: total; t = 0 unless the cofactor x/d is a non-unit *)
  Lemma snf_gcdx_cases x y :
    x <> 0 ->
    exists d s t, snf_gcdx D x y = Some (d, s, t) /\
      d <> 0 /\ d = s * x + t * y /\
      x = rdiv (ed_euc D) x d * d /\ y = rdiv (ed_euc D) y d * d /\
      (t = 0 \/ nonunit (rdiv (ed_euc D) x d)).
  Proof.
    intros Hx. destruct (snf_gcdx_total D SL GT x y Hx) as (d & s & t & G).
    exists d, s, t. split; [exact G|].
    destruct (snf_gcdx_spec D SL _ _ _ _ _ G) as (Hd & Hb & Hxa & Hyb & _).
    repeat (split; [assumption|]).
    unfold snf_gcdx in G. destruct (ed_gcdx D x y) as [[[d0 s0] t0]|]; cbn [sbind] in G; [|discriminate].
    destruct (ris_zero (ed_ring D) d0); [discriminate|].
    destruct (rinv (ed_unit D) (rdiv (ed_euc D) x d0)) as [ai|] eqn:I; injection G as <- <- <-.
    - now left.
    - right. intros z Hz. destruct (nl_inv_complete D NL _ _ Hz) as [ai Hai]. congruence.
  Qed.

  Section AtPivot.
    Variable i : nat.
    Hypothesis Him : i < m.
    Hypothesis Hin : i < n.

    (* state of the column phase after the rows < k have been treated; p0 = the pivot at the start *)
    Definition CI (p0 : R) (s0 : state R) (k : nat) (sm : state R * bool) : Prop :=
      let T := st_t (fst sm) in
      wf m n T /\ get T i i <> 0 /\ (exists c, p0 = c * get T i i) /\
      (forall i1, i1 < k -> i1 < m -> i1 <> i -> get T i1 i = 0) /\
      (snd sm = false -> fst sm = s0).

    Lemma elim_col_body_total p0 s0 k sm :
      k < m -> CI p0 s0 k sm ->
      exists sm', elim_col_body D i i k sm = Some sm' /\ CI p0 s0 (S k) sm'.
    Proof.
      intros Hk (W & Hp & [c Hc] & Hcl & Hfl). unfold elim_col_body. cbv zeta.
      rewrite !mget_lget. fold o.
      (* nothing to do at k: it is the pivot row, or the entry is already zero *)
      assert (Hskip : k = i \/ get (st_t (fst sm)) k i = 0 -> CI p0 s0 (S k) sm).
      { intros Hs. split; [exact W|]. split; [exact Hp|]. split; [now exists c|]. split; [|exact Hfl].
        intros i1 H1 H2 H3. destruct (Nat.eq_dec i1 k) as [->|]; [destruct Hs; [contradiction|assumption]|apply Hcl; lia]. }
      destruct (Nat.eqb_spec k i) as [Hki|Hki]; cbn [orb]; [eexists; split; [reflexivity|apply Hskip; now left]|].
      destruct (ris_zero o (get (st_t (fst sm)) k i)) eqn:Z;
        [apply (ris_zero_true o L) in Z; eexists; split; [reflexivity|apply Hskip; now right]|].
      set (T := st_t (fst sm)) in *. set (x := get T i i) in *. set (y := get T k i) in *.
      destruct (snf_gcdx_cases x y Hp) as (d & sx & ty & G & Hd & Hb & Hxa & Hyb & _).
      rewrite G. cbn [sbind]. eexists. split; [reflexivity|].
      set (a := rdiv (ed_euc D) x d) in *. set (b := rdiv (ed_euc D) y d) in *. clearbody a b.
      unfold CI. cbn [fst snd s_left_elem st_t]. fold T.
      assert (HE : forall r l, r < m -> l < n ->
                get (m_left_elem D sx ty (- b) a i k T) r l =
                  if r =? k then get T i l * - b + get T k l * a
                  else if r =? i then get T i l * sx + get T k l * ty else get T r l).
      { intros r l Hr Hl. apply (get_left_elem D m n); assumption. }
      split; [now apply wf_left_elem|]. split; [|split; [|split; [|discriminate]]].
      - rewrite HE by assumption. destruct (Nat.eqb_spec i k); [congruence|]. rewrite Nat.eqb_refl.
        fold x. fold y. intros E. apply Hd. rewrite Hb, <- E. ring.
      - exists (c * a). rewrite HE by assumption. destruct (Nat.eqb_spec i k); [congruence|]. rewrite Nat.eqb_refl.
        fold x. fold y. replace (x * sx + y * ty) with d by (rewrite Hb; ring).
        rewrite Hc. fold x. rewrite Hxa at 1. ring.
      - intros i1 H1 H2 H3. rewrite HE by assumption.
        destruct (Nat.eqb_spec i1 k) as [->|Hne].
        + fold x. fold y. rewrite Hxa, Hyb. ring.
        + destruct (Nat.eqb_spec i1 i); [contradiction|]. apply Hcl; lia.
    Qed.

    Lemma eliminate_col_total s :
      wf m n (st_t s) -> get (st_t s) i i <> 0 ->
      exists r1, eliminate_col D m i i s = Some r1 /\
        wf m n (st_t (fst r1)) /\ get (st_t (fst r1)) i i <> 0 /\
        (exists c, get (st_t s) i i = c * get (st_t (fst r1)) i i) /\
        ColClean i (st_t (fst r1)) /\ (snd r1 = false -> fst r1 = s).
    Proof.
      intros W Hp. unfold eliminate_col.
      destruct (ofold_seq_total (CI (get (st_t s) i i) s) (elim_col_body D i i) m 0 (s, false)) as (r1 & E & HI).
      - intros k x Hk HI. apply elim_col_body_total; [lia|exact HI].
      - unfold CI. cbn [fst snd]. split; [exact W|]. split; [exact Hp|]. split; [exists 1; ring|].
        split; [intros; lia|reflexivity].
      - exists r1. split; [exact E|]. destruct HI as (W1 & Hp1 & Hc1 & Hcl & Hfl). cbn [Nat.add] in Hcl.
        split; [exact W1|]. split; [exact Hp1|]. split; [exact Hc1|]. split; [|exact Hfl].
        intros k Hk Hne. apply Hcl; assumption.
    Qed.

    Definition RI (p1 : R) (s0 : state R) (k : nat) (sm : state R * bool) : Prop :=
      let T := st_t (fst sm) in
      wf m n T /\ get T i i <> 0 /\
      (exists c, p1 = c * get T i i /\ (ColClean i T \/ nonunit c)) /\
      (forall j1, j1 < k -> j1 < n -> j1 <> i -> get T i j1 = 0) /\
      (snd sm = false -> fst sm = s0).

    Lemma elim_row_body_total p1 s0 k sm :
      k < n -> RI p1 s0 k sm ->
      exists sm', elim_row_body D i i k sm = Some sm' /\ RI p1 s0 (S k) sm'.
    Proof.
      intros Hk (W & Hp & [c [Hc Hcc]] & Hcl & Hfl). unfold elim_row_body. cbv zeta.
      rewrite !mget_lget. fold o.
      assert (Hskip : k = i \/ get (st_t (fst sm)) i k = 0 -> RI p1 s0 (S k) sm).
      { intros Hs. split; [exact W|]. split; [exact Hp|]. split; [now exists c|]. split; [|exact Hfl].
        intros j1 H1 H2 H3. destruct (Nat.eq_dec j1 k) as [->|]; [destruct Hs; [contradiction|assumption]|apply Hcl; lia]. }
      destruct (Nat.eqb_spec k i) as [Hki|Hki]; cbn [orb]; [eexists; split; [reflexivity|apply Hskip; now left]|].
      destruct (ris_zero o (get (st_t (fst sm)) i k)) eqn:Z;
        [apply (ris_zero_true o L) in Z; eexists; split; [reflexivity|apply Hskip; now right]|].
      set (T := st_t (fst sm)) in *. set (x := get T i i) in *. set (y := get T i k) in *.
      destruct (snf_gcdx_cases x y Hp) as (d & sx & ty & G & Hd & Hb & Hxa & Hyb & Hcase).
      rewrite G. cbn [sbind]. eexists. split; [reflexivity|].
      set (a := rdiv (ed_euc D) x d) in *. set (b := rdiv (ed_euc D) y d) in *. clearbody a b.
      unfold RI. cbn [fst snd s_right_elem st_t]. fold T.
      assert (HE : forall r l, r < m -> l < n ->
                get (m_right_elem D sx ty (- b) a i k T) r l =
                  if l =? k then get T r i * - b + get T r k * a
                  else if l =? i then get T r i * sx + get T r k * ty else get T r l).
      { intros r l Hr Hl. apply (get_right_elem D m n); assumption. }
      assert (Epiv : get (m_right_elem D sx ty (- b) a i k T) i i = d).
      { rewrite HE by assumption. destruct (Nat.eqb_spec i k); [congruence|]. rewrite Nat.eqb_refl.
        fold x. fold y. rewrite Hb. ring. }
      split; [now apply wf_right_elem|]. split; [|split; [|split; [|discriminate]]].
      - rewrite Epiv. exact Hd.
      - exists (c * a). rewrite Epiv. split.
        + rewrite Hc. fold x. rewrite Hxa at 1. ring.
        + destruct Hcase as [Ht0|Hnu]; [|right; now apply nonunit_mul_l].
          destruct Hcc as [Hclean|Hnu]; [left|right; now apply nonunit_mul_r].
          intros r Hr Hne. rewrite HE by assumption.
          destruct (Nat.eqb_spec i k); [congruence|]. rewrite Nat.eqb_refl.
          rewrite (Hclean r Hr Hne), Ht0. ring.
      - intros j1 H1 H2 H3. rewrite HE by assumption.
        destruct (Nat.eqb_spec j1 k) as [->|Hne].
        + fold x. fold y. rewrite Hxa, Hyb. ring.
        + destruct (Nat.eqb_spec j1 i); [contradiction|]. apply Hcl; lia.
    Qed.

    Lemma eliminate_row_total s :
      wf m n (st_t s) -> get (st_t s) i i <> 0 -> ColClean i (st_t s) ->
      exists r2, eliminate_row D n i i s = Some r2 /\
        wf m n (st_t (fst r2)) /\ get (st_t (fst r2)) i i <> 0 /\
        (exists c, get (st_t s) i i = c * get (st_t (fst r2)) i i /\ (ColClean i (st_t (fst r2)) \/ nonunit c)) /\
        RowClean i (st_t (fst r2)) /\ (snd r2 = false -> fst r2 = s).
    Proof.
      intros W Hp Hclean. unfold eliminate_row.
      destruct (ofold_seq_total (RI (get (st_t s) i i) s) (elim_row_body D i i) n 0 (s, false)) as (r2 & E & HI).
      - intros k x Hk HI. apply elim_row_body_total; [lia|exact HI].
      - unfold RI. cbn [fst snd]. split; [exact W|]. split; [exact Hp|].
        split; [exists 1; split; [ring|now left]|]. split; [intros; lia|reflexivity].
      - exists r2. split; [exact E|]. destruct HI as (W1 & Hp1 & Hc1 & Hcl & Hfl). cbn [Nat.add] in Hcl.
        split; [exact W1|]. split; [exact Hp1|]. split; [exact Hc1|]. split; [|exact Hfl].
        intros k Hk Hne. apply Hcl; assumption.
    Qed.

    Lemma eliminate_loop_total fuel : forall s,
      wf m n (st_t s) -> get (st_t s) i i <> 0 ->
      esize D (get (st_t s) i i) + 2 <= fuel \/
        (1 <= fuel /\ RowClean i (st_t s) /\ ColClean i (st_t s)) ->
      exists s', eliminate_loop D m n fuel i i s = Some s'.
    Proof.
      induction fuel as [|f IH]; intros s W Hp Hf; [lia|]. cbn [eliminate_loop].
      destruct ((1 <? row_nz D (st_t s) i) || (1 <? col_nz D (st_t s) i)) eqn:C; [|eexists; reflexivity].
      destruct Hf as [Hf|(_ & HR & HC)].
      2:{ exfalso. apply orb_true_iff in C. destruct C as [C|C]; apply Nat.ltb_lt in C.
          - pose proof (row_nz_clean (st_t s) i W Him HR). lia.
          - pose proof (col_nz_clean (st_t s) i W HC). lia. }
      destruct (eliminate_col_total s W Hp) as (r1 & E1 & W1 & Hp1 & [c0 Hc0] & HC1 & Hfl1).
      rewrite E1. cbn [sbind].
      destruct (eliminate_row_total (fst r1) W1 Hp1 HC1) as (r2 & E2 & W2 & Hp2 & [c [Hc Hcc]] & HR2 & Hfl2).
      rewrite E2. cbn [sbind].
      destruct (snd r1 || snd r2) eqn:Fl.
      - apply IH; try assumption.
        destruct Hcc as [HC2|Hnu].
        + right. split; [lia|]. split; assumption.
        + left.
          assert (Hlt : esize D (get (st_t (fst r2)) i i) < esize D (get (st_t s) i i)).
          { rewrite Hc0, Hc.
            replace (c0 * (c * get (st_t (fst r2)) i i)) with (c0 * c * get (st_t (fst r2)) i i) by ring.
            apply (esize_lt D NL); [exact Hp2| |now apply nonunit_mul_l].
            intros E. apply Hp. rewrite Hc0, Hc.
            replace (c0 * (c * get (st_t (fst r2)) i i)) with (c0 * c * get (st_t (fst r2)) i i) by ring.
            fold o in E. rewrite E. ring. }
          lia.
      - (* nothing was modified although the loop test held: impossible *)
        exfalso. apply orb_false_iff in Fl. destruct Fl as [F1 F2].
        rewrite (Hfl2 F2), (Hfl1 F1) in HR2. rewrite (Hfl1 F1) in HC1.
        apply orb_true_iff in C. destruct C as [C|C]; apply Nat.ltb_lt in C.
        + pose proof (row_nz_clean (st_t s) i W Him HR2). lia.
        + pose proof (col_nz_clean (st_t s) i W HC1). lia.
    Qed.

    Lemma eliminate_at_total s :
      wf m n (st_t s) -> get (st_t s) i i <> 0 ->
      exists s', eliminate_at D (default_fuel D) m n i i s = Some s'.
    Proof.
      intros W Hp. unfold eliminate_at. cbv zeta. rewrite mget_lget. fold o.
      replace (ris_zero o (get (st_t s) i i)) with false by (symmetry; now apply (ris_zero_false o L)).
      apply eliminate_loop_total; try assumption. left. cbn [default_fuel fp_elim]. fold o. lia.
    Qed.
  End AtPivot.
End Elim.

(* the preprocessing returns (C10: termination of lll_hnf; [True] without preprocessing) *)
Definition pre_total {R : Type} (D : euc_dict R) : Prop :=
  match ed_pre D with
  | None => True
  | Some f => forall m n b1 b2 (A : lmat R), wf m n A -> exists r, f m n b1 b2 A = Some r
  end.

Section RunTotal.
  Context {R : Type} (D : euc_dict R) (SL : snf_laws D) (NL : norm_laws D) (GT : gcdx_total D).
  Let o := ed_ring D.
  Local Notation get := (lget o).
  Local Notation dfl := (default_fuel D).

  Variables m n : nat.
  Variable A : lmat R.
  Variables f1 f2 f3 f4 : bool.
  Local Notation SI := (SInv D m n A f1 f2 f3 f4).

  Lemma SI_wf s : SI s -> wf m n (st_t s).
  Proof. intros (P & Pi & Q & Qi & W & _). exact W. Qed.

  Lemma eliminate_step_total i j s :
    i < m -> i <= j -> j < n -> SI s -> exists r, eliminate_step D dfl m n i j s = Some r.
  Proof.
    intros Hi Hij Hj HS. pose proof (SI_wf s HS) as W. unfold eliminate_step. cbv zeta.
    destruct (select_pivot D m (st_t s) i j) as [ip|] eqn:SP; [|eexists; reflexivity].
    apply (select_pivot_range D) in SP. destruct SP as [Hip Hnz].
    apply (ris_zero_false o (sl_ring D SL)) in Hnz. rewrite mget_lget in Hnz.
    set (s1 := if i <? ip then s_swap_rows i ip s else s).
    assert (H1 : wf m n (st_t s1) /\ get (st_t s1) i j <> rzero o).
    { unfold s1. destruct (Nat.ltb_spec i ip).
      - cbn [s_swap_rows st_t]. split; [apply wf_swap_rows; try assumption; lia|].
        rewrite (get_swap_rows D m n) by (try assumption; lia). unfold swp. now rewrite Nat.eqb_refl.
      - assert (ip = i) by lia. subst ip. now split. }
    destruct H1 as [W1 HP1].
    set (s2 := if i <? j then s_swap_cols i j s1 else s1).
    assert (H2 : wf m n (st_t s2) /\ get (st_t s2) i i <> rzero o).
    { unfold s2. destruct (Nat.ltb_spec i j).
      - cbn [s_swap_cols st_t]. split; [now apply wf_swap_cols|].
        rewrite (get_swap_cols D m n) by (try assumption; lia). unfold swp. now rewrite Nat.eqb_refl.
      - assert (j = i) by lia. subst j. now split. }
    destruct H2 as [W2 HP2].
    set (v := rnunit (ed_unit D) (mget D (st_t s2) i i)).
    destruct (sl_nunit_inv D SL (mget D (st_t s2) i i)) as [vi Hvi]. fold v in Hvi.
    assert (H3 : exists s3, (if ris_one (ed_ring D) v then Some s2 else s_mul_col D i v s2) = Some s3 /\
                            wf m n (st_t s3) /\ get (st_t s3) i i <> rzero o).
    { destruct (ris_one (ed_ring D) v).
      - exists s2. now split.
      - rewrite (s_mul_col_eq D i v vi s2 Hvi). eexists. split; [reflexivity|]. cbn [st_t].
        split; [now apply wf_mul_col|].
        rewrite (get_mul_col D m n) by (try assumption; lia). rewrite Nat.eqb_refl.
        intros E. destruct (mul_eq_0 D SL _ _ E) as [E1|E1]; [now apply HP2|].
        apply (unit_neq_0 D SL v vi); [|exact E1]. apply (sl_inv D SL). exact Hvi. }
    destruct H3 as (s3 & E3 & W3 & HP3). rewrite E3. cbn [sbind].
    destruct (eliminate_at_total D SL NL GT m n i Hi ltac:(lia) s3 W3 HP3) as [s4 E4].
    rewrite E4. cbn [sbind]. eexists; reflexivity.
  Qed.

  Lemma eliminate_all_loop_total k : forall j0 i s,
    Nat.add j0 k = n -> i <= j0 -> SI s ->
    exists s', eliminate_all_loop D dfl m n (seq j0 k) i s = Some s'.
  Proof.
    induction k as [|k IH]; intros j0 i s Hn Hij HS; cbn [seq eliminate_all_loop]; [eexists; reflexivity|].
    destruct (Nat.leb_spec m i); [eexists; reflexivity|].
    destruct (eliminate_step_total i j0 s ltac:(lia) Hij ltac:(lia) HS) as [sb E]. rewrite E. cbn [sbind].
    apply IH; [lia|destruct (snd sb); lia|].
    apply (eliminate_step_inv D SL dfl m n A f1 f2 f3 f4 i j0 s sb); try assumption; lia.
  Qed.

  Lemma process_total (Hpre : pre_ok D) (Htot : pre_total D) :
    wf m n A -> exists s', process D dfl m n (init_state D m n A (f1, f2, f3, f4)) = Some s'.
  Proof.
    intros W. unfold process. destruct (mat_is_zero D _); [eexists; reflexivity|].
    assert (E1 : exists s1, preprocess D m n (init_state D m n A (f1, f2, f3, f4)) = Some s1).
    { unfold preprocess. unfold pre_total in Htot. destruct (ed_pre D) as [f|]; [|eexists; reflexivity].
      cbn [init_state st_t st_p st_pinv st_q st_qinv].
      destruct (Htot m n (if (if f1 then Some (id_mat D m) else None) then true else false)
                     (if (if f2 then Some (id_mat D m) else None) then true else false) A W) as [[[h p] pi] E].
      rewrite E. cbn [sbind]. eexists; reflexivity. }
    destruct E1 as [s1 E1]. rewrite E1. cbn [sbind].
    pose proof (preprocess_init_inv D SL m n A f1 f2 f3 f4 Hpre s1 W E1) as HS1.
    destruct (eliminate_all_loop_total n 0 0 s1 ltac:(lia) ltac:(lia) HS1) as [s2 E2].
    unfold eliminate_all. rewrite E2. cbn [sbind].
    destruct (eliminate_all_diag D SL dfl m n s1 s2 (SI_wf s1 HS1) E2) as [r HD].
    apply (diag_normalize_total D SL NL GT m n r s2 HD).
  Qed.
End RunTotal.

Theorem snf_terminates {R : Type} (D : euc_dict R) :
  snf_laws D -> norm_laws D -> gcdx_total D -> pre_ok D -> pre_total D ->
  forall m n (A : lmat R) fl, wf m n A -> exists res, snf D (mk_dmat m n A) fl = Some res.
Proof.
  intros SL NL GT Hpre Htot m n A [[[f1 f2] f3] f4] W.
  unfold snf, snf_run. cbv zeta. cbn [dm_m dm_n dm_rows].
  destruct (process_total D SL NL GT m n A f1 f2 f3 f4 Hpre Htot W) as [s E]. rewrite E. cbn [sbind].
  eexists; reflexivity.
Qed.

(* termination and specification together *)
Theorem snf_total {R : Type} (D : euc_dict R) :
  snf_laws D -> norm_laws D -> gcdx_total D -> pre_ok D -> pre_total D ->
  forall m n (A : lmat R) f1 f2 f3 f4, wf m n A ->
  exists res, snf D (mk_dmat m n A) (f1, f2, f3, f4) = Some res /\ snf_spec D m n A f1 f2 f3 f4 res.
Proof.
  intros SL NL GT Hpre Htot m n A f1 f2 f3 f4 W.
  destruct (snf_terminates D SL NL GT Hpre Htot m n A (f1, f2, f3, f4) W) as [res E].
  exists res. split; [exact E|]. exact (snf_total_partial D SL Hpre (default_fuel D) m n A f1 f2 f3 f4 res W E).
Qed.

(* closed instances: the dictionaries without preprocessing whose gcdx is proved to terminate *)
Corollary Z_snf_total : forall m n (A : lmat Z) f1 f2 f3 f4, wf m n A ->
  exists res, snf Z_dict (mk_dmat m n A) (f1, f2, f3, f4) = Some res /\ snf_spec Z_dict m n A f1 f2 f3 f4 res.
Proof.
  destruct (Zpre_term_laws None) as [NL GT]. exact (snf_total Z_dict Z_snf_laws NL GT I I).
Qed.

Corollary field_snf_total {F : Type} (o : ring_ops F) (finv : F -> F) :
  ring_laws o -> rone o <> rzero o -> (forall a, a <> rzero o -> rmul o a (finv a) = rone o) ->
  forall m n (A : lmat F) f1 f2 f3 f4, wf m n A ->
  exists res, snf (field_dict o finv) (mk_dmat m n A) (f1, f2, f3, f4) = Some res /\
              snf_spec (field_dict o finv) m n A f1 f2 f3 f4 res.
Proof.
  intros L H10 Hinv. destruct (field_term_laws o finv L H10 Hinv) as [NL GT].
  exact (snf_total (field_dict o finv) (field_snf_laws o finv L H10 Hinv) NL GT I I).
Qed.

Corollary Q_snf_total : forall m n (A : lmat Qcanon.Qc) f1 f2 f3 f4, wf m n A ->
  exists res, snf Q_dict (mk_dmat m n A) (f1, f2, f3, f4) = Some res /\ snf_spec Q_dict m n A f1 f2 f3 f4 res.
Proof. exact (field_snf_total Q_ring Qcanon.Qcinv Q_ring_laws Q_one_neq_zero Q_inv_r). Qed.

Corollary F2_snf_total : forall m n (A : lmat bool) f1 f2 f3 f4, wf m n A ->
  exists res, snf F2_dict (mk_dmat m n A) (f1, f2, f3, f4) = Some res /\ snf_spec F2_dict m n A f1 f2 f3 f4 res.
Proof. exact (field_snf_total F2_ring (fun a => a) F2_ring_laws Bool.diff_true_false F2_inv_r). Qed.

Corollary fp_snf_total (p : Z) : Znumtheory.prime p ->
  forall m n (A : lmat (fp p)) f1 f2 f3 f4, wf m n A ->
  exists res, snf (fp_dict p) (mk_dmat m n A) (f1, f2, f3, f4) = Some res /\ snf_spec (fp_dict p) m n A f1 f2 f3 f4 res.
Proof.
  intros Hp. exact (field_snf_total (fp_ring p) (fp_inv p) (fp_ring_laws p Hp) (fp_one_neq_zero p Hp) (fp_inv_r p Hp)).
Qed.
