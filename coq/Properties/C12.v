(* C12 - Sparse kernels (triangular solve, Schur complement, block splitting) are exact.
   Property theorems only: each is proved by [exact <lemma>] or a short combination of proved lemmas and is
   followed by Print Assumptions; the Examples instantiate the hypotheses on concrete values.

   Models: Model/Triang.v, Model/Schur.v, Model/Decomp.v (mirrors of yui-matrix/src/sparse/{triang,schur,
   decomp}.rs and yui/src/misc/union_find.rs; a Rust panic is [None]).  A sparse matrix is its CSC structure
   (shape + per column the stored (row, value) pairs, explicit zeros allowed); [wf] is the CSC invariant of
   nalgebra-sparse; [entry o a i j] is the value of entry (i, j); matrix identities are stated with the
   functional matrices of Base/MatF.v ([mmul o n A B] = product with inner dimension n, [meq m n] = equality
   on the m x n window).  All theorems hold for every commutative ring with laws ([ring_laws], [unit_laws]).

   Hypotheses of the solver theorems ("valid input"):
     wf a                 the CSC invariant
     is_triang o upper a  SpMat::is_triang(t): square, and every NON-ZERO stored entry is on the allowed side
                          (explicit stored zeros may sit anywhere)
     unit_diag u a        every diagonal position holds a stored entry that is a unit
   The thread-local scratch buffer of solve_triangular_m is an explicit state: [solve_batch] is what one
   worker does with a sequence of columns, [solve_triangular_sched] runs a whole schedule. *)
From Coq Require Import Arith List Bool ZArith.
Require Import Yui.Base.Ring Yui.Base.MatF.
Require Import Yui.Model.Triang Yui.Model.Schur Yui.Model.Decomp.
Require Import Yui.Proofs.C12Rings Yui.Proofs.C12Sparse Yui.Proofs.C12Triang Yui.Proofs.C12Schur Yui.Proofs.C12SchurMain.
Require Import Yui.Proofs.C12Main.
Import ListNotations.

(* triangular solve: a x = y, and the scratch buffer is all-zero again *)
Theorem C12_solve : forall (R : Type) (o : ring_ops R) (u : unit_ops R), ring_laws o -> unit_laws o u ->
  forall (upper : bool) (a y : spmat R),
  wf a = true -> is_triang o upper a = true -> unit_diag u a = true -> wf y = true -> nrows y = nrows a ->
  exists x,
    solve_triangular_st o u upper a y = Some (zeros o (nrows a), x) /\     (* buffer after the last column *)
    solve_triangular o u upper a y = Some x /\
    nrows x = nrows a /\ ncols x = ncols y /\
    meq (nrows a) (ncols y) (mmul o (nrows a) (entry o a) (entry o x)) (entry o y).
Proof. exact @solve_main. Qed.
Print Assumptions C12_solve.

(* one call of _solve_triangular after copy_into, from an all-zero buffer: the buffer is all-zero at exit
   and the returned vector solves the system for column j *)
Theorem C12_solve_scratch : forall (R : Type) (o : ring_ops R) (u : unit_ops R), ring_laws o -> unit_laws o u ->
  forall (upper : bool) (a y : spmat R) (j : nat),
  wf a = true -> is_triang o upper a = true -> unit_diag u a = true -> wf y = true -> nrows y = nrows a ->
  exists v,
    solve_col o u upper a (collect_diag a) (col_vec o y j) (zeros o (nrows a)) = Some (zeros o (nrows a), v) /\
    fst v = nrows a /\
    forall i, i < nrows a ->
      sum o (nrows a) (fun k => rmul o (entry o a i k) (ventry o v k)) = entry o y i j.
Proof. exact @solve_col_main. Qed.
Print Assumptions C12_solve_scratch.

(* a worker thread with any history: after any sequence [before] of columns its buffer is such that any
   further sequence [js] yields, for every column, the vector computed on a fresh buffer, and ends all-zero *)
Theorem C12_worker_history : forall (R : Type) (o : ring_ops R) (u : unit_ops R), ring_laws o -> unit_laws o u ->
  forall (upper : bool) (a y : spmat R) (before js : list nat),
  wf a = true -> is_triang o upper a = true -> unit_diag u a = true -> wf y = true -> nrows y = nrows a ->
  exists b vs,
    solve_batch o u upper a (collect_diag a) y before (zeros o (nrows a)) = Some (b, vs) /\
    solve_batch o u upper a (collect_diag a) y js b
    = Some (zeros o (nrows a), map (fun j => (j, col_result o u upper a y j)) js).
Proof. exact @worker_history_main. Qed.
Print Assumptions C12_worker_history.

(* consequently: for every assignment of the columns to worker threads (any number of threads, any order,
   repetitions allowed) the assembled matrix is the one computed sequentially *)
Theorem C12_schedule_free : forall (R : Type) (o : ring_ops R) (u : unit_ops R), ring_laws o -> unit_laws o u ->
  forall (upper : bool) (a y : spmat R) (sched : list (list nat)),
  wf a = true -> is_triang o upper a = true -> unit_diag u a = true -> wf y = true -> nrows y = nrows a ->
  (forall j, j < ncols y -> In j (concat sched)) ->
  solve_triangular_sched o u upper a y sched = solve_triangular o u upper a y.
Proof. exact @schedule_free_main. Qed.
Print Assumptions C12_schedule_free.

(* the left variant: x a = y *)
Theorem C12_left : forall (R : Type) (o : ring_ops R) (u : unit_ops R), ring_laws o -> unit_laws o u ->
  forall (upper : bool) (a y : spmat R),
  wf a = true -> is_triang o upper a = true -> unit_diag u a = true -> wf y = true -> ncols y = nrows a ->
  exists x,
    solve_triangular_left o u upper a y = Some x /\ nrows x = nrows y /\ ncols x = nrows a /\
    meq (nrows y) (nrows a) (mmul o (nrows a) (entry o x) (entry o a)) (entry o y).
Proof. exact @solve_left_main. Qed.
Print Assumptions C12_left.

(* right-hand side given as a vector *)
Theorem C12_solve_vec : forall (R : Type) (o : ring_ops R) (u : unit_ops R), ring_laws o -> unit_laws o u ->
  forall (upper : bool) (a : spmat R) (v : svec R),
  wf a = true -> is_triang o upper a = true -> unit_diag u a = true ->
  fst v = nrows a -> wf_col (fst v) (snd v) = true ->
  exists x,
    solve_triangular_vec o u upper a v = Some (nrows a, x) /\
    forall i, i < nrows a -> sum o (nrows a) (fun k => rmul o (entry o a i k) (centry o x k)) = ventry o v i.
Proof. exact @solve_vec_main. Qed.
Print Assumptions C12_solve_vec.

(* inv_triangular returns a right inverse *)
Theorem C12_inv : forall (R : Type) (o : ring_ops R) (u : unit_ops R), ring_laws o -> unit_laws o u ->
  forall (upper : bool) (a : spmat R),
  wf a = true -> is_triang o upper a = true -> unit_diag u a = true ->
  exists x,
    inv_triangular o u upper a = Some x /\ nrows x = nrows a /\ ncols x = nrows a /\
    meq (nrows a) (nrows a) (mmul o (nrows a) (entry o a) (entry o x)) (mid o).
Proof. exact @inv_main. Qed.
Print Assumptions C12_inv.

(* Schur complement
   M = [a b; c d] with a = the leading r x r block, triangular with stored unit diagonal
   ([lead_triang], [lead_unit_diag]); 0 <= r <= min(m, n).  The run succeeds and returns s and the four
   transfer matrices with
     F_tgt M B_src = s,   F_src B_src = I,   F_tgt B_tgt = I,
     s = d - c a^-1 b  for every a^-1 with a a^-1 = I
   ([schur_ok] in Proofs/C12SchurMain.v spells these out with MatF.mmul / meq).  The call without transfer
   maps returns the same s.  (1 <> 0 is needed because divide4 drops stored zeros.) *)
Theorem C12_schur : forall (R : Type) (o : ring_ops R) (u : unit_ops R), ring_laws o -> unit_laws o u ->
  rone o <> rzero o ->
  forall (upper : bool) (abcd : spmat R) (r : nat),
  wf abcd = true -> r <= nrows abcd -> r <= ncols abcd ->
  lead_unit_diag u abcd r = true -> lead_triang o upper abcd r = true ->
  exists sc,
    from_partial_triangular o u upper abcd r = Some sc /\
    schur_complement_only o u upper abcd r = Some (sch_s sc) /\
    schur_ok o upper abcd r sc.
Proof. exact @schur_main. Qed.
Print Assumptions C12_schur.

(* the record [schur_ok], unfolded (so that the statement can be read here) *)
Theorem C12_schur_identities : forall (R : Type) (o : ring_ops R) (upper : bool) (abcd : spmat R) (r : nat) (sc : schur),
  schur_ok o upper abcd r sc ->
  let m := nrows abcd in let n := ncols abcd in let M := entry o abcd in
  meq (m - r) (n - r) (mmul o n (mmul o m (entry o (tgt_f sc)) M) (entry o (src_b sc))) (entry o (sch_s sc)) /\
  meq (n - r) (n - r) (mmul o n (entry o (src_f sc)) (entry o (src_b sc))) (mid o) /\
  meq (m - r) (m - r) (mmul o m (entry o (tgt_f sc)) (entry o (tgt_b sc))) (mid o) /\
  (forall Ainv : mat R, meq r r (mmul o r M Ainv) (mid o) ->
     meq (m - r) (n - r) (entry o (sch_s sc))
         (msub o (fun i j => M (r + i) (r + j))
                 (mmul o r (fun i j => M (r + i) j) (mmul o r Ainv (fun i j => M i (r + j)))))) /\
  nrows (sch_s sc) = m - r /\ ncols (sch_s sc) = n - r.
Proof. exact @schur_identities. Qed.
Print Assumptions C12_schur_identities.

(* non-vacuity: concrete inputs over Z (units 1, -1) meeting the hypotheses *)
Definition ex_a : spmat Z :=           (* upper triangular, diagonal 1, -1, 1; an explicit zero below the diagonal *)
  mk_spmat 3 3 [[(0, 1%Z); (2, 0%Z)]; [(0, 2%Z); (1, (-1)%Z)]; [(0, (-3)%Z); (1, 0%Z); (2, 1%Z)]].
Definition ex_y : spmat Z := mk_spmat 3 2 [[(0, 5%Z); (2, 1%Z)]; [(1, 4%Z)]].
Example C12_solve_example :
  wf ex_a = true /\ is_triang Z_ring true ex_a = true /\ unit_diag Z_units ex_a = true /\ wf ex_y = true /\
  solve_triangular_st Z_ring Z_units true ex_a ex_y
  = Some ([0; 0; 0]%Z, mk_spmat 3 2 [[(0, 8%Z); (2, 1%Z)]; [(0, 8%Z); (1, (-4)%Z)]]).
Proof. repeat split; vm_compute; reflexivity. Qed.
Definition ex_m : spmat Z :=           (* 3 x 4, leading 2 x 2 block lower triangular with diagonal -1, 1 *)
  mk_spmat 3 4 [[(0, (-1)%Z); (1, 2%Z); (2, 1%Z)]; [(1, 1%Z); (2, 3%Z)]; [(0, 1%Z); (2, 2%Z)]; [(1, 5%Z)]].
Example C12_schur_example :
  wf ex_m = true /\ lead_unit_diag Z_units ex_m 2 = true /\ lead_triang Z_ring false ex_m 2 = true /\
  option_map (fun sc => sch_s sc) (from_partial_triangular Z_ring Z_units false ex_m 2)
  = Some (mk_spmat 1 2 [[(0, (-3)%Z)]; [(0, (-15)%Z)]]).
Proof. repeat split; vm_compute; reflexivity. Qed.
