(* Tangle layer, part 6: sequences of append_arc, Tng::connect, Tng::from_resolved and the tangle of a list of
   resolved crossings never panic under the degree bound and end in normal form (simple, pairwise disjoint
   components, sorted), with the segments of the input. *)
From Coq Require Import List Arith Bool Lia Permutation Sorted.
Import ListNotations.
Require Import Yui.Model.Link Yui.Model.Tng Yui.Proofs.TngPBase Yui.Proofs.TngPSegs Yui.Proofs.TngPDeg
  Yui.Proofs.TngPJoin Yui.Proofs.TngPStep.

Definition tng_ok (t : list path) : Prop := tng_inv t /\ tng_sorted t.
Definition simple_arc (p : path) : Prop := simple p /\ pclosed p = false.

(* for a in arcs { t.append_arc(a) } *)
Fixpoint append_all (t : tng) (arcs : list path) : option tng :=
  match arcs with
  | [] => Some t
  | a :: r => match append_arc t a with None => None | Some t' => append_all t' r end
  end.

Lemma ok_nil : tng_ok [].
Proof. split; [apply inv_nil|constructor]. Qed.

Lemma sort_ok : forall cs, tng_inv cs ->
  exists t, tng_sort cs = Some t /\ tng_ok t /\ Permutation (tsegs t) (tsegs cs).
Proof.
  intros cs Hi. destruct (sort_inv cs Hi) as (t & E & I & S & P). exists t. split; [exact E|].
  split; [split; assumption|apply tsegs_perm, P].
Qed.

(* a loop whose step, under the degree bound, does not panic, keeps an invariant and adds the segments [S a]:
   so does the loop, for the segments of the whole list *)
Section Loop.
  Variables (A : Type) (step : tng -> A -> option tng) (S : A -> list (nat * nat)).
  Variables (Pre : A -> Prop) (Inv : tng -> Prop).
  Hypothesis step_ok : forall t a, Inv t -> Pre a -> deg_le2 (tsegs t ++ S a) ->
    exists t', step t a = Some t' /\ Inv t' /\ Permutation (tsegs t') (tsegs t ++ S a).

  Lemma loop_ok : forall xs t, Inv t -> Forall Pre xs -> deg_le2 (tsegs t ++ flat_map S xs) ->
    exists t', loop _ step t xs = Some t' /\ Inv t' /\ Permutation (tsegs t') (tsegs t ++ flat_map S xs).
  Proof.
    induction xs as [|a r IH]; intros t Hi Hp Hd; cbn [loop flat_map] in *.
    - exists t. rewrite app_nil_r. auto.
    - inversion Hp as [|? ? Pa Pr]; subst. rewrite app_assoc in *.
      destruct (step_ok t a Hi Pa (deg_le2_app_l _ _ Hd)) as (t1 & E1 & Hi1 & P1). rewrite E1.
      apply (Permutation_app_tail (flat_map S r)) in P1.
      destruct (IH t1 Hi1 Pr (deg_le2_perm _ _ (Permutation_sym P1) Hd)) as (t' & E' & Hi' & P').
      exists t'. split; [exact E'|]. split; [exact Hi'|exact (perm_trans P' P1)].
  Qed.
End Loop.

Lemma append_arc_ok : forall t arc, tng_inv t -> simple arc -> pclosed arc = false ->
  deg_le2 (tsegs t ++ segs arc) ->
  exists t', append_arc t arc = Some t' /\ tng_ok t' /\ Permutation (tsegs t') (tsegs t ++ segs arc).
Proof.
  intros t arc Hinv Sa Ha Hd. destruct (append_arc_inv t arc Hinv Sa Ha Hd) as (t' & E & Hi & Hs).
  exists t'. split; [exact E|]. split; [split; assumption|].
  apply (append_arc_segs t arc t' (inv_twf _ Hinv) (simple_pwf _ Sa) E).
Qed.

Theorem append_all_ok : forall arcs t, tng_ok t -> Forall simple_arc arcs ->
  deg_le2 (tsegs t ++ flat_map segs arcs) ->
  exists t', append_all t arcs = Some t' /\ tng_ok t' /\ Permutation (tsegs t') (tsegs t ++ flat_map segs arcs).
Proof.
  intros arcs t. replace (append_all t arcs) with (loop _ append_arc t arcs).
  - apply loop_ok. clear. intros t a [Hinv _] [Sa Ha]. apply append_arc_ok; assumption.
  - revert t. induction arcs as [|a r IH]; intros t; cbn [loop append_all]; [reflexivity|].
    destruct (append_arc t a); auto.
Qed.

Lemma connect_loop_inv : forall other t, tng_inv t -> Forall simple other ->
  deg_le2 (tsegs t ++ tsegs other) ->
  exists t', tng_connect_loop t other = Some t' /\ tng_inv t' /\ Permutation (tsegs t') (tsegs t ++ tsegs other).
Proof.
  intros other t. rewrite connect_loop_eq. apply loop_ok. clear. intros t c Hinv Sc Hd. unfold connect_step.
  destruct (pclosed c) eqn:Hc.
  - exists (t ++ [c]). split; [reflexivity|]. split.
    + eapply inv_perm; [apply Permutation_cons_append|]. apply inv_cons. split; [auto|split; [auto|]].
      intros v Hv. eapply new_circle; eauto.
    + rewrite tsegs_app, tsegs_single. apply Permutation_refl.
  - destruct (append_arc_ok t c Hinv Sc Hc Hd) as (t' & E & [Hi _] & P). eauto.
Qed.

Theorem tng_connect_ok : forall t other, tng_inv t -> Forall simple other ->
  deg_le2 (tsegs t ++ tsegs other) ->
  exists t', tng_connect t other = Some t' /\ tng_ok t' /\ Permutation (tsegs t') (tsegs t ++ tsegs other).
Proof.
  intros t other Hinv Ho Hd. unfold tng_connect.
  destruct (connect_loop_inv other t Hinv Ho Hd) as (t1 & E1 & Hi1 & P1). rewrite E1.
  destruct (sort_ok t1 Hi1) as (t' & E & Hok & P). exists t'. split; [exact E|]. split; [exact Hok|exact (perm_trans P P1)].
Qed.

Lemma c_comp_simple : forall a b, simple (c_comp a b).
Proof.
  intros a b. unfold c_comp, simple. destruct (a =? b) eqn:E; cbn [pedges pclosed].
  - split; [repeat constructor; auto|discriminate].
  - apply Nat.eqb_neq in E. split; [|cbn; lia]. constructor; [|repeat constructor; auto].
    intros [Hc|[]]. congruence.
Qed.

Theorem from_resolved_ok : forall x, is_resolved x = true -> deg_le2 (crossing_segs x) ->
  exists t, tng_from_resolved x = Some t /\ tng_ok t /\ Permutation (tsegs t) (crossing_segs x).
Proof.
  intros x Hr Hd. unfold tng_from_resolved, tng_new. rewrite Hr.
  pose proof (c_arcs_segs x) as Hs. destruct (c_arcs x) as [c0 c1] eqn:Ea. cbn [fst snd] in Hs. rewrite <- Hs in *.
  assert (S01 : simple c0 /\ simple c1).
  { unfold c_arcs in Ea. destruct (ct x); inversion Ea; split; apply c_comp_simple. }
  destruct S01 as [S0 S1].
  (* the two strands meet at ends only: c0 is a new component for the tangle [c1] *)
  assert (Hm : forall v, In v (pedges c0) -> In v (pedges c1) ->
            pclosed c1 = false /\ pclosed c0 = false /\ is_end c1 v /\ is_end c0 v).
  { intros v H0 H1. apply (meets_at_ends [c1] c0 (inv_single c1 S1)); auto; [|left; reflexivity].
    eapply deg_le2_perm; [|exact Hd]. rewrite tsegs_single. apply Permutation_app_comm. }
  destruct (p_connectable c0 c1) eqn:Hc.
  - destruct (connect_simple c0 c1 S0 S1 Hc) as (c & Ec & Sc & _).
    { intros v H0 H1. destruct (Hm v H0 H1) as (_ & _ & A & B). auto. }
    rewrite Ec. destruct (sort_ok _ (inv_single c Sc)) as (t & E & Hok & P).
    exists t. split; [exact E|]. split; [exact Hok|].
    eapply perm_trans; [exact P|]. rewrite tsegs_single.
    apply p_connect_segs; auto using simple_pwf.
  - assert (Hi : tng_inv [c0; c1]).
    { apply inv_cons. split; [exact S0|]. split; [exact (inv_single c1 S1)|]. intros v H0 H1.
      cbn [verts flat_map] in H1. rewrite app_nil_r in H1. destruct (Hm v H0 H1) as (C1 & C0 & A & B).
      rewrite (shares_end_connectable c0 c1 v C0 C1 B A) in Hc. discriminate. }
    destruct (sort_ok _ Hi) as (t & E & Hok & P). exists t. split; [exact E|]. split; [exact Hok|].
    cbn [tsegs flat_map] in P. rewrite app_nil_r in P. exact P.
Qed.

Theorem tng_of_crossings_from_ok : forall xs t, tng_ok t -> Forall (fun x => is_resolved x = true) xs ->
  deg_le2 (tsegs t ++ flat_map crossing_segs xs) ->
  exists t', tng_of_crossings_from t xs = Some t' /\ tng_ok t' /\
    Permutation (tsegs t') (tsegs t ++ flat_map crossing_segs xs).
Proof.
  intros xs t. rewrite of_crossings_from_eq. apply loop_ok. clear. intros t x [Hinv _] Hx Hd. unfold crossing_step.
  destruct (from_resolved_ok x Hx (deg_le2_app_r _ _ Hd)) as (tx & Ex & [[Sx _] _] & Px). rewrite Ex.
  pose proof (Permutation_app_head (tsegs t) Px) as Pt.
  destruct (tng_connect_ok t tx Hinv Sx (deg_le2_perm _ _ (Permutation_sym Pt) Hd)) as (t1 & E1 & Hok1 & P1).
  exists t1. split; [exact E1|]. split; [exact Hok1|exact (perm_trans P1 Pt)].
Qed.

(* the degree bound in terms of the PD code: every label occurs at most twice among the 4n slots *)
Lemma crossing_segs_ends : forall x, Permutation (ends_of (crossing_segs x)) (cedges x).
Proof.
  assert (P : forall a b c d, Permutation (ends_of [nseg a b; nseg c d]) [a; b; c; d]).
  { intros. exact (Permutation_app (nseg_ends_perm a b) (Permutation_app (nseg_ends_perm c d) (perm_nil _))). }
  intros x. unfold crossing_segs, cedges. destruct (ct x); (eapply perm_trans; [apply P|]).
  - apply perm_skip, perm_swap.
  - apply perm_skip, perm_swap.
  - apply perm_skip. eapply perm_trans; [apply perm_swap|]. apply perm_skip, perm_swap.
  - apply Permutation_refl.
Qed.

Lemma crossings_ends : forall xs, Permutation (ends_of (flat_map crossing_segs xs)) (edge_labels xs).
Proof.
  unfold ends_of, edge_labels. induction xs as [|x r IH]; [constructor|].
  cbn [flat_map]. rewrite flat_map_app. apply Permutation_app; [apply crossing_segs_ends|exact IH].
Qed.

Definition labels_le2 (xs : list crossing) : Prop :=
  forall v, count_occ Nat.eq_dec (edge_labels xs) v <= 2.

Lemma labels_le2_deg : forall xs, labels_le2 xs -> deg_le2 (flat_map crossing_segs xs).
Proof. intros xs Hl v. unfold deg. rewrite (count_perm _ _ v (crossings_ends xs)). apply Hl. Qed.

Theorem tng_of_crossings_ok : forall xs, Forall (fun x => is_resolved x = true) xs -> labels_le2 xs ->
  exists t, tng_of_crossings xs = Some t /\ tng_ok t /\ Permutation (tsegs t) (flat_map crossing_segs xs).
Proof.
  intros xs Hr Hl. unfold tng_of_crossings, tng_empty.
  destruct (tng_of_crossings_from_ok xs [] ok_nil Hr) as (t & E & Hok & P).
  { cbn. apply labels_le2_deg; auto. }
  exists t. auto.
Qed.
