(* Facts about the homology oracle of KhHomology.v that hold by construction. *)
From Coq Require Import List Bool ZArith Lia.
Require Import Yui.Base.ListFacts Yui.Model.KhCube Yui.Model.KhHomology.
Import ListNotations.

(* the oracle answers only on instances it has itself checked to be complexes (d.d = 0 in every degree) *)
Lemma kh_groups_checked c g : kh_groups c = Some g -> cube_ok c = true.
Proof. unfold kh_groups. destruct (cube_ok c); [reflexivity|discriminate]. Qed.

Lemma kh_groups_bigraded_checked c g : kh_groups_bigraded c = Some g -> cube_ok c = true.
Proof. unfold kh_groups_bigraded. destruct (cube_ok c); [reflexivity|discriminate]. Qed.

Lemma cube_ok_dd c : cube_ok c = true -> forall k, (k < c_n c)%nat -> dd_zero c k = true.
Proof.
  unfold cube_ok. rewrite forallb_forall. intros H k Hk. apply H. apply in_seq. lia.
Qed.

Lemma groups_from_degrees c sel k todo dprev gs :
  groups_from c sel k todo dprev = Some gs -> map fst gs = seq k todo.
Proof.
  revert k dprev gs. induction todo as [|m IH]; intros k dprev gs H; cbn [groups_from] in H.
  - inversion H. reflexivity.
  - destruct (factors c k sel) as [dk|]; [|discriminate].
    destruct (groups_from c sel (S k) m dk) as [rest|] eqn:E; [|discriminate].
    inversion H. cbn [map fst seq]. f_equal. now apply IH with (dprev := dk).
Qed.

(* ranks over Q and dimensions over F_p are computed from the same invariant factors: they differ from
   the free rank exactly by the number of factors divisible by p in d_(k-1) and d_k (universal
   coefficients at the level of Smith forms) *)
Lemma group_at_uct p n dprev dk (Hp : p = 2%Z \/ p = 3%Z) :
  let g := group_at n dprev dk in
  (if Z.eqb p 2 then g_dim2 g else g_dim3 g)
  = (g_rank g + Z.of_nat (length (filter (fun d => negb (not_div p d)) dk))
              + Z.of_nat (length (filter (fun d => negb (not_div p d)) dprev)))%Z.
Proof.
  cbv zeta. unfold group_at, zlen. cbn [g_rank g_dim2 g_dim3].
  pose proof (filter_split_length (not_div p) dk) as H1.
  pose proof (filter_split_length (not_div p) dprev) as H2.
  destruct Hp as [-> | ->]; cbn [Z.eqb Pos.eqb]; lia.
Qed.
