(* The Frobenius algebra A = Z[X]/(X^2 - hX - t) used by the cube model: the list-valued structure
   constants [prod]/[coprod] of KhCube.v denote a commutative, associative multiplication and a
   cocommutative, coassociative comultiplication satisfying the Frobenius relation, for all h, t. *)
From Coq Require Import List Bool ZArith Lia Ring.
Require Import Yui.Model.KhCube.
Import ListNotations.
Open Scope Z_scope.

(* elements of A as pairs (a, b) = a*1 + b*X; of A(x)A as 4-tuples over the basis 1(x)1, 1(x)X, X(x)1, X(x)X *)
Definition A := (Z * Z)%type.
Definition AA := (Z * Z * Z * Z)%type.

Definition basis (x : bool) : A := if x then (0, 1) else (1, 0).
Definition basis2 (x y : bool) : AA :=
  match x, y with
  | false, false => (1, 0, 0, 0) | false, true => (0, 1, 0, 0)
  | true, false => (0, 0, 1, 0) | true, true => (0, 0, 0, 1)
  end.

Definition a_add (u v : A) : A := (fst u + fst v, snd u + snd v).
Definition a_scal (c : Z) (u : A) : A := (c * fst u, c * snd u).
Definition aa_add (u v : AA) : AA :=
  let '(a, b, c, d) := u in let '(a', b', c', d') := v in (a + a', b + b', c + c', d + d').
Definition aa_scal (k : Z) (u : AA) : AA := let '(a, b, c, d) := u in (k * a, k * b, k * c, k * d).

(* the algebra structure in closed form *)
Definition mul (h t : Z) (u v : A) : A :=
  let '(a, b) := u in let '(c, d) := v in (a * c + t * b * d, a * d + b * c + h * b * d).
Definition comul (h t : Z) (u : A) : AA :=
  let '(a, b) := u in (- h * a + t * b, a, a, b).

(* denotation of the structure-constant lists *)
Definition den1 (l : list (bool * Z)) : A :=
  fold_right (fun p acc => a_add (a_scal (snd p) (basis (fst p))) acc) (0, 0) l.
Definition den2 (l : list (bool * bool * Z)) : AA :=
  fold_right (fun p acc => aa_add (aa_scal (snd p) (basis2 (fst (fst p)) (snd (fst p)))) acc) (0, 0, 0, 0) l.

(* [peq]: an equality of tuples of integer polynomials, component by component with [ring] *)
Ltac peq := repeat match goal with |- (_, _) = (_, _) => apply f_equal2 end; ring.

Lemma a_scal_0 u : a_scal 0 u = (0, 0).
Proof. reflexivity. Qed.
Lemma a_add_0_l u : a_add (0, 0) u = u.
Proof. now destruct u. Qed.
Lemma aa_scal_0 u : aa_scal 0 u = (0, 0, 0, 0).
Proof. now destruct u as [[[a b] c] d]. Qed.
Lemma aa_add_0_l u : aa_add (0, 0, 0, 0) u = u.
Proof. now destruct u as [[[a b] c] d]. Qed.

(* entries with coefficient 0 contribute nothing *)
Lemma den1_filter l : den1 (filter (fun p => negb (snd p =? 0)) l) = den1 l.
Proof.
  induction l as [|[x c] l IH]; [reflexivity|]. cbn [filter snd].
  destruct (Z.eqb_spec c 0) as [->|Hc]; cbn [negb den1 fold_right]; fold (den1 l);
    fold (den1 (filter (fun p => negb (snd p =? 0)) l)); rewrite IH; [|reflexivity].
  cbn [fst snd]. now rewrite a_scal_0, a_add_0_l.
Qed.

Lemma den2_filter l : den2 (filter (fun p => negb (snd p =? 0)) l) = den2 l.
Proof.
  induction l as [|[[x y] c] l IH]; [reflexivity|]. cbn [filter snd].
  destruct (Z.eqb_spec c 0) as [->|Hc]; cbn [negb den2 fold_right]; fold (den2 l);
    fold (den2 (filter (fun p => negb (snd p =? 0)) l)); rewrite IH; [|reflexivity].
  cbn [fst snd]. now rewrite aa_scal_0, aa_add_0_l.
Qed.

Lemma prod_den h t x y : den1 (prod h t x y) = mul h t (basis x) (basis y).
Proof.
  unfold prod. rewrite den1_filter.
  destruct x, y; unfold den1, mul, basis, a_add, a_scal; cbn [fold_right fst snd]; peq.
Qed.

Lemma coprod_den h t x : den2 (coprod h t x) = comul h t (basis x).
Proof.
  unfold coprod. rewrite den2_filter.
  destruct x; unfold den2, comul, basis, basis2, aa_add, aa_scal; cbn [fold_right fst snd]; peq.
Qed.

Lemma mul_comm h t u v : mul h t u v = mul h t v u.
Proof. destruct u, v. unfold mul. peq. Qed.
Lemma mul_assoc h t u v w : mul h t (mul h t u v) w = mul h t u (mul h t v w).
Proof. destruct u, v, w. unfold mul. peq. Qed.
Lemma mul_one h t u : mul h t (1, 0) u = u.
Proof. destruct u. unfold mul. peq. Qed.
Lemma mul_XX h t : mul h t (0, 1) (0, 1) = (t, h).     (* X^2 = h X + t *)
Proof. unfold mul. peq. Qed.
Lemma mul_left_comm h t u v w : mul h t u (mul h t v w) = mul h t v (mul h t u w).
Proof. now rewrite <- !mul_assoc, (mul_comm h t u v). Qed.
Lemma mul_add_l h t u v w : mul h t (a_add u v) w = a_add (mul h t u w) (mul h t v w).
Proof. destruct u, v, w. unfold mul, a_add. cbn [fst snd]. peq. Qed.
Lemma mul_add_r h t u v w : mul h t u (a_add v w) = a_add (mul h t u v) (mul h t u w).
Proof. now rewrite !(mul_comm h t u), mul_add_l. Qed.
Lemma mul_scal_l h t c u v : mul h t (a_scal c u) v = a_scal c (mul h t u v).
Proof. destruct u, v. unfold mul, a_scal. cbn [fst snd]. peq. Qed.

(* A (x) A as an A-bimodule, the flip, and (id (x) comul), (comul (x) id) on the 8-dimensional A^(x)3 *)
Definition lmul (h t : Z) (u : A) (w : AA) : AA :=       (* (u . ) (x) id *)
  let '(a, b) := u in let '(p, q, r, s) := w in
  (a * p + t * b * r, a * q + t * b * s, a * r + b * p + h * b * r, a * s + b * q + h * b * s).
Definition rmul (h t : Z) (w : AA) (u : A) : AA :=       (* id (x) ( . u) *)
  let '(a, b) := u in let '(p, q, r, s) := w in
  (a * p + t * b * q, a * q + b * p + h * b * q, a * r + t * b * s, a * s + b * r + h * b * s).
Definition flip (w : AA) : AA := let '(p, q, r, s) := w in (p, r, q, s).

Lemma comul_cocomm h t u : flip (comul h t u) = comul h t u.
Proof. destruct u. reflexivity. Qed.

(* Frobenius relation: comul (u v) = u . comul v = comul u . v *)
Lemma frobenius_l h t u v : comul h t (mul h t u v) = lmul h t u (comul h t v).
Proof. destruct u, v. unfold comul, mul, lmul. peq. Qed.
Lemma frobenius_r h t u v : comul h t (mul h t u v) = rmul h t (comul h t u) v.
Proof. destruct u, v. unfold comul, mul, rmul. peq. Qed.

(* coassociativity, with A^(x)3 as 8-tuples in the order 111,11X,1X1,1XX,X11,X1X,XX1,XXX *)
Definition AAA := (Z * Z * Z * Z * Z * Z * Z * Z)%type.
Definition comul_left (h t : Z) (w : AA) : AAA :=         (* comul (x) id *)
  let '(p, q, r, s) := w in
  (* 1(x)y -> comul 1 (x) y ; X(x)y -> comul X (x) y, comul 1 = (-h,1,1,0), comul X = (t,0,0,1) *)
  (- h * p + t * r, - h * q + t * s, p, q, p, q, r, s).
Definition comul_right (h t : Z) (w : AA) : AAA :=        (* id (x) comul *)
  let '(p, q, r, s) := w in
  (- h * p + t * q, p, p, q, - h * r + t * s, r, r, s).

Lemma comul_coassoc h t u : comul_left h t (comul h t u) = comul_right h t (comul h t u).
Proof. destruct u. unfold comul, comul_left, comul_right. peq. Qed.

(* the counit eps(1) = 0, eps(X) = 1; [counit_l] is (eps (x) id) comul = id written in coordinates *)
Definition eps (u : A) : Z := snd u.
Lemma counit_l h t u : (let '(p, q, r, s) := comul h t u in (r, s)) = u.
Proof. destruct u. reflexivity. Qed.
Lemma eps_add u v : eps (a_add u v) = eps u + eps v.
Proof. reflexivity. Qed.
Lemma eps_scal c u : eps (a_scal c u) = c * eps u.
Proof. reflexivity. Qed.
