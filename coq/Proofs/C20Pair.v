(* C20: `-c <a>,<b>` for ALL pairs of integers: the value pair, the reduced guard and the bigraded / sequence
   choice of `kh` (bigraded exactly when BOTH constants vanish in the chosen ring, i.e. after reduction
   mod p over F_p).  kh.rs:  let bigraded = (h.is_zero() && t.is_zero()) || ["H", "0,T"].contains(c_value). *)
From Coq Require Import ZArith NArith List Bool Arith Lia ZifyN ZifyBool ZifyNat.
Require Import Yui.Model.Table Yui.Model.Cli Yui.Proofs.C20Str Yui.Proofs.C20Cli.
Import ListNotations.

Lemma digits_val_chars : forall s acc v c, digits_val s acc = Some v -> In c s -> is_digit c = true.
Proof.
  induction s as [|x s IH]; intros acc v c H Hc; [destruct Hc|].
  cbn [digits_val] in H. destruct (is_digit x) eqn:E; [|discriminate].
  destruct Hc as [<-|Hc]; [exact E | eapply IH; eauto].
Qed.
Lemma parse_N_dec_chars : forall s n c, parse_N_dec s = Some n -> In c s -> is_digit c = true.
Proof. intros s n c H Hc. unfold parse_N_dec in H. destruct s; [destruct Hc|]. eapply digits_val_chars; eauto. Qed.
Lemma parse_Z_dec_chars : forall s z c, parse_Z_dec s = Some z -> In c s ->
  is_digit c = true \/ c = 45%N \/ c = 43%N.
Proof.
  intros s z c H Hc. unfold parse_Z_dec in H. destruct s as [|x r]; [destruct Hc|].
  destruct (x =? 45)%N eqn:E1.
  - destruct Hc as [<-|Hc]; [right; left; now apply N.eqb_eq|].
    destruct (parse_N_dec r) eqn:E; [|discriminate]. left. eapply parse_N_dec_chars; eauto.
  - destruct (x =? 43)%N eqn:E2.
    + destruct Hc as [<-|Hc]; [right; right; now apply N.eqb_eq|].
      destruct (parse_N_dec r) eqn:E; [|discriminate]. left. eapply parse_N_dec_chars; eauto.
    + destruct (parse_N_dec (x :: r)) eqn:E; [|discriminate]. left. eapply parse_N_dec_chars; eauto.
Qed.
Lemma parse_int_comma : forall lo hi s, In 44%N s -> parse_int lo hi s = None.
Proof.
  intros lo hi s H. unfold parse_int. destruct (parse_Z_dec s) as [z|] eqn:E; [|reflexivity].
  exfalso. destruct (parse_Z_dec_chars s z 44%N E H) as [Hd|[Hd|Hd]]; try discriminate.
Qed.

(* the regex ^(.+),(.+)$ on  a ++ "," ++ b  with no comma in b *)
Lemma break_at_app : forall sep a b, ~ In sep a -> break_at sep (a ++ sep :: b) = Some (a, b).
Proof.
  intros sep. induction a as [|c a IH]; intros b H; cbn [app break_at].
  - now rewrite N.eqb_refl.
  - destruct (c =? sep)%N eqn:E; [apply N.eqb_eq in E; subst; exfalso; apply H; now left|].
    rewrite IH; [reflexivity | intro Hr; apply H; now right].
Qed.
Lemma split_last_app : forall sep a b, a <> [] -> b <> [] -> ~ In sep b ->
  split_last sep (a ++ sep :: b) = Some (a, b).
Proof.
  intros sep a b Ha Hb Hn. unfold split_last.
  replace (rev (a ++ sep :: b)) with (rev b ++ sep :: rev a)
    by (rewrite rev_app_distr; cbn [rev]; now rewrite <- app_assoc).
  destruct (rev b) as [|x rest] eqn:Eb.
  - exfalso. apply Hb. rewrite <- (rev_involutive b), Eb. reflexivity.
  - cbn [app]. rewrite break_at_app.
    + destruct (rev a) as [|y ra] eqn:Ea.
      * exfalso. apply Ha. rewrite <- (rev_involutive a), Ea. reflexivity.
      * rewrite <- Ea, <- Eb, !rev_involutive. reflexivity.
    + intro Hr. apply Hn. apply in_rev. rewrite Eb. now right.
Qed.
Lemma existsb_nl_false : forall s, ~ In 10%N s -> existsb (N.eqb 10) s = false.
Proof.
  intros s H. destruct (existsb (N.eqb 10) s) eqn:E; [|reflexivity].
  apply existsb_exists in E. destruct E as (x & Hx & Ex). apply N.eqb_eq in Ex. subst. contradiction.
Qed.

Definition pair_str (a b : Z) : str := str_of_Z a ++ 44%N :: str_of_Z b.

Lemma pair_str_chars : forall a b c, In c (pair_str a b) -> (48 <= c <= 57)%N \/ c = 45%N \/ c = 44%N.
Proof.
  intros a b c H. unfold pair_str in H. apply in_app_or in H. destruct H as [H|[H|H]].
  - apply str_of_Z_chars in H. tauto.
  - right; right; congruence.
  - apply str_of_Z_chars in H. tauto.
Qed.
Lemma pair_str_not_in : forall a b c, ~ ((48 <= c <= 57)%N \/ c = 45%N \/ c = 44%N) -> ~ In c (pair_str a b).
Proof. intros a b c H Hc. apply H. now apply pair_str_chars in Hc. Qed.
Lemma pair_str_comma : forall a b, In 44%N (pair_str a b).
Proof. intros. unfold pair_str. apply in_or_app. right. now left. Qed.

Lemma pair_regex_pair_str : forall a b, pair_regex (pair_str a b) = Some (str_of_Z a, str_of_Z b).
Proof.
  intros a b. unfold pair_regex. rewrite existsb_nl_false by (apply pair_str_not_in; lia).
  unfold pair_str. apply split_last_app; try apply str_of_Z_nonempty. apply str_of_Z_not_in. lia.
Qed.

Lemma base_from_str_pair_str : forall ty a b, is_scalar ty = true ->
  base_from_str (base_of ty) (pair_str a b) = PErr.
Proof.
  intros ty a b Hs. pose proof (pair_str_comma a b) as Hc.
  destruct ty; try discriminate; cbn [base_of base_from_str]; unfold parse_i64, parse_i32;
    rewrite parse_int_comma by exact Hc; try reflexivity.
  rewrite ratio_regex_none; [reflexivity|]. apply pair_str_not_in. lia.
Qed.

Lemma pair_str_neq : forall a b s c, In c s -> ~ ((48 <= c <= 57)%N \/ c = 45%N \/ c = 44%N) ->
  str_eqb (pair_str a b) s = false.
Proof.
  intros a b s c Hc Hn. apply str_eqb_neq. intro E. apply (pair_str_not_in a b c Hn). rewrite E. exact Hc.
Qed.

Definition in_range (ty : ctype) (z : Z) : bool := (int_lo ty <=? z)%Z && (z <=? int_hi ty)%Z.

(* every pair of integers: `-c <a>,<b>` selects the scalar ring, h = a, t = b (both reduced mod p over F_p);
   out of the machine range: parse error; -r with t <> 0 in the ring: the guard;
   `kh` prints the bigraded table iff h = 0 AND t = 0 in the ring, otherwise the sequence *)
Theorem decide_int_pair : forall cmd ty a b reduced, is_scalar ty = true ->
  decide cmd ty (pair_str a b) reduced =
    if in_range ty a && in_range ty b
    then if reduced && negb (reduce ty b =? 0)%Z then DError EGuardReduced
         else DCompute (mk_params (Ring (base_of ty) PV_None) (VInt (reduce ty a)) (VInt (reduce ty b)) reduced
                match cmd with
                | Ckh => DGrid
                | Kh => if (reduce ty a =? 0)%Z && (reduce ty b =? 0)%Z then DBigraded else DSeq
                end)
    else DError EParse.
Proof.
  intros cmd ty a b reduced Hs. rewrite decide_spec.
  assert (Hv : poly_vars (pair_str a b) = PV_None) by (apply poly_vars_none; apply pair_str_not_in; lia).
  rewrite Hv.
  assert (Hsup : supported cmd ty PV_None = true) by (destruct cmd, ty; try discriminate; reflexivity).
  rewrite Hsup. cbn [negb]. unfold parse_pair, ring_from_str.
  rewrite base_from_str_pair_str by exact Hs. rewrite pair_regex_pair_str.
  rewrite !base_from_str_int by exact Hs. unfold in_range.
  destruct ((int_lo ty <=? a)%Z && (a <=? int_hi ty)%Z); cbn [andb].
  - destruct ((int_lo ty <=? b)%Z && (b <=? int_hi ty)%Z); [|reflexivity].
    cbn [is_zero].
    rewrite (pair_str_neq a b s_H 72%N) by (try (now left); lia).
    rewrite (pair_str_neq a b s_0T 84%N) by (try (right; right; now left); lia).
    rewrite !orb_false_r. reflexivity.
  - destruct ((int_lo ty <=? b)%Z && (b <=? int_hi ty)%Z); reflexivity.
Qed.

(* the bigraded / sequence choice alone, as an equivalence *)
Corollary kh_int_pair_bigraded_iff : forall ty a b reduced p, is_scalar ty = true ->
  decide Kh ty (pair_str a b) reduced = DCompute p ->
  (p_display p = DBigraded <-> reduce ty a = 0%Z /\ reduce ty b = 0%Z) /\
  (p_display p = DSeq <-> ~ (reduce ty a = 0%Z /\ reduce ty b = 0%Z)).
Proof.
  intros ty a b reduced p Hs H. rewrite decide_int_pair in H by exact Hs.
  destruct (in_range ty a && in_range ty b); [|discriminate].
  destruct (reduced && negb (reduce ty b =? 0)%Z); [discriminate|].
  inversion H; subst p; clear H. cbn [p_display].
  destruct (Z.eqb_spec (reduce ty a) 0) as [Ea|Ea]; destruct (Z.eqb_spec (reduce ty b) 0) as [Eb|Eb]; cbn [andb];
    (split; split; intro H; try discriminate H; try reflexivity; try tauto).
Qed.
