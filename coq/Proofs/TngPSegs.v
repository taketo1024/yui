(* Tangle layer, part 2: for ALL inputs (malformed ones included) every Tng operation that returns preserves the
   multiset of segments: normalize / Tng::new, append_arc, connect, from_resolved. *)
From Coq Require Import List Arith Bool Lia Permutation.
Import ListNotations.
Require Import Yui.Model.Link Yui.Model.Tng Yui.Proofs.TngPBase.

Definition tsegs (t : list path) : list (nat * nat) := flat_map segs t.
Definition twf (t : list path) : Prop := Forall pwf t.

Lemma ins_perm : forall x l, Permutation (ins x l) (x :: l).
Proof.
  intros x l. induction l as [|y r IH]; cbn [ins]; [constructor; constructor|].
  destruct (comp_le x y); [apply Permutation_refl|].
  eapply perm_trans; [apply perm_skip; exact IH|apply perm_swap].
Qed.
Lemma isort_perm : forall l, Permutation (isort l) l.
Proof.
  induction l as [|x l IH]; [constructor|]. cbn [isort fold_right].
  eapply perm_trans; [apply ins_perm|]. constructor. exact IH.
Qed.
Lemma tng_sort_perm : forall cs t, tng_sort cs = Some t -> Permutation t cs.
Proof.
  intros cs t. unfold tng_sort. destruct (sort_panics cs); [discriminate|].
  intros E. inversion E. apply isort_perm.
Qed.
Lemma tng_sort_eq : forall cs t, tng_sort cs = Some t -> t = isort cs.
Proof. intros cs t. unfold tng_sort. destruct (sort_panics cs); congruence. Qed.

Lemma tsegs_perm : forall a b, Permutation a b -> Permutation (tsegs a) (tsegs b).
Proof. intros. apply Permutation_flat_map; auto. Qed.
Lemma tsegs_single : forall c, tsegs [c] = segs c.
Proof. intros c. apply app_nil_r. Qed.
Lemma tsegs_app : forall a b, tsegs (a ++ b) = tsegs a ++ tsegs b.
Proof. intros. apply flat_map_app. Qed.
Lemma twf_perm : forall a b, Permutation a b -> twf a -> twf b.
Proof. intros a b Hp Ha. eapply Permutation_Forall; eauto. Qed.

Lemma find_index_split : forall {A : Type} (f : A -> bool) t i, find_index f t = Some i ->
  exists l1 c l2, t = l1 ++ c :: l2 /\ length l1 = i /\ f c = true /\ (forall x, In x l1 -> f x = false).
Proof.
  intros A f. induction t as [|x t IH]; intros i; cbn [find_index]; [discriminate|].
  destruct (f x) eqn:Fx.
  - intros E. inversion E. exists [], x, t. repeat split; auto. intros y [].
  - destruct (find_index f t) as [k|] eqn:Ek; [|discriminate]. cbn. intros E. inversion E.
    destruct (IH k eq_refl) as (l1 & c & l2 & -> & Hl & Fc & Hall).
    exists (x :: l1), c, l2. repeat split; cbn; auto.
    intros y [<-|Hy]; auto.
Qed.
Lemma find_index_none : forall {A : Type} (f : A -> bool) t, find_index f t = None -> forall x, In x t -> f x = false.
Proof.
  intros A f. induction t as [|y t IH]; cbn [find_index]; [intros _ x []|].
  destruct (f y) eqn:Fy; [discriminate|].
  destruct (find_index f t); [discriminate|]. intros _ x [<-|Hx]; auto.
Qed.

Lemma set_nth_middle : forall (l1 : list path) c c' l2, set_nth (length l1) c' (l1 ++ c :: l2) = l1 ++ c' :: l2.
Proof. induction l1 as [|x l1 IH]; intros; cbn; [reflexivity|]. rewrite IH. reflexivity. Qed.
Lemma remove_nth_middle : forall {A : Type} (l1 : list A) c l2, remove_nth (length l1) (l1 ++ c :: l2) = l1 ++ l2.
Proof.
  intros A. induction l1 as [|x l1 IH]; intros c l2; [reflexivity|].
  unfold remove_nth in *. cbn [length app firstn skipn]. cbn [skipn] in IH. f_equal. apply IH.
Qed.
Lemma nth_error_middle : forall (l1 : list path) c l2, nth_error (l1 ++ c :: l2) (length l1) = Some c.
Proof. intros. rewrite nth_error_app2 by lia. rewrite Nat.sub_diag. reflexivity. Qed.

Lemma tsegs_middle : forall l1 c l2, Permutation (tsegs (l1 ++ c :: l2)) (segs c ++ tsegs (l1 ++ l2)).
Proof.
  intros. apply (tsegs_perm (l1 ++ c :: l2) (c :: l1 ++ l2)). apply Permutation_sym, Permutation_middle.
Qed.
Lemma twf_middle : forall l1 c l2, twf (l1 ++ c :: l2) <-> pwf c /\ twf (l1 ++ l2).
Proof.
  intros. unfold twf. rewrite !Forall_app, Forall_cons_iff. tauto.
Qed.

(* a component replaced by one that has the segments S in addition *)
Lemma tsegs_replace : forall l1 c c' l2 S, Permutation (segs c') (segs c ++ S) ->
  Permutation (tsegs (l1 ++ c' :: l2)) (tsegs (l1 ++ c :: l2) ++ S).
Proof.
  intros l1 c c' l2 S P. rewrite !tsegs_app. cbn [tsegs flat_map]. rewrite <- !app_assoc.
  apply Permutation_app_head. eapply perm_trans; [apply Permutation_app_tail; exact P|].
  rewrite <- app_assoc. apply Permutation_app_head, Permutation_app_comm.
Qed.

Lemma sort_segs : forall cs t S, tng_sort cs = Some t -> Permutation (tsegs cs) S -> twf cs ->
  Permutation (tsegs t) S /\ twf t.
Proof.
  intros cs t S Es P W. pose proof (tng_sort_perm _ _ Es) as Hp. split.
  - exact (perm_trans (tsegs_perm _ _ Hp) P).
  - exact (twf_perm _ _ (Permutation_sym Hp) W).
Qed.

Theorem append_arc_segs : forall t arc t', twf t -> pwf arc -> append_arc t arc = Some t' ->
  Permutation (tsegs t') (tsegs t ++ segs arc) /\ twf t'.
Proof.
  intros t arc t' Wt Wa. unfold append_arc. destruct (pclosed arc); [discriminate|].
  destruct (find_index (fun c => p_connectable c arc) t) as [i|] eqn:Fi.
  2:{ (* no match: the arc is pushed *)
    intros Es. apply (sort_segs _ _ _ Es).
    - rewrite tsegs_app, tsegs_single. apply Permutation_refl.
    - apply Forall_app. split; auto. }
  (* one match: ci takes the place of c *)
  destruct (find_index_split _ _ _ Fi) as (l1 & c & l2 & -> & <- & _).
  rewrite nth_middle. destruct (p_connect c arc) as [ci|] eqn:Eci; [|discriminate]. rewrite set_nth_middle.
  apply twf_middle in Wt. destruct Wt as [Wc Wr].
  pose proof (tsegs_replace l1 c ci l2 _ (p_connect_segs _ _ _ Wc Wa Eci)) as P1.
  assert (W1 : twf (l1 ++ ci :: l2)) by (apply twf_middle; split; [exact (p_connect_pwf _ _ _ Eci)|exact Wr]).
  destruct (find_index _ (l1 ++ ci :: l2)) as [j|] eqn:Fj; [|intros Es; exact (sort_segs _ _ _ Es P1 W1)].
  (* a second match: cj is taken out, and c2 takes the place of whatever ci' now stands at the position of ci *)
  destruct (find_index_split _ _ _ Fj) as (m1 & cj & m2 & Em & <- & _).
  rewrite Em in *. rewrite nth_middle, remove_nth_middle.
  destruct (nth_error (m1 ++ m2) (length l1)) as [ci'|] eqn:En; [|discriminate].
  destruct (p_connect ci' cj) as [c2|] eqn:Ec2; [|discriminate]. intros Es.
  apply twf_middle in W1. destruct W1 as [Wcj Wm].
  destruct (nth_error_split _ _ En) as (n1 & n2 & En' & Hn). rewrite En', <- Hn, set_nth_middle in Es.
  rewrite En' in Wm. apply twf_middle in Wm. destruct Wm as [Wci' Wn]. apply (sort_segs _ _ _ Es).
  - eapply perm_trans; [apply tsegs_replace, (p_connect_segs _ _ _ Wci' Wcj Ec2)|]. rewrite <- En'.
    eapply perm_trans; [apply Permutation_app_comm|].
    eapply perm_trans; [apply Permutation_sym, tsegs_middle|exact P1].
  - apply twf_middle. split; [exact (p_connect_pwf _ _ _ Ec2)|exact Wn].
Qed.

(* Tng::connect, the sequences of append_arc and the gluing of a list of crossings are loops
   `for a in xs { t = step(t, a)? }`; what one step does to the segments, the loop does to those of the whole list *)
Section Loop.
  Variables (A : Type) (step : tng -> A -> option tng) (S : A -> list (nat * nat)) (Pre : A -> Prop).

  Fixpoint loop (t : tng) (xs : list A) : option tng :=
    match xs with
    | [] => Some t
    | a :: r => match step t a with None => None | Some t' => loop t' r end
    end.

  Hypothesis step_segs : forall t a t', twf t -> Pre a -> step t a = Some t' ->
    Permutation (tsegs t') (tsegs t ++ S a) /\ twf t'.

  Lemma loop_segs : forall xs t t', twf t -> Forall Pre xs -> loop t xs = Some t' ->
    Permutation (tsegs t') (tsegs t ++ flat_map S xs) /\ twf t'.
  Proof.
    induction xs as [|a r IH]; intros t t' Wt Hp; cbn [loop flat_map].
    - intros E. inversion E. subst. rewrite app_nil_r. split; auto.
    - inversion Hp as [|? ? Pa Pr]; subst. destruct (step t a) as [t1|] eqn:E1; [|discriminate]. intros E.
      destruct (step_segs _ _ _ Wt Pa E1) as [P1 W1]. destruct (IH _ _ W1 Pr E) as [P W]. split; [|exact W].
      rewrite app_assoc. exact (perm_trans P (Permutation_app_tail _ P1)).
  Qed.
End Loop.

Definition connect_step (t : tng) (c : path) : option tng :=
  if pclosed c then Some (t ++ [c]) else append_arc t c.

Lemma connect_loop_eq : forall other t, tng_connect_loop t other = loop _ connect_step t other.
Proof.
  induction other as [|c r IH]; intros t; cbn [tng_connect_loop loop]; [reflexivity|].
  unfold connect_step. destruct (pclosed c); [apply IH|]. destruct (append_arc t c); auto.
Qed.

Lemma connect_loop_segs : forall other t t', twf t -> twf other -> tng_connect_loop t other = Some t' ->
  Permutation (tsegs t') (tsegs t ++ tsegs other) /\ twf t'.
Proof.
  intros other t t'. rewrite connect_loop_eq. apply loop_segs. clear. intros t c t' Wt Wc. unfold connect_step.
  destruct (pclosed c); [|apply append_arc_segs; auto].
  intros E. inversion E. rewrite tsegs_app, tsegs_single.
  split; [apply Permutation_refl|]. apply Forall_app. split; auto.
Qed.

Theorem tng_connect_segs : forall t other t', twf t -> twf other -> tng_connect t other = Some t' ->
  Permutation (tsegs t') (tsegs t ++ tsegs other) /\ twf t'.
Proof.
  intros t other t' Wt Wo. unfold tng_connect.
  destruct (tng_connect_loop t other) as [t1|] eqn:El; [|discriminate]. intros Es.
  destruct (connect_loop_segs _ _ _ Wt Wo El) as [Hp Hw]. exact (sort_segs _ _ _ Es Hp Hw).
Qed.

Lemma c_comp_pwf : forall a b, pwf (c_comp a b).
Proof. intros a b. unfold c_comp, pwf. destruct (a =? b); cbn; [left|right]; congruence. Qed.
Lemma c_comp_segs : forall a b, segs (c_comp a b) = [nseg a b].
Proof.
  intros a b. unfold c_comp. destruct (a =? b) eqn:E; [|reflexivity].
  apply Nat.eqb_eq in E. subst. reflexivity.
Qed.
Lemma c_arcs_pwf : forall x, pwf (fst (c_arcs x)) /\ pwf (snd (c_arcs x)).
Proof. intros x. unfold c_arcs. destruct (ct x); cbn; split; apply c_comp_pwf. Qed.

(* the two strands of a crossing, as unordered pairs of labels *)
Definition crossing_segs (x : crossing) : list (nat * nat) :=
  match ct x with
  | X | Xm => [nseg (e0 x) (e2 x); nseg (e1 x) (e3 x)]
  | V => [nseg (e0 x) (e3 x); nseg (e1 x) (e2 x)]
  | H => [nseg (e0 x) (e1 x); nseg (e2 x) (e3 x)]
  end.
Lemma c_arcs_segs : forall x, segs (fst (c_arcs x)) ++ segs (snd (c_arcs x)) = crossing_segs x.
Proof. intros x. unfold c_arcs, crossing_segs. destruct (ct x); cbn [fst snd]; rewrite !c_comp_segs; reflexivity. Qed.

Theorem from_resolved_segs : forall x t, tng_from_resolved x = Some t ->
  is_resolved x = true /\ Permutation (tsegs t) (crossing_segs x) /\ twf t.
Proof.
  intros x t. unfold tng_from_resolved. destruct (is_resolved x) eqn:Hr; [|discriminate].
  destruct (c_arcs x) as [c0 c1] eqn:Ea.
  pose proof (c_arcs_pwf x) as [W0 W1]. pose proof (c_arcs_segs x) as Hs. rewrite Ea in *. cbn [fst snd] in *.
  rewrite <- Hs. unfold tng_new. destruct (p_connectable c0 c1).
  - destruct (p_connect c0 c1) as [c|] eqn:Ec; [|discriminate]. intros Es. split; [reflexivity|].
    apply (sort_segs _ _ _ Es).
    + rewrite tsegs_single. apply p_connect_segs; auto.
    + constructor; [exact (p_connect_pwf _ _ _ Ec)|constructor].
  - intros Es. split; [reflexivity|]. apply (sort_segs _ _ _ Es).
    + cbn [tsegs flat_map]. rewrite app_nil_r. apply Permutation_refl.
    + constructor; [|constructor]; auto.
Qed.

Lemma from_resolved_none : forall x, is_resolved x = false -> tng_from_resolved x = None.
Proof. intros x Hx. unfold tng_from_resolved. rewrite Hx. reflexivity. Qed.

Definition crossing_step (t : tng) (x : crossing) : option tng :=
  match tng_from_resolved x with None => None | Some tx => tng_connect t tx end.

Lemma of_crossings_from_eq : forall xs t, tng_of_crossings_from t xs = loop _ crossing_step t xs.
Proof.
  induction xs as [|x r IH]; intros t; cbn [tng_of_crossings_from loop]; [reflexivity|].
  unfold crossing_step. destruct (tng_from_resolved x) as [tx|]; [|reflexivity]. destruct (tng_connect t tx); auto.
Qed.

Theorem tng_of_crossings_from_segs : forall xs t t', twf t -> tng_of_crossings_from t xs = Some t' ->
  Permutation (tsegs t') (tsegs t ++ flat_map crossing_segs xs) /\ twf t'.
Proof.
  intros xs t t' Wt. rewrite of_crossings_from_eq.
  apply (loop_segs _ _ _ (fun _ => True)); [|exact Wt|apply Forall_forall; auto].
  clear. intros t x t' Wt _. unfold crossing_step.
  destruct (tng_from_resolved x) as [tx|] eqn:Ex; [|discriminate]. intros Ec.
  destruct (from_resolved_segs _ _ Ex) as (_ & Px & Wx).
  destruct (tng_connect_segs _ _ _ Wt Wx Ec) as [P1 W1]. split; [|exact W1].
  exact (perm_trans P1 (Permutation_app_head _ Px)).
Qed.
