(* Vertical composition, part 3: tangles with pairwise disjoint simple components.
   * TngComp's == (unori_eq) implies equal kind and equal label sets ([unori_eq_sound]);
   * hence a simple middle component has at most one owner in a pool whose tangles are pairwise disjoint ([cnt_le1]);
   * Tng::connect of tangles without common labels is the sorted concatenation ([tng_connect_disjoint],
     [fold_connect_disjoint]); a sorted tangle with disjoint components is the only sorted permutation of its
     components ([sorted_perm_eq]). *)
From Coq Require Import List Arith Bool Lia ZArith Permutation Sorted.
Import ListNotations.
Require Import Yui.Model.Link Yui.Model.Tng Yui.Model.TngCob Yui.Model.TngStack.
Require Import Yui.Base.ListFacts.
Require Import Yui.Proofs.TngPBase Yui.Proofs.TngPSegs Yui.Proofs.TngPDeg Yui.Proofs.TngPJoin Yui.Proofs.TngPStep
  Yui.Proofs.TngPSeq Yui.Proofs.TngPConn Yui.Proofs.TngPStackBase Yui.Proofs.TngPStackBfs.

Lemma forallb_nth_incl : forall (a b : list nat) (g : nat -> nat),
  (forall i, i < length a -> g i < length b) ->
  forallb (fun i => nth i a 0 =? nth (g i) b 0) (seq 0 (length a)) = true -> incl a b.
Proof.
  intros a b g Hg Hf x Hx. destruct (In_nth a x 0 Hx) as (i & Hi & <-).
  rewrite forallb_forall in Hf. specialize (Hf i). rewrite in_seq in Hf.
  assert (E : nth i a 0 =? nth (g i) b 0 = true) by (apply Hf; lia). apply Nat.eqb_eq in E. rewrite E.
  apply nth_In. apply Hg. exact Hi.
Qed.

Theorem unori_eq_sound : forall p q, NoDup (pedges p) -> unori_eq p q = true -> same_comp p q.
Proof.
  intros p q Nd. unfold unori_eq.
  destruct (Bool.eqb (pclosed p) (pclosed q)) eqn:Ec; cbn [negb orb]; [|discriminate].
  destruct (length (pedges p) =? length (pedges q)) eqn:El; cbn [negb orb]; [|discriminate].
  destruct (edge_sum p =? edge_sum q); cbn [negb]; [|discriminate].
  apply eqb_prop in Ec. apply Nat.eqb_eq in El.
  destruct (nlist_eqb (pedges p) (pedges q)) eqn:En.
  - intros _. apply nlist_eqb_eq in En. split; [exact Ec|]. rewrite En. tauto.
  - destruct (pclosed p) eqn:Hp.
    + destruct (index_of (hd 0 (pedges p)) (pedges q)) as [k|]; [|discriminate]. intros Ho.
      assert (Hi : incl (pedges p) (pedges q)).
      { destruct (pedges p) as [|x a] eqn:Ea; [intros y []|]. rewrite <- Ea in *.
        assert (Hn : length (pedges p) <> 0) by (rewrite Ea; cbn; lia).
        apply orb_true_iff in Ho. destruct Ho as [Ho|Ho].
        - eapply (forallb_nth_incl _ _ (fun i => (k + i) mod length (pedges p))); [|exact Ho].
          intros i _. rewrite <- El. apply Nat.mod_upper_bound. exact Hn.
        - eapply (forallb_nth_incl _ _ (fun i => (k + length (pedges p) - i) mod length (pedges p))); [|exact Ho].
          intros i _. rewrite <- El. apply Nat.mod_upper_bound. exact Hn. }
      split; [congruence|]. intros v. split; [apply Hi|]. apply NoDup_length_incl; auto. lia.
    + intros Hc. apply combine_all_eq in Hc; [|rewrite rev_length; auto]. split; [congruence|].
      intros v. rewrite Hc, <- in_rev. tauto.
Qed.

Lemma unori_eq_shares : forall p q, simple p -> unori_eq p q = true ->
  pclosed p = pclosed q /\ pedges q <> [] /\ (forall v, In v (pedges p) <-> In v (pedges q)).
Proof.
  intros p q Sp He. destruct (unori_eq_sound p q (proj1 Sp) He) as [Hc Hs]. split; auto. split; auto.
  pose proof (simple_ne p Sp) as Hne. destruct (pedges p) as [|x l] eqn:E; [contradiction|].
  intros Hq. assert (Hx : In x (pedges q)) by (apply Hs; left; reflexivity). rewrite Hq in Hx. contradiction.
Qed.

Lemma inv_app : forall a b, tng_inv (a ++ b) <->
  tng_inv a /\ tng_inv b /\ (forall v, In v (verts a) -> ~ In v (verts b)).
Proof.
  intros a b. unfold tng_inv. rewrite Forall_app, verts_app. split.
  - intros [[Fa Fb] Hn]. apply NoDup_app_inv in Hn. destruct Hn as (Na & Nb & Hd).
    split; [split; assumption|]. split; [split; assumption|]. intros v H1 H2. eapply Hd; eauto.
  - intros ([Fa Na] & [Fb Nb] & Hd). split; [split; assumption|]. apply NoDup_app_intro; [assumption|assumption|].
    intros x H1 H2. exact (Hd x H1 H2).
Qed.

Lemma inv_sub : forall a b c, Permutation a (b ++ c) -> tng_inv a -> tng_inv b /\ tng_inv c.
Proof.
  intros a b c Hp Hi. apply (inv_perm _ _ Hp) in Hi. apply inv_app in Hi. tauto.
Qed.

Lemma flat_map_perm_g : forall (A B : Type) (f : A -> list B) l l', Permutation l l' ->
  Permutation (flat_map f l) (flat_map f l').
Proof. intros. apply Permutation_flat_map. assumption. Qed.

(* the tangles [sel t] of the components of a pool, side by side *)
Definition flat (sel : cobcomp -> tng) (pool : list cobcomp) : list path := flat_map sel pool.

Lemma flat_in : forall sel pool t m, In t pool -> In m (sel t) -> In m (flat sel pool).
Proof. intros. unfold flat. apply in_flat_map. eauto. Qed.

Lemma flat_sub : forall sel pool b c, Permutation pool (b ++ c) -> tng_inv (flat sel pool) ->
  tng_inv (flat sel b) /\ tng_inv (flat sel c).
Proof.
  intros sel pool b c Hp Hi. apply (inv_sub (flat sel pool)); auto.
  unfold flat. rewrite <- flat_map_app. apply Permutation_flat_map. exact Hp.
Qed.

(* two members of a pool whose selected tangles share a label are the same member *)
Lemma owner_unique : forall sel pool t t' v, tng_inv (flat sel pool) -> In t pool -> In t' pool ->
  In v (verts (sel t)) -> In v (verts (sel t')) -> t = t' \/ False.
Proof.
  intros sel pool t t' v Hi Ht Ht' Hv Hv'. destruct (in_split _ _ Ht) as (l1 & l2 & ->).
  unfold flat in Hi. rewrite flat_map_app in Hi. cbn [flat_map] in Hi.
  apply in_app_or in Ht'. destruct Ht' as [H|[H|H]]; auto; right.
  - apply inv_app in Hi. destruct Hi as (_ & _ & Hd). apply (Hd v).
    + apply in_verts. apply in_verts in Hv'. destruct Hv' as (c & Hc & Hvc). exists c. split; auto.
      apply in_flat_map. eauto.
    + rewrite verts_app. apply in_or_app. left. exact Hv.
  - apply inv_app in Hi. destruct Hi as (_ & Hi & _). apply inv_app in Hi. destruct Hi as (_ & _ & Hd). apply (Hd v Hv).
    apply in_verts. apply in_verts in Hv'. destruct Hv' as (c & Hc & Hvc). exists c. split; auto.
    apply in_flat_map. eauto.
Qed.

Lemma owner_unique' : forall sel pool t t' v, tng_inv (flat sel pool) -> In t pool -> In t' pool ->
  In v (verts (sel t)) -> In v (verts (sel t')) -> t = t'.
Proof. intros. destruct (owner_unique sel pool t t' v) as [E|[]]; auto. Qed.

Lemma hit_iff : forall sel m t, hit sel m t = true <-> exists m1, In m1 (sel t) /\ unori_eq m1 m = true.
Proof. intros. unfold hit, tng_contains. rewrite existsb_exists. tauto. Qed.

(* a hit shares every label *)
Lemma hit_shares : forall sel pool m t, tng_inv (flat sel pool) -> In t pool -> hit sel m t = true ->
  pedges m <> [] /\ forall v, In v (pedges m) -> In v (verts (sel t)).
Proof.
  intros sel pool m t Hi Ht Hh. apply hit_iff in Hh. destruct Hh as (m1 & H1 & He).
  assert (S1 : simple m1) by (eapply inv_simple; [exact Hi|eapply flat_in; eauto]).
  destruct (unori_eq_shares m1 m S1 He) as (_ & Hne & Hs). split; auto.
  intros v Hv. apply in_verts. exists m1. split; auto. apply Hs. exact Hv.
Qed.

Theorem cnt_le1 : forall sel pool m, tng_inv (flat sel pool) -> cnt sel pool m <= 1.
Proof.
  intros sel. induction pool as [|t r IH]; intros m Hi; [cbn; lia|]. rewrite cnt_cons.
  assert (Hr : tng_inv (flat sel r)).
  { unfold flat in *. cbn [flat_map] in Hi. apply inv_app in Hi. tauto. }
  destruct (hit sel m t) eqn:Ht; [|specialize (IH m Hr); lia].
  assert (E : cnt sel r m = 0); [|lia].
  unfold cnt. destruct (filter (hit sel m) r) as [|t' l] eqn:Ef; [reflexivity|exfalso].
  assert (Hin : In t' (filter (hit sel m) r)) by (rewrite Ef; left; reflexivity).
  apply filter_In in Hin. destruct Hin as [Ht' Hh'].
  destruct (hit_shares sel (t :: r) m t Hi (or_introl eq_refl) Ht) as [Hne Hs].
  destruct (hit_shares sel (t :: r) m t' Hi (or_intror Ht') Hh') as [_ Hs'].
  destruct (pedges m) as [|v l'] eqn:Em; [contradiction|].
  unfold flat in Hi. cbn [flat_map] in Hi. apply inv_app in Hi. destruct Hi as (_ & _ & Hd).
  apply (Hd v); [apply Hs; left; reflexivity|].
  specialize (Hs' v (or_introl eq_refl)). apply in_verts in Hs'. destruct Hs' as (c & Hc & Hvc).
  apply in_verts. exists c. split; auto. apply in_flat_map. eauto.
Qed.

Lemma append_arc_disjoint : forall t c, tng_inv (t ++ [c]) -> pclosed c = false ->
  append_arc t c = Some (isort (t ++ [c])).
Proof.
  intros t c Hi Hc. unfold append_arc. rewrite Hc.
  assert (Hn : find_index (fun c0 => p_connectable c0 c) t = None).
  { destruct (find_index _ t) as [i|] eqn:Ef; [exfalso|reflexivity].
    destruct (find_index_split _ _ _ Ef) as (l1 & d & l2 & -> & _ & Hd & _).
    destruct (connectable_shares_end _ _ Hd) as (v & Ev & Ev').
    apply inv_app in Hi. destruct Hi as (It & Ic & Hdis).
    assert (Sd : simple d) by (eapply inv_simple; [exact It|apply in_or_app; right; left; reflexivity]).
    assert (Sc : simple c) by (eapply inv_simple; [exact Ic|left; reflexivity]).
    apply (Hdis v).
    - apply in_verts. exists d. split; [apply in_or_app; right; left; reflexivity|apply is_end_in; auto].
    - apply in_verts. exists c. split; [left; reflexivity|apply is_end_in; auto]. }
  rewrite Hn. apply sort_total. apply Hi.
Qed.

Lemma connect_loop_disjoint : forall o t, tng_inv (t ++ o) ->
  exists t', tng_connect_loop t o = Some t' /\ Permutation t' (t ++ o).
Proof.
  induction o as [|c r IH]; intros t Hi; cbn [tng_connect_loop].
  - exists t. rewrite app_nil_r. split; auto.
  - assert (Hi' : tng_inv ((t ++ [c]) ++ r)) by (rewrite <- app_assoc; exact Hi).
    destruct (pclosed c) eqn:Hc.
    + destruct (IH _ Hi') as (t' & E & P). exists t'. split; auto. rewrite <- app_assoc in P. exact P.
    + assert (Hi1 : tng_inv (t ++ [c])) by (apply inv_app in Hi'; tauto).
      rewrite (append_arc_disjoint t c Hi1 Hc).
      destruct (IH (isort (t ++ [c]))) as (t' & E & P).
      { eapply inv_perm; [|exact Hi']. apply Permutation_app_tail. apply Permutation_sym, isort_perm. }
      exists t'. split; auto. eapply perm_trans; [exact P|].
      replace (t ++ c :: r) with ((t ++ [c]) ++ r) by (rewrite <- app_assoc; reflexivity).
      apply Permutation_app_tail. apply isort_perm.
Qed.

Theorem tng_connect_disjoint : forall t o, tng_inv (t ++ o) ->
  exists t', tng_connect t o = Some t' /\ Permutation t' (t ++ o) /\ tng_sorted t'.
Proof.
  intros t o Hi. unfold tng_connect. destruct (connect_loop_disjoint o t Hi) as (t1 & E & P). rewrite E.
  rewrite sort_total by (apply (inv_perm _ _ (Permutation_sym P)) in Hi; apply Hi).
  eexists. split; [reflexivity|]. split; [|apply isort_sorted].
  eapply perm_trans; [apply isort_perm|exact P].
Qed.

Lemma fold_connect_from : forall ts r0, tng_inv (r0 ++ concat ts) -> tng_sorted r0 ->
  exists r, fold_left (fun acc t => match acc with None => None | Some r => tng_connect r t end) ts (Some r0) = Some r /\
    Permutation r (r0 ++ concat ts) /\ tng_sorted r.
Proof.
  induction ts as [|t ts IH]; intros r0 Hi Hs; cbn [fold_left concat].
  - exists r0. rewrite app_nil_r. auto.
  - cbn [concat] in Hi. rewrite app_assoc in Hi.
    assert (Hi1 : tng_inv (r0 ++ t)) by (apply inv_app in Hi; tauto).
    destruct (tng_connect_disjoint r0 t Hi1) as (r1 & E1 & P1 & S1). rewrite E1.
    destruct (IH r1) as (r & E & P & S); auto.
    { eapply inv_perm; [|exact Hi]. apply Permutation_app_tail. apply Permutation_sym. exact P1. }
    exists r. split; auto. split; auto. eapply perm_trans; [exact P|]. rewrite app_assoc.
    apply Permutation_app_tail. exact P1.
Qed.

Theorem fold_connect_disjoint : forall ts, tng_inv (concat ts) ->
  exists r, tng_fold_connect ts = Some r /\ Permutation r (concat ts) /\ tng_sorted r.
Proof.
  intros ts Hi. unfold tng_fold_connect. apply (fold_connect_from ts []); auto. constructor.
Qed.

Lemma concat_map_flat : forall sel (l : list cobcomp), concat (map sel l) = flat sel l.
Proof. intros. unfold flat. rewrite flat_map_concat_map. reflexivity. Qed.

Lemma Forall2_eq_in : forall (A : Type) (R : A -> A -> Prop) l1 l2,
  (forall x y, In x l1 -> In y l2 -> R x y -> x = y) -> Forall2 R l1 l2 -> l1 = l2.
Proof.
  intros A R l1 l2 H F. induction F as [|x y l1 l2 Hxy F IH]; [reflexivity|]. f_equal.
  - apply H; auto; left; reflexivity.
  - apply IH. intros a b Ha Hb. apply H; right; assumption.
Qed.

Theorem sorted_perm_eq : forall t1 t2, tng_inv t1 -> tng_sorted t1 -> tng_sorted t2 -> Permutation t1 t2 -> t1 = t2.
Proof.
  intros t1 t2 I1 S1 S2 Hp.
  assert (I2 : tng_inv t2) by (eapply inv_perm; eauto).
  assert (Hrefl : forall c, same_comp c c) by (intros c; split; [reflexivity|tauto]).
  apply (Forall2_eq_in _ same_comp).
  - intros x y Hx Hy [_ Hs]. assert (Hy' : In y t1) by (eapply Permutation_in; [apply Permutation_sym; exact Hp|exact Hy]).
    pose proof (simple_ne x (inv_simple _ _ I1 Hx)) as Hne. destruct (pedges x) as [|v l] eqn:E; [contradiction|].
    apply (inv_same_comp t1 x y v I1 Hx Hy'); [rewrite E; left; reflexivity|apply Hs; left; reflexivity].
  - apply normal_form_match; [split; assumption|split; assumption| |].
    + intros c1 H1. exists c1. split; [eapply Permutation_in; eauto|apply Hrefl].
    + intros c2 H2. exists c2. split; [eapply Permutation_in; [apply Permutation_sym; exact Hp|exact H2]|apply Hrefl].
Qed.
