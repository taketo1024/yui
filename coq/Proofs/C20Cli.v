(* C20: the decision logic of the CLI model (dispatch table, -c parsing of integers and of the listed
   symbolic values, guards, error outcomes). *)
From Coq Require Import ZArith NArith List Bool Arith Lia ZifyN ZifyBool ZifyNat.
Require Import Yui.Model.Table Yui.Model.Cli Yui.Proofs.C20Str.
Import ListNotations.

Lemma split_on_nonempty : forall sep s, split_on sep s <> [].
Proof.
  intros sep s. destruct s as [|c r]; cbn [split_on]; [discriminate|].
  destruct (c =? sep)%N; [discriminate|]. destruct (split_on sep r); discriminate.
Qed.
Lemma join_cons2 : forall sep a b (r : list str), join sep (a :: b :: r) = a ++ sep ++ join sep (b :: r).
Proof. reflexivity. Qed.
(* the pieces, glued with the separator, give the string back; no piece contains the separator *)
Lemma split_on_join : forall sep s, join [sep] (split_on sep s) = s.
Proof.
  intros sep. induction s as [|c r IH]; [reflexivity|].
  cbn [split_on]. pose proof (split_on_nonempty sep r) as Hne.
  destruct (split_on sep r) as [|t ts] eqn:Es; [congruence|].
  destruct (c =? sep)%N eqn:E.
  - apply N.eqb_eq in E. subst c. rewrite join_cons2, IH. reflexivity.
  - destruct ts as [|t2 ts2].
    + cbn [join] in *. now subst.
    + rewrite join_cons2 in *. rewrite <- IH. reflexivity.
Qed.
Lemma split_on_no_sep : forall sep s t, In t (split_on sep s) -> ~ In sep t.
Proof.
  intros sep. induction s as [|c r IH]; intros t Ht.
  - destruct Ht as [<-|[]]. intros [].
  - cbn [split_on] in Ht. destruct (c =? sep)%N eqn:E.
    + destruct Ht as [<-|Ht]; [intros [] | now apply IH].
    + apply N.eqb_neq in E. pose proof (split_on_nonempty sep r) as Hne.
      destruct (split_on sep r) as [|t0 ts] eqn:Es; [congruence|].
      destruct Ht as [<-|Ht].
      * intros [H|H]; [congruence | apply (IH t0 (or_introl eq_refl) H)].
      * apply IH. now right.
Qed.
Lemma split_comma_spec : forall c,
  join [44%N] (split_on 44 c) = c /\ (forall t, In t (split_on 44 c) -> ~ In 44%N t).
Proof. intro c. split; [apply split_on_join | apply split_on_no_sep]. Qed.
Lemma split_on_chars : forall sep s t c, In t (split_on sep s) -> In c t -> In c s.
Proof.
  intros sep. induction s as [|a r IH]; intros t c Ht Hc.
  - destruct Ht as [<-|[]]. destruct Hc.
  - cbn [split_on] in Ht. destruct (a =? sep)%N eqn:E.
    + destruct Ht as [<-|Ht]; [destruct Hc | right; eapply IH; eauto].
    + pose proof (split_on_nonempty sep r) as Hne.
      destruct (split_on sep r) as [|t0 ts] eqn:Es; [congruence|].
      destruct Ht as [<-|Ht].
      * destruct Hc as [<-|Hc]; [now left | right; eapply IH; [now left | exact Hc]].
      * right. eapply IH; [right; exact Ht | exact Hc].
Qed.

Lemma existsb_str_eqb : forall t ts, existsb (str_eqb t) ts = true <-> In t ts.
Proof.
  intros t ts. rewrite existsb_exists. split.
  - intros (x & Hx & E). apply str_eqb_eq in E. now subst.
  - intro H. exists t. split; [exact H | apply str_eqb_refl].
Qed.
(* poly_vars: which of the tokens "H", "T" occur among the comma separated pieces *)
Theorem poly_vars_spec : forall c,
  poly_vars c = match existsb (str_eqb s_H) (split_on 44 c), existsb (str_eqb s_T) (split_on 44 c) with
                | true, true => PV_HT | true, false => PV_H | false, true => PV_T | false, false => PV_None
                end
  /\ (existsb (str_eqb s_H) (split_on 44 c) = true <-> In s_H (split_on 44 c))
  /\ (existsb (str_eqb s_T) (split_on 44 c) = true <-> In s_T (split_on 44 c)).
Proof. intro c. split; [reflexivity|]. split; apply existsb_str_eqb. Qed.

Lemma poly_vars_none : forall c, ~ In 72%N c -> ~ In 84%N c -> poly_vars c = PV_None.
Proof.
  intros c HH HT. unfold poly_vars.
  destruct (existsb (str_eqb s_H) (split_on 44 c)) eqn:E1.
  - apply existsb_str_eqb in E1. exfalso. apply HH. eapply split_on_chars; [exact E1 | now left].
  - destruct (existsb (str_eqb s_T) (split_on 44 c)) eqn:E2; [|reflexivity].
    apply existsb_str_eqb in E2. exfalso. apply HT. eapply split_on_chars; [exact E2 | now left].
Qed.

(* the supported set, written independently of the macro cascade *)
Definition supported (cmd : command) (ty : ctype) (v : polyvars) : bool :=
  match ty with
  | TGauss | TEisen => false
  | _ => match v with
         | PV_None => true
         | PV_H | PV_T => match cmd, ty with Kh, TZ => false | _, _ => true end
         | PV_HT => match cmd with Ckh => true | Kh => false end
         end
  end.
Definition base_of (ty : ctype) : base :=
  match ty with TZ => BZ | TQ => BQ | TF2 => BF2 | TF3 => BF3 | TGauss | TEisen => BZ end.
Definition unsupported_error (ty : ctype) (v : polyvars) : err_kind :=
  match ty, v with TGauss, PV_None | TEisen, PV_None => EFeature | _, _ => EUnsupported end.

Theorem dispatch_spec : forall cmd ty c,
  dispatch cmd ty c = if supported cmd ty (poly_vars c)
                      then TRun (Ring (base_of ty) (poly_vars c))
                      else TErr (unsupported_error ty (poly_vars c)).
Proof.
  intros cmd ty c. unfold dispatch, try_ring, try_eucring.
  destruct cmd, ty, (poly_vars c); reflexivity.
Qed.

Theorem decide_spec : forall cmd ty c reduced,
  decide cmd ty c reduced =
    if negb (supported cmd ty (poly_vars c)) then DError (unsupported_error ty (poly_vars c))
    else match parse_pair (Ring (base_of ty) (poly_vars c)) c with
         | PErr => DError EParse
         | PPanic => DError EPanic
         | POk (h, t) =>
             if reduced && negb (is_zero t) then DError EGuardReduced
             else DCompute (mk_params (Ring (base_of ty) (poly_vars c)) h t reduced
                    match cmd with
                    | Ckh => DGrid
                    | Kh => if (is_zero h && is_zero t) || str_eqb c s_H || str_eqb c s_0T then DBigraded else DSeq
                    end)
         end.
Proof.
  intros cmd ty c reduced. unfold decide. rewrite dispatch_spec.
  destruct (supported cmd ty (poly_vars c)); reflexivity.
Qed.

Lemma parse_int_str_of_Z : forall lo hi z,
  parse_int lo hi (str_of_Z z) = if (lo <=? z)%Z && (z <=? hi)%Z then Some z else None.
Proof. intros lo hi z. unfold parse_int. now rewrite parse_Z_dec_str_of_Z. Qed.

Lemma str_of_Z_not_in : forall z c, ~ ((48 <= c <= 57)%N \/ c = 45%N) -> ~ In c (str_of_Z z).
Proof. intros z c H Hc. apply H. now apply str_of_Z_chars in Hc. Qed.

Lemma break_at_none : forall sep s, ~ In sep s -> break_at sep s = None.
Proof.
  intros sep. induction s as [|c r IH]; intro H; [reflexivity|]. cbn [break_at].
  destruct (c =? sep)%N eqn:E; [apply N.eqb_eq in E; subst; exfalso; apply H; now left|].
  rewrite IH; [reflexivity | intro Hr; apply H; now right].
Qed.
Lemma split_last_none : forall sep l, ~ In sep l -> split_last sep l = None.
Proof.
  intros sep l H. unfold split_last. destruct (rev l) as [|x rest] eqn:E; [reflexivity|].
  rewrite break_at_none; [reflexivity|]. intro Hr. apply H. apply in_rev. rewrite E. now right.
Qed.
Lemma first_some_none : forall A B (f : A -> option B) l, (forall a, In a l -> f a = None) -> first_some f l = None.
Proof.
  induction l as [|a l IH]; intro H; [reflexivity|]. cbn [first_some].
  rewrite (H a (or_introl eq_refl)). apply IH. intros; apply H; now right.
Qed.
Lemma ratio_regex_none : forall s, ~ In 47%N s -> ratio_regex s = None.
Proof.
  intros s H. unfold ratio_regex. apply first_some_none. intros l Hl. apply split_last_none.
  intro Hc. apply H. eapply split_on_chars; eauto.
Qed.
Lemma pair_regex_none : forall s, ~ In 44%N s -> pair_regex s = None.
Proof. intros s H. unfold pair_regex. destruct (existsb (N.eqb 10) s); [reflexivity | now apply split_last_none]. Qed.

Definition is_scalar (ty : ctype) : bool := match ty with TZ | TQ | TF2 | TF3 => true | _ => false end.
(* the range of the integer type the value is parsed as (i64 for Z and Q, i32 for F_p) *)
Definition int_lo (ty : ctype) : Z := match ty with TF2 | TF3 => - 2 ^ 31 | _ => - 2 ^ 63 end.
Definition int_hi (ty : ctype) : Z := match ty with TF2 | TF3 => 2 ^ 31 - 1 | _ => 2 ^ 63 - 1 end.
Definition reduce (ty : ctype) (z : Z) : Z := match ty with TF2 => z mod 2 | TF3 => z mod 3 | _ => z end.

Lemma base_from_str_int : forall ty z, is_scalar ty = true ->
  base_from_str (base_of ty) (str_of_Z z) =
    if (int_lo ty <=? z)%Z && (z <=? int_hi ty)%Z then POk (VInt (reduce ty z)) else PErr.
Proof.
  intros ty z Hs. destruct ty; try discriminate; cbn [base_of base_from_str int_lo int_hi reduce];
    unfold parse_i64, parse_i32; rewrite parse_int_str_of_Z.
  - destruct ((- 2 ^ 63 <=? z)%Z && (z <=? 2 ^ 63 - 1)%Z); reflexivity.
  - destruct ((- 2 ^ 63 <=? z)%Z && (z <=? 2 ^ 63 - 1)%Z); [reflexivity|].
    rewrite ratio_regex_none; [reflexivity|]. apply str_of_Z_not_in. lia.
  - destruct ((- 2 ^ 31 <=? z)%Z && (z <=? 2 ^ 31 - 1)%Z); reflexivity.
  - destruct ((- 2 ^ 31 <=? z)%Z && (z <=? 2 ^ 31 - 1)%Z); reflexivity.
Qed.

Lemma str_of_Z_neq : forall z s c, In c s -> ~ ((48 <= c <= 57)%N \/ c = 45%N) -> str_eqb (str_of_Z z) s = false.
Proof.
  intros z s c Hc Hn. apply str_eqb_neq. intro E. apply (str_of_Z_not_in z c Hn). rewrite E. exact Hc.
Qed.

(* every integer: `-c <z>` selects the scalar ring, h = z (reduced mod p over F_p), t = 0; outside the
   range of the machine type the value is a parse error *)
Theorem decide_integer : forall cmd ty z reduced, is_scalar ty = true ->
  decide cmd ty (str_of_Z z) reduced =
    if (int_lo ty <=? z)%Z && (z <=? int_hi ty)%Z
    then DCompute (mk_params (Ring (base_of ty) PV_None) (VInt (reduce ty z)) (VInt 0) reduced
           match cmd with
           | Ckh => DGrid
           | Kh => if (reduce ty z =? 0)%Z then DBigraded else DSeq
           end)
    else DError EParse.
Proof.
  intros cmd ty z reduced Hs. rewrite decide_spec.
  assert (Hv : poly_vars (str_of_Z z) = PV_None) by (apply poly_vars_none; apply str_of_Z_not_in; lia).
  rewrite Hv.
  assert (Hsup : supported cmd ty PV_None = true) by (destruct cmd, ty; try discriminate; reflexivity).
  rewrite Hsup. cbn [negb]. unfold parse_pair, ring_from_str. rewrite base_from_str_int by exact Hs.
  destruct ((int_lo ty <=? z)%Z && (z <=? int_hi ty)%Z).
  - cbn [is_zero]. change (0 =? 0)%Z with true. cbn [negb]. rewrite andb_false_r, andb_true_r.
    rewrite (str_of_Z_neq z s_H 72%N) by (try (now left); lia).
    rewrite (str_of_Z_neq z s_0T 44%N) by (try (right; now left); lia).
    rewrite !orb_false_r. reflexivity.
  - rewrite pair_regex_none; [reflexivity|]. apply str_of_Z_not_in. lia.
Qed.

Theorem decide_H : forall cmd ty reduced,
  decide cmd ty s_H reduced =
    if supported cmd ty PV_H
    then DCompute (mk_params (Ring (base_of ty) PV_H) (VMono 1 0) (VInt 0) reduced
                             match cmd with Kh => DBigraded | Ckh => DGrid end)
    else DError EUnsupported.
Proof. intros cmd ty reduced. destruct cmd, ty, reduced; vm_compute; reflexivity. Qed.
Theorem decide_0T : forall cmd ty reduced,
  decide cmd ty s_0T reduced =
    if supported cmd ty PV_T
    then if reduced then DError EGuardReduced
         else DCompute (mk_params (Ring (base_of ty) PV_T) (VInt 0) (VMono 0 1) false
                                  match cmd with Kh => DBigraded | Ckh => DGrid end)
    else DError EUnsupported.
Proof. intros cmd ty reduced. destruct cmd, ty, reduced; vm_compute; reflexivity. Qed.
Theorem decide_HT : forall cmd ty reduced,
  decide cmd ty s_HT reduced =
    if supported cmd ty PV_HT
    then if reduced then DError EGuardReduced
         else DCompute (mk_params (Ring (base_of ty) PV_HT) (VMono 1 0) (VMono 0 1) false DGrid)
    else DError EUnsupported.
Proof. intros cmd ty reduced. destruct cmd, ty, reduced; vm_compute; reflexivity. Qed.

Definition ctype_of_arg (t_arg : option str) : option ctype :=
  match t_arg with None => Some TZ | Some s => parse_ctype s end.
Definition cvalue_of_arg (c_arg : option str) : str := match c_arg with None => s_0 | Some s => s end.
(* the library result selected by the display mode, rendered *)
Definition rendered (p : params) (mirror : bool) (lib : oracle) : option str :=
  let sym := ring_symbol (p_ring p) in
  match p_display p with
  | DBigraded => option_map (kh_stdout_bigraded sym) (lib_kh_bigraded lib p mirror)
  | DSeq => option_map (kh_stdout_seq sym) (lib_kh_seq lib p mirror)
  | DGrid => option_map (ckh_stdout sym) (lib_ckh lib p mirror)
  end.

(* a table is printed exactly when every stage succeeds, and then it is the rendering of the library's
   result for the decided parameters; in every other case the result is an error *)
Theorem run_spec : forall cmd t_arg c_arg mirror reduced link lib,
  run cmd t_arg c_arg mirror reduced link lib =
    match ctype_of_arg t_arg with
    | None => OError EClap
    | Some ty =>
        match decide cmd ty (cvalue_of_arg c_arg) reduced with
        | DError e => OError e
        | DCompute p =>
            match link with
            | LInvalid => OError ELink
            | LOk => match rendered p mirror lib with Some out => OTable out | None => OError EPanic end
            end
        end
    end.
Proof.
  intros. unfold run, ctype_of_arg, cvalue_of_arg, rendered.
  destruct (match t_arg with None => Some TZ | Some s => parse_ctype s end) as [ty|]; [|reflexivity].
  destruct (decide cmd ty _ reduced) as [e|p]; [reflexivity|].
  destruct link; [reflexivity|].
  destruct (p_display p);
    [destruct (lib_kh_bigraded lib p mirror) | destruct (lib_kh_seq lib p mirror) | destruct (lib_ckh lib p mirror)];
    reflexivity.
Qed.

Theorem run_table_inv : forall cmd t_arg c_arg mirror reduced link lib out,
  run cmd t_arg c_arg mirror reduced link lib = OTable out ->
  exists ty p, ctype_of_arg t_arg = Some ty /\
               decide cmd ty (cvalue_of_arg c_arg) reduced = DCompute p /\
               link = LOk /\ rendered p mirror lib = Some out.
Proof.
  intros until out. rewrite run_spec.
  destruct (ctype_of_arg t_arg) as [ty|]; [|discriminate].
  destruct (decide cmd ty _ reduced) as [e|p] eqn:Ed; [discriminate|].
  destruct link; [discriminate|].
  destruct (rendered p mirror lib) as [o|] eqn:Er; [|discriminate].
  intro H. inversion H; subst. exists ty, p. auto.
Qed.

Theorem run_error : forall cmd t_arg c_arg mirror reduced link lib,
  (ctype_of_arg t_arg = None \/
   (exists ty, ctype_of_arg t_arg = Some ty /\
      ((exists e, decide cmd ty (cvalue_of_arg c_arg) reduced = DError e) \/
       link = LInvalid \/
       (exists p, decide cmd ty (cvalue_of_arg c_arg) reduced = DCompute p /\ rendered p mirror lib = None)))) ->
  exists e, run cmd t_arg c_arg mirror reduced link lib = OError e /\
            exit_code (OError e) <> 0%N.
Proof.
  intros until lib. rewrite run_spec. intros [H|(ty & Ht & H)].
  - rewrite H. exists EClap. split; [reflexivity | discriminate].
  - rewrite Ht. destruct H as [(e & He)|[Hl|(p & Hp & Hr)]].
    + rewrite He. exists e. split; [reflexivity | destruct e; discriminate].
    + destruct (decide cmd ty _ reduced) as [e|p].
      * exists e. split; [reflexivity | destruct e; discriminate].
      * subst link. exists ELink. split; [reflexivity | discriminate].
    + rewrite Hp. destruct link.
      * exists ELink. split; [reflexivity | discriminate].
      * rewrite Hr. exists EPanic. split; [reflexivity | discriminate].
Qed.

(* when decide yields an error: exactly the unsupported combinations, unparsable values, panicking
   parses and the reduced guard *)
Theorem decide_error_iff : forall cmd ty c reduced e,
  decide cmd ty c reduced = DError e <->
    (supported cmd ty (poly_vars c) = false /\ e = unsupported_error ty (poly_vars c)) \/
    (supported cmd ty (poly_vars c) = true /\
       match parse_pair (Ring (base_of ty) (poly_vars c)) c with
       | PErr => e = EParse
       | PPanic => e = EPanic
       | POk (h, t) => reduced = true /\ is_zero t = false /\ e = EGuardReduced
       end).
Proof.
  intros cmd ty c reduced e. rewrite decide_spec.
  destruct (supported cmd ty (poly_vars c)); cbn [negb].
  - destruct (parse_pair _ c) as [[h t]| |].
    + destruct reduced; cbn [andb].
      * destruct (is_zero t); cbn [negb].
        -- split; [discriminate | intros [[H _]|[_ (_ & H & _)]]; discriminate].
        -- split; [intro H; inversion H; right; auto | intros [[H _]|[_ (_ & _ & ->)]]; [discriminate | reflexivity]].
      * split; [discriminate | intros [[H _]|[_ (H & _)]]; discriminate].
    + split; [intro H; inversion H; right; auto | intros [[H _]|[_ ->]]; [discriminate | reflexivity]].
    + split; [intro H; inversion H; right; auto | intros [[H _]|[_ ->]]; [discriminate | reflexivity]].
  - split; [intro H; inversion H; left; auto | intros [[_ ->]|[H _]]; [reflexivity | discriminate]].
Qed.
