(* C07, part 3: the public route ChainComplexBase::homology_at (Model/HomologyCalc.v: [homology_at]) reduces to
   [calculate] on the two differential matrices picked by [d_matrix] (zero-column / zero-row matrices for
   missing neighbours), and the summand it returns carries the same rank, torsion and coordinate maps. *)
From Coq Require Import ZArith Arith List Lia Bool.
Require Import Yui.Base.Ring Yui.Base.MatF Yui.Base.MatL Yui.Model.HomologyCalc.
Require Import Yui.Proofs.C07Algebra Yui.Proofs.C07Calc.
Import ListNotations.

Section C07Complex.
  Context {R : Type} (o : ring_ops R).
  Variable isu : R -> bool.
  Variable snf : dmat R -> bool -> bool -> bool -> bool -> option (snf_result R).

  (* ChainComplexBase::d_matrix: the given matrix with the shape of the two ranks *)
  Lemma d_matrix_spec C i d :
    d_matrix o C i = Some d ->
    mwf d /\ nr d = c_rank C (i + c_ddeg C) /\ nc d = c_rank C i /\
    meq (nr d) (nc d) (mget o d) (mget o (c_dmat C i)).
  Proof.
    unfold d_matrix. destruct (Nat.eqb_spec (c_rank C i) 0) as [E|_]; intros H.
    - injection H as <-. rewrite E. split; [apply mwf_dmk|]. split; [reflexivity|]. split; [reflexivity|].
      intros a b _ Hb. cbn [nc d_zero dmk] in Hb. lia.
    - destruct (nr (c_dmat C i) =? c_rank C (i + c_ddeg C)); [|discriminate]. injection H as <-.
      split; [apply mwf_dmk|]. split; [reflexivity|]. split; [reflexivity|].
      intros a b Ha Hb. now apply mget_dmk.
  Qed.

  Theorem homology_at_calc C i h :
    homology_at o isu snf C i = Some h ->
    exists d0 d1 t,
      d_matrix o C (i - c_ddeg C)%Z = Some d0 /\ d_matrix o C i = Some d1 /\
      mwf d0 /\ mwf d1 /\ nr d0 = c_rank C i /\ nc d1 = c_rank C i /\
      calculate o isu snf d0 d1 true = Some (s_rank h, s_tors h, Some t) /\
      s_ngens h = c_rank C i /\ src_dim (s_trans h) = c_rank C i /\
      tgt_dim (s_trans h) = (s_rank h + length (s_tors h))%nat /\
      forward_mat o (s_trans h) = forward_mat o t /\ backward_mat o (s_trans h) = backward_mat o t.
  Proof.
    unfold homology_at. intros H.
    inv_bind H. rename d into d0. inv_bind H. rename d into d1. inv_bind H.
    destruct p as [[rank tors] tr].
    inv_bind H. rename s into h0. inv_bind H. rename t into tm.
    exists d0, d1.
    destruct (d_matrix_spec _ _ _ E) as [W0 [S0 _]]. destruct (d_matrix_spec _ _ _ E0) as [W1 [_ [S1 _]]].
    replace (i - c_ddeg C + c_ddeg C)%Z with i in S0 by lia.
    destruct (calculate_true_some o isu snf _ _ _ _ _ E1) as [t ->]. exists t.
    unfold summand_generate, summand_new in E2.
    destruct ((src_dim t =? src_dim t) && (tgt_dim t =? rank + length tors)) eqn:G; [|discriminate].
    injection E2 as <-. cbn [s_trans s_rank s_tors] in *.
    apply andb_true_iff in G. destruct G as [_ G]. apply Nat.eqb_eq in G.
    unfold trans_merged in E3. cbn [tgt_dim trans_id src_dim f_mats b_mats app] in E3.
    destruct (c_rank C i =? src_dim t) eqn:G2; [|discriminate]. injection E3 as <-.
    unfold summand_new in H. cbn [src_dim tgt_dim] in H.
    destruct ((c_rank C i =? c_rank C i) && (tgt_dim t =? rank + length tors)); [|discriminate].
    injection H as <-. cbn [s_rank s_tors s_trans s_ngens src_dim tgt_dim].
    split; [reflexivity|]. split; [reflexivity|].
    split; [exact W0|]. split; [exact W1|].
    split; [exact S0|]. split; [exact S1|]. split; [exact E1|].
    split; [reflexivity|]. split; [reflexivity|]. split; [exact G|].
    (* forward_mat and backward_mat only read the factor lists and tgt_dim *)
    split; reflexivity.
  Qed.
End C07Complex.
