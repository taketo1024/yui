(* Cobordism bookkeeping (Model/TngCob.v), part 1: nbdr_comps terminates (the fuel of the model is never
   exhausted) and ignores genus and dots; CobComp::connect: chi(S u S') = chi(S) + chi(S') - #(shared end points),
   whenever it returns.  Also: CobComp::inv is an involution on invertible components ([cc_inv_involutive]), a cylinder has
   degree 0 ([cc_cylinder_deg]). *)
From Coq Require Import List Arith Bool Lia ZArith Permutation.
Import ListNotations.
Require Import Yui.Model.Link Yui.Model.Tng Yui.Model.TngCob.

Lemma filter_len_le : forall (f : nat -> bool) l, length (filter f l) <= length l.
Proof. intros f l. induction l as [|x l IH]; cbn; [lia|]. destruct (f x); cbn; lia. Qed.
Lemma remove_idx_length : forall i l, In i l -> length (remove_idx i l) < length l.
Proof.
  intros i l. unfold remove_idx. induction l as [|x l IH]; [contradiction|]. cbn [filter].
  intros [->|Hi].
  - rewrite Nat.eqb_refl. cbn [negb length]. pose proof (filter_len_le (fun k => negb (k =? i)) l). lia.
  - specialize (IH Hi). destruct (negb (x =? i)); cbn [length]; lia.
Qed.
Lemma remove_idx_le : forall i l, length (remove_idx i l) <= length l.
Proof. intros. apply filter_len_le. Qed.

Lemma nb_walk_fuel : forall fuel c i0 sa ta, In i0 sa -> length sa <= fuel -> nb_walk fuel c i0 sa ta <> None.
Proof.
  induction fuel as [|f IH]; intros c i0 sa ta Hi Hl.
  - destruct sa; [contradiction|cbn in Hl; lia].
  - cbn [nb_walk]. destruct (find _ ta) as [j|]; [|discriminate].
    destruct (find _ (remove_idx i0 sa)) as [i1|] eqn:Ef; [|discriminate].
    apply IH.
    + apply find_some in Ef. apply Ef.
    + pose proof (remove_idx_length i0 sa Hi). lia.
Qed.

Lemma nb_walk_shrinks : forall fuel c i0 sa ta sa' ta', In i0 sa ->
  nb_walk fuel c i0 sa ta = Some (Some (sa', ta')) -> length sa' < length sa.
Proof.
  induction fuel as [|f IH]; intros c i0 sa ta sa' ta' Hi; cbn [nb_walk]; [discriminate|].
  destruct (find _ ta) as [j|]; [|discriminate].
  pose proof (remove_idx_length i0 sa Hi) as Hlt.
  destruct (find _ (remove_idx i0 sa)) as [i1|] eqn:Ef.
  - intros E. apply find_some in Ef. pose proof (IH _ _ _ _ _ _ (proj1 Ef) E). lia.
  - intros E. inversion E; subst. exact Hlt.
Qed.

Lemma nb_outer_fuel : forall fuel c sa ta count, length sa < fuel -> nb_outer fuel c sa ta count <> None.
Proof.
  induction fuel as [|f IH]; intros c sa ta count Hl; [lia|].
  destruct sa as [|i0 sa]; [cbn; discriminate|]. cbn [nb_outer].
  destruct (nb_walk (S (length (i0 :: sa))) c i0 (i0 :: sa) ta) as [[[sa' ta']|]|] eqn:Ew.
  - apply IH. assert (Hin : In i0 (i0 :: sa)) by (left; reflexivity).
    pose proof (nb_walk_shrinks _ _ _ _ _ _ _ Hin Ew). cbn [length] in *. lia.
  - discriminate.
  - exfalso. eapply nb_walk_fuel; [| |exact Ew]; [left; reflexivity|lia].
Qed.

Theorem nbdr_fuel_sufficient : forall c, nbdr_fuel c <> None.
Proof.
  intros c. unfold nbdr_fuel. destruct (negb _); [discriminate|].
  destruct (nb_outer _ c _ _ 0) as [[side|]|] eqn:Eo; try discriminate.
  exfalso. eapply nb_outer_fuel; [|exact Eo]. lia.
Qed.

Lemma nb_walk_ext : forall fuel c d i0 sa ta, csrc c = csrc d -> ctgt c = ctgt d ->
  nb_walk fuel c i0 sa ta = nb_walk fuel d i0 sa ta.
Proof.
  induction fuel as [|f IH]; intros c d i0 sa ta Es Et; [reflexivity|]. cbn [nb_walk]. rewrite Es, Et.
  destruct (find _ ta); [|reflexivity]. destruct (find _ (remove_idx i0 sa)); [|reflexivity]. apply IH; auto.
Qed.
Lemma nb_outer_ext : forall fuel c d sa ta count, csrc c = csrc d -> ctgt c = ctgt d ->
  nb_outer fuel c sa ta count = nb_outer fuel d sa ta count.
Proof.
  induction fuel as [|f IH]; intros c d sa ta count Es Et; destruct sa as [|i0 sa]; try reflexivity.
  cbn [nb_outer]. rewrite (nb_walk_ext _ c d) by auto.
  destruct (nb_walk _ d i0 (i0 :: sa) ta) as [[[sa' ta']|]|]; try reflexivity. apply IH; auto.
Qed.
Lemma cc_nbdr_ext : forall c d, csrc c = csrc d -> ctgt c = ctgt d -> cc_nbdr c = cc_nbdr d.
Proof.
  intros c d Es Et. unfold cc_nbdr, nbdr_fuel. rewrite Es, Et.
  rewrite (nb_outer_ext _ c d) by auto. reflexivity.
Qed.

Lemma even_half : forall g : Z, (0 <= g)%Z -> Z.even g = true -> (2 * Z.of_nat (Z.to_nat (g / 2)) = g)%Z.
Proof.
  intros g Hg He. rewrite Z2Nat.id by (apply Z.div_pos; lia).
  apply Z.even_spec in He. destruct He as [k Hk]. subst g.
  replace (2 * k / 2)%Z with k; [lia|]. rewrite Z.mul_comm, Z.div_mul; lia.
Qed.

Theorem cc_connect_euler : forall c o r, cc_connect c o = Some r ->
  exists x1 x2, cc_euler c = Some x1 /\ cc_euler o = Some x2 /\
    cc_euler r = Some (x1 + x2 - Z.of_nat (shared_endpts c o))%Z /\
    0 < shared_endpts c o /\
    tng_connect (csrc c) (csrc o) = Some (csrc r) /\ tng_connect (ctgt c) (ctgt o) = Some (ctgt r) /\
    cdx r = cdx c + cdx o /\ cdy r = cdy c + cdy o.
Proof.
  intros c o r. unfold cc_connect.
  destruct (cc_euler c) as [x1|] eqn:E1; [|discriminate].
  destruct (cc_euler o) as [x2|] eqn:E2; [|discriminate].
  destruct (shared_endpts c o =? 0) eqn:Ea; [discriminate|]. apply Nat.eqb_neq in Ea.
  destruct (tng_connect (csrc c) (csrc o)) as [s'|] eqn:Es; [|discriminate].
  destruct (tng_connect (ctgt c) (ctgt o)) as [t'|] eqn:Et; [|discriminate].
  destruct (cc_nbdr _) as [b|] eqn:Eb; [|discriminate].
  set (g := (2 - (x1 + x2 + Z.of_nat b) + Z.of_nat (shared_endpts c o))%Z).
  destruct (g <? 0)%Z eqn:Eg; [discriminate|]. apply Z.ltb_ge in Eg.
  destruct (Z.even g) eqn:Ee; cbn [negb]; [|discriminate].
  intros E. inversion E; subst r; clear E. exists x1, x2. cbn [csrc ctgt cdx cdy].
  repeat split; auto; try lia.
  unfold cc_euler.
  rewrite (cc_nbdr_ext _ (mkCC s' t' (cgenus c) (cdx c) (cdy c))) by reflexivity. rewrite Eb.
  cbn [cgenus]. f_equal. pose proof (even_half g Eg Ee). unfold g in *. lia.
Qed.

Theorem cc_inv_involutive : forall c c', cc_inv c = Some c' -> cc_is_invertible c' = true /\ cc_inv c' = Some c.
Proof.
  intros [s t g x y] c'. unfold cc_inv, cc_is_invertible, cc_is_cyl. cbn [csrc ctgt cgenus cdx cdy].
  destruct ((length s =? 1) && (length t =? 1)) eqn:E1; cbn [andb]; [|discriminate].
  destruct (g =? 0) eqn:Eg; cbn [andb]; [|discriminate].
  destruct (x =? 0) eqn:Ex; cbn [andb]; [|discriminate].
  destruct (y =? 0) eqn:Ey; [|discriminate].
  apply Nat.eqb_eq in Eg, Ex, Ey. subst. intros E. inversion E; subst c'; clear E.
  unfold cc_plain. cbn [csrc ctgt cgenus cdx cdy]. rewrite andb_comm in E1. rewrite E1. cbn. auto.
Qed.

(* a cylinder over a circle, or over an arc (same end points at the bottom and at the top), has degree 0 *)
Theorem cc_cylinder_deg : forall p q,
  (pclosed p = true /\ pclosed q = true) \/
  (pclosed p = false /\ pclosed q = false /\ p_connectable q p = true /\ hd 0 (pedges p) <> last (pedges p) 0) ->
  cc_is_invertible (cc_plain [p] [q] 0) = true /\
  cc_nbdr (cc_plain [p] [q] 0) = Some (if pclosed p then 2 else 1) /\
  cc_euler (cc_plain [p] [q] 0) = Some (if pclosed p then 0 else 1)%Z /\
  cc_deg (cc_plain [p] [q] 0) = Some 0%Z.
Proof.
  intros p q Hpq. split; [reflexivity|].
  assert (Hn : cc_nbdr (cc_plain [p] [q] 0) = Some (if pclosed p then 2 else 1)).
  { unfold cc_nbdr, nbdr_fuel, arc_indices, cc_plain. cbn [csrc ctgt length seq filter nth].
    unfold p_is_arc. destruct Hpq as [[Hp Hq]|(Hp & Hq & Hc & _)]; rewrite Hp, Hq; cbn [negb length Nat.eqb].
    - reflexivity.
    - cbn [nb_outer nb_walk length remove_idx filter find nth csrc ctgt Nat.eqb negb]. rewrite Hc.
      cbn [find remove_idx filter Nat.eqb negb nb_outer]. reflexivity. }
  split; [exact Hn|]. unfold cc_deg, cc_euler. rewrite Hn. unfold cc_plain, cc_ndots, endpts_set, tng_endpts, p_ends.
  cbn [csrc cgenus cdx cdy flat_map].
  destruct Hpq as [[Hp Hq]|(Hp & Hq & Hc & Hne)]; rewrite Hp.
  - cbn. auto.
  - cbn [app nodup]. destruct (in_dec Nat.eq_dec (hd 0 (pedges p)) [last (pedges p) 0]) as [[E|[]]|Hn'].
    + exfalso. apply Hne. auto.
    + cbn. auto.
Qed.
