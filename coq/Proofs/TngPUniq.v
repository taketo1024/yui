(* Tangle layer, part 9: a simple path / cycle is determined by its multiset of segments up to reversal
   (and rotation). *)
From Coq Require Import List Arith Bool Lia Permutation.
Import ListNotations.
Require Import Yui.Model.Link Yui.Model.Tng Yui.Proofs.TngPBase Yui.Proofs.TngPSegs Yui.Proofs.TngPDeg
  Yui.Proofs.TngPJoin Yui.Proofs.TngPStep Yui.Proofs.TngPSeq Yui.Proofs.TngPConn Yui.Proofs.TngPMain.
Require Import Yui.Base.ListFacts.

Lemma arc_segs_nil_inv : forall l, arc_segs l = [] -> length l <= 1.
Proof. intros [|a [|b l]] E; cbn; try lia. rewrite arc_segs_cons2 in E. discriminate. Qed.

(* same first label, same segments -> same path *)
Lemma arc_unique_hd : forall p q, NoDup p -> NoDup q -> p <> [] -> q <> [] -> hd 0 p = hd 0 q ->
  Permutation (arc_segs p) (arc_segs q) -> p = q.
Proof.
  induction p as [|a p IH]; intros q Np Nq Hp Hq Eh Hperm; [contradiction|].
  destruct q as [|a' q]; [contradiction|]. cbn [hd] in Eh. subst a'.
  destruct p as [|b p].
  - change (arc_segs [a]) with (@nil (nat * nat)) in Hperm. apply Permutation_nil in Hperm. apply arc_segs_nil_inv in Hperm.
    destruct q; [reflexivity|cbn in Hperm; lia].
  - destruct q as [|b' q].
    { apply Permutation_sym, Permutation_nil in Hperm. rewrite arc_segs_cons2 in Hperm. discriminate. }
    rewrite !arc_segs_cons2 in Hperm.
    assert (Hin : In (nseg a b) (nseg a b' :: arc_segs (b' :: q))).
    { eapply Permutation_in; [exact Hperm|left; reflexivity]. }
    inversion Np as [|? ? Na Np']; subst. inversion Nq as [|? ? Na' Nq']; subst.
    assert (Eb : b' = b).
    { destruct Hin as [E|Hin].
      - destruct (nseg_inj _ _ _ _ E) as [[_ E']|[E1 E2]]; auto. exfalso. apply Na. left. congruence.
      - exfalso. apply Na'. apply (adj_segs_in (mkP (b' :: q) false) a b Hin). }
    subst b'. apply Permutation_cons_inv in Hperm. f_equal. apply IH; auto; discriminate.
Qed.

Lemma count_app_in : forall (a b : list nat) v, count_occ Nat.eq_dec (a ++ b) v = 1 -> In v a -> In v b -> False.
Proof.
  intros a b v Hc Ha Hb. rewrite count_occ_app in Hc.
  pose proof (count_in_ge1 a v Ha). pose proof (count_in_ge1 b v Hb). lia.
Qed.

Theorem arc_unique : forall p q, NoDup p -> NoDup q -> 2 <= length p -> 2 <= length q ->
  Permutation (arc_segs p) (arc_segs q) -> p = q \/ p = rev q.
Proof.
  intros p q Np Nq Lp Lq Hperm.
  assert (Sp : simple (mkP p false)) by (split; auto).
  pose proof (deg_simple_arc_end (mkP p false) _ Sp eq_refl (or_introl eq_refl)) as Hd. cbn [pedges segs pclosed] in Hd.
  set (a := hd 0 p) in *.
  rewrite (deg_perm _ _ a Hperm) in Hd. unfold deg in Hd.
  rewrite (count_perm _ (removelast q ++ tl q)) in Hd by apply ends_arc_segs.
  assert (Haq : In a q).
  { assert (Hi : In a (removelast q ++ tl q)) by (apply (count_occ_In Nat.eq_dec); lia).
    apply in_app_or in Hi. destruct Hi; [apply in_removelast|apply in_tl]; auto. }
  destruct (in_split_hd q a 0 Haq) as [E|Ht].
  - left. apply arc_unique_hd; auto; apply len2_ne; auto.
  - destruct (in_split_last q a 0 Haq) as [Hr|E]; [exfalso; eapply count_app_in; eauto|].
    right. apply arc_unique_hd; auto.
    + apply NoDup_rev; auto.
    + apply len2_ne; auto.
    + intros Er. apply (f_equal (@length nat)) in Er. rewrite rev_length in Er. cbn in Er. lia.
    + rewrite hd_rev. exact E.
    + eapply perm_trans; [exact Hperm|]. apply Permutation_sym. apply arc_segs_rev.
Qed.

Lemma arc_segs_split : forall A y B, arc_segs (A ++ y :: B) = arc_segs (A ++ [y]) ++ arc_segs (y :: B).
Proof.
  intros A y B. rewrite <- (arc_segs_join (A ++ [y]) (y :: B)).
  - unfold join. rewrite removelast_last. reflexivity.
  - intros E. apply app_eq_nil in E. destruct E; discriminate.
  - discriminate.
  - rewrite last_last. reflexivity.
Qed.

Lemma circ_segs_rot : forall l1 l2, Permutation (circ_segs (l1 ++ l2)) (circ_segs (l2 ++ l1)).
Proof.
  intros [|x l1] [|y l2]; cbn [app]; try rewrite app_nil_r; try apply Permutation_refl.
  unfold circ_segs. cbn [app]. rewrite <- !app_assoc. cbn [app].
  change (x :: l1 ++ y :: l2 ++ [x]) with ((x :: l1) ++ y :: (l2 ++ [x])).
  change (y :: l2 ++ x :: l1 ++ [y]) with ((y :: l2) ++ x :: (l1 ++ [y])).
  rewrite (arc_segs_split (x :: l1) y (l2 ++ [x])), (arc_segs_split (y :: l2) x (l1 ++ [y])).
  apply Permutation_app_comm.
Qed.

Lemma circ_segs_rev : forall l, Permutation (circ_segs (rev l)) (circ_segs l).
Proof.
  intros [|x l]; [constructor|]. cbn [rev].
  eapply perm_trans; [apply circ_segs_rot|]. cbn [app]. unfold circ_segs.
  assert (E : (x :: rev l) ++ [x] = rev ((x :: l) ++ [x])).
  { cbn [app rev]. rewrite rev_unit. reflexivity. }
  rewrite E. apply arc_segs_rev.
Qed.

Definition has (a : nat) (s : nat * nat) : bool := (fst s =? a) || (snd s =? a).

Lemma has_nseg : forall a u v, has a (nseg u v) = (u =? a) || (v =? a).
Proof.
  intros a u v. unfold has, nseg. cbn [fst snd]. destruct (Nat.le_gt_cases u v).
  - rewrite Nat.min_l, Nat.max_r by lia. reflexivity.
  - rewrite Nat.min_r, Nat.max_l by lia. apply orb_comm.
Qed.

Lemma filter_has_none : forall a l, ~ In a l -> filter (has a) (arc_segs l) = [].
Proof.
  intros a l Hn. induction l as [|x l IH]; [reflexivity|].
  destruct l as [|y l]; [reflexivity|]. rewrite arc_segs_cons2. cbn [filter]. rewrite has_nseg.
  assert (x =? a = false) as -> by (apply Nat.eqb_neq; intros ->; apply Hn; left; reflexivity).
  assert (y =? a = false) as -> by (apply Nat.eqb_neq; intros ->; apply Hn; right; left; reflexivity).
  cbn [orb]. apply IH. intros Hi. apply Hn. right. auto.
Qed.

Lemma circ_open : forall a l, l <> [] -> circ_segs (a :: l) = arc_segs (a :: l) ++ [nseg (last l 0) a].
Proof.
  intros a l Hl. unfold circ_segs. rewrite (app_removelast_last 0 Hl) at 1.
  change ((a :: removelast l ++ [last l 0]) ++ [a]) with (a :: (removelast l ++ [last l 0]) ++ [a]).
  rewrite <- app_assoc. cbn [app]. change (a :: removelast l ++ [last l 0; a]) with ((a :: removelast l) ++ [last l 0; a]).
  rewrite arc_segs_snoc. cbn [app]. rewrite <- (app_removelast_last 0 Hl). reflexivity.
Qed.

Lemma filter_has_circ : forall a l, NoDup (a :: l) -> l <> [] ->
  filter (has a) (circ_segs (a :: l)) = [nseg a (hd 0 l); nseg (last l 0) a].
Proof.
  intros a l Hn Hl. inversion Hn as [|? ? Ha Hnl]; subst.
  rewrite circ_open by auto. rewrite filter_app. destruct l as [|b l]; [contradiction|].
  rewrite arc_segs_cons2. cbn [filter hd]. rewrite !has_nseg, !Nat.eqb_refl, orb_true_r. cbn [orb].
  rewrite filter_has_none by auto. reflexivity.
Qed.

(* same first and last label, same segments -> same cycle *)
Lemma circ_unique_last : forall a p q, NoDup (a :: p) -> NoDup (a :: q) -> p <> [] -> q <> [] ->
  last p 0 = last q 0 -> Permutation (circ_segs (a :: p)) (circ_segs (a :: q)) -> a :: p = a :: q.
Proof.
  intros a p q Np Nq Hp Hq El Hperm. rewrite !circ_open, El in Hperm by auto.
  apply Permutation_app_inv_r in Hperm. apply arc_unique_hd; auto; discriminate.
Qed.

Lemma circ_unique_hd : forall a p q, NoDup (a :: p) -> NoDup (a :: q) ->
  Permutation (circ_segs (a :: p)) (circ_segs (a :: q)) -> a :: p = a :: q \/ a :: p = a :: rev q.
Proof.
  intros a p q Np Nq Hperm.
  assert (Hlen : length p = length q).
  { pose proof (Permutation_length Hperm) as Hl. rewrite !circ_segs_length in Hl. cbn in Hl. lia. }
  destruct p as [|b p].
  { destruct q; [left; reflexivity|discriminate]. }
  assert (Hp : b :: p <> []) by discriminate.
  assert (Hq : q <> []) by (intros ->; discriminate).
  (* the two segments at a: the last label of p is the last or the first of q *)
  pose proof (filter_perm (has a) _ _ Hperm) as Hf.
  rewrite (filter_has_circ a (b :: p) Np Hp), (filter_has_circ a q Nq Hq) in Hf.
  set (z := last (b :: p) 0) in *.
  assert (Hza : z <> a).
  { inversion Np; subst. intros E. pose proof (last_In (b :: p) 0 Hp) as Hz. fold z in Hz. rewrite E in Hz. contradiction. }
  assert (Hin : In (nseg z a) [nseg a (hd 0 q); nseg (last q 0) a]).
  { eapply Permutation_in; [exact Hf|right; left; reflexivity]. }
  destruct Hin as [E|[E|[]]]; destruct (nseg_inj _ _ _ _ E) as [[E1 E2]|[E1 E2]]; try congruence.
  - (* hd q = z: q runs the other way *)
    right. inversion Nq; subst. apply circ_unique_last; auto.
    + constructor; [rewrite <- in_rev; auto|apply NoDup_rev; auto].
    + intros Er. apply (f_equal (@rev nat)) in Er. rewrite rev_involutive in Er. contradiction.
    + rewrite last_rev. auto.
    + eapply perm_trans; [exact Hperm|]. eapply perm_trans; [apply Permutation_sym, circ_segs_rev|].
      apply (circ_segs_rot (rev q) [a]).
  - left. apply circ_unique_last; auto.
Qed.

Theorem circ_unique : forall p q, NoDup p -> NoDup q -> p <> [] -> Permutation (circ_segs p) (circ_segs q) ->
  exists q1 q2, q = q1 ++ hd 0 p :: q2 /\ (p = hd 0 p :: q2 ++ q1 \/ p = hd 0 p :: rev (q2 ++ q1)).
Proof.
  intros p q Np Nq Hp Hperm. destruct p as [|a p]; [contradiction|]. cbn [hd].
  assert (Hq : q <> []).
  { intros ->. change (circ_segs []) with (@nil (nat * nat)) in Hperm.
    apply Permutation_sym, Permutation_nil in Hperm.
    apply (f_equal (@length (nat * nat))) in Hperm. rewrite circ_segs_length in Hperm. discriminate. }
  assert (Haq : In a q).
  { assert (H1 : In a (ends_of (circ_segs (a :: p)))).
    { apply (perm_in_iff _ _ a (ends_circ_segs (a :: p) Hp)). left. reflexivity. }
    apply (perm_in_iff _ _ a (Permutation_flat_map _ Hperm)), (perm_in_iff _ _ a (ends_circ_segs q Hq)) in H1.
    apply in_app_or in H1. tauto. }
  destruct (in_split _ _ Haq) as (q1 & q2 & ->). exists q1, q2. split; auto.
  assert (Nq' : NoDup (a :: q2 ++ q1)).
  { eapply Permutation_NoDup; [|exact Nq]. eapply perm_trans; [apply Permutation_app_comm|]. apply Permutation_refl. }
  apply circ_unique_hd; auto.
  eapply perm_trans; [exact Hperm|]. apply (circ_segs_rot q1 (a :: q2)).
Qed.
