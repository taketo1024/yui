(* C13, sparse matrices: every operation of Model/Sparse.v on SpMat yields the entries (and the shape,
   and a well-formed CSC structure) that the mathematical definition gives - for every ring with laws,
   every shape (zero dimensions included) and every pattern of explicitly stored zeros.
   [sp_is a m n f]: a is a well-formed m x n sparse matrix whose entry (i,j) is f i j on the m x n window
   (outside the window every entry of a well-formed matrix is 0, lemma entry_outside). *)
From Coq Require Import Arith List Lia Bool Ring Sorted.
Require Import Yui.Base.Ring Yui.Base.MatF Yui.Base.MatL Yui.Model.Dense Yui.Model.Sparse.
Require Import Yui.Base.ListFacts.
Require Import Yui.Proofs.C13Dense Yui.Proofs.C13SpBase.
Import ListNotations.

Section SpProofs.
  Context {R : Type} (o : ring_ops R) (L : ring_laws o).

  Local Notation "0" := (rzero o).
  Local Notation "1" := (rone o).
  Local Infix "+" := (radd o).
  Local Infix "*" := (rmul o).
  Local Notation "- x" := (rneg o x).
  Local Notation ent := (ent R).
  Local Notation spmat := (spmat R).
  Local Notation psum := (psum o).
  Local Notation sp_wf := (@sp_wf R).
  Local Notation klt := (@klt R).

  Add Ring Rring : (ring_theory_of_laws o L).

  Definition sp_is (a : spmat) (m n : nat) (f : nat -> nat -> R) : Prop :=
    sp_m a = m /\ sp_n a = n /\ sp_wf a /\
    forall i j, (i < m)%nat -> (j < n)%nat -> entry o a i j = f i j.

  Lemma sp_is_ext a m n f g :
    sp_is a m n f -> (forall i j, (i < m)%nat -> (j < n)%nat -> f i j = g i j) -> sp_is a m n g.
  Proof.
    intros (H1 & H2 & H3 & H4) E. unfold sp_is. splits; try assumption.
    intros i j Hi Hj. rewrite H4 by assumption. now apply E.
  Qed.

  Lemma psum_map_seq P (g : nat -> ent) n :
    psum P (map g (seq 0 n)) = sum o n (fun k => if P (e_row (g k)) (e_col (g k)) then e_val (g k) else 0).
  Proof.
    induction n as [|n IH]; [reflexivity|].
    rewrite seq_S, map_app, (psum_app o L), IH. cbn [Nat.add map psum sum].
    destruct (P (e_row (g n)) (e_col (g n))); ring.
  Qed.

  Lemma psum_flat_map P (A : Type) (g : A -> list ent) (l : list A) :
    psum P (flat_map g l) = fold_right (fun x acc => psum P (g x) + acc) 0 l.
  Proof.
    induction l as [|x r IH]; cbn [flat_map fold_right]; [reflexivity|].
    now rewrite (psum_app o L), IH.
  Qed.

  Lemma fold_sum_seq (f : nat -> R) n :
    fold_right (fun x acc => f x + acc) 0 (seq 0 n) = sum o n f.
  Proof.
    induction n as [|n IH]; [reflexivity|].
    rewrite seq_S, fold_right_app. cbn [Nat.add fold_right sum]. rewrite <- IH.
    generalize (seq 0 n). intros l. induction l as [|x r IHl]; cbn [fold_right]; [ring|]. rewrite IHl. ring.
  Qed.

  Lemma enumerate_from_map (A : Type) (d : A) (l : list A) s :
    enumerate_from s l = map (fun k => (s + k, nth k l d)%nat) (seq 0 (length l)).
  Proof.
    revert s. induction l as [|x r IH]; intros s; cbn [enumerate_from length]; [reflexivity|].
    cbn [seq map nth]. rewrite Nat.add_0_r. f_equal. rewrite IH, <- seq_shift, map_map.
    apply map_ext. intros k. cbn [nth]. f_equal. lia.
  Qed.

  Lemma enumerate_map (A : Type) (d : A) (l : list A) :
    enumerate l = map (fun k => (k, nth k l d)) (seq 0 (length l)).
  Proof. unfold enumerate. now rewrite (enumerate_from_map A d l 0). Qed.

  Lemma sorted_map_seq (g : nat -> ent) s n :
    (forall x y, (x < y)%nat -> klt (g x) (g y)) -> StronglySorted klt (map g (seq s n)).
  Proof.
    intros Hg. revert s. induction n as [|n IH]; intros s; cbn [seq map]; [constructor|].
    constructor; [apply IH|]. apply Forall_forall. intros y Hy. apply in_map_iff in Hy.
    destruct Hy as [k [<- Hk]]. apply in_seq in Hk. apply Hg. lia.
  Qed.

  Lemma assemble_spec m n l :
    match assemble o m n l with
    | Some a => in_bounds m n l = true /\ sp_m a = m /\ sp_n a = n /\ sp_wf a /\
                (forall P, psum P (sp_st a) = psum P l)
    | None => in_bounds m n l = false
    end.
  Proof.
    unfold assemble. destruct (in_bounds m n l) eqn:B; [|reflexivity].
    cbn [sp_m sp_n sp_st]. splits; try reflexivity.
    - now apply sp_wf_canon.
    - intros P. apply (psum_canon o L).
  Qed.

  Lemma nz_in l e : In e (nz o l) <-> In e l /\ e_val e <> 0.
  Proof.
    unfold nz. rewrite filter_In. unfold ris_zero. split; intros [H1 H2]; (split; [exact H1|]).
    - intros E. rewrite E, (reqb_refl o L) in H2. discriminate.
    - apply negb_true_iff. now apply (reqb_false o L).
  Qed.

  Theorem sp_from_entries_spec m n es :
    match sp_from_entries o m n es with
    | Some a => (forall e, In e es -> e_val e <> 0 -> (e_row e < m)%nat /\ (e_col e < n)%nat) /\
                sp_is a m n (esum o es) /\ (forall P, psum P (sp_st a) = psum P es)
    | None => exists e, In e es /\ e_val e <> 0 /\ ~ ((e_row e < m)%nat /\ (e_col e < n)%nat)
    end.
  Proof.
    unfold sp_from_entries. pose proof (assemble_spec m n (nz o es)) as S.
    destruct (assemble o m n (nz o es)) as [a|].
    - destruct S as (B & H1 & H2 & H3 & H4). splits.
      + intros e He Hv. apply (proj1 (in_bounds_iff m n _) B). now apply nz_in.
      + unfold sp_is. splits; try assumption. intros i j _ _.
        now rewrite entry_psum, H4, (psum_nz o L), esum_psum.
      + intros P. now rewrite H4, (psum_nz o L).
    - apply in_bounds_false in S. destruct S as [e [He Hn]]. apply nz_in in He. destruct He as [He Hv].
      exists e. now splits.
  Qed.

  (* a convenient form: when every position is in range the call succeeds *)
  Lemma sp_from_entries_ok m n es :
    (forall e, In e es -> (e_row e < m)%nat /\ (e_col e < n)%nat) ->
    exists a, sp_from_entries o m n es = Some a /\ sp_is a m n (esum o es) /\
              (forall P, psum P (sp_st a) = psum P es).
  Proof.
    intros B. pose proof (sp_from_entries_spec m n es) as S.
    destruct (sp_from_entries o m n es) as [a|].
    - exists a. split; [reflexivity|]. now destruct S as (_ & H1 & H2).
    - destruct S as [e [He [_ Hn]]]. exfalso. apply Hn. now apply B.
  Qed.

  (* from_entries of the items g (k, l_k), k < length l *)
  Lemma sp_from_enumerate_spec (A : Type) (d : A) m n (g : nat * A -> ent) (l : list A) :
    match sp_from_entries o m n (map g (enumerate l)) with
    | Some a => (forall k, (k < length l)%nat -> e_val (g (k, nth k l d)) <> 0 ->
                   (e_row (g (k, nth k l d)) < m)%nat /\ (e_col (g (k, nth k l d)) < n)%nat) /\
                sp_is a m n (fun i j => sum o (length l) (fun k =>
                  if key_eq (e_row (g (k, nth k l d))) (e_col (g (k, nth k l d))) i j
                  then e_val (g (k, nth k l d)) else 0))
    | None => exists k, (k < length l)%nat /\ e_val (g (k, nth k l d)) <> 0 /\
                        ~ ((e_row (g (k, nth k l d)) < m)%nat /\ (e_col (g (k, nth k l d)) < n)%nat)
    end.
  Proof.
    rewrite (enumerate_map A d l), map_map.
    pose proof (sp_from_entries_spec m n (map (fun k => g (k, nth k l d)) (seq 0 (length l)))) as S.
    destruct (sp_from_entries o m n _) as [a|].
    - destruct S as (B & S & _). split.
      + intros k Hk. apply (B (g (k, nth k l d))), (in_map (fun k => g (k, nth k l d))), in_seq. lia.
      + eapply sp_is_ext; [exact S|]. intros i j _ _. now rewrite esum_psum, psum_map_seq.
    - destruct S as [e [He S]]. apply in_map_iff in He. destruct He as [k [<- Hk]]. apply in_seq in Hk.
      exists k. split; [lia|exact S].
  Qed.

  (* a unit entry at (k, l_k) for every k < length l; and the transposed placement *)
  Lemma index_rows_spec (l : list nat) n :
    match sp_from_entries o (length l) n (map (fun ij => (fst ij, snd ij, 1)) (enumerate l)) with
    | Some f => (1 <> 0 -> forall x, In x l -> (x < n)%nat) /\
                sp_is f (length l) n (fun i j => if nth i l 0%nat =? j then 1 else 0)
    | None => 1 <> 0 /\ exists x, In x l /\ (n <= x)%nat
    end.
  Proof.
    pose proof (sp_from_enumerate_spec nat 0%nat (length l) n (fun ij => (fst ij, snd ij, 1)) l) as S.
    destruct (sp_from_entries o (length l) n _) as [f|]; cbn [e_row e_col e_val fst snd] in S.
    - destruct S as (B & S). split.
      + intros N x Hx. destruct (In_nth l x 0%nat Hx) as [k [Hk <-]]. now apply (B k Hk N).
      + eapply sp_is_ext; [exact S|]. intros i j Hi _. unfold key_eq. rewrite (sum_single o L (length l) i _ Hi).
        * now rewrite Nat.eqb_refl.
        * intros k _ Hne. apply Nat.eqb_neq in Hne. now rewrite Hne.
    - destruct S as [k (Hk & Hv & Hn)]. split; [exact Hv|]. exists (nth k l 0%nat). split; [now apply nth_In|lia].
  Qed.

  Lemma index_cols_spec (l : list nat) n :
    match sp_from_entries o n (length l) (map (fun ij => (snd ij, fst ij, 1)) (enumerate l)) with
    | Some b => sp_is b n (length l) (fun i j => if nth j l 0%nat =? i then 1 else 0)
    | None => 1 <> 0 /\ exists x, In x l /\ (n <= x)%nat
    end.
  Proof.
    pose proof (sp_from_enumerate_spec nat 0%nat n (length l) (fun ij => (snd ij, fst ij, 1)) l) as S.
    destruct (sp_from_entries o n (length l) _) as [b|]; cbn [e_row e_col e_val fst snd] in S.
    - destruct S as (_ & S). eapply sp_is_ext; [exact S|]. intros i j _ Hj. unfold key_eq.
      rewrite (sum_single o L (length l) j _ Hj).
      + now rewrite Nat.eqb_refl, andb_true_r.
      + intros k _ Hne. apply Nat.eqb_neq in Hne. now rewrite Hne, andb_false_r.
    - destruct S as [k (Hk & Hv & Hn)]. split; [exact Hv|]. exists (nth k l 0%nat). split; [now apply nth_In|lia].
  Qed.

  Theorem sp_zero_spec m n : sp_is (sp_zero m n) m n (mzero o).
  Proof.
    unfold sp_is, sp_zero. cbn [sp_m sp_n]. splits; reflexivity.
  Qed.

  Theorem sp_id_spec n : sp_is (sp_id o n) n n (mid o).
  Proof.
    unfold sp_is, sp_id. cbn [sp_m sp_n]. splits; try reflexivity.
    - apply sp_wf_iff. cbn [sp_m sp_n sp_st]. split.
      + apply in_bounds_iff. intros e He. apply in_map_iff in He. destruct He as [k [<- Hk]].
        apply in_seq in Hk. cbn [e_row e_col fst snd]. lia.
      + apply sorted_map_seq. intros x y Hxy. unfold C13SpBase.klt. cbn [e_row e_col fst snd].
        apply key_lt_spec. now left.
    - intros i j Hi Hj. rewrite entry_psum. cbn [sp_st]. rewrite psum_map_seq.
      cbn [e_row e_col e_val fst snd]. unfold mid.
      rewrite (sum_ext o n _ (fun k => if k =? i then (if i =? j then 1 else 0) else 0)).
      + now rewrite (sum_delta o L).
      + intros k _. unfold key_eq. eqb_cases.
  Qed.

  Lemma in_bounds_kmap m n m' n' h (l : list ent) :
    in_bounds m n l = true ->
    (forall i j, (i < m)%nat -> (j < n)%nat -> (fst (h i j) < m')%nat /\ (snd (h i j) < n')%nat) ->
    in_bounds m' n' (kmap h l) = true.
  Proof.
    intros B H. apply in_bounds_iff. intros e He. unfold kmap in He. apply in_map_iff in He.
    destruct He as [x [<- Hx]]. cbn [e_row e_col fst snd].
    destruct (proj1 (in_bounds_iff m n l) B x Hx). now apply H.
  Qed.

  Theorem sp_transpose_spec a : sp_wf a ->
    sp_is (sp_transpose o a) (sp_n a) (sp_m a) (mtrans (entry o a)).
  Proof.
    intros W. apply sp_wf_iff in W. destruct W as [B S].
    unfold sp_is, sp_transpose. cbn [sp_m sp_n]. splits; try reflexivity.
    - apply sp_wf_canon.
      change (map (fun e : ent => (e_col e, e_row e, e_val e)) (sp_st a)) with (kmap (fun i j => (j, i)) (sp_st a)).
      apply (in_bounds_kmap _ _ _ _ _ _ B). intros i j Hi Hj. cbn [fst snd]. lia.
    - intros i j _ _. unfold mtrans. rewrite !entry_psum. cbn [sp_st]. rewrite (psum_canon o L).
      change (map (fun e : ent => (e_col e, e_row e, e_val e)) (sp_st a)) with (kmap (fun i j => (j, i)) (sp_st a)).
      rewrite psum_kmap. apply psum_ext. intros e _. cbn [fst snd]. unfold key_eq. apply andb_comm.
  Qed.

  Definition fsel (f : nat -> nat -> fres) (P : nat -> nat -> bool) : nat -> nat -> bool :=
    fun i j => match f i j with FTo i' j' => P i' j' | _ => false end.

  Lemma psum_cons P (e : ent) r :
    psum P (e :: r) = if P (e_row e) (e_col e) then e_val e + psum P r else psum P r.
  Proof. reflexivity. Qed.

  Lemma fmap_p_spec f (l : list ent) :
    match fmap_p f l with
    | Some es => (forall e, In e l -> f (e_row e) (e_col e) <> FPanic) /\
                 (forall P, psum P es = psum (fsel f P) l) /\
                 (forall e', In e' es -> exists e, In e l /\ f (e_row e) (e_col e) = FTo (e_row e') (e_col e')
                                                   /\ e_val e' = e_val e)
    | None => exists e, In e l /\ f (e_row e) (e_col e) = FPanic
    end.
  Proof.
    induction l as [|e r IH]; cbn [fmap_p].
    - splits; [intros e []|reflexivity|intros e' []].
    - destruct (f (e_row e) (e_col e)) as [| |i' j'] eqn:E.
      + exists e. split; [now left|exact E].
      + destruct (fmap_p f r) as [es|].
        * destruct IH as (H1 & H2 & H3). splits.
          -- intros x [<-|Hx]; [congruence|now apply H1].
          -- intros P. rewrite H2, psum_cons.
             assert (K : fsel f P (e_row e) (e_col e) = false) by (unfold fsel; now rewrite E).
             now rewrite K.
          -- intros e' He'. destruct (H3 e' He') as [x [Hx K]]. exists x. split; [now right|exact K].
        * destruct IH as [x [Hx K]]. exists x. split; [now right|exact K].
      + destruct (fmap_p f r) as [es|]; cbn [obind].
        * destruct IH as (H1 & H2 & H3). splits.
          -- intros x [<-|Hx]; [congruence|now apply H1].
          -- intros P. rewrite !psum_cons, H2.
             assert (K : fsel f P (e_row e) (e_col e) = P i' j') by (unfold fsel; now rewrite E).
             rewrite K. reflexivity.
          -- intros e' [<-|He'].
             ++ exists e. split; [now left|]. cbn [e_row e_col e_val fst snd]. now split.
             ++ destruct (H3 e' He') as [x [Hx K]]. exists x. split; [now right|exact K].
        * destruct IH as [x [Hx K]]. exists x. split; [now right|exact K].
  Qed.

  (* entry (i,j) of the extraction is the sum of the entries that the closure sends to (i,j) *)
  Theorem sp_extract_spec a m n f b :
    sp_extract o a m n f = Some b ->
    (forall e, In e (sp_st a) -> f (e_row e) (e_col e) <> FPanic) /\
    sp_m b = m /\ sp_n b = n /\ sp_wf b /\
    forall i j, entry o b i j = psum (fsel f (fun i' j' => key_eq i' j' i j)) (sp_st a).
  Proof.
    unfold sp_extract. intros E. pose proof (fmap_p_spec f (sp_st a)) as S.
    destruct (fmap_p f (sp_st a)) as [es|]; [|discriminate]. cbn [obind] in E.
    destruct S as (H1 & H2 & _).
    pose proof (sp_from_entries_spec m n es) as T. rewrite E in T.
    destruct T as (_ & (T1 & T2 & T3 & _) & T5). splits; try assumption.
    intros i j. now rewrite entry_psum, T5, H2.
  Qed.

  (* when the closure neither panics on a stored entry nor sends one outside the new shape, the call succeeds *)
  Lemma sp_extract_ok a m n f :
    (forall e, In e (sp_st a) ->
       match f (e_row e) (e_col e) with
       | FPanic => False | FSkip => True | FTo i j => (i < m)%nat /\ (j < n)%nat
       end) ->
    exists b, sp_extract o a m n f = Some b /\ sp_m b = m /\ sp_n b = n /\ sp_wf b /\
      forall i j, entry o b i j = psum (fsel f (fun i' j' => key_eq i' j' i j)) (sp_st a).
  Proof.
    intros H. unfold sp_extract. pose proof (fmap_p_spec f (sp_st a)) as F.
    destruct (fmap_p f (sp_st a)) as [es|]; cbn [obind].
    - destruct F as (_ & F2 & F3).
      destruct (sp_from_entries_ok m n es) as [b (Eb & (H1 & H2 & H3 & _) & H5)].
      { intros e' He'. destruct (F3 e' He') as [e [He [K _]]]. specialize (H e He). now rewrite K in H. }
      exists b. splits; try assumption. intros i j. now rewrite entry_psum, H5, F2.
    - exfalso. destruct F as [e [He K]]. specialize (H e He). now rewrite K in H.
  Qed.

  Definition is_perm (p : perm) : Prop := NoDup p /\ forall x, In x p -> (x < length p)%nat.
  Definition pat (p : perm) (i : nat) : nat := nth i p 0%nat.

  Lemma nodupb_iff l : nodupb l = true <-> NoDup l.
  Proof. exact (nodupb_spec nodupb eq_refl (fun _ _ => eq_refl) l). Qed.

  Lemma perm_validb_iff p : perm_validb p = true <-> is_perm p.
  Proof.
    unfold perm_validb, is_perm. rewrite andb_true_iff, nodupb_iff, forallb_forall. split; intros [H1 H2].
    - split; [exact H2|]. intros x Hx. now apply Nat.ltb_lt, H1.
    - split; [|exact H1]. intros x Hx. now apply Nat.ltb_lt, H2.
  Qed.

  Theorem perm_new_spec l :
    match perm_new l with Some p => p = l /\ is_perm l | None => ~ is_perm l end.
  Proof.
    unfold perm_new. destruct (perm_validb l) eqn:E.
    - split; [reflexivity|now apply perm_validb_iff].
    - intros H. apply perm_validb_iff in H. congruence.
  Qed.

  Lemma perm_id_is_perm n : is_perm (perm_id n).
  Proof.
    unfold is_perm, perm_id. split; [apply seq_NoDup|]. intros x Hx. apply in_seq in Hx. rewrite seq_length. lia.
  Qed.

  Lemma pat_id n i : (i < n)%nat -> pat (perm_id n) i = i.
  Proof. intros H. unfold pat, perm_id. now rewrite seq_nth. Qed.

  Lemma perm_at_pat p i : (i < length p)%nat -> perm_at p i = Some (pat p i).
  Proof. intros H. unfold perm_at, pat. now apply nth_error_nth'. Qed.

  Lemma perm_at_none p i : (length p <= i)%nat -> perm_at p i = None.
  Proof. intros H. unfold perm_at. now apply nth_error_None. Qed.

  Lemma pat_lt p i : is_perm p -> (i < length p)%nat -> (pat p i < length p)%nat.
  Proof. intros [_ H] Hi. apply H. unfold pat. now apply nth_In. Qed.

  Lemma pat_inj p i i' : is_perm p -> (i < length p)%nat -> (i' < length p)%nat -> pat p i = pat p i' -> i = i'.
  Proof. intros [H _] Hi Hi' E. unfold pat in E. now apply (proj1 (NoDup_nth p 0%nat) H). Qed.

  Lemma pat_eqb p i i' : is_perm p -> (i < length p)%nat -> (i' < length p)%nat -> (pat p i =? pat p i') = (i =? i').
  Proof.
    intros P Hi Hi'. destruct (Nat.eqb_spec i i') as [->|N]; [apply Nat.eqb_refl|].
    apply Nat.eqb_neq. intros E. now apply N, (pat_inj p).
  Qed.

  Lemma pat_surj p x : is_perm p -> (x < length p)%nat -> exists i, (i < length p)%nat /\ pat p i = x.
  Proof.
    intros [H1 H2] Hx.
    assert (I : incl (seq 0 (length p)) p).
    { apply NoDup_length_incl; [exact H1|now rewrite seq_length|].
      intros y Hy. apply in_seq. specialize (H2 y Hy). lia. }
    assert (Hin : In x p) by (apply I, in_seq; lia).
    destruct (In_nth p x 0%nat Hin) as [i [Hi E]]. exists i. now split.
  Qed.

  (* permute(p, q): entry (i,j) of a becomes entry (p(i), q(j)) of the result *)
  Theorem sp_permute_spec a p q :
    sp_wf a -> is_perm p -> is_perm q -> length p = sp_m a -> length q = sp_n a ->
    exists b, sp_permute o a p q = Some b /\
      sp_m b = sp_m a /\ sp_n b = sp_n a /\ sp_wf b /\
      forall i j, (i < sp_m a)%nat -> (j < sp_n a)%nat -> entry o b (pat p i) (pat q j) = entry o a i j.
  Proof.
    intros W Pp Pq Lp Lq.
    pose proof (sp_wf_bounds a W) as Bnd.
    unfold sp_permute.
    set (f := fun i j => match perm_at p i, perm_at q j with Some i', Some j' => FTo i' j' | _, _ => FPanic end).
    destruct (sp_extract_ok a (sp_m a) (sp_n a) f) as [b (Eb & H1 & H2 & H3 & H4)].
    { intros e He. destruct (Bnd e He). unfold f. rewrite !perm_at_pat by lia.
      rewrite <- Lp, <- Lq. split; apply pat_lt; try assumption; lia. }
    exists b. splits; try assumption. intros i j Hi Hj.
    rewrite H4, entry_psum. apply psum_ext. intros e He. destruct (Bnd e He).
    unfold fsel, f, key_eq. rewrite !perm_at_pat by lia. now rewrite !pat_eqb by (assumption || lia).
  Qed.

  Corollary sp_permute_rows_spec a p :
    sp_wf a -> is_perm p -> length p = sp_m a ->
    exists b, sp_permute_rows o a p = Some b /\
      sp_m b = sp_m a /\ sp_n b = sp_n a /\ sp_wf b /\
      forall i j, (i < sp_m a)%nat -> (j < sp_n a)%nat -> entry o b (pat p i) j = entry o a i j.
  Proof.
    intros W Pp Lp. unfold sp_permute_rows.
    destruct (sp_permute_spec a p (perm_id (sp_n a)) W Pp (perm_id_is_perm _) Lp) as [b (E & H1 & H2 & H3 & H4)].
    { unfold perm_id. apply seq_length. }
    exists b. splits; try assumption. intros i j Hi Hj. rewrite <- (H4 i j Hi Hj). now rewrite pat_id.
  Qed.

  Corollary sp_permute_cols_spec a q :
    sp_wf a -> is_perm q -> length q = sp_n a ->
    exists b, sp_permute_cols o a q = Some b /\
      sp_m b = sp_m a /\ sp_n b = sp_n a /\ sp_wf b /\
      forall i j, (i < sp_m a)%nat -> (j < sp_n a)%nat -> entry o b i (pat q j) = entry o a i j.
  Proof.
    intros W Pq Lq. unfold sp_permute_cols.
    destruct (sp_permute_spec a (perm_id (sp_m a)) q W (perm_id_is_perm _) Pq) as [b (E & H1 & H2 & H3 & H4)];
      [unfold perm_id; apply seq_length|exact Lq|].
    exists b. splits; try assumption. intros i j Hi Hj. rewrite <- (H4 i j Hi Hj). now rewrite pat_id.
  Qed.

  (* positions relative to the m x n window at (r0, c0) *)
  Lemma key_eq_shift r0 c0 r c i j :
    (r0 <= r)%nat -> (c0 <= c)%nat -> key_eq (r - r0) (c - c0) i j = key_eq r c (r0 + i) (c0 + j).
  Proof. intros Hr Hc. unfold key_eq. eqb_cases. Qed.

  Lemma key_eq_outside r0 c0 m n r c i j :
    (i < m)%nat -> (j < n)%nat -> ~ ((r0 <= r < r0 + m)%nat /\ (c0 <= c < c0 + n)%nat) ->
    key_eq r c (r0 + i) (c0 + j) = false.
  Proof. intros Hi Hj N. apply not_true_is_false. intros K. apply key_eq_true in K. lia. Qed.

  Lemma window_spec i0 i1 j0 j1 i j :
    reflect ((i0 <= i < i1)%nat /\ (j0 <= j < j1)%nat) (((i0 <=? i) && (i <? i1)) && ((j0 <=? j) && (j <? j1))).
  Proof. apply iff_reflect. rewrite !andb_true_iff, !Nat.leb_le, !Nat.ltb_lt. tauto. Qed.

  Theorem sp_submat_spec a i0 i1 j0 j1 :
    match sp_submat o a i0 i1 j0 j1 with
    | Some b => (i0 <= i1 <= sp_m a)%nat /\ (j0 <= j1 <= sp_n a)%nat /\
                sp_is b (i1 - i0) (j1 - j0) (fun i j => entry o a (i0 + i) (j0 + j))
    | None => ~ ((i0 <= i1 <= sp_m a)%nat /\ (j0 <= j1 <= sp_n a)%nat)
    end.
  Proof.
    unfold sp_submat.
    destruct (Nat.leb_spec i0 i1) as [E1|E1]; destruct (Nat.leb_spec i1 (sp_m a)) as [E2|E2];
      destruct (Nat.leb_spec j0 j1) as [E3|E3]; destruct (Nat.leb_spec j1 (sp_n a)) as [E4|E4]; cbn [andb];
      try lia.
    set (f := fun i j => if ((i0 <=? i) && (i <? i1)) && ((j0 <=? j) && (j <? j1)) then FTo (i - i0) (j - j0) else FSkip).
    destruct (sp_extract_ok a (i1 - i0) (j1 - j0) f) as [b (Eb & H1 & H2 & H3 & H4)].
    { intros e _. unfold f. destruct (window_spec i0 i1 j0 j1 (e_row e) (e_col e)); [lia|exact I]. }
    rewrite Eb. splits; try lia. unfold sp_is. splits; try assumption.
    intros i j Hi Hj. rewrite H4, entry_psum. apply psum_ext. intros e _. unfold fsel, f.
    destruct (window_spec i0 i1 j0 j1 (e_row e) (e_col e)) as [K|K].
    - apply key_eq_shift; lia.
    - symmetry. apply (key_eq_outside i0 j0 (i1 - i0) (j1 - j0)); [assumption..|lia].
  Qed.

  Lemma sp_submat_rows_eq a i0 i1 : sp_submat_rows o a i0 i1 = sp_submat o a i0 i1 0 (sp_n a).
  Proof. reflexivity. Qed.
  Lemma sp_submat_cols_eq a j0 j1 : sp_submat_cols o a j0 j1 = sp_submat o a 0 (sp_m a) j0 j1.
  Proof. reflexivity. Qed.

  Local Notation gsum := (gsum o).

  Lemma assemble_ok m n l :
    (forall e, In e l -> (e_row e < m)%nat /\ (e_col e < n)%nat) ->
    exists b, assemble o m n l = Some b /\ sp_m b = m /\ sp_n b = n /\ sp_wf b /\
              (forall P, psum P (sp_st b) = psum P l).
  Proof.
    intros B. pose proof (assemble_spec m n l) as S. destruct (assemble o m n l) as [b|].
    - exists b. split; [reflexivity|]. now destruct S as (_ & S).
    - apply in_bounds_false in S. destruct S as [e [He Hn]]. exfalso. apply Hn. now apply B.
  Qed.

  Lemma assemble_map_id m n (l : list ent) :
    assemble o m n (map (fun e => (e_row e, e_col e, e_val e)) l) = assemble o m n l.
  Proof. f_equal. rewrite <- (map_id l) at 2. apply map_ext. now intros [[i j] v]. Qed.

  (* the stored entries selected by F, moved by (fr, fc), make up the m x n window of a at (r0, c0) *)
  Lemma assemble_block a F fr fc r0 c0 m n :
    (forall e, In e (sp_st a) ->
       (F e = true <-> (r0 <= e_row e < r0 + m)%nat /\ (c0 <= e_col e < c0 + n)%nat)) ->
    (forall e, fr e = (e_row e - r0)%nat /\ fc e = (e_col e - c0)%nat) ->
    exists b, assemble o m n (map (fun e => (fr e, fc e, e_val e)) (filter F (nz o (sp_st a)))) = Some b /\
              sp_is b m n (fun i j => entry o a (r0 + i) (c0 + j)).
  Proof.
    intros HF Hk.
    destruct (assemble_ok m n (map (fun e => (fr e, fc e, e_val e)) (filter F (nz o (sp_st a)))))
      as [b (Eb & B1 & B2 & B3 & B4)].
    { intros e' He'. apply in_map_iff in He'. destruct He' as [e [<- He]]. apply filter_In in He.
      destruct He as [He Fe]. apply nz_in in He. apply (HF e (proj1 He)) in Fe.
      cbn [e_row e_col fst snd]. destruct (Hk e) as [-> ->]. lia. }
    exists b. split; [exact Eb|]. unfold sp_is. splits; try assumption.
    intros i j Hi Hj. rewrite !entry_psum, B4, (gsum_map_key o), (gsum_filter o), (gsum_nz o L), (psum_gsum o).
    apply gsum_ext. intros e He. destruct (Hk e) as [-> ->]. specialize (HF e He).
    destruct (F e); cbn [andb].
    - apply key_eq_shift; now apply HF.
    - symmetry. apply (key_eq_outside r0 c0 m n); [assumption..|]. intros K. now apply HF in K.
  Qed.

  Lemma eqb_ltb_true x k (t : bool) : Bool.eqb (x <? k) t = true <-> if t then (x < k)%nat else (k <= x)%nat.
  Proof. rewrite eqb_true_iff. destruct t; [apply Nat.ltb_lt|apply Nat.ltb_ge]. Qed.

  Theorem sp_divide4_spec a k l : sp_wf a ->
    match sp_divide4 o a k l with
    | Some (A, B, C, D) =>
        (k <= sp_m a)%nat /\ (l <= sp_n a)%nat /\
        sp_is A k l (entry o a) /\
        sp_is B k (sp_n a - l) (fun i j => entry o a i (l + j)) /\
        sp_is C (sp_m a - k) l (fun i j => entry o a (k + i) j) /\
        sp_is D (sp_m a - k) (sp_n a - l) (fun i j => entry o a (k + i) (l + j))
    | None => ~ ((k <= sp_m a)%nat /\ (l <= sp_n a)%nat)
    end.
  Proof.
    intros W. pose proof (sp_wf_bounds a W) as Bnd.
    unfold sp_divide4. cbv beta zeta.
    destruct (Nat.leb_spec k (sp_m a)) as [E1|E1]; destruct (Nat.leb_spec l (sp_n a)) as [E2|E2]; cbn [andb];
      try lia.
    assert (P : forall (top left : bool) e, In e (sp_st a) ->
              (Bool.eqb (e_row e <? k) top && Bool.eqb (e_col e <? l) left = true <->
               (if top then e_row e < k else k <= e_row e < sp_m a)%nat /\
               (if left then e_col e < l else l <= e_col e < sp_n a)%nat)).
    { intros top left e He. destruct (Bnd e He). rewrite andb_true_iff, !eqb_ltb_true. destruct top, left; lia. }
    rewrite <- (assemble_map_id k l).
    destruct (assemble_block a (fun e => Bool.eqb (e_row e <? k) true && Bool.eqb (e_col e <? l) true)
                e_row e_col 0 0 k l) as [A [-> HA]];
      [intros e He; rewrite (P true true e He); lia|intros e; lia|].
    destruct (assemble_block a (fun e => Bool.eqb (e_row e <? k) true && Bool.eqb (e_col e <? l) false)
                e_row (fun e => e_col e - l)%nat 0 l k (sp_n a - l)) as [B [-> HB]];
      [intros e He; rewrite (P true false e He); lia|intros e; lia|].
    destruct (assemble_block a (fun e => Bool.eqb (e_row e <? k) false && Bool.eqb (e_col e <? l) true)
                (fun e => e_row e - k)%nat e_col k 0 (sp_m a - k) l) as [C [-> HC]];
      [intros e He; rewrite (P false true e He); lia|intros e; lia|].
    destruct (assemble_block a (fun e => Bool.eqb (e_row e <? k) false && Bool.eqb (e_col e <? l) false)
                (fun e => e_row e - k)%nat (fun e => e_col e - l)%nat k l (sp_m a - k) (sp_n a - l)) as [D [-> HD]];
      [intros e He; rewrite (P false false e He); lia|intros e; lia|].
    cbn [obind]. splits; assumption.
  Qed.

  Lemma psum_shift P di dj (l : list ent) :
    psum P (shift di dj l) = psum (fun i j => P (i + di)%nat (j + dj)%nat) l.
  Proof. unfold shift. now rewrite (gsum_map_key o), (psum_gsum o). Qed.

  Lemma esum_shift di dj (l : list ent) i j :
    psum (fun i' j' => key_eq i' j' i j) (shift di dj l)
    = if (di <=? i) && (dj <=? j) then psum (fun i' j' => key_eq i' j' (i - di) (j - dj)) l else 0.
  Proof.
    rewrite psum_shift. destruct ((di <=? i) && (dj <=? j)) eqn:G.
    - apply andb_true_iff in G. rewrite !Nat.leb_le in G.
      apply psum_ext. intros e _. unfold key_eq. eqb_cases.
    - apply andb_false_iff in G. rewrite !Nat.leb_gt in G.
      apply psum_false. intros e _. unfold key_eq. eqb_cases.
  Qed.

  Lemma shift_bounds di dj m n (l : list ent) e :
    in_bounds m n l = true -> In e (shift di dj l) -> (e_row e < m + di)%nat /\ (e_col e < n + dj)%nat.
  Proof.
    intros B He. unfold shift in He. apply in_map_iff in He. destruct He as [x [<- Hx]].
    destruct (proj1 (in_bounds_iff m n l) B x Hx). cbn [e_row e_col fst snd]. lia.
  Qed.

  (* the block matrix [[a, b], [c, d]] *)
  Definition blocks (k l : nat) (fa fb fc fd : nat -> nat -> R) : nat -> nat -> R := fun i j =>
    if i <? k then (if j <? l then fa i j else fb i (j - l)%nat)
    else (if j <? l then fc (i - k)%nat j else fd (i - k)%nat (j - l)%nat).

  Lemma blocks_of_windows k l m n f fa fb fc fd : (k <= m)%nat -> (l <= n)%nat ->
    (forall i j, (i < k)%nat -> (j < l)%nat -> fa i j = f i j) ->
    (forall i j, (i < k)%nat -> (j < n - l)%nat -> fb i j = f i (l + j)%nat) ->
    (forall i j, (i < m - k)%nat -> (j < l)%nat -> fc i j = f (k + i)%nat j) ->
    (forall i j, (i < m - k)%nat -> (j < n - l)%nat -> fd i j = f (k + i)%nat (l + j)%nat) ->
    forall i j, (i < m)%nat -> (j < n)%nat -> blocks k l fa fb fc fd i j = f i j.
  Proof.
    intros Hk Hl Ha Hb Hc Hd i j Hi Hj. unfold blocks.
    destruct (Nat.ltb_spec i k); destruct (Nat.ltb_spec j l).
    - now apply Ha.
    - rewrite Hb by lia. f_equal. lia.
    - rewrite Hc by lia. f_equal. lia.
    - rewrite Hd by lia. f_equal; lia.
  Qed.

  Theorem sp_combine_blocks_spec a b c d : sp_wf a -> sp_wf b -> sp_wf c -> sp_wf d ->
    match sp_combine_blocks o a b c d with
    | Some r => (sp_m a = sp_m b /\ sp_m c = sp_m d /\ sp_n a = sp_n c /\ sp_n b = sp_n d) /\
                sp_is r (sp_m a + sp_m c) (sp_n a + sp_n b)
                  (blocks (sp_m a) (sp_n a) (entry o a) (entry o b) (entry o c) (entry o d))
    | None => ~ (sp_m a = sp_m b /\ sp_m c = sp_m d /\ sp_n a = sp_n c /\ sp_n b = sp_n d)
    end.
  Proof.
    intros Wa Wb Wc Wd.
    pose proof (proj1 (proj1 (sp_wf_iff a) Wa)) as Ba. pose proof (proj1 (proj1 (sp_wf_iff b) Wb)) as Bb.
    pose proof (proj1 (proj1 (sp_wf_iff c) Wc)) as Bc. pose proof (proj1 (proj1 (sp_wf_iff d) Wd)) as Bd.
    unfold sp_combine_blocks.
    match goal with |- match (if ?g then _ else _) with _ => _ end =>
      assert (G : g = true <-> sp_m a = sp_m b /\ sp_m c = sp_m d /\ sp_n a = sp_n c /\ sp_n b = sp_n d)
        by (rewrite !andb_true_iff, !Nat.eqb_eq; tauto);
      destruct g end; [|intros K; now apply G in K].
    destruct (proj1 G eq_refl) as (E1 & E2 & E3 & E4). cbv zeta.
    match goal with |- context [sp_from_entries o ?m ?n ?es] =>
      destruct (sp_from_entries_ok m n es) as [r (Er & (R1 & R2 & R3 & _) & R5)] end.
    { intros e He. rewrite !in_app_iff in He. destruct He as [He|[He|[He|He]]].
      - pose proof (shift_bounds _ _ _ _ _ e Ba He). lia.
      - pose proof (shift_bounds _ _ _ _ _ e Bb He). lia.
      - pose proof (shift_bounds _ _ _ _ _ e Bc He). lia.
      - pose proof (shift_bounds _ _ _ _ _ e Bd He). lia. }
    rewrite Er. split; [tauto|]. unfold sp_is. splits; try assumption.
    intros i j Hi Hj. rewrite entry_psum, R5, !(psum_app o L), !esum_shift, <- !entry_psum.
    rewrite !Nat.sub_0_r. unfold blocks. cbn [Nat.leb andb].
    destruct (Nat.ltb_spec i (sp_m a)) as [Hik|Hik]; destruct (Nat.ltb_spec j (sp_n a)) as [Hjl|Hjl].
    - destruct (Nat.leb_spec (sp_m a) i); destruct (Nat.leb_spec (sp_n a) j); try lia. cbn [andb]. ring.
    - destruct (Nat.leb_spec (sp_m a) i); destruct (Nat.leb_spec (sp_n a) j); try lia. cbn [andb].
      rewrite (entry_outside o a i j Wa) by lia. ring.
    - destruct (Nat.leb_spec (sp_m a) i); destruct (Nat.leb_spec (sp_n a) j); try lia. cbn [andb].
      rewrite (entry_outside o a i j Wa) by lia. ring.
    - destruct (Nat.leb_spec (sp_m a) i); destruct (Nat.leb_spec (sp_n a) j); try lia. cbn [andb].
      rewrite (entry_outside o a i j Wa) by lia.
      rewrite (entry_outside o b i (j - sp_n a) Wb) by lia.
      rewrite (entry_outside o c (i - sp_m a) j Wc) by lia. ring.
  Qed.

  (* split and recombine: the same shape and the same entries *)
  Theorem sp_divide4_combine a k l A B C D : sp_wf a ->
    sp_divide4 o a k l = Some (A, B, C, D) ->
    exists r, sp_combine_blocks o A B C D = Some r /\ sp_is r (sp_m a) (sp_n a) (entry o a).
  Proof.
    intros W E. pose proof (sp_divide4_spec a k l W) as S. rewrite E in S.
    destruct S as (Hk & Hl & (A1 & A2 & A3 & A4) & (B1 & B2 & B3 & B4) & (C1 & C2 & C3 & C4) & (D1 & D2 & D3 & D4)).
    pose proof (sp_combine_blocks_spec A B C D A3 B3 C3 D3) as T.
    destruct (sp_combine_blocks o A B C D) as [r|].
    - exists r. split; [reflexivity|]. destruct T as (_ & (R1 & R2 & R3 & R4)).
      rewrite A1, A2, C1, B2 in *. unfold sp_is. splits; try assumption; try lia.
      intros i j Hi Hj. rewrite R4 by lia.
      now apply (blocks_of_windows k l (sp_m a) (sp_n a) (entry o a)).
    - exfalso. apply T. splits; congruence.
  Qed.

  Theorem sp_concat_spec a b : sp_wf a -> sp_wf b ->
    match sp_concat o a b with
    | Some r => sp_m a = sp_m b /\
                sp_is r (sp_m a) (sp_n a + sp_n b)
                  (fun i j => if j <? sp_n a then entry o a i j else entry o b i (j - sp_n a))
    | None => sp_m a <> sp_m b
    end.
  Proof.
    intros Wa Wb. unfold sp_concat.
    pose proof (sp_combine_blocks_spec a b (sp_zero 0 (sp_n a)) (sp_zero 0 (sp_n b)) Wa Wb eq_refl eq_refl) as S.
    destruct (sp_combine_blocks o a b (sp_zero 0 (sp_n a)) (sp_zero 0 (sp_n b))) as [r|].
    - destruct S as ((E1 & _) & (R1 & R2 & R3 & R4)). cbn [sp_zero sp_m sp_n] in *.
      split; [exact E1|]. unfold sp_is. splits; try assumption; try lia.
      intros i j Hi Hj. rewrite R4 by lia. unfold blocks.
      destruct (Nat.ltb_spec i (sp_m a)); [reflexivity|lia].
    - cbn [sp_zero sp_m sp_n] in S. intros E. apply S. tauto.
  Qed.

  Theorem sp_stack_spec a b : sp_wf a -> sp_wf b ->
    match sp_stack o a b with
    | Some r => sp_n a = sp_n b /\
                sp_is r (sp_m a + sp_m b) (sp_n a)
                  (fun i j => if i <? sp_m a then entry o a i j else entry o b (i - sp_m a) j)
    | None => sp_n a <> sp_n b
    end.
  Proof.
    intros Wa Wb. unfold sp_stack.
    pose proof (sp_combine_blocks_spec a (sp_zero (sp_m a) 0) b (sp_zero (sp_m b) 0) Wa eq_refl Wb eq_refl) as S.
    destruct (sp_combine_blocks o a (sp_zero (sp_m a) 0) b (sp_zero (sp_m b) 0)) as [r|].
    - destruct S as ((_ & _ & E3 & _) & (R1 & R2 & R3 & R4)). cbn [sp_zero sp_m sp_n] in *.
      split; [exact E3|]. unfold sp_is. splits; try assumption; try lia.
      intros i j Hi Hj. rewrite R4 by lia. unfold blocks.
      destruct (Nat.ltb_spec j (sp_n a)); [reflexivity|lia].
    - cbn [sp_zero sp_m sp_n] in S. intros E. apply S. tauto.
  Qed.

  (* extend_cols: the same matrix as concat, but the stored patterns are kept *)
  Lemma shift_sorted di dj (l : list ent) : StronglySorted klt l -> StronglySorted klt (shift di dj l).
  Proof.
    intros S. unfold shift. apply sorted_map_mono; [|exact S].
    intros x y. unfold C13SpBase.klt. cbn [e_row e_col fst snd]. rewrite !key_lt_spec. lia.
  Qed.

  Theorem sp_extend_cols_spec a b : sp_wf a -> sp_wf b ->
    match sp_extend_cols a b with
    | Some r => sp_m a = sp_m b /\
                sp_is r (sp_m a) (sp_n a + sp_n b)
                  (fun i j => if j <? sp_n a then entry o a i j else entry o b i (j - sp_n a)) /\
                sp_nnz r = (sp_nnz a + sp_nnz b)%nat
    | None => sp_m a <> sp_m b
    end.
  Proof.
    intros Wa Wb. pose proof (proj1 (sp_wf_iff a) Wa) as [Ba Sa]. pose proof (proj1 (sp_wf_iff b) Wb) as [Bb Sb].
    unfold sp_extend_cols. destruct (Nat.eqb_spec (sp_m a) (sp_m b)) as [E|E]; [|exact E].
    destruct (Nat.eqb_spec (sp_n b) 0) as [Z|Z].
    - split; [exact E|]. split.
      + unfold sp_is. splits; try assumption; try lia. intros i j Hi Hj.
        destruct (Nat.ltb_spec j (sp_n a)); [reflexivity|lia].
      + unfold sp_nnz. destruct (sp_st b) as [|e r] eqn:Eb; [cbn; lia|].
        exfalso. destruct (sp_wf_bounds b Wb e) as [_ H]; [rewrite Eb; now left|lia].
    - unfold try_csc.
      assert (V : csc_validb (sp_m a) (sp_n a + sp_n b) (sp_st a ++ shift 0 (sp_n a) (sp_st b)) = true).
      { unfold csc_validb. apply andb_true_iff. split.
        - rewrite in_bounds_app. apply andb_true_iff. split.
          + apply in_bounds_iff. intros e He. destruct (sp_wf_bounds a Wa e He). lia.
          + apply in_bounds_iff. intros e He. pose proof (shift_bounds _ _ _ _ _ e Bb He). lia.
        - apply sortedb_iff. apply sorted_app; [exact Sa|now apply shift_sorted|].
          intros x y Hx Hy. unfold shift in Hy. apply in_map_iff in Hy. destruct Hy as [z [<- Hz]].
          destruct (sp_wf_bounds a Wa x Hx). unfold C13SpBase.klt. cbn [e_row e_col fst snd].
          apply key_lt_spec. lia. }
      rewrite V. split; [exact E|]. split.
      + unfold sp_is. cbn [sp_m sp_n]. splits; try reflexivity.
        * exact V.
        * intros i j Hi Hj. rewrite entry_psum. cbn [sp_st]. rewrite (psum_app o L), esum_shift, <- !entry_psum.
          cbn [Nat.leb andb]. rewrite Nat.sub_0_r.
          destruct (Nat.ltb_spec j (sp_n a)); destruct (Nat.leb_spec (sp_n a) j); try lia.
          -- ring.
          -- rewrite (entry_outside o a i j Wa) by lia. ring.
      + unfold sp_nnz. cbn [sp_st]. unfold shift. now rewrite app_length, map_length.
  Qed.
End SpProofs.
