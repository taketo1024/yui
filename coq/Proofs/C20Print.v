(* C20: what kh / ckh write to stdout, read back: for the bigraded table and the ckh grid exactly the non-zero
   groups at their (i, j) ([nonzero_cells], characterised by [nonzero_cells_spec]); for the kh sequence the group
   printed at every index, zero groups included ([seq_cells]).  Also [good_symbol] (what a ring symbol must
   satisfy to be read back) and the shape of display_table ([display_table_shape]). *)
From Coq Require Import ZArith NArith List Bool Arith Lia ZifyN ZifyBool ZifyNat Sorted.
Require Import Yui.Model.Table Yui.Proofs.C20Str Yui.Proofs.C20Layout Yui.Proofs.C20Table Yui.Proofs.C20Rmod.
Require Import Yui.Base.ListFacts.
Import ListNotations.

Definition is_zero_summand (m : summand) : Prop := s_rank m = 0%N /\ s_tors m = [].
Definition tors_one_line (m : summand) : Prop := Forall no_nl (s_tors m).
(* a coefficient ring symbol that can be printed in a table *)
Definition good_symbol (sym : str) : Prop := goodc sym /\ sym <> dot /\ sym <> [48%N].

Lemma lookup2_show : forall sym g i j,
  lookup2 (show_grid2 sym g) i j = option_map (rmod_str sym) (lookup2 g i j).
Proof.
  intros sym. induction g as [|[[i' j'] m] g IH]; intros i j; [reflexivity|].
  cbn [show_grid2 map fst snd lookup2]. destruct (Z.eqb i i' && Z.eqb j j'); [reflexivity|]. apply IH.
Qed.
Lemma rmod_zero : forall sym, rmod_str sym zero_summand = [48%N].
Proof. reflexivity. Qed.

Lemma show_cells_good : forall sym g, good_symbol sym -> (forall e, In e g -> tors_one_line (snd e)) ->
  forall i j s, lookup2 (show_grid2 sym g) i j = Some s -> goodc s /\ s <> dot.
Proof.
  intros sym g (Hg & Hd & _) Ht i j s H. rewrite lookup2_show in H.
  destruct (lookup2 g i j) as [m|] eqn:E; [|discriminate]. cbn in H. inversion H; subst.
  apply lookup2_In in E. specialize (Ht _ E). cbn [snd] in Ht. split.
  - now apply rmod_str_good.
  - apply rmod_str_not_dot; [apply Hg | exact Hd].
Qed.
Lemma zero_goodc : goodc [48%N].
Proof. split; [discriminate|]. split; [intros c [<-|[]]; discriminate | reflexivity]. Qed.

(* the cells a reader must find: every supported (i, j) whose group is not zero, with the printed group *)
Definition nonzero_cells (sym : str) (g : grid2) : list ((Z * Z) * str) :=
  expected_cells (show_grid2 sym g) [48%N].

Theorem nonzero_cells_spec : forall sym g i j s, good_symbol sym ->
  (In ((i, j), s) (nonzero_cells sym g) <->
   exists m, lookup2 g i j = Some m /\ ~ is_zero_summand m /\ s = rmod_str sym m).
Proof.
  intros sym g i j s (Hg & _ & Hz). unfold nonzero_cells. rewrite expected_cells_spec, lookup2_show.
  assert (Hne : sym <> []) by apply Hg.
  split.
  - intros [H Hs]. destruct (lookup2 g i j) as [m|]; [|discriminate]. cbn in H. inversion H; subst.
    exists m. repeat split; auto. intro Hm. apply Hs. now apply rmod_str_zero.
  - intros (m & Hl & Hm & ->). rewrite Hl. split; [reflexivity|]. intro E. apply Hm. now apply rmod_str_zero in E.
Qed.

Theorem kh_bigraded_roundtrip : forall sym g, good_symbol sym -> (forall e, In e g -> tors_one_line (snd e)) ->
  read_kh_bigraded (kh_stdout_bigraded sym g) = Some (nonzero_cells sym g).
Proof.
  intros sym g Hs Ht. change (kh_stdout_bigraded sym g) with (kh_text (show_grid2 sym g) [48%N]).
  apply read_kh_text; [now apply show_cells_good | apply zero_goodc].
Qed.
Theorem ckh_roundtrip : forall sym g, good_symbol sym -> (forall e, In e g -> tors_one_line (snd e)) ->
  read_ckh (ckh_stdout sym g) = Some (nonzero_cells sym g).
Proof.
  intros sym g Hs Ht. change (ckh_stdout sym g) with (ckh_text (show_grid2 sym g) [48%N]).
  apply read_ckh_text; [now apply show_cells_good | apply zero_goodc].
Qed.

Lemma in_show_grid2 : forall sym g i j,
  (exists s, In ((i, j), s) (show_grid2 sym g)) <-> exists m, In ((i, j), m) g.
Proof.
  intros sym g i j. unfold show_grid2. split.
  - intros (s & H). apply in_map_iff in H. destruct H as ([[i' j'] m] & E & H). cbn in E. inversion E; subst. eauto.
  - intros (m & H). exists (rmod_str sym m). apply in_map_iff. exists ((i, j), m). auto.
Qed.

(* columns ascending, rows descending, and the cell at row j, column i is the group at (i, j) or "." *)
Theorem display_table_shape : forall sym g,
  Sorted Z.lt (cols_of g) /\ Sorted Z.lt (rev (rows_of g)) /\
  (forall i, In i (cols_of g) <-> exists j m, In ((i, j), m) g) /\
  (forall j, In j (rows_of g) <-> exists i m, In ((i, j), m) g) /\
  display_table sym s_i s_j g =
    (title_ij :: map str_of_Z (cols_of g)) ::
    map (fun j => str_of_Z j ::
                  map (fun i => match lookup2 g i j with
                                | Some m => if str_eqb (rmod_str sym m) [48%N] then dot else rmod_str sym m
                                | None => dot
                                end) (cols_of g))
        (rows_of g).
Proof.
  intros sym g. unfold display_table.
  destruct (table_of_strs_shape s_i s_j (show_grid2 sym g) (rmod_str sym zero_summand)) as (H1 & H2 & H3 & H4 & H5).
  assert (Hc : cols_of (show_grid2 sym g) = cols_of g).
  { unfold cols_of, show_grid2. now rewrite map_map. }
  assert (Hr : rows_of (show_grid2 sym g) = rows_of g).
  { unfold rows_of, show_grid2. now rewrite map_map. }
  rewrite Hc, Hr in *. split; [exact H1|]. split; [exact H2|]. split; [|split].
  - intros i. rewrite H3. split; intros (j & H); exists j; now apply (in_show_grid2 sym g i j).
  - intros j. rewrite H4. split; intros (i & H); exists i; now apply (in_show_grid2 sym g i j).
  - rewrite H5. unfold title_ij. f_equal. apply map_ext. intro j. f_equal. apply map_ext. intro i.
    unfold getd. rewrite lookup2_show. destruct (lookup2 g i j); cbn [option_map]; [reflexivity|].
    now rewrite str_eqb_refl.
Qed.

Definition getm (g : grid1) (i : Z) : summand := match lookup1 g i with Some m => m | None => zero_summand end.
Definition seq_cells (sym : str) (g : grid1) : list (Z * str) :=
  map (fun i => (i, rmod_str sym (getm g i))) (map fst g).

Lemma lookup1_In : forall A (g : list (Z * A)) i a, lookup1 g i = Some a -> In (i, a) g.
Proof.
  induction g as [|[i' a'] g IH]; intros i a H; [discriminate|]. cbn [lookup1] in H.
  destruct (Z.eqb i i') eqn:E; [apply Z.eqb_eq in E; inversion H; subst; now left | right; now apply IH].
Qed.
Lemma seq_cell_good : forall sym g i, good_symbol sym -> (forall e, In e g -> tors_one_line (snd e)) ->
  goodc (rmod_str sym (getm g i)).
Proof.
  intros sym g i (Hg & _) Ht. apply rmod_str_good; [exact Hg|]. unfold getm.
  destruct (lookup1 g i) as [m|] eqn:E; [|constructor]. apply lookup1_In in E. apply (Ht _ E).
Qed.

Theorem kh_seq_roundtrip : forall sym g, good_symbol sym -> g <> [] -> (forall e, In e g -> tors_one_line (snd e)) ->
  read_kh_seq (kh_stdout_seq sym g) = Some (seq_cells sym g).
Proof.
  intros sym g Hs Hne Ht. unfold read_kh_seq, kh_stdout_seq. rewrite strip_final_nl_app. cbn [obind].
  set (sup := map fst g). assert (Hsup : sup <> []) by (unfold sup; destruct g; [congruence | discriminate]).
  set (show := fun i => rmod_str sym (getm g i)).
  assert (Ht' : display_seq sym s_i g = [s_i :: map str_of_Z sup; [] :: map show sup]) by reflexivity.
  assert (Hshow : forall i, goodc (show i)) by (intro i; now apply seq_cell_good).
  assert (Hwf : wf_table (display_seq sym s_i g)).
  { rewrite Ht'. unfold wf_table. split; [discriminate|]. split.
    - constructor.
      + split; [discriminate|]. intros c [<-|[]]. split; [discriminate | reflexivity].
      + apply Forall_forall. intros c Hc. apply in_map_iff in Hc. destruct Hc as (z & <- & _). apply str_of_Z_okh.
    - constructor; [|constructor]. split; [cbn [length]; now rewrite !map_length|].
      constructor; [split; [intros c []|reflexivity]|]. apply Forall_forall. intros c Hc.
      apply in_map_iff in Hc. destruct Hc as (i & <- & _). apply goodc_okc, Hshow. }
  assert (Hvis : visible_ends (display_seq sym s_i g)).
  { rewrite Ht'. unfold visible_ends. cbn [hd]. split; [discriminate|]. split; [reflexivity|].
    change (last [s_i :: map str_of_Z sup; [] :: map show sup] []) with ([] :: map show sup).
    assert (Hm : map show sup <> []) by (destruct sup; [congruence | discriminate]).
    rewrite last_cons_ne by exact Hm.
    apply goodc_last. pose proof (last_In (map show sup) [] Hm) as Hin. apply in_map_iff in Hin.
    destruct Hin as (i & Ei & _). pose proof (Hshow i) as Hgi. rewrite Ei in Hgi. exact Hgi. }
  rewrite untrim_kh_layout, parse_layout_layout by assumption. cbn [obind]. rewrite Ht'.
  unfold read_seq. rewrite all_some_ints. rewrite !map_length, Nat.eqb_refl.
  rewrite combine_map_r. reflexivity.
Qed.
