(* C11 - Parallel pivot search always returns an acyclic (triangular) pivot set.
   Each theorem is proved by [exact <lemma>] and is followed by Print Assumptions; the Examples at the end
   instantiate the hypotheses on concrete values (non-vacuity).

   Model: Model/Pivot.v (mirror of yui-matrix/src/sparse/pivot.rs, yui/src/algo/top_sort.rs,
   yui-matrix/src/sparse/util.rs).  The parallel phase is a labelled transition system whose atomic
   steps are the code regions between two lock-delimited schedule points (start / enter / research);
   a schedule is an arbitrary list of events over an arbitrary number of threads, with an arbitrary
   assignment of the remaining rows to threads; [None] = a panic (assert!, unwrap) or exhausted fuel.
   [wf_str M] is what MatrixStr::new guarantees for a CSC matrix (rows listed with strictly increasing
   column indices, indices in range): [build_str_spec] in Proofs/C11Struct.v.
   The statements about result() / top_sort / perms_by_pivots ([find_pivots_correct], Proofs/C11Main.v) and
   about progress ([runs_bounded], [progress_bound], Proofs/C11Progress.v) are lemmas of the Proofs files and
   are not restated here. *)
From Coq Require Import ZArith List Bool Arith Relations.
Require Import Yui.Model.Pivot Yui.Proofs.C11Base Yui.Proofs.C11Seq Yui.Proofs.C11Worker Yui.Proofs.C11Safety.
Import ListNotations.

(* Safety: for every structure, thread count, row assignment and EVERY schedule the search is defined
   (no assert fails, no unwrap of None, the traverse fuel suffices) and the pivot table it reaches has
   pairwise distinct rows, pairwise distinct columns, only candidate entries (so every pivot satisfies
   the pivot condition), and an acyclic dependency graph (rank function; hence no cycle).  Since the
   schedule is an arbitrary list, this covers every reachable state of the transition system. *)
Theorem C11_safety : forall M nthr sched, wf_str M ->
  exists s, find_pivots_sched M nthr sched = Some s /\
    NoDup (map fst (g_log s)) /\ NoDup (map snd (g_log s)) /\
    (forall i j, In (i, j) (g_log s) ->
       i < m_rows M /\ j < m_cols M /\ In j (cols_in M i) /\ is_cand M i j = true) /\
    (exists rk : nat -> nat, forall j j', edge M (g_log s) j j' -> rk j < rk j') /\
    (forall j, ~ clos_trans nat (edge M (g_log s)) j j).
Proof. exact GInv_explicit. Qed.
Print Assumptions C11_safety.

(* the same for the full invariant (including what every worker knows about its snapshot) *)
Theorem C11_safety_invariant : forall M (Hwf : wf_str M) nthr sched,
  exists s, find_pivots_sched M nthr sched = Some s /\ GInv M s.
Proof. exact find_pivots_safe. Qed.
Print Assumptions C11_safety_invariant.

(* each kind of step preserves the invariant from ANY state satisfying it (inductiveness) *)
Theorem C11_step_inductive : forall M (Hwf : wf_str M) nthr s e, GInv M s ->
  exists s', step M nthr s e = Some s' /\ GInv M s'.
Proof. exact step_ok. Qed.
Print Assumptions C11_step_inductive.

(* Lemma add of DESIGN.md A.1: the reason a commit is safe *)
Theorem C11_lemma_add : forall M P i j (S : nat -> bool),
  acyclic M P -> ~ pcol P j ->
  (forall c, In c (cols_in M i) -> c <> j -> S c = true) ->
  (forall r c, In (r, c) P -> S c = true -> forall c', In c' (cols_in M r) -> S c' = true) ->
  S j = false ->
  acyclic M (P ++ [(i, j)]).
Proof. exact acyclic_add. Qed.
Print Assumptions C11_lemma_add.

(* non-vacuity: rows [2,0,1], [2,0,1], [0,1,1] over Z, condition One.  Phase 1 takes (2,1); rows 0 and 1
   both want column 2; thread 1 loses the race, retries and finds nothing. *)
Definition ex_e (nz pm u : bool) (w : Z) := mk_entry nz pm u w.
Definition ex_M : mstr :=
  build_str Rows COne 3 3
    [ (0, 0, ex_e true false false 2); (1, 0, ex_e true false false 2); (2, 1, ex_e true true true 1);
      (0, 2, ex_e true true true 1); (1, 2, ex_e true true true 1); (2, 2, ex_e true true true 1) ].
Definition ex_sched : list event := [EStart 1 1; EStart 0 0; EEnter 0; EEnter 1; EResearch 1].

Example C11_ex_wf : wf_str ex_M.
Proof.
  split; [reflexivity|]. split.
  - intros i j. destruct i as [|[|[|i]]].
    + vm_compute. intros [H|[H|[]]]; subst; repeat constructor.
    + vm_compute. intros [H|[H|[]]]; subst; repeat constructor.
    + vm_compute. intros [H|[H|[]]]; subst; repeat constructor.
    + replace (cols_in ex_M (S (S (S i)))) with (@nil nat); [intros []|]. destruct i; reflexivity.
  - intros i. destruct i as [|[|[|i]]].
    + vm_compute. repeat constructor.
    + vm_compute. repeat constructor.
    + vm_compute. repeat constructor.
    + replace (cols_in ex_M (S (S (S i)))) with (@nil nat); [constructor|]. destruct i; reflexivity.
Qed.

Example C11_ex_retry :
  option_map (fun s => t_pc (g_thr s 1)) (find_pivots_sched ex_M 2 (firstn 4 ex_sched)) = Some PRetrying /\
  option_map (fun s => t_pc (g_thr s 1)) (find_pivots_sched ex_M 2 (firstn 2 ex_sched)) = Some (PSearched 2) /\
  option_map g_log (find_pivots_sched ex_M 2 ex_sched) = Some [(2, 1); (0, 2)] /\
  option_map (terminal 2) (find_pivots_sched ex_M 2 ex_sched) = Some true.
Proof. vm_compute. repeat split. Qed.
