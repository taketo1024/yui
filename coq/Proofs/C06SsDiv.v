(* C06 (ss oracle) - the c-divisibility [div_c] of Model/KhSs.v:
   * [val_c c a] is the exact c-adic valuation of a non-zero integer (the fuel is sufficient);
   * [div_c c v = Some d]: c^d divides every entry and c^(d+1) does not; [None] iff v = 0;
   * the value is determined by that property, hence invariant under every integer change of
     coordinates that has an integer left inverse (unimodular change of basis). *)
From Coq Require Import List Arith Bool ZArith Lia.
Require Import Yui.Model.KhSs.
Import ListNotations.
Open Scope Z_scope.

Definition cpow (c : Z) (k : nat) : Z := c ^ Z.of_nat k.

Lemma cpow_0 c : cpow c 0 = 1.
Proof. reflexivity. Qed.
Lemma cpow_S c k : cpow c (S k) = c * cpow c k.
Proof. unfold cpow. rewrite Nat2Z.inj_succ, Z.pow_succ_r by lia. reflexivity. Qed.
Lemma cpow_nz c k : c <> 0 -> cpow c k <> 0.
Proof. intros Hc. unfold cpow. apply Z.pow_nonzero; lia. Qed.
Lemma cpow_le_divide c j k : (j <= k)%nat -> (cpow c j | cpow c k).
Proof.
  intros H. replace k with ((k - j) + j)%nat by lia. generalize (k - j)%nat as m.
  induction m as [|m IH]; [apply Z.divide_refl|].
  cbn [Nat.add]. rewrite cpow_S. now apply Z.divide_mul_r.
Qed.

Lemma val_fuel_spec c : 2 <= Z.abs c ->
  forall fuel a, a <> 0 -> Z.abs a < 2 ^ Z.of_nat fuel ->
  (cpow c (val_fuel fuel c a) | a) /\ ~ (cpow c (S (val_fuel fuel c a)) | a).
Proof.
  intros Hc. assert (Hc0 : c <> 0) by lia.
  induction fuel as [|f IH]; intros a Ha Hb.
  - cbn in Hb. lia.
  - cbn [val_fuel]. destruct (Z.rem a c =? 0) eqn:E.
    + apply Z.eqb_eq in E.
      pose proof (Z.quot_rem' a c) as Hq. rewrite E, Z.add_0_r in Hq.
      set (q := Z.quot a c) in *.
      assert (Hq0 : q <> 0) by (intros ->; lia).
      assert (Hqb : Z.abs q < 2 ^ Z.of_nat f).
      { rewrite Nat2Z.inj_succ, Z.pow_succ_r in Hb by lia.
        rewrite Hq, Z.abs_mul in Hb. nia. }
      destruct (IH q Hq0 Hqb) as [H1 H2]. split.
      * rewrite cpow_S, Hq. now apply Z.mul_divide_mono_l.
      * intros H. apply H2. rewrite cpow_S in H. rewrite Hq in H.
        now apply Z.mul_divide_cancel_l in H.
    + apply Z.eqb_neq in E. split.
      * rewrite cpow_0. apply Z.divide_1_l.
      * rewrite cpow_S, cpow_0, Z.mul_1_r. intros H. apply E. now apply Z.rem_divide.
Qed.

Lemma val_c_spec c a : 2 <= Z.abs c -> a <> 0 ->
  (cpow c (val_c c a) | a) /\ ~ (cpow c (S (val_c c a)) | a).
Proof.
  intros Hc Ha. unfold val_c. apply val_fuel_spec; [assumption|assumption|].
  rewrite Nat2Z.inj_succ, Z2Nat.id by apply Z.log2_nonneg.
  apply Z.log2_spec. lia.
Qed.

Definition divides_all (m : Z) (v : list Z) : Prop := Forall (fun a => (m | a)) v.
Definition is_zero_vec (v : list Z) : Prop := Forall (fun a => a = 0) v.

Lemma div_c_none c v : div_c c v = None <-> is_zero_vec v.
Proof.
  induction v as [|a r IH]; cbn [div_c].
  - split; [constructor|reflexivity].
  - destruct (a =? 0) eqn:E.
    + apply Z.eqb_eq in E. rewrite IH. split.
      * intros H. now constructor.
      * intros H. now inversion H.
    + apply Z.eqb_neq in E. split.
      * destruct (div_c c r); discriminate.
      * intros H. inversion H. contradiction.
Qed.

Lemma is_zero_divides_0 v : is_zero_vec v <-> divides_all 0 v.
Proof.
  unfold is_zero_vec, divides_all. rewrite !Forall_forall. split; intros H a Ha.
  - rewrite (H a Ha). apply Z.divide_0_r.
  - now apply Z.divide_0_l, H.
Qed.

Lemma divides_all_zero m v : is_zero_vec v -> divides_all m v.
Proof. intros H. induction H as [|a r Ha _ IH]; constructor; [subst; apply Z.divide_0_r|exact IH]. Qed.

Lemma divides_all_le c j k v : (j <= k)%nat -> divides_all (cpow c k) v -> divides_all (cpow c j) v.
Proof.
  intros Hjk H. unfold divides_all in *. rewrite Forall_forall in *. intros a Ha.
  eapply Z.divide_trans; [apply (cpow_le_divide c j k Hjk)|now apply H].
Qed.

Theorem div_c_some c v d : 2 <= Z.abs c -> div_c c v = Some d ->
  divides_all (cpow c d) v /\ ~ divides_all (cpow c (S d)) v.
Proof.
  intros Hc. revert d. induction v as [|a r IH]; intros d H; cbn [div_c] in H; [discriminate|].
  destruct (a =? 0) eqn:E.
  - apply Z.eqb_eq in E. subst a. destruct (IH d H) as [H1 H2]. split.
    + constructor; [apply Z.divide_0_r|exact H1].
    + intros H3. inversion H3. contradiction.
  - apply Z.eqb_neq in E. destruct (val_c_spec c a Hc E) as [V1 V2].
    destruct (div_c c r) as [m|] eqn:Er.
    + injection H as <-. destruct (IH m eq_refl) as [H1 H2].
      destruct (Nat.min_spec (val_c c a) m) as [[Hlt ->]|[Hle ->]].
      * split.
        -- constructor; [exact V1|]. apply (divides_all_le c _ m); [lia|exact H1].
        -- intros H3. inversion H3. contradiction.
      * split.
        -- constructor; [|exact H1]. eapply Z.divide_trans; [apply (cpow_le_divide c m (val_c c a)); lia|exact V1].
        -- intros H3. inversion H3. contradiction.
    + injection H as <-. apply div_c_none in Er. split.
      * constructor; [exact V1|now apply divides_all_zero].
      * intros H3. inversion H3. contradiction.
Qed.

(* the value is determined by the divisibility property *)
Theorem div_c_unique c v d d' :
  divides_all (cpow c d) v -> ~ divides_all (cpow c (S d)) v ->
  divides_all (cpow c d') v -> ~ divides_all (cpow c (S d')) v -> d = d'.
Proof.
  intros H1 H2 H3 H4. destruct (lt_eq_lt_dec d d') as [[Hlt|Heq]|Hgt]; [|exact Heq|].
  - exfalso. apply H2. apply (divides_all_le c _ d'); [lia|exact H3].
  - exfalso. apply H4. apply (divides_all_le c _ d); [lia|exact H1].
Qed.

Corollary div_c_characterised c v d : 2 <= Z.abs c ->
  (div_c c v = Some d <-> (~ is_zero_vec v /\ divides_all (cpow c d) v /\ ~ divides_all (cpow c (S d)) v)).
Proof.
  intros Hc. split.
  - intros H. destruct (div_c_some c v d Hc H) as [H1 H2]. split; [|split; assumption].
    intros Hz. apply div_c_none with (c := c) in Hz. congruence.
  - intros [Hz [H1 H2]]. destruct (div_c c v) as [d'|] eqn:E.
    + destruct (div_c_some c v d' Hc E) as [H3 H4]. f_equal. exact (div_c_unique c v d' d H3 H4 H1 H2).
    + exfalso. apply Hz. now apply div_c_none in E.
Qed.

Fixpoint dot (r v : list Z) : Z :=
  match r, v with
  | x :: r', y :: v' => x * y + dot r' v'
  | _, _ => 0
  end.
Definition mv (U : list (list Z)) (v : list Z) : list Z := map (fun r => dot r v) U.

Lemma dot_divides m r v : divides_all m v -> (m | dot r v).
Proof.
  intros H. revert r. induction H as [|a v Ha _ IH]; intros r.
  - destruct r; apply Z.divide_0_r.
  - destruct r as [|x r]; [apply Z.divide_0_r|]. cbn [dot].
    apply Z.divide_add_r; [now apply Z.divide_mul_r|apply IH].
Qed.

Lemma mv_divides m U v : divides_all m v -> divides_all m (mv U v).
Proof.
  intros H. unfold divides_all, mv. rewrite Forall_forall. intros a Ha.
  apply in_map_iff in Ha. destruct Ha as [r [<- _]]. now apply dot_divides.
Qed.

Lemma mv_zero U v : is_zero_vec v -> is_zero_vec (mv U v).
Proof. rewrite !is_zero_divides_0. apply mv_divides. Qed.

(* one direction: an integer matrix can only increase the divisibility *)
Lemma div_c_mv_le c U v d d' : 2 <= Z.abs c ->
  div_c c v = Some d -> div_c c (mv U v) = Some d' -> (d <= d')%nat.
Proof.
  intros Hc H1 H2. destruct (div_c_some c v d Hc H1) as [A1 _].
  destruct (div_c_some c _ d' Hc H2) as [_ B2].
  destruct (le_lt_dec d d') as [Hle|Hlt]; [exact Hle|].
  exfalso. apply B2. apply (divides_all_le c _ d); [lia|]. now apply mv_divides.
Qed.

(* [U] with an integer left inverse [V] on v (in particular: U unimodular, V = U^-1) *)
Theorem div_c_unimodular c U V v : 2 <= Z.abs c ->
  mv V (mv U v) = v -> div_c c (mv U v) = div_c c v.
Proof.
  intros Hc HV.
  destruct (div_c c v) as [d|] eqn:E1.
  - destruct (div_c c (mv U v)) as [d'|] eqn:E2.
    + f_equal. apply Nat.le_antisymm.
      * apply (div_c_mv_le c V (mv U v) d' d Hc E2). now rewrite HV.
      * exact (div_c_mv_le c U v d d' Hc E1 E2).
    + exfalso. apply div_c_none in E2. apply (mv_zero V) in E2. rewrite HV in E2.
      apply (div_c_none c) in E2. congruence.
  - apply div_c_none. apply mv_zero. now apply div_c_none in E1.
Qed.
