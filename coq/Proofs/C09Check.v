(* C09 - soundness of the certificate checker of Model/Snf.v (chk_pq, chk_inv, chk_shape): when the
   boolean functions answer true on (A, D, P, Pinv, Q, Qinv), the clauses of the property hold for these
   matrices.  The checker is run on the implementation's own output; this validates individual
   outputs and is no statement about all inputs. *)
From Coq Require Import ZArith List Bool Arith Lia Ring.
Require Import Yui.Base.Ring Yui.Base.MatF Yui.Base.MatL Yui.Model.Snf Yui.Proofs.C09Mat Yui.Proofs.C09Inv
  Yui.Proofs.C09Run Yui.Proofs.C09Exit Yui.Proofs.C09Diag.
Import ListNotations.

Section Check.
  Context {R : Type} (D : euc_dict R) (SL : snf_laws D).
  Let o := ed_ring D.
  Let L : ring_laws o := sl_ring D SL.
  Local Notation get := (lget o).

  Lemma is_id_b_sound n (X : lmat R) : is_id_b D n X = true -> meq n n (get X) (mid o).
  Proof.
    unfold is_id_b. intros H. apply (leqb_meq o L) in H.
    intros i j Hi Hj. rewrite (H i j Hi Hj). now apply lget_lid.
  Qed.

  Theorem chk_pq_sound m n (A T P Q : lmat R) :
    chk_pq D m n A T P Q = true ->
    wf m n T /\ wf m m P /\ wf n n Q /\
    meq m n (get T) (mmul o m (get P) (mmul o n (get A) (get Q))).
  Proof.
    unfold chk_pq. rewrite !andb_true_iff, !wfb_wf. intros [[[W1 W2] W3] H].
    split; [exact W1|]. split; [exact W2|]. split; [exact W3|].
    apply (leqb_meq o L) in H. intros i j Hi Hj. rewrite (H i j Hi Hj).
    rewrite lget_lmul by assumption.
    rewrite <- (mmul_assoc o L).
    unfold mmul at 1 3. apply sum_ext. intros k Hk. f_equal. now apply lget_lmul.
  Qed.

  Theorem chk_inv_sound n (X Xi : lmat R) :
    chk_inv D n X Xi = true ->
    wf n n X /\ wf n n Xi /\
    meq n n (mmul o n (get X) (get Xi)) (mid o) /\ meq n n (mmul o n (get Xi) (get X)) (mid o).
  Proof.
    unfold chk_inv. rewrite !andb_true_iff, !wfb_wf. intros [[[W1 W2] H1] H2].
    split; [exact W1|]. split; [exact W2|]. split.
    - intros i j Hi Hj. rewrite <- (is_id_b_sound n _ H1 i j Hi Hj). symmetry. now apply lget_lmul.
    - intros i j Hi Hj. rewrite <- (is_id_b_sound n _ H2 i j Hi Hj). symmetry. now apply lget_lmul.
  Qed.

  Theorem chk_shape_sound m n (T : lmat R) :
    chk_shape D m n T = true ->
    let r := diag_rank D m n T in
    wf m n T /\ r <= Nat.min m n /\
    (forall k l, k < m -> l < n -> k <> l -> get T k l = rzero o) /\
    (forall k, k < r -> get T k k <> rzero o) /\
    (forall k, r <= k -> k < Nat.min m n -> get T k k = rzero o) /\
    (forall k, k < r -> rnunit (ed_unit D) (get T k k) = rone o) /\
    (forall k, S k < r -> exists q, get T (S k) (S k) = rmul o q (get T k k)).
  Proof.
    unfold chk_shape, chk_diag, chk_rank, chk_normal, chk_chain.
    rewrite !andb_true_iff, wfb_wf. intros [[[[W H1] H2] H3] H4]. cbv zeta.
    pose proof (diag_rank_le D m n T) as Hr.
    split; [exact W|]. split; [exact Hr|]. split; [|split; [|split; [|split]]].
    - intros k l Hk Hl Hne. rewrite forallb_forall in H1. specialize (H1 k ltac:(apply in_seq; lia)).
      rewrite forallb_forall in H1. specialize (H1 l ltac:(apply in_seq; lia)).
      apply orb_true_iff in H1. destruct H1 as [E|E]; [apply Nat.eqb_eq in E; contradiction|].
      now apply (ris_zero_true o L).
    - (* below the first zero of the diagonal every entry is non-zero *)
      assert (G : forall len a, forall k, a <= k -> k < first_zero_diag D T (seq a len) (Nat.min m n) ->
                  k < a + len -> get T k k <> rzero o).
      { induction len as [|len IH]; intros a k Ha Hk Hl; [lia|]. cbn [seq first_zero_diag] in Hk.
        destruct (ris_zero (ed_ring D) (mget D T a a)) eqn:Z; [lia|].
        destruct (Nat.eq_dec k a) as [->|Hne].
        - now apply (ris_zero_false o L) in Z.
        - apply (IH (S a)); [lia|exact Hk|lia]. }
      intros k Hk. apply (G (Nat.min m n) 0 k); [lia|exact Hk|lia].
    - intros k Hk1 Hk2. rewrite forallb_forall in H2.
      specialize (H2 k ltac:(apply in_seq; lia)). now apply (ris_zero_true o L).
    - intros k Hk. rewrite forallb_forall in H3. specialize (H3 k ltac:(apply in_seq; lia)).
      now apply (ris_one_true o L).
    - intros k Hk. rewrite forallb_forall in H4. specialize (H4 k ltac:(apply in_seq; lia)).
      destruct (divides_true D SL _ _ H4) as [_ [q Hq]]. now exists q.
  Qed.
End Check.
