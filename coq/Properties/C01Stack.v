(* C01 (part): VERTICAL composition of cobordisms in the v2 engine, yui-khovanov/src/kh/internal/v2/cob.rs:
     Cob::stack (take_stackable_comps, stack_comps), `impl Mul for Cob`, Cob::id, Cob::inv, Cob::src / tgt, cap_off,
     part_eval and the linear combinations LcCob
   Model: Model/TngStack.v (mirror; list for Vec / VecDeque, None for a panic) on top of Model/Tng.v, Model/TngCob.v;
   proofs: Proofs/TngPStack*.v.  The correspondence run (harness/src/bin/c01tng.rs, case kind `sk`) compares the model
   with the real code on the RAW normalised representation after every stack / cap_off / product.

   Reading of the statements
   * [cob_stack a b] = `a.stack(b)`: a is the bottom, b the top; [cob_mul x y] = `x * y` = y.stack(x);
   * [flat csrc a] / [flat ctgt a]: the source / target tangles of the components of a, side by side;
   * [stack_wf a b] (a record): the source tangles of a are simple and pairwise disjoint, so are the target tangles of a
     and the source tangles of b (the two descriptions of the middle tangle), and every component of one description
     of the middle tangle is == (TngComp's unoriented equality, in the argument order the code uses) to a component of
     the other one.  This is what the engine's composable morphisms satisfy; NOTHING is assumed about the raw
     orientation of the middle components, about genus, dots or the order of the components;
   * [oadd] adds two optional integers (None = nbdr_comps panics on some component);
   * "whenever it returns": the only panics left inside Cob::stack are those of stack_comps (nbdr_comps of a component,
     the asserts g >= 0 and g even, whose validity is the topological correctness of nbdr_comps - not formalised). *)
From Coq Require Import List Arith Bool ZArith Permutation Sorted Lia.
Import ListNotations.
Require Import Yui.Model.Link Yui.Model.Tng Yui.Model.TngCob Yui.Model.TngStack.
Require Import Yui.Proofs.TngPBase Yui.Proofs.TngPSegs Yui.Proofs.TngPDeg Yui.Proofs.TngPStep Yui.Proofs.TngPSeq
  Yui.Proofs.TngPConn Yui.Proofs.TngPCob Yui.Proofs.TngPCobDeg
  Yui.Proofs.TngPStackBase Yui.Proofs.TngPStackBfs Yui.Proofs.TngPStackWf Yui.Proofs.TngPStackDeg
  Yui.Proofs.TngPStackAssoc Yui.Proofs.TngPStackId Yui.Proofs.TngPStackIdL Yui.Proofs.TngPStackIdR
  Yui.Proofs.TngPStackInv Yui.Proofs.TngPStackSort Yui.Proofs.TngPStackLc.

(* 1. for ALL inputs: termination, and where Cob::stack can panic *)

(* the loops of take_stackable_comps and of Cob::stack terminate (the model's fuel is never the reason for None) *)
Theorem C01_stack_terminates : forall a b, cob_stack_fuel a b <> None.
Proof. exact cob_stack_fuel_sufficient. Qed.
Print Assumptions C01_stack_terminates.

Theorem C01_stack_take_stackable_returns : forall bot top, take_stackable bot top <> None.
Proof. exact take_stackable_some. Qed.
Print Assumptions C01_stack_take_stackable_returns.

(* take_stackable_comps only moves components: the group and the remaining pools are a rearrangement of the pools;
   the group starts with the first bottom component (the first top component when the bottom pool is empty) *)
Theorem C01_stack_take_stackable_partition : forall bot top bot' top' gb gt,
  take_stackable bot top = Some (bot', top', gb, gt) ->
  Permutation bot (bot' ++ gb) /\ Permutation top (top' ++ gt) /\
  (bot <> [] \/ top <> [] -> gb <> [] \/ gt <> []) /\
  (forall b r, bot = b :: r -> exists more, gb = b :: more) /\
  (bot = [] -> gb = [] /\ forall t r, top = t :: r -> exists more, gt = t :: more).
Proof. exact take_stackable_perm. Qed.
Print Assumptions C01_stack_take_stackable_partition.

(* the `assert_eq!(b.len(), 1)` / `assert_eq!(t.len(), 1)` of Cob::stack never fire: a group without top components
   is the first bottom component alone, a group without bottom components is the first top component alone *)
Theorem C01_stack_length_asserts_never_fire : forall bot top bot' top' g,
  (take_stackable bot top = Some (bot', top', g, []) ->
     (bot = [] /\ top = [] /\ g = []) \/ exists b r, bot = b :: r /\ g = [b]) /\
  (take_stackable bot top = Some (bot', top', [], g) ->
     bot = [] /\ (top = [] /\ g = [] \/ exists t r, top = t :: r /\ g = [t])).
Proof. intros. split; [apply take_stackable_no_top|apply take_stackable_no_bot]. Qed.
Print Assumptions C01_stack_length_asserts_never_fire.

(* hence Cob::stack panics only inside stack_comps, called on two non-empty halves of a group *)
Theorem C01_stack_panics_only_in_stack_comps : forall fuel bot top acc, stack_loop fuel bot top acc = Some None ->
  exists gb gt, gb <> [] /\ gt <> [] /\ stack_comps gb gt = None.
Proof. exact stack_loop_panics_in_stack_comps. Qed.
Print Assumptions C01_stack_panics_only_in_stack_comps.

(* the empty cobordism is a two-sided unit, literally *)
Theorem C01_stack_empty : forall a, cob_stack [] a = Some a /\ cob_stack a [] = Some a.
Proof. intros a. split; [reflexivity|]. destruct a; reflexivity. Qed.
Print Assumptions C01_stack_empty.

(* stack_comps, whenever it returns: the genus formula makes  chi(S) = chi(bottom half) + chi(top half) - #(middle arcs
   of the bottom half), the dots are added, the tangles are the connected sources of the bottom half and the connected
   targets of the top half *)
Theorem C01_stack_comps_euler_partial : forall bs ts c, stack_comps bs ts = Some c ->
  bs <> [] /\ ts <> [] /\
  exists x0 x1, sum_opt (map cc_euler bs) = Some x0 /\ sum_opt (map cc_euler ts) = Some x1 /\
    cc_euler c = Some (x0 + x1 - Z.of_nat (sum_nat (map (fun b => tng_euler_num (ctgt b)) bs)))%Z /\
    tng_fold_connect (map csrc bs) = Some (csrc c) /\ tng_fold_connect (map ctgt ts) = Some (ctgt c) /\
    cdx c = sum_nat (map cdx bs) + sum_nat (map cdx ts) /\ cdy c = sum_nat (map cdy bs) + sum_nat (map cdy ts).
Proof. exact stack_comps_spec. Qed.
Print Assumptions C01_stack_comps_euler_partial.

(* 2. what the search computes on well-formed pairs *)

(* TngComp's == implies equal kind and equal label sets *)
Theorem C01_tng_comp_eq_sound : forall p q, NoDup (pedges p) -> unori_eq p q = true -> same_comp p q.
Proof. exact unori_eq_sound. Qed.
Print Assumptions C01_tng_comp_eq_sound.

(* Tng::connect of tangles without common labels never glues: the sorted concatenation *)
Theorem C01_tng_connect_disjoint : forall t o, tng_inv (t ++ o) ->
  exists t', tng_connect t o = Some t' /\ Permutation t' (t ++ o) /\ tng_sorted t'.
Proof. exact tng_connect_disjoint. Qed.
Print Assumptions C01_tng_connect_disjoint.

(* the group collected by take_stackable_comps is closed: no component left in the pools contains a middle component
   of the group *)
Theorem C01_stack_group_closed : forall bot top bot' top' gb gt,
  tng_inv (flat ctgt bot) -> tng_inv (flat csrc top) ->
  take_stackable bot top = Some (bot', top', gb, gt) ->
  (forall b m t, In b gb -> In m (ctgt b) -> In t top' -> tng_contains (csrc t) m = false) /\
  (forall t m b, In t gt -> In m (csrc t) -> In b bot' -> tng_contains (ctgt b) m = false).
Proof. exact take_stackable_closed. Qed.
Print Assumptions C01_stack_group_closed.

(* ... and every member of the group is linked to the first one: two predicates closed under `contains` and true of
   the first component are true of the whole group *)
Theorem C01_stack_group_connected : forall (Pb Pt : cobcomp -> Prop) bot top bot' top' gb gt,
  take_stackable bot top = Some (bot', top', gb, gt) ->
  (forall b t m, Pb b -> In t top -> In m (ctgt b) -> tng_contains (csrc t) m = true -> Pt t) ->
  (forall t b m, Pt t -> In b bot -> In m (csrc t) -> tng_contains (ctgt b) m = true -> Pb b) ->
  (forall b r, bot = b :: r -> Pb b) -> (forall t r, bot = [] -> top = t :: r -> Pt t) ->
  Forall Pb gb /\ Forall Pt gt.
Proof. exact take_stackable_sound. Qed.
Print Assumptions C01_stack_group_connected.

(* the two halves of a group have the same number of middle arcs, and the remaining pools are well formed again *)
Theorem C01_stack_group_balanced : forall a b bot' top' gb gt, stack_wf a b ->
  take_stackable a b = Some (bot', top', gb, gt) ->
  tng_euler_num (flat ctgt gb) = tng_euler_num (flat csrc gt) /\ stack_wf bot' top'.
Proof.
  intros a b bot' top' gb gt W E. destruct (take_stackable_wf _ _ _ _ _ _ W E) as (Pa & Pb & Cl & W').
  split; [exact (group_arcs_balanced a b bot' top' gb gt W Pa Pb Cl)|exact W'].
Qed.
Print Assumptions C01_stack_group_balanced.

(* 3. degree, Euler number, dots, source and target tangles of a.stack(b) *)

(* FULL statement: for every well-formed pair Cob::stack returns and deg is additive.  Proved: additivity whenever it
   returns (the proviso is needed for the asserts of stack_comps only, see the header) *)
Theorem C01_stack_deg_additive_partial : forall a b c, stack_wf a b -> cob_stack a b = Some c ->
  cob_deg c = oadd (cob_deg a) (cob_deg b) /\
  cob_euler c = omap_sub (tng_euler_num (flat ctgt a)) (oadd (cob_euler a) (cob_euler b)) /\
  Permutation (flat csrc c) (flat csrc a).
Proof. exact cob_stack_deg. Qed.
Print Assumptions C01_stack_deg_additive_partial.

Theorem C01_stack_tgt_dots_partial : forall a b c, stack_wf a b -> tng_inv (flat ctgt b) -> cob_stack a b = Some c ->
  Permutation (flat ctgt c) (flat ctgt b) /\ dots_of c = dots_of a + dots_of b.
Proof. exact cob_stack_tgt. Qed.
Print Assumptions C01_stack_tgt_dots_partial.

(* the result can be stacked again: well-formedness is preserved on both sides *)
Theorem C01_stack_wf_preserved : forall a b c,  stack_wf a b -> stack_wf b c ->
  (forall ab, cob_stack a b = Some ab -> stack_wf ab c) /\ (forall bc, cob_stack b c = Some bc -> stack_wf a bc).
Proof.
  intros a b c W1 W2.
  split; [intros ab E; exact (wf_stack_l a b c ab W1 W2 E)|intros bc E; exact (wf_stack_r a b c bc W1 W2 E)].
Qed.
Print Assumptions C01_stack_wf_preserved.

(* associativity on the numeric data (degree, Euler number, number of dots, source and target tangles).
   FULL statement: (a.stack(b)).stack(c) == a.stack(b.stack(c)) as cobordisms (also the distribution of genus and dots
   over the components) - validated by the correspondence run (op AS), not proved *)
Theorem C01_stack_assoc_numeric_partial : forall a b c ab bc l r,
  stack_wf a b -> stack_wf b c -> tng_inv (flat ctgt c) ->
  cob_stack a b = Some ab -> cob_stack b c = Some bc -> cob_stack ab c = Some l -> cob_stack a bc = Some r ->
  cob_deg l = cob_deg r /\ cob_euler l = cob_euler r /\ dots_of l = dots_of r /\
  Permutation (flat csrc l) (flat csrc r) /\ Permutation (flat ctgt l) (flat ctgt r) /\
  cob_deg l = oadd (cob_deg a) (oadd (cob_deg b) (cob_deg c)).
Proof. exact cob_stack_assoc_numeric. Qed.
Print Assumptions C01_stack_assoc_numeric_partial.

(* 4. the normal form of a Cob, identity and inverse *)

(* the derived Ord of CobComp is a total preorder: antisymmetric up to CompOpp, Eq is a congruence, Lt is transitive *)
Theorem C01_cob_comp_order : cmp_ok cc_cmp.
Proof. exact cc_cmp_ok. Qed.
Print Assumptions C01_cob_comp_order.

(* Vec::sort of a Cob sorts; when the source tangles and the target tangles of the components are pairwise disjoint the
   sorted Vec is determined by the multiset of the components *)
Theorem C01_cob_normal_form_unique : forall a c, tng_inv (flat csrc a) -> tng_inv (flat ctgt a) ->
  cob_sorted a -> cob_sorted c -> Permutation c a -> c = a.
Proof. exact cob_normal_form_unique. Qed.
Print Assumptions C01_cob_normal_form_unique.

Theorem C01_cob_sort_sorts : forall cs c, cob_sort cs = Some c -> cob_sorted c /\ Permutation c cs.
Proof.
  intros cs c E. split; [|apply cob_sort_perm; exact E]. unfold cob_sort in E. destruct (_ && _); [discriminate|].
  inversion E. apply cc_isort_sorted.
Qed.
Print Assumptions C01_cob_sort_sorts.

(* [cob_okl a]: the source tangles of a are pairwise disjoint, every component has normalised source and target tangles
   (simple disjoint components, sorted) and nbdr_comps returns on it.  Then NO PANIC and
   Cob::id(&a.src()).stack(a) == a, as an equality of the normalised representation (unit test `stack_id`) *)
Theorem C01_stack_id_left : forall a, cob_okl a -> tng_inv (flat ctgt a) -> cob_sorted a ->
  exists S ids, cob_src a = Some S /\ cob_id S = Some ids /\ cob_stack ids a = Some a.
Proof. exact cob_stack_id_l_eq. Qed.
Print Assumptions C01_stack_id_left.

Theorem C01_stack_id_right : forall a, cob_okr a -> cob_sorted a ->
  exists T ids, cob_tgt a = Some T /\ cob_id T = Some ids /\ cob_stack a ids = Some a.
Proof. exact cob_stack_id_r_eq. Qed.
Print Assumptions C01_stack_id_right.

(* without the hypothesis that a is sorted: the same components, in the sorted order *)
Theorem C01_stack_id_left_components : forall a, cob_okl a ->
  exists S ids c, cob_src a = Some S /\ cob_id S = Some ids /\ cob_stack ids a = Some c /\ Permutation c a.
Proof. exact cob_stack_id_l. Qed.
Print Assumptions C01_stack_id_left_components.

Theorem C01_stack_id_right_components : forall a, cob_okr a ->
  exists T ids c, cob_tgt a = Some T /\ cob_id T = Some ids /\ cob_stack a ids = Some c /\ Permutation c a.
Proof. exact cob_stack_id_r. Qed.
Print Assumptions C01_stack_id_right_components.

(* is_invertible together with `nbdr_comps returns` means: cylinders between components of the same kind whose arcs
   share their end points *)
Theorem C01_cob_invertible_is_cylinder : forall x, cc_is_invertible x = true -> cc_nbdr x <> None -> cyl_ok x.
Proof. exact invertible_cyl_ok. Qed.
Print Assumptions C01_cob_invertible_is_cylinder.

(* an invertible cobordism with pairwise disjoint source tangles and pairwise disjoint target tangles: NO PANIC,
   c.stack(c.inv()) == id(c.src()) and c.inv().stack(c) == id(c.tgt()), as equalities of the normalised representation *)
Theorem C01_stack_inverse : forall c, cob_inv_ok c ->
  exists ic S T ids idt,
    cob_inv c = Some (Some ic) /\ cob_src c = Some S /\ cob_id S = Some ids /\ cob_tgt c = Some T /\ cob_id T = Some idt /\
    cob_stack c ic = Some ids /\ cob_stack ic c = Some idt.
Proof. exact cob_stack_inv_eq. Qed.
Print Assumptions C01_stack_inverse.

(* 5. linear combinations (LcCob with integer coefficients) *)

(* every term of a product f * g is the product x * y = y.stack(x) of a term of f and a term of g *)
Theorem C01_lccob_mul_support : forall a b r, lc_mul a b = Some r ->
  forall k v, In (k, v) r -> exists x y, In x (map fst a) /\ In y (map fst b) /\ cob_mul x y = Some k.
Proof. exact lc_mul_support. Qed.
Print Assumptions C01_lccob_mul_support.

(* hence the product of homogeneous combinations is homogeneous, of the sum of the degrees *)
Theorem C01_lccob_mul_homogeneous_partial : forall a b r da db, lc_mul a b = Some r ->
  (forall x, In x (map fst a) -> cob_deg x = Some da) -> (forall y, In y (map fst b) -> cob_deg y = Some db) ->
  (forall x y, In x (map fst a) -> In y (map fst b) -> stack_wf y x) ->
  forall k v, In (k, v) r -> cob_deg k = Some (da + db)%Z.
Proof. exact lc_mul_homogeneous. Qed.
Print Assumptions C01_lccob_mul_homogeneous_partial.

(* CobComp::part_eval on a closed component is the scalar of the closed-cobordism evaluation of Model/CobEval.v (C05)
   times the empty cobordism *)
Theorem C01_lccob_part_eval_closed : forall h t g x y,
  cc_part_eval h t (mkCC [] [] g x y) = lcz (Yui.Model.CobEval.eval_closed g x y h t).
Proof. exact cc_part_eval_closed. Qed.
Print Assumptions C01_lccob_part_eval_closed.

(* 6. examples (non-vacuity): the unit tests of cob.rs *)
Definition c0 := mkP [0] true.  Definition c1 := mkP [1] true.  Definition c2 := mkP [2] true.  Definition c3 := mkP [3] true.
Definition l_cup : cob := [cc_plain [] [c0] 0].
Definition l_split : cob := [cc_plain [c0] [c1; c2] 0].
Definition l_merge : cob := [cc_plain [c1; c2] [c3] 0].
Definition l_cap : cob := [cc_plain [c3] [] 0].

(* stack_torus: cup, split, merge, cap: a closed component of genus 1 *)
Example C01_stack_example_torus :
  cob_stack l_cup l_split = Some [cc_plain [] [c1; c2] 0] /\
  cob_stack [cc_plain [] [c1; c2] 0] l_merge = Some [cc_plain [] [c3] 1] /\
  cob_stack [cc_plain [] [c3] 1] l_cap = Some [cc_closed 1] /\
  cob_stack l_split l_merge = Some [cc_plain [c0] [c3] 1] /\
  cob_deg l_split = Some (-1)%Z /\ cob_deg l_merge = Some (-1)%Z /\ cob_deg [cc_plain [c0] [c3] 1] = Some (-2)%Z.
Proof. repeat split; reflexivity. Qed.

(* concrete tangles: simple components, pairwise disjoint *)
Ltac nodup_tac := repeat (constructor; [cbn; intuition (try discriminate; try lia)|]); constructor.
Ltac simple_tac := split; [nodup_tac|cbn; first [discriminate|lia]].
Ltac inv_tac := split; [repeat (constructor; [simple_tac|]); constructor|cbn; nodup_tac].

(* the hypotheses of the degree theorem hold for split followed by merge *)
Example C01_stack_example_wf : stack_wf l_split l_merge.
Proof.
  constructor.
  - inv_tac.
  - inv_tac.
  - inv_tac.
  - intros m Hm. exists m. split; [exact Hm|apply unori_eq_refl].
  - intros m Hm. exists m. split; [exact Hm|apply unori_eq_refl].
Qed.

(* stack_cup_cap, stack_cap_cup, stack_closed, stack_comps *)
Example C01_stack_example_unit_tests :
  cob_stack [cc_plain [] [c0] 0] [cc_plain [c0] [] 0] = Some [cc_closed 0] /\
  cob_stack [cc_plain [c0] [] 0] [cc_plain [] [c0] 0] = Some [cc_plain [] [c0] 0; cc_plain [c0] [] 0] /\
  cob_stack [cc_closed 0] [cc_closed 1] = Some [cc_closed 0; cc_closed 1] /\
  cob_stack [cc_plain [] [c2] 0; cc_id (mkP [0; 1] false)] [cc_id (mkP [0; 1] false); cc_plain [c2] [] 0]
    = Some [cc_closed 0; cc_id (mkP [0; 1] false)].
Proof. repeat split; reflexivity. Qed.

(* stack_id: the saddle of the crossing [0,1,2,3], a cup and a cap; and `inv`: a cylinder between two circles *)
Definition ex_sdl : cob :=
  [cc_plain [] [mkP [4] true] 0;
   cc_plain [mkP [0; 1] false; mkP [2; 3] false] [mkP [0; 3] false; mkP [1; 2] false] 0;
   cc_plain [mkP [5] true] [] 0].
Example C01_stack_example_id :
  cob_src ex_sdl = Some [mkP [0; 1] false; mkP [2; 3] false; mkP [5] true] /\
  cob_id [mkP [0; 1] false; mkP [2; 3] false; mkP [5] true]
    = Some [cc_id (mkP [0; 1] false); cc_id (mkP [2; 3] false); cc_id (mkP [5] true)] /\
  cob_stack [cc_id (mkP [0; 1] false); cc_id (mkP [2; 3] false); cc_id (mkP [5] true)] ex_sdl = Some ex_sdl /\
  cob_tgt ex_sdl = Some [mkP [0; 3] false; mkP [1; 2] false; mkP [4] true] /\
  cob_stack ex_sdl [cc_id (mkP [0; 3] false); cc_id (mkP [1; 2] false); cc_id (mkP [4] true)] = Some ex_sdl.
Proof. repeat split; reflexivity. Qed.

Definition ex_cyl : cob := [cc_id (mkP [0; 1] false); cc_plain [c2] [c3] 0].
Example C01_stack_example_inverse :
  cob_inv ex_cyl = Some (Some [cc_id (mkP [0; 1] false); cc_plain [c3] [c2] 0]) /\
  cob_stack ex_cyl [cc_id (mkP [0; 1] false); cc_plain [c3] [c2] 0] = Some [cc_id (mkP [0; 1] false); cc_id c2] /\
  cob_stack [cc_id (mkP [0; 1] false); cc_plain [c3] [c2] 0] ex_cyl = Some [cc_id (mkP [0; 1] false); cc_id c3] /\
  cob_inv_ok ex_cyl.
Proof.
  split; [reflexivity|]. split; [reflexivity|]. split; [reflexivity|].
  split; [inv_tac|]. split; [inv_tac|].
  constructor; [|constructor; [|constructor]].
  - exists (mkP [0; 1] false), (mkP [0; 1] false). split; [reflexivity|]. split; [reflexivity|]. intros _. reflexivity.
  - exists c2, c3. split; [reflexivity|]. split; [reflexivity|]. discriminate.
Qed.

(* the linear combination of the unit test `part_eval`: -2 X.id + X^2.id evaluates to 0 at (h, t) = (2, 0) *)
Example C01_lccob_example_part_eval :
  lc_part_eval 2 0 (lc_from_list [([mkCC [c1] [c1] 0 1 0], (-2)%Z); ([mkCC [c1] [c1] 0 2 0], 1%Z)]) = Some [].
Proof. reflexivity. Qed.
