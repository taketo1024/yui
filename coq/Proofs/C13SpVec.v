(* C13, sparse vectors (SpVec = a sparse matrix with exactly one column), column extraction and
   construction from columns or dense data (util::perm_for_indices, to_dense and stack_vecs are in C13Extra.v).
   [sv_is v d f]: v is a well-formed vector of dimension d whose entry i is f i for i < d. *)
From Coq Require Import Arith List Lia Bool Ring Sorted.
Require Import Yui.Base.Ring Yui.Base.MatF Yui.Base.MatL Yui.Model.Dense Yui.Model.Sparse.
Require Import Yui.Proofs.C13Dense Yui.Proofs.C13SpBase Yui.Proofs.C13Sparse Yui.Proofs.C13SpArith.
Import ListNotations.

Section SpVec.
  Context {R : Type} (o : ring_ops R) (L : ring_laws o).

  Local Notation "0" := (rzero o).
  Local Notation "1" := (rone o).
  Local Infix "+" := (radd o).
  Local Infix "*" := (rmul o).
  Local Notation "- x" := (rneg o x).
  Local Notation ent := (ent R).
  Local Notation spmat := (spmat R).
  Local Notation psum := (psum o).
  Local Notation gsum := (gsum o).
  Local Notation sp_wf := (@sp_wf R).
  Local Notation klt := (@klt R).
  Local Notation sp_is := (sp_is o).
  Local Notation is_perm := C13Sparse.is_perm.
  Local Notation pat := C13Sparse.pat.

  Add Ring Rring : (ring_theory_of_laws o L).

  Definition sv_is (v : spmat) (d : nat) (f : nat -> R) : Prop := sp_is v d 1 (fun i _ => f i).

  Lemma sv_is_ventry v d f i : sv_is v d f -> (i < d)%nat -> ventry o v i = f i.
  Proof. intros (_ & _ & _ & H) Hi. unfold ventry. apply H; lia. Qed.

  Lemma sv_is_ext v d f g : sv_is v d f -> (forall i, (i < d)%nat -> f i = g i) -> sv_is v d g.
  Proof. intros H E. eapply sp_is_ext; [exact H|]. intros i j Hi _. now apply E. Qed.

  Lemma sv_is_intro v d f :
    sp_m v = d -> sp_n v = 1%nat -> sp_wf v -> (forall i, (i < d)%nat -> ventry o v i = f i) -> sv_is v d f.
  Proof.
    intros M N W H. unfold sv_is, C13Sparse.sp_is. splits; try assumption.
    intros i j Hi Hj. replace j with 0%nat by lia. now apply H.
  Qed.

  Lemma sv_is_self v : sp_wf v -> sp_n v = 1%nat -> sv_is v (sp_m v) (ventry o v).
  Proof.
    intros W N. now apply sv_is_intro.
  Qed.

  Lemma sv_new_some (a : spmat) : sp_n a = 1%nat -> sv_new a = Some a.
  Proof. intros H. unfold sv_new. now rewrite H. Qed.

  Lemma sv_new_spec (a : spmat) :
    match sv_new a with Some v => v = a /\ sp_n a = 1%nat | None => sp_n a <> 1%nat end.
  Proof. unfold sv_new. destruct (Nat.eqb_spec (sp_n a) 1); [now split|assumption]. Qed.

  (* the stored entries of a well-formed vector all sit in column 0 *)
  Lemma sv_col0 v e : sp_wf v -> sp_n v = 1%nat -> In e (sp_st v) -> e_col e = 0%nat.
  Proof.
    intros W N He. destruct (sp_wf_bounds v W e He). lia.
  Qed.

  Theorem sp_mul_vec_spec a v d f : sp_wf a -> sv_is v d f ->
    match sp_mul_vec o a v with
    | Some w => sp_n a = d /\ sv_is w (sp_m a) (mvec o d (entry o a) f)
    | None => sp_n a <> d
    end.
  Proof.
    intros Wa (V1 & V2 & V3 & V4). unfold sp_mul_vec.
    pose proof (sp_mul_spec o L a v Wa V3) as M. destruct (sp_mul o a v) as [c|]; cbn [obind].
    - destruct M as (E & (C1 & C2 & C3 & C4)). rewrite sv_new_some by lia.
      split; [lia|]. apply sv_is_intro; try assumption; try lia.
      intros i Hi. unfold ventry. rewrite C4 by lia. unfold mmul, mvec. rewrite E, V1.
      apply (sum_ext o). intros k Hk. f_equal. apply V4; lia.
    - lia.
  Qed.

  Lemma sv_assemble_ok d (es : list ent) :
    (forall e, In e es -> (e_row e < d)%nat /\ e_col e = 0%nat) ->
    exists v, sp_from_entries o d 1 es = Some v /\ sv_new v = Some v /\
              sp_m v = d /\ sp_n v = 1%nat /\ sp_wf v /\ (forall P, psum P (sp_st v) = psum P es).
  Proof.
    intros B. destruct (sp_from_entries_ok o L d 1 es) as [v (Ev & (V1 & V2 & V3 & _) & V5)].
    { intros e He. destruct (B e He). lia. }
    exists v. splits; try assumption. now apply sv_new_some.
  Qed.

  (* one column whose rows are computed from stored entries: entry i collects the values sent to row i *)
  Lemma sv_build_ok d (g : ent -> nat) (l : list ent) :
    (forall e, In e l -> (g e < d)%nat) ->
    exists w, sp_from_entries o d 1 (map (fun e => (g e, 0%nat, e_val e)) l) = Some w /\ sv_new w = Some w /\
              sp_m w = d /\ sp_n w = 1%nat /\ sp_wf w /\ forall i, ventry o w i = gsum (fun e => g e =? i) l.
  Proof.
    intros B. destruct (sv_assemble_ok d (map (fun e => (g e, 0%nat, e_val e)) l)) as [w (Ew & Nw & W1 & W2 & W3 & W5)].
    { intros e' He'. apply in_map_iff in He'. destruct He' as [e [<- He]]. cbn [e_row e_col fst snd].
      split; [now apply B|reflexivity]. }
    exists w. splits; try assumption. intros i. unfold ventry. rewrite entry_psum, W5, (gsum_map_key o).
    apply gsum_ext. intros e _. apply andb_true_r.
  Qed.

  (* col_vec(j) *)
  Theorem sp_col_vec_spec a j : sp_wf a ->
    match sp_col_vec o a j with
    | Some v => (j < sp_n a)%nat /\ sv_is v (sp_m a) (fun i => entry o a i j)
    | None => (sp_n a <= j)%nat
    end.
  Proof.
    intros W. pose proof (sp_wf_bounds a W) as Bnd.
    unfold sp_col_vec. destruct (Nat.ltb_spec j (sp_n a)) as [Hj|Hj]; [|exact Hj].
    destruct (sv_build_ok (sp_m a) e_row (filter (fun e : ent => e_col e =? j) (sp_st a)))
      as [v (Ev & Nv & V1 & V2 & V3 & V4)].
    { intros e He. apply filter_In in He. now destruct (Bnd e (proj1 He)). }
    rewrite Ev. cbn [obind]. rewrite Nv. split; [exact Hj|]. apply sv_is_intro; try assumption.
    intros i Hi. rewrite V4, (gsum_filter o), entry_psum, (psum_gsum o).
    apply gsum_ext. intros e _. unfold key_eq. apply andb_comm.
  Qed.

  Lemma divmod_key n k i j : (j < n)%nat -> key_eq (k / n) (k mod n) i j = (k =? i * n + j).
  Proof.
    intros Hj. unfold key_eq. assert (Hn : n <> 0%nat) by lia.
    pose proof (Nat.div_mod k n Hn) as D. pose proof (Nat.mod_upper_bound k n Hn) as U.
    destruct (Nat.eqb_spec k (i * n + j)) as [->|Hne].
    - rewrite Nat.div_add_l, Nat.div_small, Nat.add_0_r, Nat.eqb_refl by lia. cbn [andb].
      rewrite Nat.add_comm, Nat.mod_add, Nat.mod_small by lia. apply Nat.eqb_refl.
    - apply andb_false_iff. destruct (Nat.eqb_spec (k / n) i) as [E1|E1]; [|now left].
      right. apply Nat.eqb_neq. intros E2. apply Hne. rewrite D, E1, E2. lia.
  Qed.

  Theorem sp_from_dense_data_spec m n data :
    match sp_from_dense_data o m n data with
    | Some a => sp_is a m n (fun i j => nth (i * n + j) data 0)
    | None => (n = 0%nat /\ data <> []) \/
              exists k, (k < length data)%nat /\ nth k data 0 <> 0 /\ (m * n <= k)%nat
    end.
  Proof.
    unfold sp_from_dense_data. destruct data as [|x data'] eqn:Ed.
    - cbn. unfold C13Sparse.sp_is. cbn [sp_m sp_n]. splits; try reflexivity.
      intros i j _ _. destruct (i * n + j)%nat; reflexivity.
    - rewrite <- Ed. destruct (Nat.eqb_spec n 0) as [Hn|Hn].
      + left. split; [exact Hn|]. rewrite Ed. discriminate.
      + pose proof (sp_from_enumerate_spec o L R 0 m n (fun ka => (fst ka / n, fst ka mod n, snd ka)) data) as S.
        destruct (sp_from_entries o m n _) as [a|]; cbn [e_row e_col e_val fst snd] in S.
        * destruct S as (_ & S). eapply sp_is_ext; [exact S|]. intros i j Hi Hj. cbv beta.
          rewrite (sum_ext o (length data) _ (fun k => if k =? i * n + j then nth k data 0 else 0))
            by (intros k _; now rewrite divmod_key).
          destruct (Nat.ltb_spec (i * n + j) (length data)) as [H|H].
          -- now rewrite (sum_delta o L).
          -- rewrite (sum_delta_out o L) by exact H. now rewrite nth_overflow.
        * right. destruct S as [k (Hk & Hv & Hb)]. exists k. splits; try assumption.
          pose proof (Nat.mod_upper_bound k n Hn) as U. pose proof (Nat.div_mod k n Hn) as D.
          assert (Hq : (m <= k / n)%nat) by lia. nia.
  Qed.

  Definition vec_wf (v : spmat) : Prop := sp_wf v /\ sp_n v = 1%nat.

  Lemma sorted_map_mono_in (g : ent -> ent) (l : list ent) :
    (forall x y, In x l -> In y l -> klt x y -> klt (g x) (g y)) ->
    StronglySorted klt l -> StronglySorted klt (map g l).
  Proof.
    induction l as [|x r IH]; intros Hg S; cbn [map]; [constructor|].
    apply StronglySorted_inv in S. destruct S as [S F]. constructor.
    - apply IH; [|exact S]. intros a b Ha Hb. apply Hg; now right.
    - apply Forall_forall. intros y Hy. apply in_map_iff in Hy. destruct Hy as [z [<- Hz]].
      apply Hg; [now left|now right|]. rewrite Forall_forall in F. now apply F.
  Qed.

  Lemma cols_concat_spec m vs : (forall v, In v vs -> vec_wf v) -> forall j0,
    match cols_concat m j0 vs with
    | Some st =>
        (forall v, In v vs -> sp_m v = m) /\ StronglySorted klt st /\
        (forall e, In e st -> (e_row e < m)%nat /\ (j0 <= e_col e < j0 + length vs)%nat) /\
        length st = fold_right (fun v acc => (sp_nnz v + acc)%nat) 0%nat vs /\
        forall i j, psum (fun i' j' => key_eq i' j' i j) st
                    = if (j0 <=? j) && (j <? j0 + length vs) then ventry o (nth (j - j0) vs (sv_zero 0)) i else 0
    | None => exists v, In v vs /\ sp_m v <> m
    end.
  Proof.
    induction vs as [|v r IH]; intros W j0; cbn [cols_concat].
    - split; [intros ? []|]. split; [constructor|]. split; [intros ? []|]. split; [reflexivity|].
      intros i j. cbn [length C13SpBase.psum]. rewrite Nat.add_0_r.
      destruct (Nat.leb_spec j0 j); destruct (Nat.ltb_spec j j0); cbn [andb]; try reflexivity; lia.
    - destruct (W v (or_introl eq_refl)) as [Wv Nv].
      pose proof (proj2 (proj1 (sp_wf_iff v) Wv)) as Sv. pose proof (sp_wf_bounds v Wv) as Bnd.
      destruct (Nat.eqb_spec (sp_m v) m) as [Em|Em].
      + specialize (IH (fun x Hx => W x (or_intror Hx)) (S j0)).
        destruct (cols_concat m (S j0) r) as [rest|]; cbn [obind].
        * destruct IH as (I1 & I2 & I3 & I4 & I5). splits.
          -- intros x [<-|Hx]; [exact Em|now apply I1].
          -- apply sorted_app; [|exact I2|].
             ++ apply sorted_map_mono_in; [|exact Sv]. intros x y Hx Hy. unfold C13SpBase.klt.
                cbn [e_row e_col fst snd]. rewrite !key_lt_spec. destruct (Bnd x Hx), (Bnd y Hy). lia.
             ++ intros x y Hx Hy. apply in_map_iff in Hx. destruct Hx as [z [<- Hz]].
                destruct (I3 y Hy). unfold C13SpBase.klt. cbn [e_row e_col fst snd]. apply key_lt_spec. lia.
          -- intros e He. apply in_app_iff in He. destruct He as [He|He].
             ++ apply in_map_iff in He. destruct He as [z [<- Hz]]. destruct (Bnd z Hz).
                cbn [e_row e_col fst snd length]. lia.
             ++ destruct (I3 e He). cbn [length]. lia.
          -- rewrite app_length, map_length. cbn [fold_right]. unfold sp_nnz at 1. f_equal. exact I4.
          -- intros i j. rewrite (psum_app o L), I5, (gsum_map_key o). cbn [length].
             assert (G : gsum (fun e : ent => key_eq (e_row e) j0 i j) (sp_st v)
                         = if j =? j0 then ventry o v i else 0).
             { destruct (Nat.eqb_spec j j0) as [->|Hne].
               - unfold ventry. rewrite entry_psum, (psum_gsum o). apply gsum_ext. intros e He.
                 destruct (Bnd e He). unfold key_eq. eqb_cases.
               - apply gsum_false. intros e _. unfold key_eq. eqb_cases. }
             rewrite G. clear G.
             destruct (Nat.eqb_spec j j0) as [Ej|Hne]; [subst j|].
             ++ destruct (Nat.leb_spec (S j0) j0); [lia|]. destruct (Nat.leb_spec j0 j0); [|lia].
                destruct (Nat.ltb_spec j0 (j0 + S (length r))); [|lia]. cbn [andb].
                rewrite Nat.sub_diag. cbn [nth]. ring.
             ++ destruct (Nat.leb_spec (S j0) j); destruct (Nat.leb_spec j0 j); try lia;
                  destruct (Nat.ltb_spec j (S j0 + length r)); destruct (Nat.ltb_spec j (j0 + S (length r)));
                  try lia; cbn [andb]; try ring.
                replace (j - j0)%nat with (S (j - S j0)) by lia. cbn [nth]. ring.
        * destruct IH as [x [Hx Hn]]. exists x. split; [now right|exact Hn].
      + exists v. split; [now left|exact Em].
  Qed.

  Theorem sp_from_col_vecs_spec m vs : (forall v, In v vs -> vec_wf v) ->
    match sp_from_col_vecs m vs with
    | Some a => (forall v, In v vs -> sp_m v = m) /\
                sp_is a m (length vs) (fun i j => ventry o (nth j vs (sv_zero 0)) i) /\
                sp_nnz a = fold_right (fun v acc => (sp_nnz v + acc)%nat) 0%nat vs
    | None => exists v, In v vs /\ sp_m v <> m
    end.
  Proof.
    intros W. unfold sp_from_col_vecs. pose proof (cols_concat_spec m vs W 0) as C.
    destruct (cols_concat m 0 vs) as [st|]; cbn [obind]; [|exact C].
    destruct C as (C1 & C2 & C3 & C4 & C5). unfold try_csc.
    assert (V : csc_validb m (length vs) st = true).
    { unfold csc_validb. apply andb_true_iff. split; [|now apply sortedb_iff].
      apply in_bounds_iff. intros e He. destruct (C3 e He). lia. }
    rewrite V. splits; try assumption.
    - unfold C13Sparse.sp_is. cbn [sp_m sp_n]. splits; try reflexivity; [exact V|].
      intros i j Hi Hj. rewrite entry_psum. cbn [sp_st]. rewrite C5. cbn [Nat.leb Nat.add].
      destruct (Nat.ltb_spec j (length vs)); [|lia]. cbn [andb]. now rewrite Nat.sub_0_r.
  Qed.

  Theorem sv_zero_spec d : sv_is (sv_zero d) d (fun _ => 0).
  Proof. unfold sv_is, C13Sparse.sp_is, sv_zero. cbn [sp_m sp_n]. splits; reflexivity. Qed.

  Theorem sv_unit_spec n i :
    match sv_unit o n i with
    | Some v => (i < n)%nat /\ sv_is v n (fun k => if k =? i then 1 else 0)
    | None => (n <= i)%nat
    end.
  Proof.
    unfold sv_unit, try_csc, csc_validb. cbn [in_bounds forallb sortedb e_row e_col fst snd andb].
    destruct (Nat.ltb_spec i n) as [H|H]; cbn [andb obind]; [|exact H].
    split; [exact H|]. unfold sv_is, C13Sparse.sp_is. cbn [sp_m sp_n]. splits; try reflexivity.
    - apply sp_wf_iff. cbn [sp_m sp_n sp_st]. split; [|repeat constructor].
      apply in_bounds_iff. intros e [<-|[]]. cbn [e_row e_col fst snd]. lia.
    - intros k c Hk Hc. replace c with 0%nat by lia. unfold entry. cbn [sp_st esum e_row e_col e_val fst snd].
      unfold key_eq. rewrite Nat.eqb_refl, andb_true_r, (Nat.eqb_sym i k). destruct (k =? i); ring.
  Qed.

  Lemma col0_in (es : list (nat * R)) e : In e (col0 es) <-> exists ix, In ix es /\ e = (fst ix, 0%nat, snd ix).
  Proof.
    unfold col0. rewrite in_map_iff. split; intros [ix [H1 H2]]; exists ix; (split; [|assumption]) || split; auto.
  Qed.

  Theorem sv_from_entries_spec d (es : list (nat * R)) :
    match sv_from_entries o d es with
    | Some v => (forall ix, In ix es -> snd ix <> 0 -> (fst ix < d)%nat) /\
                sv_is v d (fun i => esum o (col0 es) i 0)
    | None => exists ix, In ix es /\ snd ix <> 0 /\ (d <= fst ix)%nat
    end.
  Proof.
    unfold sv_from_entries. pose proof (sp_from_entries_spec o L d 1 (col0 es)) as S.
    destruct (sp_from_entries o d 1 (col0 es)) as [a|]; cbn [obind].
    - destruct S as (S1 & (S2 & S3 & S4 & S5) & _). rewrite sv_new_some by exact S3. split.
      + intros ix Hix Hv. specialize (S1 (fst ix, 0%nat, snd ix)). cbn [e_row e_col e_val fst snd] in S1.
        apply S1; [|exact Hv]. apply col0_in. now exists ix.
      + apply sv_is_intro; try assumption. intros i Hi. apply S5; lia.
    - destruct S as [e [He [Hv Hn]]]. apply col0_in in He. destruct He as [ix [Hix ->]].
      cbn [e_row e_col e_val fst snd] in *. exists ix. splits; try assumption. lia.
  Qed.

  Theorem sv_from_vec_spec (l : list R) :
    exists v, sv_from_vec o l = Some v /\ sv_is v (length l) (fun i => nth i l 0).
  Proof.
    unfold sv_from_vec. pose proof (sv_from_entries_spec (length l) (enumerate l)) as S.
    destruct (sv_from_entries o (length l) (enumerate l)) as [v|].
    - exists v. split; [reflexivity|]. destruct S as (_ & S). eapply sv_is_ext; [exact S|].
      intros i Hi. unfold col0. rewrite (enumerate_map R 0 l), map_map. cbn [fst snd].
      rewrite esum_psum, (psum_map_seq o L). cbn [e_row e_col e_val fst snd].
      rewrite (sum_ext o (length l) _ (fun k => if k =? i then nth k l 0 else 0)).
      + now rewrite (sum_delta o L).
      + intros k _. unfold key_eq. now rewrite andb_true_r.
    - exfalso. destruct S as [ix [Hix [_ Hd]]]. rewrite (enumerate_map R 0 l) in Hix.
      apply in_map_iff in Hix. destruct Hix as [k [<- Hk]]. apply in_seq in Hk. cbn [fst] in Hd. lia.
  Qed.

  Lemma col0_sorted (es : list (nat * R)) :
    StronglySorted klt (col0 es) <-> StronglySorted lt (map fst es).
  Proof.
    induction es as [|ix r IH]; cbn [col0 map]; [split; constructor|].
    split; intros S; apply StronglySorted_inv in S; destruct S as [S F]; constructor.
    - now apply IH.
    - apply Forall_forall. intros x Hx. apply in_map_iff in Hx. destruct Hx as [iy [<- Hy]].
      rewrite Forall_forall in F. specialize (F (fst iy, 0%nat, snd iy)).
      assert (Hin : In (fst iy, 0%nat, snd iy) (map (fun ix0 => (fst ix0, 0%nat, snd ix0)) r)).
      { apply in_map_iff. now exists iy. }
      specialize (F Hin). unfold C13SpBase.klt in F. cbn [e_row e_col fst snd] in F. apply key_lt_spec in F. lia.
    - now apply IH.
    - apply Forall_forall. intros e He. apply in_map_iff in He. destruct He as [iy [<- Hy]].
      rewrite Forall_forall in F. specialize (F (fst iy) (in_map fst r iy Hy)).
      unfold C13SpBase.klt. cbn [e_row e_col fst snd]. apply key_lt_spec. lia.
  Qed.

  (* from_sorted_entries keeps zero values; the indices must be in range and strictly increasing *)
  Theorem sv_from_sorted_entries_spec d (es : list (nat * R)) :
    match sv_from_sorted_entries d es with
    | Some v => ((forall ix, In ix es -> (fst ix < d)%nat) /\ StronglySorted lt (map fst es)) /\
                sv_is v d (fun i => esum o (col0 es) i 0) /\ sp_nnz v = length es
    | None => ~ ((forall ix, In ix es -> (fst ix < d)%nat) /\ StronglySorted lt (map fst es))
    end.
  Proof.
    unfold sv_from_sorted_entries.
    destruct (forallb (fun ix => fst ix <? d) es) eqn:Eb.
    - rewrite forallb_forall in Eb.
      assert (B : forall ix, In ix es -> (fst ix < d)%nat) by (intros ix H; now apply Nat.ltb_lt, Eb).
      assert (IB : in_bounds d 1 (col0 es) = true).
      { apply in_bounds_iff. intros e He. apply col0_in in He. destruct He as [ix [Hix ->]].
        cbn [e_row e_col fst snd]. split; [now apply B|lia]. }
      unfold try_csc, csc_validb. rewrite IB. cbn [andb].
      destruct (sortedb (col0 es)) eqn:Es; cbn [obind].
      + apply sortedb_iff in Es. rewrite sv_new_some by reflexivity. splits.
        * exact B.
        * now apply col0_sorted.
        * unfold sv_is, C13Sparse.sp_is. cbn [sp_m sp_n]. splits; try reflexivity.
          -- apply sp_wf_iff. cbn [sp_m sp_n sp_st]. now split.
          -- intros i c Hi Hc. replace c with 0%nat by lia. reflexivity.
        * unfold sp_nnz, col0. cbn [sp_st]. apply map_length.
      + intros [_ S]. apply col0_sorted, sortedb_iff in S. congruence.
    - intros [B _]. assert (forallb (fun ix => fst ix <? d) es = true); [|congruence].
      apply forallb_forall. intros ix H. now apply Nat.ltb_lt, B.
  Qed.

  Definition vsel (f : nat -> fres) (i : nat) (e : ent) : bool :=
    match f (e_row e) with FTo i' _ => i' =? i | _ => false end.

  Lemma sv_extract_spec v d f :
    (forall e, In e (sp_st v) -> f (e_row e) <> FPanic) ->
    (forall e i' c, In e (sp_st v) -> f (e_row e) = FTo i' c -> (i' < d)%nat) ->
    exists w, sv_extract o v d f = Some w /\ sp_m w = d /\ sp_n w = 1%nat /\ sp_wf w /\
              forall i, ventry o w i = gsum (vsel f i) (sp_st v).
  Proof.
    intros NP B. unfold sv_extract. pose proof (fmap_p_spec o (fun i _ => f i) (sp_st v)) as F.
    destruct (fmap_p (fun i _ => f i) (sp_st v)) as [es|].
    - cbn [obind]. destruct F as (_ & F2 & F3).
      destruct (sv_build_ok d e_row es) as [w (Ew & Nw & W1 & W2 & W3 & W4)].
      { intros x Hx. destruct (F3 x Hx) as [e [He [K _]]]. now apply (B e _ _ He K). }
      rewrite Ew. cbn [obind]. rewrite Nw. exists w. splits; try assumption; try reflexivity.
      intros i. rewrite W4, <- (psum_gsum o (fun i' _ => i' =? i)), F2, (psum_gsum o).
      apply gsum_ext. intros e _. unfold fsel, vsel. now destruct (f (e_row e)).
    - exfalso. destruct F as [e [He K]]. now apply (NP e He).
  Qed.

  Lemma sv_extract_panic v d f e : In e (sp_st v) -> f (e_row e) = FPanic -> sv_extract o v d f = None.
  Proof.
    intros He K. unfold sv_extract. pose proof (fmap_p_spec o (fun i _ => f i) (sp_st v)) as F.
    destruct (fmap_p (fun i _ => f i) (sp_st v)) as [es|]; [|reflexivity].
    exfalso. destruct F as (F1 & _). now apply (F1 e He).
  Qed.

  Lemma ventry_gsum v i : vec_wf v -> ventry o v i = gsum (fun e => e_row e =? i) (sp_st v).
  Proof.
    intros [W N]. unfold ventry. rewrite entry_psum, (psum_gsum o). apply gsum_ext. intros e He.
    rewrite (sv_col0 v e W N He). unfold key_eq. now rewrite andb_true_r.
  Qed.

  Lemma vec_rows v e : vec_wf v -> In e (sp_st v) -> (e_row e < sp_m v)%nat.
  Proof.
    intros [W _] He. now destruct (sp_wf_bounds v W e He).
  Qed.

  Theorem sv_permute_spec v p : vec_wf v -> is_perm p -> length p = sv_dim v ->
    exists w, sv_permute o v p = Some w /\ sv_dim w = sv_dim v /\ vec_wf w /\
      forall i, (i < sv_dim v)%nat -> ventry o w (pat p i) = ventry o v i.
  Proof.
    intros V Pp Lp. unfold sv_permute, sv_dim in *.
    set (f := fun i => match perm_at p i with Some i' => FTo i' 0 | None => FPanic end).
    destruct (sv_extract_spec v (sp_m v) f) as [w (Ew & W1 & W2 & W3 & W4)].
    - intros e He. unfold f. rewrite perm_at_pat by (rewrite Lp; now apply vec_rows). discriminate.
    - intros e i' c He K. unfold f in K. rewrite perm_at_pat in K by (rewrite Lp; now apply vec_rows).
      inversion K; subst. rewrite <- Lp. apply pat_lt; [exact Pp|]. rewrite Lp. now apply vec_rows.
    - exists w. splits; try assumption; try (split; assumption). intros i Hi. rewrite W4, (ventry_gsum v i V).
      apply gsum_ext. intros e He. unfold vsel, f. pose proof (vec_rows v e V He) as Hr.
      rewrite perm_at_pat by lia.
      destruct (Nat.eqb_spec (e_row e) i) as [->|Hne]; [apply Nat.eqb_refl|].
      apply Nat.eqb_neq. intros E. apply Hne. apply (pat_inj p); try assumption; lia.
  Qed.

  (* subvec(s..e): dimension e - s (a panic when e < s); positions beyond the dimension of v read as 0 *)
  Theorem sv_subvec_spec v s e : vec_wf v ->
    match sv_subvec o v s e with
    | Some w => (s <= e)%nat /\ sv_is w (e - s) (fun i => ventry o v (s + i))
    | None => (e < s)%nat
    end.
  Proof.
    intros V. unfold sv_subvec. destruct (Nat.ltb_spec e s) as [H|H]; [exact H|].
    set (f := fun i => if (s <=? i) && (i <? e) then FTo (i - s) 0 else FSkip).
    destruct (sv_extract_spec v (e - s) f) as [w (Ew & W1 & W2 & W3 & W4)].
    - intros x _. unfold f. destruct ((s <=? e_row x) && (e_row x <? e)); discriminate.
    - intros x i' c _ K. unfold f in K.
      destruct (Nat.leb_spec s (e_row x)); destruct (Nat.ltb_spec (e_row x) e); cbn [andb] in K; try discriminate.
      inversion K; subst. lia.
    - rewrite Ew. split; [exact H|]. apply sv_is_intro; try assumption.
      intros i Hi. rewrite W4, (ventry_gsum v _ V).
      apply gsum_ext. intros x _. unfold vsel, f.
      destruct (Nat.leb_spec s (e_row x)); destruct (Nat.ltb_spec (e_row x) e); cbn [andb]; eqb_cases.
  Qed.

  Theorem sv_stack_spec v w : vec_wf v -> vec_wf w ->
    exists r, sv_stack o v w = Some r /\
      sv_is r (sv_dim v + sv_dim w) (fun i => if i <? sv_dim v then ventry o v i else ventry o w (i - sv_dim v)).
  Proof.
    intros V W. unfold sv_stack, sv_dim.
    match goal with |- context [sp_from_entries o ?d 1 ?es] =>
      destruct (sv_assemble_ok d es) as [r (Er & Nr & R1 & R2 & R3 & R5)] end.
    { intros e He. apply in_app_iff in He. destruct He as [He|He]; apply in_map_iff in He;
        destruct He as [x [<- Hx]]; apply nz_in in Hx; try exact L; destruct Hx as [Hx _]; cbn [e_row e_col fst snd].
      - pose proof (vec_rows v x V Hx). lia.
      - pose proof (vec_rows w x W Hx). lia. }
    rewrite Er. cbn [obind]. rewrite Nr. exists r. split; [reflexivity|].
    apply sv_is_intro; try assumption. intros i Hi. unfold ventry at 1.
    rewrite entry_psum, R5, (psum_app o L), !(gsum_map_key o), !(gsum_nz o L).
    destruct (Nat.ltb_spec i (sp_m v)) as [H|H].
    - rewrite (gsum_false o (fun e => key_eq (sp_m v + e_row e) 0 i 0)) by (intros x _; unfold key_eq; eqb_cases).
      rewrite (ventry_gsum v i V). transitivity (gsum (fun e => e_row e =? i) (sp_st v)); [|reflexivity].
      rewrite (radd_comm o L), (radd_0_l o L). apply gsum_ext. intros x _. unfold key_eq. now rewrite andb_true_r.
    - rewrite (gsum_false o (fun e => key_eq (e_row e) 0 i 0)).
      2:{ intros x Hx. pose proof (vec_rows v x V Hx). unfold key_eq. eqb_cases. }
      rewrite (ventry_gsum w _ W), (radd_0_l o L). apply gsum_ext. intros x _. unfold key_eq. eqb_cases.
  Qed.

  Theorem sv_split_spec v k : vec_wf v ->
    match sv_split o v k with
    | Some (a, b) => (k <= sv_dim v)%nat /\ sv_is a k (ventry o v) /\
                     sv_is b (sv_dim v - k) (fun i => ventry o v (k + i))
    | None => (sv_dim v < k)%nat
    end.
  Proof.
    intros V. unfold sv_split, sv_dim. destruct (Nat.leb_spec k (sp_m v)) as [H|H]; [|exact H].
    destruct (sv_build_ok k e_row (filter (fun e : ent => e_row e <? k) (sp_st v)))
      as [a (-> & Na & A1 & A2 & A3 & A4)].
    { intros e He. apply filter_In in He. now apply Nat.ltb_lt. }
    destruct (sv_build_ok (sp_m v - k) (fun e => e_row e - k)%nat (filter (fun e : ent => negb (e_row e <? k)) (sp_st v)))
      as [b (-> & Nb & B1 & B2 & B3 & B4)].
    { intros e He. apply filter_In in He. destruct He as [Hin Hx]. apply negb_true_iff, Nat.ltb_ge in Hx.
      pose proof (vec_rows v e V Hin). lia. }
    cbn [obind]. rewrite Na. cbn [obind]. rewrite Nb. cbn [obind].
    splits; [exact H| |]; apply sv_is_intro; try assumption; intros i Hi.
    - rewrite A4, (gsum_filter o), (ventry_gsum v i V).
      apply gsum_ext. intros x _. destruct (Nat.ltb_spec (e_row x) k); cbn [andb]; eqb_cases.
    - rewrite B4, (gsum_filter o), (ventry_gsum v _ V).
      apply gsum_ext. intros x _. destruct (Nat.ltb_spec (e_row x) k); cbn [andb negb]; eqb_cases.
  Qed.

  Theorem sv_neg_spec v : vec_wf v -> sv_is (sv_neg o v) (sv_dim v) (fun i => rneg o (ventry o v i)).
  Proof.
    intros [W N]. destruct (sp_neg_spec o L v W) as [(H1 & H2 & H3 & H4) _]. unfold sv_neg, sv_dim.
    apply sv_is_intro; try assumption; try lia. intros i Hi. apply H4; lia.
  Qed.

  (* an entrywise operation of equal-shape matrices, restricted to vectors *)
  Lemma sv_entrywise (op : spmat -> spmat -> option spmat) (g : R -> R -> R) :
    (forall a b, sp_wf a -> sp_wf b ->
       match op a b with
       | Some c => (sp_m a = sp_m b /\ sp_n a = sp_n b) /\
                   sp_is c (sp_m a) (sp_n a) (fun i j => g (entry o a i j) (entry o b i j))
       | None => ~ (sp_m a = sp_m b /\ sp_n a = sp_n b)
       end) ->
    forall v w, vec_wf v -> vec_wf w ->
    match (do a <- op v w; sv_new a) with
    | Some r => sv_dim v = sv_dim w /\ sv_is r (sv_dim v) (fun i => g (ventry o v i) (ventry o w i))
    | None => sv_dim v <> sv_dim w
    end.
  Proof.
    intros Op v w [Wv Nv] [Ww Nw]. unfold sv_dim. pose proof (Op v w Wv Ww) as S.
    destruct (op v w) as [r|]; cbn [obind].
    - destruct S as ((E1 & E2) & (R1 & R2 & R3 & R4)). rewrite sv_new_some by lia. split; [exact E1|].
      apply sv_is_intro; try assumption; try lia. intros i Hi. apply R4; lia.
    - intros E. apply S. split; [exact E|lia].
  Qed.

  Theorem sv_add_spec v w : vec_wf v -> vec_wf w ->
    match sv_add o v w with
    | Some r => sv_dim v = sv_dim w /\ sv_is r (sv_dim v) (fun i => radd o (ventry o v i) (ventry o w i))
    | None => sv_dim v <> sv_dim w
    end.
  Proof. exact (sv_entrywise _ _ (sp_add_spec o L) v w). Qed.

  Theorem sv_sub_spec v w : vec_wf v -> vec_wf w ->
    match sv_sub o v w with
    | Some r => sv_dim v = sv_dim w /\ sv_is r (sv_dim v) (fun i => rsub o (ventry o v i) (ventry o w i))
    | None => sv_dim v <> sv_dim w
    end.
  Proof. exact (sv_entrywise _ _ (sp_sub_spec o L) v w). Qed.
End SpVec.
