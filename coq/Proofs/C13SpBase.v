(* C13, sparse part, base lemmas: the abstraction [entry] (sum of the stored values at a position), sums
   over stored-entry lists selected by a predicate on the position ([psum]), the COO -> CSC assembly
   [canon] (keeps every sum, produces a strictly sorted list), and the CSC invariant. *)
From Coq Require Import Arith List Lia Bool Ring Sorted.
Require Import Yui.Base.Ring Yui.Base.MatF Yui.Base.MatL Yui.Model.Dense Yui.Model.Sparse.
Require Import Yui.Proofs.C13Dense.
Import ListNotations.

Section SpBase.
  Context {R : Type} (o : ring_ops R) (L : ring_laws o).

  Local Notation "0" := (rzero o).
  Local Notation "1" := (rone o).
  Local Infix "+" := (radd o).
  Local Infix "*" := (rmul o).
  Local Notation "- x" := (rneg o x).
  Local Notation ent := (ent R).
  Local Notation spmat := (spmat R).

  Add Ring Rring : (ring_theory_of_laws o L).

  Fixpoint psum (P : nat -> nat -> bool) (l : list ent) : R :=
    match l with
    | [] => 0
    | e :: r => if P (e_row e) (e_col e) then e_val e + psum P r else psum P r
    end.

  Lemma esum_psum l i j : esum o l i j = psum (fun i' j' => key_eq i' j' i j) l.
  Proof. induction l as [|e r IH]; cbn [esum psum]; [reflexivity|]. now rewrite IH. Qed.

  Fixpoint gsum (S : ent -> bool) (l : list ent) : R :=
    match l with [] => 0 | e :: r => if S e then e_val e + gsum S r else gsum S r end.

  Lemma psum_gsum P l : psum P l = gsum (fun e => P (e_row e) (e_col e)) l.
  Proof. induction l as [|e r IH]; cbn [psum gsum]; [reflexivity|]. now rewrite IH. Qed.

  Lemma gsum_ext S T l : (forall e, In e l -> S e = T e) -> gsum S l = gsum T l.
  Proof.
    induction l as [|e r IH]; intros H; cbn [gsum]; [reflexivity|].
    rewrite (H e (or_introl eq_refl)), IH; [reflexivity|]. intros e' He'. apply H. now right.
  Qed.

  Lemma gsum_false S l : (forall e, In e l -> S e = false) -> gsum S l = 0.
  Proof.
    induction l as [|e r IH]; intros H; cbn [gsum]; [reflexivity|].
    rewrite (H e (or_introl eq_refl)). apply IH. intros e' He'. apply H. now right.
  Qed.

  Lemma gsum_app S l1 l2 : gsum S (l1 ++ l2) = gsum S l1 + gsum S l2.
  Proof.
    induction l1 as [|e r IH]; cbn [app gsum]; [ring|]. destruct (S e); rewrite IH; ring.
  Qed.

  (* new positions computed from the old entry, values kept *)
  Lemma gsum_map_key P (fr fc : ent -> nat) l :
    psum P (map (fun e => (fr e, fc e, e_val e)) l) = gsum (fun e => P (fr e) (fc e)) l.
  Proof.
    induction l as [|e r IH]; cbn [map psum gsum]; [reflexivity|].
    cbn [e_row e_col e_val fst snd]. now rewrite IH.
  Qed.

  Lemma gsum_filter S F l : gsum S (filter F l) = gsum (fun e => F e && S e) l.
  Proof.
    induction l as [|e r IH]; cbn [filter gsum]; [reflexivity|].
    destruct (F e); cbn [andb gsum]; now rewrite IH.
  Qed.

  Lemma gsum_nz S l : gsum S (nz o l) = gsum S l.
  Proof.
    unfold nz. induction l as [|e r IH]; cbn [filter gsum]; [reflexivity|].
    destruct (ris_zero o (e_val e)) eqn:E; cbn [negb gsum]; rewrite IH.
    - apply (reqb_eq o L) in E. destruct (S e); [rewrite E; ring|reflexivity].
    - reflexivity.
  Qed.

  Lemma esum_gsum l i j : esum o l i j = gsum (fun e => key_eq (e_row e) (e_col e) i j) l.
  Proof. now rewrite esum_psum, psum_gsum. Qed.

  Lemma psum_ext P Q l :
    (forall e, In e l -> P (e_row e) (e_col e) = Q (e_row e) (e_col e)) -> psum P l = psum Q l.
  Proof. rewrite !psum_gsum. apply gsum_ext. Qed.

  Lemma psum_false P l : (forall e, In e l -> P (e_row e) (e_col e) = false) -> psum P l = 0.
  Proof. rewrite psum_gsum. apply gsum_false. Qed.

  Lemma psum_app P l1 l2 : psum P (l1 ++ l2) = psum P l1 + psum P l2.
  Proof. rewrite !psum_gsum. apply gsum_app. Qed.

  Lemma psum_filter_key P F l :
    psum P (filter (fun e => F (e_row e) (e_col e)) l) = psum (fun i j => F i j && P i j) l.
  Proof. now rewrite !psum_gsum, gsum_filter. Qed.

  Lemma psum_nz P l : psum P (nz o l) = psum P l.
  Proof. rewrite !psum_gsum. apply gsum_nz. Qed.

  Definition kmap (h : nat -> nat -> nat * nat) (l : list ent) : list ent :=
    map (fun e => (fst (h (e_row e) (e_col e)), snd (h (e_row e) (e_col e)), e_val e)) l.

  Lemma psum_kmap P h l : psum P (kmap h l) = psum (fun i j => P (fst (h i j)) (snd (h i j))) l.
  Proof. unfold kmap. now rewrite gsum_map_key, psum_gsum. Qed.

  Lemma psum_map_val P (g : R -> R) l :
    (forall x y, g (x + y) = g x + g y) -> g 0 = 0 ->
    psum P (map (fun e => (e_row e, e_col e, g (e_val e))) l) = g (psum P l).
  Proof.
    intros Hadd H0. induction l as [|e r IH]; cbn [map psum]; [now rewrite H0|].
    cbn [e_row e_col e_val fst snd]. rewrite IH. destruct (P (e_row e) (e_col e)); [now rewrite Hadd|reflexivity].
  Qed.

  (* a predicate that is a disjunction of two exclusive ones *)
  Lemma psum_split P Q l :
    (forall e, In e l -> P (e_row e) (e_col e) && Q (e_row e) (e_col e) = false) ->
    psum (fun i j => P i j || Q i j) l = psum P l + psum Q l.
  Proof.
    induction l as [|e r IH]; intros H; cbn [psum]; [ring|].
    rewrite IH by (intros e' He'; apply H; now right).
    specialize (H e (or_introl eq_refl)).
    destruct (P (e_row e) (e_col e)); destruct (Q (e_row e) (e_col e)); cbn [orb andb] in *;
      try discriminate; ring.
  Qed.

  (* grouping by the row index: a weighted sum over the selected stored entries is a finite sum over rows *)
  Lemma psum_group_rows (Q : nat -> bool) (F : nat -> R) n l :
    (forall e, In e l -> (e_row e < n)%nat) ->
    psum (fun _ j => Q j) (map (fun e => (e_row e, e_col e, F (e_row e) * e_val e)) l)
    = sum o n (fun k => F k * psum (fun i j => (i =? k) && Q j) l).
  Proof.
    induction l as [|e r IH]; intros Hb; cbn [map psum].
    - rewrite (sum_zero_ext o L); [reflexivity|]. intros; ring.
    - cbn [e_row e_col e_val fst snd].
      rewrite IH by (intros e' He'; apply Hb; now right).
      assert (He : (e_row e < n)%nat) by (apply Hb; now left).
      destruct (Q (e_col e)) eqn:EQ.
      + rewrite (sum_ext o n
          (fun k => F k * (if (e_row e =? k) && true
                           then e_val e + psum (fun i j => (i =? k) && Q j) r
                           else psum (fun i j => (i =? k) && Q j) r))
          (fun k => (if k =? e_row e then F k * e_val e else 0)
                    + F k * psum (fun i j => (i =? k) && Q j) r)).
        * rewrite (sum_add o L), (sum_delta o L) by exact He. reflexivity.
        * intros k _. rewrite andb_true_r, (Nat.eqb_sym (e_row e) k). destruct (k =? e_row e); ring.
      + apply (sum_ext o). intros k _. now rewrite andb_false_r.
  Qed.

  Lemma entry_psum (a : spmat) i j : entry o a i j = psum (fun i' j' => key_eq i' j' i j) (sp_st a).
  Proof. apply esum_psum. Qed.

  Lemma key_eq_true i j i' j' : key_eq i j i' j' = true <-> i = i' /\ j = j'.
  Proof. unfold key_eq. rewrite andb_true_iff, !Nat.eqb_eq. tauto. Qed.

  Lemma key_eq_refl i j : key_eq i j i j = true.
  Proof. now apply key_eq_true. Qed.

  Lemma key_eq_sym i j i' j' : key_eq i j i' j' = key_eq i' j' i j.
  Proof. unfold key_eq. now rewrite (Nat.eqb_sym i i'), (Nat.eqb_sym j j'). Qed.

  Lemma psum_ins P i j a l : psum P (ins o i j a l) = (if P i j then a else 0) + psum P l.
  Proof.
    induction l as [|e r IH]; cbn [ins psum].
    - cbn [e_row e_col e_val fst snd]. destruct (P i j); ring.
    - destruct (key_eq i j (e_row e) (e_col e)) eqn:E.
      + apply key_eq_true in E. destruct E as [<- <-]. cbn [psum e_row e_col e_val fst snd].
        destruct (P i j); ring.
      + destruct (key_lt i j (e_row e) (e_col e)); cbn [psum e_row e_col e_val fst snd].
        * destruct (P i j); destruct (P (e_row e) (e_col e)); ring.
        * rewrite IH. destruct (P i j); destruct (P (e_row e) (e_col e)); ring.
  Qed.

  Lemma psum_canon P l : psum P (canon o l) = psum P l.
  Proof.
    unfold canon. induction l as [|e r IH]; cbn [fold_right psum]; [reflexivity|].
    rewrite psum_ins, IH. destruct (P (e_row e) (e_col e)); ring.
  Qed.

  Lemma esum_canon l i j : esum o (canon o l) i j = esum o l i j.
  Proof. rewrite !esum_psum. apply psum_canon. Qed.

  Lemma in_bounds_iff m n (l : list ent) :
    in_bounds m n l = true <-> forall e, In e l -> (e_row e < m)%nat /\ (e_col e < n)%nat.
  Proof.
    unfold in_bounds. rewrite forallb_forall. split; intros H e He; specialize (H e He).
    - apply andb_true_iff in H. now rewrite !Nat.ltb_lt in H.
    - apply andb_true_iff. now rewrite !Nat.ltb_lt.
  Qed.

  Lemma in_bounds_false m n (l : list ent) :
    in_bounds m n l = false <-> exists e, In e l /\ ~ ((e_row e < m)%nat /\ (e_col e < n)%nat).
  Proof.
    split.
    - intros H. induction l as [|e r IH]; [discriminate|].
      cbn [in_bounds forallb] in H. destruct ((e_row e <? m) && (e_col e <? n)) eqn:E.
      + cbn [andb] in H. destruct (IH H) as [e' [H1 H2]]. exists e'. split; [now right|exact H2].
      + exists e. split; [now left|]. intros [H1 H2]. apply Nat.ltb_lt in H1, H2. rewrite H1, H2 in E. discriminate.
    - intros [e [He Hn]]. destruct (in_bounds m n l) eqn:E; [|reflexivity].
      exfalso. apply Hn. now apply (proj1 (in_bounds_iff m n l) E).
  Qed.

  (* assembly neither adds nor removes a position *)
  Lemma in_bounds_ins m n i j a l :
    in_bounds m n (ins o i j a l) = ((i <? m) && (j <? n)) && in_bounds m n l.
  Proof.
    induction l as [|e r IH]; cbn [ins]; [reflexivity|].
    destruct (key_eq i j (e_row e) (e_col e)) eqn:E.
    - apply key_eq_true in E. destruct E as [-> ->]. cbn [in_bounds forallb e_row e_col fst snd].
      now destruct ((e_row e <? m) && (e_col e <? n)).
    - destruct (key_lt i j (e_row e) (e_col e)); [reflexivity|].
      cbn [in_bounds forallb]. fold (in_bounds m n (ins o i j a r)). rewrite IH. fold (in_bounds m n r).
      now destruct ((e_row e <? m) && (e_col e <? n)), ((i <? m) && (j <? n)).
  Qed.

  Lemma in_bounds_canon m n l : in_bounds m n (canon o l) = in_bounds m n l.
  Proof.
    unfold canon. induction l as [|e r IH]; cbn [fold_right]; [reflexivity|]. now rewrite in_bounds_ins, IH.
  Qed.

  Lemma in_bounds_app m n (l1 l2 : list ent) : in_bounds m n (l1 ++ l2) = in_bounds m n l1 && in_bounds m n l2.
  Proof. unfold in_bounds. apply forallb_app. Qed.

  (* outside the bounds nothing is stored *)
  Lemma psum_out m n l P :
    in_bounds m n l = true -> (forall i j, (i < m)%nat -> (j < n)%nat -> P i j = false) -> psum P l = 0.
  Proof.
    intros B H. apply psum_false. intros e He.
    destruct (proj1 (in_bounds_iff m n l) B e He). now apply H.
  Qed.

  Definition klt (e e' : ent) : Prop := key_lt (e_row e) (e_col e) (e_row e') (e_col e') = true.

  Lemma key_lt_spec i j i' j' : key_lt i j i' j' = true <-> (j < j')%nat \/ (j = j' /\ (i < i')%nat).
  Proof. unfold key_lt. rewrite orb_true_iff, andb_true_iff, !Nat.ltb_lt, Nat.eqb_eq. tauto. Qed.

  Lemma klt_trans x y z : klt x y -> klt y z -> klt x z.
  Proof. unfold klt. rewrite !key_lt_spec. lia. Qed.

  Lemma klt_neq x y : klt x y -> key_eq (e_row x) (e_col x) (e_row y) (e_col y) = false.
  Proof.
    unfold klt. rewrite key_lt_spec. intros H.
    destruct (key_eq (e_row x) (e_col x) (e_row y) (e_col y)) eqn:E; [|reflexivity].
    apply key_eq_true in E. lia.
  Qed.

  Lemma sortedb_iff (l : list ent) : sortedb l = true <-> StronglySorted klt l.
  Proof.
    induction l as [|e r IH]; [split; [constructor|reflexivity]|].
    destruct r as [|e' r'].
    - split; [intros _; repeat constructor|reflexivity].
    - change (sortedb (e :: e' :: r')) with (key_lt (e_row e) (e_col e) (e_row e') (e_col e') && sortedb (e' :: r')).
      rewrite andb_true_iff, IH. split.
      + intros [H1 H2]. constructor; [exact H2|].
        constructor; [exact H1|]. apply StronglySorted_inv in H2. destruct H2 as [_ H2].
        eapply Forall_impl; [|exact H2]. intros z Hz. eapply klt_trans; [exact H1|exact Hz].
      + intros H. apply StronglySorted_inv in H. destruct H as [H1 H2]. split; [|exact H1].
        now inversion H2.
  Qed.

  Lemma ins_forall (x : ent) i j a l :
    klt x (i, j, a) -> Forall (klt x) l -> Forall (klt x) (ins o i j a l).
  Proof.
    intros Hx H. induction H as [|e r He Hr IH]; cbn [ins]; [now repeat constructor|].
    destruct (key_eq i j (e_row e) (e_col e)); [now constructor|].
    destruct (key_lt i j (e_row e) (e_col e)); now repeat constructor.
  Qed.

  Lemma ins_sorted i j a l : StronglySorted klt l -> StronglySorted klt (ins o i j a l).
  Proof.
    induction l as [|x r IH]; cbn [ins]; intros S.
    - repeat constructor.
    - apply StronglySorted_inv in S. destruct S as [S1 S2].
      destruct (key_eq i j (e_row x) (e_col x)) eqn:E.
      + apply key_eq_true in E. destruct E as [E1 E2]. constructor; [exact S1|].
        eapply Forall_impl; [|exact S2]. intros z Hz. unfold klt in *. cbn [e_row e_col fst snd]. now rewrite E1, E2.
      + destruct (key_lt i j (e_row x) (e_col x)) eqn:E'.
        * constructor; [constructor; assumption|]. constructor; [exact E'|].
          eapply Forall_impl; [|exact S2]. intros z Hz. eapply klt_trans; [|exact Hz]. exact E'.
        * constructor; [now apply IH|]. apply ins_forall; [|exact S2].
          unfold klt. cbn [e_row e_col fst snd].
          apply key_lt_spec. unfold key_eq in E. unfold key_lt in E'.
          apply orb_false_iff in E'. destruct E' as [E1 E2].
          apply Nat.ltb_ge in E1. apply andb_false_iff in E.
          destruct (Nat.eqb_spec j (e_col x)) as [->|Hne]; [|lia].
          cbn [andb] in E2. apply Nat.ltb_ge in E2. right. split; [reflexivity|].
          destruct E as [E|E]; [apply Nat.eqb_neq in E; lia|discriminate].
  Qed.

  Lemma canon_sorted l : StronglySorted klt (canon o l).
  Proof.
    unfold canon. induction l as [|e r IH]; cbn [fold_right]; [constructor|]. now apply ins_sorted.
  Qed.

  Lemma sortedb_canon l : sortedb (canon o l) = true.
  Proof. apply sortedb_iff, canon_sorted. Qed.

  Lemma sorted_app (l1 l2 : list ent) :
    StronglySorted klt l1 -> StronglySorted klt l2 ->
    (forall x y, In x l1 -> In y l2 -> klt x y) -> StronglySorted klt (l1 ++ l2).
  Proof.
    induction l1 as [|x r IH]; intros S1 S2 H; cbn [app]; [exact S2|].
    apply StronglySorted_inv in S1. destruct S1 as [S1 F1]. constructor.
    - apply IH; [exact S1|exact S2|]. intros a b Ha Hb. apply H; [now right|exact Hb].
    - apply Forall_app. split; [exact F1|]. apply Forall_forall. intros y Hy. apply H; [now left|exact Hy].
  Qed.

  Lemma sorted_map_mono (g : ent -> ent) l :
    (forall x y, klt x y -> klt (g x) (g y)) -> StronglySorted klt l -> StronglySorted klt (map g l).
  Proof.
    intros Hg. induction l as [|x r IH]; intros S; cbn [map]; [constructor|].
    apply StronglySorted_inv in S. destruct S as [S F]. constructor; [now apply IH|].
    apply Forall_forall. intros y Hy. apply in_map_iff in Hy. destruct Hy as [z [<- Hz]].
    apply Hg. rewrite Forall_forall in F. now apply F.
  Qed.

  Lemma sorted_filter (F : ent -> bool) l : StronglySorted klt l -> StronglySorted klt (filter F l).
  Proof.
    induction l as [|x r IH]; intros S; cbn [filter]; [constructor|].
    apply StronglySorted_inv in S. destruct S as [S Fx]. destruct (F x); [|now apply IH].
    constructor; [now apply IH|]. apply Forall_forall. intros y Hy. apply filter_In in Hy.
    rewrite Forall_forall in Fx. now apply Fx.
  Qed.

  (* in a sorted list a position is stored at most once: the sum at a stored position is the stored value *)
  Lemma sorted_psum_stored l e :
    StronglySorted klt l -> In e l -> psum (fun i j => key_eq i j (e_row e) (e_col e)) l = e_val e.
  Proof.
    induction l as [|x r IH]; intros S H; [destruct H|].
    apply StronglySorted_inv in S. destruct S as [S F]. rewrite Forall_forall in F. cbn [psum].
    destruct H as [->|H].
    - rewrite key_eq_refl. rewrite psum_false; [ring|].
      intros y Hy. rewrite key_eq_sym. apply klt_neq. now apply F.
    - rewrite (klt_neq x e (F e H)). now apply IH.
  Qed.

  Lemma psum_not_stored l i j :
    (forall e, In e l -> ~ (e_row e = i /\ e_col e = j)) -> psum (fun i' j' => key_eq i' j' i j) l = 0.
  Proof.
    intros H. apply psum_false. intros e He. destruct (key_eq (e_row e) (e_col e) i j) eqn:E; [|reflexivity].
    apply key_eq_true in E. exfalso. now apply (H e He).
  Qed.

  Definition sp_wf (a : spmat) : Prop := sp_wfb a = true.

  Lemma sp_wf_iff (a : spmat) :
    sp_wf a <-> in_bounds (sp_m a) (sp_n a) (sp_st a) = true /\ StronglySorted klt (sp_st a).
  Proof. unfold sp_wf, sp_wfb, csc_validb. now rewrite andb_true_iff, sortedb_iff. Qed.

  Lemma sp_wf_bounds (a : spmat) :
    sp_wf a -> forall e, In e (sp_st a) -> (e_row e < sp_m a)%nat /\ (e_col e < sp_n a)%nat.
  Proof. intros W. apply in_bounds_iff, sp_wf_iff, W. Qed.

  Lemma sp_wf_canon m n l : in_bounds m n l = true -> sp_wf (mksp m n (canon o l)).
  Proof.
    intros B. apply sp_wf_iff. cbn [sp_m sp_n sp_st]. split; [now rewrite in_bounds_canon|apply canon_sorted].
  Qed.

  (* under the invariant: the entry at a stored position is the stored value, elsewhere (in particular
     outside the shape) it is zero *)
  Lemma entry_stored (a : spmat) i j v : sp_wf a -> In (i, j, v) (sp_st a) -> entry o a i j = v.
  Proof.
    intros W H. apply sp_wf_iff in W. destruct W as [_ S]. rewrite entry_psum.
    apply (sorted_psum_stored (sp_st a) (i, j, v) S H).
  Qed.

  Lemma entry_not_stored (a : spmat) i j : (forall v, ~ In (i, j, v) (sp_st a)) -> entry o a i j = 0.
  Proof.
    intros H. rewrite entry_psum. apply psum_not_stored. intros [[i' j'] v] He [E1 E2].
    cbn [e_row e_col fst snd] in E1, E2. subst. now apply (H v).
  Qed.

  Lemma entry_outside (a : spmat) i j : sp_wf a -> (sp_m a <= i)%nat \/ (sp_n a <= j)%nat -> entry o a i j = 0.
  Proof.
    intros W H. apply sp_wf_iff in W. destruct W as [B _]. rewrite entry_psum.
    apply (psum_out _ _ _ _ B). intros i' j' Hi Hj. unfold key_eq. eqb_cases.
  Qed.

  Lemma entry_cases (a : spmat) i j : sp_wf a ->
    (exists v, In (i, j, v) (sp_st a) /\ entry o a i j = v) \/
    ((forall v, ~ In (i, j, v) (sp_st a)) /\ entry o a i j = 0).
  Proof.
    intros W.
    destruct (existsb (fun e => key_eq (e_row e) (e_col e) i j) (sp_st a)) eqn:E.
    - apply existsb_exists in E. destruct E as [[[i' j'] v] [He K]]. apply key_eq_true in K.
      cbn [e_row e_col fst snd] in K. destruct K as [-> ->]. left. exists v. split; [exact He|]. now apply entry_stored.
    - right. assert (H : forall v, ~ In (i, j, v) (sp_st a)).
      { intros v Hv. assert (existsb (fun e => key_eq (e_row e) (e_col e) i j) (sp_st a) = true).
        { apply existsb_exists. exists (i, j, v). split; [exact Hv|]. apply key_eq_refl. }
        congruence. }
      split; [exact H|]. now apply entry_not_stored.
  Qed.
End SpBase.

