(* Matrices as functions nat -> nat -> R over a ring dictionary, with finite sums.
   This is the mathematical reference for every matrix theorem: executable representations (lists of
   rows, sparse entry lists, ...) are related to it by an entry function.  Equalities that hold for all
   indices are stated pointwise without bounds; [meq m n] is equality on the m x n window. *)
From Coq Require Import Arith List Lia Ring Bool.
Require Import Yui.Base.Ring.
Import ListNotations.

Section MatF.
  Context {R : Type} (o : ring_ops R) (L : ring_laws o).

  Local Notation "0" := (rzero o).
  Local Notation "1" := (rone o).
  Local Infix "+" := (radd o).
  Local Infix "*" := (rmul o).
  Local Notation "- x" := (rneg o x).

  Add Ring Rring : (ring_theory_of_laws o L).

  Fixpoint sum (n : nat) (f : nat -> R) : R :=
    match n with O => 0 | S k => sum k f + f k end.

  Lemma sum_ext n f g : (forall k, (k < n)%nat -> f k = g k) -> sum n f = sum n g.
  Proof.
    induction n as [|n IH]; intros H; cbn [sum]; [reflexivity|].
    rewrite IH by (intros; apply H; lia). rewrite H by lia. reflexivity.
  Qed.

  Lemma sum_zero n : sum n (fun _ => 0) = 0.
  Proof. induction n as [|n IH]; cbn [sum]; [reflexivity|]. rewrite IH. ring. Qed.

  Lemma sum_zero_ext n f : (forall k, (k < n)%nat -> f k = 0) -> sum n f = 0.
  Proof. intros H. rewrite (sum_ext n f (fun _ => 0)) by exact H. apply sum_zero. Qed.

  Lemma sum_add n f g : sum n (fun k => f k + g k) = sum n f + sum n g.
  Proof. induction n as [|n IH]; cbn [sum]; [ring|]. rewrite IH. ring. Qed.

  Lemma sum_neg n f : sum n (fun k => - f k) = - sum n f.
  Proof. induction n as [|n IH]; cbn [sum]; [ring|]. rewrite IH. ring. Qed.

  Lemma sum_scal_l n a f : sum n (fun k => a * f k) = a * sum n f.
  Proof. induction n as [|n IH]; cbn [sum]; [ring|]. rewrite IH. ring. Qed.

  Lemma sum_scal_r n a f : sum n (fun k => f k * a) = sum n f * a.
  Proof. induction n as [|n IH]; cbn [sum]; [ring|]. rewrite IH. ring. Qed.

  Lemma sum_swap m n (f : nat -> nat -> R) :
    sum m (fun i => sum n (fun j => f i j)) = sum n (fun j => sum m (fun i => f i j)).
  Proof.
    induction m as [|m IH]; cbn [sum].
    - now rewrite sum_zero.
    - rewrite IH, <- sum_add. reflexivity.
  Qed.

  Lemma sum_delta n i f : (i < n)%nat -> sum n (fun k => if k =? i then f k else 0) = f i.
  Proof.
    induction n as [|n IH]; intros H; [lia|]. cbn [sum].
    destruct (Nat.eqb_spec n i) as [->|Hne].
    - rewrite sum_zero_ext; [ring|]. intros k Hk. destruct (Nat.eqb_spec k i); [lia|reflexivity].
    - rewrite IH by lia. ring.
  Qed.

  Lemma sum_delta_out n i f : (n <= i)%nat -> sum n (fun k => if k =? i then f k else 0) = 0.
  Proof.
    intros H. apply sum_zero_ext. intros k Hk. destruct (Nat.eqb_spec k i); [lia|reflexivity].
  Qed.

  Lemma sum_split n m f : sum (n + m) f = sum n f + sum m (fun k => f (n + k)%nat).
  Proof.
    induction m as [|m IH].
    - rewrite Nat.add_0_r. cbn [sum]. ring.
    - rewrite Nat.add_succ_r. cbn [sum]. rewrite IH. ring.
  Qed.

  Lemma sum_S_first n f : sum (S n) f = f O + sum n (fun k => f (S k)).
  Proof.
    change (S n) with (1 + n)%nat. rewrite sum_split. cbn [sum Nat.add]. ring.
  Qed.

  Lemma sum_single n i f : (i < n)%nat -> (forall k, (k < n)%nat -> k <> i -> f k = 0) -> sum n f = f i.
  Proof.
    intros Hi H. rewrite <- (sum_delta n i f Hi). apply sum_ext. intros k Hk.
    destruct (Nat.eqb_spec k i); [reflexivity|]. now apply H.
  Qed.

  Definition mat := nat -> nat -> R.

  Definition meq (m n : nat) (A B : mat) : Prop := forall i j, (i < m)%nat -> (j < n)%nat -> A i j = B i j.

  Definition mzero : mat := fun _ _ => 0.
  Definition mid : mat := fun i j => if i =? j then 1 else 0.
  Definition madd (A B : mat) : mat := fun i j => A i j + B i j.
  Definition mneg (A : mat) : mat := fun i j => - A i j.
  Definition msub (A B : mat) : mat := fun i j => A i j + - B i j.
  Definition mscal (a : R) (A : mat) : mat := fun i j => a * A i j.
  Definition mtrans (A : mat) : mat := fun i j => A j i.
  (* (m x n) * (n x p): only the inner dimension matters *)
  Definition mmul (n : nat) (A B : mat) : mat := fun i j => sum n (fun k => A i k * B k j).

  Lemma meq_refl m n A : meq m n A A.
  Proof. intros i j _ _. reflexivity. Qed.
  Lemma meq_sym m n A B : meq m n A B -> meq m n B A.
  Proof. intros H i j Hi Hj. symmetry. now apply H. Qed.
  Lemma meq_trans m n A B C : meq m n A B -> meq m n B C -> meq m n A C.
  Proof. intros H1 H2 i j Hi Hj. rewrite H1 by assumption. now apply H2. Qed.
  Lemma meq_sub m n m' n' A B : (m' <= m)%nat -> (n' <= n)%nat -> meq m n A B -> meq m' n' A B.
  Proof. intros Hm Hn H i j Hi Hj. apply H; lia. Qed.

  Lemma mmul_ext n m p A A' B B' :
    meq m n A A' -> meq n p B B' -> meq m p (mmul n A B) (mmul n A' B').
  Proof.
    intros HA HB i j Hi Hj. unfold mmul. apply sum_ext. intros k Hk.
    rewrite HA, HB by assumption. reflexivity.
  Qed.

  Lemma mmul_ext_l n A A' B i j :
    (forall l, (l < n)%nat -> A i l = A' i l) -> mmul n A B i j = mmul n A' B i j.
  Proof. intros H. unfold mmul. apply sum_ext. intros l Hl. now rewrite H. Qed.

  Lemma mmul_ext_r n A B B' i j :
    (forall l, (l < n)%nat -> B l j = B' l j) -> mmul n A B i j = mmul n A B' i j.
  Proof. intros H. unfold mmul. apply sum_ext. intros l Hl. now rewrite H. Qed.

  Lemma mmul_assoc n p A B C i j :
    mmul p (mmul n A B) C i j = mmul n A (mmul p B C) i j.
  Proof.
    unfold mmul.
    rewrite (sum_ext p _ (fun l => sum n (fun k => A i k * B k l * C l j))).
    2:{ intros l _. rewrite <- sum_scal_r. reflexivity. }
    rewrite sum_swap. apply sum_ext. intros k _.
    rewrite <- sum_scal_l. apply sum_ext. intros l _. ring.
  Qed.

  Lemma mmul_id_l n A i j : (i < n)%nat -> mmul n mid A i j = A i j.
  Proof.
    intros Hi. unfold mmul, mid.
    rewrite (sum_ext n _ (fun k => if k =? i then A k j else 0)).
    - now rewrite sum_delta.
    - intros k _. rewrite Nat.eqb_sym. destruct (k =? i); ring.
  Qed.

  Lemma mmul_id_r n A i j : (j < n)%nat -> mmul n A mid i j = A i j.
  Proof.
    intros Hj. unfold mmul, mid.
    rewrite (sum_ext n _ (fun k => if k =? j then A i k else 0)).
    - now rewrite sum_delta.
    - intros k _. destruct (k =? j); ring.
  Qed.

  Lemma mmul_add_l n A B C i j : mmul n (madd A B) C i j = madd (mmul n A C) (mmul n B C) i j.
  Proof. unfold mmul, madd. rewrite <- sum_add. apply sum_ext. intros k _. ring. Qed.

  Lemma mmul_add_r n A B C i j : mmul n A (madd B C) i j = madd (mmul n A B) (mmul n A C) i j.
  Proof. unfold mmul, madd. rewrite <- sum_add. apply sum_ext. intros k _. ring. Qed.

  Lemma mmul_neg_l n A B i j : mmul n (mneg A) B i j = mneg (mmul n A B) i j.
  Proof. unfold mmul, mneg. rewrite <- sum_neg. apply sum_ext. intros k _. ring. Qed.

  Lemma mmul_neg_r n A B i j : mmul n A (mneg B) i j = mneg (mmul n A B) i j.
  Proof. unfold mmul, mneg. rewrite <- sum_neg. apply sum_ext. intros k _. ring. Qed.

  Lemma mmul_scal_l n a A B i j : mmul n (mscal a A) B i j = mscal a (mmul n A B) i j.
  Proof. unfold mmul, mscal. rewrite <- sum_scal_l. apply sum_ext. intros k _. ring. Qed.

  Lemma mmul_zero_row n A B i j : (forall l, (l < n)%nat -> A i l = 0) -> mmul n A B i j = 0.
  Proof. intros H. unfold mmul. apply sum_zero_ext. intros l Hl. rewrite H by exact Hl. ring. Qed.

  Lemma mmul_zero_col n A B i j : (forall l, (l < n)%nat -> B l j = 0) -> mmul n A B i j = 0.
  Proof. intros H. unfold mmul. apply sum_zero_ext. intros l Hl. rewrite H by exact Hl. ring. Qed.

  Lemma mmul_zero_l n A i j : mmul n mzero A i j = 0.
  Proof. now apply mmul_zero_row. Qed.

  Lemma mmul_zero_r n A i j : mmul n A mzero i j = 0.
  Proof. now apply mmul_zero_col. Qed.

  (* a one-sided inverse cancels *)
  Lemma mmul_cancel_l m Pi P X i j :
    meq m m (mmul m Pi P) mid -> (i < m)%nat -> mmul m Pi (mmul m P X) i j = X i j.
  Proof.
    intros H Hi. rewrite <- mmul_assoc.
    rewrite (mmul_ext_l m _ mid) by (intros l Hl; now apply H).
    now apply mmul_id_l.
  Qed.

  Lemma mmul_cancel_r m X P Pi i j :
    meq m m (mmul m P Pi) mid -> (j < m)%nat -> mmul m (mmul m X P) Pi i j = X i j.
  Proof.
    intros H Hj. rewrite mmul_assoc.
    rewrite (mmul_ext_r m _ _ mid) by (intros l Hl; now apply H).
    now apply mmul_id_r.
  Qed.

  (* (A B)(C E) = A ((B C) E) = A E = I: products of inverse pairs are inverse pairs *)
  Lemma meq_inv_pair k A B C E AB CE :
    meq k k (mmul k B C) mid -> meq k k (mmul k A E) mid ->
    meq k k AB (mmul k A B) -> meq k k CE (mmul k C E) -> meq k k (mmul k AB CE) mid.
  Proof.
    intros HBC HAE HAB HCE i j Hi Hj.
    rewrite (mmul_ext k k k _ _ _ _ HAB HCE i j Hi Hj), mmul_assoc, <- (HAE i j Hi Hj).
    apply mmul_ext_r. intros l Hl. now apply mmul_cancel_l.
  Qed.

  Lemma mtrans_mmul n A B i j : mtrans (mmul n A B) i j = mmul n (mtrans B) (mtrans A) i j.
  Proof. unfold mtrans, mmul. apply sum_ext. intros k _. ring. Qed.

  (* the inner dimension may be enlarged when the extra columns (or rows) vanish *)
  Lemma mmul_inner_ext n n' A B i j :
    (n <= n')%nat -> (forall k, (n <= k < n')%nat -> A i k = 0 \/ B k j = 0) ->
    mmul n' A B i j = mmul n A B i j.
  Proof.
    intros Hn H. unfold mmul. replace n' with (n + (n' - n))%nat by lia. rewrite sum_split.
    rewrite (sum_zero_ext (n' - n)); [ring|].
    intros k Hk. destruct (H (n + k)%nat ltac:(lia)) as [E|E]; rewrite E; ring.
  Qed.

  (* block decomposition of the inner sum *)
  Lemma mmul_split n1 n2 A B i j :
    mmul (n1 + n2) A B i j
    = mmul n1 A B i j + mmul n2 (fun i k => A i (n1 + k)%nat) (fun k j => B (n1 + k)%nat j) i j.
  Proof. unfold mmul. now rewrite sum_split. Qed.

  (* matrix-vector product with vectors as functions *)
  Definition mvec (n : nat) (A : mat) (v : nat -> R) : nat -> R := fun i => sum n (fun k => A i k * v k).

  Lemma mvec_id n v i : (i < n)%nat -> mvec n mid v i = v i.
  Proof. exact (mmul_id_l n (fun k _ => v k) i O). Qed.

  Lemma mvec_ext A v v' n i : (forall l, (l < n)%nat -> v l = v' l) -> mvec n A v i = mvec n A v' i.
  Proof. intros H. unfold mvec. apply sum_ext. intros l Hl. now rewrite H. Qed.

  Lemma mvec_ext_row A A' v n i : (forall l, (l < n)%nat -> A i l = A' i l) -> mvec n A v i = mvec n A' v i.
  Proof. intros H. unfold mvec. apply sum_ext. intros l Hl. now rewrite H. Qed.

  Lemma mvec_mmul n p A B v i : mvec p (mmul n A B) v i = mvec n A (mvec p B v) i.
  Proof.
    unfold mvec, mmul.
    rewrite (sum_ext p _ (fun l => sum n (fun k => A i k * B k l * v l))).
    2:{ intros l _. rewrite <- sum_scal_r. reflexivity. }
    rewrite sum_swap. apply sum_ext. intros k _.
    rewrite <- sum_scal_l. apply sum_ext. intros l _. ring.
  Qed.
End MatF.

Arguments sum {R} o n f.
Arguments mat R : clear implicits.
Arguments meq {R} m n A B.
Arguments mzero {R} o _ _.
Arguments mid {R} o _ _.
Arguments madd {R} o A B _ _.
Arguments mneg {R} o A _ _.
Arguments msub {R} o A B _ _.
Arguments mscal {R} o a A _ _.
Arguments mtrans {R} A _ _.
Arguments mmul {R} o n A B _ _.
Arguments mvec {R} o n A v _.
