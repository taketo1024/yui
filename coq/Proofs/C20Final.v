(* C20: the names clap accepts for -t ([parse_ctype_spec]), every ring symbol is readable
   ([ring_symbol_good]), and the CLI model end to end ([table_outcome_roundtrip]): a printed table is the
   rendering of what the library returned for the decided parameters and reads back as in C20Print.v. *)
From Coq Require Import ZArith NArith List Bool Arith Lia.
Require Import Yui.Model.Table Yui.Model.Cli Yui.Proofs.C20Str Yui.Proofs.C20Table Yui.Proofs.C20Rmod
               Yui.Proofs.C20Print Yui.Proofs.C20Cli.
Import ListNotations.

Definition ctype_name (ty : ctype) : str :=
  match ty with
  | TZ => [90]%N | TQ => [81]%N | TF2 => [70; 50]%N | TF3 => [70; 51]%N
  | TGauss => [71; 97; 117; 115; 115]%N | TEisen => [69; 105; 115; 101; 110]%N
  end.
Theorem parse_ctype_spec : forall s ty, parse_ctype s = Some ty <-> s = ctype_name ty.
Proof.
  intros s ty. split.
  - unfold parse_ctype. intro H.
    repeat match type of H with
           | (if str_eqb s ?n then _ else _) = _ =>
               let E := fresh "E" in destruct (str_eqb s n) eqn:E;
               [apply str_eqb_eq in E; inversion H; subst; reflexivity|]
           end.
    discriminate.
  - intros ->. destruct ty; reflexivity.
Qed.

Theorem ring_symbol_good : forall r, good_symbol (ring_symbol r).
Proof.
  intros [b v]. unfold good_symbol, goodc.
  destruct b, v; vm_compute;
    (repeat split; try discriminate;
     intros c H; repeat (destruct H as [H|H]; [subst c; discriminate|]); destruct H).
Qed.

Theorem table_outcome_roundtrip : forall cmd t_arg c_arg mirror reduced link lib out,
  run cmd t_arg c_arg mirror reduced link lib = OTable out ->
  exists ty p,
    ctype_of_arg t_arg = Some ty /\ decide cmd ty (cvalue_of_arg c_arg) reduced = DCompute p /\ link = LOk /\
    let sym := ring_symbol (p_ring p) in
    match p_display p with
    | DBigraded =>
        exists g, lib_kh_bigraded lib p mirror = Some g /\ out = kh_stdout_bigraded sym g /\
                  ((forall e, In e g -> tors_one_line (snd e)) ->
                   read_kh_bigraded out = Some (nonzero_cells sym g))
    | DSeq =>
        exists g, lib_kh_seq lib p mirror = Some g /\ out = kh_stdout_seq sym g /\
                  (g <> [] -> (forall e, In e g -> tors_one_line (snd e)) ->
                   read_kh_seq out = Some (seq_cells sym g))
    | DGrid =>
        exists g, lib_ckh lib p mirror = Some g /\ out = ckh_stdout sym g /\
                  ((forall e, In e g -> tors_one_line (snd e)) ->
                   read_ckh out = Some (nonzero_cells sym g))
    end.
Proof.
  intros until out. intro H. apply run_table_inv in H. destruct H as (ty & p & Ht & Hd & Hl & Hr).
  exists ty, p. repeat (split; [assumption|]). cbn zeta.
  pose proof (ring_symbol_good (p_ring p)) as Hsym.
  unfold rendered in Hr. destruct (p_display p).
  - destruct (lib_kh_bigraded lib p mirror) as [g|]; [|discriminate]. cbn [option_map] in Hr. injection Hr as <-.
    exists g. repeat split. intro Hg. now apply kh_bigraded_roundtrip.
  - destruct (lib_kh_seq lib p mirror) as [g|]; [|discriminate]. cbn [option_map] in Hr. injection Hr as <-.
    exists g. repeat split. intros Hne Hg. now apply kh_seq_roundtrip.
  - destruct (lib_ckh lib p mirror) as [g|]; [|discriminate]. cbn [option_map] in Hr. injection Hr as <-.
    exists g. repeat split. intro Hg. now apply ckh_roundtrip.
Qed.
