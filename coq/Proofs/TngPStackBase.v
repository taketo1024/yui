(* Vertical composition (Model/TngStack.v), part 1: the breadth-first search of Cob::take_stackable_comps.
   [pull] / [drain] / [bfs] move components from the pools to the queues and to the result lists without losing or
   duplicating any; the fuel of [bfs] and of [stack_loop] is never exhausted (the loops of take_stackable_comps and of
   Cob::stack terminate on ALL inputs). *)
From Coq Require Import List Arith Bool Lia ZArith Permutation.
Import ListNotations.
Require Import Yui.Model.Link Yui.Model.Tng Yui.Model.TngCob Yui.Model.TngStack.
Require Import Yui.Proofs.TngPSegs.

(* [perm_app] proves a Permutation between two concatenations of the same blocks in different order; [perm_norm]
   (right-nest both sides), [perm_go] (match the blocks one by one) and [perm_bring] (move one block to the front) are
   its stages *)
Ltac perm_bring a :=
  match goal with
  | |- Permutation (a ++ ?s) _ => apply Permutation_refl
  | |- Permutation (?b ++ ?s) _ =>
       etransitivity; [apply Permutation_app_head; perm_bring a | apply Permutation_app_swap_app]
  end.
Ltac perm_norm :=
  match goal with
  | |- @Permutation ?A ?l ?r =>
      apply (@Permutation_trans A l (l ++ []) r); [rewrite app_nil_r; apply Permutation_refl|];
      apply (@Permutation_trans A (l ++ []) (r ++ []) r); [|rewrite app_nil_r; apply Permutation_refl]
  end; rewrite <- ?app_assoc; rewrite ?app_nil_l.
Ltac perm_go :=
  repeat match goal with
  | |- Permutation ?x ?x => apply Permutation_refl
  | |- Permutation (?a ++ _) (?a ++ _) => apply Permutation_app_head
  | |- Permutation (?a ++ ?r) ?rhs => etransitivity; [| apply Permutation_sym; perm_bring a ]
  end.
Ltac perm_app := perm_norm; perm_go.

Definition hit (sel : cobcomp -> tng) (m : path) (t : cobcomp) : bool := tng_contains (sel t) m.

Lemma pull_spec : forall sel cs pool q pool' q', pull sel cs pool q = (pool', q') ->
  exists pulled, q' = q ++ pulled /\ Permutation pool (pulled ++ pool') /\
    Forall (fun t => exists m, In m cs /\ hit sel m t = true) pulled.
Proof.
  intros sel. induction cs as [|m r IH]; intros pool q pool' q'; cbn [pull].
  - intros E. inversion E; subst. exists []. rewrite app_nil_r. repeat split; auto.
  - destruct (find_index _ pool) as [i|] eqn:Ef.
    + destruct (find_index_split _ _ _ Ef) as (l1 & x & l2 & -> & <- & Hx & _).
      rewrite remove_nth_middle, nth_middle. intros E.
      destruct (IH _ _ _ _ E) as (pl & -> & Hp & Hf). exists (x :: pl).
      split; [rewrite <- app_assoc; reflexivity|]. split.
      * eapply perm_trans; [apply Permutation_sym, Permutation_middle|]. cbn [app]. constructor. exact Hp.
      * constructor; [exists m; split; [left; reflexivity|exact Hx]|].
        eapply Forall_impl; [|exact Hf]. intros t (m' & Hm & Ht). exists m'. split; [right; exact Hm|exact Ht].
    + intros E. destruct (IH _ _ _ _ E) as (pl & -> & Hp & Hf). exists pl. repeat split; auto.
      eapply Forall_impl; [|exact Hf]. intros t (m' & Hm & Ht). exists m'. split; [right; exact Hm|exact Ht].
Qed.

Lemma drain_spec : forall other own q pool qo res pool' qo' res',
  drain other own q pool qo res = (pool', qo', res') ->
  exists pulled, qo' = qo ++ pulled /\ res' = res ++ q /\ Permutation pool (pulled ++ pool') /\
    Forall (fun t => exists b m, In b q /\ In m (own b) /\ hit other m t = true) pulled.
Proof.
  intros other own. induction q as [|b r IH]; intros pool qo res pool' qo' res'; cbn [drain].
  - intros E. inversion E; subst. exists []. rewrite !app_nil_r. repeat split; auto.
  - destruct (pull other (own b) pool qo) as [pool1 qo1] eqn:Ep. intros E.
    destruct (pull_spec _ _ _ _ _ _ Ep) as (p1 & -> & Hp1 & Hf1).
    destruct (IH _ _ _ _ _ _ E) as (p2 & -> & -> & Hp2 & Hf2). exists (p1 ++ p2).
    split; [rewrite app_assoc; reflexivity|]. split; [rewrite <- app_assoc; reflexivity|]. split.
    + eapply perm_trans; [exact Hp1|]. rewrite <- app_assoc. apply Permutation_app_head. exact Hp2.
    + apply Forall_app. split.
      * eapply Forall_impl; [|exact Hf1]. intros t (m & Hm & Ht). exists b, m. repeat split; auto. left; reflexivity.
      * eapply Forall_impl; [|exact Hf2]. intros t (b' & m & Hb & Hm & Ht). exists b', m. repeat split; auto. right; exact Hb.
Qed.

(* one round drains the bottom queue into the top queue (pulling p1 from the top pool), then the whole top queue into a
   new bottom queue (pulling p2 from the bottom pool) *)
Lemma bfs_rounds : forall (Q : list cobcomp -> list cobcomp -> list cobcomp -> list cobcomp -> list cobcomp -> list cobcomp ->
                            list cobcomp -> list cobcomp -> list cobcomp -> list cobcomp -> Prop),
  (forall bot top resb rest, Q bot top [] [] resb rest bot top resb rest) ->
  (forall bot top qb qt resb rest top1 p1 bot1 p2 bot' top' gb gt,
     drain csrc ctgt qb top qt resb = (top1, qt ++ p1, resb ++ qb) ->
     drain ctgt csrc (qt ++ p1) bot [] rest = (bot1, p2, rest ++ qt ++ p1) ->
     Permutation top (p1 ++ top1) -> Permutation bot (p2 ++ bot1) ->
     Forall (fun t => exists b m, In b qb /\ In m (ctgt b) /\ hit csrc m t = true) p1 ->
     Forall (fun b => exists t m, In t (qt ++ p1) /\ In m (csrc t) /\ hit ctgt m b = true) p2 ->
     Q bot1 top1 p2 [] (resb ++ qb) (rest ++ qt ++ p1) bot' top' gb gt -> Q bot top qb qt resb rest bot' top' gb gt) ->
  forall fuel bot top qb qt resb rest bot' top' gb gt,
    bfs fuel bot top qb qt resb rest = Some (bot', top', gb, gt) -> Q bot top qb qt resb rest bot' top' gb gt.
Proof.
  intros Q Q0 QS. induction fuel as [|f IH]; intros bot top qb qt resb rest bot' top' gb gt; cbn [bfs];
    destruct (is_nil qb && is_nil qt) eqn:En; try discriminate.
  1, 2: apply andb_true_iff in En; destruct En, qb, qt; try discriminate; intros [= <- <- <- <-]; apply Q0.
  destruct (drain csrc ctgt qb top qt resb) as [[top1 qt1] resb1] eqn:E1.
  destruct (drain ctgt csrc qt1 bot [] rest) as [[bot1 qb1] rest1] eqn:E2. intros E.
  destruct (drain_spec _ _ _ _ _ _ _ _ _ E1) as (p1 & -> & -> & Hp1 & Hf1).
  destruct (drain_spec _ _ _ _ _ _ _ _ _ E2) as (p2 & Eq & -> & Hp2 & Hf2). cbn [app] in Eq. subst qb1.
  exact (QS _ _ _ _ _ _ _ _ _ _ _ _ _ _ E1 E2 Hp1 Hp2 Hf1 Hf2 (IH _ _ _ _ _ _ _ _ _ _ E)).
Qed.

Lemma bfs_perm : forall fuel bot top qb qt resb rest bot' top' gb gt,
  bfs fuel bot top qb qt resb rest = Some (bot', top', gb, gt) ->
  Permutation (bot ++ qb ++ resb) (bot' ++ gb) /\ Permutation (top ++ qt ++ rest) (top' ++ gt) /\
  (exists more, gb = resb ++ qb ++ more) /\ (exists more, gt = rest ++ qt ++ more).
Proof.
  apply bfs_rounds.
  - intros bot top resb rest. cbn [app]. repeat split; auto; exists []; rewrite app_nil_r; reflexivity.
  - intros bot top qb qt resb rest top1 p1 bot1 p2 bot' top' gb gt _ _ Hp1 Hp2 _ _ (P1 & P2 & (m1 & M1) & (m2 & M2)).
    cbn [app] in *. split; [|split; [|split]].
    + eapply perm_trans; [|exact P1]. eapply perm_trans; [apply Permutation_app_tail; exact Hp2|]. perm_app.
    + eapply perm_trans; [|exact P2]. eapply perm_trans; [apply Permutation_app_tail; exact Hp1|]. perm_app.
    + exists (p2 ++ m1). rewrite M1, <- !app_assoc. reflexivity.
    + exists (p1 ++ m2). rewrite M2, <- !app_assoc. cbn [app]. reflexivity.
Qed.

Lemma bfs_fuel : forall fuel bot top qb qt resb rest, length bot < fuel ->
  bfs fuel bot top qb qt resb rest <> None.
Proof.
  induction fuel as [|f IH]; intros bot top qb qt resb rest Hl; [lia|]. cbn [bfs].
  destruct (is_nil qb && is_nil qt); [discriminate|].
  destruct (drain csrc ctgt qb top qt resb) as [[top1 qt1] resb1] eqn:E1.
  destruct (drain ctgt csrc qt1 bot [] rest) as [[bot1 qb1] rest1] eqn:E2.
  destruct (drain_spec _ _ _ _ _ _ _ _ _ E2) as (p2 & E & _ & Hp2 & _). cbn [app] in E. subst qb1.
  apply Permutation_length in Hp2. rewrite app_length in Hp2.
  destruct p2 as [|x p2].
  - destruct f; cbn [bfs is_nil andb]; discriminate.
  - apply IH. cbn [length] in Hp2. lia.
Qed.

Lemma take_stackable_some : forall bot top, take_stackable bot top <> None.
Proof.
  intros [|b bot] [|t top]; cbn [take_stackable]; try discriminate; apply bfs_fuel; cbn [length]; lia.
Qed.

(* take_stackable_comps removes the group from the pools; the group is not empty unless both pools are *)
Lemma take_stackable_perm : forall bot top bot' top' gb gt, take_stackable bot top = Some (bot', top', gb, gt) ->
  Permutation bot (bot' ++ gb) /\ Permutation top (top' ++ gt) /\
  (bot <> [] \/ top <> [] -> gb <> [] \/ gt <> []) /\
  (forall b r, bot = b :: r -> exists more, gb = b :: more) /\
  (bot = [] -> gb = [] /\ forall t r, top = t :: r -> exists more, gt = t :: more).
Proof.
  intros [|b bot] top bot' top' gb gt; [destruct top as [|t top]|]; cbn [take_stackable].
  - intros E. inversion E; subst. split; [constructor|]. split; [constructor|]. split; [intros [H|H]; congruence|].
    split; [intros; discriminate|]. intros _. split; [reflexivity|intros; discriminate].
  - intros E. destruct (bfs_perm _ _ _ _ _ _ _ _ _ _ _ E) as (P1 & P2 & (m1 & M1) & (m2 & M2)). cbn [app] in *.
    split; [exact P1|]. split; [eapply perm_trans; [apply Permutation_cons_append|exact P2]|].
    split; [intros _; right; rewrite M2; discriminate|]. split; [intros; discriminate|].
    intros _. apply Permutation_nil in P1. destruct bot'; [|discriminate]. cbn [app] in P1. subst gb.
    split; [reflexivity|]. intros t' r E'. inversion E'; subst. exists m2. reflexivity.
  - intros E. destruct (bfs_perm _ _ _ _ _ _ _ _ _ _ _ E) as (P1 & P2 & (m1 & M1) & (m2 & M2)). cbn [app] in *.
    split; [eapply perm_trans; [apply Permutation_cons_append|exact P1]|].
    split; [rewrite app_nil_r in P2; exact P2|]. split; [intros _; left; rewrite M1; discriminate|].
    split; [intros b' r E'; inversion E'; subst; exists m1; reflexivity|intros; discriminate].
Qed.

Lemma stack_loop_fuel : forall fuel bot top acc, length bot + length top <= fuel ->
  stack_loop fuel bot top acc <> None.
Proof.
  induction fuel as [|f IH]; intros bot top acc Hl.
  - destruct bot; [|cbn in Hl; lia]. destruct top; [|cbn in Hl; lia]. cbn. discriminate.
  - cbn [stack_loop]. destruct (is_nil bot && is_nil top) eqn:En; [discriminate|].
    destruct (take_stackable bot top) as [[[[bot' top'] gb] gt]|] eqn:Et; [|exfalso; eapply take_stackable_some; eauto].
    destruct (take_stackable_perm _ _ _ _ _ _ Et) as (P1 & P2 & Hne & _).
    apply Permutation_length in P1, P2. rewrite app_length in P1, P2.
    assert (Hg : gb <> [] \/ gt <> []).
    { apply Hne. destruct bot; [|left; discriminate]. destruct top; [discriminate|right; discriminate]. }
    assert (Hlt : length bot' + length top' <= f).
    { destruct Hg as [Hg|Hg]; [destruct gb|destruct gt]; try congruence; cbn [length] in *; lia. }
    destruct (is_nil gt).
    + destruct gb as [|x [|y gb]]; try discriminate. apply IH; auto.
    + destruct (is_nil gb).
      * destruct gt as [|x [|y gt]]; try discriminate. apply IH; auto.
      * destruct (stack_comps gb gt); [apply IH; auto|discriminate].
Qed.

Theorem cob_stack_fuel_sufficient : forall a b, cob_stack_fuel a b <> None.
Proof.
  intros a b. unfold cob_stack_fuel. destruct (is_nil a); [discriminate|]. destruct (is_nil b); [discriminate|].
  destruct (stack_loop (length a + length b) a b []) as [[cs|]|] eqn:E; try discriminate.
  exfalso. eapply stack_loop_fuel; [|exact E]. lia.
Qed.
