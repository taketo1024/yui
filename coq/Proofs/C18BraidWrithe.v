(* C18 - the writhe of a braid closure is the exponent sum of the word.
   By C18Orient the signs are those of the downward orientation with a set [rev] of components reversed,
   none of which passes under.  Reversing such components does not change the writhe: with
   Phi(k) = sum of the positions occupied at level k by reversed strands, a crossing whose over-strand is
   reversed changes Phi by minus its sign (the under-strand is not reversed), all other crossings leave
   Phi unchanged, and Phi(|w|) = Phi(0) because level |w| is glued to level 0.
   Before that: the closure is oriented by [braid_o] with the letters' signs ([closure_oriented_full]) and the
   sign list is the letters' signs up to the reversed components ([closure_signs], [closure_signs_letters]). *)
From Coq Require Import List Arith Bool Lia ZArith.
Require Import Yui.Model.Link Yui.Model.Braid Yui.Proofs.C18Base Yui.Proofs.C18Traverse
  Yui.Proofs.C18Components Yui.Proofs.C18Main Yui.Proofs.C18Orient Yui.Proofs.C18BraidRows
  Yui.Proofs.C18BraidOrient.
Import ListNotations.
Local Open Scope Z_scope.

Definition val (s : sign) : Z := match s with Pos => 1 | Neg => -1 end.
Definition b2z (b : bool) : Z := if b then 1 else 0.
Fixpoint zsum (g : nat -> Z) (n : nat) : Z := match n with O => 0 | S n' => zsum g n' + g n' end.
Definition lsum (l : list Z) : Z := fold_right Z.add 0 l.

Lemma zsum_ext : forall g g' n, (forall k, (k < n)%nat -> g k = g' k) -> zsum g n = zsum g' n.
Proof.
  induction n as [|n IH]; intros H; cbn [zsum]; auto. rewrite IH by (intros; apply H; lia).
  rewrite H by lia. reflexivity.
Qed.
Lemma zsum_upd1 : forall g g' n i, (i < n)%nat -> (forall j, (j < n)%nat -> j <> i -> g' j = g j) ->
  zsum g' n = zsum g n + (g' i - g i).
Proof.
  induction n as [|n IH]; intros i Hi H; [lia|]. cbn [zsum].
  destruct (Nat.eq_dec i n) as [->|N].
  - rewrite (zsum_ext g' g n) by (intros; apply H; lia). lia.
  - rewrite (IH i) by (try lia; intros; apply H; lia). rewrite (H n) by lia. lia.
Qed.
Lemma zsum_upd2 : forall g g' n i, (S i < n)%nat ->
  (forall j, (j < n)%nat -> j <> i -> j <> S i -> g' j = g j) ->
  zsum g' n = zsum g n + (g' i - g i) + (g' (S i) - g (S i)).
Proof.
  intros g g' n i Hi H.
  set (h := fun j => if (j =? i)%nat then g' i else g j).
  assert (E1 : zsum h n = zsum g n + (h i - g i)).
  { apply zsum_upd1; [lia|]. intros j Hj N. unfold h. apply Nat.eqb_neq in N. rewrite N. reflexivity. }
  assert (E2 : zsum g' n = zsum h n + (g' (S i) - h (S i))).
  { apply zsum_upd1; [lia|]. intros j Hj N. unfold h. destruct (Nat.eqb_spec j i) as [->|N']; auto. }
  unfold h in E1 at 2. unfold h in E2 at 2. rewrite Nat.eqb_refl in E1.
  assert ((S i =? i)%nat = false) as Q by (apply Nat.eqb_neq; lia). rewrite Q in E2. lia.
Qed.
Lemma zsum_add : forall g g' n, zsum (fun k => g k + g' k) n = zsum g n + zsum g' n.
Proof. induction n; cbn [zsum]; lia. Qed.
Lemma zsum_scale : forall c g n, zsum (fun k => c * g k) n = c * zsum g n.
Proof. induction n; cbn [zsum]; lia. Qed.

Lemma lsum_app : forall a b, lsum (a ++ b) = lsum a + lsum b.
Proof. induction a; intros; cbn; auto. unfold lsum in *. rewrite IHa. lia. Qed.
Lemma lsum_seq : forall g n, lsum (map g (seq 0 n)) = zsum g n.
Proof.
  induction n as [|n IH]; [reflexivity|]. rewrite seq_S, map_app, lsum_app, IH. cbn. lia.
Qed.
Lemma map_nth_seq : forall A (w : list Z) (h : Z -> A),
  map (fun k => h (nth k w 0)) (seq 0 (length w)) = map h w.
Proof.
  intros A w h. induction w as [|s w IH] using rev_ind; [reflexivity|].
  rewrite app_length. cbn [length]. rewrite Nat.add_1_r, seq_S, !map_app. cbn [map Nat.add].
  rewrite app_nth2, Nat.sub_diag by lia. cbn [nth]. f_equal. rewrite <- IH.
  apply map_ext_in. intros k Hk. apply in_seq in Hk. rewrite app_nth1; auto; lia.
Qed.

Lemma lsum_nth : forall (h : Z -> Z) w, lsum (map h w) = zsum (fun k => h (nth k w 0)) (length w).
Proof. intros h w. rewrite <- lsum_seq, map_nth_seq. reflexivity. Qed.

Lemma count_val : forall sg, Z.of_nat (count_pos sg) - Z.of_nat (count_neg sg) = lsum (map val sg).
Proof.
  unfold count_pos, count_neg. induction sg as [|[] sg IH]; [reflexivity| |];
    cbn [filter is_pos negb length map val]; change (lsum (?a :: ?r)) with (a + lsum r);
    cbn [lsum fold_right]; fold (lsum (map val sg)); lia.
Qed.

Lemma exponent_sum_lsum : forall w, exponent_sum w = lsum (map Z.sgn w).
Proof.
  unfold exponent_sum. assert (H : forall w a, fold_left (fun a s => a + Z.sgn s) w a = a + lsum (map Z.sgn w)).
  { induction w as [|s w IH]; intros a; cbn; [lia|]. rewrite IH. unfold lsum. lia. }
  intros w. rewrite H. lia.
Qed.

Lemma sgn_letter : forall s, s <> 0 -> Z.sgn s = val (letter_sign s).
Proof. intros s Hs. unfold letter_sign. destruct s; cbn; auto. contradiction. Qed.

Section BraidWrithe.
  Variable n : nat.
  Variable w : list Z.
  Variable l : link.
  Variable lb : nat -> nat -> nat.
  Hypothesis D : BraidDiag n w l lb.
  Variable rev : nat -> bool.
  Hypothesis Hthru : forall e e', thru l e e' -> rev e = rev e'.
  Hypothesis Hunder : forall k, (k < length l)%nat -> rev (edge_at l (k, 0%nat)) = false.

  Let m := length w.
  Local Notation sk k := (nth k w 0%Z).
  Local Notation ik k := (idx (nth k w 0%Z)).

  (* the strand through crossing k that arrives at offset off leaves at offset 1 - off *)
  Lemma thru_cross : forall k j, (k < m)%nat -> (j < 4)%nat -> slot_out (sk k) j = false ->
    thru l (lb k (ik k + slot_off (sk k) j)%nat) (lb (S k) (ik k + (1 - slot_off (sk k) j))%nat).
  Proof.
    intros k j Hk Hj So. exists (k, j). split; [apply (bd_InR n w l lb D); cbn; auto|]. split.
    - rewrite (edge_lab n w l lb D k j Hk Hj). rewrite So. cbn [b2n]. rewrite Nat.add_0_r. reflexivity.
    - rewrite (bd_exit n w l lb D k j Hk).
      rewrite (edge_lab n w l lb D k _ Hk) by (apply Nat.mod_upper_bound; lia).
      rewrite slot_out_pass, slot_off_pass, So by auto. cbn [negb b2n]. rewrite Nat.add_1_r. reflexivity.
  Qed.

  Lemma thru_cross_off : forall k off, (k < m)%nat -> (off <= 1)%nat ->
    thru l (lb k (ik k + off)%nat) (lb (S k) (ik k + (1 - off))%nat).
  Proof.
    intros k off Hk Ho. destruct (slot_exists (sk k) false off Ho) as (s & Hs & So & Sf).
    rewrite <- Sf. apply thru_cross; auto.
  Qed.

  Definition Phi (k : nat) : Z := zsum (fun j => b2z (rev (lb k j)) * Z.of_nat j) n.
  Definition flipped (k : nat) : Z := val (letter_sign (sk k)) * b2z (rev (edge_at l (k, 1%nat))).

  Lemma Phi_step : forall k, (k < m)%nat -> Phi (S k) = Phi k - flipped k.
  Proof.
    intros k Hk. pose proof (bd_idx _ _ _ _ D k Hk) as Hi.
    unfold Phi. rewrite (zsum_upd2 (fun j => b2z (rev (lb k j)) * Z.of_nat j) _ n (ik k) Hi).
    2: { intros j Hj N1 N2. cbn beta. rewrite (bd_keep _ _ _ _ D k j); auto. }
    cbn beta.
    (* the strands at positions i, i+1 of level k are at positions i+1, i of level k+1 *)
    pose proof (Hthru _ _ (thru_cross_off k 0 Hk (le_S _ _ (le_n 0)))) as R0.
    pose proof (Hthru _ _ (thru_cross_off k 1 Hk (le_n 1))) as R1.
    cbn [Nat.sub] in R0, R1. rewrite Nat.add_0_r, Nat.add_1_r in R0, R1. rewrite <- R0, <- R1.
    assert (HL : (k < length l)%nat) by (rewrite (bd_len _ _ _ _ D); exact Hk).
    pose proof (Hunder k HL) as U.
    rewrite (edge_lab n w l lb D k 0 Hk) in U by lia.
    unfold flipped. rewrite (edge_lab n w l lb D k 1 Hk) by lia.
    unfold letter_sign, slot_out, slot_off in *.
    (* positive letter: the under-strand is at position i of level k, the over-strand at i of level k+1;
       negative letter: the under-strand at i+1, the over-strand at i, both of level k *)
    destruct (0 <? sk k)%Z; cbn [b2n orb Nat.eqb] in U |- *;
      rewrite ?Nat.add_0_r, ?Nat.add_1_r in U; rewrite ?Nat.add_0_r, ?Nat.add_1_r, <- ?R1, U; cbn [b2z val]; lia.
  Qed.

  Lemma Phi_sum : forall k, (k <= m)%nat -> Phi k = Phi 0 - zsum flipped k.
  Proof.
    induction k as [|k IH]; intros Hk; cbn [zsum]; [lia|].
    rewrite Phi_step by lia. rewrite IH by lia. lia.
  Qed.

  Lemma flipped_total : zsum flipped m = 0.
  Proof.
    pose proof (Phi_sum m (le_n m)) as E.
    assert (Phi m = Phi 0); [|lia].
    unfold Phi. apply zsum_ext. intros j Hj. unfold m.
    rewrite (lb_m n w l lb D j Hj), (lb_0 n w l lb D j Hj). reflexivity.
  Qed.

  (* the signs of the orientation "downwards, with the components in rev reversed" *)
  Lemma braid_sgn_rev : forall k, (k < m)%nat ->
    sgn_at l (oxr l (braid_o w) rev) k =
    if rev (edge_at l (k, 1%nat)) then neg_sign (letter_sign (sk k)) else letter_sign (sk k).
  Proof.
    intros k Hk. unfold sgn_at, oxr, braid_o, letter_sign, slot_out. rewrite (bd_X _ _ _ _ D k Hk).
    cbn [fst snd]. destruct (0 <? sk k)%Z; destruct (rev (edge_at l (k, 1%nat))); reflexivity.
  Qed.

  Lemma rev_signs_sum : lsum (map val (signs_of l (oxr l (braid_o w) rev))) = exponent_sum w.
  Proof.
    unfold signs_of. rewrite map_map, lsum_seq. rewrite (bd_len _ _ _ _ D). fold m.
    rewrite (zsum_ext _ (fun k => val (letter_sign (sk k)) + (-2) * flipped k)).
    2: { intros k Hk. rewrite braid_sgn_rev by auto. unfold flipped.
         destruct (rev (edge_at l (k, 1%nat))); destruct (letter_sign (sk k)); cbn; lia. }
    rewrite zsum_add, zsum_scale, flipped_total.
    rewrite exponent_sum_lsum, lsum_nth. fold m. rewrite Z.mul_0_r, Z.add_0_r.
    apply zsum_ext. intros k Hk. symmetry. apply sgn_letter. apply (bd_nz _ _ _ _ D); auto.
  Qed.
End BraidWrithe.

Lemma closure_signs_of : forall n w l, closure n w = Some l -> signs_of l (braid_o w) = map letter_sign w.
Proof.
  intros n w l Hcl. pose proof (closure_diag n w l Hcl) as D.
  unfold signs_of. rewrite (bd_len _ _ _ _ D), <- (map_nth_seq _ w letter_sign).
  apply map_ext_in. intros k Hk. apply in_seq in Hk. apply (braid_sgn_at n w l _ D). lia.
Qed.

(* a closure is consistently oriented by "all strands run downwards" *)
Theorem closure_oriented_full : forall n w l, closure n w = Some l ->
  Unresolved l /\ Oriented l (braid_o w) /\ signs_of l (braid_o w) = map letter_sign w.
Proof.
  intros n w l H. pose proof (closure_diag n w l H) as D.
  split; [exact (closure_unresolved n w l _ D)|]. split; [exact (closure_oriented n w l _ D)|].
  exact (closure_signs_of n w l H).
Qed.

(* the sign list of a closure: the letters' signs, except that the crossings whose over-strand lies on a
   reversed component (one that never passes under) carry the opposite sign *)
Theorem closure_signs : forall n w l, closure n w = Some l ->
  exists rev : nat -> bool,
    (forall e e', thru l e e' -> rev e = rev e') /\
    (forall k, (k < length w)%nat -> rev (edge_at l (k, 0%nat)) = false) /\
    crossing_signs l =
      Some (map (fun k => if rev (edge_at l (k, 1%nat)) then neg_sign (letter_sign (nth k w 0))
                          else letter_sign (nth k w 0)) (seq 0 (length w))).
Proof.
  intros n w l Hcl. pose proof (closure_diag n w l Hcl) as D.
  destruct (signs_orientation l (bd_valid _ _ _ _ D) (closure_unresolved n w l _ D) (braid_o w)
              (closure_oriented n w l _ D)) as (rev & Ht & Hu & E).
  exists rev. split; auto. split; [intros k Hk; apply Hu; rewrite (bd_len _ _ _ _ D); auto|].
  rewrite E. f_equal. unfold signs_of. rewrite (bd_len _ _ _ _ D).
  apply map_ext_in. intros k Hk. apply in_seq in Hk. apply (braid_sgn_rev n w l _ D); lia.
Qed.

(* when every component passes under somewhere, the sign list is the list of the letters' signs *)
Theorem closure_signs_letters : forall n w l, closure n w = Some l ->
  (forall k, (k < length w)%nat -> exists k', (k' < length w)%nat /\ conn l (edge_at l (k, 1%nat)) (edge_at l (k', 0%nat))) ->
  crossing_signs l = Some (map letter_sign w).
Proof.
  intros n w l Hcl Hall. destruct (closure_signs n w l Hcl) as (rev & Ht & Hu & E).
  rewrite E. f_equal. rewrite <- (map_nth_seq _ w letter_sign).
  apply map_ext_in. intros k Hk. apply in_seq in Hk.
  destruct (Hall k ltac:(lia)) as (k' & Hk' & C).
  rewrite (conn_inv l rev Ht _ _ C), Hu; auto.
Qed.

(* writhe = exponent sum, for every word whose closure is defined *)
Theorem closure_writhe : forall n w l, closure n w = Some l -> writhe l = Some (exponent_sum w).
Proof.
  intros n w l Hcl. pose proof (closure_diag n w l Hcl) as D.
  destruct (signs_orientation l (bd_valid _ _ _ _ D) (closure_unresolved n w l _ D) (braid_o w)
              (closure_oriented n w l _ D)) as (rev & Ht & Hu & E).
  destruct (writhe_def l) as [W _]. rewrite W, E. cbn [option_map]. f_equal.
  rewrite count_val. apply (rev_signs_sum n w l _ D rev Ht Hu).
Qed.
