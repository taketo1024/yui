(* C01 - Khovanov homology equals the cube-of-resolutions definition.
   The model (Model/KhCube.v, Model/KhHomology.v) IS the definition: the cube of resolutions with the
   Frobenius algebra A = Z[X]/(X^2 - hX - t), made executable, with homology tables read off the
   Smith invariant factors of each differential.  The library's v2 engine (Bar-Natan's tangle /
   cobordism calculus, ~3500 lines) is tied to it observationally: equal tables on every explored
   diagram, parameter pair, coefficient ring, variant, crossing order and thread count.  What is proved
   here concerns the definition itself: the structure constants used by the cube form a commutative
   Frobenius algebra for all h, t (the algebraic reason why d.d = 0), and the oracle answers only on
   instances it has checked to be complexes (the universal-coefficient count relating its Q, F_2, F_3
   columns to the integral table is Properties/C03.v).  That the v2 engine computes the homology of this complex
   for EVERY diagram is Bar-Natan's theorem about delooping and Gaussian elimination; it is not proved
   here (see DESIGN.md section 7). *)
From Coq Require Import List Bool ZArith.
Require Import Yui.Model.KhCube Yui.Model.KhHomology Yui.Proofs.KhAlg Yui.Proofs.KhOracle.
Import ListNotations.
Open Scope Z_scope.

Theorem C01_prod_denotes : forall h t x y, den1 (prod h t x y) = mul h t (basis x) (basis y).
Proof. exact prod_den. Qed.
Print Assumptions C01_prod_denotes.

Theorem C01_coprod_denotes : forall h t x, den2 (coprod h t x) = comul h t (basis x).
Proof. exact coprod_den. Qed.
Print Assumptions C01_coprod_denotes.

Theorem C01_mul_comm : forall h t u v, mul h t u v = mul h t v u.
Proof. exact mul_comm. Qed.
Print Assumptions C01_mul_comm.

Theorem C01_mul_assoc : forall h t u v w, mul h t (mul h t u v) w = mul h t u (mul h t v w).
Proof. exact mul_assoc. Qed.
Print Assumptions C01_mul_assoc.

Theorem C01_mul_unit : forall h t u, mul h t (1, 0) u = u.
Proof. exact mul_one. Qed.
Print Assumptions C01_mul_unit.

Theorem C01_X_squared : forall h t, mul h t (0, 1) (0, 1) = (t, h).
Proof. exact mul_XX. Qed.
Print Assumptions C01_X_squared.

Theorem C01_comul_cocomm : forall h t u, flip (comul h t u) = comul h t u.
Proof. exact comul_cocomm. Qed.
Print Assumptions C01_comul_cocomm.

Theorem C01_comul_coassoc : forall h t u, comul_left h t (comul h t u) = comul_right h t (comul h t u).
Proof. exact comul_coassoc. Qed.
Print Assumptions C01_comul_coassoc.

Theorem C01_frobenius : forall h t u v,
  comul h t (mul h t u v) = lmul h t u (comul h t v) /\ comul h t (mul h t u v) = rmul h t (comul h t u) v.
Proof. intros h t u v. split; [exact (frobenius_l h t u v)|exact (frobenius_r h t u v)]. Qed.
Print Assumptions C01_frobenius.

Theorem C01_oracle_checks_complex : forall c g,
  kh_groups c = Some g -> forall k, (k < c_n c)%nat -> dd_zero c k = true.
Proof. intros c g H. exact (cube_ok_dd c (kh_groups_checked c g H)). Qed.
Print Assumptions C01_oracle_checks_complex.

Theorem C01_oracle_degrees : forall c sel k todo dprev gs,
  groups_from c sel k todo dprev = Some gs -> map fst gs = seq k todo.
Proof. exact groups_from_degrees. Qed.
Print Assumptions C01_oracle_degrees.

(* non-vacuity: the oracle answers on the trefoil, with the known homology Z, Z + Z/2, 0, Z^2 *)
Example C01_trefoil :
  option_map (map (fun p => (g_rank (snd p), g_tors (snd p))))
    (kh_groups (build_cube [(CX, (1, 4, 2, 5)); (CX, (3, 6, 4, 1)); (CX, (5, 2, 6, 3))]%nat None 0 0))
  = Some [(1, []); (1, [2]); (0, []); (2, [])].
Proof. vm_compute. reflexivity. Qed.
