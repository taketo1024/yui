(* C09 - uniqueness of the Smith normal form: "the diagonal is unique up to units".
   Property theorems only: each is proved by [exact <lemma>] or a short combination of proved lemmas and is
   followed by Print Assumptions; the Examples instantiate the hypotheses on concrete values.
   (The gcd-of-minors characterisation over Z, which needs MathComp's determinant, is in C09UniqueMinors.v.)

   Vocabulary.  Matrices are functions nat -> nat -> R over a ring dictionary (Base/MatF.v);
     [smith_form o m n A r a] (Proofs/C07Algebra.v; also the vocabulary of the Khovanov oracle's [SmithOf]):
         there are P, P', Q, Q' with P P' = I = P' P (m x m), Q Q' = I = Q' Q (n x n) and
         P A Q = diag(a_0, .., a_(r-1), 0, ..) on the m x n window, all a_k <> 0, r <= min m n;
     [rdvd o a b]       b = q * a for some q;
     [chain o r a]      a_k | a_(k+1) for k+1 < r;
     [associates o a b] b = u * a with u * v = 1;
     [bezout o]         every x, y have a common divisor of the form s x + t y.
   Proof of the main theorem (Proofs/C09UniqueKer.v, C09UniqueDvd.v): no determinants; a_k | b_k follows from a
   primitive kernel vector of a k x (k+1) block of P1 P2^-1 (see the header of C09UniqueDvd.v); the rank part is
   C07Rank.smith_form_rank_unique. *)
From Coq Require Import ZArith Znumtheory Arith List Bool Lia.
Require Import Yui.Base.Ring Yui.Base.MatF Yui.Base.MatL Yui.Model.Snf.
Require Import Yui.Model.KhCube Yui.Model.KhHomology.
Require Import Yui.Proofs.C07Algebra Yui.Proofs.C09UniqueKer Yui.Proofs.C09UniqueDvd Yui.Proofs.C09Unique
  Yui.Proofs.C09UniqueModP Yui.Proofs.C09UniqueKh Yui.Proofs.C09UniqueCor Yui.Proofs.C09UniqueCanon.
Require Import Yui.Proofs.C09Inv Yui.Proofs.C09Run Yui.Proofs.C09Total Yui.Proofs.C09Term Yui.Proofs.C09Elim
  Yui.Proofs.C09Laws Yui.Proofs.C09Quad.
Require Import Yui.Proofs.KhSmithRows Yui.Proofs.KhSmithMat Yui.Proofs.KhSmithSteps Yui.Proofs.KhSmithMain.
Import ListNotations.
Close Scope Z_scope.

Theorem C09_unique_vocabulary :
  forall (R : Type) (o : ring_ops R),
  (forall a b, rdvd o a b <-> exists q, b = rmul o q a) /\
  (forall r a, chain o r a <-> forall k, S k < r -> rdvd o (a k) (a (S k))) /\
  (forall a b, associates o a b <-> exists u v, rmul o u v = rone o /\ b = rmul o u a) /\
  (bezout o <-> forall x y, exists d s t,
      d = radd o (rmul o s x) (rmul o t y) /\ rdvd o d x /\ rdvd o d y) /\
  (forall m n A r a, smith_form o m n A r a <->
     exists P Pi Q Qi : mat R,
       (meq m m (mmul o m P Pi) (mid o) /\ meq m m (mmul o m Pi P) (mid o)) /\
       (meq n n (mmul o n Q Qi) (mid o) /\ meq n n (mmul o n Qi Q) (mid o)) /\
       meq m n (mmul o m P (mmul o n A Q)) (fun i j => if (i =? j) && (i <? r) then a i else rzero o) /\
       (forall i, i < r -> a i <> rzero o) /\ r <= Nat.min m n).
Proof. intros R o. repeat split; intros H; exact H. Qed.
Print Assumptions C09_unique_vocabulary.

Theorem C09_unique :
  forall (R : Type) (o : ring_ops R), ring_laws o -> integral o -> bezout o ->
  forall (m n : nat) (A : mat R) (r1 : nat) (a1 : nat -> R) (r2 : nat) (a2 : nat -> R),
  smith_form o m n A r1 a1 -> smith_form o m n A r2 a2 ->
  chain o r1 a1 -> chain o r2 a2 ->
  r1 = r2 /\ forall k, k < r1 -> associates o (a1 k) (a2 k).
Proof.
  intros R o L Hint B m n A r1 a1 r2 a2 F1 F2 C1 C2.
  exact (smith_form_unique o L Hint m n A r1 a1 r2 a2 B F1 F2 C1 C2).
Qed.
Print Assumptions C09_unique.

(* the divisibility lemma behind it *)
Theorem C09_unique_dvd :
  forall (R : Type) (o : ring_ops R), ring_laws o -> integral o -> bezout o ->
  forall (m n : nat) (A P1 Pi1 Q1 Qi1 P2 Pi2 Q2 Qi2 : mat R) (r : nat) (a b : nat -> R),
  smith o m n A P1 Pi1 Q1 Qi1 (Yui.Proofs.C07Rank.dg o r a) r ->
  smith o m n A P2 Pi2 Q2 Qi2 (Yui.Proofs.C07Rank.dg o r b) r ->
  chain o r a -> chain o r b ->
  forall k, k < r -> rdvd o (a k) (b k).
Proof.
  intros R o L Hint B m n A P1 Pi1 Q1 Qi1 P2 Pi2 Q2 Qi2 r a b S1 S2 Ca Cb k Hk.
  exact (diag_dvd o L Hint m n A P1 Pi1 Q1 Qi1 P2 Pi2 Q2 Qi2 r a b B S1 S2 Ca Cb k Hk).
Qed.
Print Assumptions C09_unique_dvd.

(* the dictionaries of SnfCalc are Bezout domains *)
Theorem C09_unique_dict :
  forall (R : Type) (D : euc_dict R), snf_laws D -> gcdx_total D ->
  forall (m n : nat) (A : mat R) (r1 : nat) (a1 : nat -> R) (r2 : nat) (a2 : nat -> R),
  smith_form (ed_ring D) m n A r1 a1 -> smith_form (ed_ring D) m n A r2 a2 ->
  chain (ed_ring D) r1 a1 -> chain (ed_ring D) r2 a2 ->
  r1 = r2 /\ forall k, k < r1 -> associates (ed_ring D) (a1 k) (a2 k).
Proof. exact @dict_smith_form_unique. Qed.
Print Assumptions C09_unique_dict.

Theorem C09_bezout_rings :
  bezout Z_ring /\
  (forall pre, bezout (ed_ring (gausspre_dict pre))) /\
  (forall pre, bezout (ed_ring (eisenpre_dict pre))) /\
  (forall (F : Type) (o : ring_ops F) (finv : F -> F), ring_laws o -> rone o <> rzero o ->
     (forall a, a <> rzero o -> rmul o a (finv a) = rone o) -> bezout (ed_ring (field_dict o finv))).
Proof. exact (conj Z_bezout (conj gauss_bezout (conj eisen_bezout (@field_bezout)))). Qed.
Print Assumptions C09_bezout_rings.

(* over Z: entries agree up to sign; positive entries are equal *)
Theorem C09_unique_Z :
  forall (m n : nat) (A : mat Z) (r1 : nat) (a1 : nat -> Z) (r2 : nat) (a2 : nat -> Z),
  smith_form Z_ring m n A r1 a1 -> smith_form Z_ring m n A r2 a2 ->
  (forall k, S k < r1 -> (a1 k | a1 (S k))%Z) ->
  (forall k, S k < r2 -> (a2 k | a2 (S k))%Z) ->
  r1 = r2 /\
  (forall k, k < r1 -> Z.abs (a1 k) = Z.abs (a2 k)) /\
  ((forall k, k < r1 -> (0 < a1 k)%Z) -> (forall k, k < r2 -> (0 < a2 k)%Z) ->
   forall k, k < r1 -> a1 k = a2 k).
Proof. exact Z_smith_form_unique. Qed.
Print Assumptions C09_unique_Z.

(* the mirrored snf: its diagonal is THE list of invariant factors *)
(* every result meeting the contract [snf_spec] (= every result the mirrored snf returns, C09_total_partial)
   against ANY Smith form of the input whose diagonal is a divisibility chain *)
Theorem C09_unique_result :
  forall (R : Type) (D : euc_dict R), snf_laws D -> bezout (ed_ring D) ->
  forall (m n : nat) (A : lmat R) (f1 f2 f3 f4 : bool) (res : snf_result R) (r' : nat) (a' : nat -> R),
  snf_spec D m n A f1 f2 f3 f4 res ->
  smith_form (ed_ring D) m n (lget (ed_ring D) A) r' a' -> chain (ed_ring D) r' a' ->
  snf_rank D res = r' /\
  forall k, k < r' -> associates (ed_ring D) (lget (ed_ring D) (dm_rows (sr_d res)) k k) (a' k).
Proof.
  intros R D SL B m n A f1 f2 f3 f4 res r' a' HS F' C'.
  exact (snf_result_unique D SL m n A f1 f2 f3 f4 res r' a' B HS F' C').
Qed.
Print Assumptions C09_unique_result.

(* the whole call: it returns, meets the contract, and its diagonal is unique up to units *)
Theorem C09_total_unique :
  forall (R : Type) (D : euc_dict R),
  snf_laws D -> norm_laws D -> gcdx_total D -> pre_ok D -> pre_total D ->
  forall (m n : nat) (A : lmat R) (f1 f2 f3 f4 : bool), wf m n A ->
  exists res, snf D (mk_dmat m n A) (f1, f2, f3, f4) = Some res /\ snf_spec D m n A f1 f2 f3 f4 res /\
    forall r' a', smith_form (ed_ring D) m n (lget (ed_ring D) A) r' a' -> chain (ed_ring D) r' a' ->
      snf_rank D res = r' /\
      forall k, k < r' -> associates (ed_ring D) (lget (ed_ring D) (dm_rows (sr_d res)) k k) (a' k).
Proof. exact @dict_snf_total_unique. Qed.
Print Assumptions C09_total_unique.

Theorem C09_total_unique_Z :
  forall (m n : nat) (A : lmat Z) (f1 f2 f3 f4 : bool), wf m n A ->
  exists res, snf Z_dict (mk_dmat m n A) (f1, f2, f3, f4) = Some res /\ snf_spec Z_dict m n A f1 f2 f3 f4 res /\
    forall r' a', smith_form Z_ring m n (lget Z_ring A) r' a' ->
      (forall k, S k < r' -> (a' k | a' (S k))%Z) -> (forall k, k < r' -> (0 < a' k)%Z) ->
      snf_rank Z_dict res = r' /\ forall k, k < r' -> lget Z_ring (dm_rows (sr_d res)) k k = a' k.
Proof. exact Z_snf_total_unique. Qed.
Print Assumptions C09_total_unique_Z.

(* over Z (i32 / i64 / i128 / BigInt: with or without the LLL preprocessing, any flags, any fuel) the matrix D,
   rank() and factors() are functions of the input alone *)
Theorem C09_unique_D_Z :
  forall (pre pre' : option (preproc Z)) (m n : nat) (A : lmat Z) (f1 f2 f3 f4 g1 g2 g3 g4 : bool)
         (res res' : snf_result Z),
  snf_spec (Zpre_dict pre) m n A f1 f2 f3 f4 res ->
  snf_spec (Zpre_dict pre') m n A g1 g2 g3 g4 res' ->
  sr_d res = sr_d res' /\ snf_rank (Zpre_dict pre) res = snf_rank (Zpre_dict pre') res' /\
  snf_factors (Zpre_dict pre) res = snf_factors (Zpre_dict pre') res'.
Proof. exact Z_snf_D_unique. Qed.
Print Assumptions C09_unique_D_Z.

(* the same for every supported ring: normalised associates are equal ([nunit_canon]), so D, rank(), factors() are
   functions of the input - for two dictionaries with the same ring and unit operations (with / without the LLL
   preprocessing), any flags, any fuel *)
Theorem C09_canon_meaning :
  forall (R : Type) (D : euc_dict R),
  nunit_canon D <->
  forall a u v : R,
    rmul (ed_ring D) u v = rone (ed_ring D) -> a <> rzero (ed_ring D) ->
    rnunit (ed_unit D) a = rone (ed_ring D) ->
    rnunit (ed_unit D) (rmul (ed_ring D) u a) = rone (ed_ring D) ->
    rmul (ed_ring D) u a = a.
Proof. intros R D. split; intros H; exact H. Qed.
Print Assumptions C09_canon_meaning.

Theorem C09_canon_rings :
  (forall pre, nunit_canon (Zpre_dict pre)) /\
  (forall pre, nunit_canon (gausspre_dict pre)) /\
  (forall pre, nunit_canon (eisenpre_dict pre)) /\
  (forall (F : Type) (o : ring_ops F) (finv : F -> F), ring_laws o -> rone o <> rzero o ->
     (forall a, a <> rzero o -> rmul o a (finv a) = rone o) -> nunit_canon (field_dict o finv)).
Proof. exact canon_rings. Qed.
Print Assumptions C09_canon_rings.

Theorem C09_unique_D :
  forall (R : Type) (D D' : euc_dict R),
  snf_laws D -> bezout (ed_ring D) -> nunit_canon D ->
  ed_ring D' = ed_ring D -> ed_unit D' = ed_unit D ->
  forall (m n : nat) (A : lmat R) (f1 f2 f3 f4 g1 g2 g3 g4 : bool) (res res' : snf_result R),
  snf_spec D m n A f1 f2 f3 f4 res -> snf_spec D' m n A g1 g2 g3 g4 res' ->
  sr_d res = sr_d res' /\ snf_rank D res = snf_rank D' res' /\ snf_factors D res = snf_factors D' res'.
Proof. exact @snf_D_unique. Qed.
Print Assumptions C09_unique_D.

Theorem C09_unique_D_gauss :
  forall (pre pre' : option (preproc quad)) (m n : nat) (A : lmat quad) (f1 f2 f3 f4 g1 g2 g3 g4 : bool)
         (res res' : snf_result quad),
  snf_spec (gausspre_dict pre) m n A f1 f2 f3 f4 res -> snf_spec (gausspre_dict pre') m n A g1 g2 g3 g4 res' ->
  sr_d res = sr_d res' /\ snf_rank (gausspre_dict pre) res = snf_rank (gausspre_dict pre') res' /\
  snf_factors (gausspre_dict pre) res = snf_factors (gausspre_dict pre') res'.
Proof. exact gauss_snf_D_unique. Qed.
Print Assumptions C09_unique_D_gauss.

Theorem C09_unique_D_eisen :
  forall (pre pre' : option (preproc quad)) (m n : nat) (A : lmat quad) (f1 f2 f3 f4 g1 g2 g3 g4 : bool)
         (res res' : snf_result quad),
  snf_spec (eisenpre_dict pre) m n A f1 f2 f3 f4 res -> snf_spec (eisenpre_dict pre') m n A g1 g2 g3 g4 res' ->
  sr_d res = sr_d res' /\ snf_rank (eisenpre_dict pre) res = snf_rank (eisenpre_dict pre') res' /\
  snf_factors (eisenpre_dict pre) res = snf_factors (eisenpre_dict pre') res'.
Proof. exact eisen_snf_D_unique. Qed.
Print Assumptions C09_unique_D_eisen.

Theorem C09_unique_D_field :
  forall (F : Type) (o : ring_ops F) (finv : F -> F),
  ring_laws o -> rone o <> rzero o -> (forall a, a <> rzero o -> rmul o a (finv a) = rone o) ->
  forall (m n : nat) (A : lmat F) (f1 f2 f3 f4 g1 g2 g3 g4 : bool) (res res' : snf_result F),
  snf_spec (field_dict o finv) m n A f1 f2 f3 f4 res -> snf_spec (field_dict o finv) m n A g1 g2 g3 g4 res' ->
  sr_d res = sr_d res' /\ snf_rank (field_dict o finv) res = snf_rank (field_dict o finv) res' /\
  snf_factors (field_dict o finv) res = snf_factors (field_dict o finv) res'.
Proof. exact @field_snf_D_unique. Qed.
Print Assumptions C09_unique_D_field.

(* SnfResult::factors = the first rank() diagonal entries *)
Theorem C09_factors :
  forall (R : Type) (D : euc_dict R), snf_laws D ->
  forall (m n : nat) (A : lmat R) (f1 f2 f3 f4 : bool) (res : snf_result R),
  snf_spec D m n A f1 f2 f3 f4 res ->
  snf_factors D res = map (fun k => lget (ed_ring D) (dm_rows (sr_d res)) k k) (seq 0 (snf_rank D res)).
Proof. exact @snf_factors_spec. Qed.
Print Assumptions C09_factors.

(* the mirrored snf and the Khovanov oracle's sparse [smith_diag] compute the same factors *)
Theorem C09_unique_oracle :
  forall (pre : option (preproc Z)) (n fuel : nat) (rows : list row) (ds : list Z) (A : lmat Z)
         (f1 f2 f3 f4 : bool) (res : snf_result Z),
  rows_wf n rows -> smith_diag fuel rows = Some ds ->
  meq (length rows) n (dense rows) (lget Z_ring A) ->
  snf_spec (Zpre_dict pre) (length rows) n A f1 f2 f3 f4 res ->
  snf_rank (Zpre_dict pre) res = length ds /\ snf_factors (Zpre_dict pre) res = ds.
Proof. exact snf_vs_oracle. Qed.
Print Assumptions C09_unique_oracle.

(* the oracle's Smith property determines the list *)
Theorem C09_unique_SmithOf :
  forall (m n : nat) (B : mat Z) (ds ds' : list Z), SmithOf m n B ds -> SmithOf m n B ds' -> ds = ds'.
Proof. exact SmithOf_unique. Qed.
Print Assumptions C09_unique_SmithOf.

(* rank modulo a prime = number of invariant factors prime to p *)
(* [cnt_unit p a r] = #{k < r : p does not divide a_k},  [cnt_div p a r] = #{k < r : p | a_k};
   the rank over F_p is the size of ANY Smith-type form of A mod p over F_p *)
Theorem C09_modp_rank :
  forall p : Z, prime p ->
  forall (m n : nat) (A : mat Z) (r : nat) (a : nat -> Z) (rp : nat) (c : nat -> fp p),
  smith_form Z_ring m n A r a ->
  (forall k, S k < r -> (a k | a (S k))%Z) ->
  smith_form (fp_ring p) m n (fun i j => fp_mk p (A i j)) rp c ->
  rp = cnt_unit p a r /\ rp + cnt_div p a r = r.
Proof. exact modp_rank. Qed.
Print Assumptions C09_modp_rank.

Theorem C09_modp_count_meaning :
  forall (p : Z) (a : nat -> Z) (r : nat),
  cnt_unit p a r = length (filter (fun k => negb (a k mod p =? 0)%Z) (seq 0 r)) /\
  cnt_div p a r = length (filter (fun k => (a k mod p =? 0)%Z) (seq 0 r)).
Proof. intros. split; reflexivity. Qed.
Print Assumptions C09_modp_count_meaning.

(* such a form exists: A mod p is equivalent over F_p to diag(a_k mod p), the entries prime to p first *)
Theorem C09_modp_form :
  forall p : Z, prime p ->
  forall (m n : nat) (A : mat Z) (r : nat) (a : nat -> Z),
  smith_form Z_ring m n A r a ->
  (forall k, S k < r -> (a k | a (S k))%Z) ->
  smith_form (fp_ring p) m n (fun i j => fp_mk p (A i j)) (cnt_unit p a r) (fun k => fp_mk p (a k)).
Proof. exact modp_smith_form. Qed.
Print Assumptions C09_modp_form.

(* for the two executable routines: the count is the one the oracle's F_2 / F_3 tables use ([not_div], C03) *)
Theorem C09_modp_rank_oracle :
  forall p : Z, prime p ->
  forall (n fuel : nat) (rows : list row) (ds : list Z) (rp : nat) (c : nat -> fp p),
  rows_wf n rows -> smith_diag fuel rows = Some ds ->
  smith_form (fp_ring p) (length rows) n (fun i j => fp_mk p (dense rows i j)) rp c ->
  rp = length (filter (not_div p) ds).
Proof. exact oracle_modp_rank. Qed.
Print Assumptions C09_modp_rank_oracle.

Theorem C09_modp_rank_snf :
  forall p : Z, prime p ->
  forall (pre : option (preproc Z)) (m n : nat) (A : lmat Z) (f1 f2 f3 f4 : bool) (res : snf_result Z)
         (rp : nat) (c : nat -> fp p),
  snf_spec (Zpre_dict pre) m n A f1 f2 f3 f4 res ->
  smith_form (fp_ring p) m n (fun i j => fp_mk p (lget Z_ring A i j)) rp c ->
  rp = length (filter (not_div p) (snf_factors (Zpre_dict pre) res)).
Proof. exact snf_modp_rank. Qed.
Print Assumptions C09_modp_rank_snf.

(* the mirrored snf over F_p on A mod p against the mirrored snf over Z on A *)
Theorem C09_Z_vs_Fp :
  forall p : Z, prime p ->
  forall (pre : option (preproc Z)) (m n : nat) (A : lmat Z) (f1 f2 f3 f4 g1 g2 g3 g4 : bool)
         (res : snf_result Z) (res' : snf_result (fp p)),
  snf_spec (Zpre_dict pre) m n A f1 f2 f3 f4 res ->
  snf_spec (fp_dict p) m n (map (map (fp_mk p)) A) g1 g2 g3 g4 res' ->
  snf_rank (fp_dict p) res' = length (filter (not_div p) (snf_factors (Zpre_dict pre) res)).
Proof. exact snf_Z_vs_Fp. Qed.
Print Assumptions C09_Z_vs_Fp.

Open Scope Z_scope.
Definition exA : lmat Z := [[2; 4; 4]; [-6; 6; 12]].

(* the run of C09_example_Z meets the contract, so the hypotheses of the theorems above are satisfiable ... *)
Example C09_unique_example_spec :
  exists res, snf Z_dict (mk_dmat 2 3 exA) (true, true, true, true) = Some res /\
              snf_spec Z_dict 2 3 exA true true true true res /\
              snf_factors Z_dict res = [2; 6] /\
              exists r a, smith_form Z_ring 2 3 (lget Z_ring exA) r a /\ chain Z_ring r a /\
                          forall k, (k < r)%nat -> 0 < a k.
Proof.
  assert (W : wf 2 3 exA) by (split; [reflexivity|repeat constructor]).
  destruct (Z_snf_total 2 3 exA true true true true W) as [res [E HS]].
  exists res. split; [exact E|]. split; [exact HS|].
  destruct (spec_smith_form Z_dict 2 3 exA true true true true res HS) as [F [C _]].
  cbv zeta in F, C. vm_compute in E. injection E as <-.
  split; [reflexivity|].
  eexists. eexists. split; [exact F|]. split; [exact C|].
  intros k Hk. change (k < 2)%nat in Hk.
  destruct k as [|[|k]]; [reflexivity|reflexivity|lia].
Qed.

(* ... and every Smith form of exA with a positive divisibility chain is diag(2, 6) *)
Example C09_unique_example :
  forall r' a', smith_form Z_ring 2 3 (lget Z_ring exA) r' a' ->
    (forall k, (S k < r')%nat -> (a' k | a' (S k))) -> (forall k, (k < r')%nat -> 0 < a' k) ->
    r' = 2%nat /\ a' 0%nat = 2 /\ a' 1%nat = 6.
Proof.
  intros r' a' F' C' P'.
  assert (W : wf 2 3 exA) by (split; [reflexivity|repeat constructor]).
  destruct (Z_snf_total_unique 2 3 exA true true true true W) as [res [E [_ HU]]].
  destruct (HU r' a' F' C' P') as [Er Ha].
  vm_compute in E. injection E as <-.
  assert (E2 : r' = 2%nat) by (rewrite <- Er; reflexivity).
  subst r'. split; [reflexivity|]. split; [rewrite <- (Ha 0%nat) by lia|rewrite <- (Ha 1%nat) by lia]; reflexivity.
Qed.

(* rank of exA mod 2 is 0, mod 3 is 1, mod 5 is 2 *)
Example C09_modp_example :
  forall rp c, smith_form (fp_ring 3) 2 3 (fun i j => fp_mk 3 (lget Z_ring exA i j)) rp c -> rp = 1%nat.
Proof.
  intros rp c Fp.
  destruct C09_unique_example_spec as [res [_ [HS [Ef _]]]].
  pose proof (snf_modp_rank 3 prime_3 None 2 3 exA true true true true res rp c HS Fp) as H.
  change (Zpre_dict None) with Z_dict in H. rewrite Ef in H. exact H.
Qed.
