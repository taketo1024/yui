(* C15: the clauses of Properties/C15.v that take an argument beyond collecting lemmas of
   C15Int / C15Gcd / C15Quad / C15Field / C15Machine. *)
From Coq Require Import ZArith Lia Bool Znumtheory.
Require Import Yui.Base.Ring Yui.Model.Euclid.
Require Import Yui.Proofs.C15Gcd Yui.Proofs.C15Int Yui.Proofs.C15Quad Yui.Proofs.C15Field Yui.Proofs.C15Machine.
Local Open Scope Z_scope.

Lemma div_round_main a b : b <> 0 ->
  exists q, int_div_round a b = Some q /\
    2 * Z.abs (a - q * b) <= Z.abs b /\
    (2 * Z.abs (a - q * b) = Z.abs b -> Z.abs a < Z.abs (q * b)) /\
    (forall q', 2 * Z.abs (a - q' * b) <= Z.abs b ->
                (2 * Z.abs (a - q' * b) = Z.abs b -> Z.abs a < Z.abs (q' * b)) -> q' = q).
Proof.
  intros Hb. destruct (int_div_round_spec a b Hb) as (q & E & H1 & H2). exists q.
  split; [exact E|]. split; [exact H1|]. split; [exact H2|].
  intros q' A B. apply (round_spec_unique a b q' q Hb); split; assumption.
Qed.

(* machine widths: no silent wrap, and no spurious panic either *)
Lemma fits_spec k x : fits k x = true <-> - 2 ^ (k - 1) <= x < 2 ^ (k - 1).
Proof. unfold fits. rewrite andb_true_iff, Z.leb_le, Z.ltb_lt. tauto. Qed.
Lemma chk_fit k x : fits k x = true -> chk (Some k) x = Some x.
Proof. intros H. cbn. now rewrite H. Qed.

Lemma quot_bound M a b : 0 < M -> - M <= a < M -> b <> 0 -> ~ (a = - M /\ b = -1) -> - M <= Z.quot a b < M.
Proof.
  intros HM Ha Hb Hx. destruct (quot_rem_facts a b Hb) as (E & Hr & Hp & Hn).
  set (d := Z.quot a b) in *. set (r := Z.rem a b) in *. clearbody d r.
  nia.
Qed.

(* a non-zero remainder means |b| >= 2, which leaves room for the step away from zero *)
Lemma quot_round_bound M a b : 2 <= M -> - M <= a < M -> b <> 0 -> Z.rem a b <> 0 ->
  - M <= Z.quot a b - 1 /\ Z.quot a b + 1 < M.
Proof.
  intros HM Ha Hb Hr. destruct (quot_rem_facts a b Hb) as (E & Hlt & Hp & Hn).
  set (d := Z.quot a b) in *. set (r := Z.rem a b) in *. clearbody d r.
  nia.
Qed.

Lemma w_div_round_total k a b : 1 < k -> fits k a = true -> fits k b = true -> b <> 0 ->
  ~ (a = - 2 ^ (k - 1) /\ b = -1) -> exists q, w_div_round (Some k) a b = Some q.
Proof.
  intros Hk Fa Fb Hb Hx. apply fits_spec in Fa, Fb.
  set (M := 2 ^ (k - 1)) in *.
  assert (HM : 2 <= M).
  { unfold M. replace (k - 1) with (1 + (k - 2)) by lia. rewrite Z.pow_add_r by lia.
    pose proof (Z.pow_pos_nonneg 2 (k - 2)). lia. }
  assert (F1 : forall x, - M <= x < M -> chk (Some k) x = Some x).
  { intros x Hxx. apply chk_fit, fits_spec. exact Hxx. }
  pose proof (quot_bound M a b ltac:(lia) Fa Hb Hx) as Hq.
  destruct (quot_rem_facts a b Hb) as (_ & Hr & _).
  unfold w_div_round, w_div, w_rem. destruct (Z.eqb_spec b 0) as [|_]; [contradiction|].
  rewrite (F1 _ Hq). cbn [obind].
  destruct (Z.eqb_spec (Z.rem a b) 0) as [Zr|NZr]; [eauto|].
  destruct (quot_round_bound M a b HM Fa Hb NZr) as [Hd1 Hd2].
  set (d := Z.quot a b) in *. set (r := Z.rem a b) in *. clearbody d r.
  (* |r| < |b| <= M: both negations and the difference fit *)
  destruct (Z.ltb_spec 0 r) as [R|R]; destruct (Z.ltb_spec 0 b) as [B|B];
    rewrite ?(F1 (- r)), ?(F1 (- b)) by lia; cbn [obind];
    match goal with |- context [chk (Some k) (?x - ?y)] => rewrite (F1 (x - y)) by lia end; cbn [obind];
    (destruct (negb _); [eauto|]); destruct (Bool.eqb _ _); rewrite F1 by lia; eauto.
Qed.

Lemma w_div_round_min k : 1 < k -> w_div_round (Some k) (- 2 ^ (k - 1)) (-1) = None.
Proof.
  intros Hk. unfold w_div_round, w_div. cbn [Z.eqb]. 
  assert (H : Z.quot (- 2 ^ (k - 1)) (-1) = 2 ^ (k - 1)).
  { change (-1) with (Z.opp 1). rewrite Z.quot_opp_opp by lia. apply Z.quot_1_r. }
  rewrite H. cbn [chk]. unfold fits. rewrite (proj2 (Z.ltb_ge _ _)) by lia. rewrite andb_false_r. reflexivity.
Qed.

Lemma machine_div_round k a b :
  w_div_round None a b = int_div_round a b /\
  (forall v, w_div_round (Some k) a b = Some v -> int_div_round a b = Some v /\ - 2 ^ (k - 1) <= v < 2 ^ (k - 1)) /\
  (1 < k -> fits k a = true -> fits k b = true -> b <> 0 -> ~ (a = - 2 ^ (k - 1) /\ b = -1) ->
     exists q, w_div_round (Some k) a b = Some q).
Proof.
  split; [apply w_div_round_none|]. split; [|apply w_div_round_total].
  intros v H. split; [eapply w_div_round_sound; exact H|].
  (* the result passed a width check, or is the checked truncated quotient *)
  unfold w_div_round in H.
  destruct (w_div (Some k) a b) as [d|] eqn:Ed; [|discriminate]. cbn [obind] in H.
  assert (Fd : - 2 ^ (k - 1) <= d < 2 ^ (k - 1)).
  { unfold w_div in Ed. destruct (b =? 0); [discriminate|]. eapply chk_fits; exact Ed. }
  destruct (w_rem (Some k) a b) as [r|]; [|discriminate]. cbn [obind] in H.
  destruct (r =? 0); [injection H as <-; exact Fd|].
  destruct (if 0 <? r then chk (Some k) (- r) else Some r) as [nr|]; [|discriminate]. cbn [obind] in H.
  destruct (if 0 <? b then chk (Some k) (- b) else Some b) as [nq|]; [|discriminate]. cbn [obind] in H.
  destruct (chk (Some k) (nq - nr)) as [df|]; [|discriminate]. cbn [obind] in H.
  destruct (negb (nr <=? df)); [injection H as <-; exact Fd|].
  destruct (Bool.eqb (a <? 0) (b <? 0)); eapply chk_fits; exact H.
Qed.

(* division with remainder, with the strict norm decrease *)
Lemma gauss_division u v : v <> q_zero ->
  exists q r, g_div u v = Some q /\ g_rem u v = Some r /\ u = q_add (g_mul q v) r /\
              2 * g_norm r <= g_norm v /\ (r = q_zero \/ g_norm r < g_norm v).
Proof.
  intros Hv. destruct (g_div_rem u v Hv) as (q & r & H1 & H2 & H3 & H4). exists q, r.
  repeat split; try assumption. right. pose proof (g_norm_pos v Hv). pose proof (g_norm_nonneg r). lia.
Qed.
Lemma eisen_division u v : v <> q_zero ->
  exists q r, e_div u v = Some q /\ e_rem u v = Some r /\ u = q_add (e_mul q v) r /\
              4 * e_norm r <= 3 * e_norm v /\ (r = q_zero \/ e_norm r < e_norm v).
Proof.
  intros Hv. destruct (e_div_rem u v Hv) as (q & r & H1 & H2 & H3 & H4). exists q, r.
  repeat split; try assumption. right. pose proof (e_norm_pos v Hv). pose proof (e_norm_nonneg r). lia.
Qed.
(* gcd / gcdx / lcm for every dictionary with laws *)
Section Generic.
  Context {R : Type} (D : euc_dict R) (Phi : R -> Z) (EL : euc_dict_laws D Phi).
  Notation o := (d_ring D).

  Lemma gcd_main fuel fuel' x y : good_fuel Phi fuel y -> good_fuel Phi fuel' x ->
    exists d s t,
      gcd D fuel x y = Some d /\ gcdx D fuel x y = Some (d, s, t) /\
      dvd D d x /\ dvd D d y /\ (forall c, dvd D c x -> dvd D c y -> dvd D c d) /\
      radd o (rmul o s x) (rmul o t y) = d /\
      d_nunit D d = rone o /\
      (d = rzero o <-> x = rzero o /\ y = rzero o) /\
      gcd D fuel' y x = Some d.
  Proof.
    intros F F'.
    destruct (gcdx_spec D Phi EL fuel x y F) as (d & s & t & E1 & E2 & B).
    destruct (gcd_spec D Phi EL fuel x y F) as (d1 & E3 & (G1 & G2 & G3) & N).
    rewrite E2 in E3. injection E3 as <-.
    destruct (gcd_spec D Phi EL fuel' y x F') as (d2 & E4 & _ & _).
    exists d, s, t. do 7 (split; [assumption|]). split.
    - apply (gcd_zero_iff D Phi EL fuel x y d F E2).
    - rewrite E4. f_equal. symmetry. exact (gcd_comm D Phi EL fuel fuel' x y d d2 F F' E2 E4).
  Qed.

  Lemma fuel_main y : good_fuel Phi (fuel_of (Phi y)) y /\
    forall fuel, (fuel_of (Phi y) <= fuel)%nat -> good_fuel Phi fuel y.
  Proof.
    split; [apply (good_fuel_of D Phi EL)|]. intros fuel H.
    destruct (good_fuel_of D Phi EL y) as (f & E & Hf). rewrite E in H.
    destruct fuel as [|g]; [lia|]. exists g. split; [reflexivity|].
    eapply Z.lt_le_trans; [exact Hf|]. apply Z.pow_le_mono_r; lia.
  Qed.
End Generic.

Lemma gauss_units u : g_is_unit u = true <-> u = (1, 0) \/ u = (-1, 0) \/ u = (0, 1) \/ u = (0, -1).
Proof. apply g_unit_cases. Qed.

(* integers: the num-integer overrides *)
Lemma int_gcd_main a b :
  exists s t,
    int_gcdx a b = Some (int_gcd a b, s, t) /\
    (int_gcd a b | a) /\ (int_gcd a b | b) /\ (forall c, (c | a) -> (c | b) -> (c | int_gcd a b)) /\
    s * a + t * b = int_gcd a b /\
    0 <= int_gcd a b /\ int_nunit (int_gcd a b) = 1 /\
    (int_gcd a b = 0 <-> a = 0 /\ b = 0) /\
    int_gcd b a = int_gcd a b /\
    int_lcm a b * int_gcd a b = Z.abs (a * b) /\ 0 <= int_lcm a b.
Proof.
  destruct (int_gcdx_spec a b) as (s & t & E & B). exists s, t. unfold int_gcd, int_lcm.
  split; [exact E|]. split; [apply Z.gcd_divide_l|]. split; [apply Z.gcd_divide_r|].
  split; [intros c; apply Z.gcd_greatest|]. split; [exact B|].
  pose proof (Z.gcd_nonneg a b) as Hn. split; [exact Hn|].
  split; [unfold int_nunit; destruct (Z.ltb_spec (Z.gcd a b) 0); [lia|reflexivity]|].
  split; [split; [apply Z.gcd_eq_0|intros [-> ->]; reflexivity]|].
  split; [apply Z.gcd_comm|]. split; [apply int_lcm_gcd|apply Z.lcm_nonneg].
Qed.

Lemma ff_gcdx_main p : prime p -> forall (fuel : nat) (a b : Z), ff_rep p a -> ff_rep p b ->
  exists d s t, gcdx (ff_dict p) fuel a b = Some (d, s, t) /\ gcd (ff_dict p) fuel a b = Some d /\
                d = (if (a =? 0) && (b =? 0) then 0 else 1) /\
                ff_rep p s /\ ff_rep p t /\ ff_add p (ff_mul p s a) (ff_mul p t b) = d.
Proof.
  intros Pp fuel a b Ha Hb. destruct (ff_gcdx p Pp fuel a b Ha Hb) as (d & s & t & E1 & E2 & Hs & Ht & B).
  exists d, s, t. split; [exact E1|]. split; [exact E2|]. split; [|auto].
  rewrite (ff_gcd p Pp fuel a b Ha Hb) in E2. congruence.
Qed.
Lemma prime_7 : prime 7.
Proof.
  apply prime_intro; [lia|]. intros n Hn. apply Zgcd_1_rel_prime.
  assert (C : n = 1 \/ n = 2 \/ n = 3 \/ n = 4 \/ n = 5 \/ n = 6) by lia.
  destruct C as [->|[->|[->|[->|[->| ->]]]]]; reflexivity.
Qed.
