(* Ring dictionaries.  Ring-generic models take a [ring_ops R] record (plain data, extracts to an OCaml
   record of closures); the laws live in separate [Prop] records so that definitions stay executable
   and theorems quantify over "every ring with laws".  Equality is Leibniz equality on the carrier:
   instances use canonical carriers (Z; canonical rationals / residues as sigma types or Qc). *)
From Coq Require Import ZArith Bool List Ring Setoid.
Require Export Yui.Base.Tactics.
Import ListNotations.

Record ring_ops (R : Type) : Type := mk_ring_ops {
  rzero : R;
  rone : R;
  radd : R -> R -> R;
  rneg : R -> R;
  rmul : R -> R -> R;
  reqb : R -> R -> bool;
}.
Arguments rzero {R} _.
Arguments rone {R} _.
Arguments radd {R} _ _ _.
Arguments rneg {R} _ _.
Arguments rmul {R} _ _ _.
Arguments reqb {R} _ _ _.

Definition rsub {R} (o : ring_ops R) (a b : R) : R := radd o a (rneg o b).
Definition ris_zero {R} (o : ring_ops R) (a : R) : bool := reqb o a (rzero o).
Definition ris_one {R} (o : ring_ops R) (a : R) : bool := reqb o a (rone o).

(* commutative ring with decidable equality *)
Record ring_laws {R : Type} (o : ring_ops R) : Prop := mk_ring_laws {
  radd_comm : forall a b, radd o a b = radd o b a;
  radd_assoc : forall a b c, radd o a (radd o b c) = radd o (radd o a b) c;
  radd_0_l : forall a, radd o (rzero o) a = a;
  radd_neg_r : forall a, radd o a (rneg o a) = rzero o;
  rmul_comm : forall a b, rmul o a b = rmul o b a;
  rmul_assoc : forall a b c, rmul o a (rmul o b c) = rmul o (rmul o a b) c;
  rmul_1_l : forall a, rmul o (rone o) a = a;
  rdistr_l : forall a b c, rmul o (radd o a b) c = radd o (rmul o a c) (rmul o b c);
  reqb_eq : forall a b, reqb o a b = true <-> a = b;
}.

Lemma ring_theory_of_laws {R} (o : ring_ops R) (L : ring_laws o) :
  ring_theory (rzero o) (rone o) (radd o) (rmul o) (rsub o) (rneg o) eq.
Proof.
  constructor.
  - apply (radd_0_l o L).
  - apply (radd_comm o L).
  - apply (radd_assoc o L).
  - apply (rmul_1_l o L).
  - apply (rmul_comm o L).
  - apply (rmul_assoc o L).
  - apply (rdistr_l o L).
  - reflexivity.
  - apply (radd_neg_r o L).
Qed.

Lemma reqb_refl {R} (o : ring_ops R) (L : ring_laws o) a : reqb o a a = true.
Proof. now apply (reqb_eq o L). Qed.

Lemma reqb_false {R} (o : ring_ops R) (L : ring_laws o) a b : reqb o a b = false <-> a <> b.
Proof.
  split.
  - intros H E. apply (reqb_eq o L) in E. congruence.
  - intros H. destruct (reqb o a b) eqn:E; [|reflexivity]. apply (reqb_eq o L) in E. contradiction.
Qed.

Lemma reqb_spec {R} (o : ring_ops R) (L : ring_laws o) a b : reflect (a = b) (reqb o a b).
Proof.
  destruct (reqb o a b) eqn:E; constructor.
  - now apply (reqb_eq o L).
  - now apply (reqb_false o L).
Qed.

Lemma ris_zero_true {R} (o : ring_ops R) (L : ring_laws o) a : ris_zero o a = true <-> a = rzero o.
Proof. apply (reqb_eq o L). Qed.
Lemma ris_zero_false {R} (o : ring_ops R) (L : ring_laws o) a : ris_zero o a = false <-> a <> rzero o.
Proof. apply (reqb_false o L). Qed.
Lemma ris_zero_spec {R} (o : ring_ops R) (L : ring_laws o) a : reflect (a = rzero o) (ris_zero o a).
Proof. apply (reqb_spec o L). Qed.
Lemma ris_one_true {R} (o : ring_ops R) (L : ring_laws o) a : ris_one o a = true <-> a = rone o.
Proof. apply (reqb_eq o L). Qed.
Lemma ris_one_spec {R} (o : ring_ops R) (L : ring_laws o) a : reflect (a = rone o) (ris_one o a).
Proof. apply (reqb_spec o L). Qed.

Definition integral {R} (o : ring_ops R) : Prop :=
  rone o <> rzero o /\ forall a b, rmul o a b = rzero o -> a = rzero o \/ b = rzero o.

(* units: [rinv] returns the inverse when there is one *)
Record unit_ops (R : Type) : Type := mk_unit_ops {
  ris_unit : R -> bool;
  rinv : R -> option R;
  rnunit : R -> R;                 (* normalizing unit: a * rnunit a is the canonical associate *)
}.
Arguments ris_unit {R} _ _.
Arguments rinv {R} _ _.
Arguments rnunit {R} _ _.

Record unit_laws {R} (o : ring_ops R) (u : unit_ops R) : Prop := mk_unit_laws {
  rinv_some : forall a b, rinv u a = Some b -> rmul o a b = rone o;
  rinv_unit : forall a, ris_unit u a = true <-> exists b, rinv u a = Some b;
  runit_complete : forall a b, rmul o a b = rone o -> ris_unit u a = true;
  rnunit_unit : forall a, ris_unit u (rnunit u a) = true;
  rnunit_idem : forall a, rnunit u (rmul o a (rnunit u a)) = rone o;
  rnunit_assoc : forall a v, ris_unit u v = true ->
      rmul o (rmul o a v) (rnunit u (rmul o a v)) = rmul o a (rnunit u a);
}.

(* Euclidean division.  [rnorm] is the Euclidean function (a natural number, as N). *)
Record euc_ops (R : Type) : Type := mk_euc_ops {
  rdiv : R -> R -> R;
  rrem : R -> R -> R;
  rnorm : R -> N;
}.
Arguments rdiv {R} _ _ _.
Arguments rrem {R} _ _ _.
Arguments rnorm {R} _ _.

Record euc_laws {R} (o : ring_ops R) (e : euc_ops R) : Prop := mk_euc_laws {
  rdiv_rem : forall a b, b <> rzero o -> a = radd o (rmul o (rdiv e a b) b) (rrem e a b);
  rrem_small : forall a b, b <> rzero o -> rrem e a b = rzero o \/ (rnorm e (rrem e a b) < rnorm e b)%N;
}.

Definition Z_ring : ring_ops Z := mk_ring_ops Z 0%Z 1%Z Z.add Z.opp Z.mul Z.eqb.

Lemma Z_ring_laws : ring_laws Z_ring.
Proof.
  constructor; cbn; intros.
  - apply Z.add_comm.
  - apply Z.add_assoc.
  - apply Z.add_0_l.
  - apply Z.add_opp_diag_r.
  - apply Z.mul_comm.
  - apply Z.mul_assoc.
  - apply Z.mul_1_l.
  - apply Z.mul_add_distr_r.
  - apply Z.eqb_eq.
Qed.

Lemma Z_integral : integral Z_ring.
Proof.
  split; cbn; [discriminate|]. intros a b H. now apply Z.mul_eq_0.
Qed.

(* units 1 and -1, whichever way [isu] tests for them; the normalizing unit is the sign *)
Lemma Z_unit_laws_of (isu : Z -> bool) :
  (forall a, isu a = true <-> a = 1 \/ a = -1)%Z ->
  unit_laws Z_ring (mk_unit_ops Z isu (fun a => if isu a then Some a else None)
                                (fun a => if (a <? 0)%Z then (-1)%Z else 1%Z)).
Proof.
  intros U. constructor; cbn.
  - intros a b. destruct (isu a) eqn:E; [|discriminate]. intros [= <-].
    apply U in E. destruct E as [-> | ->]; reflexivity.
  - intros a. destruct (isu a); split; eauto; try discriminate. intros [b [=]].
  - intros a b H. apply U. now apply Z.mul_eq_1 in H.
  - intros a. apply U. destruct (a <? 0)%Z; auto.
  - intros [|p|p]; reflexivity.
  - intros a v [-> | ->]%U; destruct a; cbn; now rewrite ?Pos.mul_1_r.
Qed.

Lemma bool_ring_laws : ring_laws (mk_ring_ops bool false true xorb (fun b => b) andb Bool.eqb).
Proof.
  constructor; cbn; try (intros [] [] []; reflexivity); try (intros [] []; reflexivity); try (intros []; reflexivity).
  intros a b. split; [apply eqb_prop|intros ->; apply eqb_reflx].
Qed.

Section Sums.
  Context {R : Type} (o : ring_ops R).
  Fixpoint rsum (l : list R) : R :=
    match l with [] => rzero o | x :: r => radd o x (rsum r) end.
  Definition rdot (a b : list R) : R := rsum (map (fun p => rmul o (fst p) (snd p)) (combine a b)).
End Sums.
