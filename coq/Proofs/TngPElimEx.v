(* A concrete instance of the elimination lemma (Proofs/TngPElim.v, Proofs/TngPElimMat.v) over a ring that is NOT
   commutative (2 x 2 integer matrices), for non-vacuity. *)
From Coq Require Import ZArith Lia.
Require Import Yui.Proofs.TngPElim Yui.Proofs.TngPElimMat.

Local Open Scope Z_scope.
Definition m2 : Type := (Z * Z * Z * Z)%type.       (* (p, q, r, s) = [p q ; r s] *)
Definition m2_add (u v : m2) : m2 :=
  let '(p, q, r, s) := u in let '(p', q', r', s') := v in (p + p', q + q', r + r', s + s').
Definition m2_neg (u : m2) : m2 := let '(p, q, r, s) := u in (- p, - q, - r, - s).
Definition m2_mul (u v : m2) : m2 :=
  let '(p, q, r, s) := u in let '(p', q', r', s') := v in
  (p * p' + q * r', p * q' + q * s', r * p' + s * r', r * q' + s * s').
Definition m2_ops : ncring_ops m2 := mk_ncring_ops m2 (0, 0, 0, 0) (1, 0, 0, 1) m2_add m2_neg m2_mul.

Lemma m2_laws : ncring_laws m2_ops.
Proof.
  constructor; cbn [nadd nneg nmul nzero none m2_ops];
    repeat (let u := fresh in intros u; destruct u as [[[? ?] ?] ?]); cbn [m2_add m2_neg m2_mul];
    repeat match goal with |- (_, _) = (_, _) => apply f_equal2 end; ring.
Qed.
Lemma m2_not_commutative : exists u v : m2, m2_mul u v <> m2_mul v u.
Proof. exists (0, 1, 0, 0), (0, 0, 1, 0). cbn. discriminate. Qed.

(* a 1 x 1 block instance over m2: every hypothesis of the lemma holds, c a' b and b a' c differ, and the new
   differential is not zero *)
Definition ex_a : m2 := (1, 1, 0, 1).
Definition ex_a' : m2 := (1, -1, 0, 1).
Definition ex_b : m2 := (0, 0, 1, 0).
Definition ex_c : m2 := (0, 1, 0, 0).
Definition ex_d : m2 := (1, 5, 0, 7).
Definition ex_x : m2 := (1, 0, -1, 0).
Definition ex_y : m2 := (1, 0, 0, 0).
Definition ex_z : m2 := (0, -7, 0, 0).
Definition ex_w : m2 := (7, -5, 0, 0).
Definition cst (u : m2) : ncmat m2_ops 1 1 := fun _ _ => u.

Lemma ex_hyps :
  let C := ncmat_ops m2_ops in
  peq C (pcomp C (cst ex_a') (cst ex_a)) (pid C) /\ peq C (pcomp C (cst ex_a) (cst ex_a')) (pid C) /\
  peq C (padd C (pcomp C (cst ex_a) (cst ex_x)) (pcomp C (cst ex_b) (cst ex_y))) (pzero C) /\
  peq C (padd C (pcomp C (cst ex_c) (cst ex_x)) (pcomp C (cst ex_d) (cst ex_y))) (pzero C) /\
  peq C (padd C (pcomp C (cst ex_z) (cst ex_a)) (pcomp C (cst ex_w) (cst ex_c))) (pzero C) /\
  peq C (padd C (pcomp C (cst ex_z) (cst ex_b)) (pcomp C (cst ex_w) (cst ex_d))) (pzero C).
Proof.
  cbn zeta. repeat split; intros i j Hi Hj; cbn in Hi, Hj;
    (assert (i = 0%nat) by lia; assert (j = 0%nat) by lia; subst; reflexivity).
Qed.

Lemma ex_new_differential :
  let C := ncmat_ops m2_ops in
  padd C (cst ex_d) (pneg C (pcomp C (pcomp C (cst ex_c) (cst ex_a')) (cst ex_b))) 0%nat 0%nat = (0, 5, 0, 7) /\
  m2_mul (m2_mul ex_c ex_a') ex_b <> m2_mul (m2_mul ex_b ex_a') ex_c.
Proof. split; [reflexivity|]. cbn. discriminate. Qed.
