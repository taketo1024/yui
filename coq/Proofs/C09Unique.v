(* C09 (uniqueness), part 3: the diagonal of a Smith normal form is unique up to units.

   [smith_form_unique]  for every ring dictionary that is a Bezout integral domain: two Smith forms
       P1 A Q1 = diag(a_0 .. a_(r1-1), 0 ..),  P2 A Q2 = diag(b_0 .. b_(r2-1), 0 ..)   ([smith_form], C07Algebra.v)
   of the same m x n matrix whose non-zero entries are divisibility chains have r1 = r2 and a_k, b_k associates
   for every k.  (Rank: Proofs/C07Rank.v; entries: Proofs/C09UniqueDvd.v applied in both directions.)
   [snf_bezout]         snf_laws + gcdx_total (EucRing::gcdx returns) make the dictionary a Bezout domain, so the
                        theorem applies to Z, Z[i], Z[omega] and every field dictionary.
   [snf_result_unique]  every result meeting the contract [snf_spec] of Model/Snf.v (by C09_total_partial: every
                        result the mirrored snf returns) carries THE invariant factors: any other Smith form of
                        the input has the same rank and associated entries.
   Over Z, normalised (= positive) entries are equal: [Z_smith_form_unique], [Z_snf_result_unique]. *)
From Coq Require Import ZArith Arith List Lia Ring Bool.
Require Import Yui.Base.Ring Yui.Base.MatF Yui.Base.MatL Yui.Model.Snf.
Require Import Yui.Proofs.C07Algebra Yui.Proofs.C07Rank Yui.Proofs.C09UniqueKer Yui.Proofs.C09UniqueDvd.
Require Import Yui.Proofs.C09Mat Yui.Proofs.C09Inv Yui.Proofs.C09Run Yui.Proofs.C09Total Yui.Proofs.C09Term
  Yui.Proofs.C09Laws Yui.Proofs.C09Quad Yui.Proofs.C09Elim.
Import ListNotations.

Section Generic.
  Context {R : Type} (o : ring_ops R) (L : ring_laws o) (Hint : integral o).

  Theorem smith_form_unique m n (A : mat R) r1 a1 r2 a2 :
    bezout o ->
    smith_form o m n A r1 a1 -> smith_form o m n A r2 a2 ->
    chain o r1 a1 -> chain o r2 a2 ->
    r1 = r2 /\ forall k, (k < r1)%nat -> associates o (a1 k) (a2 k).
  Proof.
    intros B F1 F2 C1 C2.
    pose proof (smith_form_rank_unique o L Hint m n A r1 a1 r2 a2 F1 F2) as Er. subst r2.
    split; [reflexivity|]. intros k Hk.
    destruct F1 as [P1 [Pi1 [Q1 [Qi1 [HP1 [HQ1 [He1 [Hnz1 Hr1]]]]]]]].
    destruct F2 as [P2 [Pi2 [Q2 [Qi2 [HP2 [HQ2 [He2 [Hnz2 Hr2]]]]]]]].
    pose proof (form_smith o m n A r1 a1 P1 Pi1 Q1 Qi1 HP1 HQ1 He1 Hnz1 Hr1) as S1.
    pose proof (form_smith o m n A r1 a2 P2 Pi2 Q2 Qi2 HP2 HQ2 He2 Hnz2 Hr2) as S2.
    apply (rdvd_antisym o L Hint); [now apply Hnz1| |].
    - exact (diag_dvd o L Hint m n A P1 Pi1 Q1 Qi1 P2 Pi2 Q2 Qi2 r1 a1 a2 B S1 S2 C1 C2 k Hk).
    - exact (diag_dvd o L Hint m n A P2 Pi2 Q2 Qi2 P1 Pi1 Q1 Qi1 r1 a2 a1 B S2 S1 C2 C1 k Hk).
  Qed.
End Generic.

Lemma snf_bezout {R : Type} (D : euc_dict R) : snf_laws D -> gcdx_total D -> bezout (ed_ring D).
Proof.
  intros SL GT x y. destruct (GT x y) as [[[d s] t] E].
  destruct (sl_gcdx D SL x y d s t E) as [Hd [Hx Hy]].
  exists d, s, t. split; [exact Hd|]. split; assumption.
Qed.

Section Result.
  Context {R : Type} (D : euc_dict R) (SL : snf_laws D).
  Let o := ed_ring D.

  (* a result meeting the contract is a Smith form of the input whose diagonal is a normalised chain *)
  Lemma spec_smith_form m n (A : lmat R) f1 f2 f3 f4 res :
    snf_spec D m n A f1 f2 f3 f4 res ->
    let T := dm_rows (sr_d res) in
    let r := snf_rank D res in
    smith_form o m n (lget o A) r (fun k => lget o T k k) /\
    chain o r (fun k => lget o T k k) /\
    (forall k, (k < r)%nat -> rnunit (ed_unit D) (lget o T k k) = rone o).
  Proof.
    intros (T & P & Pi & Q & Qi & ET & _ & _ & _ & _ & _ & _ & _ & _ & _ & HT & H1 & H2 & H3 & H4 & HX & _).
    cbv zeta in *. rewrite ET. cbn [dm_rows].
    destruct HX as (Hr & Hoff & Hnz & Hz & Hnu & Hch).
    split; [|split; [exact Hch|exact Hnu]].
    exists (lget o P), (lget o Pi), (lget o Q), (lget o Qi).
    split; [split; assumption|]. split; [split; assumption|].
    split; [|split; [exact Hnz|exact Hr]].
    intros i j Hi Hj. unfold o. rewrite <- (HT i j Hi Hj).
    destruct (Nat.eqb_spec i j) as [->|Hne]; cbn [andb].
    - destruct (Nat.ltb_spec j (snf_rank D res)) as [Hjr|Hjr]; [reflexivity|].
      apply Hz; [exact Hjr|]. apply Nat.min_glb_lt; assumption.
    - now apply Hoff.
  Qed.

  Theorem snf_result_unique m n (A : lmat R) f1 f2 f3 f4 res r' a' :
    bezout o ->
    snf_spec D m n A f1 f2 f3 f4 res ->
    smith_form o m n (lget o A) r' a' -> chain o r' a' ->
    snf_rank D res = r' /\
    forall k, (k < r')%nat -> associates o (lget o (dm_rows (sr_d res)) k k) (a' k).
  Proof.
    intros B HS F' C'.
    destruct (spec_smith_form m n A f1 f2 f3 f4 res HS) as [F [C _]].
    destruct (smith_form_unique o (sl_ring D SL) (sl_integral D SL) m n (lget o A) _ _ r' a' B F F' C C')
      as [Er Ha].
    split; [exact Er|]. intros k Hk. apply Ha. rewrite Er. exact Hk.
  Qed.

  (* two results for the same input (any flags, any fuel policies, or the implementation's own output once it
     is checked against the contract) have the same rank and associated diagonals *)
  Corollary snf_results_agree m n (A : lmat R) f1 f2 f3 f4 g1 g2 g3 g4 res res' :
    bezout o ->
    snf_spec D m n A f1 f2 f3 f4 res -> snf_spec D m n A g1 g2 g3 g4 res' ->
    snf_rank D res = snf_rank D res' /\
    forall k, (k < snf_rank D res)%nat ->
      associates o (lget o (dm_rows (sr_d res)) k k) (lget o (dm_rows (sr_d res')) k k).
  Proof.
    intros B HS HS'.
    destruct (spec_smith_form m n A g1 g2 g3 g4 res' HS') as [F' [C' _]].
    destruct (snf_result_unique m n A f1 f2 f3 f4 res _ _ B HS F' C') as [Er Ha].
    split; [exact Er|]. intros k Hk. apply Ha. rewrite <- Er. exact Hk.
  Qed.
End Result.

Lemma Z_bezout : bezout Z_ring.
Proof. destruct (Zpre_term_laws None) as [_ GT]. exact (snf_bezout Z_dict (Zpre_snf_laws None) GT). Qed.

Lemma Z_associates a b : associates Z_ring a b -> (0 < a)%Z -> (0 < b)%Z -> a = b.
Proof.
  intros [u [v [Huv Hb]]] Ha Hb0. cbn in Huv, Hb.
  assert (Hu : (u = 1 \/ u = -1)%Z).
  { destruct (Z.mul_eq_1 u v Huv) as [E|E]; [left|right]; exact E. }
  destruct Hu as [->| ->]; lia.
Qed.

Lemma Z_chain r (a : nat -> Z) :
  chain Z_ring r a <-> (forall k, (S k < r)%nat -> (a k | a (S k))%Z).
Proof. split; intros H k Hk; destruct (H k Hk) as [q Hq]; exists q; exact Hq. Qed.

Theorem Z_smith_form_unique m n (A : mat Z) r1 a1 r2 a2 :
  smith_form Z_ring m n A r1 a1 -> smith_form Z_ring m n A r2 a2 ->
  (forall k, (S k < r1)%nat -> (a1 k | a1 (S k))%Z) ->
  (forall k, (S k < r2)%nat -> (a2 k | a2 (S k))%Z) ->
  r1 = r2 /\
  (forall k, (k < r1)%nat -> Z.abs (a1 k) = Z.abs (a2 k)) /\
  ((forall k, (k < r1)%nat -> (0 < a1 k)%Z) -> (forall k, (k < r2)%nat -> (0 < a2 k)%Z) ->
   forall k, (k < r1)%nat -> a1 k = a2 k).
Proof.
  intros F1 F2 C1 C2.
  destruct (smith_form_unique Z_ring Z_ring_laws Z_integral m n A r1 a1 r2 a2 Z_bezout F1 F2
              (proj2 (Z_chain r1 a1) C1) (proj2 (Z_chain r2 a2) C2)) as [Er Ha].
  split; [exact Er|]. split.
  - intros k Hk. destruct (Ha k Hk) as [u [v [Huv Hb]]]. cbn in Huv, Hb.
    destruct (Z.mul_eq_1 u v Huv) as [E|E]; rewrite Hb, E; lia.
  - intros P1 P2 k Hk. apply Z_associates; [now apply Ha|now apply P1|apply P2; now rewrite <- Er].
Qed.

(* the model's result over Z against ANY Smith form with positive entries of the same matrix *)
Theorem Z_snf_result_unique pre m n (A : lmat Z) f1 f2 f3 f4 res r' a' :
  snf_spec (Zpre_dict pre) m n A f1 f2 f3 f4 res ->
  smith_form Z_ring m n (lget Z_ring A) r' a' ->
  (forall k, (S k < r')%nat -> (a' k | a' (S k))%Z) ->
  (forall k, (k < r')%nat -> (0 < a' k)%Z) ->
  snf_rank (Zpre_dict pre) res = r' /\
  forall k, (k < r')%nat -> lget Z_ring (dm_rows (sr_d res)) k k = a' k.
Proof.
  intros HS F' C' P'.
  destruct (spec_smith_form (Zpre_dict pre) m n A f1 f2 f3 f4 res HS) as [_ [_ Hnu]].
  destruct (spec_smith_form (Zpre_dict pre) m n A f1 f2 f3 f4 res HS) as [[_ [_ [_ [_ [_ [_ [_ [Hnz _]]]]]]]] _].
  cbv zeta in Hnu, Hnz.
  destruct (snf_result_unique (Zpre_dict pre) (Zpre_snf_laws pre) m n A f1 f2 f3 f4 res r' a' Z_bezout HS F'
              (proj2 (Z_chain r' a') C')) as [Er Ha].
  split; [exact Er|]. intros k Hk. apply Z_associates; [now apply Ha| |now apply P'].
  rewrite <- Er in Hk. specialize (Hnu k Hk). specialize (Hnz k Hk).
  cbn in Hnu, Hnz.
  destruct (Z.ltb_spec (lget Z_ring (dm_rows (sr_d res)) k k) 0) as [Hneg|Hpos]; [discriminate|].
  cbn in Hpos. lia.
Qed.

(* SnfResult::factors lists exactly the first [rank] diagonal entries *)
Lemma snf_factors_spec {R : Type} (D : euc_dict R) (SL : snf_laws D) m n (A : lmat R) f1 f2 f3 f4 res :
  snf_spec D m n A f1 f2 f3 f4 res ->
  snf_factors D res
  = map (fun k => lget (ed_ring D) (dm_rows (sr_d res)) k k) (seq 0 (snf_rank D res)).
Proof.
  intros (T & P & Pi & Q & Qi & ET & _ & _ & _ & _ & _ & _ & _ & _ & _ & _ & _ & _ & _ & _ & HX & _).
  cbv zeta in HX. destruct HX as (Hr & _ & Hnz & Hz & _ & _).
  unfold snf_factors. rewrite ET in *. cbn [dm_rows dm_m dm_n] in *. unfold mget.
  set (r := snf_rank D res) in *.
  set (g := fun k => lget (ed_ring D) T k k).
  change (filter (fun a => negb (ris_zero (ed_ring D) a)) (map g (seq 0 (Nat.min m n))) = map g (seq 0 r)).
  replace (Nat.min m n) with (r + (Nat.min m n - r))%nat by lia.
  rewrite seq_app, map_app, filter_app. cbn [Nat.add].
  assert (G : forall c l, (forall k, In k l -> negb (ris_zero (ed_ring D) (g k)) = c) ->
                          filter (fun a => negb (ris_zero (ed_ring D) a)) (map g l) = if c then map g l else []).
  { intros c. induction l as [|k l IH]; intros Hl; [now destruct c|]. cbn [map filter].
    rewrite (Hl k (or_introl eq_refl)), IH by (intros k' Hk'; apply Hl; now right). now destruct c. }
  rewrite (G true), (G false); [apply app_nil_r| |].
  - intros k Hk. apply in_seq in Hk. unfold ris_zero, g. rewrite Hz by lia. now rewrite (reqb_refl _ (sl_ring D SL)).
  - intros k Hk. apply in_seq in Hk. apply negb_true_iff, (reqb_false _ (sl_ring D SL)), Hnz. lia.
Qed.

Theorem dict_smith_form_unique {R : Type} (D : euc_dict R) :
  snf_laws D -> gcdx_total D ->
  forall m n (A : mat R) r1 a1 r2 a2,
  smith_form (ed_ring D) m n A r1 a1 -> smith_form (ed_ring D) m n A r2 a2 ->
  chain (ed_ring D) r1 a1 -> chain (ed_ring D) r2 a2 ->
  r1 = r2 /\ forall k, (k < r1)%nat -> associates (ed_ring D) (a1 k) (a2 k).
Proof.
  intros SL GT m n A r1 a1 r2 a2.
  exact (smith_form_unique (ed_ring D) (sl_ring D SL) (sl_integral D SL) m n A r1 a1 r2 a2 (snf_bezout D SL GT)).
Qed.

Lemma gauss_bezout pre : bezout (ed_ring (gausspre_dict pre)).
Proof. exact (snf_bezout _ (gauss_snf_laws pre) (proj2 (gauss_term_laws pre))). Qed.

Lemma eisen_bezout pre : bezout (ed_ring (eisenpre_dict pre)).
Proof. exact (snf_bezout _ (eisen_snf_laws pre) (proj2 (eisen_term_laws pre))). Qed.

Lemma field_bezout {F : Type} (o : ring_ops F) (finv : F -> F) :
  ring_laws o -> rone o <> rzero o -> (forall a, a <> rzero o -> rmul o a (finv a) = rone o) ->
  bezout (ed_ring (field_dict o finv)).
Proof.
  intros L H1 Hinv.
  exact (snf_bezout _ (field_snf_laws o finv L H1 Hinv) (proj2 (field_term_laws o finv L H1 Hinv))).
Qed.

(* the call returns, its result meets the contract, and its diagonal is THE list of invariant factors:
   every Smith form of the input has the same rank and associated entries *)
Theorem dict_snf_total_unique {R : Type} (D : euc_dict R) :
  snf_laws D -> norm_laws D -> gcdx_total D -> pre_ok D -> pre_total D ->
  forall m n (A : lmat R) f1 f2 f3 f4, wf m n A ->
  exists res, snf D (mk_dmat m n A) (f1, f2, f3, f4) = Some res /\ snf_spec D m n A f1 f2 f3 f4 res /\
    forall r' a', smith_form (ed_ring D) m n (lget (ed_ring D) A) r' a' -> chain (ed_ring D) r' a' ->
      snf_rank D res = r' /\
      forall k, (k < r')%nat -> associates (ed_ring D) (lget (ed_ring D) (dm_rows (sr_d res)) k k) (a' k).
Proof.
  intros SL NL GT Hpre Htot m n A f1 f2 f3 f4 W.
  destruct (snf_total D SL NL GT Hpre Htot m n A f1 f2 f3 f4 W) as [res [E HS]].
  exists res. split; [exact E|]. split; [exact HS|].
  intros r' a' F' C'. exact (snf_result_unique D SL m n A f1 f2 f3 f4 res r' a' (snf_bezout D SL GT) HS F' C').
Qed.

Theorem Z_snf_total_unique m n (A : lmat Z) f1 f2 f3 f4 :
  wf m n A ->
  exists res, snf Z_dict (mk_dmat m n A) (f1, f2, f3, f4) = Some res /\ snf_spec Z_dict m n A f1 f2 f3 f4 res /\
    forall r' a', smith_form Z_ring m n (lget Z_ring A) r' a' ->
      (forall k, (S k < r')%nat -> (a' k | a' (S k))%Z) -> (forall k, (k < r')%nat -> (0 < a' k)%Z) ->
      snf_rank Z_dict res = r' /\ forall k, (k < r')%nat -> lget Z_ring (dm_rows (sr_d res)) k k = a' k.
Proof.
  intros W. destruct (Z_snf_total m n A f1 f2 f3 f4 W) as [res [E HS]].
  exists res. split; [exact E|]. split; [exact HS|].
  intros r' a' F' C' P'. exact (Z_snf_result_unique None m n A f1 f2 f3 f4 res r' a' HS F' C' P').
Qed.
