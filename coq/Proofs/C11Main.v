(* C11 - the property's text as one statement about find_pivots followed by result() and
   perms_by_pivots, in matrix coordinates, for both pivot types. *)
From Coq Require Import List Bool Arith Lia Permutation.
Require Import Yui.Model.Pivot Yui.Proofs.C11Base Yui.Proofs.C11Seq Yui.Proofs.C11Worker Yui.Proofs.C11Safety
               Yui.Proofs.C11TopSort Yui.Proofs.C11Result Yui.Proofs.C11Struct.
Import ListNotations.

Lemma map_fst_swap : forall l, map fst (map swap l) = map snd l.
Proof. intros l. rewrite map_map. apply map_ext. intros [a b]. reflexivity. Qed.
Lemma map_snd_swap : forall l, map snd (map swap l) = map fst l.
Proof. intros l. rewrite map_map. apply map_ext. intros [a b]. reflexivity. Qed.
Lemma swap_nth : forall l k, nth k (map swap l) (0, 0) = swap (nth k l (0, 0)).
Proof. intros l k. change (0, 0) with (swap (0, 0)) at 1. apply map_nth. Qed.

Theorem find_pivots_correct : forall pt c nr nc l nthr sched,
  csc_sorted l -> in_range nr nc l ->
  let M := build_str pt c nr nc l in
  exists s, find_pivots_sched M nthr sched = Some s /\
    forall keys, Permutation keys (map snd (g_log s)) ->
    exists pivs p q,
      result_with M pt (g_log s) keys = Some pivs /\
      Permutation (to_str pt pivs) (g_log s) /\
      NoDup (map fst pivs) /\ NoDup (map snd pivs) /\
      (forall i j, In (i, j) pivs -> exists e, In (i, j, e) l /\ e_nz e = true /\ cond_ok c e = true) /\
      perms_by_pivots nr nc pivs = Some (p, q) /\
      let r := length pivs in
      (forall k, k < r -> nth (fst (nth k pivs (0, 0))) p 0 = k /\ nth (snd (nth k pivs (0, 0))) q 0 = k) /\
      (forall i j e, In (i, j, e) l -> e_nz e = true -> nth i p 0 < r -> nth j q 0 < r ->
         match pt with Rows => nth i p 0 <= nth j q 0 | Cols => nth j q 0 <= nth i p 0 end).
Proof.
  intros pt c nr nc l nthr sched Hs Hr M.
  destruct (build_str_spec pt c nr nc l Hs Hr) as [Hwf [Hm [Hn [Hcols Hcand]]]]. fold M in Hwf, Hm, Hn, Hcols, Hcand.
  destruct (find_pivots_safe M Hwf nthr sched) as [s [Es G]]. exists s. split; [exact Es|].
  intros keys Hk. pose proof (gi_piv M s G) as HP.
  destruct (result_ok M (g_log s) HP pt keys Hk) as [pivs [Er [Hok Hperm]]].
  destruct (triangular_block M (to_str pt pivs) Hwf Hok) as [p' [q' [Ep [Eq [T1 T2]]]]]. cbv zeta in T1, T2.
  pose proof (proj1 (pivots_ok_sound M (to_str pt pivs)) Hok) as [Hnr [Hnc [Hent _]]].
  destruct pt; cbn [to_str] in *.
  - (* Rows *)
    exists pivs, p', q'. cbv zeta. splits; auto.
    + intros i j Hin. destruct (Hent (i, j) Hin) as [_ B]. cbn [fst snd] in B. apply Hcand in B.
      destruct B as [[[i0 j0] e] [Ht [K1 [K2 [K3 K4]]]]]. unfold s_row, s_col, t_row, t_col, t_ent in *. cbn [fst snd] in *. subst i0 j0.
      exists e. splits; auto.
    + unfold perms_by_pivots. rewrite <- Hm, <- Hn, Ep, Eq. reflexivity.
    + intros k Hk'. destruct (T1 k Hk') as [A [B _]]. split; assumption.
    + intros i j e Hin Hnz Hp Hq. apply T2; auto. apply Hcols. exists (i, j, e). splits; auto.
  - (* Cols: the search ran on the transpose *)
    rewrite map_fst_swap in Ep, Hnr. rewrite map_snd_swap in Eq, Hnc. rewrite map_length in T1, T2.
    exists pivs, q', p'. cbv zeta. splits; auto.
    + intros i j Hin. assert (Hin' : In (j, i) (map swap pivs)) by (apply in_map_iff; exists (i, j); split; [reflexivity | exact Hin]).
      destruct (Hent (j, i) Hin') as [_ B]. cbn [fst snd] in B. apply Hcand in B.
      destruct B as [[[i0 j0] e] [Ht [K1 [K2 [K3 K4]]]]]. unfold s_row, s_col, t_row, t_col, t_ent in *. cbn [fst snd] in *. subst i0 j0.
      exists e. splits; auto.
    + unfold perms_by_pivots. rewrite <- Hm, <- Hn, Ep, Eq. reflexivity.
    + intros k Hk'. destruct (T1 k Hk') as [A [B _]]. rewrite swap_nth in A, B. unfold swap in A, B. cbn [fst snd] in A, B. split; assumption.
    + intros i j e Hin Hnz Hp Hq. apply T2; auto. apply Hcols. exists (i, j, e). splits; auto.
Qed.
