(* C10: the laws an "LLL ring" dictionary must satisfy for the theorems of Proofs/C10*.v, and their proofs
   for the three instances Z, Z[i], Z[w] of Model/Lll.v. *)
From Coq Require Import ZArith List Bool Arith Lia Ring.
Require Import Yui.Base.Ring Yui.Model.Lll.
Import ListNotations.

Record lll_laws {R : Type} (L : lll_ring R) : Prop := mk_lll_laws {
  ll_ring : ring_laws (lops L);
  ll_inv_mul : forall u v, linv L u = Some v -> rmul (lops L) u v = rone (lops L);
  ll_unit_inv : forall u, lis_unit L u = true -> exists v, linv L u = Some v;
  ll_nunit_unit : forall a, lis_unit L (lnunit L a) = true;
  ll_nunit_idem : forall a, lnunit L (rmul (lops L) a (lnunit L a)) = rone (lops L);
  (* rounding division: the remainder lies in the rounding cell, hence has smaller norm *)
  ll_div_round_some : forall a b q, ldiv_round L a b = Some q ->
      lsize_ok L (rsub (lops L) a (rmul (lops L) q b)) b = true;
  ll_div_round_total : forall a b, b <> rzero (lops L) -> exists q, ldiv_round L a b = Some q;
  ll_size_norm : forall x b, b <> rzero (lops L) -> lsize_ok L x b = true -> (lnormz L x < lnormz L b)%Z;
  ll_norm_unit : forall x u, lis_unit L u = true -> lnormz L (rmul (lops L) x u) = lnormz L x;
}.

Local Open Scope Z_scope.

Lemma z_div_round_some a b q : z_div_round a b = Some q -> b <> 0 /\ 2 * Z.abs (a - q * b) <= Z.abs b.
Proof.
  unfold z_div_round. destruct (Z.eqb_spec b 0) as [|Hb]; [discriminate|].
  pose proof (Z.quot_rem' a b) as Hqr.
  pose proof (Z.rem_bound_abs a b Hb) as Hab.
  set (d := Z.quot a b) in *. set (r := Z.rem a b) in *.
  assert (Hsg : r <> 0 -> (0 < a -> 0 < r) /\ (a < 0 -> r < 0)).
  { intros Hr. pose proof (Z.rem_sign_nz a b Hb Hr) as Hs. fold r in Hs.
    split; intros Ha.
    - rewrite (Z.sgn_pos a) in Hs by lia. now apply Z.sgn_pos_iff.
    - rewrite (Z.sgn_neg a) in Hs by lia. now apply Z.sgn_neg_iff. }
  destruct (Z.eqb_spec r 0) as [Hr0|Hr0].
  - intros H. injection H as <-. split; [assumption|]. replace (a - d * b) with 0 by lia. cbn. lia.
  - specialize (Hsg Hr0). destruct Hsg as [Hp Hn].
    assert (Ha0 : a <> 0). { intros ->. unfold r in Hr0. now rewrite Z.rem_0_l in Hr0 by assumption. }
    destruct (Z.ltb_spec 0 r) as [Hr|Hr]; destruct (Z.ltb_spec 0 b) as [Hbp|Hbp];
      match goal with |- context [negb (?x <=? ?y)] => destruct (Z.leb_spec x y) as [Hle|Hle] end; cbn [negb];
      destruct (Z.ltb_spec a 0) as [Ha|Ha]; destruct (Z.ltb_spec b 0) as [Hb'|Hb']; cbn [Bool.eqb];
      intros H; injection H as <-; (split; [assumption|]); lia.
Qed.

Lemma z_div_round_total a b : b <> 0 -> exists q, z_div_round a b = Some q.
Proof.
  intros Hb. unfold z_div_round. destruct (Z.eqb_spec b 0); [contradiction|].
  destruct (_ =? 0); [eauto|]. destruct (negb _); [eauto|]. destruct (Bool.eqb _ _); eauto.
Qed.

Lemma Z_lll_laws : lll_laws Z_lll.
Proof.
  constructor; cbn [Z_lll lops linv lis_unit lnunit ldiv_round lsize_ok lnormz Z_ring rmul rone rzero].
  - exact Z_ring_laws.
  - intros u v. unfold z_inv, z_is_unit.
    destruct (Z.eqb_spec u 1); destruct (Z.eqb_spec (- u) 1); cbn; intros H; try discriminate;
      injection H as <-; lia.
  - intros u. unfold z_inv. intros ->. eauto.
  - intros a. unfold z_nunit, z_is_unit. destruct (a <? 0); reflexivity.
  - intros a. unfold z_nunit. destruct (Z.ltb_spec a 0); cbn [negb].
    + destruct (Z.ltb_spec (a * -1) 0); [lia|reflexivity].
    + destruct (Z.ltb_spec (a * 1) 0); [lia|reflexivity].
  - intros a b q H. apply z_div_round_some in H. apply Z.leb_le. unfold rsub. cbn [radd rneg rmul Z_ring].
    replace (a + - (q * b)) with (a - q * b) by lia. tauto.
  - exact z_div_round_total.
  - intros x b Hb H. apply Z.leb_le in H. rewrite <- (Z.abs_square x), <- (Z.abs_square b).
    assert (0 < Z.abs b) by lia. pose proof (Z.abs_nonneg x). nia.
  - intros x u. unfold z_is_unit. destruct (Z.eqb_spec u 1); destruct (Z.eqb_spec (- u) 1); cbn; intros H; try discriminate; nia.
Qed.

Definition q_mul' (eis : bool) (z w : qint) : qint :=
  let (a, b) := z in let (c, d) := w in
  if eis then (a * c - b * d, a * d + b * c + b * d) else (a * c - b * d, a * d + b * c).

Lemma q_mul_eq eis z w : q_mul eis z w = q_mul' eis z w.
Proof.
  destruct z as [a b], w as [c d]. unfold q_mul, q_mul'.
  destruct (Z.eqb_spec b 0) as [->|Hb].
  - destruct eis; f_equal; ring.
  - destruct (Z.eqb_spec d 0) as [->|Hd]; destruct eis; f_equal; ring.
Qed.

Lemma q_eqb_eq z w : q_eqb z w = true <-> z = w.
Proof.
  destruct z as [a b], w as [c d]. unfold q_eqb. cbn [fst snd].
  rewrite andb_true_iff, !Z.eqb_eq. split; [intros [-> ->]; reflexivity|intros H; injection H; auto].
Qed.

Lemma q_ring_laws eis : ring_laws (q_ring eis).
Proof.
  constructor; unfold q_ring; cbn [rzero rone radd rneg rmul reqb]; intros;
    rewrite ?q_mul_eq;
    repeat match goal with z : qint |- _ => destruct z end;
    unfold q_add, q_neg, q_zero, q_one, q_mul'; cbn [fst snd].
  all: try (destruct eis; cbn [fst snd]; f_equal; ring).
  apply q_eqb_eq.
Qed.

Lemma q_norm_nonneg eis z : 0 <= q_norm eis z.
Proof. destruct z as [a b]. unfold q_norm. destruct eis; nia. Qed.

Lemma q_norm_zero eis z : q_norm eis z = 0 -> z = (0, 0).
Proof.
  destruct z as [a b]. unfold q_norm. destruct eis; intros H.
  - assert (a = 0) by nia. assert (b = 0) by nia. subst. reflexivity.
  - assert (a = 0) by nia. assert (b = 0) by nia. subst. reflexivity.
Qed.

Lemma q_norm_pos eis z : z <> (0, 0) -> 0 < q_norm eis z.
Proof.
  intros H. pose proof (q_norm_nonneg eis z). destruct (Z.eq_dec (q_norm eis z) 0) as [E|E]; [|lia].
  apply q_norm_zero in E. contradiction.
Qed.

Lemma q_norm_mul eis z w : q_norm eis (q_mul eis z w) = q_norm eis z * q_norm eis w.
Proof. rewrite q_mul_eq. destruct z as [a b], w as [c d]. unfold q_mul', q_norm. destruct eis; ring. Qed.

Lemma q_mul_conj eis z : q_mul eis z (q_conj eis z) = (q_norm eis z, 0).
Proof. rewrite q_mul_eq. destruct z as [a b]. unfold q_mul', q_conj, q_norm. destruct eis; f_equal; ring. Qed.

Lemma q_unit_norm eis u : q_is_unit eis u = true -> q_norm eis u = 1.
Proof.
  unfold q_is_unit, z_is_unit. pose proof (q_norm_nonneg eis u).
  destruct (Z.eqb_spec (q_norm eis u) 1); [auto|]. destruct (Z.eqb_spec (- q_norm eis u) 1); cbn; [lia|discriminate].
Qed.


Lemma q_nunit_unit eis z : q_is_unit eis (q_nunit eis z) = true.
Proof.
  destruct z as [a b]. unfold q_nunit. destruct eis; ltb_cases; reflexivity.
Qed.

(* on the sector 0 < x, 0 <= y (and at zero) the normalizing unit is 1 ... *)
Lemma q_nunit_sector eis z : (0 < fst z /\ 0 <= snd z) \/ (fst z = 0 /\ snd z = 0) -> q_nunit eis z = q_one.
Proof.
  destruct z as [a b]. cbn [fst snd]. intros H. unfold q_nunit. destruct eis; ltb_cases; try reflexivity; lia.
Qed.

(* ... and multiplying by the normalizing unit moves every element into it *)
Lemma q_nunit_idem eis z : q_nunit eis (q_mul eis z (q_nunit eis z)) = q_one.
Proof.
  apply q_nunit_sector. rewrite q_mul_eq. destruct z as [a b]. unfold q_nunit.
  destruct eis; ltb_cases; unfold q_mul', q_one, q_omega, q_neg; cbn [fst snd]; lia.
Qed.

Lemma q_div_round_some eis a b q : q_div_round eis a b = Some q ->
  q_size_ok eis (q_sub a (q_mul eis q b)) b = true.
Proof.
  unfold q_div_round, q_size_ok.
  assert (E : q_mul eis (q_sub a (q_mul eis q b)) (q_conj eis b)
              = q_sub (q_mul eis a (q_conj eis b)) (q_mul eis q (q_norm eis b, 0))).
  { rewrite <- q_mul_conj. rewrite !q_mul_eq. destruct a as [a1 a2], b as [b1 b2], q as [q1 q2].
    unfold q_mul', q_sub, q_conj. cbn [fst snd]. destruct eis; cbn [fst snd]; f_equal; ring. }
  rewrite E. clear E.
  destruct (q_mul eis a (q_conj eis b)) as [x y]. set (n := q_norm eis b).
  rewrite q_mul_eq. destruct q as [q1 q2]. unfold q_mul', q_sub. cbn [fst snd].
  assert (Hn : 0 <= n) by apply q_norm_nonneg.
  (* both rings round two coordinates of the same kind; only which ones differs *)
  assert (Herr : forall c r e, z_div_round c n = Some r -> e = c - r * n -> 2 * Z.abs e <= n).
  { intros c r e Er ->. apply z_div_round_some in Er. rewrite (Z.abs_eq n) in Er by exact Hn. tauto. }
  destruct eis.
  - destruct (z_div_round (x + y) n) as [m'|] eqn:E1; [|discriminate]. cbn [obind].
    destruct (z_div_round y n) as [n'|] eqn:E2; [|discriminate]. cbn [obind].
    intros H. injection H as <- <-. apply andb_true_iff. rewrite !Z.leb_le. cbn [fst snd].
    split; [apply (Herr _ _ _ E1)|apply (Herr _ _ _ E2)]; ring.
  - destruct (z_div_round x n) as [x'|] eqn:E1; [|discriminate]. cbn [obind].
    destruct (z_div_round y n) as [y'|] eqn:E2; [|discriminate]. cbn [obind].
    intros H. injection H as <- <-. apply andb_true_iff. rewrite !Z.leb_le. cbn [fst snd].
    split; [apply (Herr _ _ _ E1)|apply (Herr _ _ _ E2)]; ring.
Qed.

Lemma q_div_round_total eis a b : b <> (0, 0) -> exists q, q_div_round eis a b = Some q.
Proof.
  intros Hb. unfold q_div_round. pose proof (q_norm_pos eis b Hb) as Hn.
  destruct (q_mul eis a (q_conj eis b)) as [x y].
  destruct eis.
  - destruct (z_div_round_total (x + y) (q_norm true b) ltac:(lia)) as [m' ->].
    destruct (z_div_round_total y (q_norm true b) ltac:(lia)) as [n' ->]. cbn. eauto.
  - destruct (z_div_round_total x (q_norm false b) ltac:(lia)) as [m' ->].
    destruct (z_div_round_total y (q_norm false b) ltac:(lia)) as [n' ->]. cbn. eauto.
Qed.

Lemma q_size_norm eis x b : b <> (0, 0) -> q_size_ok eis x b = true -> q_norm eis x < q_norm eis b.
Proof.
  intros Hb. unfold q_size_ok. pose proof (q_norm_pos eis b Hb) as Hn.
  pose proof (q_norm_mul eis x (q_conj eis b)) as Hm.
  assert (Hc : q_norm eis (q_conj eis b) = q_norm eis b).
  { destruct b as [b1 b2]. unfold q_conj, q_norm. destruct eis; ring. }
  rewrite Hc in Hm. clear Hc.
  destruct (q_mul eis x (q_conj eis b)) as [s t]. set (n := q_norm eis b) in *. set (nx := q_norm eis x) in *.
  unfold q_norm in Hm at 1.
  destruct eis; rewrite andb_true_iff, !Z.leb_le; intros [H1 H2].
  - (* s^2 + s t + t^2 = u^2 - u t + t^2 with u = s + t, |u|, |t| <= n/2 *)
    assert (A1 : 4 * ((s + t) * (s + t)) <= n * n) by nia.
    assert (A2 : 4 * (t * t) <= n * n) by nia.
    assert (A3 : 4 * Z.abs ((s + t) * t) <= n * n) by (rewrite Z.abs_mul; nia).
    assert (A4 : 4 * (nx * n) <= 3 * (n * n)).
    { replace (s * s + s * t + t * t * 1) with ((s + t) * (s + t) - (s + t) * t + t * t) in Hm by ring. lia. }
    nia.
  - assert (A1 : 4 * (s * s) <= n * n) by nia.
    assert (A2 : 4 * (t * t) <= n * n) by nia.
    assert (A4 : 4 * (nx * n) <= 2 * (n * n)) by lia.
    nia.
Qed.

Lemma q_lll_laws eis alpha : lll_laws (q_lll eis alpha).
Proof.
  constructor; cbn.
  - apply q_ring_laws.
  - intros u v. unfold q_inv, z_inv. destruct (z_is_unit (q_norm eis u)) eqn:Hu; [|discriminate].
    intros H. injection H as <-.
    pose proof (q_unit_norm eis u Hu) as Hn. rewrite Hn.
    pose proof (q_mul_conj eis u) as Hc. rewrite Hn in Hc.
    rewrite !q_mul_eq in *. destruct u as [a b]. unfold q_conj in *. unfold q_mul' in *.
    destruct eis; injection Hc as H1 H2; unfold q_one; f_equal; lia.
  - intros u. unfold q_is_unit, q_inv, z_inv. intros ->. eauto.
  - apply q_nunit_unit.
  - apply q_nunit_idem.
  - intros a b q H. apply q_div_round_some in H.
    replace (rsub (q_ring eis) a (q_mul eis q b)) with (q_sub a (q_mul eis q b)); [exact H|].
    unfold rsub. cbn. destruct a, (q_mul eis q b). unfold q_sub, q_add, q_neg. cbn [fst snd]. f_equal; ring.
  - apply q_div_round_total.
  - apply q_size_norm.
  - intros x u Hu. rewrite q_norm_mul, (q_unit_norm eis u Hu). ring.
Qed.

Lemma G_lll_laws : lll_laws G_lll.
Proof. apply q_lll_laws. Qed.
Lemma E_lll_laws : lll_laws E_lll.
Proof. apply q_lll_laws. Qed.
