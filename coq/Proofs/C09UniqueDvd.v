(* C09 (uniqueness), part 2: the divisibility lemma.
   R a Bezout integral domain, A an m x n matrix with two Smith-type forms of the same rank r,
       P1 A Q1 = diag(a_0 .. a_(r-1), 0 ..),   P2 A Q2 = diag(b_0 .. b_(r-1), 0 ..),
   all a_i, b_i non-zero, a_0 | a_1 | ..., b_0 | b_1 | ....  Then a_k | b_k for every k < r.

   Proof (no determinants).  Fix k and put Ui = P1 P2^-1 (inverse U = P2 P1^-1).
   (1) For l <= k let c = b_k / b_l and w = c e_l.  Then (P2 A Q2) w = b_k e_l, hence A (Q2 w) = b_k P2^-1 e_l and
       D1 (Q1^-1 Q2 w) = P1 A (Q2 w) = b_k Ui e_l:  row i reads  a_i y = b_k Ui[i,l]  (i < r),  0 = b_k Ui[i,l] (i >= r).
   (2) Write g = s a_k + t b_k, a_k = a' g, b_k = b' g, so 1 = s a' + t b'.  For i >= k, a_k | a_i, and (1) gives
       a' | Ui[i,l] for all i >= k, l <= k.
   (3) The k x (k+1) block Ui[..k, ..k+1] has a primitive kernel vector x (C09UniqueKer.prim_kernel).  From
       x = U Ui x and (2): a' divides every entry of x, hence a' | 1, g is an associate of a_k and a_k | b_k. *)
From Coq Require Import Arith List Lia Ring Bool.
Require Import Yui.Base.Ring Yui.Base.MatF Yui.Proofs.C07Algebra Yui.Proofs.C07Rank Yui.Proofs.C09UniqueKer.
Import ListNotations.

Section C09UniqueDvd.
  Context {R : Type} (o : ring_ops R) (L : ring_laws o) (Hint : integral o).

  Local Notation "0" := (rzero o).
  Local Notation "1" := (rone o).
  Local Infix "+" := (radd o).
  Local Infix "*" := (rmul o).
  Local Notation "- x" := (rneg o x).
  Local Notation dvd := (rdvd o).

  Add Ring RringU2 : (ring_theory_of_laws o L).

  Variables (m n : nat) (A P1 Pi1 Q1 Qi1 P2 Pi2 Q2 Qi2 : mat R) (r : nat) (a b : nat -> R).
  Hypothesis B : bezout o.
  Hypothesis S1 : smith o m n A P1 Pi1 Q1 Qi1 (dg o r a) r.
  Hypothesis S2 : smith o m n A P2 Pi2 Q2 Qi2 (dg o r b) r.
  Hypothesis Ca : chain o r a.
  Hypothesis Cb : chain o r b.
  Variable k : nat.
  Hypothesis Hk : (k < r)%nat.

  Let U : mat R := mmul o m P2 Pi1.
  Let Ui : mat R := mmul o m P1 Pi2.

  Lemma r_le : (r <= m)%nat /\ (r <= n)%nat.
  Proof. pose proof (sm_r _ _ _ _ _ _ _ _ _ _ S1). lia. Qed.

  Lemma dg_diag d : is_diag o m n (dg o r d).
  Proof. intros i j _ _ Hne. unfold dg. destruct (Nat.eqb_spec i j); [contradiction|reflexivity]. Qed.

  Lemma dg_ii d i : dg o r d i i = if i <? r then d i else 0.
  Proof. unfold dg. now rewrite Nat.eqb_refl. Qed.

  Lemma U_Ui : meq m m (mmul o m U Ui) (mid o).
  Proof.
    intros i j Hi Hj. unfold U, Ui. rewrite (mmul_assoc o L).
    rewrite (mmul_ext_r o m P2 _ Pi2).
    - now apply (sm_P _ _ _ _ _ _ _ _ _ _ S2).
    - intros l Hl. apply (mmul_cancel_l o L); [apply (sm_P _ _ _ _ _ _ _ _ _ _ S1)|assumption].
  Qed.

  (* step (1) *)
  Lemma column_eq l i : (l <= k)%nat -> (i < m)%nat ->
    exists y, (if i <? r then a i * y else 0) = b k * Ui i l.
  Proof.
    intros Hl Hi. destruct r_le as [Hrm Hrn].
    destruct (chain_le o L r b l k Cb Hl Hk) as [c Hc].
    set (W := (fun (j _ : nat) => if j =? l then c else 0) : mat R).
    set (X := mmul o n Q2 W).
    (* D2 W = b_k e_l *)
    assert (F1 : forall i', (i' < m)%nat -> mmul o n (dg o r b) W i' O = if i' =? l then b k else 0).
    { intros i' Hi'. rewrite (mmul_diag_l o L m n) by (try assumption; apply dg_diag).
      unfold W. rewrite dg_ii.
      destruct (Nat.eqb_spec i' l) as [->|Hne].
      - destruct (Nat.ltb_spec l n); [|lia]. destruct (Nat.ltb_spec l r); [|lia]. rewrite Hc. ring.
      - destruct (i' <? n); ring. }
    (* P2 (A X) = b_k e_l *)
    assert (G1 : forall i', (i' < m)%nat -> mmul o m P2 (mmul o n A X) i' O = if i' =? l then b k else 0).
    { intros i' Hi'. rewrite <- (F1 i' Hi'). unfold X.
      rewrite (mmul_ext_r o m P2 _ (mmul o n (mmul o n A Q2) W))
        by (intros l' _; symmetry; apply (mmul_assoc o L)).
      rewrite <- (mmul_assoc o L).
      apply (mmul_ext_l o). intros l' Hl'. symmetry. now apply (sm_eq _ _ _ _ _ _ _ _ _ _ S2). }
    (* A X = b_k Pi2 e_l *)
    assert (G2 : forall i', (i' < m)%nat -> mmul o n A X i' O = b k * Pi2 i' l).
    { intros i' Hi'.
      rewrite <- (mmul_cancel_l o L m Pi2 P2 (mmul o n A X) i' O)
        by (try assumption; apply (sm_P _ _ _ _ _ _ _ _ _ _ S2)).
      rewrite (mmul_ext_r o m Pi2 _ (fun i0 _ => if i0 =? l then b k else 0)) by (intros l' Hl'; now apply G1).
      unfold mmul. rewrite (sum_single o L m l).
      - rewrite Nat.eqb_refl. ring.
      - lia.
      - intros k0 _ Hne. destruct (Nat.eqb_spec k0 l); [contradiction|ring]. }
    (* P1 (A X) = b_k Ui e_l *)
    assert (G3 : mmul o m P1 (mmul o n A X) i O = b k * Ui i l).
    { unfold Ui. unfold mmul at 1 3. rewrite <- (sum_scal_l o L).
      apply (sum_ext o). intros l' Hl'. rewrite (G2 l' Hl'). ring. }
    (* P1 (A X) = D1 (Qi1 X) *)
    assert (G4 : mmul o m P1 (mmul o n A X) i O
                 = if i <? n then dg o r a i i * mmul o n Qi1 X i O else 0).
    { rewrite <- (mmul_assoc o L).
      rewrite (mmul_ext_l o n _ (mmul o n (dg o r a) Qi1))
        by (intros l' Hl'; now apply (smith_PA o L _ _ _ _ _ _ _ _ _ S1)).
      rewrite (mmul_assoc o L).
      apply (mmul_diag_l o L m n); [apply dg_diag|assumption]. }
    exists (mmul o n Qi1 X i O). rewrite <- G3, G4, dg_ii.
    destruct (Nat.ltb_spec i n); destruct (Nat.ltb_spec i r); try reflexivity; try ring. lia.
  Qed.

  Lemma dk_nz P Pi Q Qi d : smith o m n A P Pi Q Qi (dg o r d) r -> d k <> 0.
  Proof. intros S. pose proof (sm_nz _ _ _ _ _ _ _ _ _ _ S k Hk) as H. now rewrite dg_ii in H; destruct (Nat.ltb_spec k r); [|lia]. Qed.

  Theorem diag_dvd : dvd (a k) (b k).
  Proof.
    destruct r_le as [Hrm Hrn].
    destruct (B (a k) (b k)) as [g [s [t [Hg [[a' Ha'] [b' Hb']]]]]].
    assert (Hgnz : g <> 0).
    { intros E. apply (dk_nz _ _ _ _ _ S1). rewrite Ha', E. ring. }
    assert (H1 : s * a' + t * b' = 1).
    { apply (mul_cancel_r o L Hint) with g; [|exact Hgnz].
      transitivity (s * (a' * g) + t * (b' * g)); [ring|]. rewrite <- Ha', <- Hb', <- Hg. ring. }
    (* step (2) *)
    assert (Hdiv : forall i l, (k <= i)%nat -> (i < m)%nat -> (l <= k)%nat -> dvd a' (Ui i l)).
    { intros i l Hki Hi Hl. destruct (column_eq l i Hl Hi) as [y Hy].
      destruct (Nat.ltb_spec i r) as [Hir|Hir].
      - destruct (chain_le o L r a k i Ca Hki Hir) as [e He].
        assert (E : e * a' * y = b' * Ui i l).
        { apply (mul_cancel_r o L Hint) with g; [|exact Hgnz].
          transitivity (e * (a' * g) * y); [ring|]. rewrite <- Ha', <- He, Hy. rewrite Hb' at 1. ring. }
        exists (s * Ui i l + t * e * y).
        transitivity ((s * a' + t * b') * Ui i l); [rewrite H1; ring|].
        transitivity (s * a' * Ui i l + t * (b' * Ui i l)); [ring|]. rewrite <- E. ring.
      - assert (E : Ui i l = 0).
        { destruct (proj2 Hint _ _ (eq_sym Hy)) as [H|H]; [exfalso; now apply (dk_nz _ _ _ _ _ S2)|exact H]. }
        rewrite E. apply (rdvd_zero o L). }
    (* step (3) *)
    assert (Hkk : (k < S k)%nat) by lia.
    destruct (prim_kernel o L Hint B k (S k) Ui Hkk) as [x [cf [Hcf Hker]]].
    assert (Hx : forall l', (l' < S k)%nat -> dvd a' (x l')).
    { intros l' Hl'.
      assert (E : x l' = mvec o (S k) (mmul o m U Ui) x l').
      { unfold mvec. rewrite (sum_single o L (S k) l').
        - rewrite U_Ui by lia. unfold mid. rewrite Nat.eqb_refl. ring.
        - exact Hl'.
        - intros l Hl Hne. rewrite U_Ui by lia. unfold mid.
          destruct (Nat.eqb_spec l' l); [congruence|ring]. }
      rewrite E, (mvec_mmul o L). unfold mvec at 1.
      apply (rdvd_sum o L). intros i Hi. apply (rdvd_mul_l o L).
      destruct (Nat.ltb_spec i k) as [Hik|Hik].
      - unfold mvec. rewrite (Hker i Hik). apply (rdvd_zero o L).
      - unfold mvec. apply (rdvd_sum o L). intros l Hl. apply (rdvd_mul_r o L). apply Hdiv; lia. }
    assert (H1' : dvd a' 1).
    { rewrite <- Hcf. apply (rdvd_sum o L). intros l Hl. apply (rdvd_mul_l o L). now apply Hx. }
    destruct H1' as [q Hq].
    exists (b' * q). rewrite Hb'. rewrite Ha'.
    transitivity (b' * g * 1); [ring|]. rewrite Hq. ring.
  Qed.
End C09UniqueDvd.
