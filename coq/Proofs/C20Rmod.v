(* C20: the strings produced by rmod_str are good table cells; "0" is printed exactly for the zero module. *)
From Coq Require Import ZArith NArith List Bool Arith Lia ZifyN ZifyBool ZifyNat.
Require Import Yui.Model.Table Yui.Proofs.C20Str Yui.Proofs.C20Layout Yui.Proofs.C20Table.
Require Import Yui.Base.ListFacts.
Import ListNotations.

Definition no_nl (s : str) : Prop := forall c, In c s -> c <> 10%N.

Lemma superscript_digit_vis : forall d, (d <= 9)%N -> is_ws (superscript_digit d) = false.
Proof.
  intros d Hd. unfold superscript_digit.
  destruct (d =? 1)%N; [reflexivity|]. destruct (d =? 2)%N; [reflexivity|]. destruct (d =? 3)%N; [reflexivity|].
  unfold is_ws. lia.
Qed.
Lemma superscript_vis : forall n, superscript n <> [] /\ (forall c, In c (superscript n) -> is_ws c = false).
Proof.
  intro n. unfold superscript. destruct (str_of_N_spec n) as (Hd & Hne & _). split.
  - destruct (str_of_N n); [congruence | discriminate].
  - intros c Hc. apply in_map_iff in Hc. destruct Hc as (x & <- & Hx).
    unfold digit_str in Hd. rewrite Forall_forall in Hd. apply Hd, is_digit_spec in Hx.
    apply superscript_digit_vis. lia.
Qed.
Lemma vis_no_nl : forall s, (forall c, In c s -> is_ws c = false) -> no_nl s.
Proof. intros s H c Hc E. subst. specialize (H _ Hc). discriminate. Qed.

Lemma goodc_app_vis : forall a b, no_nl a -> b <> [] -> (forall c, In c b -> is_ws c = false) -> goodc (a ++ b).
Proof.
  intros a b Ha Hb Hv. split; [destruct a; [exact Hb | discriminate]|]. split.
  - intros c Hc. apply in_app_or in Hc. destruct Hc as [Hc|Hc]; [now apply Ha | now apply (vis_no_nl b Hv)].
  - rewrite last_app_ne by exact Hb. apply Hv. now apply last_In.
Qed.

Lemma join_good : forall sep ps, no_nl sep -> ps <> [] -> Forall goodc ps -> goodc (join sep ps).
Proof.
  intros sep ps Hsep. induction ps as [|a ps IH]; intros Hne Hall; [congruence|].
  inversion Hall as [|a0 ps0 Ha Hps]; subst. cbn [join]. destruct ps as [|b ps']; [exact Ha|].
  specialize (IH ltac:(discriminate) Hps). destruct Ha as (Ha1 & Ha2 & _). destruct IH as (I1 & I2 & I3).
  split; [destruct a; [congruence | discriminate]|]. split.
  - intros c Hc. apply in_app_or in Hc. destruct Hc as [Hc|Hc]; [now apply Ha2|].
    apply in_app_or in Hc. destruct Hc as [Hc|Hc]; [now apply Hsep | now apply I2].
  - rewrite app_assoc, last_app_ne by exact I1. exact I3.
Qed.
Lemma join_cases : forall sep ps, 2 <= length sep -> ps <> [] ->
  (exists p, ps = [p] /\ join sep ps = p) \/ 2 <= length (join sep ps).
Proof.
  intros sep [|a [|b ps']] Hsep Hne; [congruence | left; eauto | right].
  cbn [join]. rewrite !app_length. lia.
Qed.

Lemma tors_insert_nonempty : forall t acc, tors_insert t acc <> [].
Proof. intros t [|[k c] r]; cbn [tors_insert]; [discriminate|]. destruct (str_cmp t k); discriminate. Qed.
Lemma tors_fold_nonempty : forall ts acc, acc <> [] -> fold_left (fun acc t => tors_insert t acc) ts acc <> [].
Proof. induction ts as [|t ts IH]; intros acc H; [exact H|]. cbn [fold_left]. apply IH, tors_insert_nonempty. Qed.
Lemma tors_count_nonempty : forall ts, ts <> [] -> tors_count ts <> [].
Proof.
  intros [|t ts] H; [congruence|]. unfold tors_count. cbn [fold_left]. apply tors_fold_nonempty, tors_insert_nonempty.
Qed.
Lemma tors_insert_keys : forall t acc k c, In (k, c) (tors_insert t acc) -> k = t \/ exists c', In (k, c') acc.
Proof.
  induction acc as [|[k0 c0] r IH]; intros k c H; cbn [tors_insert] in H.
  - destruct H as [H|[]]. inversion H. now left.
  - destruct (str_cmp t k0).
    + destruct H as [H|H]; [injection H as E1 E2; right; exists c0; left; congruence | right; exists c; now right].
    + destruct H as [H|H]; [injection H as E1 E2; now left | right; exists c; exact H].
    + destruct H as [H|H]; [injection H as E1 E2; right; exists c0; left; congruence|].
      destruct (IH _ _ H) as [E|(c' & Hc')]; [now left | right; exists c'; now right].
Qed.
Lemma tors_fold_keys : forall ts acc k c, In (k, c) (fold_left (fun acc t => tors_insert t acc) ts acc) ->
  In k ts \/ exists c', In (k, c') acc.
Proof.
  induction ts as [|t ts IH]; intros acc k c H; [right; eauto|].
  cbn [fold_left] in H. destruct (IH _ _ _ H) as [Hk|(c' & Hc')]; [left; now right|].
  destruct (tors_insert_keys _ _ _ _ Hc') as [E|Hacc]; [left; now left | now right].
Qed.
Lemma tors_count_keys : forall ts k c, In (k, c) (tors_count ts) -> In k ts.
Proof. intros ts k c H. destruct (tors_fold_keys _ _ _ _ H) as [Hk|(c' & [])]. exact Hk. Qed.

Definition rmod_pieces (symbol : str) (m : summand) : list str :=
  (if (1 <? s_rank m)%N then [symbol ++ superscript (s_rank m)]
   else if (s_rank m =? 1)%N then [symbol] else []) ++
  map (fun tr : str * N =>
         let body := [40%N] ++ symbol ++ [47%N] ++ fst tr ++ [41%N] in
         if (1 <? snd tr)%N then body ++ superscript (snd tr) else body)
      (tors_count (s_tors m)).
Lemma rmod_str_unfold : forall symbol m,
  rmod_str symbol m = if (s_rank m =? 0)%N && (match s_tors m with [] => true | _ => false end)
                      then [48%N] else join oplus (rmod_pieces symbol m).
Proof.
  intros symbol m. unfold rmod_str, rmod_pieces.
  destruct (s_rank m) as [|p]; destruct (s_tors m); reflexivity.
Qed.

Lemma rmod_pieces_nonempty : forall symbol m,
  (s_rank m =? 0)%N && (match s_tors m with [] => true | _ => false end) = false -> rmod_pieces symbol m <> [].
Proof.
  intros symbol m H. unfold rmod_pieces. intro E. apply app_eq_nil in E. destruct E as [E1 E2].
  apply map_eq_nil in E2.
  destruct (s_tors m) as [|t ts] eqn:Et.
  - rewrite andb_true_r in H. destruct (1 <? s_rank m)%N eqn:L; [discriminate|].
    destruct (s_rank m =? 1)%N eqn:L1; [discriminate|]. lia.
  - apply (tors_count_nonempty (t :: ts)); [discriminate | exact E2].
Qed.

Lemma rmod_pieces_good : forall symbol m, goodc symbol -> Forall no_nl (s_tors m) ->
  Forall goodc (rmod_pieces symbol m).
Proof.
  intros symbol m Hs Ht. destruct Hs as (Hs1 & Hs2 & Hs3). unfold rmod_pieces. apply Forall_app. split.
  - destruct (1 <? s_rank m)%N.
    + constructor; [|constructor]. destruct (superscript_vis (s_rank m)) as [Hn Hv]. now apply goodc_app_vis.
    + destruct (s_rank m =? 1)%N; constructor; [|constructor]. repeat split; assumption.
  - apply Forall_forall. intros p Hp. apply in_map_iff in Hp. destruct Hp as ([k c] & <- & Hk).
    cbn [fst snd]. apply tors_count_keys in Hk. rewrite Forall_forall in Ht. specialize (Ht _ Hk).
    assert (Hbody : goodc ([40%N] ++ symbol ++ [47%N] ++ k ++ [41%N])).
    { rewrite !app_assoc. apply goodc_app_vis; [|discriminate | intros x [<-|[]]; reflexivity].
      intros x Hx. repeat (apply in_app_or in Hx; destruct Hx as [Hx|Hx]); try (now apply Hs2); try (now apply Ht);
        destruct Hx as [<-|[]]; discriminate. }
    destruct (1 <? c)%N; [|exact Hbody].
    destruct (superscript_vis c) as [Hn Hv]. apply goodc_app_vis; [exact (proj1 (proj2 Hbody)) | exact Hn | exact Hv].
Qed.

Lemma oplus_no_nl : no_nl oplus.
Proof. intros c Hc. cbn in Hc. destruct Hc as [<-|[<-|[<-|[]]]]; discriminate. Qed.

Theorem rmod_str_good : forall symbol m, goodc symbol -> Forall no_nl (s_tors m) -> goodc (rmod_str symbol m).
Proof.
  intros symbol m Hs Ht. rewrite rmod_str_unfold.
  destruct ((s_rank m =? 0)%N && (match s_tors m with [] => true | _ => false end)) eqn:E.
  - split; [discriminate|]. split; [intros c [<-|[]]; discriminate | reflexivity].
  - apply join_good; [apply oplus_no_nl | now apply rmod_pieces_nonempty | now apply rmod_pieces_good].
Qed.

(* the printed module is "0" for the zero module, and otherwise the bare symbol or at least two characters *)
Theorem rmod_str_cases : forall symbol m, symbol <> [] ->
  ((s_rank m = 0%N /\ s_tors m = []) /\ rmod_str symbol m = [48%N]) \/
  (~ (s_rank m = 0%N /\ s_tors m = []) /\ (rmod_str symbol m = symbol \/ 2 <= length (rmod_str symbol m))).
Proof.
  intros symbol m Hs. rewrite rmod_str_unfold.
  destruct ((s_rank m =? 0)%N && (match s_tors m with [] => true | _ => false end)) eqn:E.
  - left. apply andb_true_iff in E. destruct E as [E1 E2]. apply N.eqb_eq in E1.
    destruct (s_tors m); [auto | discriminate].
  - right. split.
    + intros [H1 H2]. rewrite H1, H2 in E. discriminate.
    + pose proof (rmod_pieces_nonempty symbol m E) as Hne.
      destruct (join_cases oplus _ ltac:(cbn; lia) Hne) as [(p & Ep & Ej)|H]; [|now right].
      rewrite Ej. unfold rmod_pieces in Ep.
      (* a single piece: the symbol, the symbol with an exponent, or a torsion summand *)
      destruct (1 <? s_rank m)%N eqn:L.
      * cbn [app] in Ep. inversion Ep; subst. right. rewrite app_length.
        destruct (superscript_vis (s_rank m)) as [Hn _].
        destruct symbol; [congruence|]. destruct (superscript (s_rank m)); [congruence|]. cbn [length]. lia.
      * destruct (s_rank m =? 1)%N eqn:L1.
        -- cbn [app] in Ep. inversion Ep; subst. now left.
        -- cbn [app] in Ep. destruct (tors_count (s_tors m)) as [|[k c] r]; [discriminate|].
           cbn [map fst snd] in Ep. inversion Ep; subst. right.
           destruct (1 <? c)%N; cbn [length]; rewrite ?app_length; cbn [length]; rewrite ?app_length; cbn [length]; lia.
Qed.

Corollary rmod_str_not_dot : forall symbol m, symbol <> [] -> symbol <> dot -> rmod_str symbol m <> dot.
Proof.
  intros symbol m Hs Hd. destruct (rmod_str_cases symbol m Hs) as [[_ E]|[_ [E|E]]]; rewrite ?E.
  - discriminate.
  - exact Hd.
  - intro E'. rewrite E' in E. cbn in E. lia.
Qed.
Corollary rmod_str_zero : forall symbol m, symbol <> [] -> symbol <> [48%N] ->
  (rmod_str symbol m = [48%N] <-> s_rank m = 0%N /\ s_tors m = []).
Proof.
  intros symbol m Hs Hz. destruct (rmod_str_cases symbol m Hs) as [[Hm E]|[Hm [E|E]]].
  - split; auto.
  - split; [intro E'; congruence | intro; contradiction].
  - split; [intro E'; rewrite E' in E; cbn in E; lia | intro; contradiction].
Qed.
