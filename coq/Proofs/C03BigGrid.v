(* C03Big: the grid of into_bigraded (range_of, step_by(2), Grid::get) and its cells. *)
From Coq Require Import List ZArith Bool Lia Permutation FinFun.
Require Import Yui.Model.IntoBigraded Yui.Proofs.C03BigTable.
Require Import Yui.Base.ListFacts.
Import ListNotations.
Open Scope Z_scope.

Lemma range_fold_some : forall l a b, a <= b ->
  exists a' b', fold_left range_step l (Some (a, b)) = Some (a', b') /\ a' <= a /\ b <= b' /\
    (a' = a \/ In a' l) /\ (b' = b \/ In b' l) /\ (forall x, In x l -> a' <= x <= b').
Proof.
  induction l as [|i l IH]; intros a b Hab.
  - exists a, b. cbn. repeat split; auto; try lia; intros x [].
  - (* one step keeps an interval that contains the old one and i, with ends among the old ends and i *)
    assert (S : exists a1 b1, range_step (Some (a, b)) i = Some (a1, b1) /\
              a1 <= a /\ b <= b1 /\ a1 <= i <= b1 /\ (a1 = a \/ a1 = i) /\ (b1 = b \/ b1 = i)).
    { cbn [range_step]. destruct (Z.ltb_spec i a); [|destruct (Z.ltb_spec b i)];
        eexists _, _; (split; [reflexivity|lia]). }
    destruct S as (a1 & b1 & E & L1 & L2 & L3 & Ea & Eb). cbn [fold_left]. rewrite E.
    destruct (IH a1 b1 ltac:(lia)) as (a' & b' & Hf & H1 & H2 & H3 & H4 & H5).
    exists a', b'. rewrite Hf. repeat split; try lia.
    + destruct H3 as [->|H3]; [|right; right; exact H3]. destruct Ea as [->| ->]; [left|right; left]; reflexivity.
    + destruct H4 as [->|H4]; [|right; right; exact H4]. destruct Eb as [->| ->]; [left|right; left]; reflexivity.
    + destruct H as [<-|H]; [lia|apply H5; exact H].
    + destruct H as [<-|H]; [lia|apply H5; exact H].
Qed.

(* range_of of a non-empty list is (minimum, maximum), whatever the order of the list *)
Lemma range_of_spec : forall l, l <> [] ->
  In (fst (range_of l)) l /\ In (snd (range_of l)) l /\ forall x, In x l -> fst (range_of l) <= x <= snd (range_of l).
Proof.
  intros [|i l] Hne; [congruence|]. unfold range_of. cbn [fold_left range_step].
  destruct (range_fold_some l i i ltac:(lia)) as (a' & b' & Hf & H1 & H2 & H3 & H4 & H5).
  rewrite Hf. cbn [fst snd]. repeat split.
  - destruct H3 as [->|H3]; [left; reflexivity | right; exact H3].
  - destruct H4 as [->|H4]; [left; reflexivity | right; exact H4].
  - destruct H as [<-|H]; [lia | apply H5; exact H].
  - destruct H as [<-|H]; [lia | apply H5; exact H].
Qed.

Lemma range_of_nil : range_of [] = (0, 0).
Proof. reflexivity. Qed.

Lemma zrange_in : forall a b step x, 0 < step ->
  In x (zrange a b step) <-> a <= x <= b /\ (x - a) mod step = 0.
Proof.
  intros a b step x Hs. unfold zrange.
  destruct (b <? a) eqn:E; [apply Z.ltb_lt in E | apply Z.ltb_ge in E].
  - cbn. split; [tauto | lia].
  - rewrite in_map_iff. split.
    + intros [k [Hx Hk]]. apply in_seq in Hk. subst x.
      assert (Hq : 0 <= (b - a) / step) by (apply Z.div_pos; lia).
      assert (Hk' : Z.of_nat k <= (b - a) / step) by lia.
      assert (Hm : step * ((b - a) / step) <= b - a) by (apply Z.mul_div_le; lia).
      split.
      * split; [nia | nia].
      * replace (a + step * Z.of_nat k - a) with (Z.of_nat k * step) by ring. apply Z.mod_mul. lia.
    + intros [[H1 H2] Hm].
      assert (Hx : x - a = step * ((x - a) / step)) by (apply Z.div_exact; lia).
      assert (Hq : 0 <= (x - a) / step) by (apply Z.div_pos; lia).
      assert (Hle : (x - a) / step <= (b - a) / step) by (apply Z.div_le_mono; lia).
      exists (Z.to_nat ((x - a) / step)). split.
      * rewrite Z2Nat.id by exact Hq. lia.
      * apply in_seq. split; [lia|]. cbn [plus Nat.add]. apply Z2Nat.inj_lt; lia.
Qed.

Lemma zrange_nodup : forall a b step, 0 < step -> NoDup (zrange a b step).
Proof.
  intros a b step Hs. unfold zrange. destruct (b <? a); [constructor|].
  apply Injective_map_NoDup; [|apply seq_NoDup].
  intros k1 k2 H. assert (H' : step * Z.of_nat k1 = step * Z.of_nat k2) by lia.
  apply Z.mul_reg_l in H'; lia.
Qed.

Lemma in_product : forall (I J : list Z) i j,
  In (i, j) (flat_map (fun i => map (fun j => (i, j)) J) I) <-> In i I /\ In j J.
Proof.
  intros I J i j. rewrite in_flat_map. split.
  - intros [i' [Hi Hj]]. apply in_map_iff in Hj. destruct Hj as [j' [E Hj]]. inversion E; subst. auto.
  - intros [Hi Hj]. exists i. split; [exact Hi|]. apply in_map_iff. exists j. auto.
Qed.

Lemma nodup_product : forall (I J : list Z), NoDup I -> NoDup J ->
  NoDup (flat_map (fun i => map (fun j => (i, j)) J) I).
Proof.
  intros I J HI HJ. induction HI as [|i I Hn HI IH].
  - constructor.
  - cbn [flat_map]. apply NoDup_app_intro; [| exact IH |].
    + apply Injective_map_NoDup; [|exact HJ]. intros j1 j2 E. inversion E. reflexivity.
    + intros [i' j'] H1 H2. apply in_map_iff in H1. destruct H1 as [j1 [E _]]. inversion E; subst.
      apply (in_product I J i' j') in H2. destruct H2 as [H2 _]. contradiction.
Qed.

(* the support of the new grid *)
Definition h_keys (t : table) : list Z := map (fun x => fst (fst x)) t.
Definition q_keys (t : table) : list Z := map (fun x => snd (fst x)) t.

Lemma ib_support_in : forall t i j,
  In (i, j) (ib_support t) <->
  In i (zrange (fst (range_of (h_keys t))) (snd (range_of (h_keys t))) 1) /\
  In j (zrange (fst (range_of (q_keys t))) (snd (range_of (q_keys t))) 2).
Proof.
  intros t i j. unfold ib_support. fold (h_keys t). fold (q_keys t).
  destruct (range_of (h_keys t)) as [h0 h1]. destruct (range_of (q_keys t)) as [q0 q1].
  cbn [fst snd]. apply in_product.
Qed.

Lemma ib_support_nodup : forall t, NoDup (ib_support t).
Proof.
  intros t. unfold ib_support.
  destruct (range_of (map (fun x => fst (fst x)) t)) as [h0 h1].
  destruct (range_of (map (fun x => snd (fst x)) t)) as [q0 q1].
  apply nodup_product; apply zrange_nodup; lia.
Qed.

Lemma same_odd_mod2 : forall a b, Z.odd a = Z.odd b -> (b - a) mod 2 = 0.
Proof.
  intros a b H. rewrite Zmod_odd, Z.odd_sub, H. destruct (Z.odd b); reflexivity.
Qed.

(* a key of the table whose q-degree has the parity of all the others is on the grid *)
Lemma ib_support_key : forall t i j,
  In (i, j) (map fst t) -> (forall k, In k (map fst t) -> Z.odd (snd k) = Z.odd j) -> In (i, j) (ib_support t).
Proof.
  intros t i j Hin Hpar. apply ib_support_in.
  assert (Hi : In i (h_keys t)) by (apply (in_map fst) in Hin; now rewrite map_map in Hin).
  assert (Hj : In j (q_keys t)) by (apply (in_map snd) in Hin; now rewrite map_map in Hin).
  split.
  - apply zrange_in; [lia|].
    destruct (range_of_spec (h_keys t)) as (_ & _ & H); [intros E; rewrite E in Hi; exact Hi|].
    split; [apply H; exact Hi | apply Z.mod_1_r].
  - apply zrange_in; [lia|].
    destruct (range_of_spec (q_keys t)) as (H0 & _ & H); [intros E; rewrite E in Hj; exact Hj|].
    split; [apply H; exact Hj|].
    apply same_odd_mod2. unfold q_keys in *. apply in_map_iff in H0. destruct H0 as [x [E Hx]].
    rewrite <- E. apply (Hpar (fst x)). apply in_map. exact Hx.
Qed.

(* Grid::get on the generated grid *)
Lemma ib_get_map_in : forall (f : key -> cell) S k,
  In k S -> ib_get k (map (fun idx => (idx, f idx)) S) = f k.
Proof.
  intros f S k. induction S as [|k1 S IH]; intros H; [destruct H|].
  cbn [map ib_get]. destruct (key_eqb k k1) eqn:E.
  - apply key_eqb_spec in E. subst. reflexivity.
  - apply key_eqb_false in E. destruct H as [H|H]; [congruence | apply IH; exact H].
Qed.

Lemma ib_get_map_notin : forall (f : key -> cell) S k,
  ~ In k S -> ib_get k (map (fun idx => (idx, f idx)) S) = zero_cell.
Proof.
  intros f S k. induction S as [|k1 S IH]; intros H; [reflexivity|].
  cbn [map ib_get]. destruct (key_eqb k k1) eqn:E.
  - apply key_eqb_spec in E. subst. exfalso. apply H. left. reflexivity.
  - apply IH. intros H'. apply H. right. exact H'.
Qed.

(* the cell of the new grid: on the grid it is the regrouping, off the grid it is zero *)
Lemma into_bigraded_cell_on : forall hs i j,
  In (i, j) (ib_support (collect_gen_info hs)) ->
  ib_get (i, j) (into_bigraded hs) = regroup chain_q_deg j (gens_at hs i).
Proof.
  intros hs i j H. unfold into_bigraded.
  rewrite (ib_get_map_in (fun idx => cell_of (tbl_find idx (collect_gen_info hs))) _ _ H).
  apply collect_gen_info_regroup.
Qed.

Lemma into_bigraded_cell_off : forall hs i j,
  ~ In (i, j) (ib_support (collect_gen_info hs)) -> ib_get (i, j) (into_bigraded hs) = zero_cell.
Proof.
  intros hs i j H. unfold into_bigraded.
  apply (ib_get_map_notin (fun idx => cell_of (tbl_find idx (collect_gen_info hs))) _ _ H).
Qed.

Lemma in_locate : forall k g i gs,
  In (k, g) (locate i gs) <-> fst k = i /\ exists qs, In (g, qs) gs /\ snd k = chain_q_deg qs.
Proof.
  intros k g i gs. unfold locate. rewrite in_map_iff. split.
  - intros [[g' qs] [E H]]. cbn [fst snd] in E. inversion E; subst. cbn [fst snd]. split; [reflexivity|].
    exists qs. auto.
  - intros [Hi [qs [H Hq]]]. exists (g, qs). cbn [fst snd]. split; [|exact H].
    destruct k as [k1 k2]. cbn [fst snd] in *. subst. reflexivity.
Qed.

Lemma in_all_located : forall k g hs,
  In (k, g) (all_located hs) <-> exists qs, In (g, qs) (gens_at hs (fst k)) /\ snd k = chain_q_deg qs.
Proof.
  intros k g hs. induction hs as [|[i s] hs IH].
  - cbn. split; [tauto | intros [qs [[] _]]].
  - cbn [all_located gens_at flat_map fst snd]. fold (all_located hs). fold (gens_at hs (fst k)).
    rewrite in_app_iff, IH, in_locate. split.
    + intros [[Hi [qs [H Hq]]] | [qs [H Hq]]].
      * exists qs. split; [|exact Hq]. apply in_or_app. left. subst i. rewrite Z.eqb_refl. exact H.
      * exists qs. split; [|exact Hq]. apply in_or_app. right. exact H.
    + intros [qs [H Hq]]. apply in_app_or in H. destruct H as [H|H].
      * destruct (i =? fst k) eqn:E; [|destruct H]. apply Z.eqb_eq in E. left. split; [auto|]. exists qs. auto.
      * right. exists qs. auto.
Qed.

Lemma regroup_zero : forall j gs,
  (forall g qs, In (g, qs) gs -> chain_q_deg qs <> j) -> regroup chain_q_deg j gs = zero_cell.
Proof.
  intros j gs H. unfold regroup.
  assert (E : filter (fun g => chain_q_deg (snd g) =? j) gs = []).
  { induction gs as [|[g qs] gs IH]; [reflexivity|]. cbn [filter snd].
    destruct (chain_q_deg qs =? j) eqn:E.
    - apply Z.eqb_eq in E. exfalso. apply (H g qs); [left; reflexivity | exact E].
    - apply IH. intros g' qs' H'. apply (H g' qs'). right. exact H'. }
  rewrite E. reflexivity.
Qed.

Lemma key_eq_dec : forall a b : key, {a = b} + {a <> b}.
Proof. intros [a1 a2] [b1 b2]. destruct (Z.eq_dec a1 b1), (Z.eq_dec a2 b2); [left; congruence | right; congruence ..]. Qed.

(* with q-degrees of one parity every generator's cell is on the grid *)
Lemma same_parity_on_grid : forall hs i g qs, same_parity hs ->
  In (g, qs) (gens_at hs i) -> In (i, chain_q_deg qs) (ib_support (collect_gen_info hs)).
Proof.
  intros hs i g qs [p Hp] Hin. apply ib_support_key.
  - apply keys_collect_gen_info. apply in_map_iff. exists ((i, chain_q_deg qs), g). split; [reflexivity|].
    apply in_all_located. exists qs. auto.
  - intros k Hk. apply keys_collect_gen_info in Hk. apply in_map_iff in Hk. destruct Hk as [[k' g'] [E Hk]].
    cbn [fst] in E. subst k'. apply in_all_located in Hk. destruct Hk as [qs' [H' Hq']].
    cbn [snd]. rewrite Hq'. rewrite (Hp _ _ _ H'), (Hp _ _ _ Hin). reflexivity.
Qed.

Lemma into_bigraded_cell_parity : forall hs, same_parity hs -> forall i j,
  ib_get (i, j) (into_bigraded hs) = regroup chain_q_deg j (gens_at hs i).
Proof.
  intros hs Hp i j. destruct (in_dec key_eq_dec (i, j) (ib_support (collect_gen_info hs))) as [H|H].
  - apply into_bigraded_cell_on. exact H.
  - rewrite (into_bigraded_cell_off _ _ _ H). symmetry. apply regroup_zero.
    intros g qs Hin E. apply H. rewrite <- E. apply (same_parity_on_grid hs i g qs Hp Hin).
Qed.

Lemma fold_min_const : forall q r, Forall (eq q) r -> fold_left Z.min r q = q.
Proof.
  intros q r H. induction H as [|x r Hx H IH]; [reflexivity|]. subst x. cbn [fold_left].
  rewrite Z.min_id. exact IH.
Qed.

Lemma forallb_eqb_const : forall j q r, Forall (eq q) r -> r <> [] -> forallb (Z.eqb j) r = (j =? q).
Proof.
  intros j q r H. induction H as [|x r Hx H IH]; intros Hne; [congruence|]. subst x. cbn [forallb].
  destruct r as [|y r].
  - cbn. apply andb_true_r.
  - rewrite IH by discriminate. apply andb_diag.
Qed.

Lemma homogeneous_q_deg : forall j qs, homogeneous qs -> (chain_q_deg qs =? j) = lives_in j qs.
Proof.
  intros j qs [q0 H]. destruct qs as [|q r].
  - unfold lives_in, chain_q_deg. apply Z.eqb_sym.
  - unfold lives_in, chain_q_deg. inversion H as [|? ? Hq Hr]; subst.
    rewrite (fold_min_const _ _ Hr).
    rewrite (forallb_eqb_const j q (q :: r) H) by discriminate. apply Z.eqb_sym.
Qed.

Lemma regroup_homogeneous : forall j s, all_homogeneous s ->
  regroup chain_q_deg j (tagged s)
  = (length (filter (lives_in j) (si_free s)), map fst (filter (fun p => lives_in j (snd p)) (si_tors s))).
Proof.
  intros j s [Hf Ht]. unfold tagged. rewrite regroup_app.
  assert (F : regroup chain_q_deg j (map (fun qs => (GFree, qs)) (si_free s))
              = (length (filter (lives_in j) (si_free s)), [])).
  { induction Hf as [|qs l Hq Hf IH]; [reflexivity|].
    cbn [map]. rewrite regroup_cons, IH. cbn [filter snd fst].
    rewrite (homogeneous_q_deg j qs Hq). destruct (lives_in j qs); reflexivity. }
  assert (T : regroup chain_q_deg j (map (fun p => (GTor (fst p), snd p)) (si_tors s))
              = (O, map fst (filter (fun p => lives_in j (snd p)) (si_tors s)))).
  { induction Ht as [|[t qs] l Hq Ht IH]; [reflexivity|].
    cbn [map]. rewrite regroup_cons, IH. cbn [filter snd fst].
    cbn [snd] in Hq. rewrite (homogeneous_q_deg j qs Hq). destruct (lives_in j qs); reflexivity. }
  rewrite F, T. cbn [fst snd app]. rewrite Nat.add_0_r. reflexivity.
Qed.

Lemma gens_at_nodup : forall hs i s, NoDup (map fst hs) -> In (i, s) hs -> gens_at hs i = tagged s.
Proof.
  intros hs i s Hnd Hin. induction hs as [|[i' s'] hs IH]; [destruct Hin|].
  cbn [map fst] in Hnd. inversion Hnd as [|? ? Hn Hd]; subst.
  cbn [gens_at flat_map fst snd]. fold (gens_at hs i). destruct Hin as [E|Hin].
  - inversion E; subst. rewrite Z.eqb_refl.
    assert (G : gens_at hs i = []).
    { clear IH Hd Hnd. induction hs as [|[i2 s2] hs IH2]; [reflexivity|].
      cbn [gens_at flat_map fst snd]. fold (gens_at hs i).
      destruct (i2 =? i) eqn:E2.
      - apply Z.eqb_eq in E2. subst. exfalso. apply Hn. left. reflexivity.
      - apply IH2. intros H. apply Hn. right. exact H. }
    rewrite G. apply app_nil_r.
  - destruct (i' =? i) eqn:E2.
    + apply Z.eqb_eq in E2. subst. exfalso. apply Hn. apply (in_map fst) in Hin. exact Hin.
    + apply IH; assumption.
Qed.

Lemma into_bigraded_homogeneous : forall hs i s j,
  NoDup (map fst hs) -> In (i, s) hs -> same_parity hs -> all_homogeneous s ->
  ib_get (i, j) (into_bigraded hs)
  = (length (filter (lives_in j) (si_free s)), map fst (filter (fun p => lives_in j (snd p)) (si_tors s))).
Proof.
  intros hs i s j Hnd Hin Hp Hh. rewrite (into_bigraded_cell_parity hs Hp), (gens_at_nodup hs i s Hnd Hin).
  apply regroup_homogeneous. exact Hh.
Qed.

(* the grid, in one statement *)
Lemma into_bigraded_keys : forall hs, map fst (into_bigraded hs) = ib_support (collect_gen_info hs).
Proof. intros hs. unfold into_bigraded. rewrite map_map. cbn [fst]. apply map_id. Qed.

Lemma into_bigraded_grid : forall hs,
  let t := collect_gen_info hs in
  (forall i j, In (i, j) (ib_support t) -> ib_get (i, j) (into_bigraded hs) = regroup chain_q_deg j (gens_at hs i)) /\
  (forall i j, ~ In (i, j) (ib_support t) -> ib_get (i, j) (into_bigraded hs) = zero_cell) /\
  (forall i j, In (i, j) (ib_support t) <->
     (fst (range_of (h_keys t)) <= i <= snd (range_of (h_keys t)) /\ (i - fst (range_of (h_keys t))) mod 1 = 0) /\
     (fst (range_of (q_keys t)) <= j <= snd (range_of (q_keys t)) /\ (j - fst (range_of (q_keys t))) mod 2 = 0)) /\
  NoDup (ib_support t) /\
  map fst (into_bigraded hs) = ib_support t.
Proof.
  intros hs t. split; [|split; [|split; [|split]]].
  - intros i j. apply into_bigraded_cell_on.
  - intros i j. apply into_bigraded_cell_off.
  - intros i j. rewrite ib_support_in, !zrange_in by lia. reflexivity.
  - apply ib_support_nodup.
  - apply into_bigraded_keys.
Qed.
