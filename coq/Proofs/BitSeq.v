(* Refinement of the BitSeq model to plain lists of booleans: constructors, mutators ([step_refines]) and
   histories, observers (iter, index, weight via popcount, is_sub), to_string / from_str, the order [l_cmp]
   (length, then weight, then value; [l_cmp_lt]) and generate. *)
From Coq Require Import NArith List Bool Arith Lia ZifyBool ZifyNat ZifyN.
Require Import Yui.Model.BitSeq Yui.Proofs.BitSeqBits.
Require Import Yui.Base.ListFacts.
Import ListNotations.

Definition Inv (b : bitseq) : Prop := len b <= 64 /\ (val b < 2 ^ N.of_nat (len b))%N.

Definition refines (r : option bitseq) (s : option (list bool)) : Prop :=
  match s with
  | Some l => exists b', r = Some b' /\ Inv b' /\ abs b' = l
  | None => r = None
  end.

Lemma abs_length b : length (abs b) = len b.
Proof. apply bits_length. Qed.

Lemma inv_tb b : Inv b -> forall i, len b <= i -> tb (val b) i = false.
Proof. intros [_ H]. now apply small_tb. Qed.

Lemma nth_abs b i : Inv b -> nth i (abs b) false = tb (val b) i.
Proof.
  intros H. unfold abs. rewrite nth_bits_all. destruct (Nat.ltb_spec i (len b)); [reflexivity|].
  symmetry. now apply inv_tb.
Qed.

(* the way every constructor and mutator is shown correct: bit [i] of the word is element [i] of the list *)
Lemma refine_intro v l L :
  l <= 64 -> length L = l -> (forall i, tb v i = nth i L false) ->
  refines (Some (mk v l)) (Some L).
Proof.
  intros Hl HL H. exists (mk v l). split; [reflexivity|]. split.
  - split; [exact Hl|]. cbn [val len]. apply small_tb. intros i Hi. rewrite H. apply nth_overflow. lia.
  - unfold abs. cbn [val len]. apply bits_ext; [exact HL|]. intros i _. symmetry. apply H.
Qed.

Lemma abs_inj a b : Inv a -> Inv b -> abs a = abs b -> a = b.
Proof.
  intros Ha Hb E. destruct a as [va la], b as [vb lb].
  assert (la = lb).
  { pose proof (abs_length (mk va la)) as H1. pose proof (abs_length (mk vb lb)) as H2.
    rewrite E in H1. cbn [len] in *. congruence. }
  subst lb.
  f_equal. apply tb_ext. intros i. rewrite <- (nth_abs (mk va la)), <- (nth_abs (mk vb la)) by assumption.
  now rewrite E.
Qed.

Lemma nth_firstn_all {A} (l : list A) n i d : nth i (firstn n l) d = if i <? n then nth i l d else d.
Proof.
  destruct (Nat.ltb_spec i n); [now apply nth_firstn_lt|].
  apply nth_overflow. rewrite firstn_length. lia.
Qed.

(* simplifies boolean expressions with constant operands *)
Ltac bsimp :=
  cbn [andb orb negb];
  rewrite ?andb_true_r, ?andb_false_r, ?orb_false_r, ?orb_true_r;
  cbn [andb orb negb].

Lemma new_spec v l :
  refines (new v l) (if (l <=? 64) && (v <? 2 ^ N.of_nat l)%N then Some (bits v l) else None).
Proof.
  unfold new, MAX_LEN. destruct (Nat.leb_spec l 64) as [Hl|Hl]; cbn [andb refines]; [|reflexivity].
  rewrite mask_some by lia. cbn [obind].
  destruct (N.ltb_spec v (2 ^ N.of_nat l)) as [Hv|Hv].
  - destruct (N.leb_spec v (N.ones (N.of_nat l))) as [Hm|Hm].
    + cbn [refines]. eexists; split; [reflexivity|]. split; [split; assumption|reflexivity].
    + apply le_ones in Hv. lia.
  - destruct (N.leb_spec v (N.ones (N.of_nat l))) as [Hm|Hm]; [|reflexivity].
    apply le_ones in Hm. lia.
Qed.

Lemma new_ok v l : l <= 64 -> (v < 2 ^ N.of_nat l)%N -> new v l = Some (mk v l).
Proof.
  intros Hl Hv. unfold new, MAX_LEN. rewrite (proj2 (Nat.leb_le _ _) Hl), mask_some by exact Hl. cbn [obind].
  apply le_ones in Hv. now rewrite (proj2 (N.leb_le _ _) Hv).
Qed.

Lemma empty_spec : refines empty (Some []).
Proof. apply (new_spec 0 0). Qed.

Lemma zeros_spec l : refines (zeros l) (if l <=? 64 then Some (repeat false l) else None).
Proof.
  unfold zeros. pose proof (new_spec 0 l) as H.
  assert (Hz : (0 <? 2 ^ N.of_nat l)%N = true).
  { apply N.ltb_lt. apply N.neq_0_lt_0, N.pow_nonzero. lia. }
  rewrite Hz, andb_true_r in H. destruct (l <=? 64); [|exact H].
  replace (repeat false l) with (bits 0 l); [exact H|].
  apply bits_ext; [apply repeat_length|]. intros i Hi. rewrite tb_0, nth_repeat_all. now destruct (i <? l).
Qed.

Lemma ones_spec l : refines (ones l) (if l <=? 64 then Some (repeat true l) else None).
Proof.
  unfold ones. destruct (Nat.leb_spec l 64) as [Hl|Hl].
  - rewrite mask_some by lia. cbn [obind].
    rewrite new_ok; [|lia|apply le_ones; lia].
    apply refine_intro; [lia|apply repeat_length|].
    intros i. rewrite tb_ones, nth_repeat_all. now destruct (i <? l).
  - rewrite mask_none by lia. reflexivity.
Qed.


(* Each proof compares the word and the list position by position: [refine_intro] asks for bit [j] of
   the new word to be element [j] of the new list, the [tb_*] lemmas give the one, the [nth_*] lemmas
   the other.  Under [Inv] nothing reaches bit 64, so shifts and complements are not truncated
   ([shl_small], [land_lnot64]). *)
Lemma set_spec b i x : Inv b ->
  refines (set b i x) (if i <? length (abs b) then Some (l_set (abs b) i x) else None).
Proof.
  intros Hb. pose proof (inv_tb b Hb) as Hs. pose proof (proj1 Hb) as Hl. rewrite abs_length. unfold set.
  destruct (Nat.ltb_spec i (len b)) as [Hi|Hi]; [|reflexivity].
  rewrite shl_one by lia. cbn [obind].
  apply refine_intro; [exact Hl|rewrite length_l_set; rewrite abs_length; trivial|].
  intros j. rewrite nth_l_set, nth_abs by (rewrite ?abs_length; assumption). destruct x.
  - rewrite tb_lor, tb_one_shl. destruct (j =? i); [apply orb_true_r|apply orb_false_r].
  - rewrite land_lnot64, tb_ldiff, tb_one_shl by (intros; apply Hs; lia).
    destruct (j =? i); [apply andb_false_r|apply andb_true_r].
Qed.

Lemma push_spec b x : Inv b ->
  refines (push b x) (if length (abs b) <? 64 then Some (abs b ++ [x]) else None).
Proof.
  intros Hb. pose proof (inv_tb b Hb) as Hs. rewrite abs_length. unfold push, MAX_LEN.
  destruct (Nat.ltb_spec (len b) 64) as [Hi|Hi]; [|reflexivity].
  assert (E : (if x then do m <- shl 1 (len b); Some (N.lor (val b) m) else Some (val b))
              = Some (N.lor (val b) (N.shiftl (if x then 1 else 0) (N.of_nat (len b))))).
  { destruct x; [now rewrite shl_one|]. now rewrite N.shiftl_0_l, N.lor_0_r. }
  rewrite E. cbn [obind].
  apply refine_intro; [lia|rewrite app_length, abs_length; cbn [length]; lia|].
  intros j. rewrite nth_snoc, abs_length, nth_abs, tb_lor, tb_bit_shl by exact Hb.
  destruct (Nat.eqb_spec j (len b)) as [->|Hj].
  - rewrite Hs by lia. apply andb_true_r.
  - now rewrite andb_false_r, orb_false_r.
Qed.

Lemma append_spec a b : Inv a -> Inv b ->
  refines (append a b) (if length (abs a) + length (abs b) <=? 64 then Some (abs a ++ abs b) else None).
Proof.
  intros Ha Hb. pose proof (inv_tb a Ha) as Hsa. pose proof (inv_tb b Hb) as Hsb.
  rewrite !abs_length. unfold append, MAX_LEN.
  destruct (Nat.leb_spec (len a + len b) 64) as [Hi|Hi]; [|reflexivity].
  assert (E : (if 0 <? len b then do s <- shl (val b) (len a); Some (N.lor (val a) s) else Some (val a))
              = Some (N.lor (val a) (N.shiftl (val b) (N.of_nat (len a))))).
  { destruct (Nat.ltb_spec 0 (len b)) as [Hp|Hp].
    - now rewrite (shl_small _ (len b)) by (exact Hsb || lia).
    - replace (val b) with 0%N; [now rewrite N.shiftl_0_l, N.lor_0_r|].
      apply tb_ext. intros j. rewrite tb_0, Hsb by lia. reflexivity. }
  rewrite E. cbn [obind].
  apply refine_intro; [exact Hi|now rewrite app_length, !abs_length|].
  intros j. rewrite nth_app, abs_length, !nth_abs, tb_lor, tb_shiftl by assumption.
  destruct (Nat.ltb_spec j (len a)); [apply orb_false_r|]. now rewrite Hsa.
Qed.

Lemma remove_spec b i : Inv b ->
  refines (remove b i) (if i <? length (abs b) then Some (l_remove (abs b) i) else None).
Proof.
  intros Hb. pose proof (inv_tb b Hb) as Hs. pose proof (proj1 Hb) as Hl. rewrite abs_length. unfold remove.
  destruct (Nat.ltb_spec i (len b)) as [Hi|Hi]; [|reflexivity].
  rewrite !mask_some by lia. cbn [obind]. rewrite shr_some by lia. cbn [obind].
  apply refine_intro; [lia|rewrite length_l_remove; rewrite abs_length; trivial|].
  intros j. rewrite nth_l_remove, !nth_abs by (rewrite ?abs_length; assumption).
  rewrite land_lnot64 by (intros; apply Hs; lia).
  rewrite tb_lor, tb_shiftr, tb_ldiff, tb_land, !tb_ones, Nat.add_1_r.
  destruct (Nat.ltb_spec j i), (Nat.ltb_spec (S j) (i + 1)); try (exfalso; lia); bsimp; reflexivity.
Qed.

Lemma insert_spec b i x : Inv b ->
  refines (insert b i x)
          (if (i <=? length (abs b)) && (length (abs b) <? 64) then Some (l_insert (abs b) i x) else None).
Proof.
  intros Hb. pose proof (inv_tb b Hb) as Hs. rewrite abs_length. unfold insert, MAX_LEN.
  destruct (Nat.leb_spec i (len b)) as [Hi|Hi]; cbn [andb]; [|reflexivity].
  destruct (Nat.ltb_spec (len b) 64) as [Hlt|Hlt]; [|reflexivity].
  rewrite shl_one, shl_bit by lia. cbn [obind]. rewrite one_shl_pred, land_lnot64 by (intros; apply Hs; lia).
  rewrite (shl_small _ (len b)) by (lia || (intros; rewrite tb_ldiff, Hs by lia; reflexivity)).
  cbn [obind].
  apply refine_intro; [lia|rewrite length_l_insert; rewrite abs_length; trivial|].
  intros j. rewrite nth_l_insert, !nth_abs by (rewrite ?abs_length; assumption).
  change 1%N with (N.of_nat 1) at 1.
  rewrite !tb_lor, tb_shiftl, tb_ldiff, tb_land, tb_bit_shl, !tb_ones.
  (* the three fields: [j < i] old bit, [j = i] the new bit, [j > i] old bit [j - 1] *)
  destruct (Nat.ltb_spec j i), (Nat.eqb_spec j i), (Nat.ltb_spec j 1), (Nat.ltb_spec (j - 1) i);
    try (exfalso; lia); bsimp; reflexivity.
Qed.

Lemma sub_spec b l : Inv b ->
  refines (sub b l) (if l <=? length (abs b) then Some (firstn l (abs b)) else None).
Proof.
  intros Hb. pose proof (proj1 Hb) as Hl. rewrite abs_length. unfold sub.
  destruct (Nat.leb_spec l (len b)) as [Hi|Hi]; [|reflexivity].
  rewrite mask_some by lia. cbn [obind].
  assert (Hsm : (N.land (val b) (N.ones (N.of_nat l)) < 2 ^ N.of_nat l)%N).
  { apply small_tb. intros j Hj. rewrite tb_land, tb_ones. destruct (Nat.ltb_spec j l); [lia|apply andb_false_r]. }
  rewrite new_ok by (lia || exact Hsm). cbn [refines].
  apply refine_intro; [lia|rewrite firstn_length, abs_length; lia|].
  intros j. rewrite nth_firstn_all, nth_abs, tb_land, tb_ones by exact Hb.
  destruct (j <? l); [apply andb_true_r|apply andb_false_r].
Qed.

Lemma l_is_prefix_spec a b :
  l_is_prefix a b = true <-> (length a <= length b /\ forall i, i < length a -> nth i a false = nth i b false).
Proof.
  revert b. induction a as [|x a IH]; intros b; cbn [l_is_prefix length].
  - split; [intros _; split; [lia|intros i Hi; lia]|reflexivity].
  - destruct b as [|y b]; cbn [length].
    + split; [discriminate|intros [H _]; lia].
    + rewrite andb_true_iff, IH. split.
      * intros [E [Hl Hn]]. apply eqb_prop in E. subst y. split; [lia|].
        intros [|i] Hi; cbn [nth]; [reflexivity|apply Hn; lia].
      * intros [Hl Hn]. split; [|split; [lia|]].
        -- specialize (Hn 0 ltac:(lia)). cbn in Hn. subst y. apply eqb_reflx.
        -- intros i Hi. apply (Hn (S i)). lia.
Qed.

Lemma is_sub_spec a b : Inv a -> Inv b -> is_sub a b = Some (l_is_prefix (abs a) (abs b)).
Proof.
  intros Ha Hb. pose proof (inv_tb a Ha) as Hsa. pose proof (proj1 Hb) as Hlb. unfold is_sub.
  destruct (Nat.leb_spec (len a) (len b)) as [Hl|Hl]; f_equal.
  - rewrite mask_some by lia. cbn [obind]. f_equal. apply eq_true_iff_eq.
    rewrite N.eqb_eq, l_is_prefix_spec, !abs_length. split.
    + intros E. split; [exact Hl|]. intros i Hi. rewrite !nth_abs by assumption.
      rewrite E at 1. rewrite tb_land, tb_ones, (proj2 (Nat.ltb_lt _ _) Hi). apply andb_true_r.
    + intros [_ E]. apply tb_ext. intros j. rewrite tb_land, tb_ones.
      destruct (Nat.ltb_spec j (len a)) as [Hj|Hj].
      * rewrite andb_true_r, <- !nth_abs by assumption. apply E, Hj.
      * rewrite andb_false_r. apply Hsa, Hj.
  - symmetry. apply not_true_iff_false. rewrite l_is_prefix_spec, !abs_length. lia.
Qed.

(* [x & 1 == 1] tests the lowest bit *)
Lemma low_bit v : N.eqb (N.land v 1) 1 = N.odd v.
Proof.
  change 1%N with (N.ones 1) at 1. rewrite N.land_ones. change (2 ^ 1)%N with 2%N.
  rewrite <- N.bit0_mod, N.bit0_odd. now destruct (N.odd v).
Qed.

Lemma index_spec b i : Inv b ->
  index b i = if i <? length (abs b) then Some (nth i (abs b) false) else None.
Proof.
  intros Hb. pose proof (proj1 Hb) as Hl. rewrite abs_length. unfold index.
  destruct (Nat.ltb_spec i (len b)) as [Hi|Hi]; [|reflexivity].
  rewrite shr_some by lia. cbn [obind]. f_equal. rewrite low_bit, nth_abs by exact Hb.
  rewrite <- N.bit0_odd, N.shiftr_spec, N.add_0_l by lia. reflexivity.
Qed.

Lemma iter_loop_bits n v : iter_loop n v = bits v n.
Proof.
  revert v. induction n as [|n IH]; intros v; cbn [iter_loop bits]; [reflexivity|].
  now rewrite IH, <- N.div2_spec, low_bit.
Qed.

Lemma iter_spec b : iter b = abs b.
Proof. apply iter_loop_bits. Qed.

(* weight runs Kernighan's loop (clear the lowest set bit): it takes [popcount] rounds, so fuel 65 suffices *)
Fixpoint ppop (p : positive) : nat :=
  match p with xH => 1 | xO q => ppop q | xI q => S (ppop q) end.
Definition popcount (v : N) : nat := match v with N0 => 0 | Npos p => ppop p end.

Lemma land_odd_even a b : N.land (2 * a + 1) (2 * b) = (2 * N.land a b)%N.
Proof.
  apply N.bits_inj. intros n. rewrite N.land_spec.
  destruct (N.eq_dec n 0) as [->|Hn].
  - rewrite !N.testbit_even_0, N.testbit_odd_0. reflexivity.
  - replace n with (N.succ (N.pred n)) by lia.
    rewrite !N.testbit_even_succ, N.testbit_odd_succ by lia. now rewrite N.land_spec.
Qed.
Lemma land_even_odd a b : N.land (2 * a) (2 * b + 1) = (2 * N.land a b)%N.
Proof. rewrite N.land_comm, land_odd_even, N.land_comm. reflexivity. Qed.

Lemma kernighan p : popcount (N.land (Npos p) (Npos p - 1)) = ppop p - 1.
Proof.
  induction p as [p IH|p IH|].
  - replace (N.pos p~1 - 1)%N with (2 * N.pos p)%N by lia.
    change (N.pos p~1) with (2 * N.pos p + 1)%N. rewrite land_odd_even, N.land_diag.
    cbn. lia.
  - change (N.pos p~0) with (2 * N.pos p)%N.
    replace (2 * N.pos p - 1)%N with (2 * (N.pos p - 1) + 1)%N by lia.
    rewrite land_even_odd.
    destruct (N.land (N.pos p) (N.pos p - 1)) eqn:E; cbn [N.mul popcount ppop] in *; exact IH.
  - reflexivity.
Qed.

Lemma popcount_pos_ge p : 1 <= ppop p.
Proof. induction p; cbn; lia. Qed.

Lemma weight_loop_spec fuel v c : popcount v < fuel -> weight_loop fuel v c = Some (c + popcount v).
Proof.
  revert v c. induction fuel as [|f IH]; intros v c H; [lia|]. cbn [weight_loop].
  destruct v as [|p].
  - cbn. f_equal. lia.
  - change (0 <? N.pos p)%N with true. cbv iota.
    pose proof (kernighan p) as K. pose proof (popcount_pos_ge p) as G. cbn [popcount] in H.
    rewrite IH by lia. f_equal. cbn [popcount]. lia.
Qed.

Lemma popcount_step v : popcount v = (if N.odd v then 1 else 0) + popcount (N.div2 v).
Proof. destruct v as [|[p|p|]]; reflexivity. Qed.

Lemma l_weight_cons b l : l_weight (b :: l) = (if b then 1 else 0) + l_weight l.
Proof.
  unfold l_weight. cbn [count_occ]. destruct b.
  - destruct (bool_dec true true); [reflexivity|congruence].
  - destruct (bool_dec false true); [congruence|reflexivity].
Qed.

Lemma popcount_bits v n : (v < 2 ^ N.of_nat n)%N -> popcount v = l_weight (bits v n).
Proof.
  revert v. induction n as [|n IH]; intros v H.
  - change (2 ^ N.of_nat 0)%N with 1%N in H. assert (v = 0%N) by lia. subst. reflexivity.
  - assert (Hd : (N.div2 v < 2 ^ N.of_nat n)%N).
    { rewrite N.div2_div. apply N.div_lt_upper_bound; [lia|].
      replace (N.of_nat (S n)) with (N.succ (N.of_nat n)) in H by lia. rewrite N.pow_succ_r' in H. exact H. }
    cbn [bits]. now rewrite l_weight_cons, popcount_step, (IH _ Hd).
Qed.

Lemma l_weight_le l : l_weight l <= length l.
Proof. unfold l_weight. apply count_occ_bound. Qed.

Lemma weight_spec b : Inv b -> weight b = Some (l_weight (abs b)).
Proof.
  intros [Hl Hv]. unfold weight. pose proof (popcount_bits _ _ Hv) as E.
  pose proof (l_weight_le (bits (val b) (len b))) as B. rewrite bits_length in B.
  rewrite weight_loop_spec by lia. f_equal. exact E.
Qed.

(* [new_rev] keeps the [l] highest bits of the reversed word: bit [j] of the result is bit [l - 1 - j] of [v]. *)
Lemma tb_shiftr_reverse v l j : l <= 64 ->
  tb (N.shiftr (reverse_bits v) (N.of_nat (64 - l))) j = (j <? l) && tb v (l - 1 - j).
Proof.
  intros Hl. rewrite tb_shiftr, tb_reverse_bits.
  destruct (Nat.ltb_spec j l), (Nat.ltb_spec (j + (64 - l)) 64); try (exfalso; lia); [|reflexivity].
  cbn [andb]. f_equal. lia.
Qed.

Lemma nth_rev_bits v l j : nth j (rev (bits v l)) false = (j <? l) && tb v (l - 1 - j).
Proof.
  destruct (Nat.ltb_spec j l).
  - rewrite rev_nth, bits_length, nth_bits by (rewrite ?bits_length; lia). cbn [andb]. f_equal. lia.
  - apply nth_overflow. rewrite rev_length, bits_length. lia.
Qed.

Lemma new_rev_spec v l :
  refines (new_rev v l) (if l <=? 64 then Some (rev (bits v l)) else None).
Proof.
  unfold new_rev, MAX_LEN. destruct (Nat.leb_spec l 64) as [Hl|Hl]; [|reflexivity].
  destruct (Nat.eqb_spec l 0) as [->|Hne].
  - cbn [obind]. apply (new_spec 0 0).
  - rewrite shr_some by lia. cbn [obind].
    assert (Hsm : (N.shiftr (reverse_bits v) (N.of_nat (64 - l)) < 2 ^ N.of_nat l)%N).
    { apply small_tb. intros j Hj. rewrite tb_shiftr_reverse by exact Hl.
      destruct (Nat.ltb_spec j l); [lia|reflexivity]. }
    rewrite new_ok by (lia || exact Hsm). cbn [refines].
    apply refine_intro; [lia|now rewrite rev_length, bits_length|].
    intros j. now rewrite tb_shiftr_reverse, nth_rev_bits.
Qed.

Lemma tb_shiftl_of_bits bs l j :
  tb (N.shiftl (of_bits bs) (N.of_nat l)) j = if j <? l then false else nth (j - l) bs false.
Proof. rewrite tb_shiftl, of_bits_tb. reflexivity. Qed.

Lemma shiftl_of_bits_cons b r l :
  N.shiftl (of_bits (b :: r)) (N.of_nat l)
  = N.lor (N.shiftl (if b then 1 else 0) (N.of_nat l)) (N.shiftl (of_bits r) (N.of_nat (S l))).
Proof.
  apply tb_ext. intros j. rewrite tb_lor, tb_bit_shl, !tb_shiftl_of_bits, nth_cons.
  destruct (Nat.ltb_spec j l), (Nat.eqb_spec j l), (Nat.ltb_spec j (S l)), (Nat.eqb_spec (j - l) 0);
    try (exfalso; lia); bsimp; try reflexivity.
  f_equal. lia.
Qed.

Lemma from_iter_loop_ok bs v l :
  l + length bs <= 64 ->
  from_iter_loop bs v l = Some (N.lor v (N.shiftl (of_bits bs) (N.of_nat l)), l + length bs).
Proof.
  revert v l. induction bs as [|b r IH]; intros v l H; cbn [from_iter_loop length] in *.
  - f_equal. f_equal; [|lia]. cbn [of_bits]. rewrite N.shiftl_0_l, N.lor_0_r. reflexivity.
  - rewrite shiftl_of_bits_cons. destruct b.
    + rewrite shl_one by lia. cbn [obind]. rewrite IH by lia. f_equal. f_equal; [symmetry; apply N.lor_assoc|lia].
    + rewrite IH, N.shiftl_0_l, N.lor_0_l by lia. f_equal. f_equal. lia.
Qed.

Lemma from_iter_loop_len bs v l v' l' : from_iter_loop bs v l = Some (v', l') -> l' = l + length bs.
Proof.
  revert v l. induction bs as [|b r IH]; intros v l H; cbn [from_iter_loop length] in *.
  - inversion H. lia.
  - destruct b.
    + destruct (shl 1 l); [|discriminate]. cbn [obind] in H. apply IH in H. lia.
    + apply IH in H. lia.
Qed.

Lemma from_iter_spec bs :
  refines (from_iter bs) (if length bs <=? 64 then Some bs else None).
Proof.
  unfold from_iter. destruct (Nat.leb_spec (length bs) 64) as [H|H].
  - rewrite from_iter_loop_ok by lia. cbn [obind fst snd Nat.add]. rewrite N.lor_0_l.
    change (N.of_nat 0) with 0%N. rewrite N.shiftl_0_r.
    rewrite new_ok; [|lia|apply of_bits_small].
    cbn [refines]. eexists; split; [reflexivity|]. split.
    + split; [exact H|apply of_bits_small].
    + apply bits_of_bits.
  - cbn [refines]. destruct (from_iter_loop bs 0 0) as [[v' l']|] eqn:E; [|reflexivity].
    apply from_iter_loop_len in E. cbn [obind fst snd]. unfold new, MAX_LEN.
    destruct (Nat.leb_spec l' 64); [lia|reflexivity].
Qed.

(* [chars_of l] is the string to_string prints for l (1 / 0 as digits); from_str reads it back *)
Definition chars_of (l : list bool) : list nat := map (fun x : bool => if x then 1 else 0) l.

Lemma valid_prefix_chars l : valid_prefix (chars_of l) = (l, false).
Proof.
  induction l as [|b l IH]; [reflexivity|].
  change (chars_of (b :: l)) with ((if b then 1 else 0) :: chars_of l).
  destruct b; cbn [valid_prefix Nat.eqb]; rewrite IH; reflexivity.
Qed.

Lemma to_string_spec b : to_string b = chars_of (abs b).
Proof. unfold to_string. now rewrite iter_spec. Qed.

Lemma from_str_to_string b : Inv b -> from_str (to_string b) = POk b.
Proof.
  intros Hb. unfold from_str. rewrite to_string_spec, valid_prefix_chars. cbn [fst snd].
  pose proof (from_iter_spec (abs b)) as H. rewrite abs_length in H.
  pose proof Hb as [Hl Hv]. destruct (Nat.leb_spec (len b) 64); [|lia].
  destruct H as [b' [E [Hi Ha]]]. rewrite E. f_equal. apply abs_inj; [exact Hi|exact Hb|exact Ha].
Qed.

Lemma from_str_chars l :
  match from_str (chars_of l) with
  | POk b => length l <= 64 /\ Inv b /\ abs b = l
  | PErr => False
  | PPanic => 64 < length l
  end.
Proof.
  unfold from_str. rewrite valid_prefix_chars. cbn [fst snd].
  pose proof (from_iter_spec l) as H. destruct (Nat.leb_spec (length l) 64).
  - destruct H as [b' [E [Hi Ha]]]. rewrite E. auto.
  - cbn in H. rewrite H. lia.
Qed.

Lemma valid_prefix_invalid cs : snd (valid_prefix cs) = true <-> exists c, In c cs /\ c <> 0 /\ c <> 1.
Proof.
  induction cs as [|c r IH]; cbn [valid_prefix].
  - split; [discriminate|intros [c [[] _]]].
  - destruct (Nat.eqb_spec c 0) as [->|H0]; [|destruct (Nat.eqb_spec c 1) as [->|H1]]; cbn [snd].
    1-2: rewrite IH; split; intros [c [Hin Hc]]; exists c; [split; [now right|exact Hc]|];
         destruct Hin as [<-|Hin]; [lia|tauto].
    + split; [|reflexivity]. intros _. exists c. split; [now left|lia].
Qed.

Lemma from_str_invalid cs : (exists c, In c cs /\ c <> 0 /\ c <> 1) -> forall b, from_str cs <> POk b.
Proof.
  intros H b. apply valid_prefix_invalid in H. unfold from_str. rewrite H.
  destruct (from_iter (fst (valid_prefix cs))); discriminate.
Qed.

Definition l_cmp (a b : list bool) : comparison :=
  match Nat.compare (length a) (length b) with
  | Eq => match Nat.compare (l_weight a) (l_weight b) with
          | Eq => N.compare (of_bits a) (of_bits b) | c => c end
  | c => c end.

Lemma cmp_spec a b : Inv a -> Inv b -> cmp a b = Some (l_cmp (abs a) (abs b)).
Proof.
  intros Ha Hb. unfold cmp, l_cmp. rewrite !weight_spec by assumption. cbn [obind].
  rewrite !abs_length. unfold abs. rewrite !of_bits_bits by (apply Ha || apply Hb). reflexivity.
Qed.

Lemma l_cmp_eq a b : l_cmp a b = Eq <-> a = b.
Proof.
  unfold l_cmp. split.
  - destruct (Nat.compare_spec (length a) (length b)) as [El|?|?]; try discriminate.
    destruct (Nat.compare_spec (l_weight a) (l_weight b)) as [Ew|?|?]; try discriminate.
    intros E. apply N.compare_eq in E.
    rewrite <- (bits_of_bits a), <- (bits_of_bits b). now rewrite E, El.
  - intros ->. now rewrite !Nat.compare_refl, N.compare_refl.
Qed.

Lemma l_cmp_antisym a b : l_cmp b a = CompOpp (l_cmp a b).
Proof.
  unfold l_cmp. rewrite (Nat.compare_antisym (length a) (length b)).
  destruct (Nat.compare (length a) (length b)); cbn [CompOpp]; try reflexivity.
  rewrite (Nat.compare_antisym (l_weight a) (l_weight b)).
  destruct (Nat.compare (l_weight a) (l_weight b)); cbn [CompOpp]; try reflexivity.
  apply N.compare_antisym.
Qed.

Lemma l_cmp_lt a b :
  l_cmp a b = Lt <->
  length a < length b \/
  length a = length b /\ (l_weight a < l_weight b \/ l_weight a = l_weight b /\ (of_bits a < of_bits b)%N).
Proof.
  unfold l_cmp.
  destruct (Nat.compare_spec (length a) (length b)); [|split; [lia|reflexivity]|split; [discriminate|lia]].
  destruct (Nat.compare_spec (l_weight a) (l_weight b)); [|split; [lia|reflexivity]|split; [discriminate|lia]].
  rewrite N.compare_lt_iff. lia.
Qed.

Lemma l_cmp_lt_trans a b c : l_cmp a b = Lt -> l_cmp b c = Lt -> l_cmp a c = Lt.
Proof. rewrite !l_cmp_lt. lia. Qed.

Lemma step_refines b o : Inv b -> refines (step b o) (l_step (abs b) o).
Proof.
  intros Hb. destruct o as [i x|x|v l|i|i x|l]; cbn [step l_step].
  - apply set_spec; exact Hb.
  - apply push_spec; exact Hb.
  - pose proof (new_spec v l) as Hn.
    destruct ((l <=? 64) && (v <? 2 ^ N.of_nat l)%N) eqn:E; cbn [andb].
    + destruct Hn as [c [Ec [Hc Hac]]]. rewrite Ec. cbn [obind].
      pose proof (append_spec b c Hb Hc) as Ha. rewrite Hac, bits_length in Ha. exact Ha.
    + cbn in Hn. rewrite Hn. reflexivity.
  - apply remove_spec; exact Hb.
  - apply insert_spec; exact Hb.
  - apply sub_spec; exact Hb.
Qed.

Lemma run_step_refines b o : Inv b -> Inv (run_step b o) /\ abs (run_step b o) = l_run_step (abs b) o.
Proof.
  intros Hb. pose proof (step_refines b o Hb) as H. unfold run_step, l_run_step.
  destruct (l_step (abs b) o) as [l'|]; cbn [refines] in H.
  - destruct H as [b' [E [Hi Ha]]]. rewrite E. auto.
  - rewrite H. auto.
Qed.

Lemma history_refines ops b :
  Inv b -> Inv (fold_left run_step ops b) /\ abs (fold_left run_step ops b) = fold_left l_run_step ops (abs b).
Proof.
  revert b. induction ops as [|o ops IH]; intros b Hb; cbn [fold_left]; [auto|].
  destruct (run_step_refines b o Hb) as [Hi Ha]. rewrite <- Ha. apply IH. exact Hi.
Qed.

Lemma generate_spec l : l <= 64 ->
  exists gs, generate l = Some gs /\ length gs = 2 ^ l /\
    (forall k, k < 2 ^ l -> exists g, nth_error gs k = Some g /\ Inv g /\ abs g = bits (N.of_nat k) l).
Proof.
  intros Hl. unfold generate. rewrite mask_some by lia. cbn [obind]. eexists; split; [reflexivity|].
  assert (E : S (N.to_nat (N.ones (N.of_nat l))) = 2 ^ l).
  { rewrite N.ones_equiv. assert (N.to_nat (2 ^ N.of_nat l) = 2 ^ l).
    { rewrite <- (Nat2N.id (2 ^ l)). f_equal. rewrite Nat2N.inj_pow. reflexivity. }
    assert (2 ^ l <> 0) by (apply Nat.pow_nonzero; lia). lia. }
  rewrite E. split; [now rewrite map_length, seq_length|].
  intros k Hk. exists (mk (N.of_nat k) l). split.
  - rewrite nth_error_map, nth_error_nth' with (d := 0) by (rewrite seq_length; lia).
    rewrite seq_nth by lia. reflexivity.
  - split; [|reflexivity]. split; [exact Hl|]. cbn [val len].
    change 2%N with (N.of_nat 2). rewrite <- Nat2N.inj_pow. lia.
Qed.

Lemma generate_none l : 64 < l -> generate l = None.
Proof. intros H. unfold generate. now rewrite mask_none by lia. Qed.
