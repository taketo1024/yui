(* Tangle layer, part 10: the library's unoriented equality (Path::unori_eq = TngComp ==) holds between two simple
   components with the same segments; hence the normal form of a glued tangle is determined by its segments up to
   the library's Tng ==. *)
From Coq Require Import List Arith Bool Lia Permutation Sorted.
Import ListNotations.
Require Import Yui.Model.Link Yui.Model.Tng Yui.Proofs.TngPBase Yui.Proofs.TngPSegs Yui.Proofs.TngPDeg
  Yui.Proofs.TngPJoin Yui.Proofs.TngPStep Yui.Proofs.TngPSeq Yui.Proofs.TngPConn Yui.Proofs.TngPMain
  Yui.Proofs.TngPUniq.
Require Import Yui.Base.ListFacts.

Lemma index_of_middle : forall q1 a q2, ~ In a q1 -> index_of a (q1 ++ a :: q2) = Some (length q1).
Proof.
  induction q1 as [|x q1 IH]; intros a q2 Hn; cbn [app index_of length].
  - rewrite Nat.eqb_refl. reflexivity.
  - assert (x =? a = false) as -> by (apply Nat.eqb_neq; intros ->; apply Hn; left; reflexivity).
    rewrite IH; [reflexivity|]. intros Hi. apply Hn. right. auto.
Qed.

Lemma mod_wrap : forall m n, n <= m -> m < 2 * n -> m mod n = m - n.
Proof.
  intros m n H1 H2. assert (n <> 0) by lia.
  replace m with ((m - n) + 1 * n) at 1 by lia. rewrite Nat.mod_add by auto. apply Nat.mod_small. lia.
Qed.

Lemma nth_rot : forall q1 a q2 i, i < length (q1 ++ a :: q2) ->
  nth i (a :: q2 ++ q1) 0 = nth ((length q1 + i) mod length (q1 ++ a :: q2)) (q1 ++ a :: q2) 0.
Proof.
  intros q1 a q2 i Hi. rewrite app_length in *. cbn [length] in *.
  set (k := length q1) in *. set (m := length q2) in *.
  destruct (Nat.lt_ge_cases i (S m)) as [Hlt|Hge].
  - rewrite Nat.mod_small by lia. change (a :: q2 ++ q1) with ((a :: q2) ++ q1).
    rewrite app_nth1 by (cbn; lia). unfold k. rewrite app_nth2_plus. reflexivity.
  - rewrite mod_wrap by lia. change (a :: q2 ++ q1) with ((a :: q2) ++ q1).
    rewrite app_nth2 by (cbn; lia). cbn [length]. fold m.
    rewrite app_nth1 by lia. f_equal. lia.
Qed.

Lemma check_rot : forall q1 a q2, let q := q1 ++ a :: q2 in
  forallb (fun i => nth i (a :: q2 ++ q1) 0 =? nth ((length q1 + i) mod length q) q 0) (seq 0 (length q)) = true.
Proof.
  intros q1 a q2 q. apply forallb_forall. intros i Hi. apply in_seq in Hi. apply Nat.eqb_eq.
  apply nth_rot. unfold q in Hi. lia.
Qed.

Lemma check_rot_rev : forall q1 a q2, let q := q1 ++ a :: q2 in
  forallb (fun i => nth i (a :: rev (q2 ++ q1)) 0 =? nth ((length q1 + length q - i) mod length q) q 0)
          (seq 0 (length q)) = true.
Proof.
  intros q1 a q2 q. apply forallb_forall. intros i Hi. apply in_seq in Hi. apply Nat.eqb_eq.
  assert (Hn : length q = length q1 + S (length q2)) by (unfold q; rewrite app_length; reflexivity).
  destruct i as [|i].
  - rewrite Nat.sub_0_r. replace (length q1 + length q) with (length q1 + 1 * length q) by lia.
    rewrite Nat.mod_add by lia. rewrite Nat.mod_small by lia. unfold q. rewrite nth_middle. reflexivity.
  - cbn [nth]. assert (Hl : length (q2 ++ q1) = length q - 1) by (rewrite app_length; lia).
    rewrite rev_nth by lia. rewrite Hl.
    replace (length q1 + length q - S i) with (length q1 + (length q - S i)) by lia.
    unfold q at 3 4. rewrite <- (nth_rot q1 a q2 (length q - S i)) by (fold q; lia).
    assert (E : length q - S i = S (length q - 1 - S i)) by lia. rewrite E. reflexivity.
Qed.

Lemma nlist_eqb_refl : forall a, nlist_eqb a a = true.
Proof. intros a. apply nlist_eqb_eq. reflexivity. Qed.

Lemma combine_self : forall a : list nat, forallb (fun ef => fst ef =? snd ef) (combine a a) = true.
Proof. induction a as [|x a IH]; [reflexivity|]. cbn. rewrite Nat.eqb_refl. exact IH. Qed.

Lemma unori_eq_arc_true : forall p q, p = q \/ p = rev q -> unori_eq (mkP p false) (mkP q false) = true.
Proof.
  intros p q Hpq. unfold unori_eq, edge_sum. cbn [pedges pclosed Bool.eqb negb orb].
  assert (El : length p = length q) by (destruct Hpq as [->| ->]; [|rewrite rev_length]; reflexivity).
  assert (Es : list_sum p = list_sum q).
  { destruct Hpq as [->| ->]; [reflexivity|]. apply Permutation_list_sum. apply Permutation_sym, Permutation_rev. }
  rewrite El, Es, !Nat.eqb_refl. cbn [negb orb].
  destruct (nlist_eqb p q) eqn:En; [reflexivity|].
  destruct Hpq as [->| ->]; [rewrite nlist_eqb_refl in En; discriminate|]. apply combine_self.
Qed.

Lemma unori_eq_circ_true : forall p q1 a q2, ~ In a q1 ->
  p = a :: q2 ++ q1 \/ p = a :: rev (q2 ++ q1) ->
  unori_eq (mkP p true) (mkP (q1 ++ a :: q2) true) = true.
Proof.
  intros p q1 a q2 Hn Hp. unfold unori_eq, edge_sum. cbn [pedges pclosed Bool.eqb negb orb].
  assert (Pq : Permutation p (q1 ++ a :: q2)).
  { destruct Hp as [->| ->].
    - eapply perm_trans; [|apply Permutation_middle]. constructor. apply Permutation_app_comm.
    - eapply perm_trans; [|apply Permutation_middle]. constructor.
      eapply perm_trans; [apply Permutation_sym; apply Permutation_rev|apply Permutation_app_comm]. }
  rewrite (Permutation_length Pq), (Permutation_list_sum Pq), !Nat.eqb_refl. cbn [negb orb].
  destruct (nlist_eqb p (q1 ++ a :: q2)); [reflexivity|].
  assert (Eh : hd 0 p = a) by (destruct Hp as [->| ->]; reflexivity). rewrite Eh.
  rewrite index_of_middle by auto.
  destruct Hp as [->| ->].
  - rewrite (check_rot q1 a q2). reflexivity.
  - rewrite (check_rot_rev q1 a q2). apply orb_true_r.
Qed.

Theorem same_segs_unori_eq : forall c1 c2, simple c1 -> simple c2 -> pclosed c1 = pclosed c2 ->
  Permutation (segs c1) (segs c2) -> unori_eq c1 c2 = true.
Proof.
  intros [p cp] [q cq] [Np Lp] [Nq Lq] Ec Hperm. cbn [pedges pclosed] in *. subst cq.
  unfold segs in Hperm. cbn [pedges pclosed] in Hperm. destruct cp.
  - destruct (circ_unique p q Np Nq Lp Hperm) as (q1 & q2 & -> & Hp).
    apply unori_eq_circ_true; auto.
    apply NoDup_app_inv in Nq. destruct Nq as (_ & _ & Hd). intros Hi. apply (Hd _ Hi). left. reflexivity.
  - apply unori_eq_arc_true. apply arc_unique; auto.
Qed.

Definition on_comp (c : path) (s : nat * nat) : bool := mem (fst s) (pedges c).

Lemma nseg_fst_in : forall a b, fst (nseg a b) = a \/ fst (nseg a b) = b.
Proof. intros a b. unfold nseg. cbn [fst]. lia. Qed.

Lemma filter_on_comp : forall t c c', tng_inv t -> In c t -> (forall v, In v (pedges c') <-> In v (pedges c)) ->
  Permutation (filter (on_comp c') (tsegs t)) (segs c).
Proof.
  intros t c c' Hinv Hc Hset. destruct (in_split _ _ Hc) as (l1 & l2 & ->).
  eapply perm_trans; [apply filter_perm; apply tsegs_middle|]. rewrite filter_app.
  apply inv_middle in Hinv. destruct Hinv as (Sc & _ & Hd).
  rewrite filter_all, filter_none; [rewrite app_nil_r; apply Permutation_refl| |].
  - intros s Hs. unfold tsegs in Hs. apply in_flat_map in Hs. destruct Hs as (d & Hdl & Hs).
    destruct (segs_in _ _ Hs) as (a & b & -> & Ha & Hb).
    unfold on_comp. apply not_true_is_false. intros Hm. apply mem_iff in Hm. apply Hset in Hm.
    apply (Hd _ Hm). apply in_verts. exists d. split; auto.
    destruct (nseg_fst_in a b) as [-> | ->]; auto.
  - intros s Hs. destruct (segs_in _ _ Hs) as (a & b & -> & Ha & Hb).
    unfold on_comp. apply mem_iff. apply Hset. destruct (nseg_fst_in a b) as [-> | ->]; auto.
Qed.

Lemma same_comp_segs : forall t1 t2 c1 c2, tng_inv t1 -> tng_inv t2 -> Permutation (tsegs t1) (tsegs t2) ->
  In c1 t1 -> In c2 t2 -> same_comp c1 c2 -> Permutation (segs c1) (segs c2).
Proof.
  intros t1 t2 c1 c2 I1 I2 Hp H1 H2 [_ Hset].
  eapply perm_trans; [apply Permutation_sym; apply (filter_on_comp t1 c1 c1 I1 H1); tauto|].
  eapply perm_trans; [apply filter_perm; exact Hp|].
  apply (filter_on_comp t2 c2 c1 I2 H2). exact Hset.
Qed.

Theorem normal_form_eqb : forall t1 t2, tng_ok t1 -> tng_ok t2 -> Permutation (tsegs t1) (tsegs t2) ->
  tng_eqb t1 t2 = true.
Proof.
  intros t1 t2 O1 O2 Hp. pose proof (normal_form_unique t1 t2 O1 O2 Hp) as HF.
  assert (Hall : forall c1 c2, In c1 t1 -> In c2 t2 -> same_comp c1 c2 -> unori_eq c1 c2 = true).
  { intros c1 c2 H1 H2 R. destruct O1 as [[S1 N1] _]. destruct O2 as [[S2 N2] _].
    rewrite Forall_forall in S1, S2. apply same_segs_unori_eq; auto; [apply R|].
    eapply same_comp_segs; eauto; split; auto; apply Forall_forall; auto. }
  clear Hp O1 O2. induction HF as [|c1 c2 r1 r2 R HF IH]; [reflexivity|]. cbn [tng_eqb].
  rewrite (Hall c1 c2) by (auto; left; reflexivity). cbn [andb]. apply IH.
  intros d1 d2 H1 H2. apply Hall; right; auto.
Qed.

(* Tng::connect is commutative up to == *)
Theorem tng_connect_comm_eqb : forall a b, tng_inv a -> tng_inv b -> deg_le2 (tsegs a ++ tsegs b) ->
  exists t1 t2, tng_connect a b = Some t1 /\ tng_connect b a = Some t2 /\
                tng_ok t1 /\ tng_ok t2 /\ tng_eqb t1 t2 = true.
Proof.
  intros a b Ia Ib Hd.
  destruct (tng_connect_ok a b Ia (proj1 Ib) Hd) as (t1 & E1 & O1 & P1).
  assert (Hd' : deg_le2 (tsegs b ++ tsegs a)) by (eapply deg_le2_perm; [apply Permutation_app_comm|exact Hd]).
  destruct (tng_connect_ok b a Ib (proj1 Ia) Hd') as (t2 & E2 & O2 & P2).
  exists t1, t2. repeat split; auto; try apply O1; try apply O2.
  apply normal_form_eqb; auto.
  eapply perm_trans; [exact P1|]. eapply perm_trans; [|apply Permutation_sym; exact P2]. apply Permutation_app_comm.
Qed.

(* gluing a diagram in two halves = gluing it crossing by crossing *)
Theorem tng_connect_halves_eqb : forall xs ys, Forall (fun x => is_resolved x = true) (xs ++ ys) ->
  labels_le2 (xs ++ ys) ->
  exists ta tb t1 t2, tng_of_crossings xs = Some ta /\ tng_of_crossings ys = Some tb /\
    tng_connect ta tb = Some t1 /\ tng_of_crossings (xs ++ ys) = Some t2 /\ tng_ok t1 /\ tng_eqb t1 t2 = true.
Proof.
  intros xs ys Hr Hl. apply Forall_app in Hr. destruct Hr as [Hrx Hry].
  pose proof (labels_le2_deg _ Hl) as Hd. rewrite flat_map_app in Hd.
  assert (Hlxy : labels_le2 xs /\ labels_le2 ys).
  { split; intros v; specialize (Hl v); unfold edge_labels in *; rewrite flat_map_app, count_occ_app in Hl; lia. }
  destruct Hlxy as [Hlx Hly].
  destruct (tng_of_crossings_ok xs Hrx Hlx) as (ta & Ea & Oa & Pa).
  destruct (tng_of_crossings_ok ys Hry Hly) as (tb & Eb & Ob & Pb).
  destruct (tng_connect_ok ta tb (proj1 Oa) (proj1 (proj1 Ob))) as (t1 & E1 & O1 & P1).
  { eapply deg_le2_perm; [|exact Hd]. apply Permutation_app; apply Permutation_sym; auto. }
  destruct (tng_of_crossings_ok (xs ++ ys)) as (t2 & E2 & O2 & P2); auto.
  { apply Forall_app. auto. }
  exists ta, tb, t1, t2. repeat split; auto; try apply O1.
  apply normal_form_eqb; auto.
  eapply perm_trans; [exact P1|]. eapply perm_trans; [|apply Permutation_sym; exact P2].
  rewrite flat_map_app. apply Permutation_app; auto.
Qed.
