(* Soundness of the certificate checker of Model/Reducer.v (check_all, check_vec) and the concrete
   examples quoted in Properties/C08.v. *)
From Coq Require Import Arith List Lia Bool ZArith.
Require Import Yui.Base.Ring Yui.Base.MatF Yui.Base.MatL Yui.Model.Reducer.
Require Import Yui.Proofs.C08Mat Yui.Proofs.C08Step Yui.Proofs.C08All Yui.Proofs.C08Run.
Import ListNotations.

Section Check.
  Context {R : Type} (o : ring_ops R) (L : ring_laws o).
  Local Notation dmat := (dmat R).
  Local Notation dwf := (@dwf R).
  Local Notation z := (dzero o 0 0).

  Lemma check_space_sound D d F B : check_space o D d F B = true ->
    dwf D /\ dwf d /\ dwf F /\ dwf B /\ dr F = dc d /\ dc F = dc D /\ dr B = dc D /\ dc B = dc d /\
    dmul o F B = did o (dc d).
  Proof.
    unfold check_space. rewrite !andb_true_iff, !Nat.eqb_eq, !dwfb_dwf.
    intros ((((((((W1 & W2) & W3) & W4) & E1) & E2) & E3) & E4) & E5).
    apply (deqb_eq o L) in E5; [tauto|dwfs|dwfs].
  Qed.

  Lemma check_maps_sound D d F B F1 B1 : check_maps o D d F B F1 B1 = true ->
    dmul o F1 D = dmul o d F /\ dmul o D B = dmul o B1 d.
  Proof.
    unfold check_maps. rewrite andb_true_iff. intros [E1 E2].
    apply (deqb_eq o L) in E1; [|dwfs|dwfs]. apply (deqb_eq o L) in E2; [|dwfs|dwfs]. auto.
  Qed.

  Definition chain_at (orig cur fs bs : list dmat) (p : nat) : Prop :=
    let D := nth p orig z in let d := nth p cur z in let F := nth p fs z in let B := nth p bs z in
    dwf D /\ dwf d /\ dwf F /\ dwf B /\
    dr F = dc d /\ dc F = dc D /\ dr B = dc D /\ dc B = dc d /\
    dmul o F B = did o (dc d) /\
    (S p = length orig -> dr D = 0 /\ dr d = 0) /\
    (S p < length orig ->
       dr D = dc (nth (S p) orig z) /\ dr d = dc (nth (S p) cur z) /\
       dmul o (nth (S p) fs z) D = dmul o d F /\ dmul o D B = dmul o (nth (S p) bs z) d).

  Lemma check_chain_sound : forall orig cur fs bs, check_chain o orig cur fs bs = true ->
    length cur = length orig /\ length fs = length orig /\ length bs = length orig /\
    forall p, p < length orig -> chain_at orig cur fs bs p.
  Proof.
    induction orig as [|D orig IH]; intros cur fs bs Hc.
    { destruct cur, fs, bs; discriminate. }
    destruct cur as [|d cur]; [destruct orig; discriminate|].
    destruct fs as [|F fs]; [destruct orig, cur; discriminate|].
    destruct bs as [|B bs]; [destruct orig, cur, fs; discriminate|].
    destruct orig as [|D1 orig].
    - destruct cur; [|discriminate]. destruct fs; [|discriminate]. destruct bs; [|discriminate].
      cbn [check_chain] in Hc. rewrite !andb_true_iff, !Nat.eqb_eq in Hc. destruct Hc as [[Hs H1] H2].
      apply check_space_sound in Hs. cbn [length]. refine (conj eq_refl (conj eq_refl (conj eq_refl _))).
      intros p Hp. assert (p = 0) as -> by lia. unfold chain_at. cbn [nth length].
      destruct Hs as (? & ? & ? & ? & ? & ? & ? & ? & ?). repeat (split; [assumption|]).
      split; [intros _; split; assumption|intros HH; lia].
    - destruct cur as [|d1 cur]; [discriminate|]. destruct fs as [|F1 fs]; [discriminate|].
      destruct bs as [|B1 bs]; [discriminate|].
      change (check_chain o (D :: D1 :: orig) (d :: d1 :: cur) (F :: F1 :: fs) (B :: B1 :: bs))
        with (check_space o D d F B && (dr D =? dc D1) && (dr d =? dc d1) && check_maps o D d F B F1 B1 &&
              check_chain o (D1 :: orig) (d1 :: cur) (F1 :: fs) (B1 :: bs)) in Hc.
      rewrite !andb_true_iff, !Nat.eqb_eq in Hc. destruct Hc as [[[[Hs H1] H2] Hm] Hrec].
      apply check_space_sound in Hs. apply check_maps_sound in Hm.
      destruct (IH _ _ _ Hrec) as (L1 & L2 & L3 & Hall).
      cbn [length] in *. refine (conj _ (conj _ (conj _ _))); try congruence.
      intros p Hp. destruct p as [|p].
      + unfold chain_at. cbn [nth length].
        destruct Hs as (? & ? & ? & ? & ? & ? & ? & ? & ?). destruct Hm. repeat (split; [assumption|]).
        split; [intros HH; lia|]. intros _. repeat (split; [assumption|]). assumption.
      + specialize (Hall p ltac:(lia)). unfold chain_at in *. cbn [nth length] in *.
        destruct Hall as (? & ? & ? & ? & ? & ? & ? & ? & ? & Ha & Hb).
        repeat (split; [assumption|]).
        split; [intros HH; apply Ha; lia|intros HH; apply Hb; lia].
  Qed.

  Lemma check_pairs_sound : forall cur, check_pairs o cur = true ->
    forall p, S p < length cur ->
      dmul o (nth (S p) cur z) (nth p cur z) = dzero o (dr (nth (S p) cur z)) (dc (nth p cur z)).
  Proof.
    induction cur as [|d0 cur IH]; intros Hc p Hp; [cbn in Hp; lia|].
    destruct cur as [|d1 cur]; [cbn in Hp; lia|].
    change (check_pairs o (d0 :: d1 :: cur))
      with ((dc d1 =? dr d0) && deqb o (dmul o d1 d0) (dzero o (dr d1) (dc d0)) && check_pairs o (d1 :: cur)) in Hc.
    rewrite !andb_true_iff in Hc. destruct Hc as [[_ H1] H2].
    destruct p as [|p].
    - cbn [nth]. apply (deqb_eq o L) in H1; [exact H1|dwfs|dwfs].
    - cbn [length] in Hp. apply (IH H2 p). cbn [length]. lia.
  Qed.

  Theorem check_all_sound (orig cur fs bs : list dmat) :
    check_all o orig cur fs bs = true ->
    length cur = length orig /\ length fs = length orig /\ length bs = length orig /\
    forall p, p < length orig ->
      let z := dzero o 0 0 in
      let D := nth p orig z in let d := nth p cur z in let F := nth p fs z in let B := nth p bs z in
      dwf D /\ dwf d /\ dwf F /\ dwf B /\
      dr F = dc d /\ dc F = dc D /\ dr B = dc D /\ dc B = dc d /\
      dmul o F B = did o (dc d) /\
      (S p = length orig -> dr D = 0 /\ dr d = 0) /\
      (S p < length orig ->
         let D1 := nth (S p) orig z in let d1 := nth (S p) cur z in
         let F1 := nth (S p) fs z in let B1 := nth (S p) bs z in
         dr D = dc D1 /\ dr d = dc d1 /\
         dmul o F1 D = dmul o d F /\ dmul o D B = dmul o B1 d /\
         dmul o d1 d = dzero o (dr d1) (dc d)).
  Proof.
    unfold check_all. rewrite andb_true_iff. intros [Hc Hp].
    destruct (check_chain_sound _ _ _ _ Hc) as (L1 & L2 & L3 & Hall).
    refine (conj L1 (conj L2 (conj L3 _))). intros p Hlt. cbv zeta.
    specialize (Hall p Hlt). unfold chain_at in Hall; cbv zeta in Hall.
    destruct Hall as (? & ? & ? & ? & ? & ? & ? & ? & ? & Ha & Hb).
    repeat (split; [assumption|]). intros HS. specialize (Hb HS).
    destruct Hb as (? & ? & ? & ?). repeat (split; [assumption|]).
    apply (check_pairs_sound cur Hp). congruence.
  Qed.

  Theorem check_vec_sound (F : dmat) (v0 v : list R) :
    check_vec o F v0 v = true -> length v0 = dc F /\ length v = dr F /\ vmat o v = dmul o F (vmat o v0).
  Proof.
    unfold check_vec. rewrite !andb_true_iff, !Nat.eqb_eq. intros [[H1 H2] H3].
    apply (deqb_eq o L) in H3; [auto|apply dwf_dmk|dwfs].
  Qed.
End Check.

(* the concrete example of Properties/C08.v *)
Definition ex_D0 : dmat Z := mkD 2 2 [[1; 0]; [0; 2]]%Z.

Lemma ex_complex_ok : is_complex Z_ring [2; 2] [ex_D0].
Proof.
  unfold is_complex. cbn [length]. split; [reflexivity|]. split.
  - intros p Hp. assert (p = 0) as -> by lia. cbn [nth]. split; [|split; reflexivity].
    unfold dwf, wf. cbn. split; [reflexivity|]. repeat constructor.
  - intros p Hp. lia.
Qed.

Lemma ex_run_ok :
  exists st, reduced Z_ring Z_units [2; 2] [ex_D0] false [[(0, 0)]; []] = Some (st, []) /\ okf st = true /\
             mats st 0 = Some (mkD 1 1 [[2%Z]]) /\
             option_map (fun t => (t_f t, t_b t)) (trs st 0) = Some (mkD 1 2 [[0; 1]]%Z, mkD 2 1 [[0]; [1]]%Z).
Proof.
  destruct (reduced Z_ring Z_units [2; 2] [ex_D0] false [[(0, 0)]; []]) as [[st rest]|] eqn:E.
  - exists st. vm_compute in E. injection E as <- <-. vm_compute. repeat split; reflexivity.
  - vm_compute in E. discriminate.
Qed.
