(* C03 - the library's route from the TOTAL homology to a bigraded table, KhHomology::into_bigraded
   (yui-khovanov/src/kh/homology.rs:70-101) with collect_gen_info (misc.rs:52-74), as a model
   (Model/IntoBigraded.v) and theorems about it.  Property theorems only; every proof is [exact <lemma>].

   Input of the model = exactly what the Rust code reads: per homological degree i the q-degrees of the terms of
   every free generator ([si_free]) and (order, q-degrees of the terms) of every torsion generator ([si_tors]) of the
   summand of the total homology, in the order k = 0 .. rank+|tors|-1.  A generator is filed under
   q = [chain_q_deg] = the MINIMUM q-degree of its terms.  Output = the cells (rank, torsion orders in the order of
   k) of the new grid, whose support is h_range x q_range.step_by(2); [ib_get] is Grid::get (zero off the support).
   The model is tied to the code on every sampled link by the `ig` cases of the check (exact comparison of all
   non-zero cells, torsion order and support shape; the generators are dumped through the public API).

   Vocabulary: [gens_at hs i] = the generators of degree i; [regroup q_of j gs] = (number of free generators, orders
   of the torsion generators in order) among those gs that q_of files in q-degree j; [lives_in j qs] = all terms
   of the chain have q-degree j; [homogeneous qs] = all terms have one q-degree; [same_parity hs] = the q-degrees
   under which the generators are filed have one parity (true for every link: q = number of components mod 2;
   without it step_by(2) drops cells, C03_into_bigraded_step2_drops); [total_rank], [all_tors] = sum of the ranks /
   concatenation of the torsion lists of a list of cells; [ib_row i] = the cells of homological degree i.

   Decomposed generators ([dgen]) for the comparison with the cell-by-cell answer: a generator written as the sum
   of its q-homogeneous parts, part (q, c) representing in H^(i,q) a class of kind c (CTriv: zero, CFree: infinite
   order, CTor t: order t); route A sees only its kind (free if some part is free, else torsion of order the product
   of the orders - the order of the sum when the orders are pairwise coprime) and the q-degrees of its terms
   ([erase], [summand_of_dgens]).  [located_A] = the located cyclic summands route A produces (one per generator,
   at the minimal q-degree), [located_cellwise] = those of the cell-by-cell decomposition (one per non-trivial
   part), under the assumption that the parts of all generators together are a direct-sum decomposition. *)
From Coq Require Import List Bool ZArith Permutation.
Require Import Yui.Model.IntoBigraded.
Require Import Yui.Proofs.C03BigTable Yui.Proofs.C03BigGrid Yui.Proofs.C03BigCons Yui.Proofs.C03BigAgree
  Yui.Proofs.C03BigWitness.
Import ListNotations.
Open Scope Z_scope.

(* the table entry (i, j) is the regrouping of the generators of degree i by the minimal q-degree; no hypothesis *)
Theorem C03_collect_gen_info_regroup : forall hs i j,
  cell_of (tbl_find (i, j) (collect_gen_info hs)) = regroup chain_q_deg j (gens_at hs i).
Proof. exact collect_gen_info_regroup. Qed.
Print Assumptions C03_collect_gen_info_regroup.

(* the grid: cell (i, j) is the table entry when (i, j) is on the support and zero otherwise; the support is
   [min i, max i] x {min q, min q + 2, .. <= max q} over the keys of the table, without repetition *)
Theorem C03_into_bigraded_grid : forall hs,
  let t := collect_gen_info hs in
  (forall i j, In (i, j) (ib_support t) -> ib_get (i, j) (into_bigraded hs) = regroup chain_q_deg j (gens_at hs i)) /\
  (forall i j, ~ In (i, j) (ib_support t) -> ib_get (i, j) (into_bigraded hs) = zero_cell) /\
  (forall i j, In (i, j) (ib_support t) <->
     (fst (range_of (h_keys t)) <= i <= snd (range_of (h_keys t)) /\ (i - fst (range_of (h_keys t))) mod 1 = 0) /\
     (fst (range_of (q_keys t)) <= j <= snd (range_of (q_keys t)) /\ (j - fst (range_of (q_keys t))) mod 2 = 0)) /\
  NoDup (ib_support t) /\
  map fst (into_bigraded hs) = ib_support t.
Proof. exact into_bigraded_grid. Qed.
Print Assumptions C03_into_bigraded_grid.

(* with q-degrees of one parity no cell is dropped: every cell of route A is the regrouping *)
Theorem C03_into_bigraded_cell : forall hs, same_parity hs -> forall i j,
  ib_get (i, j) (into_bigraded hs) = regroup chain_q_deg j (gens_at hs i).
Proof. exact into_bigraded_cell_parity. Qed.
Print Assumptions C03_into_bigraded_cell.

(* (a) q-homogeneous generators: route A is the regrouping of the total summand, nothing is lost *)
Theorem C03_into_bigraded_homogeneous : forall hs i s,
  NoDup (map fst hs) -> In (i, s) hs -> same_parity hs -> all_homogeneous s ->
  (forall j, ib_get (i, j) (into_bigraded hs)
             = (length (filter (lives_in j) (si_free s)), map fst (filter (fun p => lives_in j (snd p)) (si_tors s)))) /\
  total_rank (ib_row i (into_bigraded hs)) = length (si_free s) /\
  Permutation (all_tors (ib_row i (into_bigraded hs))) (map fst (si_tors s)).
Proof. exact into_bigraded_homogeneous_full. Qed.
Print Assumptions C03_into_bigraded_homogeneous.

(* when the number the check reports as evidence is 0, the hypothesis of (a) holds for every summand *)
Theorem C03_count_inhomogeneous_zero : forall hs,
  count_inhomogeneous hs = O -> Forall (fun ih => all_homogeneous (snd ih)) hs.
Proof. exact count_inhomogeneous_zero. Qed.
Print Assumptions C03_count_inhomogeneous_zero.

(* (b) conservation: route A only moves summands *)
(* the table of collect_gen_info: always *)
Theorem C03_collect_gen_info_conservation : forall hs,
  total_rank (tbl_cells (collect_gen_info hs)) = sum_ranks hs /\
  Permutation (all_tors (tbl_cells (collect_gen_info hs))) (sum_tors hs).
Proof. exact collect_gen_info_conservation. Qed.
Print Assumptions C03_collect_gen_info_conservation.

(* the grid of into_bigraded: whenever the q-degrees have one parity (homogeneous or not), in total and per
   homological degree *)
Theorem C03_into_bigraded_conservation : forall hs, same_parity hs ->
  (total_rank (into_bigraded hs) = sum_ranks hs /\ Permutation (all_tors (into_bigraded hs)) (sum_tors hs)) /\
  (forall i,
     total_rank (ib_row i (into_bigraded hs)) = length (filter (fun g => is_free_b (fst g)) (gens_at hs i)) /\
     Permutation (all_tors (ib_row i (into_bigraded hs))) (flat_map (fun g => tor_list (fst g)) (gens_at hs i))) /\
  (forall i s, NoDup (map fst hs) -> In (i, s) hs ->
     total_rank (ib_row i (into_bigraded hs)) = length (si_free s) /\
     Permutation (all_tors (ib_row i (into_bigraded hs))) (map fst (si_tors s))).
Proof. exact into_bigraded_conservation_full. Qed.
Print Assumptions C03_into_bigraded_conservation.

(* the parity hypothesis is needed by the code as it is: a table entry of the other parity is not on the grid *)
Theorem C03_into_bigraded_step2_drops :
  map fst (collect_gen_info mixed_hs) = [(0, 0); (0, 1)] /\
  into_bigraded mixed_hs = [((0, 0), (1%nat, []))] /\
  total_rank (into_bigraded mixed_hs) = 1%nat /\ sum_ranks mixed_hs = 2%nat /\ ~ same_parity mixed_hs.
Proof. exact step2_drops. Qed.
Print Assumptions C03_into_bigraded_step2_drops.

(* (c) the known finding (known_findings.txt, C03) in model form *)
(* a generator of order 6 = lcm(2,3) whose order-2 part lives in q = 44 and whose order-3 part lives in q = 46:
   route A returns the single cell Z/6 at q = 44, the cell-by-cell answer is Z/2 at 44 and Z/3 at 46 *)
Theorem C03_into_bigraded_refuted_inhomogeneous :
  exists (ds : list dgen) (i : Z),
    Forall (fun d => nontriv d <> []) ds /\
    same_parity [(i, summand_of_dgens ds)] /\
    count_inhomogeneous [(i, summand_of_dgens ds)] = 1%nat /\
    into_bigraded [(i, summand_of_dgens ds)] = [((i, 44), (O, [6]))] /\
    cell_of_located 44 (located_cellwise ds) = (O, [2]) /\
    cell_of_located 46 (located_cellwise ds) = (O, [3]) /\
    ~ Permutation (located_A ds) (located_cellwise ds).
Proof. exact refuted_inhomogeneous. Qed.
Print Assumptions C03_into_bigraded_refuted_inhomogeneous.

(* the shape of the recorded witness T(5,6) + trefoil in degree 14 (orders 2 and 30 over q = 44, 46) *)
Theorem C03_into_bigraded_witness_shape :
  into_bigraded [(14, summand_of_dgens witness_shape_ds)] = [((14, 44), (O, [2; 30]))] /\
  cell_of_located 44 (located_cellwise witness_shape_ds) = (O, [10]) /\
  cell_of_located 46 (located_cellwise witness_shape_ds) = (O, [2; 3]) /\
  count_inhomogeneous [(14, summand_of_dgens witness_shape_ds)] = 2%nat.
Proof. exact witness_shape. Qed.
Print Assumptions C03_into_bigraded_witness_shape.

(* (d) when route A gives the cell-by-cell decomposition *)
(* route A's cell (i, j) on a summand given by decomposed generators is cell j of [located_A] *)
Theorem C03_into_bigraded_located : forall hs i ds j,
  NoDup (map fst hs) -> In (i, summand_of_dgens ds) hs -> same_parity hs ->
  ib_get (i, j) (into_bigraded hs) = cell_of_located j (located_A ds).
Proof. exact into_bigraded_located. Qed.
Print Assumptions C03_into_bigraded_located.

(* the located summands of route A are those of the cell-by-cell decomposition (as multisets) exactly when every
   generator has ONE non-trivial homogeneous part and that part sits in the minimal q-degree of the generator's
   terms; every generator is assumed to represent a non-zero class *)
Theorem C03_into_bigraded_agrees_iff : forall ds, Forall (fun d => nontriv d <> []) ds ->
  (Permutation (located_A ds) (located_cellwise ds) <-> Forall single_at_min ds).
Proof. exact agree_iff. Qed.
Print Assumptions C03_into_bigraded_agrees_iff.

(* ... and then the two lists are equal and every cell of route A is the cell of the decomposition *)
Theorem C03_into_bigraded_agrees : forall hs i ds,
  NoDup (map fst hs) -> In (i, summand_of_dgens ds) hs -> same_parity hs -> Forall single_at_min ds ->
  located_A ds = located_cellwise ds /\
  forall j, ib_get (i, j) (into_bigraded hs) = cell_of_located j (located_cellwise ds).
Proof. exact into_bigraded_agrees_full. Qed.
Print Assumptions C03_into_bigraded_agrees.

(* non-vacuity: the total homology of the left-handed trefoil *)
Example C03_into_bigraded_example :
  NoDup (map fst trefoil_hs) /\ same_parity trefoil_hs /\ Forall (fun ih => all_homogeneous (snd ih)) trefoil_hs /\
  count_inhomogeneous trefoil_hs = O /\
  filter (fun c => negb (Nat.eqb (fst (snd c)) 0 && match snd (snd c) with [] => true | _ => false end))
    (into_bigraded trefoil_hs)
  = [((-3, -9), (1%nat, [])); ((-2, -7), (O, [2])); ((-2, -5), (1%nat, [])); ((0, -3), (1%nat, [])); ((0, -1), (1%nat, []))].
Proof. exact trefoil_example. Qed.
