(* Soundness of the sparse Smith diagonalisation of Model/KhHomology.v: the sparse rows.
   Well-formed rows (columns strictly increasing, no zero entry, columns below the width) and the dense
   semantics [row_get] of every row operation the loop uses: [row_axpy], [row_add], the filter/mod step of
   the column phase, [insert_entry] / [row_of_entries], and the list bookkeeping ([mapi], [replace_nth],
   [remove_nth], [index_where]).  Also the boolean deciders [wf_aboveb] / [row_wfb] / [rows_wfb] of well-formedness and
   [entries_get], the dense value of an entry list. *)
From Coq Require Import List Arith Bool ZArith Lia.
Require Import Yui.Model.KhCube Yui.Model.KhHomology.
Import ListNotations.
Open Scope Z_scope.

(* columns strictly increasing and >= lo, values non-zero *)
Fixpoint wf_above (lo : nat) (r : row) : Prop :=
  match r with
  | [] => True
  | (c, v) :: r' => (lo <= c)%nat /\ v <> 0 /\ wf_above (S c) r'
  end.

Definition row_wf (n : nat) (r : row) : Prop :=
  wf_above 0 r /\ forall c v, In (c, v) r -> (c < n)%nat.

Definition rows_wf (n : nat) (rows : list row) : Prop := Forall (row_wf n) rows.

(* a decision procedure (used in examples) *)
Fixpoint wf_aboveb (lo : nat) (r : row) : bool :=
  match r with
  | [] => true
  | (c, v) :: r' => (lo <=? c)%nat && negb (v =? 0) && wf_aboveb (S c) r'
  end.
Definition row_wfb (n : nat) (r : row) : bool :=
  wf_aboveb 0 r && forallb (fun e => (fst e <? n)%nat) r.
Definition rows_wfb (n : nat) (rows : list row) : bool := forallb (row_wfb n) rows.

Lemma wf_aboveb_ok lo r : wf_aboveb lo r = true -> wf_above lo r.
Proof.
  revert lo. induction r as [|[c v] r IH]; intros lo H; cbn [wf_aboveb wf_above] in *; [exact I|].
  apply andb_true_iff in H. destruct H as [H H3]. apply andb_true_iff in H. destruct H as [H1 H2].
  apply Nat.leb_le in H1. apply negb_true_iff in H2. apply Z.eqb_neq in H2.
  split; [exact H1|]. split; [exact H2|]. now apply IH.
Qed.

Lemma row_wfb_ok n r : row_wfb n r = true -> row_wf n r.
Proof.
  unfold row_wfb, row_wf. intros H. apply andb_true_iff in H. destruct H as [H1 H2].
  split; [now apply wf_aboveb_ok|].
  intros c v Hin. rewrite forallb_forall in H2. specialize (H2 _ Hin). cbn [fst] in H2.
  now apply Nat.ltb_lt in H2.
Qed.

Lemma rows_wfb_ok n rows : rows_wfb n rows = true -> rows_wf n rows.
Proof.
  unfold rows_wfb, rows_wf. rewrite forallb_forall. intros H. apply Forall_forall.
  intros r Hr. apply row_wfb_ok. now apply H.
Qed.

Lemma wf_above_weaken lo lo' r : (lo' <= lo)%nat -> wf_above lo r -> wf_above lo' r.
Proof.
  destruct r as [|[c v] r]; cbn [wf_above]; [trivial|].
  intros Hle [H1 [H2 H3]]. split; [lia|]. split; assumption.
Qed.

Lemma row_wf_nil n : row_wf n [].
Proof. split; [exact I|]. intros c v []. Qed.

Lemma rows_wf_nth n rows i : rows_wf n rows -> row_wf n (nth i rows []).
Proof.
  intros H. destruct (Nat.lt_ge_cases i (length rows)) as [Hi|Hi].
  - unfold rows_wf in H. rewrite Forall_forall in H. apply H. now apply nth_In.
  - rewrite nth_overflow by exact Hi. apply row_wf_nil.
Qed.

Lemma row_get_cons c v r j :
  row_get ((c, v) :: r) j = if (c =? j)%nat then v else if (j <? c)%nat then 0 else row_get r j.
Proof. reflexivity. Qed.

Lemma row_get_below lo r j : wf_above lo r -> (j < lo)%nat -> row_get r j = 0.
Proof.
  destruct r as [|[c v] r]; [reflexivity|].
  cbn [wf_above]. intros [H1 _] Hj. rewrite row_get_cons.
  destruct (Nat.eqb_spec c j); [lia|]. destruct (Nat.ltb_spec j c); [reflexivity|lia].
Qed.

(* on well-formed rows the early exit of [row_get] is redundant *)
Lemma row_get_cons_wf c v r j :
  wf_above (S c) r -> row_get ((c, v) :: r) j = if (c =? j)%nat then v else row_get r j.
Proof.
  intros H. rewrite row_get_cons. destruct (Nat.eqb_spec c j); [reflexivity|].
  destruct (Nat.ltb_spec j c); [|reflexivity]. symmetry. apply (row_get_below (S c)); [exact H|lia].
Qed.

Lemma wf_above_in_nz lo r c v : wf_above lo r -> In (c, v) r -> v <> 0 /\ (lo <= c)%nat.
Proof.
  revert lo. induction r as [|[c0 v0] r IH]; intros lo H Hin; [destruct Hin|].
  cbn [wf_above] in H. destruct H as [H1 [H2 H3]]. destruct Hin as [E|Hin].
  - injection E as -> ->. split; assumption.
  - destruct (IH _ H3 Hin) as [Hv Hc]. split; [exact Hv|lia].
Qed.

Lemma row_get_in lo r c v : wf_above lo r -> In (c, v) r -> row_get r c = v.
Proof.
  revert lo. induction r as [|[c0 v0] r IH]; intros lo H Hin; [destruct Hin|].
  cbn [wf_above] in H. destruct H as [H1 [H2 H3]].
  rewrite (row_get_cons_wf _ _ _ _ H3). destruct Hin as [E|Hin].
  - injection E as -> ->. now rewrite Nat.eqb_refl.
  - destruct (Nat.eqb_spec c0 c) as [->|Hne]; [|exact (IH (S c0) H3 Hin)].
    destruct (wf_above_in_nz _ _ _ _ H3 Hin) as [_ Hc]. lia.
Qed.

(* without any hypothesis: a value read is 0 or the value of an entry *)
Lemma row_get_zero_or_in r j : row_get r j = 0 \/ In (j, row_get r j) r.
Proof.
  induction r as [|[c v] r IH]; [left; reflexivity|].
  rewrite row_get_cons. destruct (Nat.eqb_spec c j) as [->|Hne].
  - right. left. reflexivity.
  - destruct (Nat.ltb_spec j c); [left; reflexivity|].
    destruct IH as [IH|IH]; [left; exact IH|right; right; exact IH].
Qed.

Lemma row_get_nz_in r j : row_get r j <> 0 -> In (j, row_get r j) r.
Proof. intros H. destruct (row_get_zero_or_in r j) as [E|E]; [contradiction|exact E]. Qed.

Lemma row_get_bound n r j : row_wf n r -> (n <= j)%nat -> row_get r j = 0.
Proof.
  intros [_ Hb] Hj. destruct (row_get_zero_or_in r j) as [E|E]; [exact E|].
  apply Hb in E. lia.
Qed.

(* the column bound from the semantics *)
Lemma row_wf_of_sem n lo r : wf_above lo r -> (forall j, (n <= j)%nat -> row_get r j = 0) -> row_wf n r.
Proof.
  intros H Hs. split; [apply (wf_above_weaken lo); [lia|exact H]|].
  intros c v Hin. destruct (Nat.lt_ge_cases c n) as [Hc|Hc]; [exact Hc|exfalso].
  pose proof (row_get_in lo r c v H Hin) as E. rewrite (Hs c Hc) in E.
  destruct (wf_above_in_nz lo r c v H Hin) as [Hv _]. congruence.
Qed.

(* an entry whose value may vanish, put in front of a row that starts behind it: the shape of every
   arm of [row_axpy_fuel], [insert_entry] and the column phase that produces a new value *)
Lemma cons_nz_spec lo c v r : (lo <= c)%nat -> wf_above (S c) r ->
  wf_above lo (if v =? 0 then r else (c, v) :: r) /\
  forall j, row_get (if v =? 0 then r else (c, v) :: r) j = if (c =? j)%nat then v else row_get r j.
Proof.
  intros Hlo W. destruct (Z.eqb_spec v 0) as [->|Hv].
  - split; [apply (wf_above_weaken (S c)); [lia|exact W]|].
    intros j. destruct (Nat.eqb_spec c j) as [<-|]; [|reflexivity]. apply (row_get_below (S c)); [exact W|lia].
  - split; [cbn [wf_above]; auto|]. intros j. now apply row_get_cons_wf.
Qed.

Lemma row_axpy_fuel_spec fuel : forall q lo a b,
  (length a + length b <= fuel)%nat -> wf_above lo a -> wf_above lo b ->
  wf_above lo (row_axpy_fuel fuel q a b) /\
  forall j, row_get (row_axpy_fuel fuel q a b) j = row_get b j - q * row_get a j.
Proof.
  induction fuel as [|f IH]; intros q lo a b Hlen Ha Hb.
  - destruct a; [|cbn [length] in Hlen; lia]. split; [exact Hb|]. intros j. cbn [row_axpy_fuel row_get]. lia.
  - destruct a as [|[ca va] a'].
    { split; [exact Hb|]. intros j. cbn [row_axpy_fuel row_get]. lia. }
    cbn [wf_above] in Ha. destruct Ha as [Ha1 [Ha2 Ha3]].
    pose proof (fun j => row_get_cons_wf ca va a' j Ha3) as Ga.
    destruct b as [|[cb vb] b']; cbn [row_axpy_fuel]; cbv zeta.
    { destruct (IH q (S ca) a' [] ltac:(cbn [length] in *; lia) Ha3 I) as [W G].
      destruct (cons_nz_spec lo ca (- q * va) _ Ha1 W) as [W' G']. split; [exact W'|].
      intros j. rewrite G', G, Ga. cbn [row_get]. destruct (ca =? j)%nat; lia. }
    cbn [wf_above] in Hb. destruct Hb as [Hb1 [Hb2 Hb3]].
    pose proof (fun j => row_get_cons_wf cb vb b' j Hb3) as Gb.
    destruct (Nat.ltb_spec ca cb) as [Hlt|Hge].
    { (* the entry of a comes first *)
      assert (Hb' : wf_above (S ca) ((cb, vb) :: b')) by (cbn [wf_above]; auto).
      destruct (IH q (S ca) a' ((cb, vb) :: b') ltac:(cbn [length] in *; lia) Ha3 Hb') as [W G].
      destruct (cons_nz_spec lo ca (- q * va) _ Ha1 W) as [W' G']. split; [exact W'|].
      intros j. rewrite G', G, Ga. destruct (Nat.eqb_spec ca j) as [<-|]; [|reflexivity].
      rewrite (row_get_below (S ca) _ ca Hb') by lia. lia. }
    destruct (Nat.eqb_spec ca cb) as [<-|Hne].
    { destruct (IH q (S ca) a' b' ltac:(cbn [length] in *; lia) Ha3 Hb3) as [W G].
      destruct (cons_nz_spec lo ca (vb - q * va) _ Ha1 W) as [W' G']. split; [exact W'|].
      intros j. rewrite G', G, Ga, Gb. destruct (ca =? j)%nat; reflexivity. }
    (* the entry of b comes first *)
    assert (Ha' : wf_above (S cb) ((ca, va) :: a')) by (cbn [wf_above]; split; [lia|auto]).
    destruct (IH q (S cb) ((ca, va) :: a') b' ltac:(cbn [length] in *; lia) Ha' Hb3) as [W G].
    split; [cbn [wf_above]; auto|].
    intros j. rewrite (row_get_cons_wf _ _ _ _ W), Gb, G.
    destruct (Nat.eqb_spec cb j) as [<-|]; [|reflexivity].
    rewrite (row_get_below (S cb) _ cb Ha') by lia. lia.
Qed.

Lemma row_axpy_wf_above q lo a b : wf_above lo a -> wf_above lo b -> wf_above lo (row_axpy q a b).
Proof. intros Ha Hb. unfold row_axpy. now apply row_axpy_fuel_spec. Qed.

Theorem row_axpy_get q lo a b j :
  wf_above lo a -> wf_above lo b -> row_get (row_axpy q a b) j = row_get b j - q * row_get a j.
Proof. intros Ha Hb. unfold row_axpy. now apply (row_axpy_fuel_spec _ q lo a b). Qed.

Theorem row_axpy_wf n q a b : row_wf n a -> row_wf n b -> row_wf n (row_axpy q a b).
Proof.
  intros Ha Hb. apply (row_wf_of_sem n 0).
  - apply row_axpy_wf_above; [apply Ha|apply Hb].
  - intros j Hj. rewrite (row_axpy_get q 0) by (try apply Ha; apply Hb).
    rewrite (row_get_bound n a j Ha Hj), (row_get_bound n b j Hb Hj). lia.
Qed.

Theorem row_add_get lo a b j :
  wf_above lo a -> wf_above lo b -> row_get (row_add a b) j = row_get a j + row_get b j.
Proof. intros Ha Hb. unfold row_add. rewrite (row_axpy_get _ lo) by assumption. lia. Qed.

Theorem row_add_wf n a b : row_wf n a -> row_wf n b -> row_wf n (row_add a b).
Proof. apply row_axpy_wf. Qed.

(* the filter / mod step of the column phase *)
Definition col_reduce (j : nat) (a : Z) (r : row) : row :=
  filter (fun e => negb (snd e =? 0))
         (map (fun e => if (fst e =? j)%nat then e else (fst e, snd e mod a)) r).

Lemma col_reduce_spec j a r : forall lo, wf_above lo r ->
  wf_above lo (col_reduce j a r) /\
  forall c, row_get (col_reduce j a r) c = if (c =? j)%nat then row_get r c else row_get r c mod a.
Proof.
  unfold col_reduce. induction r as [|[c0 v0] r IH]; intros lo H.
  - split; [exact I|]. intros c. cbn [map filter row_get]. destruct (c =? j)%nat; [reflexivity|].
    now rewrite Zmod_0_l.
  - cbn [wf_above] in H. destruct H as [H1 [H2 H3]]. destruct (IH _ H3) as [W G].
    cbn [map fst snd].
    destruct (Nat.eqb_spec c0 j) as [->|Hne]; cbn [filter snd]; rewrite if_negb.
    + destruct (cons_nz_spec lo j v0 _ H1 W) as [W' G']. split; [exact W'|].
      intros c. rewrite G', G, (row_get_cons_wf _ _ _ _ H3).
      destruct (Nat.eqb_spec j c) as [<-|]; [now rewrite Nat.eqb_refl|reflexivity].
    + destruct (cons_nz_spec lo c0 (v0 mod a) _ H1 W) as [W' G']. split; [exact W'|].
      intros c. rewrite G', G, (row_get_cons_wf _ _ _ _ H3).
      destruct (Nat.eqb_spec c0 c) as [<-|]; [|reflexivity].
      destruct (Nat.eqb_spec c0 j); [contradiction|reflexivity].
Qed.

Theorem col_reduce_get j a lo r c : wf_above lo r ->
  row_get (col_reduce j a r) c = if (c =? j)%nat then row_get r c else row_get r c mod a.
Proof. intros H. now apply (col_reduce_spec j a r lo). Qed.

Theorem col_reduce_wf n j a r : row_wf n r -> row_wf n (col_reduce j a r).
Proof.
  intros Hr. apply (row_wf_of_sem n 0).
  - apply col_reduce_spec, Hr.
  - intros c Hc. rewrite (col_reduce_get j a 0) by apply Hr.
    rewrite (row_get_bound n r c Hr Hc). destruct (c =? j)%nat; [reflexivity|]. now rewrite Zmod_0_l.
Qed.

(* insert_entry / row_of_entries (how the oracle builds its rows) *)
Lemma insert_entry_spec c v : v <> 0 -> forall r lo, wf_above lo r -> (lo <= c)%nat ->
  wf_above lo (insert_entry (c, v) r) /\
  forall j, row_get (insert_entry (c, v) r) j = row_get r j + if (c =? j)%nat then v else 0.
Proof.
  intros Hv. induction r as [|[c0 v0] r IH]; intros lo H Hlo.
  - cbn [insert_entry]. split; [cbn [wf_above]; auto|].
    intros j. cbn [row_get]. destruct (c =? j)%nat; [lia|]. destruct (j <? c)%nat; reflexivity.
  - pose proof H as H0. cbn [wf_above] in H. destruct H as [H1 [H2 H3]].
    cbn [insert_entry fst snd]. destruct (Nat.ltb_spec c c0) as [Hlt|Hge].
    + assert (W : wf_above (S c) ((c0, v0) :: r)) by (cbn [wf_above]; split; [lia|split; assumption]).
      split; [cbn [wf_above]; split; [exact Hlo|split; [exact Hv|exact W]]|].
      intros j. rewrite (row_get_cons_wf c v _ j W).
      destruct (Nat.eqb_spec c j) as [<-|]; [|lia].
      rewrite (row_get_below (S c) _ c W) by lia. lia.
    + destruct (Nat.eqb_spec c c0) as [->|Hne].
      * cbv zeta. destruct (cons_nz_spec lo c0 (v0 + v) r H1 H3) as [W' G']. split; [exact W'|].
        intros j. rewrite G', (row_get_cons_wf _ _ _ _ H3). destruct (c0 =? j)%nat; lia.
      * destruct (IH (S c0) H3 ltac:(lia)) as [W G].
        split; [cbn [wf_above]; split; [exact H1|split; [exact H2|exact W]]|].
        intros j. rewrite (row_get_cons_wf _ _ _ _ W), (row_get_cons_wf _ _ _ _ H3), G.
        destruct (Nat.eqb_spec c0 j) as [<-|]; [|reflexivity].
        destruct (Nat.eqb_spec c c0); [contradiction|lia].
Qed.

Lemma row_of_entries_wf_above es : wf_above 0 (row_of_entries es).
Proof.
  unfold row_of_entries. induction es as [|[c v] es IH]; cbn [filter fold_right snd]; [exact I|].
  destruct (Z.eqb_spec v 0) as [|Hv]; cbn [negb fold_right]; [exact IH|].
  apply insert_entry_spec; [exact Hv|exact IH|lia].
Qed.

(* the dense value of a row built from entries is the sum of the entries in that column *)
Fixpoint entries_get (es : list (nat * Z)) (j : nat) : Z :=
  match es with
  | [] => 0
  | (c, v) :: r => (if (c =? j)%nat then v else 0) + entries_get r j
  end.

Lemma row_of_entries_get es j : row_get (row_of_entries es) j = entries_get es j.
Proof.
  unfold row_of_entries. induction es as [|[c v] es IH]; cbn [filter fold_right snd entries_get]; [reflexivity|].
  destruct (Z.eqb_spec v 0) as [->|Hv]; cbn [negb fold_right].
  - rewrite IH. destruct (c =? j)%nat; lia.
  - pose proof (row_of_entries_wf_above es) as W. unfold row_of_entries in W.
    destruct (insert_entry_spec c v Hv _ 0%nat W ltac:(lia)) as [_ G]. rewrite G, IH. lia.
Qed.

Lemma row_of_entries_wf n es : (forall c v, In (c, v) es -> (c < n)%nat) -> row_wf n (row_of_entries es).
Proof.
  intros Hb. apply (row_wf_of_sem n 0); [apply row_of_entries_wf_above|].
  intros j Hj. rewrite row_of_entries_get.
  induction es as [|[c v] es IH]; cbn [entries_get]; [reflexivity|].
  rewrite IH by (intros c' v' Hin; apply (Hb c' v'); now right).
  pose proof (Hb c v (or_introl eq_refl)). destruct (Nat.eqb_spec c j); [lia|reflexivity].
Qed.

Lemma mapi_from_length {A B} (f : nat -> A -> B) l k : length (mapi_from k f l) = length l.
Proof. revert k. induction l as [|x l IH]; intros k; cbn [mapi_from length]; [reflexivity|]. now rewrite IH. Qed.

Lemma mapi_from_nth {A B} (f : nat -> A -> B) l k i dA dB :
  (i < length l)%nat -> nth i (mapi_from k f l) dB = f (k + i)%nat (nth i l dA).
Proof.
  revert k i. induction l as [|x l IH]; intros k i Hi; cbn [length] in Hi; [lia|].
  cbn [mapi_from]. destruct i as [|i]; cbn [nth].
  - now rewrite Nat.add_0_r.
  - rewrite IH by lia. f_equal. lia.
Qed.

Lemma mapi_length {A B} (f : nat -> A -> B) l : length (mapi f l) = length l.
Proof. apply mapi_from_length. Qed.

Lemma mapi_nth {A B} (f : nat -> A -> B) l i dA dB :
  (i < length l)%nat -> nth i (mapi f l) dB = f i (nth i l dA).
Proof. intros Hi. unfold mapi. now rewrite (mapi_from_nth f l 0 i dA dB Hi). Qed.

Lemma mapi_Forall {A B} (P : B -> Prop) (f : nat -> A -> B) l :
  (forall i x, In x l -> P (f i x)) -> Forall P (mapi f l).
Proof.
  unfold mapi. generalize 0%nat. induction l as [|x l IH]; intros k H; cbn [mapi_from]; constructor.
  - apply H. now left.
  - apply IH. intros i y Hy. apply H. now right.
Qed.

Lemma existsb_id_false l : existsb (fun b : bool => b) l = false -> forall i, nth i l false = false.
Proof.
  induction l as [|b l IH]; intros H i; [destruct i; reflexivity|].
  cbn [existsb] in H. apply orb_false_iff in H. destruct H as [H1 H2].
  destruct i; cbn [nth]; [exact H1|now apply IH].
Qed.

Lemma replace_nth_length {A} i (y : A) l : length (replace_nth i y l) = length l.
Proof.
  revert i. induction l as [|x l IH]; intros i; [destruct i; reflexivity|].
  destruct i; cbn [replace_nth length]; [reflexivity|]. now rewrite IH.
Qed.

Lemma replace_nth_nth {A} i (y : A) l k d :
  (i < length l)%nat -> nth k (replace_nth i y l) d = if (k =? i)%nat then y else nth k l d.
Proof.
  revert i k. induction l as [|x l IH]; intros i k Hi; cbn [length] in Hi; [lia|].
  destruct i as [|i]; cbn [replace_nth].
  - destruct k; reflexivity.
  - destruct k as [|k]; cbn [nth]; [reflexivity|]. rewrite IH by lia. reflexivity.
Qed.

Lemma replace_nth_Forall {A} (P : A -> Prop) i y l : P y -> Forall P l -> Forall P (replace_nth i y l).
Proof.
  intros Hy. revert i. induction l as [|x l IH]; intros i H; [destruct i; constructor|].
  inversion H as [|? ? Hx Hl]; subst. destruct i; cbn [replace_nth]; constructor; auto.
Qed.

Lemma remove_nth_length {A} i (l : list A) : (i < length l)%nat -> S (length (remove_nth i l)) = length l.
Proof.
  revert i. induction l as [|x l IH]; intros i Hi; cbn [length] in Hi; [lia|].
  destruct i; cbn [remove_nth length]; [reflexivity|]. rewrite IH by lia. reflexivity.
Qed.

Lemma remove_nth_nth {A} i (l : list A) k d :
  nth k (remove_nth i l) d = nth (if (k <? i)%nat then k else S k) l d.
Proof.
  revert i k. induction l as [|x l IH]; intros i k.
  - destruct i; cbn [remove_nth]; destruct (k <? _)%nat; destruct k; reflexivity.
  - destruct i as [|i]; cbn [remove_nth].
    + reflexivity.
    + destruct k as [|k]; cbn [nth]; [reflexivity|]. rewrite IH.
      change (S k <? S i)%nat with (k <? i)%nat. destruct (k <? i)%nat; reflexivity.
Qed.

Lemma remove_nth_Forall {A} (P : A -> Prop) i l : Forall P l -> Forall P (remove_nth i l).
Proof.
  revert i. induction l as [|x l IH]; intros i H; [destruct i; constructor|].
  inversion H as [|? ? Hx Hl]; subst. destruct i; cbn [remove_nth]; [exact Hl|]. constructor; auto.
Qed.

Lemma index_where_some {A} (f : A -> bool) l k d :
  index_where f l = Some k -> (k < length l)%nat /\ f (nth k l d) = true.
Proof.
  revert k. induction l as [|x l IH]; intros k H; cbn [index_where] in H; [discriminate|].
  destruct (f x) eqn:E.
  - injection H as <-. cbn [length nth]. split; [lia|exact E].
  - destruct (index_where f l) as [k'|]; [|discriminate]. cbn [option_map] in H. injection H as <-.
    destruct (IH k' eq_refl) as [H1 H2]. cbn [length nth]. split; [lia|exact H2].
Qed.

Lemma index_where_none {A} (f : A -> bool) l : index_where f l = None -> forall x, In x l -> f x = false.
Proof.
  induction l as [|x l IH]; intros H y Hy; [destruct Hy|]. cbn [index_where] in H.
  destruct (f x) eqn:E; [discriminate|].
  destruct (index_where f l); [discriminate|]. destruct Hy as [<-|Hy]; [exact E|now apply IH].
Qed.

(* a row with at most one entry *)
Lemma short_row r j a : (length r <= 1)%nat -> row_get r j = a -> a <> 0 ->
  forall c, row_get r c = if (c =? j)%nat then a else 0.
Proof.
  intros Hlen Hg Ha c. destruct r as [|[c0 v0] [|e r]]; cbn [length] in Hlen; [| |lia].
  - cbn [row_get] in Hg. congruence.
  - cbn [row_get] in *. destruct (Nat.eqb_spec c0 j) as [->|Hne].
    + subst v0. rewrite (Nat.eqb_sym c j). destruct (j =? c)%nat; [reflexivity|]. destruct (c <? j)%nat; reflexivity.
    + destruct (j <? c0)%nat; congruence.
Qed.
