(* C06 (ss oracle) - the d of [ss_spec] is the divisibility of Lee's class in H^0 / torsion and does not
   depend on the coordinate system: the free coordinates [free_coords D z] used by [ss_spec] are the first
   [rank] entries of p z for the forward matrix p of the returned transform, and for EVERY other coordinate
   system (p', q', tors') of the homology of (d^{-1}, d^0) with [gens_ok], [complete_ok] and non-zero
   torsion orders, [div_c] of the free part of p' z is the same number ([ss_div_route_independent]).
   Then the lemmas behind Properties/C06Ss.v: [ss_spec_value] (ss = 2 d + w - r + 1 with d characterised by
   divisibility), [ss_spec_parity], [ss_spec_rejects_units], [ss_setup_complex] (what [ss_setup] checked about
   the two matrices and the chains) and [ss_vocabulary]. *)
From Coq Require Import List Arith Bool ZArith Lia.
Require Import Yui.Base.Ring Yui.Base.MatF Yui.Base.MatL.
Require Import Yui.Base.ListFacts.
Require Import Yui.Model.KhCube Yui.Model.HomologyCalc Yui.Model.KhSs.
Require Yui.Model.Snf.
Require Import Yui.Proofs.C07Algebra Yui.Proofs.C07Calc Yui.Proofs.C07UctCalc Yui.Proofs.C07MergeTrans Yui.Proofs.C07MergeComplex.
Require Import Yui.Proofs.C06SsDiv Yui.Proofs.C06SsCoords Yui.Proofs.C06SsIndep.
Import ListNotations.
Open Scope Z_scope.

Local Notation mvZ := (mvec Z_ring).
Local Notation mg := (mget Z_ring).
Local Notation vg := (vget Z_ring).

Lemma ss_setup_c l c red D : ss_setup l c red = Some D -> 2 <= Z.abs c.
Proof. unfold ss_setup. intros H. destruct (Z.abs c <? 2) eqn:E; [discriminate|]. now apply Z.ltb_ge in E. Qed.

(* the canonical chains are cycles in the sense of the functional matrices *)
Lemma is_cycle_spec d2 z : length z = nc d2 -> is_cycle d2 z = true ->
  forall i, (i < nr d2)%nat -> mvZ (nc d2) (mg d2) (vg z) i = 0.
Proof.
  intros Hl H i Hi. unfold is_cycle, mat_vec in H. rewrite <- Hl, Nat.eqb_refl in H.
  unfold all_zero in H. rewrite forallb_forall in H.
  rewrite <- Hl. symmetry. apply Z.eqb_eq. apply H.
  apply in_map_iff. exists i. split; [reflexivity|]. apply in_seq. lia.
Qed.

Lemma ss_setup_complex l c red D : ss_setup l c red = Some D ->
  2 <= Z.abs c /\
  mwf (sd_d1 D) /\ mwf (sd_d2 D) /\ nr (sd_d1 D) = nc (sd_d2 D) /\
  zero_prod Z_ring (sd_d1 D) (sd_d2 D) /\
  (forall z, In z (sd_chains D) ->
     length z = nr (sd_d1 D) /\
     forall i, (i < nr (sd_d2 D))%nat -> mvZ (nr (sd_d1 D)) (mg (sd_d2 D)) (vg z) i = 0).
Proof.
  intros H. split; [exact (ss_setup_c _ _ _ _ H)|].
  destruct (ss_setup_ok _ _ _ _ H) as [W1 W2 En Hdd Hcy _ _].
  split; [exact W1|]. split; [exact W2|]. split; [exact En|]. split; [exact Hdd|].
  intros z Hz. destruct (Hcy z Hz) as [Hl Hc]. split; [exact Hl|].
  rewrite En. apply is_cycle_spec; [now rewrite <- En|exact Hc].
Qed.

Lemma ss_setup_tors_nz l c red D : ss_setup l c red = Some D -> tors_nz (sd_tors D).
Proof.
  intros H. destruct (ss_setup_ok _ _ _ _ H) as [W1 W2 En Hdd _ Hc _].
  destruct (calculate_rank_tors Z_ring Z_ring_laws Z_integral Snf.Z_is_unit Z_isu_complete ss_snf Z_isu_sound
              _ _ _ _ _ _ ss_snf_contract W1 W2 Hdd Hc)
    as [_ [r1 [r2 [a [b [t [S1 [_ [_ [_ [_ [Ht [Hle [Htors _]]]]]]]]]]]]]].
  destruct S1 as [P [Pi [Q [Qi [_ [_ [_ [Hnz _]]]]]]]].
  intros s Hs. rewrite Htors in *. rewrite map_length, seq_length in Hs.
  rewrite nth_map_seq by lia. apply Hnz. lia.
Qed.

Lemma ss_setup_coordinates_nz l c red D : ss_setup l c red = Some D ->
  exists p q : dmat Z,
    forward_mat Z_ring (sd_trans D) = Some p /\ backward_mat Z_ring (sd_trans D) = Some q /\
    gens_ok Z_ring (sd_d1 D) (sd_d2 D) (sd_rank D) (sd_tors D) p q /\
    complete_ok Z_ring (sd_d1 D) (sd_d2 D) (sd_rank D) (sd_tors D) p q /\
    tors_nz (sd_tors D).
Proof.
  intros H. destruct (ss_setup_coordinates _ _ _ _ H) as [p [q [Hp [Hq [G C]]]]].
  exists p, q. split; [exact Hp|]. split; [exact Hq|]. split; [exact G|]. split; [exact C|].
  exact (ss_setup_tors_nz _ _ _ _ H).
Qed.

(* what [free_coords] computes *)
Lemma ss_free_coords_spec l c red D z :
  ss_setup l c red = Some D -> In z (sd_chains D) ->
  exists p v,
    forward_mat Z_ring (sd_trans D) = Some p /\ free_coords D z = Some v /\
    v = map (fun i => mvZ (nr (sd_d1 D)) (mg p) (vg z) i) (seq 0 (sd_rank D)).
Proof.
  intros H Hz. destruct (ss_setup_ok _ _ _ _ H) as [W1 W2 En Hdd Hcy Hc _].
  destruct (Hcy z Hz) as [Hl _].
  pose proof (calculate_trans_ok _ _ _ _ _ _ _ _ _ Hc) as Okt.
  destruct (calculate_generators Z_ring Z_ring_laws Z_integral Snf.Z_is_unit Z_isu_complete ss_snf Z_isu_sound
              _ _ _ _ _ ss_snf_contract W1 W2 Hdd Hc) as [t [p [q [Et [Hp [_ [Hsrc [Htgt _]]]]]]]].
  injection Et as <-.
  destruct (forward_mat_spec Z_ring Z_ring_laws _ Okt) as [p' [Hp' [_ [_ Hm]]]].
  rewrite Hp in Hp'. injection Hp' as <-.
  destruct (forward_spec Z_ring Z_ring_laws (sd_trans D) z Okt ltac:(now rewrite Hsrc)) as [w [Hw [Lw Hv]]].
  exists p, (firstn (sd_rank D) w). split; [exact Hp|]. split.
  - unfold free_coords. rewrite Hw. reflexivity.
  - apply nth_ext with (d := 0) (d' := 0).
    + rewrite firstn_length, map_length, seq_length. lia.
    + intros i Hi. rewrite firstn_length in Hi.
      rewrite nth_firstn_lt by lia.
      rewrite nth_map_seq by lia.
      change (nth i w 0) with (vg w i). rewrite Hv by lia. rewrite Hsrc.
      unfold mvec. apply (sum_ext Z_ring). intros k Hk. rewrite Hm by lia. reflexivity.
Qed.

Theorem ss_div_route_independent l c red D z v :
  ss_setup l c red = Some D -> In z (sd_chains D) -> free_coords D z = Some v ->
  forall (tors' : list Z) (p' q' : dmat Z),
    gens_ok Z_ring (sd_d1 D) (sd_d2 D) (sd_rank D) tors' p' q' ->
    complete_ok Z_ring (sd_d1 D) (sd_d2 D) (sd_rank D) tors' p' q' ->
    tors_nz tors' ->
    div_c c (map (fun i => mvZ (nr (sd_d1 D)) (mg p') (vg z) i) (seq 0 (sd_rank D))) = div_c c v.
Proof.
  intros H Hz Hv tors' p' q' G2 C2 T2.
  destruct (ss_setup_complex _ _ _ _ H) as [Hc [_ [_ [_ [_ Hcy]]]]]. destruct (Hcy z Hz) as [_ Zc].
  destruct (ss_free_coords_spec _ _ _ _ _ H Hz) as [p [v0 [Hp [Hv0 Ev]]]].
  rewrite Hv in Hv0. injection Hv0 as <-.
  destruct (ss_setup_coordinates_nz _ _ _ _ H) as [p0 [q [Hp0 [_ [G1 [C1 T1]]]]]].
  rewrite Hp in Hp0. injection Hp0 as <-.
  rewrite Ev. apply div_c_same; [exact Hc|]. intros m. rewrite !divides_all_tab.
  symmetry. exact (free_divisibility_independent _ _ _ _ _ _ _ _ _ (vg z) m G1 C1 T1 G2 C2 T2 Zc).
Qed.

Lemma omap_all {A B : Type} (f : A -> option B) zs : forall ds, omap f zs = Some ds ->
  forall z, In z zs -> exists y, f z = Some y /\ In y ds.
Proof.
  induction zs as [|z0 zs IH]; intros ds H z Hz; [destruct Hz|].
  cbn [omap] in H. destruct (f z0) as [y0|] eqn:E0; cbn [obind] in H; [|discriminate].
  destruct (omap f zs) as [ys|] eqn:E1; cbn [obind] in H; [|discriminate]. injection H as <-.
  destruct Hz as [<-|Hz].
  - exists y0. split; [exact E0|now left].
  - destruct (IH ys eq_refl z Hz) as [y [Hy Hin]]. exists y. split; [exact Hy|now right].
Qed.

(* the value: ss = 2 d + w - r + 1 with d characterised by divisibility *)
Theorem ss_spec_value l c red s :
  ss_spec l c red = Some s ->
  exists D d,
    ss_setup l c red = Some D /\ s = 2 * Z.of_nat d + sd_w D - sd_r D + 1 /\
    sd_chains D <> [] /\
    forall z, In z (sd_chains D) ->
      exists v, free_coords D z = Some v /\ ~ is_zero_vec v /\
                divides_all (cpow c d) v /\ ~ divides_all (cpow c (S d)) v.
Proof.
  unfold ss_spec. intros H.
  destruct (ss_setup l c red) as [D|] eqn:E; cbn [obind] in H; [|discriminate].
  destruct (ss_divs D c) as [ds|] eqn:E0; cbn [obind] in H; [|discriminate].
  pose proof (ss_setup_c _ _ _ _ E) as Hc.
  destruct ds as [|d r]; [discriminate|].
  destruct (forallb (Nat.eqb d) r) eqn:Eall; [|discriminate]. injection H as <-.
  exists D, d. split; [reflexivity|]. split; [reflexivity|].
  assert (Hds : forall x, In x (d :: r) -> x = d).
  { intros x [<-|Hx]; [reflexivity|]. rewrite forallb_forall in Eall. symmetry. now apply Nat.eqb_eq, Eall. }
  unfold ss_divs in E0.
  split.
  - intros En. rewrite En in E0. cbn in E0. discriminate.
  - intros z Hz. destruct (omap_all _ _ _ E0 z Hz) as [y [Hy Hin]].
    destruct (free_coords D z) as [v|] eqn:Ev; cbn [obind] in Hy; [|discriminate].
    exists v. split; [reflexivity|]. rewrite (Hds y Hin) in Hy.
    apply (div_c_characterised c v d Hc). exact Hy.
Qed.

(* definitional unfoldings of the vocabulary of the statements *)
Lemma ss_vocabulary :
  (forall c k, cpow c k = c ^ Z.of_nat k) /\
  (forall m v, divides_all m v <-> forall a, In a v -> (m | a)) /\
  (forall v, is_zero_vec v <-> forall a, In a v -> a = 0) /\
  (forall U v, mv U v = map (fun r => dot r v) U) /\
  (forall x r y v, dot (x :: r) (y :: v) = x * y + dot r v) /\
  (forall v, dot [] v = 0) /\ (forall r, dot r [] = 0) /\
  (forall tors, tors_nz tors <-> forall s, (s < length tors)%nat -> nth s tors 0 <> 0).
Proof.
  split; [reflexivity|]. split; [intros; apply Forall_forall|]. split; [intros; apply Forall_forall|].
  split; [reflexivity|]. split; [reflexivity|]. split; [reflexivity|]. split; [intros []; reflexivity|].
  intros; reflexivity.
Qed.

Lemma ss_spec_parity l c red s : ss_spec l c red = Some s ->
  exists D : ss_data, ss_setup l c red = Some D /\ (s - (sd_w D - sd_r D + 1)) mod 2 = 0.
Proof.
  intros H. destruct (ss_spec_value _ _ _ _ H) as [D [d [HD [-> _]]]].
  exists D. split; [exact HD|].
  replace (2 * Z.of_nat d + sd_w D - sd_r D + 1 - (sd_w D - sd_r D + 1)) with (Z.of_nat d * 2) by lia.
  apply Z.mod_mul. lia.
Qed.

Lemma ss_spec_rejects_units l c red : Z.abs c < 2 -> ss_spec l c red = None.
Proof. intros H. unfold ss_spec, ss_setup. apply Z.ltb_lt in H. rewrite H. reflexivity. Qed.
