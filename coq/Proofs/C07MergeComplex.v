(* C07, composition of coordinate maps, part 3: a chain complex whose summands carry coordinate maps
   (Model/HomologyMerge.v: [bcomplex]) and the call sequence  s = c[i].clone(); s.merge(c.compute_homology_at(i, true)).
   - [b_d_matrix_spec]: ChainComplexBase::d_matrix of such a complex is  F_(i+d) * D_i * B_i  (D_i the raw matrix);
   - [b_homology_merge_gens_ok]: if the coordinate maps form a retraction by chain maps, the merged summand satisfies the
     clauses of C07 with respect to the ORIGINAL (raw) complex;
   - [b_homology_merge_iso]: closed form for coordinate maps that are isomorphisms (Summand::new(.., Trans::new(U, U^-1))). *)
From Coq Require Import ZArith Arith List Lia Ring Bool.
Require Import Yui.Base.Ring Yui.Base.MatF Yui.Base.MatL Yui.Model.HomologyCalc Yui.Model.HomologyMerge.
Require Import Yui.Base.ListFacts.
Require Import Yui.Proofs.C07Algebra Yui.Proofs.C07Calc Yui.Proofs.C07Complex.
Require Import Yui.Proofs.C07MergeTrans Yui.Proofs.C07Merge.
Import ListNotations.

Section C07MergeComplex.
  Context {R : Type} (o : ring_ops R) (L : ring_laws o) (Hint : integral o).
  Variable isu : R -> bool.
  Hypothesis isu_complete : forall a b, rmul o a b = rone o -> isu a = true.
  Variable snf : dmat R -> bool -> bool -> bool -> bool -> option (snf_result R).
  Hypothesis isu_sound : forall a, isu a = true -> exists b, rmul o a b = rone o.
  Hypothesis HC : snf_contract o snf.

  Local Notation "0" := (rzero o).
  Local Notation "1" := (rone o).
  Local Infix "+" := (radd o).
  Local Infix "*" := (rmul o).
  Local Notation mg := (mget o).
  Local Notation Ff := (fun s : summand R => fwd_fun o (f_mats (s_trans s))).
  Local Notation Bf := (fun s : summand R => bwd_fun o (b_mats (s_trans s))).

  Add Ring Rring07o : (ring_theory_of_laws o L).

  Lemma mat_vec_inv A v w :
    mat_vec o A v = Some w ->
    nc A = length v /\ length w = nr A /\
    forall i, (i < nr A)%nat -> vget o w i = mvec o (nc A) (mg A) (vget o v) i.
  Proof.
    intros E. destruct (Nat.eq_dec (nc A) (length v)) as [H|H].
    - destruct (mat_vec_spec o A v H) as [w' [E' [W1 W2]]]. rewrite E in E'. injection E' as <-. auto.
    - rewrite (mat_vec_none o A v H) in E. discriminate.
  Qed.

  Lemma forward_inv t v w :
    trans_ok t -> forward o t v = Some w ->
    length v = src_dim t /\ length w = tgt_dim t /\
    forall i, (i < tgt_dim t)%nat -> vget o w i = mvec o (src_dim t) (fwd_fun o (f_mats t)) (vget o v) i.
  Proof.
    intros Ht E. destruct (Nat.eq_dec (length v) (src_dim t)) as [H|H].
    - destruct (forward_spec o L t v Ht H) as [w' [E' [W1 W2]]]. rewrite E in E'. injection E' as <-. auto.
    - rewrite (forward_none o t v H) in E. discriminate.
  Qed.

  Lemma backward_inv t v w :
    trans_ok t -> backward o t v = Some w ->
    length v = tgt_dim t /\ length w = src_dim t /\
    forall i, (i < src_dim t)%nat -> vget o w i = mvec o (tgt_dim t) (bwd_fun o (b_mats t)) (vget o v) i.
  Proof.
    intros Ht E. destruct (forward_inv (opp t) v w (chain_ok_rev _ _ _ _ Ht) E) as [H1 [H2 H3]].
    split; [exact H1|]. split; [exact H2|].
    intros i Hi. rewrite (H3 i Hi). apply (mvec_ext_row o). intros l Hl. exact (fwd_fun_rev o L _ _ _ _ Ht i l Hi Hl).
  Qed.

  Lemma unit_vec_inv n k e :
    unit_vec o n k = Some e ->
    (k < n)%nat /\ length e = n /\ forall l, (l < n)%nat -> vget o e l = if l =? k then 1 else 0.
  Proof.
    unfold unit_vec. destruct (Nat.ltb_spec k n) as [H|H]; [|discriminate]. intros E. injection E as <-.
    split; [exact H|]. split; [now rewrite map_length, seq_length|].
    intros l Hl. unfold vget. now rewrite nth_map_seq.
  Qed.

  Lemma mvec_unit n k (A : mat R) (v : nat -> R) i :
    (k < n)%nat -> (forall l, (l < n)%nat -> v l = if l =? k then 1 else 0) -> mvec o n A v i = A i k.
  Proof.
    intros Hk Hv. unfold mvec.
    rewrite (sum_ext o n _ (fun l => if l =? k then A i l else 0)).
    - now rewrite (sum_delta o L).
    - intros l Hl. rewrite Hv by exact Hl. destruct (l =? k); ring.
  Qed.

  Lemma omap_inv {A B} (f : A -> option B) l ys (da : A) (db : B) :
    omap f l = Some ys ->
    length ys = length l /\ forall k, (k < length l)%nat -> f (nth k l da) = Some (nth k ys db).
  Proof.
    revert ys. induction l as [|x l IH]; intros ys E; cbn [omap] in E.
    - injection E as <-. split; [reflexivity|]. cbn. intros k Hk. lia.
    - inv_bind E. inv_bind E. injection E as <-. destruct (IH _ eq_refl) as [I1 I2].
      split; [cbn; congruence|]. intros [|k] Hk; cbn [nth]; [exact E0|]. apply I2. cbn in Hk. lia.
  Qed.

  (* the summand of degree j is what Summand::new accepts, is free (ChainComplexBase::new asserts it, reduced()
     builds it so) and lives on the raw generators of degree j *)
  Definition bc_ok (C : bcomplex R) (j : Z) : Prop :=
    summand_ok (b_get C j) /\ s_tors (b_get C j) = [] /\ s_ngens (b_get C j) = c_rank (b_raw C) j.

  Lemma bc_ok_dim C j : bc_ok C j -> s_dim (b_get C j) = s_rank (b_get C j).
  Proof. intros [_ [H _]]. unfold s_dim. rewrite H. cbn. lia. Qed.

  (* one column of d_matrix *)
  Lemma b_col_spec C j k col :
    let G := b_raw C in
    let src := b_get C j in
    let tgt := b_get C (j + c_ddeg G)%Z in
    bc_ok C j -> bc_ok C (j + c_ddeg G)%Z ->
    obind (gen o src k) (fun z => obind (b_d o C j z) (fun w => vectorize o tgt w)) = Some col ->
    (k < s_rank src)%nat /\ length col = s_rank tgt /\
    forall r, (r < s_rank tgt)%nat ->
      vget o col r = mmul o (c_rank G (j + c_ddeg G)%Z) (Ff tgt)
                            (mmul o (c_rank G j) (mg (c_dmat G j)) (Bf src)) r k.
  Proof.
    intros G src tgt Hs Ht E.
    pose proof (bc_ok_dim C j Hs) as Ds. pose proof (bc_ok_dim C _ Ht) as Dt.
    fold G in Dt. fold src in Ds. fold tgt in Dt.
    destruct Hs as [[S1 [S2 S3]] [S4 S5]]. destruct Ht as [[T1 [T2 T3]] [T4 T5]].
    fold G in T1, T2, T3, T4, T5. fold src in S1, S2, S3, S4, S5. fold tgt in T1, T2, T3, T4, T5. fold G in S5.
    inv_bind E. rename l into z. inv_bind E. rename l into w.
    (* gen *)
    unfold gen in E0. inv_bind E0. rename l into e.
    apply unit_vec_inv in E2. destruct E2 as [U1 [U2 U3]].
    unfold devectorize in E0. rewrite U2, Nat.eqb_refl in E0.
    apply (backward_inv _ _ _ S3) in E0. destruct E0 as [_ [Z1 Z2]].
    (* d *)
    unfold b_d in E1. fold G in E1.
    destruct (Nat.eqb_spec (length z) (c_rank G j)) as [Hz|_]; [|discriminate].
    inv_bind E1. rename l into dv.
    destruct (Nat.eqb_spec (length dv) (c_rank G (j + c_ddeg G))) as [Hdv|_]; [|discriminate].
    injection E1 as <-.
    apply mat_vec_inv in E0. destruct E0 as [M1 [M2 M3]].
    (* vectorize *)
    unfold vectorize in E. destruct (Nat.eqb_spec (length dv) (s_ngens tgt)) as [_|N]; [|discriminate].
    apply (forward_inv _ _ _ T3) in E. destruct E as [_ [W1 W2]].
    split; [lia|]. split; [congruence|].
    intros r Hr. rewrite W2 by congruence. rewrite T1, T5.
    unfold mmul at 1. unfold mvec at 1. apply (sum_ext o). intros a Ha. f_equal.
    rewrite M3 by congruence. rewrite M1, Hz.
    unfold mmul, mvec. apply (sum_ext o). intros c Hc. f_equal.
    rewrite Z2 by congruence. rewrite S2, Ds.
    apply mvec_unit; [lia|]. intros l Hl. apply U3. lia.
  Qed.

  (* ChainComplexBase::d_matrix of a complex with coordinate maps:  F_(j+d) * D_j * B_j *)
  Theorem b_d_matrix_spec C j d :
    let G := b_raw C in
    let src := b_get C j in
    let tgt := b_get C (j + c_ddeg G)%Z in
    bc_ok C j -> bc_ok C (j + c_ddeg G)%Z ->
    b_d_matrix o C j = Some d ->
    mwf d /\ nr d = s_rank tgt /\ nc d = s_rank src /\
    meq (s_rank tgt) (s_rank src) (mg d)
        (mmul o (c_rank G (j + c_ddeg G)%Z) (Ff tgt) (mmul o (c_rank G j) (mg (c_dmat G j)) (Bf src))).
  Proof.
    intros G src tgt Hs Ht E. unfold b_d_matrix in E. fold G in E. fold src in E. fold tgt in E.
    inv_bind E. rename l into cols.
    destruct (forallb (fun c => length c =? s_rank tgt) cols); [|discriminate]. injection E as <-.
    split; [apply mwf_dmk|]. split; [reflexivity|]. split; [reflexivity|].
    destruct (omap_inv _ _ _ O (@nil R) E0) as [I1 I2]. rewrite seq_length in I1, I2.
    intros r k Hr Hk. rewrite (mget_dmk o) by assumption.
    pose proof (I2 k Hk) as Ek. rewrite seq_nth in Ek by exact Hk. cbn [Nat.add] in Ek.
    destruct (b_col_spec C j k _ Hs Ht Ek) as [_ [_ Hc]].
    apply (Hc r Hr).
  Qed.

  Lemma calculate_trans_ok d1 d2 wt rank tors t :
    calculate o isu snf d1 d2 wt = Some (rank, tors, Some t) -> trans_ok t.
  Proof.
    unfold calculate. intros H. inv_guard H G.
    destruct (d_is_zero o d1 && d_is_zero o d2).
    - destruct wt; [|discriminate]. injection H as _ _ <-. apply trans_id_ok.
    - inv_bind H. inv_bind H. destruct wt; [|discriminate].
      inv_bind H. injection H as _ _ ->.
      unfold calc_trans in E1.
      inv_guard E1 G1. inv_bind E1. inv_bind E1. inv_bind E1. inv_bind E1. inv_bind E1.
      inv_guard E1 G2. inv_bind E1. inv_bind E1. inv_guard E1 G3.
      inv_bind E1. inv_bind E1. inv_bind E1. inv_bind E1. inv_bind E1. inv_bind E1. inv_bind E1.
      inv_guard E1 G4. exact (trans_new_ok _ _ _ E1).
  Qed.

  (* D1, D2: the matrices of the ORIGINAL complex around degree i (ChainComplexBase::d_matrix of the raw complex,
     [d_matrix] of HomologyCalc.v); d0, d1: those of the complex in the new coordinates; (f, b): the coordinate maps of
     the summand of degree i. *)
  Theorem b_homology_merge_gens_ok C i s' D1 D2 f b :
    let G := b_raw C in
    bc_ok C i ->
    d_matrix o G (i - c_ddeg G)%Z = Some D1 -> d_matrix o G i = Some D2 ->
    forward_mat o (s_trans (b_get C i)) = Some f -> backward_mat o (s_trans (b_get C i)) = Some b ->
    (forall d0 d1, b_d_matrix o C (i - c_ddeg G)%Z = Some d0 -> b_d_matrix o C i = Some d1 ->
       mwf d0 /\ mwf d1 /\ nr d0 = s_rank (b_get C i) /\
       zero_prod o d0 d1 /\
       meq (nr d0) (nr d0) (mmul o (nr D1) (mg f) (mg b)) (mid o) /\
       (exists B0 : mat R, meq (nr D2) (nr d0) (mmul o (nr D1) (mg D2) (mg b)) (mmul o (nr d1) B0 (mg d1))) /\
       (exists F2 : mat R, meq (nr d0) (nc D1) (mmul o (nr D1) (mg f) (mg D1)) (mmul o (nc d0) (mg d0) F2))) ->
    b_homology_merge o isu snf C i = Some s' ->
    exists p q, forward_mat o (s_trans s') = Some p /\ backward_mat o (s_trans s') = Some q /\
                gens_ok o D1 D2 (s_rank s') (s_tors s') p q.
  Proof.
    intros G Hi E1 E2 Ef Eb Hyp E. unfold b_homology_merge in E. inv_bind E. rename s into h.
    unfold b_compute_homology_at in E0. fold G in E0.
    inv_bind E0. rename d into d0. inv_bind E0. rename d into d1. inv_bind E0.
    destruct p as [[rank tors] tr].
    destruct (Hyp d0 d1 eq_refl eq_refl) as [W0 [W1 [Hr [Hz [Hfb [Hcyc Hbnd]]]]]].
    destruct (calculate_generators o L Hint isu isu_complete snf isu_sound d0 d1 rank tors tr HC W0 W1 Hz E5)
      as [t [p' [q' [-> [Ep' [Eq' [Hsrc [Htgt Hg]]]]]]]].
    pose proof (calculate_trans_ok _ _ _ _ _ _ E5) as Okt.
    destruct (summand_generate_ok _ _ _ _ E0 Okt) as [Okh [N1 [N2 [N3 N4]]]].
    pose proof (bc_ok_dim C i Hi) as Di.
    destruct (d_matrix_spec o G _ D1 E1) as [_ [S1 _]].
    replace (i - c_ddeg G + c_ddeg G)%Z with i in S1 by lia.
    destruct Hi as [Oks [_ Hng]]. fold G in Hng.
    apply (summand_merge_gens_ok o L D1 D2 d0 d1 (b_get C i) h s' f b); try assumption; try congruence.
  Qed.

  Section IsoAlgebra.
    Variables c0 c1 c2 r0 r1 r2 : nat.
    Variables F0 B0 F1 B1 F2 B2 D1 D2 d0 d1 : mat R.
    Hypothesis Hd0 : meq r1 r0 d0 (mmul o c1 F1 (mmul o c0 D1 B0)).
    Hypothesis Hd1 : meq r2 r1 d1 (mmul o c2 F2 (mmul o c1 D2 B1)).
    Hypothesis BF0 : meq c0 c0 (mmul o r0 B0 F0) (mid o).
    Hypothesis BF1 : meq c1 c1 (mmul o r1 B1 F1) (mid o).
    Hypothesis BF2 : meq c2 c2 (mmul o r2 B2 F2) (mid o).
    Hypothesis DD : meq c2 c0 (mmul o c1 D2 D1) (mzero o).

    (* D2 * B1 = B2 * d1 *)
    Lemma iso_cyc : meq c2 r1 (mmul o c1 D2 B1) (mmul o r2 B2 d1).
    Proof.
      intros i j Hi Hj.
      rewrite (mmul_ext_r o r2 _ _ (mmul o c2 F2 (mmul o c1 D2 B1))) by (intros l Hl; now apply Hd1).
      rewrite <- (mmul_assoc o L).
      rewrite (mmul_ext_l o c2 _ (mid o)) by (intros l Hl; now apply BF2).
      symmetry. now apply (mmul_id_l o L).
    Qed.

    (* F1 * D1 = d0 * F0 *)
    Lemma iso_bnd : meq r1 c0 (mmul o c1 F1 D1) (mmul o r0 d0 F0).
    Proof.
      intros i j Hi Hj.
      rewrite (mmul_ext_l o r0 _ (mmul o c1 F1 (mmul o c0 D1 B0))) by (intros l Hl; now apply Hd0).
      rewrite (mmul_assoc o L). apply (mmul_ext_r o). intros l Hl.
      rewrite (mmul_assoc o L).
      rewrite (mmul_ext_r o c0 _ _ (mid o)) by (intros k Hk; now apply BF0).
      symmetry. now apply (mmul_id_r o L).
    Qed.

    (* d1 * d0 = 0 *)
    Lemma iso_zero : meq r2 r0 (mmul o r1 d1 d0) (mzero o).
    Proof.
      intros i j Hi Hj.
      rewrite (mmul_ext_l o r1 _ (mmul o c2 F2 (mmul o c1 D2 B1))) by (intros l Hl; now apply Hd1).
      rewrite (mmul_ext_r o r1 _ _ (mmul o c1 F1 (mmul o c0 D1 B0))) by (intros l Hl; now apply Hd0).
      rewrite (mmul_assoc o L).
      unfold mzero. unfold mmul at 1. apply (sum_zero_ext o L). intros a Ha.
      replace (mmul o r1 (mmul o c1 D2 B1) (mmul o c1 F1 (mmul o c0 D1 B0)) a j) with 0; [ring|]. symmetry.
      rewrite (mmul_assoc o L).
      rewrite (mmul_ext_r o c1 _ _ (mmul o c0 D1 B0)).
      - rewrite <- (mmul_assoc o L).
        unfold mmul at 1. apply (sum_zero_ext o L). intros l Hl. rewrite (DD a l Ha Hl). unfold mzero. ring.
      - intros l Hl. rewrite <- (mmul_assoc o L).
        rewrite (mmul_ext_l o c1 _ (mid o)) by (intros k Hk; now apply BF1).
        now apply (mmul_id_l o L).
    Qed.
  End IsoAlgebra.

  (* the coordinate maps of the summand of degree j are mutually inverse *)
  Definition iso_at (C : bcomplex R) (j : Z) : Prop :=
    let s := b_get C j in
    exists f b, forward_mat o (s_trans s) = Some f /\ backward_mat o (s_trans s) = Some b /\
                meq (s_rank s) (s_rank s) (mmul o (s_ngens s) (mg f) (mg b)) (mid o) /\
                meq (s_ngens s) (s_ngens s) (mmul o (s_rank s) (mg b) (mg f)) (mid o).

  Lemma iso_at_fun C j :
    bc_ok C j -> iso_at C j ->
    let s := b_get C j in
    meq (s_rank s) (s_rank s) (mmul o (s_ngens s) (Ff s) (Bf s)) (mid o) /\
    meq (s_ngens s) (s_ngens s) (mmul o (s_rank s) (Bf s) (Ff s)) (mid o).
  Proof.
    intros Hj [f [b [Ef [Eb [I1 I2]]]]] s. fold s in Ef, Eb, I1, I2.
    pose proof (bc_ok_dim C j Hj) as Dj. fold s in Dj.
    destruct Hj as [[S1 [S2 S3]] _]. fold s in S1, S2, S3.
    destruct (forward_mat_spec o L _ S3) as [f' [Ef' [_ [_ F3]]]]. rewrite Ef in Ef'. injection Ef' as <-.
    destruct (backward_mat_spec o L _ S3) as [b' [Eb' [_ [_ B3]]]]. rewrite Eb in Eb'. injection Eb' as <-.
    rewrite S1, S2, Dj in F3, B3. split.
    - intros a c Ha Hc. rewrite <- (I1 a c Ha Hc). unfold mmul. apply (sum_ext o). intros l Hl.
      now rewrite F3, B3.
    - intros a c Ha Hc. rewrite <- (I2 a c Ha Hc). unfold mmul. apply (sum_ext o). intros l Hl.
      now rewrite F3, B3.
  Qed.

  Theorem b_homology_merge_iso C i s' D1 D2 :
    let G := b_raw C in
    bc_ok C (i - c_ddeg G)%Z -> bc_ok C i -> bc_ok C (i + c_ddeg G)%Z ->
    iso_at C (i - c_ddeg G)%Z -> iso_at C i -> iso_at C (i + c_ddeg G)%Z ->
    d_matrix o G (i - c_ddeg G)%Z = Some D1 -> d_matrix o G i = Some D2 ->
    zero_prod o D1 D2 ->
    b_homology_merge o isu snf C i = Some s' ->
    exists p q, forward_mat o (s_trans s') = Some p /\ backward_mat o (s_trans s') = Some q /\
                gens_ok o D1 D2 (s_rank s') (s_tors s') p q.
  Proof.
    intros G H0 H1 H2 I0 I1 I2 E1 E2 Hdd E.
    destruct (iso_at_fun C _ H0 I0) as [_ J0]. destruct (iso_at_fun C _ H1 I1) as [_ J1].
    destruct (iso_at_fun C _ H2 I2) as [_ J2]. fold G in J0, J2.
    destruct (d_matrix_spec o G _ D1 E1) as [_ [S1 [S2 S3]]]. destruct (d_matrix_spec o G _ D2 E2) as [_ [T1 [T2 T3]]].
    replace (i - c_ddeg G + c_ddeg G)%Z with i in S1 by lia.
    destruct I1 as [f [b [Ef [Eb [If _]]]]].
    apply (b_homology_merge_gens_ok C i s' D1 D2 f b H1 E1 E2 Ef Eb); [|exact E].
    intros d0 d1 Ed0 Ed1.
    assert (H1' : bc_ok C (i - c_ddeg G + c_ddeg G)%Z) by (replace (i - c_ddeg G + c_ddeg G)%Z with i by lia; exact H1).
    destruct (b_d_matrix_spec C _ d0 H0 H1' Ed0) as [W0 [A1 [A2 A3]]].
    destruct (b_d_matrix_spec C _ d1 H1 H2 Ed1) as [W1 [A4 [A5 A6]]].
    fold G in A1, A2, A3, A4, A5, A6.
    replace (i - c_ddeg G + c_ddeg G)%Z with i in A1, A3 by lia.
    pose proof H0 as [_ [_ N0]]. pose proof H1 as [[Q1 [Q2 Q3]] [_ N1]]. pose proof H2 as [_ [_ N2]].
    fold G in N0, N1, N2.
    pose proof (bc_ok_dim C i H1) as Di.
    destruct (forward_mat_spec o L _ Q3) as [f' [Ef' [_ [_ F3]]]]. rewrite Ef in Ef'. injection Ef' as <-.
    destruct (backward_mat_spec o L _ Q3) as [b' [Eb' [_ [_ B3]]]]. rewrite Eb in Eb'. injection Eb' as <-.
    rewrite Q1, Q2, Di, N1 in F3, B3.
    set (s0 := b_get C (i - c_ddeg G)) in *. set (s1 := b_get C i) in *. set (s2 := b_get C (i + c_ddeg G)) in *.
    rewrite N0, N1, N2 in *.
    (* the matrices in the new coordinates, against D1 / D2 *)
    assert (Hd0 : meq (s_rank s1) (s_rank s0) (mg d0)
                      (mmul o (c_rank G i) (Ff s1) (mmul o (c_rank G (i - c_ddeg G)) (mg D1) (Bf s0)))).
    { intros a c Ha Hc. rewrite A3 by assumption. apply (mmul_ext_r o). intros l Hl.
      apply (mmul_ext_l o). intros k Hk. symmetry. apply S3; congruence. }
    assert (Hd1 : meq (s_rank s2) (s_rank s1) (mg d1)
                      (mmul o (c_rank G (i + c_ddeg G)) (Ff s2) (mmul o (c_rank G i) (mg D2) (Bf s1)))).
    { intros a c Ha Hc. rewrite A6 by assumption. apply (mmul_ext_r o). intros l Hl.
      apply (mmul_ext_l o). intros k Hk. symmetry. apply T3; congruence. }
    assert (DD : meq (c_rank G (i + c_ddeg G)) (c_rank G (i - c_ddeg G)) (mmul o (c_rank G i) (mg D2) (mg D1)) (mzero o)).
    { unfold zero_prod in Hdd. rewrite T1, S2, S1 in Hdd. exact Hdd. }
    split; [exact W0|]. split; [exact W1|]. split; [exact A1|]. rewrite A1, A2, A4, S1, S2, T1.
    split; [|split; [|split]].
    - unfold zero_prod. rewrite A4, A2, A1.
      eapply iso_zero; [exact Hd0|exact Hd1|exact J1|exact DD].
    - exact If.
    - exists (Bf s2). intros a c Ha Hc.
      transitivity (mmul o (c_rank G i) (mg D2) (Bf s1) a c).
      + apply (mmul_ext_r o). intros l Hl. now apply B3.
      + eapply iso_cyc; [exact Hd1|exact J2|exact Ha|exact Hc].
    - exists (Ff s0). intros a c Ha Hc.
      transitivity (mmul o (c_rank G i) (Ff s1) (mg D1) a c).
      + apply (mmul_ext_l o). intros l Hl. now apply F3.
      + eapply iso_bnd; [exact Hd0|exact J0|exact Ha|exact Hc].
  Qed.
End C07MergeComplex.
