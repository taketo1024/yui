(* C10: exit conditions of the LLL loop with respect to the maintained data (det, lambda):
   on exit every k satisfies lovasz_ok, and every lambda[k][i] (i < k) lies in the rounding cell of det[i]. *)
From Coq Require Import ZArith List Bool Arith Lia Ring.
Require Import Yui.Base.Ring Yui.Base.MatF Yui.Base.MatL Yui.Model.Lll Yui.Proofs.C10Laws Yui.Proofs.C10Ops.
Import ListNotations.

Section Exit.
  Context {R : Type} (L : lll_ring R) (LW : lll_laws L).
  Local Notation o := (lops L).
  Local Notation RL := (ll_ring L LW).

  Add Ring Rring2 : (ring_theory_of_laws o RL).

  Local Notation lam s := (lget o (lambda s)).
  Local Notation dt s := (vget L (det s)).

  Lemma fold_m_set_frame m k (g : lmat R -> nat -> R) js : forall l1 a b,
    (a < m)%nat -> (b < m)%nat -> (a <> k \/ ~ In b js) ->
    lget o (fold_left (fun l j => m_set L m m l k j (g l j)) js l1) a b = lget o l1 a b.
  Proof.
    induction js as [|j js IH]; intros l1 a b Ha Hb H; cbn [fold_left]; [reflexivity|].
    rewrite IH; [|assumption|assumption|].
    - rewrite (lget_m_set L) by assumption.
      destruct (Nat.eqb_spec a k) as [->|]; destruct (Nat.eqb_spec b j) as [->|]; cbn [andb]; try reflexivity.
      exfalso. destruct H as [H|H]; [now apply H|apply H; now left].
    - destruct H as [H|H]; [now left|right; intros Hin; apply H; now right].
  Qed.

  Lemma add_row_to_frame s i k r s' : add_row_to L s i k r = Some s' ->
    (i < k)%nat /\ (k < nr s)%nat /\ nr s' = nr s /\ nc s' = nc s /\ step s' = step s /\ det s' = det s /\
    (forall a b, (a < nr s)%nat -> (b < nr s)%nat -> (a <> k \/ i < b)%nat -> lam s' a b = lam s a b) /\
    lam s' k i = radd o (lam s k i) (rmul o r (dt s i)).
  Proof.
    cbv beta zeta delta [add_row_to].
    destruct (Nat.ltb_spec i k) as [Hik|]; [|discriminate].
    destruct (Nat.ltb_spec k (nr s)) as [Hk|]; [|discriminate]. cbn [negb orb].
    intros H. injection H as <-. cbn [nr nc step det lambda].
    repeat split; try assumption.
    - intros a b Ha Hb Hab. rewrite fold_m_set_frame; try assumption.
      + rewrite (lget_m_set L) by assumption.
        destruct (Nat.eqb_spec a k) as [->|]; destruct (Nat.eqb_spec b i) as [->|]; cbn [andb]; try reflexivity.
        exfalso. destruct Hab; [congruence|lia].
      + destruct Hab as [H|H]; [now left|right; rewrite in_seq; lia].
    - rewrite fold_m_set_frame; try lia.
      + rewrite (lget_m_set L) by lia. now rewrite !Nat.eqb_refl.
      + right. rewrite in_seq. lia.
  Qed.

  Lemma reduce_frame s i k s' : reduce L s i k = Some s' ->
    (i < k)%nat /\ (k < nr s)%nat /\ nr s' = nr s /\ step s' = step s /\ det s' = det s /\
    (forall a b, (a < nr s)%nat -> (b < nr s)%nat -> (a <> k \/ i < b)%nat -> lam s' a b = lam s a b) /\
    lsize_ok L (lam s' k i) (dt s i) = true.
  Proof.
    cbv beta zeta delta [reduce].
    destruct (Nat.ltb_spec i k) as [Hik|]; [|discriminate].
    destruct (Nat.ltb_spec k (nr s)) as [Hk|]; [|discriminate]. cbn [negb orb].
    destruct (ldiv_round L _ _) as [q|] eqn:Eq; [|discriminate]. cbn [obind].
    pose proof (ll_div_round_some L LW _ _ _ Eq) as Hsz. rewrite mget_eq in Hsz.
    destruct (reqb o q (rzero o)) eqn:Eq0.
    - intros H. injection H as <-. apply (reqb_eq o RL) in Eq0. subst q.
      repeat split; try assumption; try reflexivity.
      replace (lam s k i) with (rsub o (lam s k i) (rmul o (rzero o) (dt s i))); [exact Hsz|].
      unfold rsub. ring.
    - intros H. apply add_row_to_frame in H. destruct H as (_ & _ & Hn & _ & Hs & Hd & Hf & Hki).
      repeat split; try assumption.
      rewrite Hki. replace (radd o (lam s k i) (rmul o (rneg o q) (dt s i))) with (rsub o (lam s k i) (rmul o q (dt s i)));
        [exact Hsz|]. unfold rsub. ring.
  Qed.

  Lemma rev_seq_S t : rev (seq 0 (S t)) = t :: rev (seq 0 t).
  Proof. rewrite seq_S, rev_app_distr. reflexivity. Qed.

  Lemma reduce_down k : forall t s s2, (t <= k)%nat ->
    ofold (fun x i => reduce L x i k) (rev (seq 0 t)) s = Some s2 ->
    nr s2 = nr s /\ step s2 = step s /\ det s2 = det s /\
    (forall a b, (a < nr s)%nat -> (b < nr s)%nat -> (a <> k \/ t <= b)%nat -> lam s2 a b = lam s a b) /\
    (forall i, (i < t)%nat -> lsize_ok L (lam s2 k i) (dt s i) = true).
  Proof.
    induction t as [|t IH]; intros s s2 Ht H.
    - cbn in H. injection H as <-. repeat split; try reflexivity. intros i Hi. lia.
    - rewrite rev_seq_S, ofold_cons in H. destruct (reduce L s t k) as [s1|] eqn:E1; [|discriminate].
      cbn [obind] in H. apply reduce_frame in E1. destruct E1 as (Htk & Hk & Hn1 & Hs1 & Hd1 & Hf1 & Hz1).
      apply IH in H; [|lia]. destruct H as (Hn2 & Hs2 & Hd2 & Hf2 & Hz2).
      rewrite Hn1 in *. rewrite Hd1 in *. repeat split; try congruence.
      + intros a b Ha Hb Hab. rewrite Hf2 by (try assumption; lia). apply Hf1; try assumption; lia.
      + intros i Hi. destruct (Nat.eq_dec i t) as [->|Hne].
        * rewrite Hf2 by (try lia). exact Hz1.
        * apply Hz2. lia.
  Qed.

  Lemma swap_frame s k s' : swap L s k = Some s' ->
    (1 <= k)%nat /\ (k < nr s)%nat /\ nr s' = nr s /\ step s' = step s /\
    (forall j, (j < nr s)%nat -> j <> (k - 1)%nat -> dt s' j = dt s j) /\
    (forall a b, (a < nr s)%nat -> (b < nr s)%nat -> (a < k - 1)%nat -> lam s' a b = lam s a b).
  Proof.
    cbv beta zeta delta [swap].
    destruct (Nat.eqb_spec k 0) as [|Hk0]; [discriminate|].
    destruct (Nat.ltb_spec k (nr s)) as [Hk|]; [|discriminate]. cbn [negb orb].
    destruct (ofold _ _ _) as [l2|] eqn:E2; [|discriminate]. cbn [obind].
    destruct (ldiv L _ _) as [dk|]; [|discriminate]. cbn [obind].
    intros H. injection H as <-. cbn [nr step det lambda].
    repeat split; try lia.
    - intros j Hj Hne. rewrite (vget_vset L) by assumption. destruct (Nat.eqb_spec j (k - 1)); [contradiction|reflexivity].
    - intros a b Ha Hb Hak. rewrite (lget_m_set L) by assumption.
      destruct (Nat.eqb_spec a k); [lia|]. cbn [andb].
      set (l1 := lmk (nr s) (nr s) _) in E2.
      assert (H1 : lget o l2 a b = lget o l1 a b).
      { eapply (ofold_inv _ (fun l => forall a b, (a < nr s)%nat -> (b < nr s)%nat -> (a <= k)%nat -> lget o l a b = lget o l1 a b)
                          (fun i => (k + 1 <= i)%nat)); [| | |exact E2|assumption|assumption|lia].
        - intros x i x' Hi Hx. cbv beta zeta delta [swap_lambda_step].
          destruct (ldiv L _ _) as [s0|]; [|discriminate]. cbn [obind].
          destruct (ldiv L _ _) as [t0|]; [|discriminate]. cbn [obind].
          intros H. injection H as <-. intros a0 b0 Ha0 Hb0 Hle.
          rewrite !(lget_m_set L) by assumption.
          destruct (Nat.eqb_spec a0 i); [lia|]. cbn [andb]. now apply Hx.
        - intros i Hi. apply in_seq in Hi. lia.
        - intros; reflexivity. }
      rewrite H1. unfold l1. rewrite lget_lmk by assumption. rewrite !mget_eq.
      destruct (Nat.eqb_spec a (k - 1)); [lia|]. destruct (Nat.eqb_spec a k); [lia|].
      destruct (b <? k - 1)%nat; reflexivity.
  Qed.

  Lemma lovasz_ok_ext s s' k : nr s' = nr s ->
    (forall j, (j <= k)%nat -> dt s' j = dt s j) -> lam s' k (k - 1) = lam s k (k - 1) ->
    lovasz_ok L s' k = lovasz_ok L s k.
  Proof.
    intros Hn Hd Hl. cbv beta zeta delta [lovasz_ok]. rewrite Hn.
    destruct (_ || _); [reflexivity|]. rewrite !mget_eq, Hl, !Hd by lia. reflexivity.
  Qed.

  Definition exit_inv (s : lll_data) : Prop :=
    (1 <= step s)%nat /\
    (forall k, (1 <= k)%nat -> (k < step s)%nat -> (k < nr s)%nat -> lovasz_ok L s k = Some true) /\
    (forall i k, (i < k)%nat -> (k < step s)%nat -> (k < nr s)%nat -> lsize_ok L (lam s k i) (dt s i) = true).

  Lemma lll_iterate_exit_inv s s' : exit_inv s -> lll_iterate L s = Some s' -> exit_inv s'.
  Proof.
    intros (Hst & Hlov & Hsz). cbv beta zeta delta [lll_iterate]. set (k := step s) in *.
    destruct (reduce L s (k - 1) k) as [s1|] eqn:E1; [|discriminate]. cbn [obind].
    apply reduce_frame in E1. destruct E1 as (_ & Hk & Hn1 & Hs1 & Hd1 & Hf1 & Hz1).
    destruct (lovasz_ok L s1 k) as [[|]|] eqn:Elov; [| |discriminate]; cbn [obind].
    - destruct (ofold _ _ s1) as [s2|] eqn:E2; [|discriminate]. cbn [obind].
      intros H. injection H as <-.
      apply reduce_down in E2; [|lia]. destruct E2 as (Hn2 & Hs2 & Hd2 & Hf2 & Hz2).
      rewrite Hn1 in *. rewrite Hd1 in *.
      unfold exit_inv. cbn [next with_step step nr det lambda].
      rewrite Hs2, Hs1. fold k. split; [lia|]. split.
      + intros k' H1 H2 H3. rewrite Hn2 in H3.
        change (lovasz_ok L (next s2) k') with (lovasz_ok L s2 k').
        destruct (Nat.eq_dec k' k) as [->|Hne].
        * rewrite <- Elov. apply lovasz_ok_ext; [congruence|intros; now rewrite Hd2, ?Hd1|].
          apply Hf2; lia.
        * rewrite <- (Hlov k') by lia. apply lovasz_ok_ext; [congruence|intros; now rewrite Hd2, ?Hd1|].
          rewrite Hf2 by lia. apply Hf1; lia.
      + intros i k' H1 H2 H3. rewrite Hn2 in H3. rewrite Hd2.
        destruct (Nat.eq_dec k' k) as [->|Hne].
        * destruct (Nat.eq_dec i (k - 1)) as [->|Hi].
          -- rewrite Hf2 by lia. exact Hz1.
          -- apply Hz2. lia.
        * rewrite Hf2 by lia. rewrite Hf1 by lia. apply Hsz; lia.
    - destruct (swap L s1 k) as [s2|] eqn:E2; [|discriminate]. cbn [obind].
      intros H. injection H as <-.
      apply swap_frame in E2. destruct E2 as (_ & _ & Hn2 & Hs2 & Hd2 & Hf2).
      rewrite Hn1 in *. rewrite Hd1 in *.
      unfold back. rewrite Hs2, Hs1. fold k.
      destruct (Nat.ltb_spec 1 k) as [Hk1|Hk1].
      + unfold exit_inv. cbn [with_step step nr det lambda]. split; [lia|]. split.
        * intros k' H1 H2 H3. rewrite Hn2 in H3.
          change (lovasz_ok L (with_step s2 (k - 1)) k') with (lovasz_ok L s2 k').
          rewrite <- (Hlov k') by lia. apply lovasz_ok_ext; [congruence| |].
          -- intros j Hj. apply Hd2; lia.
          -- rewrite Hf2 by lia. apply Hf1; lia.
        * intros i k' H1 H2 H3. rewrite Hn2 in H3.
          rewrite Hd2 by lia. rewrite Hf2 by lia. rewrite Hf1 by lia. apply Hsz; lia.
      + unfold exit_inv. rewrite Hs2, Hs1. fold k. split; [lia|]. split; intros; lia.
  Qed.

  Lemma lll_loop_exit_inv fuel s s' : exit_inv s -> lll_loop L fuel s = Some s' ->
    exit_inv s' /\ (nr s' <= step s')%nat.
  Proof. rewrite lll_loop_eq. apply loop_with_inv. exact lll_iterate_exit_inv. Qed.

  Lemma setup_step s s' : setup L s = Some s' -> step s' = step s.
  Proof.
    cbv beta zeta delta [setup]. destruct (orthogonalize L _) as [[[c l] d]|]; [|discriminate].
    cbn [obind]. intros H. injection H as <-. reflexivity.
  Qed.

  Theorem lll_exit A fl fuel s : lll_run L A fl fuel = Some s ->
    (forall k, (1 <= k)%nat -> (k < nr s)%nat -> lovasz_ok L s k = Some true) /\
    (forall i k, (i < k)%nat -> (k < nr s)%nat -> lsize_ok L (mget L (lambda s) k i) (vget L (det s) i) = true).
  Proof.
    unfold lll_run. destruct (setup L _) as [s1|] eqn:E; [|discriminate]. cbn [obind].
    intros H. apply lll_loop_exit_inv in H.
    - destruct H as ((_ & Hlov & Hsz) & Hexit). split.
      + intros k H1 H2. apply Hlov; lia.
      + intros i k H1 H2. rewrite mget_eq. apply Hsz; lia.
    - apply setup_step in E. unfold exit_inv. rewrite E. cbn [data_new step].
      split; [lia|]. split; intros; lia.
  Qed.
End Exit.
