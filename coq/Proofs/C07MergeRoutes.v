(* C07, composition of coordinate maps, part 4: the three ways of obtaining the homology summand of a complex whose
   summands carry coordinate maps agree:
     ChainComplexBase::homology_at                    (c.trans().merged(h.trans()), not reduced)       [b_homology_at]
     s = c[i].clone(); s.merge(h)                     (Summand::merge: merge + reduce)                 [b_homology_merge]
     s = from_raw_gens(..); s.merge(c[i]); s.merge(h) (merge of an already merged summand)             [b_homology_merge_twice]
   one returns a summand iff the others do, with the same rank and torsion, and vectorize / devectorize / gen agree on
   every input. *)
From Coq Require Import ZArith Arith List Lia Ring Bool.
Require Import Yui.Base.Ring Yui.Base.MatF Yui.Base.MatL Yui.Model.HomologyCalc Yui.Model.HomologyMerge.
Require Import Yui.Proofs.C07Calc Yui.Proofs.C07MergeTrans Yui.Proofs.C07Merge Yui.Proofs.C07MergeComplex.
Import ListNotations.

Section C07MergeRoutes.
  Context {R : Type} (o : ring_ops R) (L : ring_laws o).
  Variable isu : R -> bool.
  Variable snf : dmat R -> bool -> bool -> bool -> bool -> option (snf_result R).

  Lemma b_compute_ok C i h : b_compute_homology_at o isu snf C i = Some h -> summand_ok h.
  Proof.
    unfold b_compute_homology_at. intros E. inv_bind E. inv_bind E. inv_bind E.
    destruct p as [[rank tors] tr].
    destruct (calculate_true_some o isu snf _ _ _ _ _ E2) as [t ->].
    pose proof (calculate_trans_ok o isu snf _ _ _ _ _ _ E2) as Okt.
    exact (proj1 (summand_generate_ok _ _ _ _ E Okt)).
  Qed.

  (* same rank / torsion / generators and the same action on every input *)
  Definition summand_equiv (a b : summand R) : Prop :=
    s_ngens a = s_ngens b /\ s_rank a = s_rank b /\ s_tors a = s_tors b /\
    (forall z, vectorize o a z = vectorize o b z) /\
    (forall v, devectorize o a v = devectorize o b v) /\
    (forall k, gen o a k = gen o b k).

  Lemma summand_equiv_of_parts a b :
    s_ngens a = s_ngens b -> s_rank a = s_rank b -> s_tors a = s_tors b ->
    (forall z, forward o (s_trans a) z = forward o (s_trans b) z) ->
    (forall v, backward o (s_trans a) v = backward o (s_trans b) v) ->
    summand_equiv a b.
  Proof.
    intros N1 N2 N3 HF HB. unfold summand_equiv.
    assert (Hdev : forall v, devectorize o a v = devectorize o b v).
    { intros v. unfold devectorize, s_dim. rewrite N2, N3, HB. reflexivity. }
    split; [exact N1|]. split; [exact N2|]. split; [exact N3|]. split; [|split].
    - intros z. unfold vectorize. rewrite N1, HF. reflexivity.
    - exact Hdev.
    - intros k. unfold gen, s_dim. rewrite N2, N3. destruct (unit_vec o _ k); cbn [obind]; [apply Hdev|reflexivity].
  Qed.

  Theorem b_routes_agree C i :
    bc_ok C i ->
    (forall hl, b_homology_at o isu snf C i = Some hl ->
       exists hm, b_homology_merge o isu snf C i = Some hm /\ summand_equiv hm hl) /\
    (forall hm, b_homology_merge o isu snf C i = Some hm ->
       exists hl, b_homology_at o isu snf C i = Some hl /\ summand_equiv hm hl).
  Proof.
    intros [[S1 [S2 S3]] _]. unfold b_homology_at, b_homology_merge.
    destruct (b_compute_homology_at o isu snf C i) as [h|] eqn:Eh; cbn [obind]; [|split; intros x Hx; discriminate].
    pose proof (b_compute_ok C i h Eh) as [H1 [H2 H3]].
    set (c := b_get C i) in *.
    unfold summand_merge, trans_merge.
    destruct (Nat.eqb_spec (tgt_dim (s_trans c)) (src_dim (s_trans h))) as [G|G].
    - destruct (trans_merged_spec o L _ _ S3 H3 G) as [tm [Etm [Okm [M1 [M2 _]]]]].
      rewrite Etm. cbn [obind].
      destruct (trans_reduce_spec o L tm Okm) as [t' [Et' [Ok' [T1 [T2 _]]]]].
      rewrite Et'. cbn [obind].
      assert (Enew : summand_new (s_ngens c) (s_rank h) (s_tors h) tm
                     = Some (mk_summand (s_ngens c) (s_rank h) (s_tors h) tm)).
      { unfold summand_new. rewrite M1, M2, S1, H2. unfold s_dim. now rewrite !Nat.eqb_refl. }
      rewrite Enew.
      assert (Q : summand_equiv (mk_summand (s_ngens c) (s_rank h) (s_tors h) t')
                                (mk_summand (s_ngens c) (s_rank h) (s_tors h) tm)).
      { apply summand_equiv_of_parts; try reflexivity; cbn [s_trans].
        - exact (trans_reduce_forward o L tm t' Okm Et').
        - exact (trans_reduce_backward o L tm t' Okm Et'). }
      split; intros x Hx; injection Hx as <-; eexists; (split; [reflexivity|exact Q]).
    - rewrite (trans_merged_none _ _ G). cbn [obind]. split; intros x Hx; discriminate.
  Qed.

  Lemma vectorize_free n z : vectorize o (@summand_free R n) z = if length z =? n then Some z else None.
  Proof.
    unfold vectorize, summand_free, forward, trans_id. cbn [s_ngens s_trans src_dim f_mats ofold_vec].
    destruct (length z =? n); reflexivity.
  Qed.

  Lemma devectorize_free n v : devectorize o (@summand_free R n) v = if length v =? n then Some v else None.
  Proof.
    unfold devectorize, summand_free, backward, trans_id, s_dim.
    cbn [s_rank s_tors s_trans tgt_dim b_mats rev ofold_vec length]. rewrite Nat.add_0_r.
    destruct (length v =? n); reflexivity.
  Qed.

  Theorem b_merge_twice_agree C i :
    bc_ok C i ->
    (forall hm, b_homology_merge o isu snf C i = Some hm ->
       exists ht, b_homology_merge_twice o isu snf C i = Some ht /\ summand_equiv ht hm) /\
    (forall ht, b_homology_merge_twice o isu snf C i = Some ht ->
       exists hm, b_homology_merge o isu snf C i = Some hm /\ summand_equiv ht hm).
  Proof.
    intros [Okc _]. unfold b_homology_merge, b_homology_merge_twice.
    destruct (b_compute_homology_at o isu snf C i) as [h|] eqn:Eh; cbn [obind]; [|split; intros x Hx; discriminate].
    pose proof (b_compute_ok C i h Eh) as Okh.
    set (c := b_get C i) in *.
    pose proof (summand_free_ok (R := R) (s_ngens c)) as Okf.
    assert (Hfc : s_dim (@summand_free R (s_ngens c)) = s_ngens c).
    { unfold s_dim, summand_free. cbn. lia. }
    destruct (summand_merge_spec o L _ c Okf Okc Hfc) as [s1 [E1 [Ok1 [A1 [A2 [A3 _]]]]]].
    rewrite E1. cbn [obind].
    assert (D1 : s_dim s1 = s_dim c) by (unfold s_dim; congruence).
    (* s1 acts as c *)
    assert (V1 : forall z, vectorize o s1 z = vectorize o c z).
    { intros z. rewrite (merge_vectorize o L _ c s1 Okf Okc E1 z). rewrite vectorize_free.
      destruct (Nat.eqb_spec (length z) (s_ngens c)) as [Hz|Hz]; cbn [obind]; [reflexivity|].
      unfold vectorize. apply Nat.eqb_neq in Hz. now rewrite Hz. }
    assert (W1 : forall v, devectorize o s1 v = devectorize o c v).
    { intros v. rewrite (merge_devectorize o L _ c s1 Okf Okc E1 v).
      destruct (devectorize o c v) as [y|] eqn:Ey; cbn [obind]; [|reflexivity].
      rewrite devectorize_free.
      assert (Hy : length y = s_ngens c).
      { unfold devectorize in Ey. destruct (length v =? s_dim c); [|discriminate].
        destruct Okc as [C1 [C2 C3]]. destruct (backward_inv o L _ _ _ C3 Ey) as [_ [Y _]]. congruence. }
      rewrite Hy, Nat.eqb_refl. reflexivity. }
    destruct (Nat.eq_dec (s_dim c) (s_ngens h)) as [G|G].
    - destruct (summand_merge_spec o L c h Okc Okh G) as [hm [Em [Okm [B1 [B2 [B3 _]]]]]].
      assert (G' : s_dim s1 = s_ngens h) by congruence.
      destruct (summand_merge_spec o L s1 h Ok1 Okh G') as [ht [Et [Okt [C1 [C2 [C3 _]]]]]].
      rewrite Em, Et.
      assert (Q : summand_equiv ht hm).
      { unfold summand_equiv. split; [unfold summand_free in A1; cbn in A1; congruence|].
        split; [congruence|]. split; [congruence|]. split; [|split].
        - intros z. rewrite (merge_vectorize o L s1 h ht Ok1 Okh Et z), (merge_vectorize o L c h hm Okc Okh Em z).
          now rewrite V1.
        - intros v. rewrite (merge_devectorize o L s1 h ht Ok1 Okh Et v), (merge_devectorize o L c h hm Okc Okh Em v).
          destruct (devectorize o h v); cbn [obind]; [apply W1|reflexivity].
        - intros k. rewrite (merge_gen o L s1 h ht Ok1 Okh Et k), (merge_gen o L c h hm Okc Okh Em k).
          destruct (gen o h k); cbn [obind]; [apply W1|reflexivity]. }
      split; intros x Hx; injection Hx as <-; eexists; (split; [reflexivity|exact Q]).
    - rewrite (summand_merge_none o c h Okc Okh G).
      assert (G' : s_dim s1 <> s_ngens h) by congruence.
      rewrite (summand_merge_none o s1 h Ok1 Okh G').
      split; intros x Hx; discriminate.
  Qed.
End C07MergeRoutes.
