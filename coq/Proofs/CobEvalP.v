(* Proofs about Model/CobEval.v (mirror of CobComp::part_eval / eval, Cob::eval, Cob::part_eval of
   yui-khovanov/src/kh/internal/v2/cob.rs):
     - the recursion is natural in the coefficient module (pe_hom),
     - computed in the Frobenius algebra A = Z[X]/(X^2 - hX - t) of KhAlg.v with the leaves 1, X, Y = X - h it
       returns  Hd^g X^x Y^y,  Hd = 2X - h = X + Y  ([pe_alg], lemma pe_alg_closed_form),
     - hence the closed evaluation is eps(Hd^g X^x Y^y) and the open evaluation (a,b,c) satisfies
       a + bX + cY = Hd^g X^x Y^y,
     - the literal fuel transcription of the Rust match agrees with the structural recursion,
     - soundness of the shortcuts is_zero_cob / is_unit_cob / should_part_eval, products,
     - special values (sphere, dotted sphere, torus, odd genus), CobComp::deg on closed components, the delooping
       maps and neck cutting Delta(1) = X (x) 1 + 1 (x) Y. *)
From Coq Require Import List Arith Bool ZArith Lia Ring Permutation.
Require Import Yui.Model.KhCheck Yui.Model.CobEval Yui.Proofs.KhAlg.
Import ListNotations.
Open Scope Z_scope.

Lemma nat_ind2 (P : nat -> Prop) :
  P O -> P 1%nat -> (forall n, P n -> P (S n) -> P (S (S n))) -> forall n, P n.
Proof.
  intros H0 H1 HS n. assert (H : P n /\ P (S n)); [|exact (proj1 H)].
  induction n as [|n [IHa IHb]]; split; auto.
Qed.

Lemma pe_x_SS {K V} vadd vscale (l00 l10 : V) (h t : K) n :
  pe_x vadd vscale l00 l10 h t (S (S n))
  = vadd (vscale h (pe_x vadd vscale l00 l10 h t (S n))) (vscale t (pe_x vadd vscale l00 l10 h t n)).
Proof. reflexivity. Qed.

(* the y-arm is the x-arm with -h for h and the leaf c_(0,1) for c_(1,0) *)
Lemma pe_y_as_pe_x {K V} (sneg : K -> K) vadd vscale (l00 l01 : V) h t y :
  pe_y sneg vadd vscale l00 l01 h t y = pe_x vadd vscale l00 l01 (sneg h) t y.
Proof.
  induction y as [| |n IH0 IH1] using nat_ind2; [reflexivity|reflexivity|].
  change (pe_y sneg vadd vscale l00 l01 h t (S (S n)))
    with (vadd (vscale (sneg h) (pe_y sneg vadd vscale l00 l01 h t (S n))) (vscale t (pe_y sneg vadd vscale l00 l01 h t n))).
  rewrite pe_x_SS, IH0, IH1. reflexivity.
Qed.

Section Hom.
  Context {K V K' V' : Type}.
  Variable sneg : K -> K.
  Variable vadd : V -> V -> V.
  Variable vscale : K -> V -> V.
  Variable sneg' : K' -> K'.
  Variable vadd' : V' -> V' -> V'.
  Variable vscale' : K' -> V' -> V'.
  Variable fk : K -> K'.
  Variable fv : V -> V'.
  Hypothesis Hneg : forall c, fk (sneg c) = sneg' (fk c).
  Hypothesis Hadd : forall u v, fv (vadd u v) = vadd' (fv u) (fv v).
  Hypothesis Hscale : forall c u, fv (vscale c u) = vscale' (fk c) (fv u).
  Variables l00 l10 l01 : V.
  Variables h t : K.

  Lemma pe_x_hom l1 h0 x :
    fv (pe_x vadd vscale l00 l1 h0 t x) = pe_x vadd' vscale' (fv l00) (fv l1) (fk h0) (fk t) x.
  Proof.
    induction x as [| |n IH0 IH1] using nat_ind2; [reflexivity|reflexivity|].
    rewrite !pe_x_SS, Hadd, !Hscale, IH0, IH1. reflexivity.
  Qed.

  Lemma pe_y_hom y :
    fv (pe_y sneg vadd vscale l00 l01 h t y) = pe_y sneg' vadd' vscale' (fv l00) (fv l01) (fk h) (fk t) y.
  Proof. rewrite !pe_y_as_pe_x, <- Hneg. apply pe_x_hom. Qed.

  Lemma pe_0_hom x y :
    fv (pe_0 sneg vadd vscale l00 l10 l01 h t x y)
    = pe_0 sneg' vadd' vscale' (fv l00) (fv l10) (fv l01) (fk h) (fk t) x y.
  Proof.
    revert y. induction x as [|x IH]; intros [|y].
    - reflexivity.
    - apply pe_y_hom.
    - apply (pe_x_hom l10 h).
    - cbn [pe_0]. rewrite Hscale, IH. reflexivity.
  Qed.

  Lemma pe_hom g x y :
    fv (pe sneg vadd vscale l00 l10 l01 h t g x y)
    = pe sneg' vadd' vscale' (fv l00) (fv l10) (fv l01) (fk h) (fk t) g x y.
  Proof.
    revert x y. induction g as [|g IH]; intros x y; cbn [pe].
    - apply pe_0_hom.
    - rewrite Hadd, !IH. reflexivity.
  Qed.
End Hom.

(* unfolding equations of the structural recursion (the arms of the Rust match) *)
Section Eqns.
  Context {K V : Type}.
  Variable sneg : K -> K.
  Variable vadd : V -> V -> V.
  Variable vscale : K -> V -> V.
  Variables l00 l10 l01 : V.
  Variables h t : K.
  Notation PE := (pe sneg vadd vscale l00 l10 l01 h t).

  Lemma pe_neck g x y : PE (S g) x y = vadd (PE g (S x) y) (PE g x (S y)).
  Proof. reflexivity. Qed.
  Lemma pe_xy x y : PE 0 (S x) (S y) = vscale t (PE 0 x y).
  Proof. reflexivity. Qed.
  Lemma pe_0_x0 x : PE 0 x 0 = pe_x vadd vscale l00 l10 h t x.
  Proof. destruct x; reflexivity. Qed.
  Lemma pe_0_0y y : PE 0 0 y = pe_y sneg vadd vscale l00 l01 h t y.
  Proof. destruct y; reflexivity. Qed.
  Lemma pe_xx x : PE 0 (S (S x)) 0 = vadd (vscale h (PE 0 (S x) 0)) (vscale t (PE 0 x 0)).
  Proof. rewrite !pe_0_x0. reflexivity. Qed.
  Lemma pe_yy y : PE 0 0 (S (S y)) = vadd (vscale (sneg h) (PE 0 0 (S y))) (vscale t (PE 0 0 y)).
  Proof. rewrite !pe_0_0y. reflexivity. Qed.
  Lemma pe_10 : PE 0 1 0 = l10.
  Proof. reflexivity. Qed.
  Lemma pe_01 : PE 0 0 1 = l01.
  Proof. reflexivity. Qed.
  Lemma pe_00 : PE 0 0 0 = l00.
  Proof. reflexivity. Qed.

  (* the literal transcription of the Rust match agrees with the structural recursion once the fuel
     exceeds 2g + x + y (each call lowers 2g + x + y) *)
  Lemma pe_fuel_ok fuel : forall g x y, (2 * g + x + y < fuel)%nat ->
    pe_fuel sneg vadd vscale l00 l10 l01 h t fuel g x y = Some (PE g x y).
  Proof.
    induction fuel as [|f IH]; intros g x y Hf; [lia|]. cbn [pe_fuel].
    destruct g as [|g]; [destruct x as [|x], y as [|y]|]; cbn [Nat.ltb Nat.leb Nat.eqb andb Nat.sub].
    - reflexivity.
    - destruct y as [|y]; cbn [Nat.leb Nat.eqb Nat.sub]; [reflexivity|].
      rewrite Nat.sub_0_r, !IH by lia. rewrite pe_yy. reflexivity.
    - destruct x as [|x]; cbn [Nat.leb Nat.eqb Nat.sub]; [reflexivity|].
      rewrite Nat.sub_0_r, !IH by lia. rewrite pe_xx. reflexivity.
    - rewrite !Nat.sub_0_r, IH by lia. rewrite pe_xy. reflexivity.
    - rewrite Nat.sub_0_r, !Nat.add_1_r, !IH by lia. rewrite pe_neck. reflexivity.
  Qed.
End Eqns.

Fixpoint apow (h t : Z) (u : A) (n : nat) : A :=
  match n with O => (1, 0) | S k => mul h t u (apow h t u k) end.

Definition aX : A := (0, 1).                         (* X *)
Definition aY (h : Z) : A := (- h, 1).               (* Y = X - h *)
Definition aHd (h : Z) : A := (- h, 2).              (* handle element 2X - h *)

(* Hd = m(Delta(1)) = X + Y *)
Lemma handle_is_m_comul h t :
  (let '(p, q, r, s) := comul h t (1, 0) in
   a_add (a_add (a_scal p (1, 0)) (a_scal q aX)) (a_add (a_scal r aX) (a_scal s (mul h t aX aX)))) = aHd h.
Proof. unfold comul, aHd, aX, mul, a_add, a_scal. cbn [fst snd]. peq. Qed.
Lemma handle_is_X_plus_Y h : aHd h = a_add aX (aY h).
Proof. unfold aHd, aX, aY, a_add. cbn [fst snd]. peq. Qed.

Lemma mul_XY h t : mul h t aX (aY h) = (t, 0).       (* XY = t *)
Proof. unfold mul, aX, aY. peq. Qed.
Lemma mul_YY h t : mul h t (aY h) (aY h) = a_add (a_scal (- h) (aY h)) (a_scal t (1, 0)).   (* Y^2 = -hY + t *)
Proof. unfold mul, aY, a_add, a_scal. cbn [fst snd]. peq. Qed.
Lemma mul_HdHd h t : mul h t (aHd h) (aHd h) = (h * h + 4 * t, 0).    (* Hd^2 = h^2 + 4t *)
Proof. unfold mul, aHd. peq. Qed.

Definition pe_alg (h t : Z) := pe Z.opp a_add a_scal (1, 0) aX (aY h) h t.

(* an element with u^2 = p u + t: the two-step recursion with coefficients p, t from the leaves 1, u yields its powers *)
Lemma pe_x_pow h t p u x : mul h t u u = a_add (a_scal p u) (a_scal t (1, 0)) ->
  pe_x a_add a_scal (1, 0) u p t x = apow h t u x.
Proof.
  intros Hu. induction x as [| |n IH0 IH1] using nat_ind2; [reflexivity| |].
  - cbn [pe_x apow]. now rewrite mul_comm, mul_one.
  - rewrite pe_x_SS, IH0, IH1. cbn [apow].
    now rewrite <- (mul_assoc h t u u), Hu, mul_add_l, !mul_scal_l, mul_one.
Qed.

Lemma pe_x_alg h t x : pe_x a_add a_scal (1, 0) aX h t x = apow h t aX x.
Proof. apply pe_x_pow. unfold mul, aX, a_add, a_scal. cbn [fst snd]. peq. Qed.

Lemma pe_y_alg h t y : pe_y Z.opp a_add a_scal (1, 0) (aY h) h t y = apow h t (aY h) y.
Proof. rewrite pe_y_as_pe_x. apply pe_x_pow, mul_YY. Qed.

Lemma pe_0_alg h t x y : pe_alg h t 0 x y = mul h t (apow h t aX x) (apow h t (aY h) y).
Proof.
  unfold pe_alg. cbn [pe]. revert y. induction x as [|x IH]; intros [|y].
  - change (apow h t aX 0) with ((1, 0) : A). rewrite mul_one. reflexivity.
  - change (pe_0 Z.opp a_add a_scal (1, 0) aX (aY h) h t 0 (S y)) with (pe_y Z.opp a_add a_scal (1, 0) (aY h) h t (S y)).
    rewrite pe_y_alg. change (apow h t aX 0) with ((1, 0) : A). rewrite mul_one. reflexivity.
  - change (pe_0 Z.opp a_add a_scal (1, 0) aX (aY h) h t (S x) 0) with (pe_x a_add a_scal (1, 0) aX h t (S x)).
    rewrite pe_x_alg. change (apow h t (aY h) 0) with ((1, 0) : A). rewrite mul_comm, mul_one. reflexivity.
  - cbn [pe_0]. rewrite IH. cbn [apow].
    (* X p . Y r = t (p . r) because XY = t (mul_XY), here on coordinates *)
    destruct (apow h t aX x) as [p q], (apow h t (aY h) y) as [r s].
    unfold mul, aX, aY, a_scal. cbn [fst snd]. peq.
Qed.

(* the recursion computes Hd^g X^x Y^y in A: a neck contributes X + Y = Hd *)
Lemma pe_alg_closed_form h t g x y :
  pe_alg h t g x y = mul h t (apow h t (aHd h) g) (mul h t (apow h t aX x) (apow h t (aY h) y)).
Proof.
  revert x y. induction g as [|g IH]; intros x y.
  - rewrite pe_0_alg. change (apow h t (aHd h) 0) with ((1, 0) : A). rewrite mul_one. reflexivity.
  - unfold pe_alg in *. cbn [pe]. rewrite !IH. cbn [apow].
    rewrite (mul_assoc h t aX), (mul_left_comm h t _ (aY h)), <- mul_add_r, <- mul_add_l.
    rewrite <- handle_is_X_plus_Y, <- mul_assoc, (mul_comm h t _ (aHd h)). reflexivity.
Qed.

(* a 1 + b X + c Y *)
Definition den3 (h : Z) (u : lc3) : A := let '(a, b, c) := u in (a - h * c, b + c).
Lemma den3_add h u v : den3 h (add3 u v) = a_add (den3 h u) (den3 h v).
Proof. destruct u as [[a b] c], v as [[a' b'] c']. unfold den3, add3, a_add. cbn [fst snd]. peq. Qed.
Lemma den3_scal h k u : den3 h (scale3 k u) = a_scal k (den3 h u).
Proof. destruct u as [[a b] c]. unfold den3, scale3, a_scal. cbn [fst snd]. peq. Qed.
Lemma den3_spec h u :
  den3 h u = a_add (a_scal (fst (fst u)) (1, 0)) (a_add (a_scal (snd (fst u)) aX) (a_scal (snd u) (aY h))).
Proof. destruct u as [[a b] c]. unfold den3, a_add, a_scal, aX, aY. cbn [fst snd]. peq. Qed.

(* closing an open result: c_(0,0) -> sphere = 0, c_(1,0), c_(0,1) -> dotted sphere = 1 *)
Definition close3 (u : lc3) : Z := let '(a, b, c) := u in b + c.
Lemma close3_add u v : close3 (add3 u v) = close3 u + close3 v.
Proof. destruct u as [[a b] c], v as [[a' b'] c']. unfold close3, add3. ring. Qed.
Lemma close3_scal k u : close3 (scale3 k u) = k * close3 u.
Proof. destruct u as [[a b] c]. unfold close3, scale3. ring. Qed.

Theorem eval_closed_formula g x y h t :
  eval_closed g x y h t
  = eps (mul h t (apow h t (aHd h) g) (mul h t (apow h t aX x) (apow h t (aY h) y))).
Proof.
  rewrite <- pe_alg_closed_form. unfold pe_alg, eval_closed.
  rewrite (pe_hom Z.opp a_add a_scal Z.opp Z.add Z.mul (fun c => c) eps
             (fun _ => eq_refl) eps_add eps_scal).
  reflexivity.
Qed.

Theorem part_eval_open_formula g x y h t :
  den3 h (part_eval_open g x y h t)
  = mul h t (apow h t (aHd h) g) (mul h t (apow h t aX x) (apow h t (aY h) y)).
Proof.
  rewrite <- pe_alg_closed_form. unfold pe_alg, part_eval_open.
  rewrite (pe_hom Z.opp add3 scale3 Z.opp a_add a_scal (fun c => c) (den3 h)
             (fun _ => eq_refl) (den3_add h) (den3_scal h)).
  unfold den3, aX, aY. replace (1 - h * 0) with 1 by ring. replace (0 - h * 0) with 0 by ring.
  replace (0 - h * 1) with (- h) by ring. reflexivity.
Qed.

(* capping off the boundary of an open component gives the closed value *)
Theorem eval_closed_of_open g x y h t : eval_closed g x y h t = close3 (part_eval_open g x y h t).
Proof.
  unfold eval_closed, part_eval_open.
  rewrite (pe_hom Z.opp add3 scale3 Z.opp Z.add Z.mul (fun c => c) close3
             (fun _ => eq_refl) close3_add close3_scal).
  reflexivity.
Qed.

Theorem eval_closed_fuel_ok fuel g x y h t : (2 * g + x + y < fuel)%nat ->
  eval_closed_fuel fuel g x y h t = Some (eval_closed g x y h t).
Proof. apply pe_fuel_ok. Qed.
Theorem part_eval_open_fuel_ok fuel g x y h t : (2 * g + x + y < fuel)%nat ->
  part_eval_open_fuel fuel g x y h t = Some (part_eval_open g x y h t).
Proof. apply pe_fuel_ok. Qed.

Lemma eval_sphere h t : eval_closed 0 0 0 h t = 0.
Proof. reflexivity. Qed.
Lemma eval_dotted_sphere_X h t : eval_closed 0 1 0 h t = 1.
Proof. reflexivity. Qed.
Lemma eval_dotted_sphere_Y h t : eval_closed 0 0 1 h t = 1.
Proof. reflexivity. Qed.
Lemma eval_torus h t : eval_closed 1 0 0 h t = 2.
Proof. reflexivity. Qed.
Lemma eval_genus2 h t : eval_closed 2 0 0 h t = 0.
Proof. unfold eval_closed. cbn [pe pe_0 pe_x pe_y]. ring. Qed.
Lemma eval_genus3 h t : eval_closed 3 0 0 h t = 2 * (h * h + 4 * t).
Proof. unfold eval_closed. cbn [pe pe_0 pe_x pe_y]. ring. Qed.

(* two handles are the scalar h^2 + 4t *)
Theorem eval_closed_two_handles g x y h t :
  eval_closed (S (S g)) x y h t = (h * h + 4 * t) * eval_closed g x y h t.
Proof.
  rewrite !eval_closed_formula. cbn [apow].
  set (P := apow h t (aHd h) g). set (W := mul h t (apow h t aX x) (apow h t (aY h) y)).
  rewrite <- (mul_assoc h t (aHd h) (aHd h) P), mul_HdHd.
  rewrite (mul_assoc h t _ P W). destruct (mul h t P W) as [a b].
  unfold mul, eps. cbn [snd]. ring.
Qed.

Lemma eval_closed_0_diag x h t : eval_closed 0 x x h t = 0.
Proof.
  unfold eval_closed. cbn [pe]. induction x as [|x IH]; [reflexivity|].
  cbn [pe_0]. rewrite IH. ring.
Qed.

Lemma even_half n : (n mod 2 =? 0)%nat = true -> exists k, n = (2 * k)%nat.
Proof.
  intros H. apply Nat.eqb_eq in H. exists (n / 2)%nat.
  pose proof (Nat.div_mod n 2 ltac:(lia)). lia.
Qed.

(* even genus and as many X as Y dots: by eval_closed_two_handles down to the diagonal of genus 0 *)
Theorem zero_cob_eval c h t : is_zero_cob c = true -> comp_eval h t c = 0.
Proof.
  destruct c as [g x y]. unfold is_zero_cob, comp_eval. cbn [cc_g cc_x cc_y].
  rewrite andb_true_iff. intros [Hg Hxy]. apply Nat.eqb_eq in Hxy. subst y.
  destruct (even_half g Hg) as [k ->]. clear Hg.
  induction k as [|k IH]; [apply eval_closed_0_diag|].
  replace (2 * S k)%nat with (S (S (2 * k))) by lia. rewrite eval_closed_two_handles, IH. ring.
Qed.

Theorem unit_cob_eval c h t : is_unit_cob c = true -> comp_eval h t c = 1.
Proof.
  destruct c as [g x y]. unfold is_unit_cob, comp_eval. cbn [cc_g cc_x cc_y].
  rewrite andb_true_iff, orb_true_iff, !andb_true_iff, !Nat.eqb_eq.
  intros [-> [[-> ->]|[-> ->]]]; reflexivity.
Qed.

(* odd genus without dots: 2 (h^2 + 4t)^k *)
Theorem eval_closed_odd_genus k h t : eval_closed (2 * k + 1) 0 0 h t = 2 * zpow (h * h + 4 * t) k.
Proof.
  induction k as [|k IH]; [reflexivity|].
  replace (2 * S k + 1)%nat with (S (S (2 * k + 1))) by lia.
  rewrite eval_closed_two_handles, IH. cbn [zpow]. ring.
Qed.

Lemma should_part_eval_closed c : should_part_eval c = true.
Proof.
  destruct c as [[|g] x y]; unfold should_part_eval, should_part_eval_gen; cbn [cc_g cc_x cc_y].
  - destruct x as [|[|x]], y as [|[|y]]; try reflexivity.
    cbn [Nat.leb andb]. rewrite !orb_true_r. reflexivity.
  - change (0 <? S g)%nat with true. rewrite orb_true_r. reflexivity.
Qed.

(* where should_part_eval is false (open component: is_zero_cob = is_unit_cob = false) part_eval is the identity *)
Theorem part_eval_open_noop g x y h t : should_part_eval_gen false false g x y = false ->
  part_eval_open g x y h t
  = (if (x =? 1)%nat then (0, 1, 0) else if (y =? 1)%nat then (0, 0, 1) else (1, 0, 0))
  /\ (x + y <= 1)%nat /\ g = O.
Proof.
  unfold should_part_eval_gen. cbn [orb].
  destruct g as [|g]; [|discriminate].
  destruct x as [|[|x]], y as [|[|y]]; try discriminate; intros _; repeat split; repeat constructor.
Qed.

Lemma fold_mul_acc h t cs a :
  fold_left (fun acc c => acc * comp_eval h t c) cs a = a * cob_eval h t cs.
Proof.
  unfold cob_eval. revert a. induction cs as [|c cs IH]; intros a; cbn [fold_left]; [ring|].
  rewrite IH, (IH (1 * _)). ring.
Qed.

Lemma cob_eval_nil h t : cob_eval h t [] = 1.
Proof. reflexivity. Qed.
Lemma cob_eval_cons h t c cs : cob_eval h t (c :: cs) = comp_eval h t c * cob_eval h t cs.
Proof. unfold cob_eval at 1. cbn [fold_left]. rewrite fold_mul_acc. ring. Qed.
Lemma cob_eval_single h t c : cob_eval h t [c] = comp_eval h t c.
Proof. rewrite cob_eval_cons, cob_eval_nil. ring. Qed.

Theorem cob_eval_app h t cs1 cs2 : cob_eval h t (cs1 ++ cs2) = cob_eval h t cs1 * cob_eval h t cs2.
Proof.
  induction cs1 as [|c cs IH]; cbn [app]; [rewrite cob_eval_nil; ring|].
  rewrite !cob_eval_cons, IH. ring.
Qed.

(* Cob::new sorts the components: the value does not depend on their order *)
Theorem cob_eval_perm h t cs cs' : Permutation cs cs' -> cob_eval h t cs = cob_eval h t cs'.
Proof.
  induction 1 as [|c l l' _ IH|c d l|l l' l'' _ IH1 _ IH2].
  - reflexivity.
  - rewrite !cob_eval_cons, IH. reflexivity.
  - rewrite !cob_eval_cons. ring.
  - congruence.
Qed.

Lemma cob_eval_zero h t cs : existsb is_zero_cob cs = true -> cob_eval h t cs = 0.
Proof.
  induction cs as [|c cs IH]; [discriminate|]. cbn [existsb]. rewrite cob_eval_cons.
  destruct (is_zero_cob c) eqn:Ez; cbn [orb].
  - intros _. rewrite (zero_cob_eval c h t Ez). ring.
  - intros H. rewrite (IH H). ring.
Qed.

(* Cob::part_eval on a cobordism of closed components = Cob::eval (times the empty cobordism) *)
Theorem cob_part_eval_eq h t cs : cob_part_eval h t cs = cob_eval h t cs.
Proof.
  unfold cob_part_eval. destruct (existsb is_zero_cob cs) eqn:Ez.
  - symmetry. apply cob_eval_zero. exact Ez.
  - destruct cs as [|c cs]; [reflexivity|].
    cbn [existsb]. rewrite should_part_eval_closed. reflexivity.
Qed.

Lemma cob_deg_acc cs a : fold_left (fun acc c => acc + deg c) cs a = a + cob_deg cs.
Proof.
  unfold cob_deg. revert a. induction cs as [|c cs IH]; intros a; cbn [fold_left]; [ring|].
  rewrite IH, (IH (0 + _)). ring.
Qed.
Lemma cob_deg_cons c cs : cob_deg (c :: cs) = deg c + cob_deg cs.
Proof. unfold cob_deg at 1. cbn [fold_left]. rewrite cob_deg_acc. ring. Qed.

Lemma deg_closed c : deg c = 2 - 2 * Z.of_nat (cc_g c) - 2 * Z.of_nat (cc_x c) - 2 * Z.of_nat (cc_y c).
Proof. unfold deg, euler_num. rewrite Nat2Z.inj_add. change (0 / 2) with 0. ring. Qed.

(* delooping (tng_complex.rs: deloop / deloop_with).
   A circle is replaced by two copies of the circle-free object: towards the X-labelled copy incoming
   cobordisms are capped with dot None and outgoing ones are cupped with dot X; towards the 1-labelled copy
   incoming ones are capped with dot Y and outgoing ones cupped with dot None.  In A:
       to   : a |-> (eps a, eps (Y a))             from : (p, q) |-> p X + q 1
   and both composites are the identity, for all h, t. *)
Definition deloop_to (h t : Z) (a : A) : Z * Z := (eps a, eps (mul h t (aY h) a)).
Definition deloop_from (pq : Z * Z) : A := a_add (a_scal (fst pq) aX) (a_scal (snd pq) (1, 0)).

Theorem deloop_from_to h t a : deloop_from (deloop_to h t a) = a.
Proof. destruct a as [a b]. unfold deloop_from, deloop_to, eps, mul, aX, aY, a_add, a_scal. cbn [fst snd]. peq. Qed.
Theorem deloop_to_from h t pq : deloop_to h t (deloop_from pq) = pq.
Proof. destruct pq as [p q]. unfold deloop_from, deloop_to, eps, mul, aX, aY, a_add, a_scal. cbn [fst snd]. peq. Qed.

(* neck cutting: Delta(1) = X (x) 1 + 1 (x) Y *)
Theorem neck_cutting h t :
  comul h t (1, 0) = aa_add (basis2 true false) (aa_add (aa_scal (- h) (basis2 false false)) (basis2 false true)).
Proof. cbv beta iota delta [comul aa_add aa_scal basis2]. peq. Qed.
