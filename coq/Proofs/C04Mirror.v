(* C04 - the mirror rule: jones_model (mirror l) = jones_model l [q -> q^-1], for every diagram, as options
   (the two sides panic on the same inputs).
   1. the substitution q -> q^-1 ([pinv]) on canonical Laurent polynomials: coefficient semantics, canonical
      forms are preserved, ring homomorphism (padd, pmul, ppow, constants, monomials), involution;
   2. Model/Link.v: resolving the mirror diagram by a state s = mirror of resolving the diagram by the
      complemented state; components do not see the crossing types X / Xm; hence
      circles (mirror l) s = circles l (map negb s);
   3. the state sum: coefficientwise description of jones_body, reindexing of the sum over all_states n by
      complementation, exponent / sign bookkeeping. *)
From Coq Require Import List Arith Bool ZArith Lia.
Require Import Yui.Model.Link Yui.Model.Jones Yui.Proofs.C04Poly Yui.Proofs.C04Euler.
Require Import Yui.Proofs.C18Base Yui.Proofs.C18Signs Yui.Proofs.C18Resolve Yui.Proofs.C18Main.
Import ListNotations.
Local Open Scope Z_scope.

Lemma zsum_rev : forall A (f : A -> Z) l, zsum f (rev l) = zsum f l.
Proof. induction l as [|a l IH]; auto. cbn [rev]. rewrite zsum_app, IH, !zsum_cons, zsum_nil. lia. Qed.

Lemma pinv_cons : forall t p, pinv (t :: p) = pinv p ++ [(- fst t, snd t)].
Proof. reflexivity. Qed.

Lemma zsum_pinv : forall (f : Z * Z -> Z) p, zsum f (pinv p) = zsum (fun t => f (- fst t, snd t)) p.
Proof. intros. unfold pinv. rewrite zsum_rev, zsum_map. reflexivity. Qed.

(* coefficient semantics: the coefficient of q^e in p(q^-1) is the coefficient of q^-e in p *)
Lemma coeff_pinv : forall p e, coeff (pinv p) e = coeff p (- e).
Proof.
  intros. unfold pinv, coeff. rewrite zsum_rev, zsum_map. apply zsum_ext. intros [e1 c1] _. cbn [fst snd].
  destruct (Z.eqb_spec (- e1) e); destruct (Z.eqb_spec e1 (- e)); lia.
Qed.

Lemma canon_from_snoc : forall p lo e c, canon_from lo p -> (forall t, In t p -> fst t < e) -> lo < e -> c <> 0 ->
  canon_from lo (p ++ [(e, c)]).
Proof.
  induction p as [|[e1 c1] r IH]; intros lo e c Hp Hlt Hlo Hc; cbn [app canon_from]; auto.
  cbn in Hp. destruct Hp as (A & B & C). repeat split; auto. apply IH; auto.
  - intros t Ht. apply Hlt. cbn; auto.
  - apply (Hlt (e1, c1)). cbn; auto.
Qed.

Lemma pinv_canon_from : forall p lo, canon_from lo p ->
  exists lo', canon_from lo' (pinv p) /\ forall t, In t (pinv p) -> fst t < - lo.
Proof.
  induction p as [|[e c] r IH]; intros lo Hp.
  - exists 0. split; [exact I|intros t []].
  - cbn in Hp. destruct Hp as (A & B & C). destruct (IH e C) as (lo' & H1 & H2).
    rewrite pinv_cons. cbn [fst snd]. exists (Z.min lo' (- e - 1)). split.
    + apply canon_from_snoc; auto; [|lia]. eapply canon_from_weaken; [|exact H1]. lia.
    + intros t Ht. apply in_app_iff in Ht. destruct Ht as [Ht|[<-|[]]]; [apply H2 in Ht; lia|cbn; lia].
Qed.

(* canonical forms are preserved: no re-canonicalisation is needed *)
Theorem pinv_canon : forall p, canon p -> canon (pinv p).
Proof. intros p [lo H]. destruct (pinv_canon_from p lo H) as (lo' & H' & _). exists lo'. exact H'. Qed.

Theorem pinv_involutive : forall p, pinv (pinv p) = p.
Proof.
  intros. unfold pinv. rewrite map_rev, rev_involutive, map_map. rewrite <- (map_id p) at 2.
  apply map_ext. intros [e c]. cbn [fst snd]. f_equal. lia.
Qed.

(* pinv is a ring homomorphism (for padd: second argument canonical) *)
Theorem pinv_padd : forall p q, canon q -> pinv (padd p q) = padd (pinv p) (pinv q).
Proof.
  intros p q Hq. apply canon_ext.
  - apply pinv_canon, padd_canon, Hq.
  - apply padd_canon, pinv_canon, Hq.
  - intros e. rewrite coeff_pinv, !coeff_padd, !coeff_pinv. reflexivity.
Qed.
Theorem pinv_pmul : forall p q, pinv (pmul p q) = pmul (pinv p) (pinv q).
Proof.
  intros p q. apply canon_ext.
  - apply pinv_canon, pmul_canon.
  - apply pmul_canon.
  - intros e. rewrite coeff_pinv, !coeff_pmul, zsum_pinv.
    apply zsum_ext. intros [e1 c1] _. cbn [fst snd]. rewrite coeff_pinv. do 2 f_equal. lia.
Qed.
Lemma pinv_pone : pinv pone = pone.
Proof. reflexivity. Qed.
Lemma pinv_nil : pinv [] = [].
Proof. reflexivity. Qed.
Lemma pinv_pconst : forall c, pinv (pconst c) = pconst c.
Proof. intros. unfold pconst. destruct (c =? 0); reflexivity. Qed.
Lemma pinv_qpow : forall k, pinv (qpow k) = qpow (- k).
Proof. reflexivity. Qed.
Theorem pinv_ppow : forall p n, pinv (ppow p n) = ppow (pinv p) n.
Proof. induction n as [|n IH]; [reflexivity|]. cbn [ppow]. rewrite pinv_pmul, IH. reflexivity. Qed.
Lemma pinv_q0 : pinv q0 = q0.
Proof. reflexivity. Qed.

(* q + q^-1 is invariant, so the coefficients of its powers are symmetric *)
Lemma coeff_ppow_q0_sym : forall r x, coeff (ppow q0 r) (- x) = coeff (ppow q0 r) x.
Proof. intros. rewrite <- coeff_pinv, pinv_ppow, pinv_q0. reflexivity. Qed.

Lemma mirror_c_resolved : forall c, is_resolved c = true -> mirror_c c = c.
Proof. intros [[] ? ? ? ?] H; try discriminate; reflexivity. Qed.
Lemma resolve_c_resolved : forall c r c', resolve_c c r = Some c' -> mirror_c c' = c'.
Proof. intros [[] ? ? ? ?] [] c' H; inversion H; reflexivity. Qed.
Lemma resolve_c_mirror : forall c r, resolve_c (mirror_c c) r = option_map mirror_c (resolve_c c (negb r)).
Proof. intros [[] ? ? ? ?] []; reflexivity. Qed.

Lemma resolve_at_mirror : forall l i r,
  resolve_at (mirror l) i r = option_map mirror (resolve_at l i (negb r)).
Proof. exact (resolve_at_map mirror_c negb is_resolved_mirror resolve_c_mirror). Qed.

(* resolving the mirror diagram by s = mirror of resolving the diagram by the complemented state *)
Theorem resolved_by_mirror : forall s l,
  resolved_by (mirror l) s = option_map mirror (resolved_by l (map negb s)).
Proof. exact (resolved_by_map mirror_c negb is_resolved_mirror resolve_c_mirror). Qed.

(* components do not look at the crossing types X / Xm *)
Theorem components_mirror : forall l, components (mirror l) = components l.
Proof.
  intros l. rewrite (components_sim l (mirror l) (fun e => e) (mirror_sim l)
    (fun p _ => mirror_edge_at l p) (fun a b _ _ E => E)).
  destruct (components l) as [cs|]; cbn [option_map]; [|reflexivity].
  f_equal. rewrite <- (map_id cs) at 2. apply map_ext. intros [es b].
  unfold relabel_path. cbn [pedges pclosed]. rewrite map_id. reflexivity.
Qed.

Theorem circles_mirror : forall l s, circles (mirror l) s = circles l (map negb s).
Proof.
  intros. unfold circles. rewrite resolved_by_mirror.
  destruct (resolved_by l (map negb s)) as [l'|]; [|reflexivity]. cbn [option_map].
  rewrite components_mirror. reflexivity.
Qed.

Definition compl (s : list bool) : list bool := map negb s.

Lemma compl_involutive : forall s, compl (compl s) = s.
Proof.
  intros. unfold compl. rewrite map_map. rewrite <- (map_id s) at 2. apply map_ext. intros []; reflexivity.
Qed.
Lemma all_states_complete : forall n s, length s = n -> In s (all_states n).
Proof.
  induction n as [|n IH]; intros s H.
  - destruct s; [cbn; auto|discriminate].
  - destruct s as [|b s]; [discriminate|]. cbn [all_states]. apply in_flat_map. exists s. split.
    + apply IH. cbn in H. lia.
    + destruct b; cbn; auto.
Qed.
Lemma all_states_compl : forall n s, In s (all_states n) -> In (compl s) (all_states n).
Proof.
  intros n s H. apply all_states_complete. unfold compl. rewrite map_length. apply all_states_length; auto.
Qed.
Lemma weight_compl : forall s, (weight s + weight (compl s) = length s)%nat.
Proof.
  unfold weight, compl. induction s as [|[] s IH]; cbn [map negb filter length]; lia.
Qed.

(* reindexing of a sum over all states by complementation *)
Lemma zsum_all_states_compl : forall n (f : list bool -> Z),
  zsum (fun s => f (compl s)) (all_states n) = zsum f (all_states n).
Proof.
  induction n as [|n IH]; intros f; [reflexivity|].
  cbn [all_states]. rewrite !zsum_flat_map.
  rewrite <- (IH (fun t => zsum f [false :: t; true :: t])).
  apply zsum_ext. intros t _. rewrite !zsum_cons, !zsum_nil. unfold compl. cbn [map negb]. lia.
Qed.

(* the body of the state sum, coefficientwise *)
Definition term_c (l : link) (x : Z) (s : list bool) : Z :=
  match circles l s with Some r => coeff (jones_term (weight s) r) x | None => 0 end.

Lemma jones_body_some : forall l states b, jones_body l states = Some b ->
  forall x, coeff b x = zsum (term_c l x) states.
Proof.
  intros l. induction states as [|s rest IH]; intros b H x; cbn [jones_body] in H.
  - inversion H. reflexivity.
  - unfold term_c at 1. rewrite zsum_cons.
    destruct (circles l s) as [r|]; [|discriminate].
    destruct (jones_body l rest) as [acc|]; [|discriminate].
    inversion H. rewrite coeff_padd, (IH acc eq_refl). reflexivity.
Qed.
Lemma jones_body_none : forall l states,
  jones_body l states = None <-> exists s, In s states /\ circles l s = None.
Proof.
  intros l. induction states as [|s rest IH]; cbn [jones_body].
  - split; [discriminate|intros (s & [] & _)].
  - destruct (circles l s) as [r|] eqn:C.
    + destruct (jones_body l rest) as [acc|].
      * split; [discriminate|]. intros (s' & [<-|Hs] & E); [congruence|].
        destruct IH as [_ IH]. discriminate IH. eauto.
      * split; auto. intros _. destruct IH as [IH _]. destruct (IH eq_refl) as (s' & Hs & E).
        exists s'. cbn; auto.
    + split; auto. intros _. exists s. cbn; auto.
Qed.

Lemma jones_body_mirror_none : forall l n,
  jones_body (mirror l) (all_states n) = None <-> jones_body l (all_states n) = None.
Proof.
  intros l n. rewrite !jones_body_none. split; intros (s & Hs & E); exists (compl s);
    (split; [apply all_states_compl; auto|]).
  - rewrite circles_mirror in E. exact E.
  - rewrite circles_mirror. fold (compl (compl s)). rewrite compl_involutive. exact E.
Qed.

Lemma sgn_nat_add : forall a b, sgn_nat (a + b) = sgn_nat a * sgn_nat b.
Proof.
  intros. unfold sgn_nat. rewrite Nat.even_add. destruct (Nat.even a), (Nat.even b); reflexivity.
Qed.

Lemma coeff_jones_term : forall w r x,
  coeff (jones_term w r) x = sgn_nat w * coeff (ppow q0 r) (x - Z.of_nat w).
Proof. intros. unfold jones_term. rewrite ppow_minus_q, coeff_pmul_mono. reflexivity. Qed.

(* one state: the term of s in the mirror diagram against the term of the complemented state *)
Theorem mirror_term : forall np nn w r e, (w <= np + nn)%nat ->
  sgn_nat np * coeff (jones_term (np + nn - w) r) (e - (Z.of_nat nn - 2 * Z.of_nat np)) =
  sgn_nat nn * coeff (jones_term w r) (- e - (Z.of_nat np - 2 * Z.of_nat nn)).
Proof.
  intros np nn w r e Hw. rewrite !coeff_jones_term.
  rewrite <- (coeff_ppow_q0_sym r (- e - (Z.of_nat np - 2 * Z.of_nat nn) - Z.of_nat w)).
  replace (e - (Z.of_nat nn - 2 * Z.of_nat np) - Z.of_nat (np + nn - w))
    with (- (- e - (Z.of_nat np - 2 * Z.of_nat nn) - Z.of_nat w)) by lia.
  rewrite !Z.mul_assoc. f_equal.
  rewrite <- !sgn_nat_add. unfold sgn_nat.
  rewrite !Nat.even_add, Nat.even_sub, Nat.even_add by exact Hw.
  destruct (Nat.even np), (Nat.even nn), (Nat.even w); reflexivity.
Qed.

Lemma count_pos_neg_length : forall sg, (count_pos sg + count_neg sg = length sg)%nat.
Proof. exact C18Main.count_pos_neg_length. Qed.
Lemma signed_nums_total : forall l np nn, signed_crossing_nums l = Some (np, nn) -> (np + nn = crossing_num l)%nat.
Proof.
  intros l np nn H. unfold signed_crossing_nums, crossing_signs in H.
  destruct (sign_loop l (starts_j l 0) [] (repeat None (length l))) as [[passed sg]|]; [|discriminate].
  destruct (if unsigned_left l sg then sign_loop l (starts_j l 1 ++ starts_j l 2) passed sg else Some (passed, sg))
    as [[p' sg']|]; [|discriminate].
  destruct (Nat.eqb_spec (length (flatten_opt sg')) (crossing_num l)) as [E|]; [|discriminate].
  cbn [option_map] in H. inversion H. rewrite count_pos_neg_length. exact E.
Qed.

Theorem jones_mirror : forall l, jones_model (mirror l) = option_map pinv (jones_model l).
Proof.
  intros l. unfold jones_model. rewrite signed_nums_mirror, crossing_num_mirror.
  destruct (signed_crossing_nums l) as [[np nn]|] eqn:SN; [|reflexivity]. cbn [option_map fst snd].
  destruct (64 <? crossing_num l)%nat; [reflexivity|].
  pose proof (signed_nums_total l np nn SN) as Hn.
  pose proof (jones_body_mirror_none l (crossing_num l)) as HN.
  destruct (jones_body (mirror l) (all_states (crossing_num l))) as [b'|] eqn:B';
    destruct (jones_body l (all_states (crossing_num l))) as [b|] eqn:B; cbn [option_map];
    [|destruct HN as [_ HN]; discriminate HN; auto|destruct HN as [HN _]; discriminate HN; auto|reflexivity].
  f_equal. apply canon_ext; [apply pmul_canon|apply pinv_canon, pmul_canon|].
  intros e. rewrite coeff_pinv, !jones_prefactor_mono, !coeff_pmul_mono.
  rewrite (jones_body_some _ _ _ B'), (jones_body_some _ _ _ B), !zsum_scal.
  rewrite <- (zsum_all_states_compl (crossing_num l)
    (fun s => sgn_nat nn * term_c l (- e - (Z.of_nat np - 2 * Z.of_nat nn)) s)).
  apply zsum_ext. intros s Hs. unfold term_c. rewrite circles_mirror. fold (compl s).
  destruct (circles l (compl s)) as [r|]; [|lia].
  pose proof (weight_compl s) as W. rewrite (all_states_length _ _ Hs) in W.
  replace (weight s) with (np + nn - weight (compl s))%nat by lia.
  apply mirror_term. lia.
Qed.

(* consequences: same panics; the rule for the generator sum of the cube; mirroring twice *)
Corollary jones_mirror_none : forall l, jones_model (mirror l) = None <-> jones_model l = None.
Proof. intros l. rewrite jones_mirror. destruct (jones_model l); cbn; split; auto; discriminate. Qed.
Corollary jones_mirror_coeff : forall l p, jones_model l = Some p ->
  exists p', jones_model (mirror l) = Some p' /\ canon p' /\ forall e, coeff p' e = coeff p (- e).
Proof.
  intros l p H. exists (pinv p). rewrite jones_mirror, H. split; [reflexivity|]. split; [|apply coeff_pinv].
  apply pinv_canon. exact (jones_model_canon l p H).
Qed.
Corollary kh_euler_mirror : forall l, kh_euler (mirror l) = option_map pinv (kh_euler l).
Proof. intros. rewrite !kh_euler_jones. apply jones_mirror. Qed.
