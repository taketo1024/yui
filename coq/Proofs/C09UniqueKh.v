(* C09 (uniqueness), part 4: the mirrored SnfCalc (Model/Snf.v) and the sparse Smith routine of the Khovanov
   oracle (Model/KhHomology.v, [smith_diag]) compute the SAME invariant factors.
   Both are proved to return Smith forms with positive divisibility chains (C09_total_partial;
   KhSmithMain.smith_diag_sound); by uniqueness the lists coincide. *)
From Coq Require Import ZArith Arith List Lia Bool.
Require Import Yui.Base.Ring Yui.Base.MatF Yui.Base.MatL Yui.Model.Snf.
Require Import Yui.Model.KhCube Yui.Model.KhHomology.
Require Import Yui.Proofs.C07Algebra Yui.Proofs.C09UniqueKer Yui.Proofs.C09Unique.
Require Import Yui.Proofs.C09Inv Yui.Proofs.C09Total Yui.Proofs.C09Laws.
Require Import Yui.Proofs.KhSmithRows Yui.Proofs.KhSmithMat Yui.Proofs.KhSmithSteps Yui.Proofs.KhSmithMain.
Import ListNotations.
Local Open Scope Z_scope.

(* any list with the Smith property of the oracle against the result of the mirrored snf *)
Theorem snf_vs_SmithOf pre m n (A : lmat Z) (B : zmat) f1 f2 f3 f4 res ds :
  snf_spec (Zpre_dict pre) m n A f1 f2 f3 f4 res ->
  meq m n B (lget Z_ring A) ->
  SmithOf m n B ds ->
  snf_rank (Zpre_dict pre) res = length ds /\ snf_factors (Zpre_dict pre) res = ds.
Proof.
  intros HS HB HO.
  pose proof (smith_form_ext Z_ring m n B (lget Z_ring A) _ _ HB (SmithOf_smith_form m n B ds HO)) as F'.
  destruct HO as [Hpos [Hch _]].
  destruct (Z_snf_result_unique pre m n A f1 f2 f3 f4 res (length ds) (fun i => nth i ds 0) HS F' Hch) as [Er Ha].
  { intros k Hk. apply Hpos. now apply nth_In. }
  split; [exact Er|].
  rewrite (snf_factors_spec (Zpre_dict pre) (Zpre_snf_laws pre) m n A f1 f2 f3 f4 res HS), Er.
  change (ed_ring (Zpre_dict pre)) with Z_ring.
  apply nth_ext with (d := 0) (d' := 0).
  - now rewrite map_length, seq_length.
  - intros k Hk. rewrite map_length, seq_length in Hk.
    rewrite (nth_indep _ 0 (lget Z_ring (dm_rows (sr_d res)) (length ds) (length ds)))
      by now rewrite map_length, seq_length.
    rewrite (map_nth (fun k0 => lget Z_ring (dm_rows (sr_d res)) k0 k0) (seq 0 (length ds)) (length ds) k).
    rewrite seq_nth by exact Hk. cbn [Nat.add]. now apply Ha.
Qed.

Theorem snf_vs_oracle pre n fuel (rows : list row) ds (A : lmat Z) f1 f2 f3 f4 res :
  rows_wf n rows -> smith_diag fuel rows = Some ds ->
  meq (length rows) n (dense rows) (lget Z_ring A) ->
  snf_spec (Zpre_dict pre) (length rows) n A f1 f2 f3 f4 res ->
  snf_rank (Zpre_dict pre) res = length ds /\ snf_factors (Zpre_dict pre) res = ds.
Proof.
  intros Hwf Hd HB HS.
  exact (snf_vs_SmithOf pre (length rows) n A (dense rows) f1 f2 f3 f4 res ds HS HB
           (smith_diag_sound n fuel rows ds Hwf Hd)).
Qed.

(* the oracle's Smith property [SmithOf] determines the list (hence two runs of its routine on rows with the same dense
   matrix, whatever the row order and the fuel, return the same list) *)
Theorem SmithOf_unique m n (B : zmat) ds ds' : SmithOf m n B ds -> SmithOf m n B ds' -> ds = ds'.
Proof.
  intros H H'.
  pose proof (SmithOf_smith_form m n B ds H) as F. pose proof (SmithOf_smith_form m n B ds' H') as F'.
  destruct H as [Hpos [Hch _]]. destruct H' as [Hpos' [Hch' _]].
  destruct (Z_smith_form_unique m n B _ _ _ _ F F' Hch Hch') as [El [_ He]].
  apply nth_ext with (d := 0) (d' := 0); [exact El|].
  intros k Hk. apply He; [| |exact Hk].
  - intros k0 Hk0. apply Hpos. now apply nth_In.
  - intros k0 Hk0. apply Hpos'. now apply nth_In.
Qed.
