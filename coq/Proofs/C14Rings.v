(* The commutative-ring axioms ([ring_laws] of Base/Ring.v, Leibniz equality on a canonical carrier)
   for the scalar types of C14:
     Q    = canonical values of Ratio<BigInt>   (sigma type over the decidable predicate canonb)
     F_p  = representatives 0 <= a < p of FF<p>, for the moduli with (p-1)^2 < 2^31
     F_2  = bool
   (Z is Base/Ring.v Z_ring_laws; the quadratic integer rings are in Proofs/C14Quad.v.)
   The ring operations of the dictionaries ARE the model's operations: each dictionary operation
   unwraps the model's [option] result, and the lemmas cr_*_ok (Q) and fv_* (F_p) show the result is always
   [Some] on the carrier (the default of the unwrapping is never used). *)
From Coq Require Import ZArith QArith Bool Lia Eqdep_dec.
Require Import Yui.Base.Ring Yui.Model.Ints Yui.Model.Ratio Yui.Model.Fp.
Require Import Yui.Proofs.C14Ints Yui.Proofs.C14Ratio Yui.Proofs.C14RatioQ Yui.Proofs.C14Fp.
Open Scope Z_scope.

Lemma bool_proof_unique (b : bool) (p q : b = true) : p = q.
Proof. apply UIP_dec. apply bool_dec. Qed.

Definition or_default {A} (o : option A) (d : A) : A := match o with Some r => r | None => d end.

Definition cratio : Type := {r : ratio | canonb r = true}.
Definition cr_val (x : cratio) : ratio := proj1_sig x.

Lemma cr_canon (x : cratio) : Canon (cr_val x).
Proof. apply canonb_spec. exact (proj2_sig x). Qed.

Lemma cr_ext (x y : cratio) : cr_val x = cr_val y -> x = y.
Proof.
  destruct x as [x Hx], y as [y Hy]. unfold cr_val. cbn [proj1_sig]. intros E. subst y. f_equal.
  apply bool_proof_unique.
Qed.

Lemma add_total_canon x y : Canon x -> Canon y -> canonb (or_default (rt_add Big x y) x) = true.
Proof. intros Hx Hy. destruct (add_exact x y Hx Hy) as (r & Hr & Hc & _). rewrite Hr. now apply canonb_spec. Qed.
Lemma mul_total_canon x y : Canon x -> Canon y -> canonb (or_default (rt_mul Big x y) x) = true.
Proof. intros Hx Hy. destruct (mul_exact x y Hx Hy) as (r & Hr & Hc & _). rewrite Hr. now apply canonb_spec. Qed.
Lemma neg_total_canon x : Canon x -> canonb (or_default (rt_neg Big x) x) = true.
Proof. intros Hx. destruct (neg_exact x Hx) as (r & Hr & Hc & _). rewrite Hr. now apply canonb_spec. Qed.

Definition cr_zero : cratio := exist _ rt_zero eq_refl.
Definition cr_one : cratio := exist _ rt_one eq_refl.
Definition cr_add (x y : cratio) : cratio :=
  exist _ (or_default (rt_add Big (cr_val x) (cr_val y)) (cr_val x)) (add_total_canon _ _ (cr_canon x) (cr_canon y)).
Definition cr_mul (x y : cratio) : cratio :=
  exist _ (or_default (rt_mul Big (cr_val x) (cr_val y)) (cr_val x)) (mul_total_canon _ _ (cr_canon x) (cr_canon y)).
Definition cr_neg (x : cratio) : cratio :=
  exist _ (or_default (rt_neg Big (cr_val x)) (cr_val x)) (neg_total_canon _ (cr_canon x)).
Definition cr_eqb (x y : cratio) : bool := rt_eqb (cr_val x) (cr_val y).

Definition Q_ring : ring_ops cratio := mk_ring_ops cratio cr_zero cr_one cr_add cr_neg cr_mul cr_eqb.

(* the dictionary operations are the model's operations *)
Lemma cr_add_ok x y : rt_add Big (cr_val x) (cr_val y) = Some (cr_val (cr_add x y)).
Proof.
  destruct (add_exact _ _ (cr_canon x) (cr_canon y)) as (r & Hr & _). unfold cr_add, cr_val at 3. cbn [proj1_sig].
  now rewrite Hr.
Qed.
Lemma cr_mul_ok x y : rt_mul Big (cr_val x) (cr_val y) = Some (cr_val (cr_mul x y)).
Proof.
  destruct (mul_exact _ _ (cr_canon x) (cr_canon y)) as (r & Hr & _). unfold cr_mul, cr_val at 3. cbn [proj1_sig].
  now rewrite Hr.
Qed.
Lemma cr_neg_ok x : rt_neg Big (cr_val x) = Some (cr_val (cr_neg x)).
Proof.
  destruct (neg_exact _ (cr_canon x)) as (r & Hr & _). unfold cr_neg, cr_val at 2. cbn [proj1_sig].
  now rewrite Hr.
Qed.

(* the rational number of a carrier element *)
Definition qv (x : cratio) : Q := rt_val (cr_val x).

Lemma qv_inj x y : (qv x == qv y)%Q -> x = y.
Proof. intros E. apply cr_ext. apply canon_val_inj; auto using cr_canon. Qed.

Lemma qv_add x y : (qv (cr_add x y) == qv x + qv y)%Q.
Proof.
  destruct (add_exact _ _ (cr_canon x) (cr_canon y)) as (r & Hr & _ & Hv). rewrite cr_add_ok in Hr. now injection Hr as <-.
Qed.
Lemma qv_mul x y : (qv (cr_mul x y) == qv x * qv y)%Q.
Proof.
  destruct (mul_exact _ _ (cr_canon x) (cr_canon y)) as (r & Hr & _ & Hv). rewrite cr_mul_ok in Hr. now injection Hr as <-.
Qed.
Lemma qv_neg x : (qv (cr_neg x) == - qv x)%Q.
Proof.
  destruct (neg_exact _ (cr_canon x)) as (r & Hr & _ & Hv). rewrite cr_neg_ok in Hr. now injection Hr as <-.
Qed.
Lemma qv_zero : (qv cr_zero == 0)%Q.
Proof. reflexivity. Qed.
Lemma qv_one : (qv cr_one == 1)%Q.
Proof. reflexivity. Qed.

Lemma Q_ring_laws : ring_laws Q_ring.
Proof.
  constructor; cbn [Q_ring rzero rone radd rneg rmul reqb].
  - intros a b. apply qv_inj. rewrite !qv_add. ring.
  - intros a b c. apply qv_inj. rewrite !qv_add. ring.
  - intros a. apply qv_inj. rewrite qv_add, qv_zero. ring.
  - intros a. apply qv_inj. rewrite qv_add, qv_neg, qv_zero. ring.
  - intros a b. apply qv_inj. rewrite !qv_mul. ring.
  - intros a b c. apply qv_inj. rewrite !qv_mul. ring.
  - intros a. apply qv_inj. rewrite qv_mul, qv_one. ring.
  - intros a b c. apply qv_inj. rewrite qv_mul, !qv_add, !qv_mul. ring.
  - intros a b. unfold cr_eqb. rewrite rt_eqb_eq. split; [apply cr_ext|now intros ->].
Qed.

(* every rational number is the value of a carrier element (of exactly one, by [qv_inj]) *)
Lemma qv_surj n d : d <> 0 -> exists x, (qv x == qfrac n d)%Q.
Proof.
  intros Hd. destruct (new_exact n d Hd) as (r & _ & Hc & Hv).
  apply canonb_spec in Hc. exists (exist _ r Hc). exact Hv.
Qed.

Definition fp (p : Z) : Type := {a : Z | inFb p a = true}.
Definition fp_val {p} (x : fp p) : Z := proj1_sig x.

Lemma fp_in {p} (x : fp p) : InF p (fp_val x).
Proof. apply inFb_spec. exact (proj2_sig x). Qed.

Lemma fp_ext {p} (x y : fp p) : fp_val x = fp_val y -> x = y.
Proof.
  destruct x as [x Hx], y as [y Hy]. unfold fp_val. cbn [proj1_sig]. intros E. subst y. f_equal.
  apply bool_proof_unique.
Qed.

Lemma ff_new_range p s r : ff_new p s = Some r -> inFb p r = true.
Proof.
  unfold ff_new. destruct (0 <? p) eqn:E; [|discriminate]. intros H. inversion H. apply Z.ltb_lt in E.
  apply inFb_spec. apply Z.mod_pos_bound. exact E.
Qed.

Lemma fp_add_in p a b : InF p a -> inFb p (or_default (ff_add p a b) a) = true.
Proof.
  intros Ha. destruct (ff_add p a b) as [r|] eqn:E; cbn [or_default]; [|now apply inFb_spec].
  unfold ff_add in E. destruct (iadd i32 a b); cbn [obind] in E; [|discriminate]. eapply ff_new_range; eauto.
Qed.
Lemma fp_mul_in p a b : InF p a -> inFb p (or_default (ff_mul p a b) a) = true.
Proof.
  intros Ha. destruct (ff_mul p a b) as [r|] eqn:E; cbn [or_default]; [|now apply inFb_spec].
  unfold ff_mul in E. destruct (imul i32 a b); cbn [obind] in E; [|discriminate]. eapply ff_new_range; eauto.
Qed.
Lemma fp_neg_in p a : InF p a -> inFb p (or_default (ff_neg p a) a) = true.
Proof.
  intros Ha. destruct (ff_neg p a) as [r|] eqn:E; cbn [or_default]; [|now apply inFb_spec].
  unfold ff_neg in E. destruct (ineg i32 a); cbn [obind] in E; [|discriminate]. eapply ff_new_range; eauto.
Qed.
Lemma inFb_0 p : 1 < p -> inFb p 0 = true.
Proof. intros H. apply inFb_spec. unfold InF. lia. Qed.
Lemma inFb_1 p : 1 < p -> inFb p 1 = true.
Proof. intros H. apply inFb_spec. unfold InF. lia. Qed.

Definition fp_zero p (H : 1 < p) : fp p := exist _ ff_zero (inFb_0 p H).
Definition fp_one p (H : 1 < p) : fp p := exist _ ff_one (inFb_1 p H).
Definition fp_add {p} (x y : fp p) : fp p :=
  exist _ (or_default (ff_add p (fp_val x) (fp_val y)) (fp_val x)) (fp_add_in p _ _ (fp_in x)).
Definition fp_mul {p} (x y : fp p) : fp p :=
  exist _ (or_default (ff_mul p (fp_val x) (fp_val y)) (fp_val x)) (fp_mul_in p _ _ (fp_in x)).
Definition fp_neg {p} (x : fp p) : fp p :=
  exist _ (or_default (ff_neg p (fp_val x)) (fp_val x)) (fp_neg_in p _ (fp_in x)).
Definition fp_eqb {p} (x y : fp p) : bool := ff_eqb (fp_val x) (fp_val y).

Definition Fp_ring p (H : 1 < p) : ring_ops (fp p) :=
  mk_ring_ops (fp p) (fp_zero p H) (fp_one p H) fp_add fp_neg fp_mul fp_eqb.

Section FpLaws.
  Variable p : Z.
  Hypothesis Hs : SmallMod p.

  Lemma fv_add (x y : fp p) :
    ff_add p (fp_val x) (fp_val y) = Some (fp_val (fp_add x y)) /\ fp_val (fp_add x y) = (fp_val x + fp_val y) mod p.
  Proof.
    assert (Hz : fp_val (fp_add x y) = or_default (ff_add p (fp_val x) (fp_val y)) (fp_val x)) by reflexivity.
    destruct (ff_add_spec p _ _ Hs (fp_in x) (fp_in y)) as [E _]. rewrite E in Hz. cbn [or_default] in Hz. rewrite Hz, E. auto.
  Qed.
  Lemma fv_mul (x y : fp p) :
    ff_mul p (fp_val x) (fp_val y) = Some (fp_val (fp_mul x y)) /\ fp_val (fp_mul x y) = (fp_val x * fp_val y) mod p.
  Proof.
    assert (Hz : fp_val (fp_mul x y) = or_default (ff_mul p (fp_val x) (fp_val y)) (fp_val x)) by reflexivity.
    destruct (ff_mul_spec p _ _ Hs (fp_in x) (fp_in y)) as [E _]. rewrite E in Hz. cbn [or_default] in Hz. rewrite Hz, E. auto.
  Qed.
  Lemma fv_neg (x : fp p) :
    ff_neg p (fp_val x) = Some (fp_val (fp_neg x)) /\ fp_val (fp_neg x) = (- fp_val x) mod p.
  Proof.
    assert (Hz : fp_val (fp_neg x) = or_default (ff_neg p (fp_val x)) (fp_val x)) by reflexivity.
    destruct (ff_neg_spec p _ Hs (fp_in x)) as [E _]. rewrite E in Hz. cbn [or_default] in Hz. rewrite Hz, E. auto.
  Qed.

  Lemma Fp_ring_laws : ring_laws (Fp_ring p (proj1 Hs)).
  Proof.
    assert (Hp : 0 < p) by (destruct Hs; lia).
    assert (Hp0 : p <> 0) by lia.
    constructor; cbn [Fp_ring rzero rone radd rneg rmul reqb].
    - intros a b. apply fp_ext. rewrite !(proj2 (fv_add _ _)). now rewrite Z.add_comm.
    - intros a b c. apply fp_ext. rewrite !(proj2 (fv_add _ _)).
      rewrite Zplus_mod_idemp_r, Zplus_mod_idemp_l. now rewrite Z.add_assoc.
    - intros a. apply fp_ext. rewrite (proj2 (fv_add _ _)). unfold fp_zero, fp_val at 1. cbn [proj1_sig].
      unfold ff_zero. rewrite Z.add_0_l. apply Z.mod_small. apply (fp_in a).
    - intros a. apply fp_ext. rewrite (proj2 (fv_add _ _)), (proj2 (fv_neg _)).
      rewrite Zplus_mod_idemp_r, Z.add_opp_diag_r. reflexivity.
    - intros a b. apply fp_ext. rewrite !(proj2 (fv_mul _ _)). now rewrite Z.mul_comm.
    - intros a b c. apply fp_ext. rewrite !(proj2 (fv_mul _ _)).
      rewrite Zmult_mod_idemp_r, Zmult_mod_idemp_l. now rewrite Z.mul_assoc.
    - intros a. apply fp_ext. rewrite (proj2 (fv_mul _ _)). unfold fp_one, fp_val at 1. cbn [proj1_sig].
      unfold ff_one. rewrite Z.mul_1_l. apply Z.mod_small. apply (fp_in a).
    - intros a b c. apply fp_ext. rewrite (proj2 (fv_mul _ _)), !(proj2 (fv_add _ _)), !(proj2 (fv_mul _ _)).
      rewrite Zmult_mod_idemp_l, <- Zplus_mod. now rewrite Z.mul_add_distr_r.
    - intros a b. unfold fp_eqb, ff_eqb. rewrite Z.eqb_eq. split; [apply fp_ext|now intros ->].
  Qed.
End FpLaws.

Definition F2_ring : ring_ops bool := mk_ring_ops bool false true f2_add f2_neg f2_mul Bool.eqb.

Lemma F2_ring_laws : ring_laws F2_ring.
Proof.
  constructor; cbn [F2_ring rzero rone radd rneg rmul reqb]; unfold f2_add, f2_neg, f2_mul.
  - intros [] []; reflexivity.
  - intros [] [] []; reflexivity.
  - intros []; reflexivity.
  - intros []; reflexivity.
  - intros [] []; reflexivity.
  - intros [] [] []; reflexivity.
  - intros []; reflexivity.
  - intros [] [] []; reflexivity.
  - intros [] []; cbn; split; congruence.
Qed.

Lemma f2_sub_add_neg a b : f2_sub a b = f2_add a (f2_neg b).
Proof. reflexivity. Qed.
Lemma f2_pred_spec a : f2_is_zero a = Bool.eqb a false /\ f2_is_one a = Bool.eqb a true.
Proof. destruct a; auto. Qed.
