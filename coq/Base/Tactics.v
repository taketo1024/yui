(* The few tactics that several proof files share. *)
From Coq Require Import ZArith Bool.

(* split a conjunction into all its conjuncts *)
Ltac splits := repeat match goal with |- _ /\ _ => split end.

(* case analysis on every [x <? y] over Z in the goal *)
Ltac ltb_cases :=
  repeat match goal with
         | |- context [Z.ltb ?x ?y] => destruct (Z.ltb_spec x y); cbn [andb negb orb]
         end.
