(* Evaluation of monomials is multiplicative (Var, Var2, Var3 with usize exponents), hence [eval1/2/3]
   are ring homomorphisms (instances of the generic theorems of C16Poly); HPoly lemmas; the ring Z[i]
   as a second instance of [ring_laws] (non-vacuity of the ring-generic theorems beyond Z). *)
From Coq Require Import List Bool Arith NArith ZArith Lia Ring.
Require Import Yui.Base.Ring Yui.Model.Lc Yui.Model.Mono Yui.Model.Poly.
Require Import Yui.Proofs.C16Lc Yui.Proofs.C16Mono Yui.Proofs.C16Poly.
Import ListNotations.

Section EvalMono.
  Context {R : Type} (o : ring_ops R) (L : ring_laws o).
  Add Ring Re : (ring_theory_of_laws o L).

  Lemma npow_add x n k : npow o x (n + k) = rmul o (npow o x n) (npow o x k).
  Proof. induction n as [|n IH]; cbn [npow Nat.add]; [ring|]. rewrite IH. ring. Qed.
  Lemma rpow_add x i j : rpow o x (i + j) = rmul o (rpow o x i) (rpow o x j).
  Proof. unfold rpow. rewrite N2Nat.inj_add. apply npow_add. Qed.
  Lemma rpow_0 x : rpow o x 0 = rone o.
  Proof. reflexivity. Qed.

  Lemma ev1_one x : ev1 o x (mone (var_mono N_exp)) = rone o.
  Proof. reflexivity. Qed.
  Lemma ev1_mul x i j : ev1 o x (mmul (var_mono N_exp) i j) = rmul o (ev1 o x i) (ev1 o x j).
  Proof. cbn [mmul var_mono eadd N_exp]. apply rpow_add. Qed.

  Lemma ev2_one x y : ev2 o x y (mone (var2_mono N_exp)) = rone o.
  Proof. unfold ev2. cbn [mone var2_mono fst snd ezero N_exp]. rewrite !rpow_0. ring. Qed.
  Lemma ev2_mul x y i j : ev2 o x y (mmul (var2_mono N_exp) i j) = rmul o (ev2 o x y i) (ev2 o x y j).
  Proof. unfold ev2. cbn [mmul var2_mono fst snd eadd N_exp]. rewrite !rpow_add. ring. Qed.

  Lemma ev3_one x y z : ev3 o x y z (mone (var3_mono N_exp)) = rone o.
  Proof. unfold ev3. cbn [mone var3_mono fst snd ezero N_exp]. rewrite !rpow_0. ring. Qed.
  Lemma ev3_mul x y z i j : ev3 o x y z (mmul (var3_mono N_exp) i j) = rmul o (ev3 o x y z i) (ev3 o x y z j).
  Proof. unfold ev3. cbn [mmul var3_mono fst snd eadd N_exp]. unfold v3_0, v3_1, v3_2. rewrite !rpow_add. ring. Qed.

  Lemma h_is_zero_iff (a : hpoly) : h_is_zero o a = true <-> hco a = rzero o.
  Proof. unfold h_is_zero, ris_zero. apply (reqb_eq o L). Qed.

  Theorem h_eqb_iff (a b : hpoly) : h_eqb o a b = true <-> forall k, h_coeff o a k = h_coeff o b k.
  Proof.
    unfold h_eqb, h_coeff. split.
    - destruct (h_is_zero o a && h_is_zero o b) eqn:Z.
      + apply andb_true_iff in Z as [Za Zb]. apply h_is_zero_iff in Za, Zb. intros _ k. rewrite Za, Zb.
        now destruct (k =? hdeg a)%N, (k =? hdeg b)%N.
      + rewrite andb_true_iff, N.eqb_eq, (reqb_eq o L). intros [-> ->]. reflexivity.
    - (* the coefficients at the two degrees decide *)
      intros H. pose proof (H (hdeg a)) as Ha. pose proof (H (hdeg b)) as Hb. rewrite N.eqb_refl in Ha, Hb.
      destruct (N.eqb_spec (hdeg a) (hdeg b)) as [E|N].
      + rewrite (proj2 (reqb_eq o L _ _) Ha), andb_true_r. now destruct (h_is_zero o a && h_is_zero o b).
      + rewrite N.eqb_sym, (proj2 (N.eqb_neq _ _) N) in Hb. symmetry in Hb.
        now rewrite (proj2 (h_is_zero_iff a) Ha), (proj2 (h_is_zero_iff b) Hb).
  Qed.

  Theorem h_add_spec (a b c : hpoly) : h_add o a b = Some c -> forall k, h_coeff o c k = radd o (h_coeff o a k) (h_coeff o b k).
  Proof.
    unfold h_add, h_coeff. destruct (h_is_zero o a) eqn:Za.
    - intros [= <-] k. apply h_is_zero_iff in Za. rewrite Za. destruct (k =? hdeg a)%N; ring.
    - destruct (h_is_zero o b) eqn:Zb.
      + intros [= <-] k. apply h_is_zero_iff in Zb. rewrite Zb. destruct (k =? hdeg b)%N; ring.
      + destruct (N.eqb_spec (hdeg a) (hdeg b)) as [E|N]; [|discriminate]. intros [= <-] k. cbn. rewrite E.
        destruct (k =? hdeg b)%N; ring.
  Qed.
  (* the sum of two non-zero terms of different degrees is not homogeneous: the call panics *)
  Theorem h_add_none (a b : hpoly) :
    h_add o a b = None <-> hco a <> rzero o /\ hco b <> rzero o /\ hdeg a <> hdeg b.
  Proof.
    unfold h_add. destruct (h_is_zero o a) eqn:Za; [|destruct (h_is_zero o b) eqn:Zb].
    - apply h_is_zero_iff in Za. split; [discriminate|]. intros [H _]. contradiction.
    - apply h_is_zero_iff in Zb. split; [discriminate|]. intros [_ [H _]]. contradiction.
    - assert (Na : hco a <> rzero o) by (intros E; apply h_is_zero_iff in E; congruence).
      assert (Nb : hco b <> rzero o) by (intros E; apply h_is_zero_iff in E; congruence).
      destruct (N.eqb_spec (hdeg a) (hdeg b)); split; try discriminate; try tauto.
  Qed.
  Theorem h_neg_spec (a : hpoly) k : h_coeff o (h_neg o a) k = rneg o (h_coeff o a k).
  Proof. unfold h_coeff, h_neg. cbn. destruct (k =? hdeg a)%N; ring. Qed.
  Theorem h_sub_spec (a b c : hpoly) : h_sub o a b = Some c ->
    forall k, h_coeff o c k = radd o (h_coeff o a k) (rneg o (h_coeff o b k)).
  Proof.
    unfold h_sub. destruct (h_is_zero o a) eqn:Za.
    - intros [= <-] k. rewrite h_neg_spec. unfold h_coeff. apply h_is_zero_iff in Za. rewrite Za.
      destruct (k =? hdeg a)%N; ring.
    - destruct (h_is_zero o b) eqn:Zb.
      + intros [= <-] k. unfold h_coeff. apply h_is_zero_iff in Zb. rewrite Zb. destruct (k =? hdeg b)%N; ring.
      + destruct (N.eqb_spec (hdeg a) (hdeg b)) as [E|N]; [|discriminate]. intros [= <-] k. unfold h_coeff, rsub. cbn.
        rewrite E. destruct (k =? hdeg b)%N; ring.
  Qed.
  Theorem h_smul_spec (a : hpoly) c k : h_coeff o (h_smul o a c) k = rmul o (h_coeff o a k) c.
  Proof.
    unfold h_smul, h_coeff. destruct (ris_one o c) eqn:E.
    - apply (reqb_eq o L) in E. subst c. destruct (k =? hdeg a)%N; ring.
    - cbn. destruct (k =? hdeg a)%N; ring.
  Qed.
  (* product of the two terms: coefficient of X^k is ca*cb when k = da + db *)
  Theorem h_mul_spec (a b : hpoly) k :
    h_coeff o (h_mul o a b) k = if (k =? hdeg a + hdeg b)%N then rmul o (hco a) (hco b) else rzero o.
  Proof.
    unfold h_mul, h_coeff, h_is_one. destruct (N.eqb_spec (hdeg b) 0) as [E|N]; cbn [andb].
    - destruct (ris_one o (hco b)) eqn:E1.
      + apply (reqb_eq o L) in E1. rewrite E, E1, N.add_0_r. destruct (k =? hdeg a)%N; ring.
      + reflexivity.
    - reflexivity.
  Qed.
End EvalMono.

Lemma Gauss_ring_laws : ring_laws Gauss_ring.
Proof.
  constructor; unfold Gauss_ring; cbn [radd rmul rneg rone rzero reqb].
  - intros [a1 a2] [b1 b2]. cbn [fst snd]. f_equal; ring.
  - intros [a1 a2] [b1 b2] [c1 c2]. cbn [fst snd]. f_equal; ring.
  - intros [a1 a2]. cbn [fst snd]. f_equal; ring.
  - intros [a1 a2]. cbn [fst snd]. f_equal; ring.
  - intros [a1 a2] [b1 b2]. cbn [fst snd]. f_equal; ring.
  - intros [a1 a2] [b1 b2] [c1 c2]. cbn [fst snd]. f_equal; ring.
  - intros [a1 a2]. cbn [fst snd]. f_equal; ring.
  - intros [a1 a2] [b1 b2] [c1 c2]. cbn [fst snd]. f_equal; ring.
  - intros [a1 a2] [b1 b2]. cbn [fst snd]. rewrite andb_true_iff, !Z.eqb_eq. split; [intros []|intros [=]]; subst; auto.
Qed.
