(* Soundness of the sparse Smith diagonalisation of Model/KhHomology.v: the single steps.
   Dense semantics [dense] of a list of sparse rows, what [find_pivot] / [find_nondivisible] / the
   column-clear test return, the dense effect of the row phase, the column phase, the row addition and
   the removal of the pivot row, and the matrix equivalences they induce on the "full" matrix
   (working rows on top, one row per finished pivot below). *)
From Coq Require Import List Arith Bool ZArith Lia.
Require Import Yui.Base.Ring Yui.Base.MatF Yui.Proofs.C07Algebra.
Require Import Yui.Model.KhCube Yui.Model.KhHomology Yui.Proofs.KhSmithRows Yui.Proofs.KhSmithMat.
Import ListNotations.
Open Scope Z_scope.

Definition dense (rows : list row) : zmat := fun i c => row_get (nth i rows []) c.

Lemma dense_replace i y rows x c : (i < length rows)%nat ->
  dense (replace_nth i y rows) x c = if (x =? i)%nat then row_get y c else dense rows x c.
Proof. intros Hi. unfold dense. rewrite replace_nth_nth by exact Hi. destruct (x =? i)%nat; reflexivity. Qed.

Lemma dense_remove i rows x c : dense (remove_nth i rows) x c = dense rows (if (x <? i)%nat then x else S x) c.
Proof. unfold dense. now rewrite remove_nth_nth. Qed.

Lemma dense_overflow rows x c : (length rows <= x)%nat -> dense rows x c = 0.
Proof. intros H. unfold dense. now rewrite nth_overflow by exact H. Qed.

Definition rm_step (acc : option (nat * Z)) (e : nat * Z) : option (nat * Z) :=
  match acc with
  | None => Some e
  | Some e0 => if Z.abs (snd e) <? Z.abs (snd e0) then Some e else acc
  end.

Lemma row_min_eq r : row_min r = fold_left rm_step r None.
Proof. reflexivity. Qed.

Lemma rm_fold r : forall acc,
  match fold_left rm_step r acc with
  | Some e => acc = Some e \/ In e r
  | None => acc = None /\ r = []
  end.
Proof.
  induction r as [|e0 r IH]; intros acc; cbn [fold_left].
  - destruct acc; auto.
  - specialize (IH (rm_step acc e0)). destruct (fold_left rm_step r (rm_step acc e0)) as [e|].
    + destruct IH as [E|Hin]; [|right; now right].
      destruct acc as [e1|]; cbn [rm_step] in E.
      * destruct (Z.abs (snd e0) <? Z.abs (snd e1)); injection E as <-; [right; now left|now left].
      * injection E as <-. right. now left.
    + destruct IH as [E _]. destruct acc as [e1|]; cbn [rm_step] in E; [|discriminate].
      destruct (Z.abs (snd e0) <? Z.abs (snd e1)); discriminate.
Qed.

Lemma row_min_in r e : row_min r = Some e -> In e r.
Proof.
  rewrite row_min_eq. intros H. pose proof (rm_fold r None) as K. rewrite H in K.
  destruct K as [K|K]; [discriminate|exact K].
Qed.

Lemma row_min_none r : row_min r = None -> r = [].
Proof.
  rewrite row_min_eq. intros H. pose proof (rm_fold r None) as K. rewrite H in K. apply K.
Qed.

Definition fp_step (all : list row) (st : option (nat * nat * Z) * nat) (r : row) : option (nat * nat * Z) * nat :=
  let '(best, i) := st in
  let best' :=
    match row_min r with
    | None => best
    | Some (c, v) =>
        match best with
        | None => Some (i, c, v)
        | Some (i0, c0, v0) =>
            if better (Z.abs v, length r) (Z.abs v0, length (nth i0 all [])) then Some (i, c, v)
            else best
        end
    end in
  (best', S i).

Lemma find_pivot_eq rows : find_pivot rows = fst (fold_left (fp_step rows) rows (None, O)).
Proof. reflexivity. Qed.

Lemma fp_fold all l : forall pre best,
  all = pre ++ l ->
  (forall i c v, best = Some (i, c, v) -> In (c, v) (nth i all [])) ->
  match fst (fold_left (fp_step all) l (best, length pre)) with
  | Some (i, c, v) => In (c, v) (nth i all [])
  | None => best = None /\ forall r, In r l -> r = []
  end.
Proof.
  induction l as [|r l IH]; intros pre best Hall Hbest; cbn [fold_left].
  - cbn [fst]. destruct best as [[[i c] v]|]; [now apply Hbest|]. split; [reflexivity|intros r []].
  - cbn [fp_step].
    assert (Hr : nth (length pre) all [] = r) by (rewrite Hall; now rewrite nth_middle).
    assert (Hall' : all = (pre ++ [r]) ++ l) by (rewrite <- app_assoc; exact Hall).
    assert (Hlen : S (length pre) = length (pre ++ [r])) by (rewrite app_length; cbn [length]; lia).
    rewrite Hlen.
    destruct (row_min r) as [[c v]|] eqn:Em.
    + apply row_min_in in Em.
      match goal with |- context [fold_left _ l (?b, _)] => set (best' := b) end.
      assert (Hb' : forall i0 c0 v0, best' = Some (i0, c0, v0) -> In (c0, v0) (nth i0 all [])).
      { intros i0 c0 v0 E. unfold best' in E. destruct best as [[[i1 c1] v1]|].
        - destruct (better _ _); [|now apply Hbest].
          injection E as <- <- <-. now rewrite Hr.
        - injection E as <- <- <-. now rewrite Hr. }
      specialize (IH (pre ++ [r]) best' Hall' Hb').
      destruct (fst (fold_left (fp_step all) l (best', length (pre ++ [r])))) as [[[i2 c2] v2]|]; [exact IH|].
      destruct IH as [E _]. exfalso. unfold best' in E. destruct best as [[[i1 c1] v1]|]; [|discriminate].
      destruct (better _ _); discriminate.
    + apply row_min_none in Em.
      specialize (IH (pre ++ [r]) best Hall' Hbest).
      destruct (fst (fold_left (fp_step all) l (best, length (pre ++ [r])))) as [[[i2 c2] v2]|]; [exact IH|].
      destruct IH as [E H]. split; [exact E|]. intros r' [<-|Hin]; [exact Em|now apply H].
Qed.

Lemma find_pivot_some rows i j a : find_pivot rows = Some (i, j, a) -> In (j, a) (nth i rows []).
Proof.
  rewrite find_pivot_eq. intros H.
  pose proof (fp_fold rows rows [] None eq_refl ltac:(intros; discriminate)) as K.
  cbn [length] in K. rewrite H in K. exact K.
Qed.

Lemma find_pivot_none rows : find_pivot rows = None -> forall r, In r rows -> r = [].
Proof.
  rewrite find_pivot_eq. intros H.
  pose proof (fp_fold rows rows [] None eq_refl ltac:(intros; discriminate)) as K.
  cbn [length] in K. rewrite H in K. apply K.
Qed.

Lemma find_pivot_some_wf n rows i j a :
  rows_wf n rows -> find_pivot rows = Some (i, j, a) ->
  (i < length rows)%nat /\ (j < n)%nat /\ a <> 0 /\ dense rows i j = a.
Proof.
  intros Hwf H. apply find_pivot_some in H.
  pose proof (rows_wf_nth n rows i Hwf) as [W B].
  split.
  { destruct (Nat.lt_ge_cases i (length rows)) as [Hi|Hi]; [exact Hi|].
    rewrite nth_overflow in H by exact Hi. destruct H. }
  split; [exact (B j a H)|]. split; [exact (proj1 (wf_above_in_nz 0 _ j a W H))|].
  unfold dense. exact (row_get_in 0 _ j a W H).
Qed.

Lemma find_pivot_none_dense rows : find_pivot rows = None -> forall x c, dense rows x c = 0.
Proof.
  intros H x c. unfold dense. destruct (Nat.lt_ge_cases x (length rows)) as [Hx|Hx].
  - rewrite (find_pivot_none rows H (nth x rows [])) by (now apply nth_In). reflexivity.
  - now rewrite nth_overflow by exact Hx.
Qed.

(* the pieces of one round of [smith_loop] *)
Definition row_phase (i j : nat) (a : Z) (rows : list row) : list row :=
  mapi (fun k r => if (k =? i)%nat then r
                   else let b := row_get r j in
                        if b =? 0 then r else row_axpy (b / a) (nth i rows []) r) rows.

Definition col_dirty (i j : nat) (rows1 : list row) : bool :=
  existsb (fun b => b) (mapi (fun k r => negb (k =? i)%nat && negb (row_get r j =? 0)) rows1).

Lemma smith_loop_S f rows acc :
  smith_loop (S f) rows acc =
  match find_pivot rows with
  | None => Some (rev acc)
  | Some (i, j, a) =>
      let rows1 := row_phase i j a rows in
      if col_dirty i j rows1 then smith_loop f rows1 acc
      else
        let ri' := col_reduce j a (nth i rows []) in
        if (1 <? length ri')%nat then smith_loop f (replace_nth i ri' rows1) acc
        else
          match find_nondivisible a i rows1 with
          | Some r => smith_loop f (replace_nth i (row_add (nth r rows1 []) ri') rows1) acc
          | None => smith_loop f (remove_nth i rows1) (Z.abs a :: acc)
          end
  end.
Proof. reflexivity. Qed.

Lemma row_phase_length i j a rows : length (row_phase i j a rows) = length rows.
Proof. apply mapi_length. Qed.

Lemma row_phase_wf n i j a rows : rows_wf n rows -> rows_wf n (row_phase i j a rows).
Proof.
  intros H. apply mapi_Forall. intros k r Hr.
  assert (Wr : row_wf n r) by (unfold rows_wf in H; rewrite Forall_forall in H; now apply H).
  destruct (k =? i)%nat; [exact Wr|]. cbv zeta. destruct (row_get r j =? 0); [exact Wr|].
  apply row_axpy_wf; [now apply rows_wf_nth|exact Wr].
Qed.

Lemma row_phase_dense n i j a rows : rows_wf n rows ->
  forall x c, dense (row_phase i j a rows) x c
              = dense rows x c - (if (x =? i)%nat then 0 else dense rows x j / a * dense rows i c).
Proof.
  intros H x c. destruct (Nat.lt_ge_cases x (length rows)) as [Hx|Hx].
  - unfold dense, row_phase. rewrite (@mapi_nth row row _ rows x [] [] Hx).
    destruct (x =? i)%nat; [lia|]. cbv zeta.
    destruct (Z.eqb_spec (row_get (nth x rows []) j) 0) as [Ez|Ez].
    + rewrite Ez. rewrite Zdiv_0_l. lia.
    + rewrite (row_axpy_get _ 0) by (apply (rows_wf_nth n); exact H). reflexivity.
  - rewrite !dense_overflow by (try rewrite row_phase_length; exact Hx).
    rewrite Zdiv_0_l. destruct (x =? i)%nat; lia.
Qed.

Lemma row_phase_pivot_row i j a rows : (i < length rows)%nat -> nth i (row_phase i j a rows) [] = nth i rows [].
Proof. intros Hi. unfold row_phase. rewrite (@mapi_nth row row _ rows i [] [] Hi). now rewrite Nat.eqb_refl. Qed.

Lemma col_dirty_false i j rows1 : col_dirty i j rows1 = false -> forall x, x <> i -> dense rows1 x j = 0.
Proof.
  intros H x Hne. destruct (Nat.lt_ge_cases x (length rows1)) as [Hx|Hx]; [|now apply dense_overflow].
  pose proof (existsb_id_false _ H x) as K. rewrite (mapi_nth _ rows1 x [] false Hx) in K.
  destruct (Nat.eqb_spec x i); [contradiction|]. cbn [negb andb] in K.
  apply negb_false_iff in K. now apply Z.eqb_eq in K.
Qed.

Lemma find_nondiv_some a i rows r : find_nondivisible a i rows = Some r -> r <> i /\ (r < length rows)%nat.
Proof.
  unfold find_nondivisible. intros H. apply (index_where_some _ _ _ []) in H. destruct H as [H1 H2].
  rewrite mapi_length in H1. split; [|exact H1].
  intros ->. rewrite (@mapi_nth row row _ rows i [] [] H1) in H2. rewrite Nat.eqb_refl in H2. discriminate.
Qed.

Lemma find_nondiv_none a i rows : a <> 0 -> find_nondivisible a i rows = None ->
  forall x c, x <> i -> (a | dense rows x c).
Proof.
  unfold find_nondivisible. intros Ha H x c Hne.
  destruct (Nat.lt_ge_cases x (length rows)) as [Hx|Hx]; [|rewrite dense_overflow by exact Hx; apply Z.divide_0_r].
  pose proof (index_where_none _ _ H (nth x (mapi (fun k r => if (k =? i)%nat then [] else r) rows) [])) as K.
  rewrite (@mapi_nth row row _ rows x [] [] Hx) in K.
  assert (Hin : In (nth x rows []) (mapi (fun k r => if (k =? i)%nat then [] else r) rows)).
  { replace (nth x rows []) with (nth x (mapi (fun k r => if (k =? i)%nat then [] else r) rows) []).
    - apply nth_In. now rewrite mapi_length.
    - rewrite (@mapi_nth row row _ rows x [] [] Hx). destruct (Nat.eqb_spec x i); [contradiction|reflexivity]. }
  destruct (Nat.eqb_spec x i); [contradiction|]. specialize (K Hin).
  unfold dense. destruct (row_get_zero_or_in (nth x rows []) c) as [E|E]; [rewrite E; apply Z.divide_0_r|].
  assert (F : negb (snd (c, row_get (nth x rows []) c) mod a =? 0) = false).
  { destruct (negb _) eqn:EE; [|reflexivity].
    assert (X : existsb (fun e => negb (snd e mod a =? 0)) (nth x rows []) = true)
      by (apply existsb_exists; eexists; split; [exact E|exact EE]).
    congruence. }
  cbn [snd] in F. apply negb_false_iff in F. apply Z.eqb_eq in F. now apply Z.mod_divide.
Qed.

(* the full matrix of a state: working rows on top, one row per finished pivot *)
Definition pivrow (pl : list (nat * Z)) (t c : nat) : Z :=
  let p := nth t pl (O, 0) in if (c =? fst p)%nat then snd p else 0.

Definition fullD (m : nat) (D : zmat) (pl : list (nat * Z)) : zmat :=
  fun x c => if (x <? m)%nat then D x c else pivrow pl (x - m) c.

Definition full (W : list row) (pl : list (nat * Z)) : zmat := fullD (length W) (dense W) pl.

Lemma pivrow_zero pl t c : (forall d, ~ In (c, d) pl) -> pivrow pl t c = 0.
Proof.
  intros H. unfold pivrow. cbv zeta. destruct (Nat.lt_ge_cases t (length pl)) as [Ht|Ht].
  - destruct (Nat.eqb_spec c (fst (nth t pl (O, 0)))) as [E|_]; [|reflexivity].
    exfalso. apply (H (snd (nth t pl (O, 0)))). rewrite E, <- surjective_pairing. now apply nth_In.
  - rewrite nth_overflow by exact Ht. cbn [fst snd]. destruct (c =? 0)%nat; reflexivity.
Qed.

(* [dcase]: case analysis on every comparison [a <? b], [a =? b] of naturals in the goal whose arguments contain no
   [if] ([noif]), through Nat.ltb_spec / Nat.eqb_spec *)
Ltac noif t := lazymatch t with context [if _ then _ else _] => fail | _ => idtac end.
Ltac dcase :=
  repeat match goal with
         | |- context [(?a <? ?b)%nat] => noif a; noif b; destruct (Nat.ltb_spec a b)
         | |- context [(?a =? ?b)%nat] => noif a; noif b; destruct (Nat.eqb_spec a b)
         end.

(* row phase: a multiple of row i is subtracted from every other row *)
Lemma step_rowphase m0 n m D D1 pl i j a :
  (i < m)%nat -> (m <= m0)%nat -> (forall x c, (m <= x)%nat -> D x c = 0) ->
  (forall x c, D1 x c = D x c - (if (x =? i)%nat then 0 else D x j / a * D i c)) ->
  equiv m0 n (fullD m D pl) (fullD m D1 pl).
Proof.
  intros Hi Hm Hov HD1. apply (equiv_row_op m0 n _ _ i (fun x => - (D x j / a))); [lia|].
  intros x c Hx Hc. unfold fullD. rewrite HD1.
  destruct (Nat.ltb_spec i m) as [_|]; [|lia].
  destruct (Nat.ltb_spec x m) as [Hxm|Hxm].
  - destruct (x =? i)%nat; ring.
  - rewrite (Hov x j Hxm), Zdiv_0_l. destruct (x =? i)%nat; ring.
Qed.

(* column phase: column j is zero outside row i, so the other entries of row i can be reduced modulo a = D1 i j *)
Lemma step_colphase m0 n m D1 D2 pl i j a :
  (j < n)%nat -> a <> 0 -> D1 i j = a ->
  (forall x, x <> i -> D1 x j = 0) -> (forall t, pivrow pl t j = 0) ->
  (forall x c, D2 x c = if (x =? i)%nat && negb (c =? j)%nat then D1 i c mod a else D1 x c) ->
  equiv m0 n (fullD m D1 pl) (fullD m D2 pl).
Proof.
  intros Hj Ha Hij Hclear Hpiv HD2.
  apply (equiv_col_op m0 n _ _ j (fun c => - (D1 i c / a))); [exact Hj|].
  intros x c Hx Hc. unfold fullD. rewrite HD2.
  destruct (Nat.ltb_spec x m) as [Hxm|Hxm].
  - destruct (Nat.eqb_spec x i) as [->|Hxi]; destruct (Nat.eqb_spec c j) as [->|Hcj]; cbn [negb andb]; try ring.
    + rewrite Hij. rewrite (Z.mod_eq (D1 i c) a Ha). ring.
    + rewrite (Hclear x Hxi). ring.
  - rewrite Hpiv. destruct (c =? j)%nat; ring.
Qed.

(* adding row r to row i *)
Lemma step_rowadd m0 n m D2 D3 pl i r :
  (i < m)%nat -> (r < m)%nat -> (m <= m0)%nat -> r <> i ->
  (forall x c, D3 x c = D2 x c + (if (x =? i)%nat then D2 r c else 0)) ->
  equiv m0 n (fullD m D2 pl) (fullD m D3 pl).
Proof.
  intros Hi Hr Hm Hne HD3.
  apply (equiv_row_op m0 n _ _ r (fun x => if (x =? i)%nat then 1 else 0)); [lia|].
  intros x c Hx Hc. unfold fullD. rewrite HD3.
  destruct (Nat.ltb_spec r m) as [_|]; [|lia].
  destruct (Nat.ltb_spec x m) as [Hxm|Hxm].
  - destruct (Nat.eqb_spec x i) as [->|Hxi].
    + destruct (Nat.eqb_spec i r) as [E|_]; [congruence|ring].
    + destruct (x =? r)%nat; ring.
  - destruct (Nat.eqb_spec x i); [lia|]. destruct (x =? r)%nat; ring.
Qed.

(* the cycle that moves position i behind positions i+1..k, and its inverse *)
Definition cycle_up (i k x : nat) : nat :=
  if (x <? i)%nat then x else if (x <? k)%nat then S x else if (x =? k)%nat then i else x.
Definition cycle_down (i k y : nat) : nat :=
  if (y <? i)%nat then y else if (y =? i)%nat then k else if (y <? S k)%nat then pred y else y.

Lemma cycle_bij m i k : (i <= k)%nat -> (k < m)%nat -> bij m (cycle_up i k) (cycle_down i k).
Proof. intros Hi Hk x Hx. unfold cycle_up, cycle_down. repeat split; dcase; lia. Qed.

Lemma cycle_up_lt i k x : (x < k)%nat -> cycle_up i k x = if (x <? i)%nat then x else S x.
Proof. intros H. unfold cycle_up. now rewrite (proj2 (Nat.ltb_lt x k) H). Qed.
Lemma cycle_up_last i k : (i <= k)%nat -> cycle_up i k k = i.
Proof. intros H. unfold cycle_up. dcase; lia. Qed.
Lemma cycle_up_gt i k x : (i <= k)%nat -> (k < x)%nat -> cycle_up i k x = x.
Proof. intros Hi H. unfold cycle_up. dcase; lia. Qed.

(* finishing a pivot: row i of D2 is a single entry a in column j; the row leaves the working matrix *)
Lemma step_final m0 n m D2 D4 pl i j a :
  (i < m)%nat -> (m <= m0)%nat ->
  (forall c, D2 i c = if (c =? j)%nat then a else 0) ->
  (forall x c, (x < m - 1)%nat -> D4 x c = D2 (if (x <? i)%nat then x else S x) c) ->
  equiv m0 n (fullD m D2 pl) (fullD (m - 1) D4 ((j, Z.abs a) :: pl)).
Proof.
  intros Hi Hm Hrow HD4. destruct m as [|k]; [lia|]. rewrite Nat.sub_1_r in *. cbn [pred] in *.
  apply (proj1 (Nat.lt_succ_r i k)) in Hi.
  (* row i is normalised to |a| and then moved to position k, just above the finished pivots *)
  set (u := fun x : nat => if (x =? i)%nat then (if a <? 0 then -1 else 1) else 1).
  apply (equiv_trans m0 n _ (fun x c => u x * fullD (S k) D2 pl x c)).
  { apply (equiv_row_scale m0 n _ _ u); [|apply meq_refl].
    intros x. unfold u. destruct (x =? i)%nat; destruct (a <? 0); reflexivity. }
  apply (equiv_row_perm m0 n _ _ (cycle_up i k) (cycle_down i k)); [apply cycle_bij; lia|].
  intros x c Hx Hc. unfold fullD at 1.
  destruct (Nat.ltb_spec x k) as [Hx1|Hx1].
  - rewrite HD4, cycle_up_lt by exact Hx1. unfold u, fullD.
    destruct (Nat.ltb_spec x i); dcase; try lia; ring.
  - destruct (Nat.eq_dec x k) as [->|Hx2].
    + rewrite cycle_up_last by exact Hi. unfold u, fullD. rewrite Nat.eqb_refl, Nat.sub_diag.
      destruct (Nat.ltb_spec i (S k)); [|lia]. rewrite Hrow. unfold pivrow. cbn [nth fst snd].
      destruct (c =? j)%nat; [|ring]. destruct (Z.ltb_spec a 0); lia.
    + rewrite cycle_up_gt by lia. unfold u, fullD.
      destruct (Nat.eqb_spec x i); [lia|]. destruct (Nat.ltb_spec x (S k)); [lia|].
      unfold pivrow. replace (x - k)%nat with (S (x - S k)) by lia. cbn [nth]. ring.
Qed.
