(* C01 / C03 (also used by C02, C06, C19) - soundness of the homology oracle's Smith diagonalisation.
   The oracle of Model/KhHomology.v reads every table off the invariant factors that its sparse routine
   [smith_diag] returns for the differentials of the cube complex.  Proved here, for ALL inputs:

   * the dense semantics of the sparse row operations (rows well-formed = columns strictly increasing,
     no zero entry, columns below the width);
   * [smith_diag] is sound: whenever it answers [Some ds] on well-formed rows, every d in ds is > 0,
     d_k | d_(k+1), #ds <= min(m, n), and there are integer matrices P, P', Q, Q' with
     P P' = I = P' P,  Q Q' = I = Q' Q  and  P A Q = diag(ds) (padded with zeros) for the dense matrix A;
   * hence the number of factors is the rank of A (the size of ANY diagonal form with non-zero diagonal),
     and a table entry [group_at n_k D_(k-1) D_k] has free rank n_k - rank d_k - rank d_(k-1) and lists
     as torsion exactly the factors > 1 of d_(k-1);
   * for the cube of any diagram ([build_cube]) all rows are well-formed, so every entry of [kh_groups]
     and of [kh_groups_bigraded] is of this form.

   Not claimed: termination (the statements are "whenever the run returns Some"; the fuel is checked by
   execution on every instance), and that the v2 engine computes the homology of this complex for every
   diagram (Bar-Natan's theorem, see C01.v). *)
From Coq Require Import List Bool ZArith.
Require Import Yui.Base.Ring Yui.Base.MatF Yui.Proofs.C07Algebra.
Require Import Yui.Model.KhCube Yui.Model.KhHomology.
Require Import Yui.Proofs.KhSmithRows Yui.Proofs.KhSmithMat Yui.Proofs.KhSmithSteps
               Yui.Proofs.KhSmithMain Yui.Proofs.KhSmithTables.
Import ListNotations.
Open Scope Z_scope.

Theorem C01_oracle_row_axpy : forall n q a b,
  row_wf n a -> row_wf n b ->
  row_wf n (row_axpy q a b) /\ forall j, row_get (row_axpy q a b) j = row_get b j - q * row_get a j.
Proof.
  intros n q a b Ha Hb. split; [now apply row_axpy_wf|].
  intros j. apply (row_axpy_get q 0); [apply Ha|apply Hb].
Qed.
Print Assumptions C01_oracle_row_axpy.

Theorem C01_oracle_row_add : forall n a b,
  row_wf n a -> row_wf n b ->
  row_wf n (row_add a b) /\ forall j, row_get (row_add a b) j = row_get a j + row_get b j.
Proof.
  intros n a b Ha Hb. split; [now apply row_add_wf|].
  intros j. apply (row_add_get 0); [apply Ha|apply Hb].
Qed.
Print Assumptions C01_oracle_row_add.

(* the filter / mod step of the column phase *)
Theorem C01_oracle_col_reduce : forall n j a r,
  row_wf n r ->
  let r' := filter (fun e => negb (snd e =? 0))
                   (map (fun e => if (fst e =? j)%nat then e else (fst e, snd e mod a)) r) in
  row_wf n r' /\ forall c, row_get r' c = if (c =? j)%nat then row_get r c else row_get r c mod a.
Proof.
  intros n j a r Hr. split; [exact (col_reduce_wf n j a r Hr)|].
  intros c. apply (col_reduce_get j a 0). apply Hr.
Qed.
Print Assumptions C01_oracle_col_reduce.

Theorem C01_oracle_replace_remove : forall n i (y : row) rows,
  rows_wf n rows ->
  (row_wf n y -> rows_wf n (replace_nth i y rows)) /\ rows_wf n (remove_nth i rows) /\
  ((i < length rows)%nat ->
   forall x c, dense (replace_nth i y rows) x c = if (x =? i)%nat then row_get y c else dense rows x c) /\
  (forall x c, dense (remove_nth i rows) x c = dense rows (if (x <? i)%nat then x else S x) c).
Proof.
  intros n i y rows H. split; [intros Hy; now apply replace_nth_Forall|].
  split; [now apply remove_nth_Forall|]. split; [intros Hi x c; now apply dense_replace|].
  intros x c. apply dense_remove.
Qed.
Print Assumptions C01_oracle_replace_remove.

(* the rows the oracle builds are well-formed, with the expected dense values *)
Theorem C01_oracle_row_of_entries : forall es,
  wf_above 0 (row_of_entries es) /\ forall j, row_get (row_of_entries es) j = entries_get es j.
Proof. intros es. split; [apply row_of_entries_wf_above|intros j; apply row_of_entries_get]. Qed.
Print Assumptions C01_oracle_row_of_entries.

Theorem C01_oracle_smith_sound : forall n fuel rows ds,
  rows_wf n rows -> smith_diag fuel rows = Some ds -> SmithOf (length rows) n (dense rows) ds.
Proof. exact smith_diag_sound. Qed.
Print Assumptions C01_oracle_smith_sound.

(* the same with everything unfolded *)
Theorem C01_oracle_smith_sound_PQ : forall n fuel rows ds,
  rows_wf n rows -> smith_diag fuel rows = Some ds ->
  let m := length rows in
  (forall d, In d ds -> 0 < d) /\
  (forall t, (S t < length ds)%nat -> (nth t ds 0 | nth (S t) ds 0)) /\
  (length ds <= Nat.min m n)%nat /\
  exists P P' Q Q' : mat Z,
    meq m m (mmul Z_ring m P P') (mid Z_ring) /\ meq m m (mmul Z_ring m P' P) (mid Z_ring) /\
    meq n n (mmul Z_ring n Q Q') (mid Z_ring) /\ meq n n (mmul Z_ring n Q' Q) (mid Z_ring) /\
    forall i j, (i < m)%nat -> (j < n)%nat ->
      mmul Z_ring m P (mmul Z_ring n (dense rows) Q) i j
      = if (i =? j)%nat && (i <? length ds)%nat then nth i ds 0 else 0.
Proof. exact smith_diag_sound_PQ. Qed.
Print Assumptions C01_oracle_smith_sound_PQ.

(* in the vocabulary of C07: a diagonal form with non-zero diagonal; its size is the rank of the matrix *)
Theorem C01_oracle_smith_rank : forall m n A ds,
  SmithOf m n A ds ->
  smith_form Z_ring m n A (length ds) (fun i => nth i ds 0) /\
  forall r a, smith_form Z_ring m n A r a -> r = length ds.
Proof. intros m n A ds H. split; [now apply SmithOf_smith_form|now apply SmithOf_rank_unique]. Qed.
Print Assumptions C01_oracle_smith_rank.

Theorem C01_oracle_group_at : forall nk m1 n1 A1 dprev m2 n2 A2 dk,
  SmithOf m1 n1 A1 dprev -> SmithOf m2 n2 A2 dk ->
  let g := group_at nk dprev dk in
  (forall r1 a1 r2 a2,
      smith_form Z_ring m1 n1 A1 r1 a1 -> smith_form Z_ring m2 n2 A2 r2 a2 ->
      g_rank g = Z.of_nat nk - Z.of_nat r2 - Z.of_nat r1) /\
  g_tors g = filter (fun d => 1 <? d) dprev /\
  (forall d, In d (g_tors g) <-> In d dprev /\ 1 < d) /\
  (length dprev = length (g_tors g) + length (filter (fun d => (d =? 1)%Z) dprev))%nat.
Proof. exact group_at_denotes. Qed.
Print Assumptions C01_oracle_group_at.

Theorem C01_oracle_cube_rows_wf : forall l red h t, cube_shape (build_cube l red h t).
Proof. exact build_cube_shape. Qed.
Print Assumptions C01_oracle_cube_rows_wf.

Theorem C01_oracle_factors_sound : forall c k sel ds,
  cube_shape c -> factors c k sel = Some ds -> IsFactorsOf c k sel ds.
Proof. exact factors_sound. Qed.
Print Assumptions C01_oracle_factors_sound.

Theorem C01_oracle_table_sound : forall l red h t gs,
  kh_groups (build_cube l red h t) = Some gs ->
  let c := build_cube l red h t in
  forall k, (k <= crossing_num l)%nat -> exists dp dk,
    nth_error gs k = Some (k, group_at (count_gens c k (fun _ => true)) dp dk) /\
    IsFactorsOf c k (fun _ => true) dk /\
    match k with O => dp = [] | S k' => IsFactorsOf c k' (fun _ => true) dp end.
Proof. exact kh_groups_sound. Qed.
Print Assumptions C01_oracle_table_sound.

(* the bigraded table (C03, C02, C06): every quantum-degree piece *)
Theorem C01_oracle_bigraded_sound : forall l red h t tbl,
  kh_groups_bigraded (build_cube l red h t) = Some tbl ->
  let c := build_cube l red h t in
  forall q gq, In (q, gq) tbl ->
  let sel := fun g => q_local g =? q in
  forall k, (k <= crossing_num l)%nat -> exists dp dk,
    nth_error gq k = Some (k, group_at (count_gens c k sel) dp dk) /\
    IsFactorsOf c k sel dk /\
    match k with O => dp = [] | S k' => IsFactorsOf c k' sel dp end.
Proof. exact kh_groups_bigraded_sound. Qed.
Print Assumptions C01_oracle_bigraded_sound.

Definition smith_ex1 : list row :=
  [[(0%nat, 1); (1%nat, 2); (2%nat, 6)]; [(0%nat, 1); (1%nat, 4); (2%nat, 6)]; [(0%nat, 1); (1%nat, 2); (2%nat, 12)]].
Definition smith_ex2 : list row :=
  [[(0%nat, 2); (1%nat, 4); (2%nat, 4)]; [(0%nat, -6); (1%nat, 6); (2%nat, 12)]; [(0%nat, 10); (1%nat, -4); (2%nat, -16)]].

Example C01_smith_example_run :
  rows_wfb 3 smith_ex1 = true /\ smith_diag 1000 smith_ex1 = Some [1; 2; 6] /\
  rows_wfb 3 smith_ex2 = true /\ smith_diag 1000 smith_ex2 = Some [2; 6; 12].
Proof. vm_compute. repeat split. Qed.

Example C01_smith_example_sound :
  SmithOf 3 3 (dense smith_ex1) [1; 2; 6] /\ SmithOf 3 3 (dense smith_ex2) [2; 6; 12].
Proof.
  split.
  - apply (smith_diag_sound 3 1000 smith_ex1); [apply rows_wfb_ok|]; vm_compute; reflexivity.
  - apply (smith_diag_sound 3 1000 smith_ex2); [apply rows_wfb_ok|]; vm_compute; reflexivity.
Qed.

(* the trefoil: the hypotheses of the table theorem hold, degree 1 is  Z + Z/2  from the factors of d_0, d_1 *)
Example C01_smith_example_trefoil :
  let c := build_cube [(CX, (1, 4, 2, 5)); (CX, (3, 6, 4, 1)); (CX, (5, 2, 6, 3))]%nat None 0 0 in
  factors c 0 (fun _ => true) = Some [1; 1; 1; 1; 1; 1; 2] /\
  factors c 1 (fun _ => true) = Some [1; 1; 1; 1] /\
  count_gens c 1 (fun _ => true) = 12%nat /\
  option_map (fun gs => nth_error gs 1) (kh_groups c)
  = Some (Some (1%nat, group_at 12 [1; 1; 1; 1; 1; 1; 2] [1; 1; 1; 1])).
Proof. vm_compute. repeat split. Qed.
