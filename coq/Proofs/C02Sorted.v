(* C02 (invariance of the cube-of-resolutions oracle under relabelling / orientation reversal / crossing
   reordering): the list primitives of Model/KhCube.v ([insert_sorted], [sort_nodup],
   [merge_sorted], [list_eqb], [insert_class], [sort_classes]) and the uniqueness of key-sorted lists. *)
From Coq Require Import List Arith Bool Lia.
Require Import Yui.Model.KhCube.
Require Import Yui.Base.ListFacts.
Import ListNotations.

(* strictly increasing keys *)
Fixpoint ksorted {A} (f : A -> nat) (l : list A) : Prop :=
  match l with
  | [] => True
  | x :: r => (forall y, In y r -> f x < f y) /\ ksorted f r
  end.

Lemma ksorted_unique {A} (f : A -> nat) (l1 l2 : list A) :
  ksorted f l1 -> ksorted f l2 -> (forall x, In x l1 <-> In x l2) -> l1 = l2.
Proof.
  revert l2. induction l1 as [|x l1 IH]; intros [|y l2] S1 S2 H.
  - reflexivity.
  - exfalso. apply (proj2 (H y)). now left.
  - exfalso. apply (proj1 (H x)). now left.
  - cbn [ksorted] in S1, S2. destruct S1 as [A1 S1], S2 as [A2 S2].
    assert (E : x = y).
    { destruct (proj1 (H x) (or_introl eq_refl)) as [E|Hx]; [now symmetry|].
      destruct (proj2 (H y) (or_introl eq_refl)) as [E|Hy]; [exact E|].
      pose proof (A2 x Hx). pose proof (A1 y Hy). lia. }
    subst y. f_equal. apply IH; [exact S1|exact S2|].
    intros z. split; intros Hz.
    + destruct (proj1 (H z) (or_intror Hz)) as [E|Hz2]; [|exact Hz2].
      subst z. pose proof (A1 x Hz). lia.
    + destruct (proj2 (H z) (or_intror Hz)) as [E|Hz2]; [|exact Hz2].
      subst z. pose proof (A2 x Hz). lia.
Qed.

Lemma ksorted_NoDup {A} (f : A -> nat) (l : list A) : ksorted f l -> NoDup l.
Proof.
  induction l as [|x l IH]; intros S; [constructor|].
  destruct S as [A1 S]. constructor; [|now apply IH].
  intros Hx. pose proof (A1 x Hx). lia.
Qed.

Lemma ksorted_map {A B} (f : B -> nat) (g : A -> B) (l : list A) :
  ksorted f (map g l) <-> ksorted (fun x => f (g x)) l.
Proof.
  induction l as [|x l IH]; [reflexivity|]. cbn [map ksorted]. rewrite IH.
  split; intros [H1 H2]; (split; [|exact H2]).
  - intros y Hy. apply H1. now apply in_map.
  - intros y Hy. apply in_map_iff in Hy. destruct Hy as [z [<- Hz]]. now apply H1.
Qed.

Lemma ksorted_ext {A} (f g : A -> nat) (l : list A) :
  (forall x y, In x l -> In y l -> f x < f y -> g x < g y) -> ksorted f l -> ksorted g l.
Proof.
  induction l as [|x l IH]; intros H S; [exact I|]. destruct S as [A1 S]. split.
  - intros y Hy. apply H; [now left|now right|now apply A1].
  - apply IH; [|exact S]. intros a b Ha Hb. apply H; now right.
Qed.

(* [In z (x :: l)] unfolds to [x = z \/ In z l]: the membership lemmas below turn [z = x] round first *)
Lemma eq_swap {A} (a b : A) : a = b <-> b = a.
Proof. split; intros H; now symmetry. Qed.

Lemma insert_sorted_In x l z : In z (insert_sorted x l) <-> z = x \/ In z l.
Proof.
  rewrite (eq_swap z x). induction l as [|y l IH]; cbn [insert_sorted]; [reflexivity|].
  destruct (Nat.ltb_spec x y); [reflexivity|].
  destruct (Nat.eqb_spec x y) as [->|]; cbn [In]; [|rewrite IH]; tauto.
Qed.

Lemma insert_sorted_sorted x l : ksorted id l -> ksorted id (insert_sorted x l).
Proof.
  induction l as [|y l IH]; intros S; cbn [insert_sorted].
  - cbn. split; [intros ? []|exact I].
  - destruct S as [A1 S].
    destruct (Nat.ltb_spec x y) as [Hlt|Hge].
    + split; [|split; assumption]. intros z [<-|Hz]; [exact Hlt|]. pose proof (A1 z Hz). unfold id in *. lia.
    + destruct (Nat.eqb_spec x y) as [->|Hne]; [split; assumption|].
      split; [|now apply IH]. intros z Hz. apply insert_sorted_In in Hz. destruct Hz as [->|Hz].
      * unfold id. lia.
      * now apply A1.
Qed.

Lemma sort_nodup_In l z : In z (sort_nodup l) <-> In z l.
Proof.
  unfold sort_nodup. induction l as [|x l IH]; [reflexivity|]. cbn [fold_right In].
  now rewrite insert_sorted_In, IH, (eq_swap z x).
Qed.

Lemma sort_nodup_sorted l : ksorted id (sort_nodup l).
Proof.
  unfold sort_nodup. induction l as [|x l IH]; [exact I|]. cbn [fold_right]. now apply insert_sorted_sorted.
Qed.

Lemma sort_nodup_id l : ksorted id l -> sort_nodup l = l.
Proof.
  intros S. apply (ksorted_unique id); [apply sort_nodup_sorted|exact S|apply sort_nodup_In].
Qed.

Lemma merge_sorted_fuel_In fuel a b z : In z (merge_sorted_fuel fuel a b) <-> In z a \/ In z b.
Proof.
  revert a b. induction fuel as [|f IH]; intros a b; cbn [merge_sorted_fuel].
  - apply in_app_iff.
  - destruct a as [|x a]; [cbn [In]; tauto|]. destruct b as [|y b]; [cbn [In]; tauto|].
    destruct (Nat.ltb_spec x y); [cbn [In]; rewrite IH; cbn [In]; tauto|].
    destruct (Nat.eqb_spec x y) as [->|]; cbn [In]; rewrite IH; cbn [In]; tauto.
Qed.

Lemma merge_sorted_fuel_sorted fuel a b :
  length a + length b <= fuel -> ksorted id a -> ksorted id b -> ksorted id (merge_sorted_fuel fuel a b).
Proof.
  revert a b. induction fuel as [|f IH]; intros a b Hf Sa Sb; cbn [merge_sorted_fuel].
  - destruct a; [|cbn in Hf; lia]. destruct b; [exact I|cbn in Hf; lia].
  - destruct a as [|x a]; [exact Sb|]. destruct b as [|y b]; [exact Sa|].
    cbn [length] in Hf. pose proof Sa as [A1 Sa']. pose proof Sb as [B1 Sb'].
    destruct (Nat.ltb_spec x y) as [Hlt|Hge].
    + split; [|apply IH; [cbn [length]; lia|exact Sa'|exact Sb]].
      intros z Hz. apply merge_sorted_fuel_In in Hz. destruct Hz as [Hz|[<-|Hz]].
      * now apply A1.
      * exact Hlt.
      * pose proof (B1 z Hz). unfold id in *. lia.
    + destruct (Nat.eqb_spec x y) as [->|Hne].
      * split; [|apply IH; [lia|exact Sa'|exact Sb']].
        intros z Hz. apply merge_sorted_fuel_In in Hz. destruct Hz as [Hz|Hz]; [now apply A1|now apply B1].
      * split; [|apply IH; [cbn [length]; lia|exact Sa|exact Sb']].
        intros z Hz. apply merge_sorted_fuel_In in Hz. destruct Hz as [[<-|Hz]|Hz].
        -- unfold id. lia.
        -- pose proof (A1 z Hz). unfold id in *. lia.
        -- now apply B1.
Qed.

Lemma merge_sorted_In a b z : In z (merge_sorted a b) <-> In z a \/ In z b.
Proof. apply merge_sorted_fuel_In. Qed.

Lemma merge_sorted_sorted a b : ksorted id a -> ksorted id b -> ksorted id (merge_sorted a b).
Proof. apply merge_sorted_fuel_sorted. lia. Qed.

Lemma list_eqb_spec a b : list_eqb a b = true <-> a = b.
Proof.
  revert b. induction a as [|x a IH]; intros [|y b]; cbn [list_eqb]; try (split; [discriminate|discriminate]).
  - split; reflexivity.
  - rewrite andb_true_iff, Nat.eqb_eq, IH. split; [intros [-> ->]; reflexivity|intros E; now inversion E].
Qed.

Lemma list_eqb_refl a : list_eqb a a = true.
Proof. now apply list_eqb_spec. Qed.

Lemma list_eqb_false a b : list_eqb a b = false <-> a <> b.
Proof.
  rewrite <- list_eqb_spec. destruct (list_eqb a b); split; intros H; congruence.
Qed.

Lemma insert_class_In c p d : In d (insert_class c p) <-> d = c \/ In d p.
Proof.
  rewrite (eq_swap d c). induction p as [|x p IH]; cbn [insert_class]; [reflexivity|].
  destruct (hd 0 c <? hd 0 x); cbn [In]; [|rewrite IH]; tauto.
Qed.

Lemma sort_classes_In p d : In d (sort_classes p) <-> In d p.
Proof.
  unfold sort_classes. induction p as [|c p IH]; [reflexivity|]. cbn [fold_right In].
  now rewrite insert_class_In, IH, (eq_swap d c).
Qed.

Lemma sort_classes_length p : length (sort_classes p) = length p.
Proof.
  unfold sort_classes. induction p as [|c p IH]; [reflexivity|]. cbn [fold_right length]. rewrite <- IH.
  generalize (fold_right insert_class [] p). intros q. induction q as [|d q IHq]; [reflexivity|].
  cbn [insert_class]. destruct (hd 0 c <? hd 0 d); cbn [length]; [reflexivity|]. now rewrite IHq.
Qed.

Lemma insert_class_sorted c p :
  ksorted (hd 0) p -> (forall d, In d p -> hd 0 d <> hd 0 c) -> ksorted (hd 0) (insert_class c p).
Proof.
  induction p as [|x p IH]; intros S Hne; cbn [insert_class].
  - split; [intros ? []|exact I].
  - destruct S as [A1 S]. destruct (Nat.ltb_spec (hd 0 c) (hd 0 x)) as [Hlt|Hge].
    + split; [|split; assumption]. intros z [<-|Hz]; [exact Hlt|]. pose proof (A1 z Hz). lia.
    + split; [|apply IH; [exact S|intros d Hd; apply Hne; now right]].
      intros z Hz. apply insert_class_In in Hz. destruct Hz as [->|Hz]; [|now apply A1].
      pose proof (Hne x (or_introl eq_refl)). lia.
Qed.

Lemma sort_classes_sorted p :
  NoDup p -> (forall c d, In c p -> In d p -> c <> d -> hd 0 c <> hd 0 d) -> ksorted (hd 0) (sort_classes p).
Proof.
  unfold sort_classes. induction p as [|c p IH]; intros Hnd Hh; [exact I|]. cbn [fold_right].
  inversion Hnd as [|? ? Hc Hnd']; subst.
  apply insert_class_sorted.
  - apply IH; [exact Hnd'|]. intros a b Ha Hb. apply Hh; now right.
  - intros d Hd. apply (sort_classes_In p d) in Hd. apply Hh; [now right|now left|]. intros ->. contradiction.
Qed.

Lemma sort_classes_id p : ksorted (hd 0) p -> sort_classes p = p.
Proof.
  unfold sort_classes. induction p as [|c p IH]; intros S; [reflexivity|]. cbn [fold_right].
  destruct S as [A1 S]. rewrite IH by exact S.
  destruct p as [|d p]; [reflexivity|]. cbn [insert_class].
  destruct (Nat.ltb_spec (hd 0 c) (hd 0 d)) as [_|Hge]; [reflexivity|].
  pose proof (A1 d (or_introl eq_refl)). lia.
Qed.
