(* C18 - crossing indexing: crossing_at(i) / crossing_at_mut(i) address the i-th UNRESOLVED crossing of the
   data vector (not the i-th entry), resolved_at(i, r) rewrites exactly that entry, and smoothing two
   crossings one at a time gives the same diagram in either order. *)
From Coq Require Import List Arith Bool Lia.
Require Import Yui.Model.Link Yui.Model.LinkAt Yui.Proofs.C18Resolve.
Import ListNotations.

Definition unresolved (l : link) : list crossing := filter (fun c => negb (is_resolved c)) l.

Lemma crossing_num_unresolved : forall l, crossing_num l = length (unresolved l).
Proof. reflexivity. Qed.

(* the index found: it is in range, the entry is unresolved, exactly i unresolved entries precede it *)
Lemma crossing_index_from_spec : forall l j0 i,
  match crossing_index_from j0 l i with
  | Some j => exists k, j = j0 + k /\ k < length l /\
                        (exists c, nth_error l k = Some c /\ is_resolved c = false) /\
                        crossing_num (firstn k l) = i
  | None => crossing_num l <= i
  end.
Proof.
  induction l as [|c l IH]; intros j0 i; cbn [crossing_index_from].
  - cbn. lia.
  - destruct (is_resolved c) eqn:R.
    + specialize (IH (S j0) i). destruct (crossing_index_from (S j0) l i) as [j|].
      * destruct IH as (k & -> & Hk & (c' & Hn & Hc) & Hf). exists (S k). split; [lia|].
        split; [cbn; lia|]. split; [exists c'; auto|].
        cbn [firstn]. rewrite crossing_num_cons, R. exact Hf.
      * rewrite crossing_num_cons, R. lia.
    + destruct i as [|i].
      * exists 0. split; [lia|]. split; [cbn; lia|]. split; [exists c; auto|]. reflexivity.
      * specialize (IH (S j0) i). destruct (crossing_index_from (S j0) l i) as [j|].
        { destruct IH as (k & -> & Hk & (c' & Hn & Hc) & Hf). exists (S k). split; [lia|].
          split; [cbn; lia|]. split; [exists c'; auto|].
          cbn [firstn]. rewrite crossing_num_cons, R. lia. }
        { rewrite crossing_num_cons, R. lia. }
Qed.

Lemma crossing_index_spec : forall l i,
  match crossing_index l i with
  | Some j => j < length l /\ (exists c, nth_error l j = Some c /\ is_resolved c = false) /\
              crossing_num (firstn j l) = i
  | None => crossing_num l <= i
  end.
Proof.
  intros l i. unfold crossing_index. pose proof (crossing_index_from_spec l 0 i) as S.
  destruct (crossing_index_from 0 l i) as [j|]; [|exact S].
  destruct S as (k & -> & Hk & Hc & Hf). cbn. auto.
Qed.

Lemma crossing_index_some_iff : forall l i,
  (i < crossing_num l <-> exists j, crossing_index l i = Some j).
Proof.
  intros l i. pose proof (crossing_index_spec l i) as S. split.
  - intros Hi. destruct (crossing_index l i) as [j|]; [eauto|lia].
  - intros (j & E). rewrite E in S. destruct S as (Hj & (c & Hn & Hc) & Hf).
    rewrite <- Hf. clear Hf.
    rewrite <- (firstn_skipn j l) at 2. unfold crossing_num. rewrite filter_app, app_length.
    assert (Hs : exists t, skipn j l = c :: t).
    { clear -Hn. revert j Hn. induction l as [|a l IH]; intros [|j] Hn; cbn in *; try discriminate.
      - injection Hn as ->. eauto.
      - apply IH; exact Hn. }
    destruct Hs as (t & ->). cbn [filter]. rewrite Hc. cbn. lia.
Qed.

Lemma shift_index : forall l j0 i,
  crossing_index_from (S j0) l i = option_map S (crossing_index_from j0 l i).
Proof.
  induction l as [|c l IH]; intros j0 i; cbn [crossing_index_from]; [reflexivity|].
  destruct (is_resolved c); [apply IH|]. destruct i; [reflexivity|apply IH].
Qed.

Theorem crossing_at_nth : forall l i, crossing_at l i = nth_error (unresolved l) i.
Proof.
  unfold crossing_at, crossing_index, unresolved.
  induction l as [|c l IH]; intros i; cbn [crossing_index_from filter].
  - destruct i; reflexivity.
  - destruct (is_resolved c) eqn:R; cbn [negb].
    + rewrite shift_index. specialize (IH i).
      destruct (crossing_index_from 0 l i) as [j|]; cbn [option_map nth_error]; exact IH.
    + destruct i as [|i]; [reflexivity|]. cbn [nth_error]. rewrite shift_index. specialize (IH i).
      destruct (crossing_index_from 0 l i) as [j|]; cbn [option_map nth_error]; exact IH.
Qed.

(* resolved_at(i, r) = "find the index, resolve that entry in place" - the two call forms agree *)
Theorem resolve_at_via_index : forall l i r, resolve_at l i r = resolve_via_index l i r.
Proof.
  unfold resolve_via_index, crossing_index.
  induction l as [|c l IH]; intros i r; cbn [resolve_at crossing_index_from]; [reflexivity|].
  assert (Step : forall i,
    option_map (cons c) (resolve_at l i r) =
    match crossing_index_from 1 l i with
    | Some j => match nth_error (c :: l) j with
                | Some c0 => option_map (fun c' => firstn j (c :: l) ++ c' :: skipn (S j) (c :: l)) (resolve_c c0 r)
                | None => None
                end
    | None => None
    end).
  { intros i'. rewrite IH, shift_index.
    destruct (crossing_index_from 0 l i') as [j|]; cbn [option_map]; [|reflexivity].
    cbn [nth_error firstn skipn]. destruct (nth_error l j) as [c0|]; [|reflexivity].
    destruct (resolve_c c0 r); reflexivity. }
  destruct (is_resolved c) eqn:R; [apply Step|].
  destruct i as [|i]; [|apply Step].
  cbn [nth_error firstn skipn app]. reflexivity.
Qed.

(* the entry rewritten by resolved_at(i, r) is the i-th unresolved crossing, now smoothed; everything
   else is untouched *)
Theorem resolved_at_entry : forall l i r, i < crossing_num l ->
  exists j c c', crossing_index l i = Some j /\ nth_error l j = Some c /\ nth_error (unresolved l) i = Some c /\
                 resolve_c c r = Some c' /\ is_resolved c' = true /\
                 resolved_at l i r = Some (firstn j l ++ c' :: skipn (S j) l).
Proof.
  intros l i r Hi. unfold resolved_at. rewrite resolve_at_via_index. unfold resolve_via_index.
  pose proof (crossing_at_nth l i) as A. unfold crossing_at in A.
  pose proof (crossing_index_spec l i) as S.
  destruct (crossing_index l i) as [j|]; [|lia].
  destruct S as (Hj & (c & Hn & Hc) & Hf). rewrite Hn in *.
  destruct (resolve_c_spec c r Hc) as (c' & E & _ & RC).
  exists j, c, c'. rewrite E. cbn [option_map]. repeat split; auto.
Qed.

(* the unresolved crossings after one smoothing: the i-th one is removed, the order of the others is kept *)
Lemma unresolved_resolve_at : forall l i r l', resolve_at l i r = Some l' ->
  unresolved l' = firstn i (unresolved l) ++ skipn (S i) (unresolved l).
Proof.
  unfold unresolved.
  induction l as [|c l IH]; intros i r l' E; cbn [resolve_at] in E; [discriminate|].
  destruct (is_resolved c) eqn:R.
  - destruct (resolve_at l i r) as [l1|] eqn:E1; [|discriminate]. injection E as <-.
    cbn [filter]. rewrite R. cbn [negb]. eapply IH; eauto.
  - destruct i as [|i].
    + destruct (resolve_c c r) as [c'|] eqn:Ec; [|discriminate]. injection E as <-.
      cbn [filter]. rewrite R. cbn [negb firstn skipn app].
      assert (is_resolved c' = true) as ->.
      { destruct (resolve_c_spec c r R) as (c2 & E2 & _ & RC). congruence. }
      reflexivity.
    + destruct (resolve_at l i r) as [l1|] eqn:E1; [|discriminate]. injection E as <-.
      cbn [filter]. rewrite R. cbn [negb firstn skipn app]. f_equal. eapply IH; eauto.
Qed.

Lemma bind_cons_resolved : forall c (o : option link) n r, is_resolved c = true ->
  match option_map (cons c) o with Some l1 => resolve_at l1 n r | None => None end =
  option_map (cons c) (match o with Some l1 => resolve_at l1 n r | None => None end).
Proof. intros c [l1|] n r R; cbn [option_map resolve_at]; [rewrite R|]; reflexivity. Qed.
Lemma bind_cons_unresolved : forall c (o : option link) n r, is_resolved c = false ->
  match option_map (cons c) o with Some l1 => resolve_at l1 (S n) r | None => None end =
  option_map (cons c) (match o with Some l1 => resolve_at l1 n r | None => None end).
Proof. intros c [l1|] n r R; cbn [option_map resolve_at]; [rewrite R|]; reflexivity. Qed.

(* order independence: smoothing crossing i and crossing k (i < k, indices of the ORIGINAL diagram) one at a
   time gives the same diagram in both orders - after i is gone, the old k is addressed as k - 1 *)
Theorem resolved_at_commute : forall l i k a b, i < k ->
  match resolved_at l i a with Some l1 => resolved_at l1 (k - 1) b | None => None end =
  match resolved_at l k b with Some l2 => resolved_at l2 i a | None => None end.
Proof.
  unfold resolved_at.
  induction l as [|c l IH]; intros i k a b Hik; cbn [resolve_at]; [reflexivity|].
  destruct (is_resolved c) eqn:R.
  - rewrite !bind_cons_resolved by exact R. f_equal. apply IH; exact Hik.
  - destruct k as [|k]; [lia|]. replace (S k - 1) with k by lia.
    destruct i as [|i].
    + destruct (resolve_c_spec c a R) as (c' & E & _ & RC). rewrite E. cbn [option_map resolve_at].
      rewrite RC. destruct (resolve_at l k b) as [l2|]; cbn [option_map resolve_at]; [|reflexivity].
      rewrite R, E. reflexivity.
    + destruct k as [|k]; [lia|].
      rewrite !bind_cons_unresolved by exact R. f_equal.
      specialize (IH i (S k) a b ltac:(lia)). replace (S k - 1) with k in IH by lia. exact IH.
Qed.

Lemma crossing_at_none_iff : forall l i, crossing_at l i = None <-> crossing_num l <= i.
Proof. intros l i. rewrite crossing_at_nth, crossing_num_unresolved. apply nth_error_None. Qed.

Lemma crossing_index_some_spec : forall l i j, crossing_index l i = Some j ->
  j < length l /\ (exists c, nth_error l j = Some c /\ is_resolved c = false) /\ crossing_num (firstn j l) = i.
Proof. intros l i j E. pose proof (crossing_index_spec l i) as S. rewrite E in S. exact S. Qed.

(* non-vacuity: the trefoil with crossing 0 already smoothed, so that data index and crossing index differ *)
Definition trefoil : link := [mkX X 1 4 2 5; mkX X 3 6 4 1; mkX X 5 2 6 3].
Lemma trefoil_example :
  exists l1, resolved_at trefoil 0 false = Some l1 /\
    crossing_index l1 1 = Some 2 /\ crossing_at l1 1 = Some (mkX X 5 2 6 3) /\
    resolved_at l1 1 true = Some [mkX H 1 4 2 5; mkX X 3 6 4 1; mkX V 5 2 6 3] /\
    crossing_at l1 2 = None.
Proof. eexists. repeat split. Qed.
