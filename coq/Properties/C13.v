(* C13 - Sparse and dense matrix containers implement ordinary matrix algebra; a composed coordinate
   transform applies the same linear map as the product of its factors, before and after it is collapsed.
   Property theorems only: each is proved by [exact <lemma>] or a short combination of proved lemmas and is
   followed by Print Assumptions; the Examples instantiate the hypotheses on concrete values.

   Models: Model/Dense.v (Mat<R>), Model/Sparse.v (SpMat<R>, SpVec<R>, util::perm_for_indices),
   Model/Trans.v (Trans<R>) - mirrors of yui-matrix/src/dense/mat.rs, sparse/{sp_mat,sp_vec,util,trans}.rs;
   a Rust panic is [None].  All theorems hold for EVERY commutative ring with laws ([ring_laws o]); the
   rings of the property are instances: Z ([Z_ring_laws]), Q ([C13_ring_Q], canonical rationals) and Z/p
   ([C13_ring_Fp], canonical residues, every modulus).

   Reading the statements.
     mat R = nat -> nat -> R          the mathematical matrix (Base/MatF.v): mzero, mid, madd, mneg, msub,
                                      mtrans, [mmul n A B] = product with inner dimension n,
                                      [mvec n A v] = matrix times vector, [meq m n A B] = equal on the m x n window
     entry o a i j                    the entry (i,j) of a sparse matrix = the sum of the values STORED at (i,j)
                                      (0 when nothing is stored there; a stored value may be 0)
     sp_wf a                          the CSC invariant: stored positions in range, strictly increasing in
                                      column-major order - in particular at most one stored value per position,
                                      which MAY be zero ([C13_def_sp_wf]); every operation returns sp_wf values
     sp_is o a m n f                  a is sp_wf, has shape m x n and entry (i,j) = f i j for i < m, j < n
                                      ([C13_def_sp_is]; outside the window entries are 0: [C13_entry_outside])
     sv_is o v d f                    v is an sp_wf vector (one column) of dimension d with entries f
     vec_wf v                         sp_wf v and exactly one column
     d_is o A m n f                   the dense matrix A has shape m x n, rectangular rows, and entries f
     is_perm p, pat p i               p is a permutation of 0..length p - 1 given by its image list; pat p i = p(i)
   All statements quantify over all shapes - m = 0 or n = 0 included - and, for sparse operands, over all
   well-formed stored patterns, explicit zeros included.  A theorem of the form
   [match op .. with Some r => G /\ spec | None => ~ G end] says: the operation panics exactly when its
   guard G fails, and otherwise returns what the mathematical definition gives. *)
From Coq Require Import Arith List Bool ZArith QArith Qcanon Sorted.
Require Import Yui.Base.Ring Yui.Base.MatF Yui.Base.MatL.
Require Import Yui.Model.Dense Yui.Model.Sparse Yui.Model.Trans.
Require Import Yui.Proofs.C13Dense Yui.Proofs.C13SpBase Yui.Proofs.C13Sparse Yui.Proofs.C13SpArith
               Yui.Proofs.C13SpVec Yui.Proofs.C13Trans Yui.Proofs.C13Extra.
Import ListNotations.
Close Scope Q_scope.
Close Scope Qc_scope.
Close Scope Z_scope.
Open Scope nat_scope.
Theorem C13_def_sp_is :
  forall (R : Type) (o : ring_ops R) (a : spmat R) (m n : nat) (f : nat -> nat -> R),
  sp_is o a m n f <->
  sp_m a = m /\ sp_n a = n /\ sp_wfb a = true /\ (forall i j : nat, i < m -> j < n -> entry o a i j = f i j).
Proof. exact @sp_is_unfold. Qed.
Print Assumptions C13_def_sp_is.

Theorem C13_def_sv_is :
  forall (R : Type) (o : ring_ops R) (v : spmat R) (d : nat) (f : nat -> R),
  sv_is o v d f <->
  sp_m v = d /\ sp_n v = 1 /\ sp_wfb v = true /\ (forall i j : nat, i < d -> j < 1 -> entry o v i j = f i).
Proof. exact @sv_is_unfold. Qed.
Print Assumptions C13_def_sv_is.

Theorem C13_def_d_is :
  forall (R : Type) (o : ring_ops R) (A : dmat R) (m n : nat) (f : nat -> nat -> R),
  d_is o A m n f <->
  dm A = m /\
  dn A = n /\
  (length (dd A) = dm A /\ Forall (fun r : list R => length r = dn A) (dd A)) /\
  (forall i j : nat, i < m -> j < n -> d_get o A i j = f i j).
Proof. exact @d_is_unfold. Qed.
Print Assumptions C13_def_d_is.

Theorem C13_def_sp_wf :
  forall (R : Type) (a : spmat R),
  sp_wf a <->
  (forall e : ent R, In e (sp_st a) -> e_row e < sp_m a /\ e_col e < sp_n a) /\
  Sorted.StronglySorted (fun e e' : ent R => e_col e < e_col e' \/ e_col e = e_col e' /\ e_row e < e_row e')
    (sp_st a).
Proof. exact @sp_wf_unfold. Qed.
Print Assumptions C13_def_sp_wf.

Theorem C13_def_vec_wf :
  forall (R : Type) (v : spmat R), vec_wf v <-> sp_wfb v = true /\ sp_n v = 1.
Proof. exact @vec_wf_unfold. Qed.
Print Assumptions C13_def_vec_wf.

Theorem C13_def_is_perm :
  forall p : perm, is_perm p <-> NoDup p /\ (forall x : nat, In x p -> x < length p).
Proof. exact is_perm_unfold. Qed.
Print Assumptions C13_def_is_perm.

(* the entry of a well-formed matrix is the stored value, or 0 when the position is not stored *)
Theorem C13_entry_stored_or_zero :
  forall (R : Type) (o : ring_ops R),
  ring_laws o ->
  forall (a : spmat R) (i j : nat),
  sp_wf a ->
  (exists v : R, In (i, j, v) (sp_st a) /\ entry o a i j = v) \/
  (forall v : R, ~ In (i, j, v) (sp_st a)) /\ entry o a i j = rzero o.
Proof. exact @entry_cases. Qed.
Print Assumptions C13_entry_stored_or_zero.

Theorem C13_entry_outside :
  forall (R : Type) (o : ring_ops R) (a : spmat R) (i j : nat),
  sp_wf a -> sp_m a <= i \/ sp_n a <= j -> entry o a i j = rzero o.
Proof. exact @entry_outside. Qed.
Print Assumptions C13_entry_outside.

(* the rings of the property satisfy the hypothesis [ring_laws] (Z: Base.Ring.Z_ring_laws) *)
Theorem C13_ring_Q :
  ring_laws Qc_ring.
Proof. exact Qc_ring_laws. Qed.
Print Assumptions C13_ring_Q.

Theorem C13_ring_Fp :
  forall p : Z, ring_laws (Fp_ring p).
Proof. exact Fp_ring_laws. Qed.
Print Assumptions C13_ring_Fp.

(* from_data(shape, data): row-major; panics exactly when there are fewer than m*n items *)
Theorem C13_d_from_data :
  forall (R : Type) (o : ring_ops R) (m n : nat) (data : list R),
  match d_from_data o m n data with
  | Some A => m * n <= length data /\ d_is o A m n (fun i j : nat => nth (i * n + j) data (rzero o))
  | None => length data < m * n
  end.
Proof. exact @d_from_data_spec. Qed.
Print Assumptions C13_d_from_data.

Theorem C13_d_zero :
  forall (R : Type) (o : ring_ops R) (m n : nat), d_is o (d_zero o m n) m n (mzero o).
Proof. exact @d_zero_spec. Qed.
Print Assumptions C13_d_zero.

Theorem C13_d_id :
  forall (R : Type) (o : ring_ops R) (n : nat), d_is o (d_id o n) n n (mid o).
Proof. exact @d_id_spec. Qed.
Print Assumptions C13_d_id.

Theorem C13_d_diag :
  forall (R : Type) (o : ring_ops R) (m n : nat) (es : list R),
  match d_diag o m n es with
  | Some A =>
      length es <= m /\
      length es <= n /\
      d_is o A m n (fun i j : nat => if (i =? j) && (i <? length es) then nth i es (rzero o) else rzero o)
  | None => m < length es \/ n < length es
  end.
Proof. exact @d_diag_spec. Qed.
Print Assumptions C13_d_diag.

(* Mat::iter enumerates exactly the triples (i, j, a_ij), i < m, j < n (index arithmetic k % m, k / m) *)
Theorem C13_d_iter :
  forall (R : Type) (o : ring_ops R) (A : dmat R) (i j : nat) (a : R),
  In (i, j, a) (d_iter o A) <-> i < dm A /\ j < dn A /\ a = d_get o A i j.
Proof. exact @d_iter_in. Qed.
Print Assumptions C13_d_iter.

Theorem C13_d_is_zero :
  forall (R : Type) (o : ring_ops R),
  ring_laws o -> forall A : dmat R, d_is_zero o A = true <-> meq (dm A) (dn A) (d_get o A) (mzero o).
Proof. exact @d_is_zero_spec. Qed.
Print Assumptions C13_d_is_zero.

Theorem C13_d_is_id :
  forall (R : Type) (o : ring_ops R),
  ring_laws o -> forall A : dmat R, d_is_id o A = true <-> dm A = dn A /\ meq (dm A) (dn A) (d_get o A) (mid o).
Proof. exact @d_is_id_spec. Qed.
Print Assumptions C13_d_is_id.

Theorem C13_d_is_diag :
  forall (R : Type) (o : ring_ops R),
  ring_laws o ->
  forall A : dmat R,
  d_is_diag o A = true <-> (forall i j : nat, i < dm A -> j < dn A -> i <> j -> d_get o A i j = rzero o).
Proof. exact @d_is_diag_spec. Qed.
Print Assumptions C13_d_is_diag.

(* submat / submat_rows / submat_cols (the latter two are submat with a full range, by definition) *)
Theorem C13_d_submat :
  forall (R : Type) (o : ring_ops R) (A : dmat R) (i0 i1 j0 j1 : nat),
  match d_submat o A i0 i1 j0 j1 with
  | Some B =>
      i0 <= i1 <= dm A /\
      j0 <= j1 <= dn A /\ d_is o B (i1 - i0) (j1 - j0) (fun i j : nat => d_get o A (i0 + i) (j0 + j))
  | None => ~ (i0 <= i1 <= dm A /\ j0 <= j1 <= dn A)
  end.
Proof. exact @d_submat_spec. Qed.
Print Assumptions C13_d_submat.

Theorem C13_d_neg :
  forall (R : Type) (o : ring_ops R) (A : dmat R), d_is o (d_neg o A) (dm A) (dn A) (mneg o (d_get o A)).
Proof. exact @d_neg_spec. Qed.
Print Assumptions C13_d_neg.

Theorem C13_d_add :
  forall (R : Type) (o : ring_ops R) (A B : dmat R),
  match d_add o A B with
  | Some C => dm A = dm B /\ dn A = dn B /\ d_is o C (dm A) (dn A) (madd o (d_get o A) (d_get o B))
  | None => ~ (dm A = dm B /\ dn A = dn B)
  end.
Proof. exact @d_add_spec. Qed.
Print Assumptions C13_d_add.

Theorem C13_d_sub :
  forall (R : Type) (o : ring_ops R) (A B : dmat R),
  match d_sub o A B with
  | Some C => dm A = dm B /\ dn A = dn B /\ d_is o C (dm A) (dn A) (msub o (d_get o A) (d_get o B))
  | None => ~ (dm A = dm B /\ dn A = dn B)
  end.
Proof. exact @d_sub_spec. Qed.
Print Assumptions C13_d_sub.

(* product; nalgebra does not detect an inner-dimension mismatch when the right factor has no column (mirrored) *)
Theorem C13_d_mul :
  forall (R : Type) (o : ring_ops R) (A B : dmat R),
  match d_mul o A B with
  | Some C => (dn A = dm B \/ dn B = 0) /\ d_is o C (dm A) (dn B) (mmul o (dn A) (d_get o A) (d_get o B))
  | None => dn A <> dm B /\ dn B <> 0
  end.
Proof. exact @d_mul_spec. Qed.
Print Assumptions C13_d_mul.

(* PartialEq is equality of shape and entries *)
Theorem C13_d_eq :
  forall (R : Type) (o : ring_ops R),
  ring_laws o -> forall A B : dmat R, d_wf A -> d_wf B -> d_eqb o A B = true <-> A = B.
Proof. exact @d_eqb_spec. Qed.
Print Assumptions C13_d_eq.

(* row operations: entries, and the same as multiplication by an elementary matrix from the left *)
Theorem C13_d_swap_rows :
  forall (R : Type) (o : ring_ops R) (A : dmat R) (i j : nat),
  match d_swap_rows o A i j with
  | Some B => i < dm A /\ j < dm A /\ d_is o B (dm A) (dn A) (fun k l : nat => d_get o A (swap_idx i j k) l)
  | None => ~ (i < dm A /\ j < dm A)
  end.
Proof. exact @d_swap_rows_spec. Qed.
Print Assumptions C13_d_swap_rows.

Theorem C13_d_swap_rows_mmul :
  forall (R : Type) (o : ring_ops R),
  ring_laws o ->
  forall (A : dmat R) (i j : nat) (B : dmat R),
  d_swap_rows o A i j = Some B ->
  dm B = dm A /\
  dn B = dn A /\ d_wf B /\ meq (dm A) (dn A) (d_get o B) (mmul o (dm A) (e_swap o i j) (d_get o A)).
Proof. exact @d_swap_rows_mmul. Qed.
Print Assumptions C13_d_swap_rows_mmul.

Theorem C13_d_mul_row :
  forall (R : Type) (o : ring_ops R) (A : dmat R) (i : nat) (r : R),
  match d_mul_row o A i r with
  | Some B =>
      i < dm A /\
      d_is o B (dm A) (dn A) (fun k l : nat => if k =? i then rmul o (d_get o A k l) r else d_get o A k l)
  | None => dm A <= i
  end.
Proof. exact @d_mul_row_spec. Qed.
Print Assumptions C13_d_mul_row.

Theorem C13_d_mul_row_mmul :
  forall (R : Type) (o : ring_ops R),
  ring_laws o ->
  forall (A : dmat R) (i : nat) (r : R) (B : dmat R),
  d_mul_row o A i r = Some B ->
  dm B = dm A /\
  dn B = dn A /\ d_wf B /\ meq (dm A) (dn A) (d_get o B) (mmul o (dm A) (e_scal o i r) (d_get o A)).
Proof. exact @d_mul_row_mmul. Qed.
Print Assumptions C13_d_mul_row_mmul.

Theorem C13_d_add_row_to :
  forall (R : Type) (o : ring_ops R) (A : dmat R) (i j : nat) (r : R),
  match d_add_row_to o A i j r with
  | Some B =>
      i < dm A /\
      j < dm A /\
      d_is o B (dm A) (dn A)
        (fun k l : nat => if k =? j then radd o (d_get o A j l) (rmul o (d_get o A i l) r) else d_get o A k l)
  | None => ~ (i < dm A /\ j < dm A)
  end.
Proof. exact @d_add_row_to_spec. Qed.
Print Assumptions C13_d_add_row_to.

Theorem C13_d_add_row_to_mmul :
  forall (R : Type) (o : ring_ops R),
  ring_laws o ->
  forall (A : dmat R) (i j : nat) (r : R) (B : dmat R),
  d_add_row_to o A i j r = Some B ->
  dm B = dm A /\
  dn B = dn A /\ d_wf B /\ meq (dm A) (dn A) (d_get o B) (mmul o (dm A) (e_add o i j r) (d_get o A)).
Proof. exact @d_add_row_to_mmul. Qed.
Print Assumptions C13_d_add_row_to_mmul.

Theorem C13_d_left_elementary :
  forall (R : Type) (o : ring_ops R) (A : dmat R) (a b c d : R) (i j : nat),
  match d_left_elementary o A a b c d i j with
  | Some B =>
      i < dm A /\
      j < dm A /\
      d_is o B (dm A) (dn A)
        (fun k l : nat =>
         if k =? j
         then radd o (rmul o (d_get o A i l) c) (rmul o (d_get o A j l) d)
         else if k =? i then radd o (rmul o (d_get o A i l) a) (rmul o (d_get o A j l) b) else d_get o A k l)
  | None => ~ (i < dm A /\ j < dm A)
  end.
Proof. exact @d_left_elementary_spec. Qed.
Print Assumptions C13_d_left_elementary.

Theorem C13_d_left_elementary_mmul :
  forall (R : Type) (o : ring_ops R),
  ring_laws o ->
  forall (A : dmat R) (a b c d : R) (i j : nat) (B : dmat R),
  i <> j ->
  d_left_elementary o A a b c d i j = Some B ->
  dm B = dm A /\
  dn B = dn A /\ d_wf B /\ meq (dm A) (dn A) (d_get o B) (mmul o (dm A) (e_elem o a b c d i j) (d_get o A)).
Proof. exact @d_left_elementary_mmul. Qed.
Print Assumptions C13_d_left_elementary_mmul.

(* for i = j the second assignment wins: row i is scaled by c + d *)
Theorem C13_d_left_elementary_same :
  forall (R : Type) (o : ring_ops R),
  ring_laws o ->
  forall (A : dmat R) (a b c d : R) (i : nat) (B : dmat R),
  d_left_elementary o A a b c d i i = Some B ->
  meq (dm A) (dn A) (d_get o B) (mmul o (dm A) (e_scal o i (radd o c d)) (d_get o A)).
Proof. exact @d_left_elementary_same. Qed.
Print Assumptions C13_d_left_elementary_same.

(* column operations: entries, and multiplication by an elementary matrix from the right *)
Theorem C13_d_swap_cols :
  forall (R : Type) (o : ring_ops R) (A : dmat R) (i j : nat),
  match d_swap_cols o A i j with
  | Some B => i < dn A /\ j < dn A /\ d_is o B (dm A) (dn A) (fun k l : nat => d_get o A k (swap_idx i j l))
  | None => ~ (i < dn A /\ j < dn A)
  end.
Proof. exact @d_swap_cols_spec. Qed.
Print Assumptions C13_d_swap_cols.

Theorem C13_d_swap_cols_mmul :
  forall (R : Type) (o : ring_ops R),
  ring_laws o ->
  forall (A : dmat R) (i j : nat) (B : dmat R),
  d_swap_cols o A i j = Some B ->
  dm B = dm A /\
  dn B = dn A /\ d_wf B /\ meq (dm A) (dn A) (d_get o B) (mmul o (dn A) (d_get o A) (e_swap o i j)).
Proof. exact @d_swap_cols_mmul. Qed.
Print Assumptions C13_d_swap_cols_mmul.

Theorem C13_d_mul_col :
  forall (R : Type) (o : ring_ops R) (A : dmat R) (j : nat) (r : R),
  match d_mul_col o A j r with
  | Some B =>
      j < dn A /\
      d_is o B (dm A) (dn A) (fun k l : nat => if l =? j then rmul o (d_get o A k l) r else d_get o A k l)
  | None => dn A <= j
  end.
Proof. exact @d_mul_col_spec. Qed.
Print Assumptions C13_d_mul_col.

Theorem C13_d_mul_col_mmul :
  forall (R : Type) (o : ring_ops R),
  ring_laws o ->
  forall (A : dmat R) (j : nat) (r : R) (B : dmat R),
  d_mul_col o A j r = Some B ->
  dm B = dm A /\
  dn B = dn A /\ d_wf B /\ meq (dm A) (dn A) (d_get o B) (mmul o (dn A) (d_get o A) (e_scal o j r)).
Proof. exact @d_mul_col_mmul. Qed.
Print Assumptions C13_d_mul_col_mmul.

Theorem C13_d_add_col_to :
  forall (R : Type) (o : ring_ops R) (A : dmat R) (i j : nat) (r : R),
  match d_add_col_to o A i j r with
  | Some B =>
      i < dn A /\
      j < dn A /\
      d_is o B (dm A) (dn A)
        (fun k l : nat => if l =? j then radd o (d_get o A k j) (rmul o (d_get o A k i) r) else d_get o A k l)
  | None => ~ (i < dn A /\ j < dn A)
  end.
Proof. exact @d_add_col_to_spec. Qed.
Print Assumptions C13_d_add_col_to.

Theorem C13_d_add_col_to_mmul :
  forall (R : Type) (o : ring_ops R),
  ring_laws o ->
  forall (A : dmat R) (i j : nat) (r : R) (B : dmat R),
  d_add_col_to o A i j r = Some B ->
  dm B = dm A /\
  dn B = dn A /\ d_wf B /\ meq (dm A) (dn A) (d_get o B) (mmul o (dn A) (d_get o A) (e_add o j i r)).
Proof. exact @d_add_col_to_mmul. Qed.
Print Assumptions C13_d_add_col_to_mmul.

Theorem C13_d_right_elementary :
  forall (R : Type) (o : ring_ops R) (A : dmat R) (a b c d : R) (i j : nat),
  match d_right_elementary o A a b c d i j with
  | Some B =>
      i < dn A /\
      j < dn A /\
      d_is o B (dm A) (dn A)
        (fun k l : nat =>
         if l =? j
         then radd o (rmul o (d_get o A k i) c) (rmul o (d_get o A k j) d)
         else if l =? i then radd o (rmul o (d_get o A k i) a) (rmul o (d_get o A k j) b) else d_get o A k l)
  | None => ~ (i < dn A /\ j < dn A)
  end.
Proof. exact @d_right_elementary_spec. Qed.
Print Assumptions C13_d_right_elementary.

Theorem C13_d_right_elementary_mmul :
  forall (R : Type) (o : ring_ops R),
  ring_laws o ->
  forall (A : dmat R) (a b c d : R) (i j : nat) (B : dmat R),
  i <> j ->
  d_right_elementary o A a b c d i j = Some B ->
  dm B = dm A /\
  dn B = dn A /\ d_wf B /\ meq (dm A) (dn A) (d_get o B) (mmul o (dn A) (d_get o A) (e_elem o a c b d i j)).
Proof. exact @d_right_elementary_mmul. Qed.
Print Assumptions C13_d_right_elementary_mmul.

(* from_entries: input zeros are dropped, duplicates are summed (a zero sum stays stored); panics exactly when a non-zero item is out of range *)
Theorem C13_sp_from_entries :
  forall (R : Type) (o : ring_ops R),
  ring_laws o ->
  forall (m n : nat) (es : list (ent R)),
  match sp_from_entries o m n es with
  | Some a =>
      (forall e : ent R, In e es -> e_val e <> rzero o -> e_row e < m /\ e_col e < n) /\
      sp_is o a m n (esum o es) /\ (forall P : nat -> nat -> bool, psum o P (sp_st a) = psum o P es)
  | None => exists e : ent R, In e es /\ e_val e <> rzero o /\ ~ (e_row e < m /\ e_col e < n)
  end.
Proof. exact @sp_from_entries_spec. Qed.
Print Assumptions C13_sp_from_entries.

(* from_dense_data: row-major data, item k at (k / n, k % n); surplus zero items are ignored *)
Theorem C13_sp_from_dense_data :
  forall (R : Type) (o : ring_ops R),
  ring_laws o ->
  forall (m n : nat) (data : list R),
  match sp_from_dense_data o m n data with
  | Some a => sp_is o a m n (fun i j : nat => nth (i * n + j) data (rzero o))
  | None =>
      n = 0 /\ data <> nil \/ (exists k : nat, k < length data /\ nth k data (rzero o) <> rzero o /\ m * n <= k)
  end.
Proof. exact @sp_from_dense_data_spec. Qed.
Print Assumptions C13_sp_from_dense_data.

(* from_col_vecs: column j is the j-th vector, stored zeros are kept (nnz adds up) *)
Theorem C13_sp_from_col_vecs :
  forall (R : Type) (o : ring_ops R),
  ring_laws o ->
  forall (m : nat) (vs : list (spmat R)),
  (forall v : spmat R, In v vs -> vec_wf v) ->
  match sp_from_col_vecs m vs with
  | Some a =>
      (forall v : spmat R, In v vs -> sp_m v = m) /\
      sp_is o a m (length vs) (fun i j : nat => ventry o (nth j vs (sv_zero 0)) i) /\
      sp_nnz a = fold_right (fun (v : spmat R) (acc : nat) => sp_nnz v + acc) 0 vs
  | None => exists v : spmat R, In v vs /\ sp_m v <> m
  end.
Proof. exact @sp_from_col_vecs_spec. Qed.
Print Assumptions C13_sp_from_col_vecs.

Theorem C13_sp_zero :
  forall (R : Type) (o : ring_ops R) (m n : nat), sp_is o (sp_zero m n) m n (mzero o).
Proof. exact @sp_zero_spec. Qed.
Print Assumptions C13_sp_zero.

Theorem C13_sp_id :
  forall (R : Type) (o : ring_ops R), ring_laws o -> forall n : nat, sp_is o (sp_id o n) n n (mid o).
Proof. exact @sp_id_spec. Qed.
Print Assumptions C13_sp_id.

Theorem C13_sp_from_row_perm :
  forall (R : Type) (o : ring_ops R),
  ring_laws o ->
  forall p : perm,
  is_perm p ->
  exists r : spmat R,
    sp_from_row_perm o p = Some r /\
    sp_is o r (length p) (length p) (fun i j : nat => if i =? pat p j then rone o else rzero o).
Proof. exact @sp_from_row_perm_spec. Qed.
Print Assumptions C13_sp_from_row_perm.

Theorem C13_sp_from_col_perm :
  forall (R : Type) (o : ring_ops R),
  ring_laws o ->
  forall p : perm,
  is_perm p ->
  exists r : spmat R,
    sp_from_col_perm o p = Some r /\
    sp_is o r (length p) (length p) (fun i j : nat => if j =? pat p i then rone o else rzero o).
Proof. exact @sp_from_col_perm_spec. Qed.
Print Assumptions C13_sp_from_col_perm.

Theorem C13_perm_new :
  forall l : list nat, match perm_new l with
                       | Some p => p = l /\ is_perm l
                       | None => ~ is_perm l
                       end.
Proof. exact perm_new_spec. Qed.
Print Assumptions C13_perm_new.

(* util::perm_for_indices(n, idx): succeeds exactly for distinct in-range indices; sends idx[k] to k and the other elements, in increasing order, behind them *)
Theorem C13_perm_for_indices :
  forall (n : nat) (idx : list nat),
  match perm_for_indices n idx with
  | Some p =>
      (NoDup idx /\ (forall x : nat, In x idx -> x < n)) /\
      is_perm p /\
      length p = n /\
      (forall k : nat, k < n -> pat p (nth k (idx ++ pfi_rest n idx) 0) = k) /\
      (forall k : nat, k < length idx -> pat p (nth k idx 0) = k) /\
      Sorted.StronglySorted lt (pfi_rest n idx) /\
      (forall x : nat, In x (pfi_rest n idx) <-> x < n /\ ~ In x idx)
  | None => ~ (NoDup idx /\ (forall x : nat, In x idx -> x < n))
  end.
Proof. exact perm_for_indices_spec. Qed.
Print Assumptions C13_perm_for_indices.

(* conversions between dense and sparse *)
Theorem C13_sp_of_dense :
  forall (R : Type) (o : ring_ops R),
  ring_laws o -> forall A : dmat R, sp_is o (sp_of_dense o A) (dm A) (dn A) (d_get o A).
Proof. exact @sp_of_dense_spec. Qed.
Print Assumptions C13_sp_of_dense.

Theorem C13_sp_to_dense :
  forall (R : Type) (o : ring_ops R) (a : spmat R), d_is o (sp_to_dense o a) (sp_m a) (sp_n a) (entry o a).
Proof. exact @sp_to_dense_spec. Qed.
Print Assumptions C13_sp_to_dense.

Theorem C13_sp_dense_round_trip :
  forall (R : Type) (o : ring_ops R),
  ring_laws o -> forall A : dmat R, d_wf A -> sp_to_dense o (sp_of_dense o A) = A.
Proof. exact @sp_dense_round_trip. Qed.
Print Assumptions C13_sp_dense_round_trip.

Theorem C13_sp_neg :
  forall (R : Type) (o : ring_ops R),
  ring_laws o ->
  forall a : spmat R,
  sp_wf a -> sp_is o (sp_neg o a) (sp_m a) (sp_n a) (mneg o (entry o a)) /\ sp_nnz (sp_neg o a) = sp_nnz a.
Proof. exact @sp_neg_spec. Qed.
Print Assumptions C13_sp_neg.

Theorem C13_sp_add :
  forall (R : Type) (o : ring_ops R),
  ring_laws o ->
  forall a b : spmat R,
  sp_wf a ->
  sp_wf b ->
  match sp_add o a b with
  | Some c =>
      (sp_m a = sp_m b /\ sp_n a = sp_n b) /\ sp_is o c (sp_m a) (sp_n a) (madd o (entry o a) (entry o b))
  | None => ~ (sp_m a = sp_m b /\ sp_n a = sp_n b)
  end.
Proof. exact @sp_add_spec. Qed.
Print Assumptions C13_sp_add.

Theorem C13_sp_sub :
  forall (R : Type) (o : ring_ops R),
  ring_laws o ->
  forall a b : spmat R,
  sp_wf a ->
  sp_wf b ->
  match sp_sub o a b with
  | Some c =>
      (sp_m a = sp_m b /\ sp_n a = sp_n b) /\ sp_is o c (sp_m a) (sp_n a) (msub o (entry o a) (entry o b))
  | None => ~ (sp_m a = sp_m b /\ sp_n a = sp_n b)
  end.
Proof. exact @sp_sub_spec. Qed.
Print Assumptions C13_sp_sub.

(* a - a: every stored value is an explicit zero, the matrix is the zero matrix *)
Theorem C13_sp_sub_self :
  forall (R : Type) (o : ring_ops R),
  ring_laws o ->
  forall a : spmat R,
  sp_wf a -> exists c : spmat R, sp_sub o a a = Some c /\ sp_is o c (sp_m a) (sp_n a) (mzero o).
Proof. exact @sp_sub_self. Qed.
Print Assumptions C13_sp_sub_self.

Theorem C13_sp_mul :
  forall (R : Type) (o : ring_ops R),
  ring_laws o ->
  forall a b : spmat R,
  sp_wf a ->
  sp_wf b ->
  match sp_mul o a b with
  | Some c => sp_n a = sp_m b /\ sp_is o c (sp_m a) (sp_n b) (mmul o (sp_n a) (entry o a) (entry o b))
  | None => sp_n a <> sp_m b
  end.
Proof. exact @sp_mul_spec. Qed.
Print Assumptions C13_sp_mul.

Theorem C13_sp_mul_vec :
  forall (R : Type) (o : ring_ops R),
  ring_laws o ->
  forall (a v : spmat R) (d : nat) (f : nat -> R),
  sp_wf a ->
  sv_is o v d f ->
  match sp_mul_vec o a v with
  | Some w => sp_n a = d /\ sv_is o w (sp_m a) (mvec o d (entry o a) f)
  | None => sp_n a <> d
  end.
Proof. exact @sp_mul_vec_spec. Qed.
Print Assumptions C13_sp_mul_vec.

Theorem C13_sp_transpose :
  forall (R : Type) (o : ring_ops R),
  ring_laws o ->
  forall a : spmat R, sp_wf a -> sp_is o (sp_transpose o a) (sp_n a) (sp_m a) (mtrans (entry o a)).
Proof. exact @sp_transpose_spec. Qed.
Print Assumptions C13_sp_transpose.

(* is_zero is true exactly for the zero matrix, whatever zeros are stored *)
Theorem C13_sp_is_zero :
  forall (R : Type) (o : ring_ops R),
  ring_laws o ->
  forall a : spmat R, sp_wf a -> sp_is_zero o a = true <-> (forall i j : nat, entry o a i j = rzero o).
Proof. exact @sp_is_zero_spec. Qed.
Print Assumptions C13_sp_is_zero.

(* extract(shape, f): entry (i,j) of the result is the sum of the entries that f sends to (i,j) *)
Theorem C13_sp_extract :
  forall (R : Type) (o : ring_ops R),
  ring_laws o ->
  forall (a : spmat R) (m n : nat) (f : nat -> nat -> fres) (b : spmat R),
  sp_extract o a m n f = Some b ->
  (forall e : ent R, In e (sp_st a) -> f (e_row e) (e_col e) <> FPanic) /\
  sp_m b = m /\
  sp_n b = n /\
  sp_wf b /\ (forall i j : nat, entry o b i j = psum o (fsel f (fun i' j' : nat => key_eq i' j' i j)) (sp_st a)).
Proof. exact @sp_extract_spec. Qed.
Print Assumptions C13_sp_extract.

(* permute(p, q): entry (i,j) goes to (p(i), q(j)) *)
Theorem C13_sp_permute :
  forall (R : Type) (o : ring_ops R),
  ring_laws o ->
  forall (a : spmat R) (p q : perm),
  sp_wf a ->
  is_perm p ->
  is_perm q ->
  length p = sp_m a ->
  length q = sp_n a ->
  exists b : spmat R,
    sp_permute o a p q = Some b /\
    sp_m b = sp_m a /\
    sp_n b = sp_n a /\
    sp_wf b /\ (forall i j : nat, i < sp_m a -> j < sp_n a -> entry o b (pat p i) (pat q j) = entry o a i j).
Proof. exact @sp_permute_spec. Qed.
Print Assumptions C13_sp_permute.

Theorem C13_sp_permute_rows :
  forall (R : Type) (o : ring_ops R),
  ring_laws o ->
  forall (a : spmat R) (p : perm),
  sp_wf a ->
  is_perm p ->
  length p = sp_m a ->
  exists b : spmat R,
    sp_permute_rows o a p = Some b /\
    sp_m b = sp_m a /\
    sp_n b = sp_n a /\
    sp_wf b /\ (forall i j : nat, i < sp_m a -> j < sp_n a -> entry o b (pat p i) j = entry o a i j).
Proof. exact @sp_permute_rows_spec. Qed.
Print Assumptions C13_sp_permute_rows.

Theorem C13_sp_permute_cols :
  forall (R : Type) (o : ring_ops R),
  ring_laws o ->
  forall (a : spmat R) (q : perm),
  sp_wf a ->
  is_perm q ->
  length q = sp_n a ->
  exists b : spmat R,
    sp_permute_cols o a q = Some b /\
    sp_m b = sp_m a /\
    sp_n b = sp_n a /\
    sp_wf b /\ (forall i j : nat, i < sp_m a -> j < sp_n a -> entry o b i (pat q j) = entry o a i j).
Proof. exact @sp_permute_cols_spec. Qed.
Print Assumptions C13_sp_permute_cols.

(* the identities stated in sp_mat.rs: row_perm(p) * a == a.permute_rows(p), a * col_perm(q) == a.permute_cols(q) *)
Theorem C13_sp_row_perm_mul :
  forall (R : Type) (o : ring_ops R),
  ring_laws o ->
  forall (a : spmat R) (p : perm),
  sp_wf a ->
  is_perm p ->
  length p = sp_m a ->
  exists P c b : spmat R,
    sp_from_row_perm o p = Some P /\
    sp_mul o P a = Some c /\
    sp_permute_rows o a p = Some b /\
    sp_m c = sp_m b /\ sp_n c = sp_n b /\ meq (sp_m a) (sp_n a) (entry o c) (entry o b).
Proof. exact @sp_row_perm_mul. Qed.
Print Assumptions C13_sp_row_perm_mul.

Theorem C13_sp_col_perm_mul :
  forall (R : Type) (o : ring_ops R),
  ring_laws o ->
  forall (a : spmat R) (q : perm),
  sp_wf a ->
  is_perm q ->
  length q = sp_n a ->
  exists Q c b : spmat R,
    sp_from_col_perm o q = Some Q /\
    sp_mul o a Q = Some c /\
    sp_permute_cols o a q = Some b /\
    sp_m c = sp_m b /\ sp_n c = sp_n b /\ meq (sp_m a) (sp_n a) (entry o c) (entry o b).
Proof. exact @sp_col_perm_mul. Qed.
Print Assumptions C13_sp_col_perm_mul.

(* submat / submat_rows / submat_cols *)
Theorem C13_sp_submat :
  forall (R : Type) (o : ring_ops R),
  ring_laws o ->
  forall (a : spmat R) (i0 i1 j0 j1 : nat),
  match sp_submat o a i0 i1 j0 j1 with
  | Some b =>
      i0 <= i1 <= sp_m a /\
      j0 <= j1 <= sp_n a /\ sp_is o b (i1 - i0) (j1 - j0) (fun i j : nat => entry o a (i0 + i) (j0 + j))
  | None => ~ (i0 <= i1 <= sp_m a /\ j0 <= j1 <= sp_n a)
  end.
Proof. exact @sp_submat_spec. Qed.
Print Assumptions C13_sp_submat.

Theorem C13_sp_col_vec :
  forall (R : Type) (o : ring_ops R),
  ring_laws o ->
  forall (a : spmat R) (j : nat),
  sp_wf a ->
  match sp_col_vec o a j with
  | Some v => j < sp_n a /\ sv_is o v (sp_m a) (fun i : nat => entry o a i j)
  | None => sp_n a <= j
  end.
Proof. exact @sp_col_vec_spec. Qed.
Print Assumptions C13_sp_col_vec.

(* four-way split at (k, l) *)
Theorem C13_sp_divide4 :
  forall (R : Type) (o : ring_ops R),
  ring_laws o ->
  forall (a : spmat R) (k l : nat),
  sp_wf a ->
  match sp_divide4 o a k l with
  | Some (A, B, C, D) =>
      k <= sp_m a /\
      l <= sp_n a /\
      sp_is o A k l (entry o a) /\
      sp_is o B k (sp_n a - l) (fun i j : nat => entry o a i (l + j)) /\
      sp_is o C (sp_m a - k) l (fun i j : nat => entry o a (k + i) j) /\
      sp_is o D (sp_m a - k) (sp_n a - l) (fun i j : nat => entry o a (k + i) (l + j))
  | None => ~ (k <= sp_m a /\ l <= sp_n a)
  end.
Proof. exact @sp_divide4_spec. Qed.
Print Assumptions C13_sp_divide4.

(* recombination: the block matrix [[a, b], [c, d]] *)
Theorem C13_sp_combine_blocks :
  forall (R : Type) (o : ring_ops R),
  ring_laws o ->
  forall a b c d : spmat R,
  sp_wf a ->
  sp_wf b ->
  sp_wf c ->
  sp_wf d ->
  match sp_combine_blocks o a b c d with
  | Some r =>
      (sp_m a = sp_m b /\ sp_m c = sp_m d /\ sp_n a = sp_n c /\ sp_n b = sp_n d) /\
      sp_is o r (sp_m a + sp_m c) (sp_n a + sp_n b)
        (blocks (sp_m a) (sp_n a) (entry o a) (entry o b) (entry o c) (entry o d))
  | None => ~ (sp_m a = sp_m b /\ sp_m c = sp_m d /\ sp_n a = sp_n c /\ sp_n b = sp_n d)
  end.
Proof. exact @sp_combine_blocks_spec. Qed.
Print Assumptions C13_sp_combine_blocks.

(* split and recombine gives the matrix back (same shape, same entries) *)
Theorem C13_sp_divide4_combine :
  forall (R : Type) (o : ring_ops R),
  ring_laws o ->
  forall (a : spmat R) (k l : nat) (A B C D : spmat R),
  sp_wf a ->
  sp_divide4 o a k l = Some (A, B, C, D) ->
  exists r : spmat R, sp_combine_blocks o A B C D = Some r /\ sp_is o r (sp_m a) (sp_n a) (entry o a).
Proof. exact @sp_divide4_combine. Qed.
Print Assumptions C13_sp_divide4_combine.

Theorem C13_sp_concat :
  forall (R : Type) (o : ring_ops R),
  ring_laws o ->
  forall a b : spmat R,
  sp_wf a ->
  sp_wf b ->
  match sp_concat o a b with
  | Some r =>
      sp_m a = sp_m b /\
      sp_is o r (sp_m a) (sp_n a + sp_n b)
        (fun i j : nat => if j <? sp_n a then entry o a i j else entry o b i (j - sp_n a))
  | None => sp_m a <> sp_m b
  end.
Proof. exact @sp_concat_spec. Qed.
Print Assumptions C13_sp_concat.

Theorem C13_sp_stack :
  forall (R : Type) (o : ring_ops R),
  ring_laws o ->
  forall a b : spmat R,
  sp_wf a ->
  sp_wf b ->
  match sp_stack o a b with
  | Some r =>
      sp_n a = sp_n b /\
      sp_is o r (sp_m a + sp_m b) (sp_n a)
        (fun i j : nat => if i <? sp_m a then entry o a i j else entry o b (i - sp_m a) j)
  | None => sp_n a <> sp_n b
  end.
Proof. exact @sp_stack_spec. Qed.
Print Assumptions C13_sp_stack.

(* extend_cols: the same matrix as concat, the stored patterns (zeros included) are kept *)
Theorem C13_sp_extend_cols :
  forall (R : Type) (o : ring_ops R),
  ring_laws o ->
  forall a b : spmat R,
  sp_wf a ->
  sp_wf b ->
  match sp_extend_cols a b with
  | Some r =>
      sp_m a = sp_m b /\
      sp_is o r (sp_m a) (sp_n a + sp_n b)
        (fun i j : nat => if j <? sp_n a then entry o a i j else entry o b i (j - sp_n a)) /\
      sp_nnz r = sp_nnz a + sp_nnz b
  | None => sp_m a <> sp_m b
  end.
Proof. exact @sp_extend_cols_spec. Qed.
Print Assumptions C13_sp_extend_cols.

Theorem C13_sv_zero :
  forall (R : Type) (o : ring_ops R) (d : nat), sv_is o (sv_zero d) d (fun _ : nat => rzero o).
Proof. exact @sv_zero_spec. Qed.
Print Assumptions C13_sv_zero.

Theorem C13_sv_unit :
  forall (R : Type) (o : ring_ops R),
  ring_laws o ->
  forall n i : nat,
  match sv_unit o n i with
  | Some v => i < n /\ sv_is o v n (fun k : nat => if k =? i then rone o else rzero o)
  | None => n <= i
  end.
Proof. exact @sv_unit_spec. Qed.
Print Assumptions C13_sv_unit.

Theorem C13_sv_from_entries :
  forall (R : Type) (o : ring_ops R),
  ring_laws o ->
  forall (d : nat) (es : list (nat * R)),
  match sv_from_entries o d es with
  | Some v =>
      (forall ix : nat * R, In ix es -> snd ix <> rzero o -> fst ix < d) /\
      sv_is o v d (fun i : nat => esum o (col0 es) i 0)
  | None => exists ix : nat * R, In ix es /\ snd ix <> rzero o /\ d <= fst ix
  end.
Proof. exact @sv_from_entries_spec. Qed.
Print Assumptions C13_sv_from_entries.

Theorem C13_sv_from_vec :
  forall (R : Type) (o : ring_ops R),
  ring_laws o ->
  forall l : list R,
  exists v : spmat R, sv_from_vec o l = Some v /\ sv_is o v (length l) (fun i : nat => nth i l (rzero o)).
Proof. exact @sv_from_vec_spec. Qed.
Print Assumptions C13_sv_from_vec.

(* from_sorted_entries keeps zero values; panics exactly when an index is out of range or the indices are not strictly increasing *)
Theorem C13_sv_from_sorted_entries :
  forall (R : Type) (o : ring_ops R) (d : nat) (es : list (nat * R)),
  match sv_from_sorted_entries d es with
  | Some v =>
      ((forall ix : nat * R, In ix es -> fst ix < d) /\ Sorted.StronglySorted lt (map fst es)) /\
      sv_is o v d (fun i : nat => esum o (col0 es) i 0) /\ sp_nnz v = length es
  | None => ~ ((forall ix : nat * R, In ix es -> fst ix < d) /\ Sorted.StronglySorted lt (map fst es))
  end.
Proof. exact @sv_from_sorted_entries_spec. Qed.
Print Assumptions C13_sv_from_sorted_entries.

Theorem C13_sv_to_dense :
  forall (R : Type) (o : ring_ops R),
  ring_laws o ->
  forall v : spmat R,
  vec_wf v ->
  length (sv_to_dense o v) = sv_dim v /\
  (forall i : nat, i < sv_dim v -> nth i (sv_to_dense o v) (rzero o) = ventry o v i).
Proof. exact @sv_to_dense_spec. Qed.
Print Assumptions C13_sv_to_dense.

Theorem C13_sv_permute :
  forall (R : Type) (o : ring_ops R),
  ring_laws o ->
  forall (v : spmat R) (p : perm),
  vec_wf v ->
  is_perm p ->
  length p = sv_dim v ->
  exists w : spmat R,
    sv_permute o v p = Some w /\
    sv_dim w = sv_dim v /\ vec_wf w /\ (forall i : nat, i < sv_dim v -> ventry o w (pat p i) = ventry o v i).
Proof. exact @sv_permute_spec. Qed.
Print Assumptions C13_sv_permute.

(* subvec(s..e): no upper bound check in the code - positions beyond the dimension read as 0 *)
Theorem C13_sv_subvec :
  forall (R : Type) (o : ring_ops R),
  ring_laws o ->
  forall (v : spmat R) (s e : nat),
  vec_wf v ->
  match sv_subvec o v s e with
  | Some w => s <= e /\ sv_is o w (e - s) (fun i : nat => ventry o v (s + i))
  | None => e < s
  end.
Proof. exact @sv_subvec_spec. Qed.
Print Assumptions C13_sv_subvec.

Theorem C13_sv_stack :
  forall (R : Type) (o : ring_ops R),
  ring_laws o ->
  forall v w : spmat R,
  vec_wf v ->
  vec_wf w ->
  exists r : spmat R,
    sv_stack o v w = Some r /\
    sv_is o r (sv_dim v + sv_dim w)
      (fun i : nat => if i <? sv_dim v then ventry o v i else ventry o w (i - sv_dim v)).
Proof. exact @sv_stack_spec. Qed.
Print Assumptions C13_sv_stack.

Theorem C13_sv_stack_vecs :
  forall (R : Type) (o : ring_ops R),
  ring_laws o ->
  forall vs : list (spmat R),
  (forall v : spmat R, In v vs -> vec_wf v) ->
  exists r : spmat R,
    sv_stack_vecs vs = Some r /\
    sv_is o r (total_dim vs) (stackf o vs) /\
    sp_nnz r = fold_right (fun (v : spmat R) (a : nat) => sp_nnz v + a) 0 vs.
Proof. exact @sv_stack_vecs_spec. Qed.
Print Assumptions C13_sv_stack_vecs.

Theorem C13_sv_split :
  forall (R : Type) (o : ring_ops R),
  ring_laws o ->
  forall (v : spmat R) (k : nat),
  vec_wf v ->
  match sv_split o v k with
  | Some (a, b) =>
      k <= sv_dim v /\ sv_is o a k (ventry o v) /\ sv_is o b (sv_dim v - k) (fun i : nat => ventry o v (k + i))
  | None => sv_dim v < k
  end.
Proof. exact @sv_split_spec. Qed.
Print Assumptions C13_sv_split.

Theorem C13_sv_neg :
  forall (R : Type) (o : ring_ops R),
  ring_laws o ->
  forall v : spmat R, vec_wf v -> sv_is o (sv_neg o v) (sv_dim v) (fun i : nat => rneg o (ventry o v i)).
Proof. exact @sv_neg_spec. Qed.
Print Assumptions C13_sv_neg.

Theorem C13_sv_add :
  forall (R : Type) (o : ring_ops R),
  ring_laws o ->
  forall v w : spmat R,
  vec_wf v ->
  vec_wf w ->
  match sv_add o v w with
  | Some r => sv_dim v = sv_dim w /\ sv_is o r (sv_dim v) (fun i : nat => radd o (ventry o v i) (ventry o w i))
  | None => sv_dim v <> sv_dim w
  end.
Proof. exact @sv_add_spec. Qed.
Print Assumptions C13_sv_add.

Theorem C13_sv_sub :
  forall (R : Type) (o : ring_ops R),
  ring_laws o ->
  forall v w : spmat R,
  vec_wf v ->
  vec_wf w ->
  match sv_sub o v w with
  | Some r => sv_dim v = sv_dim w /\ sv_is o r (sv_dim v) (fun i : nat => rsub o (ventry o v i) (ventry o w i))
  | None => sv_dim v <> sv_dim w
  end.
Proof. exact @sv_sub_spec. Qed.
Print Assumptions C13_sv_sub.

(* coordinate transforms (Trans<R>)
   [tr_wf t]: the invariant of Trans - the factors are well-formed and their shapes compose
   (f_k : d_k -> d_(k+1), b_k : d_(k+1) -> d_k, d_0 = src_dim, d_last = tgt_dim).
   [fprod fs] = f_n ... f_1 f_0 and [bprod bs] = b_0 b_1 ... b_n as mathematical products (Proofs/C13Trans.v).
   [hist R]: the finite histories HId n | HNew f b | HAppend h f b | HAppendPerm h p | HMerge h1 h2 |
   HReduce h | HSub h idx; [tr_run o h] executes one.  [hist_wf h]: the matrices in h are sp_wf and the
   permutations valid (what the Rust types guarantee).  [hist_ok o h]: no guard of the code fails.
   [hsrc h], [htgt h], [hF o h], [hB o h]: the dimensions and the two linear maps the history DENOTES, defined
   with MatF products only: hF (HAppend h f _) = f * hF h, hF (HMerge h1 h2) = hF h2 * hF h1,
   hF (HReduce h) = hF h, hF (HSub h idx) = sel_f idx * hF h, ...; hB with the factors on the other side.
   [tr_acts o t src tgt F B]: the four observables of t are those of (F, B): forward_mat() = F and
   backward_mat() = B as matrices, forward(v) = F v and backward(v) = B v for every vector, each panicking
   exactly on a wrong dimension. *)
(* MAIN: for EVERY finite history - it panics exactly when a guard fails; otherwise the transform applies the maps the history denotes (product of the factors), and so does the transform after reduce() *)
Theorem C13_trans :
  forall (R : Type) (o : ring_ops R),
  ring_laws o ->
  forall h : hist R,
  hist_wf h ->
  match tr_run o h with
  | Some t =>
      hist_ok o h /\
      tr_wf t /\
      tr_acts o t (hsrc h) (htgt h) (hF o h) (hB o h) /\
      (exists t' : trans R,
         tr_reduce o t = Some t' /\ tr_wf t' /\ tr_acts o t' (hsrc h) (htgt h) (hF o h) (hB o h))
  | None => ~ hist_ok o h
  end.
Proof. exact @tr_history_main. Qed.
Print Assumptions C13_trans.

(* forward(v) = forward_mat() * v and backward(v) = backward_mat() * v for the transform built by any history *)
Theorem C13_trans_forward_is_forward_mat :
  forall (R : Type) (o : ring_ops R),
  ring_laws o ->
  forall (h : hist R) (t : trans R) (v : spmat R),
  hist_wf h ->
  tr_run o h = Some t ->
  sp_wf v ->
  sp_n v = 1 ->
  sv_dim v = t_src t ->
  exists w Fm : spmat R,
    tr_forward o t v = Some w /\
    tr_forward_mat o t = Some Fm /\ sv_is o w (t_tgt t) (mvec o (t_src t) (entry o Fm) (ventry o v)).
Proof. exact @tr_history_forward_is_mat. Qed.
Print Assumptions C13_trans_forward_is_forward_mat.

Theorem C13_trans_backward_is_backward_mat :
  forall (R : Type) (o : ring_ops R),
  ring_laws o ->
  forall (h : hist R) (t : trans R) (v : spmat R),
  hist_wf h ->
  tr_run o h = Some t ->
  sp_wf v ->
  sp_n v = 1 ->
  sv_dim v = t_tgt t ->
  exists w Bm : spmat R,
    tr_backward o t v = Some w /\
    tr_backward_mat o t = Some Bm /\ sv_is o w (t_src t) (mvec o (t_tgt t) (entry o Bm) (ventry o v)).
Proof. exact @tr_history_backward_is_mat. Qed.
Print Assumptions C13_trans_backward_is_backward_mat.

(* forward_mat = f_n ... f_0 and backward_mat = b_0 ... b_n for every transform satisfying the invariant *)
Theorem C13_trans_forward_mat :
  forall (R : Type) (o : ring_ops R),
  ring_laws o ->
  forall t : trans R,
  tr_wf t -> exists F : spmat R, tr_forward_mat o t = Some F /\ sp_is o F (t_tgt t) (t_src t) (fprod o (t_f t)).
Proof. exact @tr_forward_mat_spec. Qed.
Print Assumptions C13_trans_forward_mat.

Theorem C13_trans_backward_mat :
  forall (R : Type) (o : ring_ops R),
  ring_laws o ->
  forall t : trans R,
  tr_wf t -> exists B : spmat R, tr_backward_mat o t = Some B /\ sp_is o B (t_src t) (t_tgt t) (bprod o (t_b t)).
Proof. exact @tr_backward_mat_spec. Qed.
Print Assumptions C13_trans_backward_mat.

Theorem C13_trans_forward :
  forall (R : Type) (o : ring_ops R),
  ring_laws o ->
  forall (t : trans R) (v : spmat R),
  tr_wf t ->
  sp_wf v ->
  sp_n v = 1 ->
  match tr_forward o t v with
  | Some w => sv_dim v = t_src t /\ sv_is o w (t_tgt t) (mvec o (t_src t) (fprod o (t_f t)) (ventry o v))
  | None => sv_dim v <> t_src t
  end.
Proof. exact @tr_forward_spec. Qed.
Print Assumptions C13_trans_forward.

Theorem C13_trans_backward :
  forall (R : Type) (o : ring_ops R),
  ring_laws o ->
  forall (t : trans R) (v : spmat R),
  tr_wf t ->
  sp_wf v ->
  sp_n v = 1 ->
  match tr_backward o t v with
  | Some w => sv_dim v = t_tgt t /\ sv_is o w (t_src t) (mvec o (t_tgt t) (bprod o (t_b t)) (ventry o v))
  | None => sv_dim v <> t_tgt t
  end.
Proof. exact @tr_backward_spec. Qed.
Print Assumptions C13_trans_backward.

(* reduce changes neither map *)
Theorem C13_trans_reduce :
  forall (R : Type) (o : ring_ops R),
  ring_laws o ->
  forall t : trans R,
  tr_wf t ->
  exists t' : trans R,
    tr_reduce o t = Some t' /\
    tr_wf t' /\
    t_src t' = t_src t /\
    t_tgt t' = t_tgt t /\
    meq (t_tgt t) (t_src t) (fprod o (t_f t')) (fprod o (t_f t)) /\
    meq (t_src t) (t_tgt t) (bprod o (t_b t')) (bprod o (t_b t)).
Proof. exact @tr_reduce_spec. Qed.
Print Assumptions C13_trans_reduce.

(* the single operations ([extends o t t' d F B]: t' is t followed by the pair F : tgt -> d, B : d -> tgt) *)
Theorem C13_trans_append :
  forall (R : Type) (o : ring_ops R),
  ring_laws o ->
  forall (t : trans R) (f b : spmat R),
  tr_wf t ->
  sp_wf f ->
  sp_wf b ->
  match tr_append t f b with
  | Some t' =>
      (sp_n f = sp_m b /\ sp_m f = sp_n b /\ sp_n f = t_tgt t) /\
      extends o t t' (sp_m f) (entry o f) (entry o b)
  | None => ~ (sp_n f = sp_m b /\ sp_m f = sp_n b /\ sp_n f = t_tgt t)
  end.
Proof. exact @tr_append_spec. Qed.
Print Assumptions C13_trans_append.

Theorem C13_trans_append_perm :
  forall (R : Type) (o : ring_ops R),
  ring_laws o ->
  forall (t : trans R) (p : perm),
  tr_wf t ->
  is_perm p ->
  match tr_append_perm o t p with
  | Some t' => length p = t_tgt t /\ extends o t t' (t_tgt t) (perm_f o p) (perm_b o p)
  | None => length p <> t_tgt t
  end.
Proof. exact @tr_append_perm_spec. Qed.
Print Assumptions C13_trans_append_perm.

Theorem C13_trans_merge :
  forall (R : Type) (o : ring_ops R),
  ring_laws o ->
  forall t u : trans R,
  tr_wf t ->
  tr_wf u ->
  match tr_merge t u with
  | Some t' => t_tgt t = t_src u /\ extends o t t' (t_tgt u) (fprod o (t_f u)) (bprod o (t_b u))
  | None => t_tgt t <> t_src u
  end.
Proof. exact @tr_merge_spec. Qed.
Print Assumptions C13_trans_merge.

Theorem C13_trans_sub :
  forall (R : Type) (o : ring_ops R),
  ring_laws o ->
  forall (t : trans R) (idx : list nat),
  tr_wf t ->
  match tr_sub o t idx with
  | Some t' =>
      (rone o = rzero o \/ (forall x : nat, In x idx -> x < t_tgt t)) /\
      extends o t t' (length idx) (sel_f o idx) (sel_b o idx)
  | None => rone o <> rzero o /\ (exists x : nat, In x idx /\ t_tgt t <= x)
  end.
Proof. exact @tr_sub_spec. Qed.
Print Assumptions C13_trans_sub.

Theorem C13_trans_run :
  forall (R : Type) (o : ring_ops R),
  ring_laws o ->
  forall h : hist R,
  hist_wf h -> match tr_run o h with
               | Some t => hist_ok o h /\ denotes o t h
               | None => ~ hist_ok o h
               end.
Proof. exact @tr_run_spec. Qed.
Print Assumptions C13_trans_run.

(* what is NOT a theorem
   SpMat::is_id inspects the stored entries only.  It recognises the identity ([C13_sp_is_id_complete]), but
   the converse needs every diagonal position to be stored:

     Theorem C13_sp_is_id_sound : sp_wf a -> sp_is_id o a = true -> meq (sp_m a) (sp_n a) (entry o a) (mid o)

   is FALSE for the code as it is (counter-example [C13_sp_is_id_zero_matrix]: the 2 x 2 zero matrix is
   reported to be the identity).  Proved instead: the exact characterisation [C13_sp_is_id_stored_only] and
   the partial converse [C13_sp_is_id_sound_partial] (missing: the hypothesis that the diagonal is stored
   cannot be dropped).  is_id is a predicate, not one of the entry-yielding operations the property lists;
   the check records it as an adjacent finding. *)
Theorem C13_sp_is_id_stored_only :
  forall (R : Type) (o : ring_ops R),
  ring_laws o ->
  forall a : spmat R,
  sp_is_id o a = true <->
  sp_m a = sp_n a /\
  (forall e : ent R,
   In e (sp_st a) -> e_row e = e_col e /\ e_val e = rone o \/ e_row e <> e_col e /\ e_val e = rzero o).
Proof. exact @sp_is_id_stored_only. Qed.
Print Assumptions C13_sp_is_id_stored_only.

Theorem C13_sp_is_id_complete :
  forall (R : Type) (o : ring_ops R),
  ring_laws o ->
  forall a : spmat R,
  sp_wf a -> sp_m a = sp_n a -> meq (sp_m a) (sp_n a) (entry o a) (mid o) -> sp_is_id o a = true.
Proof. exact @sp_is_id_complete. Qed.
Print Assumptions C13_sp_is_id_complete.

Theorem C13_sp_is_id_sound_partial :
  forall (R : Type) (o : ring_ops R),
  ring_laws o ->
  forall a : spmat R,
  sp_wf a ->
  sp_is_id o a = true ->
  (forall i : nat, i < sp_m a -> exists v : R, In (i, i, v) (sp_st a)) ->
  sp_m a = sp_n a /\ meq (sp_m a) (sp_n a) (entry o a) (mid o).
Proof. exact @sp_is_id_sound_partial. Qed.
Print Assumptions C13_sp_is_id_sound_partial.


(* non-vacuity: concrete values over Z meeting the hypotheses *)
(* a well-formed matrix with an explicitly stored zero; a - a stores three zeros and is the zero matrix;
   its product with a matrix without rows / columns *)
Definition c13_a : spmat Z := mksp 2 2 [(0, 0, 1%Z); (0, 1, 0%Z); (1, 1, 2%Z)].
Definition c13_e : spmat Z := mksp 0 2 [].
Example C13_example_stored_zeros :
  sp_wf c13_a /\
  sp_sub Z_ring c13_a c13_a = Some (mksp 2 2 [(0, 0, 0%Z); (0, 1, 0%Z); (1, 1, 0%Z)]) /\
  option_map (sp_is_zero Z_ring) (sp_sub Z_ring c13_a c13_a) = Some true /\
  sp_mul Z_ring c13_a c13_a = Some (mksp 2 2 [(0, 0, 1%Z); (0, 1, 0%Z); (1, 1, 4%Z)]) /\
  sp_divide4 Z_ring c13_a 1 1 = Some (mksp 1 1 [(0, 0, 1%Z)], mksp 1 1 [], mksp 1 1 [], mksp 1 1 [(0, 0, 2%Z)]).
Proof. repeat split; vm_compute; reflexivity. Qed.
Example C13_example_zero_dimension :
  sp_wf c13_e /\
  sp_mul Z_ring c13_e c13_a = Some (mksp 0 2 []) /\
  sp_mul Z_ring (sp_transpose Z_ring c13_e) c13_e = Some (mksp 2 2 []) /\
  sp_stack Z_ring c13_e c13_a = Some (mksp 2 2 [(0, 0, 1%Z); (1, 1, 2%Z)]) /\
  sp_divide4 Z_ring c13_e 0 1 = Some (mksp 0 1 [], mksp 0 1 [], mksp 0 1 [], mksp 0 1 []) /\
  sp_concat Z_ring c13_e c13_a = None.
Proof. repeat split; vm_compute; reflexivity. Qed.
(* the zero matrix passes is_id *)
Example C13_sp_is_id_zero_matrix :
  sp_wf (@sp_zero Z 2 2) /\ sp_is_id Z_ring (sp_zero 2 2) = true /\ entry Z_ring (sp_zero 2 2) 0 0 = 0%Z.
Proof. repeat split; vm_compute; reflexivity. Qed.
(* util::perm_for_indices(4, [2, 0]) = [1, 2, 0, 3]  (2 -> 0, 0 -> 1, then 1 -> 2, 3 -> 3); a repeated index panics *)
Example C13_example_perm_for_indices :
  perm_for_indices 4 [2; 0] = Some [1; 2; 0; 3] /\ perm_for_indices 4 [2; 2] = None /\ perm_for_indices 2 [2] = None.
Proof. repeat split; vm_compute; reflexivity. Qed.
(* a history: new(f, b), append_perm, sub, reduce - the hypotheses of C13_trans hold and the run succeeds *)
Definition c13_f : spmat Z := mksp 3 2 [(0, 0, 1%Z); (2, 0, 0%Z); (1, 1, 3%Z)].
Definition c13_b : spmat Z := mksp 2 3 [(0, 0, 1%Z); (1, 1, 1%Z); (0, 2, 5%Z)].
Definition c13_h : hist Z := HReduce (HSub (HAppendPerm (HNew c13_f c13_b) [2; 0; 1]) [1; 1; 0]).
Example C13_example_history :
  hist_wf c13_h /\ hist_ok Z_ring c13_h /\
  option_map (fun t => (t_src t, t_tgt t, length (t_f t))) (tr_run Z_ring c13_h) = Some (2, 3, 1) /\
  option_map (fun t => tr_forward_mat Z_ring t) (tr_run Z_ring c13_h)
  = Some (Some (mksp 3 2 [(0, 0, 0%Z); (1, 0, 0%Z); (2, 1, 3%Z)])).
Proof.
  assert (P : is_perm [2; 0; 1]) by (apply perm_validb_iff; reflexivity). destruct P as [P1 P2].
  split; [|split; [|split]].
  - cbn [c13_h hist_wf]. repeat split; try (vm_compute; reflexivity); assumption.
  - cbn. repeat split. right. intros x [<-|[<-|[<-|[]]]]; repeat constructor.
  - vm_compute. reflexivity.
  - vm_compute. reflexivity.
Qed.
(* dense: shapes with a zero dimension; the undetected inner-dimension mismatch of nalgebra when the right factor has no column *)
Example C13_example_dense_empty :
  d_mul Z_ring (d_zero Z_ring 2 3) (d_zero Z_ring 5 0) = Some (d_zero Z_ring 2 0) /\
  d_mul Z_ring (d_zero Z_ring 2 3) (d_zero Z_ring 5 1) = None /\
  d_from_data Z_ring 0 3 [] = Some (mkd 0 3 []) /\
  d_is_id Z_ring (d_id Z_ring 0) = true /\ d_is_zero Z_ring (d_zero Z_ring 0 3) = true.
Proof. repeat split; vm_compute; reflexivity. Qed.
