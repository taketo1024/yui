(* C18 - components of a valid code: all circles, they partition the set of edge labels, and each is one
   class of the strand-through-crossing relation (the label sequence of one orbit of the successor map). *)
From Coq Require Import List Arith Bool Lia Relations.
Require Import Yui.Model.Link Yui.Proofs.C18Base Yui.Proofs.C18Traverse.
Require Import Yui.Base.ListFacts.
Import ListNotations.

(* e and e' are the labels at the two ends of a strand passing through a crossing *)
Definition thru (l : link) (e e' : nat) : Prop :=
  exists r, InR l r /\ edge_at l r = e /\ edge_at l (exit_of l r) = e'.
Definition conn (l : link) : nat -> nat -> Prop := clos_refl_trans nat (thru l).
Definition thru_closed (l : link) (s : list nat) : Prop := forall e e', In e s -> thru l e e' -> In e' s.

Lemma thru_sym : forall l e e', thru l e e' -> thru l e' e.
Proof.
  intros l e e' (r & Hr & E1 & E2). exists (exit_of l r). split; [apply exit_InR; auto|].
  split; auto. rewrite exit_invol; auto.
Qed.
Lemma conn_sym : forall l e e', conn l e e' -> conn l e' e.
Proof.
  intros l e e' H. induction H.
  - apply rt_step. apply thru_sym; auto.
  - apply rt_refl.
  - eapply rt_trans; eauto.
Qed.
(* a property carried along [thru] is carried along [conn]; a function constant along [thru] is constant on
   each class of [conn] *)
Lemma conn_closed : forall l (P : nat -> Prop), (forall e e', P e -> thru l e e' -> P e') ->
  forall e e', conn l e e' -> P e -> P e'.
Proof. intros l P H e e' C. induction C; eauto. Qed.
Lemma conn_inv : forall l (rev : nat -> bool), (forall e e', thru l e e' -> rev e = rev e') ->
  forall e e', conn l e e' -> rev e = rev e'.
Proof.
  intros l rev H e e' C. apply (conn_closed l (fun x => rev e = rev x)) with (2 := C); [|reflexivity].
  intros a b E T. rewrite E. now apply H.
Qed.
Lemma thru_closed_conn : forall l s, thru_closed l s -> forall e e', conn l e e' -> In e s -> In e' s.
Proof. intros l s Hc. exact (conn_closed l (fun e => In e s) Hc). Qed.
Lemma thru_closed_app : forall l s t, thru_closed l s -> thru_closed l t -> thru_closed l (s ++ t).
Proof.
  intros l s t Hs Ht e e' He Hth. apply in_app_iff in He. apply in_app_iff.
  destruct He; [left; eapply Hs|right; eapply Ht]; eauto.
Qed.

Lemma mk_comp_closed : forall L e, L <> [] -> hd 0 L = e -> mk_comp (L ++ [e]) = mkP L true.
Proof.
  intros L e HL Hh. unfold mk_comp.
  rewrite app_length, last_last, removelast_last. cbn [length].
  assert (hd 0 (L ++ [e]) = e) as -> by (destruct L; [contradiction|cbn in *; auto]).
  rewrite Nat.eqb_refl.
  assert (1 <? length L + 1 = true) as ->.
  { apply Nat.ltb_lt. destruct L; [contradiction|cbn; lia]. }
  reflexivity.
Qed.

Section OrbitLabels.
  Variable l : link.
  Hypothesis Hv : Valid l.
  Variable start : pos.
  Hypothesis Hs : InR l start.
  Variable m : nat.
  Hypothesis Hm : 1 <= m.
  Hypothesis Hc : sig l m start = start.
  Hypothesis Hnd : NoDup (orbit_list l start m).

  Let O := orbit_list l start m.
  Let L := map (edge_at l) O.

  Lemma O_InR : forall p, In p O -> InR l p.
  Proof. intros p Hp. eapply orbit_list_InR; eauto. Qed.

  Lemma labels_thru_closed : thru_closed l L.
  Proof.
    intros e e' He (r & Hr & E1 & E2). apply in_map_iff in He. destruct He as [q [Eq Hq]].
    pose proof (O_InR q Hq) as HqR.
    destruct (same_label_cases l Hv q r HqR Hr ltac:(congruence)) as [->| ->].
    - (* the strand leaves q's crossing: next half-edge of the orbit *)
      apply in_map_iff. exists (sigma l q). split; [|apply (orbit_sigma_closed l start m Hm Hc); auto].
      rewrite (sigma_label l Hv); auto.
    - (* r is the other end of q's edge: the strand arrives from the predecessor *)
      destruct (orbit_pred l start m Hm Hc q Hq) as [q' [Hq' Eq']].
      pose proof (O_InR q' Hq') as Hq'R.
      apply in_map_iff. exists q'. split; auto.
      rewrite <- E2, <- Eq'. rewrite (sigma_inv l Hv); auto.
  Qed.

  Lemma labels_conn_start : forall e, In e L -> conn l (edge_at l start) e.
  Proof.
    intros e He. apply in_map_iff in He. destruct He as [q [<- Hq]].
    apply (orbit_In l start m Hm) in Hq. destruct Hq as [k [_ ->]].
    induction k as [|k IH]; [apply rt_refl|].
    eapply rt_trans; [exact IH|]. apply rt_step.
    exists (sig l k start). split; [apply sig_InR; auto|]. split; auto.
    cbn [sig]. rewrite (sigma_label l Hv); auto. apply sig_InR; auto.
  Qed.

  (* an orbit that starts outside a union of components stays outside *)
  Lemma labels_fresh : forall passed, thru_closed l passed -> ~ In (edge_at l start) passed ->
    forall e, In e L -> ~ In e passed.
  Proof.
    intros passed Hcl Hnp e He Hep. apply Hnp. eapply thru_closed_conn; [exact Hcl| |exact Hep].
    apply conn_sym, labels_conn_start, He.
  Qed.

  Lemma labels_class : forall e, In e L -> forall e', In e' L <-> conn l e e'.
  Proof.
    intros e He e'. split.
    - intros He'. eapply rt_trans; [apply conn_sym, labels_conn_start; auto|apply labels_conn_start; auto].
    - intros Hcn. eapply thru_closed_conn; eauto. apply labels_thru_closed.
  Qed.

  Lemma labels_NoDup : NoDup L.
  Proof.
    apply NoDup_map_local; auto.
    intros a b Ha Hb E.
    pose proof (O_InR a Ha) as HaR. pose proof (O_InR b Hb) as HbR.
    destruct (same_label_cases l Hv a b HaR HbR ltac:(congruence)) as [->| ->]; auto.
    exfalso. destruct (orbit_reach l start m Hm Hc a _ Ha Hb) as [d Ed].
    destruct (tau_not_on_orbit l Hv d) as [T _]. apply (T a HaR). exact Ed.
  Qed.

  Lemma labels_start : In (edge_at l start) L.
  Proof. apply in_map. apply (orbit_start l start m Hm). Qed.
  Lemma labels_in : forall e, In e L -> In e (edge_labels l).
  Proof.
    intros e He. apply in_map_iff in He. destruct He as [q [<- Hq]]. apply edge_at_in_labels, O_InR; auto.
  Qed.
  Lemma labels_hd : hd 0 L = edge_at l start /\ L <> [].
  Proof.
    unfold L, O, orbit_list. destruct m as [|m']; [lia|]. cbn. split; [reflexivity|discriminate].
  Qed.
End OrbitLabels.

(* the loop of Link::components *)
Definition is_orbit_comp (l : link) (c : path) (p : pos) (m : nat) : Prop :=
  InR l p /\ 1 <= m /\ sig l m p = p /\ NoDup (orbit_list l p m) /\
  c = mkP (map (edge_at l) (orbit_list l p m)) true.

Inductive good (l : link) : list nat -> list path -> Prop :=
| good_nil : forall passed, good l passed []
| good_cons : forall passed c p m cs,
    is_orbit_comp l c p m -> ~ In (edge_at l p) passed ->
    good l (pedges c ++ passed) cs -> good l passed (c :: cs).

Lemma good_ext : forall l s1 cs, good l s1 cs -> forall s2, (forall x, In x s1 <-> In x s2) -> good l s2 cs.
Proof.
  intros l s1 cs G. induction G as [s1|s1 c p m cs HO Hn G IH]; intros s2 Heq.
  - constructor.
  - econstructor; eauto.
    + rewrite <- Heq; auto.
    + apply IH. intros x. rewrite !in_app_iff, Heq. tauto.
Qed.

Lemma comp_loop_good : forall l, Valid l -> forall starts, (forall p, In p starts -> InR l p) ->
  forall passed, exists cs, comp_loop l starts passed = Some cs /\ good l passed cs /\
    (forall p, In p starts -> In (edge_at l p) passed \/ In (edge_at l p) (concat (map pedges cs))).
Proof.
  intros l Hv. induction starts as [|p r IH]; intros Hr passed.
  - exists []. cbn. split; auto. split; [constructor|]. intros p [].
  - cbn [comp_loop]. destruct (mem (edge_at l p) passed) eqn:M.
    + apply mem_spec in M.
      destruct (IH ltac:(intros; apply Hr; cbn; auto) passed) as (cs & E & G & C).
      exists cs. split; auto. split; auto. intros q [<-|Hq]; auto.
    + apply mem_false in M.
      assert (HpR : InR l p) by (apply Hr; cbn; auto).
      destruct (traverse_valid l Hv p HpR) as (m & Hm & _ & Hc & Hnd & Ht).
      rewrite Ht. rewrite map_app. cbn [map].
      destruct (labels_hd l p m Hm Hc Hnd) as [Hh Hne].
      rewrite mk_comp_closed; auto.
      set (L := map (edge_at l) (orbit_list l p m)) in *.
      destruct (IH ltac:(intros; apply Hr; cbn; auto) ((L ++ [edge_at l p]) ++ passed)) as (cs & E & G & C).
      rewrite E. cbn [option_map]. exists (mkP L true :: cs). split; auto.
      assert (HL : In (edge_at l p) L) by (apply (labels_start l p m Hm)).
      split.
      * apply (good_cons l passed (mkP L true) p m cs).
        { unfold is_orbit_comp. auto. }
        { exact M. }
        cbn [pedges]. eapply good_ext; [exact G|].
        intros x. rewrite !in_app_iff. cbn [In].
        split; [intros [[A|[<-|[]]]|A]|intros [A|A]]; auto.
      * intros q [<-|Hq]; cbn [map concat pedges].
        { right. apply in_app_iff. left. exact HL. }
        { destruct (C q Hq) as [A|A].
          - apply in_app_iff in A. destruct A as [A|A]; auto.
            right. apply in_app_iff. left. apply in_app_iff in A. destruct A as [A|[<-|[]]]; auto.
          - right. apply in_app_iff. auto. }
Qed.

Lemma good_props : forall l, Valid l -> forall passed cs, good l passed cs -> thru_closed l passed ->
  Forall (fun c => pclosed c = true /\ pedges c <> [] /\ exists p m, is_orbit_comp l c p m) cs /\
  NoDup (concat (map pedges cs)) /\
  (forall e, In e (concat (map pedges cs)) -> ~ In e passed /\ In e (edge_labels l)) /\
  (forall c, In c cs -> forall e, In e (pedges c) -> forall e', In e' (pedges c) <-> conn l e e').
Proof.
  intros l Hv passed cs G. induction G as [passed|passed c p m cs HO Hnp G IH]; intros Hcl.
  - cbn. repeat split; try constructor; intros; contradiction.
  - destruct HO as (HpR & Hm & Hc & Hnd & ->). cbn [pedges] in *.
    set (L := map (edge_at l) (orbit_list l p m)) in *.
    assert (HLc : thru_closed l L) by (apply (labels_thru_closed l Hv p HpR m Hm Hc)).
    assert (Hcl' : thru_closed l (L ++ passed)) by (apply thru_closed_app; auto).
    destruct (IH Hcl') as (F & ND & Dj & Cl).
    pose proof (labels_fresh l Hv p HpR m Hm passed Hcl Hnp) as HLp.
    split; [|split; [|split]].
    + constructor; auto. cbn [pclosed pedges]. split; auto. split.
      * apply (labels_hd l p m Hm Hc Hnd).
      * exists p, m. unfold is_orbit_comp. auto.
    + cbn [map concat pedges]. apply NoDup_app_intro; auto.
      * apply (labels_NoDup l Hv p HpR m Hm Hc Hnd).
      * intros e He He'. apply Dj in He'. destruct He' as [N _]. apply N. apply in_app_iff. auto.
    + cbn [map concat pedges]. intros e He. apply in_app_iff in He. destruct He as [He|He].
      * split; auto. apply (labels_in l Hv p HpR m); auto.
      * apply Dj in He. destruct He as [N I]. split; auto. intros Hp. apply N. apply in_app_iff; auto.
    + intros c [<-|Hc']; cbn [pedges]; auto. intros e He e'. apply (labels_class l Hv p HpR m Hm Hc); auto.
Qed.

Lemma starts_j_In : forall l j0 p, In p (starts_j l j0) <-> fst p < length l /\ snd p = j0.
Proof.
  intros l j0 [i j]. unfold starts_j. rewrite in_map_iff. cbn [fst snd]. split.
  - intros [i0 [E Hi]]. inversion E; subst. apply in_seq in Hi. split; auto; lia.
  - intros [Hi <-]. exists i. split; auto. apply in_seq. lia.
Qed.
Lemma comp_starts_In : forall l p, In p (comp_starts l) <-> fst p < length l /\ snd p <= 2.
Proof.
  intros l p. unfold comp_starts. rewrite !in_app_iff, !starts_j_In. lia.
Qed.

(* Link::components on a valid code *)
Theorem components_valid : forall l, Valid l ->
  exists cs, components l = Some cs /\
    Forall (fun c => pclosed c = true /\ pedges c <> [] /\ exists p m, is_orbit_comp l c p m) cs /\
    NoDup (concat (map pedges cs)) /\
    (forall e, In e (concat (map pedges cs)) <-> In e (edge_labels l)) /\
    (forall c, In c cs -> forall e, In e (pedges c) -> forall e', In e' (pedges c) <-> conn l e e').
Proof.
  intros l Hv. unfold components.
  destruct (comp_loop_good l Hv (comp_starts l)
              ltac:(intros p Hp; apply comp_starts_In in Hp; unfold InR; lia) [])
    as (cs & E & G & C).
  exists cs. split; auto.
  destruct (good_props l Hv [] cs G ltac:(intros e e' [])) as (F & ND & Dj & Cl).
  split; auto. split; auto. split; auto.
  intros e. split; [intros He; apply Dj in He; tauto|].
  intros He. apply in_labels_edge_at in He. destruct He as [p [HpR <-]].
  destruct (le_lt_dec (snd p) 2) as [Hj|Hj].
  - destruct (C p) as [[]|A]; auto. apply comp_starts_In. destruct HpR. split; auto.
  - (* slot 3: its partner slot is a start, and both labels lie on one strand *)
    pose proof (exit_InR l p HpR) as HqR.
    assert (Hq : In (exit_of l p) (comp_starts l)).
    { apply comp_starts_In. destruct HpR as [A B]. split; auto. unfold exit_of. cbn [fst snd].
      assert (snd p = 3) as -> by lia. destruct (ct (cross_at l (fst p))); cbn; lia. }
    destruct (C _ Hq) as [[]|A].
    apply in_concat in A. destruct A as [es [Hes He]]. apply in_map_iff in Hes.
    destruct Hes as [c [<- Hc]].
    apply in_concat. exists (pedges c). split; [apply in_map; auto|].
    apply (Cl c Hc _ He). apply rt_step. exists (exit_of l p). split; auto. split; auto.
    rewrite exit_invol; auto.
Qed.

(* the number of components is the number of classes: any system of representatives of [conn] on the
   labels has as many elements as there are components *)
Definition reps_of (l : link) (reps : list nat) : Prop :=
  NoDup reps /\ (forall r, In r reps -> In r (edge_labels l)) /\
  (forall a b, In a reps -> In b reps -> conn l a b -> a = b) /\
  (forall e, In e (edge_labels l) -> exists r, In r reps /\ conn l r e).

Lemma concat_NoDup_facts : forall (ls : list (list nat)),
  NoDup (concat ls) -> (forall x, In x ls -> x <> []) ->
  NoDup ls /\ (forall x y e, In x ls -> In y ls -> In e x -> In e y -> x = y).
Proof.
  induction ls as [|a ls IH]; intros ND NE; cbn [concat] in *.
  - split; [constructor|intros x y e []].
  - apply NoDup_app_inv in ND. destruct ND as (Na & Nc & Dj).
    destruct (IH Nc ltac:(intros; apply NE; cbn; auto)) as [N U].
    assert (Hd : forall y e, In y ls -> In e a -> In e y -> False).
    { intros y e Hy Ha Hey. apply (Dj e Ha). apply in_concat. eauto. }
    split.
    + constructor; auto. intros Ha. destruct a as [|e a'] eqn:Ea; [apply (NE []); cbn; auto|].
      apply (Hd (e :: a') e); cbn; auto.
    + intros x y e [<-|Hx] [<-|Hy] Hex Hey; auto.
      * exfalso. eapply Hd; eauto.
      * exfalso. eapply Hd; eauto.
      * eapply U; eauto.
Qed.

(* a duplicate-free list that a relation maps into a second list, one-to-one, is not longer *)
Lemma injection_length : forall A B (R : A -> B -> Prop) (la : list A) (lb : list B),
  NoDup la -> (forall a, In a la -> exists b, In b lb /\ R a b) ->
  (forall a a' b, In a la -> In a' la -> In b lb -> R a b -> R a' b -> a = a') ->
  length la <= length lb.
Proof.
  intros A B R. induction la as [|a la IH]; intros lb Na Tot Inj; [apply Nat.le_0_l|].
  destruct (Tot a (or_introl eq_refl)) as [b [Hb Rab]].
  apply in_split in Hb. destruct Hb as [l1 [l2 ->]].
  rewrite app_length. cbn [length]. rewrite Nat.add_succ_r, <- app_length. apply le_n_S.
  inversion Na; subst.
  assert (Hbin : In b (l1 ++ b :: l2)) by (apply in_app_iff; cbn; auto).
  apply IH; auto.
  - intros a' Ha'. destruct (Tot a' (or_intror Ha')) as [b' [Hb' Rab']].
    exists b'. split; auto. apply in_app_iff in Hb'. apply in_app_iff. destruct Hb' as [X|[<-|X]]; auto.
    assert (a = a') by (apply (Inj a a' b); cbn; auto). subst. contradiction.
  - intros x x' y Hx Hx' Hy. apply Inj; cbn; auto. apply in_app_iff in Hy. apply in_app_iff. cbn. tauto.
Qed.

Theorem components_count : forall l, Valid l -> forall cs, components l = Some cs ->
  forall reps, reps_of l reps -> length cs = length reps.
Proof.
  intros l Hv cs E reps (RN & RI & RU & RC).
  destruct (components_valid l Hv) as (cs' & E' & F & ND & Cov & Cl).
  rewrite E in E'. inversion E'; subst cs'; clear E'.
  rewrite Forall_forall in F.
  assert (NE : forall x, In x (map pedges cs) -> x <> []).
  { intros x Hx. apply in_map_iff in Hx. destruct Hx as [c [<- Hc]]. apply (F c Hc). }
  destruct (concat_NoDup_facts _ ND NE) as [NL UL].
  rewrite <- (map_length pedges cs).
  apply Nat.le_antisymm;
    [apply (injection_length _ _ (fun es r => In r es))|apply (injection_length _ _ (fun r es => In r es))]; auto.
  - intros es Hes. apply in_map_iff in Hes. destruct Hes as [c [<- Hc]].
    destruct (F c Hc) as (_ & Hne & _).
    destruct (pedges c) as [|e0 es'] eqn:Ec; [contradiction|].
    destruct (RC e0) as [r [Hr Hcn]].
    { apply Cov, in_concat. exists (pedges c). split; [apply in_map; auto|]. rewrite Ec. cbn; auto. }
    exists r. split; auto. rewrite <- Ec. apply (Cl c Hc e0); [rewrite Ec; cbn; auto|].
    apply conn_sym; auto.
  - intros es es' r Hes Hes' _ H1 H2. eapply UL; eauto.
  - intros r Hr. apply RI, Cov, in_concat in Hr. destruct Hr as [es [Hes Hr]]. eauto.
  - intros r r' es Hr Hr' Hes H1 H2. apply in_map_iff in Hes. destruct Hes as [c [<- Hc]].
    apply RU; auto. apply (Cl c Hc r H1). auto.
Qed.
