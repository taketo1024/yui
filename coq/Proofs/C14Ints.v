(* Lemmas about the checked integer primitives of Model/Ints.v:
   - [ck] never wraps: a result is the mathematical value, and it is produced exactly when it fits;
   - at width [Big] nothing panics except division by zero;
   - monotonicity: whatever a machine width computes, BigInt computes too ([ole]). *)
From Coq Require Import ZArith Bool Lia.
Require Import Yui.Model.Ints.
Open Scope Z_scope.

(* option order: "if the left run returns a value, the right run returns the same" *)
Definition ole {A} (x y : option A) : Prop := forall v, x = Some v -> y = Some v.

Lemma ole_refl {A} (x : option A) : ole x x.
Proof. intros v H; exact H. Qed.

Lemma ole_none {A} (y : option A) : ole None y.
Proof. intros v H; discriminate. Qed.

Lemma ole_bind {A B} (x y : option A) (f g : A -> option B) :
  ole x y -> (forall a, ole (f a) (g a)) -> ole (obind x f) (obind y g).
Proof.
  intros Hxy Hfg v H. destruct x as [a|]; cbn in H; [|discriminate].
  rewrite (Hxy a eq_refl). cbn. now apply Hfg.
Qed.

Lemma ole_if {A} (b : bool) (x x' y y' : option A) :
  ole x x' -> ole y y' -> ole (if b then x else y) (if b then x' else y').
Proof. destruct b; auto. Qed.

Lemma ck_inv w x v : ck w x = Some v -> v = x /\ fitsb w x = true.
Proof. unfold ck. destruct (fitsb w x); intros H; inversion H; auto. Qed.

Lemma ck_big x : ck Big x = Some x.
Proof. reflexivity. Qed.

Lemma ck_fits w x : fitsb w x = true -> ck w x = Some x.
Proof. unfold ck. now intros ->. Qed.

Lemma ck_spec w x : ck w x = if fitsb w x then Some x else None.
Proof. reflexivity. Qed.

Lemma fitsb_W b x : fitsb (W b) x = true <-> - 2 ^ (b - 1) <= x < 2 ^ (b - 1).
Proof. cbn. rewrite andb_true_iff, Z.leb_le, Z.ltb_lt. tauto. Qed.

Lemma fitsb_i64 x : fitsb i64 x = true <-> -9223372036854775808 <= x <= 9223372036854775807.
Proof. unfold i64. rewrite fitsb_W. change (2 ^ (64 - 1)) with 9223372036854775808. lia. Qed.

Lemma fitsb_i128 x : fitsb i128 x = true <->
  -170141183460469231731687303715884105728 <= x <= 170141183460469231731687303715884105727.
Proof.
  unfold i128. rewrite fitsb_W.
  change (2 ^ (128 - 1)) with 170141183460469231731687303715884105728. lia.
Qed.

Lemma fitsb_i32 x : fitsb i32 x = true <-> -2147483648 <= x <= 2147483647.
Proof. unfold i32. rewrite fitsb_W. change (2 ^ (32 - 1)) with 2147483648. lia. Qed.

Lemma ck_mono w x : ole (ck w x) (ck Big x).
Proof. intros v H. apply ck_inv in H as [-> _]. reflexivity. Qed.

(* exactness of every primitive: a returned value is the value over Z *)
Lemma iadd_inv w a b v : iadd w a b = Some v -> v = a + b.
Proof. intros H; now apply ck_inv in H. Qed.
Lemma isub_inv w a b v : isub w a b = Some v -> v = a - b.
Proof. intros H; now apply ck_inv in H. Qed.
Lemma imul_inv w a b v : imul w a b = Some v -> v = a * b.
Proof. intros H; now apply ck_inv in H. Qed.
Lemma ineg_inv w a v : ineg w a = Some v -> v = - a.
Proof. intros H; now apply ck_inv in H. Qed.
Lemma iabs_inv w a v : iabs w a = Some v -> v = Z.abs a.
Proof. intros H; now apply ck_inv in H. Qed.
Lemma iquot_inv w a b v : iquot w a b = Some v -> b <> 0 /\ v = Z.quot a b.
Proof.
  unfold iquot. destruct (b =? 0) eqn:E; [discriminate|]. intros H. apply ck_inv in H.
  split; [now apply Z.eqb_neq|tauto].
Qed.
Lemma irem_inv w a b v : irem w a b = Some v -> b <> 0 /\ v = Z.rem a b.
Proof.
  unfold irem. destruct (b =? 0) eqn:E; [discriminate|]. destruct (ck w (a ÷ b)); cbn; [|discriminate].
  intros H; inversion H. split; [now apply Z.eqb_neq|reflexivity].
Qed.
Lemma igcd_inv w a b v : igcd w a b = Some v -> v = Z.gcd a b.
Proof. intros H; now apply ck_inv in H. Qed.

(* the exact panic condition of the ring operations: the result does not fit *)
Lemma iadd_spec w a b : iadd w a b = if fitsb w (a + b) then Some (a + b) else None.
Proof. reflexivity. Qed.
Lemma isub_spec w a b : isub w a b = if fitsb w (a - b) then Some (a - b) else None.
Proof. reflexivity. Qed.
Lemma imul_spec w a b : imul w a b = if fitsb w (a * b) then Some (a * b) else None.
Proof. reflexivity. Qed.
Lemma ineg_spec w a : ineg w a = if fitsb w (- a) then Some (- a) else None.
Proof. reflexivity. Qed.

(* BigInt: total except for division by zero *)
Lemma iadd_big a b : iadd Big a b = Some (a + b). Proof. reflexivity. Qed.
Lemma isub_big a b : isub Big a b = Some (a - b). Proof. reflexivity. Qed.
Lemma imul_big a b : imul Big a b = Some (a * b). Proof. reflexivity. Qed.
Lemma ineg_big a : ineg Big a = Some (- a). Proof. reflexivity. Qed.
Lemma iabs_big a : iabs Big a = Some (Z.abs a). Proof. reflexivity. Qed.
Lemma igcd_big a b : igcd Big a b = Some (Z.gcd a b). Proof. reflexivity. Qed.
Lemma iquot_big a b : b <> 0 -> iquot Big a b = Some (Z.quot a b).
Proof. intros H. unfold iquot. apply Z.eqb_neq in H. now rewrite H. Qed.
Lemma iis_unit_big a : iis_unit Big a = Some ((a =? 1) || (a =? -1)).
Proof.
  unfold iis_unit. destruct (a =? 1) eqn:E; [reflexivity|]. cbn. f_equal.
  destruct (- a =? 1) eqn:F, (a =? -1) eqn:G; try reflexivity; lia.
Qed.
Lemma ilcm_big a b : ilcm Big a b = Some (Z.abs (a * Z.quot b (Z.gcd a b))).
Proof.
  unfold ilcm. destruct ((a =? 0) && (b =? 0)) eqn:E.
  - apply andb_true_iff in E as [Ea Eb]. apply Z.eqb_eq in Ea, Eb. subst. reflexivity.
  - rewrite igcd_big. cbn [obind]. rewrite iquot_big.
    + reflexivity.
    + intros G. apply Z.gcd_eq_0 in G as [-> ->]. discriminate.
Qed.

Lemma iadd_mono w a b : ole (iadd w a b) (iadd Big a b). Proof. apply ck_mono. Qed.
Lemma isub_mono w a b : ole (isub w a b) (isub Big a b). Proof. apply ck_mono. Qed.
Lemma imul_mono w a b : ole (imul w a b) (imul Big a b). Proof. apply ck_mono. Qed.
Lemma ineg_mono w a : ole (ineg w a) (ineg Big a). Proof. apply ck_mono. Qed.
Lemma iabs_mono w a : ole (iabs w a) (iabs Big a). Proof. apply ck_mono. Qed.
Lemma igcd_mono w a b : ole (igcd w a b) (igcd Big a b). Proof. apply ck_mono. Qed.
Lemma iquot_mono w a b : ole (iquot w a b) (iquot Big a b).
Proof. unfold iquot. destruct (b =? 0); [apply ole_none|apply ck_mono]. Qed.
Lemma irem_mono w a b : ole (irem w a b) (irem Big a b).
Proof.
  unfold irem. destruct (b =? 0); [apply ole_none|].
  apply ole_bind; [apply ck_mono|intros; apply ole_refl].
Qed.
Lemma ilcm_mono w a b : ole (ilcm w a b) (ilcm Big a b).
Proof.
  unfold ilcm. apply ole_if; [apply ole_refl|].
  apply ole_bind; [apply igcd_mono|intros g].
  apply ole_bind; [apply iquot_mono|intros q].
  apply ole_bind; [apply imul_mono|intros m]. apply iabs_mono.
Qed.
Lemma iis_unit_mono w a : ole (iis_unit w a) (iis_unit Big a).
Proof.
  unfold iis_unit. apply ole_if; [apply ole_refl|].
  apply ole_bind; [apply ineg_mono|intros; apply ole_refl].
Qed.

(* monotonicity of a composite operation, by its structure: binds, conditionals and the primitives;
   [extra] closes the leaves that are operations of the caller *)
Ltac ole_mono_with extra :=
  repeat first
    [ extra | apply ole_refl | apply ole_none | apply ck_mono
    | apply iadd_mono | apply isub_mono | apply imul_mono | apply ineg_mono | apply iabs_mono
    | apply iquot_mono | apply irem_mono | apply igcd_mono | apply ilcm_mono | apply iis_unit_mono
    | apply ole_if | (apply ole_bind; [|intros ?]) ].
Ltac ole_mono := ole_mono_with fail.

(* the machine types never wrap: summary used by Properties/C14.v *)
Lemma int_ops_exact w a b :
  (forall v, iadd w a b = Some v -> v = a + b) /\
  (forall v, isub w a b = Some v -> v = a - b) /\
  (forall v, imul w a b = Some v -> v = a * b) /\
  (forall v, ineg w a = Some v -> v = - a) /\
  (iadd w a b = None <-> fitsb w (a + b) = false) /\
  (isub w a b = None <-> fitsb w (a - b) = false) /\
  (imul w a b = None <-> fitsb w (a * b) = false) /\
  (ineg w a = None <-> fitsb w (- a) = false).
Proof.
  repeat split; try (intros v H; now apply ck_inv in H);
    unfold iadd, isub, imul, ineg, ck;
    match goal with |- context [fitsb w ?x] => destruct (fitsb w x) end; congruence.
Qed.

Lemma int_ops_big a b :
  iadd Big a b = Some (a + b) /\ isub Big a b = Some (a - b) /\ imul Big a b = Some (a * b) /\
  ineg Big a = Some (- a).
Proof. repeat split. Qed.
