(* C09 - "the diagonal agrees up to units with the invariant factors obtained from gcds of minors" (over Z).
   Property theorems only: each is proved by [exact <lemma>] or a short combination of proved lemmas and is
   followed by Print Assumptions; the Examples instantiate the hypotheses on concrete values.

   This is the only C09 file that depends on MathComp / CoqEAL: the determinant is MathComp's [\det]
   (mathcomp.algebra.matrix.determinant, Leibniz formula), the theorem used is CoqEAL's
   [smith_complements.Smith_gcdr_spec] (Cauchy-Binet), instantiated at Z with the ring structure of
   mathcomp.zify.ssrZ (whose operations are Z.add, Z.mul) made a CoqEAL Euclidean domain (Proofs/C09UniqueMinors.v).
   The statements below use, besides [\det], only stdlib notions:
     [zminor A k f g]  = \det ( A (f i) (g j) )_(i, j < k)      for index maps f, g : nat -> nat
     [prodn k d]       = d_0 * ... * d_(k-1)
     [gcd_of_minors m n A k d]: d divides zminor A k f g for all f : [0,k) -> [0,m), g : [0,k) -> [0,n), and every
                       common divisor of all these minors divides d   (index maps need not be increasing or
                       injective: such minors are 0 or +- an ordinary one, so the gcd is the same).
   Uniqueness itself (Properties/C09Unique.v) does not depend on this file. *)
From Coq Require Import ZArith Arith List Bool.
Require Import Yui.Base.Ring Yui.Base.MatF Yui.Base.MatL Yui.Model.Snf.
Require Import Yui.Model.KhCube Yui.Model.KhHomology.
Require Import Yui.Proofs.C07Algebra Yui.Proofs.C09Total.
Require Import Yui.Proofs.KhSmithRows Yui.Proofs.KhSmithSteps.
Require Yui.Proofs.C09UniqueMinors.
Require Import Yui.Proofs.C09UniqueMinorsCor.
Import ListNotations.
Close Scope Z_scope.

Theorem C09_minors_vocabulary :
  (forall (k : nat) (d : nat -> Z), prodn 0 d = 1%Z /\ prodn (S k) d = (prodn k d * d k)%Z) /\
  (forall (A : mat Z) f g, zminor A 1 f g = A (f 0) (g 0)) /\
  (forall (A : mat Z) f g,
     zminor A 2 f g = (A (f 0%nat) (g 0%nat) * A (f 1%nat) (g 1%nat) - A (f 1%nat) (g 0%nat) * A (f 0%nat) (g 1%nat))%Z) /\
  (forall (m n : nat) (A : mat Z) (k : nat) (d : Z),
     gcd_of_minors m n A k d <->
     (forall f g : nat -> nat, (forall i, i < k -> f i < m) -> (forall j, j < k -> g j < n) ->
        (d | zminor A k f g)%Z) /\
     (forall c : Z,
        (forall f g : nat -> nat, (forall i, i < k -> f i < m) -> (forall j, j < k -> g j < n) ->
           (c | zminor A k f g)%Z) -> (c | d)%Z)).
Proof.
  split; [intros k d; split; reflexivity|].
  split; [exact C09UniqueMinors.zminor_1|]. split; [exact C09UniqueMinors.zminor_2|].
  intros m n A k d. split; intros H; exact H.
Qed.
Print Assumptions C09_minors_vocabulary.

Theorem C09_minors :
  forall (m n : nat) (A : mat Z) (r : nat) (a : nat -> Z) (k : nat),
  smith_form Z_ring m n A r a -> (forall i, S i < r -> (a i | a (S i))%Z) -> k <= Nat.min m n ->
  gcd_of_minors m n A k (prodn k (fun i => if i <? r then a i else 0%Z)).
Proof. exact smith_form_minors. Qed.
Print Assumptions C09_minors.

(* the mirrored snf over Z (i32 / i64 / i128 / BigInt dictionaries): the product of the first k diagonal
   entries of every result meeting the contract is a gcd of the k x k minors of the input *)
Theorem C09_minors_snf :
  forall (pre : option (preproc Z)) (m n : nat) (A : lmat Z) (f1 f2 f3 f4 : bool) (res : snf_result Z) (k : nat),
  snf_spec (Zpre_dict pre) m n A f1 f2 f3 f4 res -> k <= Nat.min m n ->
  gcd_of_minors m n (lget Z_ring A) k (prodn k (fun i => lget Z_ring (dm_rows (sr_d res)) i i)).
Proof. exact snf_minors. Qed.
Print Assumptions C09_minors_snf.

(* the Khovanov oracle's sparse Smith routine *)
Theorem C09_minors_oracle :
  forall (n fuel : nat) (rows : list row) (ds : list Z) (k : nat),
  rows_wf n rows -> smith_diag fuel rows = Some ds -> k <= Nat.min (length rows) n ->
  gcd_of_minors (length rows) n (dense rows) k (prodn k (fun i => nth i ds 0%Z)).
Proof. exact oracle_minors. Qed.
Print Assumptions C09_minors_oracle.

(* non-vacuity: A = [[2,4,4],[-6,6,12]] = Smith form diag(2, 6); d_1 = 2, d_2 = 12 *)
Example C09_minors_example :
  forall res, snf Z_dict (mk_dmat 2 3 [[2; 4; 4]; [-6; 6; 12]]%Z) (true, true, true, true) = Some res ->
  gcd_of_minors 2 3 (lget Z_ring [[2; 4; 4]; [-6; 6; 12]]%Z) 1 2%Z /\
  gcd_of_minors 2 3 (lget Z_ring [[2; 4; 4]; [-6; 6; 12]]%Z) 2 12%Z.
Proof.
  intros res E.
  assert (W : wf 2 3 [[2; 4; 4]; [-6; 6; 12]]%Z) by (split; [reflexivity|repeat constructor]).
  pose proof (Yui.Proofs.C09Total.snf_total_partial Z_dict Yui.Proofs.C09Laws.Z_snf_laws I _ 2 3 _ true true true true res W E) as HS.
  vm_compute in E. injection E as <-.
  split.
  - exact (snf_minors None 2 3 _ true true true true _ 1 HS (le_S _ _ (le_n 1))).
  - exact (snf_minors None 2 3 _ true true true true _ 2 HS (le_n 2)).
Qed.
