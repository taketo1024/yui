(* Tangle layer, part 4: connecting two simple arcs that meet at ends only gives a simple arc or a simple circle
   on the union of their labels. *)
From Coq Require Import List Arith Bool Lia Permutation.
Import ListNotations.
Require Import Yui.Model.Link Yui.Model.Tng Yui.Proofs.TngPBase Yui.Proofs.TngPSegs Yui.Proofs.TngPDeg.
Require Import Yui.Base.ListFacts.

Definition lend (l : list nat) (v : nat) : Prop := v = hd 0 l \/ v = last l 0.

Lemma lend_rev : forall l v, lend (rev l) v <-> lend l v.
Proof. intros l v. unfold lend. rewrite hd_rev, last_rev. tauto. Qed.

(* [r] is what gluing the label lists x and y at a common end gives: simple, on the union of the labels.
   Symmetric in x and y, and indifferent to the direction of either. *)
Definition glued (x y : list nat) (r : path) : Prop :=
  simple r /\ (forall v, In v (pedges r) <-> In v x \/ In v y).

Lemma glued_sym : forall x y r, glued x y r -> glued y x r.
Proof. intros x y r [S1 S2]. split; [exact S1|]. intros v. rewrite S2. tauto. Qed.

Lemma glued_rev : forall x y r, glued x (rev y) r -> glued x y r.
Proof. intros x y r [S1 S2]. split; [exact S1|]. intros v. rewrite S2, <- in_rev. tauto. Qed.

Lemma hd_in : forall (l : list nat), l <> [] -> In (hd 0 l) l.
Proof. intros [|x l] Hl; [contradiction|left; reflexivity]. Qed.
Lemma len2_ne : forall (l : list nat), 2 <= length l -> l <> [].
Proof. intros l Hl E. subst. cbn in Hl. lia. Qed.

Section Join.
  Variables x y : list nat.
  Hypothesis Nx : NoDup x.
  Hypothesis Ny : NoDup y.
  Hypothesis Lx : 2 <= length x.
  Hypothesis Ly : 2 <= length y.
  Hypothesis E : last x 0 = hd 0 y.
  Hypothesis Hxy : forall v, In v x -> In v y -> lend x v /\ lend y v.

  Let Hx : x <> [] := len2_ne x Lx.
  Let Hy : y <> [] := len2_ne y Ly.

  Lemma join_in : forall v, In v (join x y) <-> In v x \/ In v y.
  Proof.
    intros v. unfold join. rewrite in_app_iff. split.
    - intros [H1|H1]; [left; apply in_removelast; auto|right; auto].
    - intros [H1|H1]; [|right; auto].
      destruct (in_split_last x v 0 H1) as [H2|H2]; [left; auto|].
      right. rewrite H2, E. apply hd_in; auto.
  Qed.

  Lemma join_hd : hd 0 (join x y) = hd 0 x.
  Proof. unfold join. rewrite hd_app_ne by (apply removelast_ne; auto). apply hd_removelast; auto. Qed.
  Lemma join_last : last (join x y) 0 = last y 0.
  Proof. unfold join. apply last_app_ne; auto. Qed.
  Lemma join_len : 2 <= length (join x y).
  Proof. unfold join. rewrite app_length, removelast_length. lia. Qed.

  Lemma join_disjoint : forall v, In v (removelast x) -> In v y -> v = hd 0 x /\ v = last y 0.
  Proof.
    intros v H1 H2. pose proof (NoDup_last_notin x 0 Nx Hx) as Hl.
    assert (Hv : v <> last x 0) by (intros ->; contradiction).
    destruct (Hxy v (in_removelast _ _ H1) H2) as [[A|A] [B|B]]; try contradiction; auto.
    rewrite <- E in B. contradiction.
  Qed.

  Lemma join_nodup_open : hd 0 x <> last y 0 -> NoDup (join x y).
  Proof.
    intros Hne. unfold join. apply NoDup_app_intro; auto.
    - apply NoDup_removelast; auto.
    - intros v H1 H2. destruct (join_disjoint v H1 H2) as [A B]. apply Hne. congruence.
  Qed.

  Lemma join_closed_eq : removelast (join x y) = removelast x ++ removelast y.
  Proof. unfold join. apply removelast_app; auto. Qed.

  Lemma join_nodup_closed : NoDup (removelast (join x y)).
  Proof.
    rewrite join_closed_eq. apply NoDup_app_intro.
    - apply NoDup_removelast; auto.
    - apply NoDup_removelast; auto.
    - intros v H1 H2. destruct (join_disjoint v H1 (in_removelast _ _ H2)) as [A B].
      apply (NoDup_last_notin y 0 Ny Hy). rewrite <- B. exact H2.
  Qed.

  Lemma join_closed_in : hd 0 x = last y 0 -> forall v, In v (removelast (join x y)) <-> In v x \/ In v y.
  Proof.
    intros Hc v. rewrite join_closed_eq, in_app_iff. split.
    - intros [H1|H1]; [left|right]; apply in_removelast; auto.
    - intros [H1|H1].
      + destruct (in_split_last x v 0 H1) as [H2|H2]; [left; auto|].
        right. rewrite H2, E, <- (hd_removelast y 0 Ly). apply hd_in. apply removelast_ne; auto.
      + destruct (in_split_last y v 0 H1) as [H2|H2]; [right; auto|].
        left. rewrite H2, <- Hc, <- (hd_removelast x 0 Lx). apply hd_in. apply removelast_ne; auto.
  Qed.

  (* the component produced by close_up *)
  Lemma join_close_up : glued x y (close_up (join x y)).
  Proof.
    unfold glued, close_up. rewrite join_hd, join_last.
    destruct (hd 0 x =? last y 0) eqn:Ec; cbn [pedges pclosed].
    - apply Nat.eqb_eq in Ec. split; [|apply join_closed_in; auto].
      split; cbn [pedges pclosed]; [apply join_nodup_closed|].
      rewrite join_closed_eq. intros Ea. apply app_eq_nil in Ea. destruct Ea as [Ea _].
      apply (removelast_ne x Lx Ea).
    - apply Nat.eqb_neq in Ec. split; [|apply join_in].
      split; cbn [pedges pclosed]; [apply join_nodup_open; auto|apply join_len].
  Qed.
End Join.

Lemma p_connectable_sym : forall p q, p_connectable p q = p_connectable q p.
Proof.
  intros p q. unfold p_connectable. destruct (p_ends p) as [[e0 e1]|], (p_ends q) as [[f0 f1]|]; auto.
  rewrite (Nat.eqb_sym e0 f0), (Nat.eqb_sym e0 f1), (Nat.eqb_sym e1 f0), (Nat.eqb_sym e1 f1).
  destruct (f0 =? e0), (f1 =? e0), (f0 =? e1), (f1 =? e1); reflexivity.
Qed.

Lemma connectable_shares_end : forall p q, p_connectable p q = true ->
  exists v, is_end p v /\ is_end q v.
Proof.
  intros p q Hc. destruct (connectable_arcs _ _ Hc) as [Hp Hq].
  rewrite connectable_spec, !orb_true_iff, !Nat.eqb_eq in Hc by auto. unfold is_end.
  destruct Hc as [[[Hc|Hc]|Hc]|Hc]; [exists (hd 0 (pedges p))|exists (hd 0 (pedges p))|
    exists (last (pedges p) 0)|exists (last (pedges p) 0)]; auto.
Qed.

Lemma shares_end_connectable : forall p q v, pclosed p = false -> pclosed q = false ->
  is_end p v -> is_end q v -> p_connectable p q = true.
Proof.
  intros p q v Hp Hq [A|A] [B|B]; rewrite connectable_spec by auto; rewrite <- A, <- B, Nat.eqb_refl;
    repeat rewrite orb_true_r; reflexivity.
Qed.

Theorem connect_simple : forall p q, simple p -> simple q -> p_connectable p q = true ->
  (forall v, In v (pedges p) -> In v (pedges q) -> is_end p v /\ is_end q v) ->
  exists r, p_connect p q = Some r /\ simple r /\
    (forall v, In v (pedges r) <-> In v (pedges p) \/ In v (pedges q)).
Proof.
  intros p q Sp Sq Hc Hpq. unfold p_connect. rewrite Hc. eexists. split; [reflexivity|].
  change (glued (pedges p) (pedges q) (close_up (glue (pedges p) (pedges q)))).
  destruct (connectable_arcs _ _ Hc) as [Hp Hq].
  destruct Sp as [Np Lp], Sq as [Nq Lq]. rewrite Hp in Lp. rewrite Hq in Lq.
  rewrite connectable_spec in Hc by auto.
  apply (glue_ind (fun x y r => NoDup x -> NoDup y -> 2 <= length x -> 2 <= length y ->
           (forall v, In v x -> In v y -> lend x v /\ lend y v) -> glued x y (close_up r))); auto using len2_ne.
  - intros x y _ _ El Nx Ny Lx Ly Hxy. apply join_close_up; auto.
  - intros x y r H Nx Ny Lx Ly Hxy. apply glued_sym, H; auto. intros v H1 H2. apply and_comm; auto.
  - intros x y r H Nx Ny Lx Ly Hxy. apply glued_rev, H; auto using NoDup_rev.
    + rewrite rev_length. exact Ly.
    + intros v H1 H2. rewrite lend_rev. apply Hxy; auto. apply in_rev; auto.
Qed.
