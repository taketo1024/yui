(* Soundness of the sparse Smith diagonalisation of Model/KhHomology.v: matrix equivalence.
   Integer matrices as functions (Base/MatF.v over Z_ring).  [equiv m n A B] : there are square integer
   matrices P, P', Q, Q' with P P' = I = P' P (m x m), Q Q' = I = Q' Q (n x n) and P A Q = B on the
   m x n window.  It is reflexive and transitive, and contains the elementary operations the loop uses:
   adding multiples of one row to the other rows, adding multiples of one column to the other columns,
   permuting rows / columns, scaling rows by units. *)
From Coq Require Import List Arith Bool ZArith Lia.
Require Import Yui.Base.Ring Yui.Base.MatF Yui.Proofs.C07Algebra.
Import ListNotations.
Open Scope Z_scope.

Notation zmat := (mat Z).
Notation zmul := (mmul Z_ring).
Notation zid := (mid Z_ring).
Notation zinv := (inv_pair Z_ring).

(* the lemmas of MatF with Z syntax *)
Lemma zsum_ext n f g : (forall k, (k < n)%nat -> f k = g k) -> sum Z_ring n f = sum Z_ring n g.
Proof. exact (sum_ext Z_ring n f g). Qed.
Lemma zsum_add n f g : sum Z_ring n (fun k => f k + g k) = sum Z_ring n f + sum Z_ring n g.
Proof. exact (sum_add Z_ring Z_ring_laws n f g). Qed.
Lemma zsum_delta n i f : (i < n)%nat -> sum Z_ring n (fun k => if (k =? i)%nat then f k else 0) = f i.
Proof. exact (sum_delta Z_ring Z_ring_laws n i f). Qed.
Lemma zmul_unfold n A B i j : zmul n A B i j = sum Z_ring n (fun k => A i k * B k j).
Proof. reflexivity. Qed.
Lemma zid_unfold i j : zid i j = if (i =? j)%nat then 1 else 0.
Proof. reflexivity. Qed.

Lemma zinv_id k : zinv k zid zid.
Proof. split; intros i j Hi Hj; now apply (mmul_id_l Z_ring Z_ring_laws). Qed.

Lemma zinv_mul m P1 Pi1 P2 Pi2 :
  zinv m P1 Pi1 -> zinv m P2 Pi2 -> zinv m (zmul m P2 P1) (zmul m Pi1 Pi2).
Proof.
  intros [A1 B1] [A2 B2]. split; intros i j Hi Hj.
  - rewrite (mmul_assoc Z_ring Z_ring_laws).
    rewrite (mmul_ext_r Z_ring m P2 _ Pi2).
    + now apply A2.
    + intros l Hl. apply (mmul_cancel_l Z_ring Z_ring_laws); assumption.
  - rewrite (mmul_assoc Z_ring Z_ring_laws).
    rewrite (mmul_ext_r Z_ring m Pi1 _ P1).
    + now apply B1.
    + intros l Hl. apply (mmul_cancel_l Z_ring Z_ring_laws); assumption.
Qed.

Definition equiv (m n : nat) (A B : zmat) : Prop :=
  exists P Pi Q Qi : zmat, zinv m P Pi /\ zinv n Q Qi /\ meq m n (zmul m P (zmul n A Q)) B.

Lemma equiv_meq_r m n A B B' : equiv m n A B -> meq m n B B' -> equiv m n A B'.
Proof.
  intros [P [Pi [Q [Qi [HP [HQ HE]]]]]] HB. exists P, Pi, Q, Qi.
  split; [exact HP|]. split; [exact HQ|]. eapply meq_trans; eassumption.
Qed.

Lemma equiv_of_meq m n A B : meq m n A B -> equiv m n A B.
Proof.
  intros H. exists zid, zid, zid, zid. split; [apply zinv_id|]. split; [apply zinv_id|].
  intros i j Hi Hj. rewrite (mmul_id_l Z_ring Z_ring_laws) by assumption.
  rewrite (mmul_id_r Z_ring Z_ring_laws) by assumption. now apply H.
Qed.

Lemma equiv_refl m n A : equiv m n A A.
Proof. apply equiv_of_meq, meq_refl. Qed.

Lemma equiv_trans m n A B C : equiv m n A B -> equiv m n B C -> equiv m n A C.
Proof.
  intros [P1 [Pi1 [Q1 [Qi1 [HP1 [HQ1 HE1]]]]]] [P2 [Pi2 [Q2 [Qi2 [HP2 [HQ2 HE2]]]]]].
  exists (zmul m P2 P1), (zmul m Pi1 Pi2), (zmul n Q1 Q2), (zmul n Qi2 Qi1).
  split; [now apply zinv_mul|].
  split; [apply inv_pair_sym; apply zinv_mul; apply inv_pair_sym; assumption|].
  intros i j Hi Hj. rewrite <- (HE2 i j Hi Hj).
  rewrite (mmul_assoc Z_ring Z_ring_laws).
  apply (mmul_ext_r Z_ring). intros l Hl.
  rewrite (mmul_ext_r Z_ring m P1 _ (zmul n (zmul n A Q1) Q2))
    by (intros l' _; symmetry; apply (mmul_assoc Z_ring Z_ring_laws)).
  rewrite <- (mmul_assoc Z_ring Z_ring_laws).
  apply (mmul_ext_l Z_ring). intros l' Hl'. now apply HE1.
Qed.

Lemma equiv_left m n A B P Pi : zinv m P Pi -> meq m n (zmul m P A) B -> equiv m n A B.
Proof.
  intros HP HE. exists P, Pi, zid, zid. split; [exact HP|]. split; [apply zinv_id|].
  intros i j Hi Hj. rewrite <- (HE i j Hi Hj). apply (mmul_ext_r Z_ring). intros l Hl.
  now apply (mmul_id_r Z_ring Z_ring_laws).
Qed.

(* transposition: an operation on columns is an operation on the rows of the transpose *)
Lemma zmul_tr k A B i j : zmul k (fun x y => B y x) (fun x y => A y x) i j = zmul k A B j i.
Proof. rewrite !zmul_unfold. apply zsum_ext. intros l _. ring. Qed.

Lemma zid_sym i j : zid i j = zid j i.
Proof. rewrite !zid_unfold. now rewrite Nat.eqb_sym. Qed.

Lemma zinv_tr k P Pi : zinv k P Pi -> zinv k (fun x y => P y x) (fun x y => Pi y x).
Proof.
  intros [H1 H2]. split; intros i j Hi Hj; rewrite zmul_tr.
  - rewrite (H2 j i Hj Hi). apply zid_sym.
  - rewrite (H1 j i Hj Hi). apply zid_sym.
Qed.

Lemma equiv_tr m n A B : equiv m n A B -> equiv n m (fun x y => A y x) (fun x y => B y x).
Proof.
  intros [P [Pi [Q [Qi [HP [HQ HE]]]]]].
  exists (fun x y => Q y x), (fun x y => Qi y x), (fun x y => P y x), (fun x y => Pi y x).
  split; [now apply zinv_tr|]. split; [now apply zinv_tr|].
  intros i j Hi Hj. rewrite <- (HE j i Hj Hi).
  rewrite (mmul_ext_r Z_ring n (fun x y => Q y x) _ (fun x y => zmul m P A y x))
    by (intros l Hl; exact (zmul_tr m P A l j)).
  rewrite (zmul_tr n (zmul m P A) Q). apply (mmul_assoc Z_ring Z_ring_laws).
Qed.

(* adding multiples of row i to the other rows *)
Definition rowT (i : nat) (q : nat -> Z) : zmat :=
  fun x l => (if (l =? x)%nat then 1 else 0) + (if (l =? i)%nat then (if (x =? i)%nat then 0 else q x) else 0).

Lemma rowT_mul m i q M x c : (i < m)%nat -> (x < m)%nat ->
  zmul m (rowT i q) M x c = M x c + (if (x =? i)%nat then 0 else q x * M i c).
Proof.
  intros Hi Hx. rewrite zmul_unfold. unfold rowT.
  rewrite (zsum_ext m _ (fun l => (if (l =? x)%nat then M l c else 0)
                                 + (if (l =? i)%nat then (if (x =? i)%nat then 0 else q x * M l c) else 0))).
  - rewrite zsum_add, (zsum_delta m x (fun l => M l c)) by exact Hx.
    rewrite (zsum_delta m i (fun l => if (x =? i)%nat then 0 else q x * M l c)) by exact Hi. reflexivity.
  - intros l _. destruct (l =? x)%nat; destruct (l =? i)%nat; destruct (x =? i)%nat; ring.
Qed.

Lemma rowT_inv m i q : (i < m)%nat -> zinv m (rowT i q) (rowT i (fun x => - q x)).
Proof.
  intros Hi.
  assert (H : forall q1 q2, (forall x, q2 x = - q1 x) -> meq m m (zmul m (rowT i q1) (rowT i q2)) zid).
  { intros q1 q2 Hq x c Hx Hc. rewrite rowT_mul by assumption. unfold rowT. rewrite zid_unfold.
    rewrite (Hq x), (Nat.eqb_sym c x), Nat.eqb_refl.
    destruct (Nat.eqb_spec x c) as [Exc|Hxc]; destruct (Nat.eqb_spec c i) as [Eci|Hci];
      destruct (Nat.eqb_spec x i) as [Exi|Hxi]; subst; lia. }
  split; apply H; intros x; lia.
Qed.

Lemma equiv_row_op m n M M' i q : (i < m)%nat ->
  meq m n M' (fun x c => M x c + (if (x =? i)%nat then 0 else q x * M i c)) -> equiv m n M M'.
Proof.
  intros Hi HE. apply (equiv_left m n M M' (rowT i q) (rowT i (fun x => - q x))); [now apply rowT_inv|].
  intros x c Hx Hc. rewrite rowT_mul by assumption. symmetry. now apply HE.
Qed.

(* adding multiples of column j to the other columns *)
Lemma equiv_col_op m n M M' j q : (j < n)%nat ->
  meq m n M' (fun x c => M x c + (if (c =? j)%nat then 0 else q c * M x j)) -> equiv m n M M'.
Proof.
  intros Hj HE. apply (equiv_tr n m (fun c x => M x c) (fun c x => M' x c)).
  apply (equiv_row_op n m _ _ j q Hj). intros c x Hc Hx. exact (HE x c Hx Hc).
Qed.

Definition bij (m : nat) (f g : nat -> nat) : Prop :=
  forall x, (x < m)%nat -> (f x < m)%nat /\ (g x < m)%nat /\ g (f x) = x /\ f (g x) = x.

Lemma bij_sym m f g : bij m f g -> bij m g f.
Proof. intros H x Hx. destruct (H x Hx) as [H1 [H2 [H3 H4]]]. auto. Qed.

Definition rowP (f : nat -> nat) : zmat := fun x l => if (l =? f x)%nat then 1 else 0.

Lemma rowP_mul m f M x c : (f x < m)%nat -> zmul m (rowP f) M x c = M (f x) c.
Proof.
  intros Hx. rewrite zmul_unfold. unfold rowP.
  rewrite (zsum_ext m _ (fun l => if (l =? f x)%nat then M l c else 0)).
  - now rewrite (zsum_delta m (f x) (fun l => M l c)).
  - intros l _. destruct (l =? f x)%nat; ring.
Qed.

Lemma rowP_inv m f g : bij m f g -> zinv m (rowP f) (rowP g).
Proof.
  intros H.
  assert (K : forall f g, bij m f g -> meq m m (zmul m (rowP f) (rowP g)) zid).
  { clear f g H. intros f g H x c Hx Hc. destruct (H x Hx) as [H1 [H2 [H3 H4]]].
    rewrite rowP_mul by exact H1. unfold rowP. rewrite zid_unfold, H3, (Nat.eqb_sym c x). reflexivity. }
  split; [now apply K|apply K; now apply bij_sym].
Qed.

Lemma equiv_row_perm m n M M' f g : bij m f g ->
  meq m n M' (fun x c => M (f x) c) -> equiv m n M M'.
Proof.
  intros H HE. apply (equiv_left m n M M' (rowP f) (rowP g)); [now apply rowP_inv|].
  intros x c Hx Hc. rewrite rowP_mul by apply (H x Hx). symmetry. now apply HE.
Qed.

Lemma equiv_col_perm m n M M' f g : bij n f g ->
  meq m n M' (fun x c => M x (f c)) -> equiv m n M M'.
Proof.
  intros H HE. apply (equiv_tr n m (fun c x => M x c) (fun c x => M' x c)).
  apply (equiv_row_perm n m _ _ f g H). intros c x Hc Hx. exact (HE x c Hx Hc).
Qed.

(* scaling rows by units *)
Definition rowD (u : nat -> Z) : zmat := fun x l => if (l =? x)%nat then u x else 0.

Lemma rowD_mul m u M x c : (x < m)%nat -> zmul m (rowD u) M x c = u x * M x c.
Proof.
  intros Hx. rewrite zmul_unfold. unfold rowD.
  rewrite (zsum_ext m _ (fun l => if (l =? x)%nat then u x * M l c else 0)).
  - now rewrite (zsum_delta m x (fun l => u x * M l c)).
  - intros l _. destruct (l =? x)%nat; ring.
Qed.

Lemma equiv_row_scale m n M M' u : (forall x, u x * u x = 1) ->
  meq m n M' (fun x c => u x * M x c) -> equiv m n M M'.
Proof.
  intros Hu HE. apply (equiv_left m n M M' (rowD u) (rowD u)).
  - split; intros x c Hx Hc; rewrite rowD_mul by assumption; unfold rowD; rewrite zid_unfold, (Nat.eqb_sym c x);
      destruct (x =? c)%nat; [apply Hu|ring|apply Hu|ring].
  - intros x c Hx Hc. rewrite rowD_mul by assumption. symmetry. now apply HE.
Qed.

(* a permutation of [0, n) that starts with a given duplicate-free list *)
Lemma perm_of_list n (cs : list nat) :
  NoDup cs -> (forall c, In c cs -> (c < n)%nat) ->
  exists f g, bij n f g /\ forall t, (t < length cs)%nat -> f t = nth t cs O.
Proof.
  induction cs as [|c cs IH] using rev_ind; intros Hnd Hb.
  - exists (fun x => x), (fun x => x). split; [intros x Hx; auto|]. intros t Ht. cbn [length] in Ht. lia.
  - assert (Hnd' : NoDup cs /\ ~ In c cs).
    { apply NoDup_remove in Hnd. rewrite app_nil_r in Hnd. exact Hnd. }
    destruct Hnd' as [Hnd' Hnin].
    destruct (IH Hnd' (fun c' H => Hb c' (in_or_app _ _ _ (or_introl H)))) as [f [g [Hfg Hf]]].
    assert (Hc : (c < n)%nat) by (apply Hb, in_or_app; right; now left).
    set (t := length cs). set (x := g c).
    destruct (Hfg c Hc) as [_ [Hx [_ Hfx]]]. fold x in Hx, Hfx.
    assert (Htx : (t <= x)%nat).
    { destruct (Nat.le_gt_cases t x) as [H|H]; [exact H|exfalso].
      apply Hnin. rewrite <- Hfx, (Hf x H). now apply nth_In. }
    set (sw := fun y => if (y =? t)%nat then x else if (y =? x)%nat then t else y).
    assert (Hsw : forall y, (y < n)%nat -> (sw y < n)%nat /\ sw (sw y) = y).
    { intros y Hy. unfold sw.
      destruct (Nat.eqb_spec y t) as [->|Hyt].
      - split; [exact Hx|]. destruct (Nat.eqb_spec x t) as [E|_]; [exact E|]. now rewrite Nat.eqb_refl.
      - destruct (Nat.eqb_spec y x) as [->|Hyx].
        + split; [lia|]. now rewrite Nat.eqb_refl.
        + split; [exact Hy|]. destruct (Nat.eqb_spec y t); [contradiction|].
          destruct (Nat.eqb_spec y x); [contradiction|reflexivity]. }
    exists (fun y => f (sw y)), (fun z => sw (g z)). split.
    + intros y Hy. destruct (Hsw y Hy) as [S1 S2]. destruct (Hfg (sw y) S1) as [F1 [_ [F3 _]]].
      destruct (Hfg y Hy) as [_ [G2 [_ G4]]]. destruct (Hsw (g y) G2) as [S3 S4].
      split; [exact F1|]. split; [exact S3|]. split; [now rewrite F3|now rewrite S4].
    + intros s Hs. rewrite app_length in Hs. cbn [length] in Hs. fold t in Hs.
      destruct (Nat.eq_dec s t) as [->|Hst].
      * unfold sw. rewrite Nat.eqb_refl, Hfx. unfold t. now rewrite nth_middle.
      * assert (Hlt : (s < t)%nat) by lia. unfold sw.
        destruct (Nat.eqb_spec s t); [contradiction|]. destruct (Nat.eqb_spec s x); [lia|].
        rewrite (Hf s Hlt). now rewrite app_nth1.
Qed.
