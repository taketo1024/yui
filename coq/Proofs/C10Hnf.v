(* C10: the shape of the result of the LLL-based Hermite normal form.

   Loop invariant of LLLHNFCalc::process on the state with step = K (rows are those of `target`, i.e. before
   the final reversal; piv r = nz_col_in r):
     ech    : for r + 1 < K:  piv r = None, or piv r = Some j, piv (r+1) = Some l with l < j
              (zero rows first, then strictly decreasing pivot columns)
     normal : for r + 1 < K:  the pivot entry of row r is normalised (normalizing_unit = 1)
     small  : for r < r' < K: N(target[r'][piv r]) < N(target[r][piv r])
   At exit K = nrows; the last row is normalised by the epilogue of `process`; `result` reverses the rows. *)
From Coq Require Import ZArith List Bool Arith Lia Ring.
Require Import Yui.Base.Ring Yui.Base.MatF Yui.Base.MatL Yui.Model.Lll Yui.Proofs.C10Laws Yui.Proofs.C10Ops.
Import ListNotations.

Section Hnf.
  Context {R : Type} (L : lll_ring R) (LW : lll_laws L).
  Local Notation o := (lops L).
  Local Notation RL := (ll_ring L LW).

  Add Ring Rring3 : (ring_theory_of_laws o RL).

  Local Notation zero := (rzero o).
  Local Notation one := (rone o).
  Local Notation T s := (lget o (target s)).
  Local Notation nz s := (nz_col_in L s).


  (* the first non-zero position of a row, as a relation on entries *)
  Definition rowpiv (n : nat) (f : nat -> R) (p : option nat) : Prop :=
    match p with
    | Some j => j < n /\ f j <> zero /\ forall b, b < j -> f b = zero
    | None => forall b, b < n -> f b = zero
    end.

  Lemma rowpiv_fun n f p p' : rowpiv n f p -> rowpiv n f p' -> p = p'.
  Proof.
    destruct p as [j|], p' as [j'|]; cbn [rowpiv]; intros H H'.
    - destruct H as (Hj & Hn & Hz), H' as (Hj' & Hn' & Hz'). f_equal.
      destruct (Nat.lt_trichotomy j j') as [Hlt|[->|Hlt]]; [|reflexivity|].
      + exfalso. apply Hn. now apply Hz'.
      + exfalso. apply Hn'. now apply Hz.
    - destruct H as (Hj & Hn & _). exfalso. apply Hn. now apply H'.
    - destruct H' as (Hj & Hn & _). exfalso. apply Hn. now apply H.
    - reflexivity.
  Qed.

  Lemma rowpiv_ext n f g p : (forall b, b < n -> f b = g b) -> rowpiv n f p -> rowpiv n g p.
  Proof.
    intros E. destruct p as [j|]; cbn [rowpiv].
    - intros (Hj & Hn & Hz). split; [exact Hj|]. split.
      + rewrite <- E by exact Hj. exact Hn.
      + intros b Hb. rewrite <- E by lia. now apply Hz.
    - intros H b Hb. rewrite <- E by exact Hb. now apply H.
  Qed.

  Lemma first_nz_rowpiv l : forall j0,
    match first_nz L l j0 with
    | Some j => j0 <= j /\ rowpiv (length l) (fun b => nth b l zero) (Some (j - j0))
    | None => rowpiv (length l) (fun b => nth b l zero) None
    end.
  Proof.
    induction l as [|a l IH]; intros j0; cbn [first_nz].
    - cbn [rowpiv length]. intros b Hb. lia.
    - destruct (reqb_spec o RL a zero) as [E|E].
      + specialize (IH (S j0)). destruct (first_nz L l (S j0)) as [j|].
        * destruct IH as (Hle & Hj & Hn & Hz). split; [lia|]. cbn [rowpiv length].
          replace (j - j0) with (S (j - S j0)) by lia. cbn [nth]. split; [lia|]. split; [exact Hn|].
          intros b Hb. destruct b as [|b]; [exact E|]. apply Hz. lia.
        * cbn [rowpiv length] in *. intros b Hb. destruct b as [|b]; [exact E|]. cbn [nth]. apply IH. lia.
      + split; [lia|]. cbn [rowpiv length]. rewrite Nat.sub_diag. cbn [nth].
        split; [lia|]. split; [exact E|]. intros b Hb. lia.
  Qed.

  Definition wfs (s : lll_data (R := R)) : Prop := wf (nr s) (nc s) (target s).

  Lemma nz_rowpiv s i : wfs s -> i < nr s -> rowpiv (nc s) (T s i) (nz s i).
  Proof.
    intros [Hm Hf] Hi. unfold nz_col_in, mrow.
    assert (Hl : length (nth i (target s) []) = nc s).
    { rewrite Forall_forall in Hf. apply Hf, nth_In. lia. }
    pose proof (first_nz_rowpiv (nth i (target s) []) 0) as H. rewrite Hl in H.
    destruct (first_nz L _ 0) as [j|].
    - destruct H as [_ H]. rewrite Nat.sub_0_r in H. exact H.
    - exact H.
  Qed.

  Lemma nz_lt s i j : wfs s -> i < nr s -> nz s i = Some j -> j < nc s /\ T s i j <> zero /\ forall b, b < j -> T s i b = zero.
  Proof. intros W Hi E. pose proof (nz_rowpiv s i W Hi) as H. rewrite E in H. exact H. Qed.

  Lemma nz_none s i : wfs s -> i < nr s -> nz s i = None -> forall b, b < nc s -> T s i b = zero.
  Proof. intros W Hi E. pose proof (nz_rowpiv s i W Hi) as H. rewrite E in H. exact H. Qed.

  Lemma unit_one : lis_unit L one = true.
  Proof. rewrite <- (ll_nunit_idem L LW one). apply (ll_nunit_unit L LW). Qed.

  Lemma unit_mul_zero x u : lis_unit L u = true -> rmul o x u = zero -> x = zero.
  Proof.
    intros Hu H. destruct (ll_unit_inv L LW u Hu) as [v Hv]. apply (ll_inv_mul L LW) in Hv.
    transitivity (rmul o (rmul o x u) v).
    - rewrite <- (rmul_assoc o RL), Hv. ring.
    - rewrite H. ring.
  Qed.

  Lemma rowpiv_scale n f u p : lis_unit L u = true -> rowpiv n f p -> rowpiv n (fun b => rmul o (f b) u) p.
  Proof.
    intros Hu. destruct p as [j|]; cbn [rowpiv].
    - intros (Hj & Hn & Hz). split; [exact Hj|]. split.
      + intros E. apply Hn. now apply (unit_mul_zero _ u).
      + intros b Hb. rewrite Hz by exact Hb. ring.
    - intros H b Hb. rewrite H by exact Hb. ring.
  Qed.

  Lemma nz_scale s s' i u : wfs s -> wfs s' -> nr s' = nr s -> nc s' = nc s -> i < nr s -> lis_unit L u = true ->
    (forall b, b < nc s -> T s' i b = rmul o (T s i b) u) -> nz s' i = nz s i.
  Proof.
    intros W W' Hm Hn Hi Hu E. apply (rowpiv_fun (nc s) (T s' i)).
    - rewrite <- Hn. apply nz_rowpiv; [exact W'|lia].
    - apply (rowpiv_ext (nc s) (fun b => rmul o (T s i b) u)); [intros b Hb; symmetry; now apply E|].
      apply rowpiv_scale; [exact Hu|]. now apply nz_rowpiv.
  Qed.

  Lemma nz_ext s s' i : wfs s -> wfs s' -> nr s' = nr s -> nc s' = nc s -> i < nr s ->
    (forall b, b < nc s -> T s' i b = T s i b) -> nz s' i = nz s i.
  Proof.
    intros W W' Hm Hn Hi E. apply (nz_scale s s' i one); try assumption; [apply unit_one|].
    intros b Hb. rewrite E by exact Hb. ring.
  Qed.

  Lemma mul_row_spec s i u s' : mul_row L s i u = Some s' ->
    lis_unit L u = true /\ i < nr s /\ nr s' = nr s /\ nc s' = nc s /\ step s' = step s /\ wfs s' /\
    forall a b, a < nr s -> b < nc s -> T s' a b = if a =? i then rmul o (T s a b) u else T s a b.
  Proof.
    cbv beta zeta delta [mul_row].
    destruct (lis_unit L u) eqn:Hu; [|discriminate].
    destruct (Nat.ltb_spec i (nr s)) as [Hi|]; [|discriminate]. cbn [negb orb].
    destruct (tpinv s) as [q|]; [destruct (linv L u) as [v|]; [|discriminate]|]; cbn [obind];
      intros H; injection H as <-; unfold wfs; cbn [nr nc step target];
      repeat (split; [first [reflexivity|assumption|apply wf_lmk]|]);
      intros a b Ha Hb; now rewrite (lget_m_mul_row L).
  Qed.

  Lemma add_row_to_spec s i k r s' : add_row_to L s i k r = Some s' ->
    i < k /\ k < nr s /\ nr s' = nr s /\ nc s' = nc s /\ step s' = step s /\ wfs s' /\
    forall a b, a < nr s -> b < nc s ->
      T s' a b = if a =? k then radd o (T s k b) (rmul o (T s i b) r) else T s a b.
  Proof.
    cbv beta zeta delta [add_row_to].
    destruct (Nat.ltb_spec i k) as [Hik|]; [|discriminate].
    destruct (Nat.ltb_spec k (nr s)) as [Hk|]; [|discriminate]. cbn [negb orb].
    intros H; injection H as <-; unfold wfs; cbn [nr nc step target].
    repeat (split; [first [reflexivity|assumption|apply wf_lmk]|]).
    intros a b Ha Hb. now rewrite (lget_m_add_row_to L).
  Qed.

  Lemma swap_spec s k s' : swap L s k = Some s' ->
    1 <= k /\ k < nr s /\ nr s' = nr s /\ nc s' = nc s /\ step s' = step s /\ wfs s' /\
    forall a b, a < nr s -> b < nc s -> T s' a b = T s (if a =? k - 1 then k else if a =? k then k - 1 else a) b.
  Proof.
    cbv beta zeta delta [swap].
    destruct (Nat.eqb_spec k 0) as [|Hk0]; [discriminate|].
    destruct (Nat.ltb_spec k (nr s)) as [Hk|]; [|discriminate]. cbn [negb orb].
    destruct (ofold _ _ _) as [l2|]; [|discriminate]. cbn [obind].
    destruct (ldiv L _ _) as [dk|]; [|discriminate]. cbn [obind].
    intros H; injection H as <-; unfold wfs; cbn [nr nc step target].
    repeat (split; [first [reflexivity|assumption|lia|apply wf_lmk]|]).
    intros a b Ha Hb. now rewrite (lget_m_swap_rows L).
  Qed.

  (* a[k] -= q * a[i], skipped when q = 0: the end of LLLData::reduce and of LLLHNFCalc::reduce *)
  Lemma sub_row_spec s i k q s' : wfs s ->
    (if reqb o q zero then Some s else add_row_to L s i k (rneg o q)) = Some s' ->
    nr s' = nr s /\ nc s' = nc s /\ step s' = step s /\ wfs s' /\
    forall a b, a < nr s -> b < nc s ->
      T s' a b = if a =? k then radd o (T s k b) (rmul o (T s i b) (rneg o q)) else T s a b.
  Proof.
    intros W H. destruct (reqb_spec o RL q zero) as [E0|E0].
    - injection H as <-. splits; try assumption; try reflexivity. intros a b Ha Hb.
      destruct (Nat.eqb_spec a k) as [->|]; [|reflexivity]. rewrite E0. ring.
    - apply add_row_to_spec in H. destruct H as (_ & _ & Hm & Hn & Hs & W' & HT). splits; assumption.
  Qed.

  Lemma reduce_target s i k s' : wfs s -> reduce L s i k = Some s' ->
    i < k /\ k < nr s /\ nr s' = nr s /\ nc s' = nc s /\ step s' = step s /\ wfs s' /\
    exists q, forall a b, a < nr s -> b < nc s ->
      T s' a b = if a =? k then radd o (T s k b) (rmul o (T s i b) (rneg o q)) else T s a b.
  Proof.
    intros W. cbv beta zeta delta [reduce].
    destruct (Nat.ltb_spec i k) as [Hik|]; [|discriminate].
    destruct (Nat.ltb_spec k (nr s)) as [Hk|]; [|discriminate]. cbn [negb orb].
    destruct (ldiv_round L _ _) as [q|]; [|discriminate]. cbn [obind]. intros H.
    destruct (sub_row_spec s i k q s' W H) as (Hm & Hn & Hs & W' & HT).
    splits; try assumption. now exists q.
  Qed.

  (* the second half of LLLHNFCalc::reduce: a[k] -= div_round(a[k][j], a[i][j]) * a[i] *)
  Lemma hnf_tail_spec s i k j q s' : wfs s -> i < k -> k < nr s -> j < nc s ->
    ldiv_round L (T s k j) (T s i j) = Some q ->
    (if reqb o q zero then Some s else add_row_to L s i k (rneg o q)) = Some s' ->
    nr s' = nr s /\ nc s' = nc s /\ step s' = step s /\ wfs s' /\
    (forall a b, a < nr s -> b < nc s ->
       T s' a b = if a =? k then radd o (T s k b) (rmul o (T s i b) (rneg o q)) else T s a b) /\
    lsize_ok L (T s' k j) (T s i j) = true.
  Proof.
    intros W Hik Hk Hj Eq H.
    pose proof (ll_div_round_some L LW _ _ _ Eq) as Hsz.
    destruct (sub_row_spec s i k q s' W H) as (Hm & Hn & Hs & W' & HT).
    splits; try assumption.
    rewrite HT by assumption. rewrite Nat.eqb_refl.
    replace (radd o (T s k j) (rmul o (T s i j) (rneg o q))) with (rsub o (T s k j) (rmul o q (T s i j)));
      [exact Hsz|]. unfold rsub. ring.
  Qed.

  (* LLLHNFCalc::reduce(i, k) *)
  Lemma hnf_reduce_spec s i k s' : wfs s -> hnf_reduce L s i k = Some s' ->
    i < k /\ k < nr s /\ nr s' = nr s /\ nc s' = nc s /\ step s' = step s /\ wfs s' /\
    exists u q, lis_unit L u = true /\
      (forall a b, a < nr s -> b < nc s ->
         T s' a b = if a =? i then rmul o (T s a b) u
                    else if a =? k then radd o (T s k b) (rmul o (rmul o (T s i b) u) (rneg o q))
                    else T s a b) /\
      match nz s i with
      | Some j => lnunit L (rmul o (T s i j) u) = one /\ (lnunit L (T s i j) = one -> u = one) /\
                  lsize_ok L (T s' k j) (T s' i j) = true
      | None => u = one
      end.
  Proof.
    intros W. cbv beta zeta delta [hnf_reduce].
    destruct (Nat.ltb_spec i k) as [Hik|]; [|discriminate].
    destruct (Nat.ltb_spec k (nr s)) as [Hk|]; [|discriminate]. cbn [negb orb].
    assert (Hi : i < nr s) by lia.
    destruct (nz s i) as [j|] eqn:Enz.
    - destruct (nz_lt s i j W Hi Enz) as (Hj & Hnz & Hz).
      change (mget L (target s) i j) with (T s i j).
      destruct (reqb_spec o RL (lnunit L (T s i j)) one) as [Eu|Eu]; cbn [obind].
      + destruct (ldiv_round L _ _) as [q|] eqn:Eq; [|discriminate]. cbn [obind]. intros H.
        apply (hnf_tail_spec s i k j q s' W Hik Hk Hj Eq) in H.
        destruct H as (Hm & Hn & Hs & W' & HT & Hsz). splits; try assumption; try reflexivity.
        exists one, q. split; [apply unit_one|]. split; [|split; [|split]].
        * intros a b Ha Hb. rewrite HT by assumption.
          destruct (Nat.eqb_spec a i) as [->|Hai].
          -- destruct (Nat.eqb_spec i k); [lia|]. ring.
          -- destruct (Nat.eqb_spec a k); [ring|reflexivity].
        * replace (rmul o (T s i j) one) with (T s i j) by ring. exact Eu.
        * intros _. reflexivity.
        * rewrite (HT i j) by assumption. destruct (Nat.eqb_spec i k); [lia|]. exact Hsz.
      + destruct (mul_row L s i _) as [s1|] eqn:E1; [|discriminate]. cbn [obind].
        apply mul_row_spec in E1. destruct E1 as (Hu & _ & Hm1 & Hn1 & Hs1 & W1 & HT1).
        destruct (ldiv_round L _ _) as [q|] eqn:Eq; [|discriminate]. cbn [obind]. intros H.
        apply (hnf_tail_spec s1 i k j q s') in H; try assumption; try lia.
        destruct H as (Hm & Hn & Hs & W' & HT & Hsz).
        rewrite Hm1 in *. rewrite Hn1 in *.
        splits; try congruence.
        exists (lnunit L (T s i j)), q. split; [exact Hu|]. split; [|split; [|split]].
        * intros a b Ha Hb. rewrite HT by assumption. rewrite !HT1 by assumption.
          destruct (Nat.eqb_spec a i) as [->|Hai].
          -- destruct (Nat.eqb_spec i k); [lia|]. reflexivity.
          -- destruct (Nat.eqb_spec a k) as [->|]; [|reflexivity].
             rewrite Nat.eqb_refl. destruct (Nat.eqb_spec k i); [lia|]. reflexivity.
        * apply (ll_nunit_idem L LW).
        * intros E. exact E.
        * rewrite (HT i j) by assumption. destruct (Nat.eqb_spec i k); [lia|]. exact Hsz.
    - intros H. apply reduce_target in H; [|exact W].
      destruct H as (_ & _ & Hm & Hn & Hs & W' & q & HT). splits; try assumption; try reflexivity.
      exists one, q. split; [apply unit_one|]. split; [|reflexivity].
      intros a b Ha Hb. rewrite HT by assumption.
      destruct (Nat.eqb_spec a i) as [->|Hai].
      + destruct (Nat.eqb_spec i k); [lia|]. ring.
      + destruct (Nat.eqb_spec a k); [ring|reflexivity].
  Qed.

  Definition ok2 (p p' : option nat) : Prop :=
    match p, p' with
    | Some j, Some l => l < j
    | Some _, None => False
    | None, _ => True
    end.

  Lemma ok2_trans p p' p'' : ok2 p p' -> ok2 p' p'' -> ok2 p p''.
  Proof. destruct p, p', p''; cbn [ok2]; try tauto; lia. Qed.

  Definition ech (s : lll_data) (K : nat) : Prop := forall r, S r < K -> ok2 (nz s r) (nz s (S r)).
  Definition normal (s : lll_data) (K : nat) : Prop :=
    forall r j, r < K -> nz s r = Some j -> lnunit L (T s r j) = one.
  Definition small (s : lll_data) (K : nat) : Prop :=
    forall r r' j, r < r' -> r' < K -> nz s r = Some j -> (lnormz L (T s r' j) < lnormz L (T s r j))%Z.

  Lemma ech_lt s K : ech s K -> forall r' r, r < r' -> r' < K -> ok2 (nz s r) (nz s r').
  Proof.
    intros HE. induction r' as [|r' IH]; intros r Hr Hr'; [lia|].
    destruct (Nat.eq_dec r r') as [->|Hne]; [apply HE; lia|].
    apply (ok2_trans _ (nz s r')); [apply IH; lia|apply HE; lia].
  Qed.

  Definition hinv (s : lll_data) : Prop :=
    wfs s /\ 1 <= step s /\ (step s <= nr s \/ step s = 1) /\
    ech s (step s) /\ normal s (step s - 1) /\ small s (step s).

  Lemma hinv_step1 s : wfs s -> step s = 1 -> hinv s.
  Proof.
    intros W E. unfold hinv. rewrite E. split; [exact W|]. split; [lia|]. split; [now right|].
    split; [intros r Hr; lia|]. split; [intros r j Hr; lia|]. intros r r' j Hr Hr'. lia.
  Qed.

  Lemma hinv_with_step s K : wfs s -> 1 <= K -> K <= nr s \/ K = 1 -> ech s K -> normal s (K - 1) -> small s K ->
    hinv (with_step s K).
  Proof. intros W H1 H2 HE HN HS. exact (conj W (conj H1 (conj H2 (conj HE (conj HN HS))))). Qed.

  (* the rows below K of s' are unit multiples of those of s: pivot columns, hence their order, and all norms
     are those of s; this is what every step of the algorithm does to the rows it does not work on *)
  Definition scaled (K : nat) (u : nat -> R) (s s' : lll_data) : Prop :=
    wfs s /\ wfs s' /\ nr s' = nr s /\ nc s' = nc s /\ K <= nr s /\
    forall a, a < K -> lis_unit L (u a) = true /\ forall b, b < nc s -> T s' a b = rmul o (T s a b) (u a).

  Lemma scaled_same K s s' : wfs s -> wfs s' -> nr s' = nr s -> nc s' = nc s -> K <= nr s ->
    (forall a b, a < K -> b < nc s -> T s' a b = T s a b) -> scaled K (fun _ => one) s s'.
  Proof.
    intros W W' Hm Hn HK E. unfold scaled. splits; try assumption.
    intros a Ha. split; [apply unit_one|]. intros b Hb. rewrite E by assumption. ring.
  Qed.

  Lemma scaled_nz K u s s' : scaled K u s s' -> forall a, a < K -> nz s' a = nz s a.
  Proof.
    intros (W & W' & Hm & Hn & HK & H) a Ha. destruct (H a Ha) as [Hu E].
    apply (nz_scale s s' a (u a)); try assumption. lia.
  Qed.

  Lemma scaled_ech K u s s' : scaled K u s s' -> ech s K -> ech s' K.
  Proof. intros H HE r Hr. rewrite !(scaled_nz K u s s' H) by lia. now apply HE. Qed.

  Lemma scaled_small K u s s' : scaled K u s s' -> small s K -> small s' K.
  Proof.
    intros H HS r r' j Hr Hr' Hj. rewrite (scaled_nz K u s s' H) in Hj by lia.
    destruct H as (W & _ & _ & _ & HK & H).
    destruct (nz_lt s r j W ltac:(lia) Hj) as (Hjn & _).
    rewrite (proj2 (H r ltac:(lia))), (proj2 (H r' Hr')) by exact Hjn.
    rewrite !(ll_norm_unit L LW) by (apply H; lia). now apply HS.
  Qed.

  Lemma scaled_normal K u s s' : scaled K u s s' ->
    (forall r j, r < K -> nz s r = Some j -> lnunit L (rmul o (T s r j) (u r)) = one) -> normal s' K.
  Proof.
    intros H HN r j Hr Hj. rewrite (scaled_nz K u s s' H) in Hj by exact Hr.
    destruct H as (W & _ & _ & _ & HK & H).
    destruct (nz_lt s r j W ltac:(lia) Hj) as (Hjn & _).
    rewrite (proj2 (H r Hr)) by exact Hjn. now apply HN.
  Qed.

  Lemma same_normal K s s' : scaled K (fun _ => one) s s' -> normal s K -> normal s' K.
  Proof.
    intros H HN. apply (scaled_normal K _ s s' H). intros r j Hr Hj.
    replace (rmul o (T s r j) one) with (T s r j) by ring. now apply HN.
  Qed.

  (* one LLLHNFCalc::reduce(t, k) with t < k below an echelon block whose rows < k are normalised *)
  Lemma hnf_reduce_lower s t k x : wfs s -> t < k -> k < nr s -> ech s (S k) -> normal s k ->
    hnf_reduce L s t k = Some x ->
    nr x = nr s /\ nc x = nc s /\ step x = step s /\ wfs x /\
    (forall a b, a < nr s -> b < nc s -> a <> k -> T x a b = T s a b) /\
    (forall a, a < nr s -> nz x a = nz s a) /\
    (forall b, b < nc s -> match nz s t with Some jt => b < jt | None => True end -> T x k b = T s k b) /\
    (forall jt, nz s t = Some jt -> (lnormz L (T x k jt) < lnormz L (T s t jt))%Z).
  Proof.
    intros W Htk Hk HE HN H.
    destruct (hnf_reduce_spec s t k x W H) as (_ & _ & Hm & Hn & Hs & W' & u & q & Hu & HT & Hp).
    assert (Ht : t < nr s) by lia.
    assert (Hu1 : u = one).
    { destruct (nz s t) as [jt|] eqn:Et; [|exact Hp]. apply Hp. now apply (HN t jt). }
    subst u.
    assert (Hrows : forall a b, a < nr s -> b < nc s -> a <> k -> T x a b = T s a b).
    { intros a b Ha Hb Hak. rewrite HT by assumption.
      destruct (Nat.eqb_spec a t); [ring|]. destruct (Nat.eqb_spec a k); [contradiction|reflexivity]. }
    assert (Hrowk : forall b, b < nc s -> match nz s t with Some jt => b < jt | None => True end -> T x k b = T s k b).
    { intros b Hb Hlt. rewrite HT by assumption.
      destruct (Nat.eqb_spec k t); [lia|]. rewrite Nat.eqb_refl.
      assert (E0 : T s t b = zero).
      { destruct (nz s t) as [jt|] eqn:Et.
        - now apply (nz_lt s t jt W Ht Et).
        - now apply (nz_none s t W Ht Et). }
      rewrite E0. ring. }
    assert (Hnzk : nz x k = nz s k).
    { pose proof (ech_lt s (S k) HE k t Htk ltac:(lia)) as Hok.
      destruct (nz s t) as [jt|] eqn:Et.
      - destruct (nz s k) as [l|] eqn:El; cbn [ok2] in Hok; [|contradiction].
        destruct (nz_lt s k l W Hk El) as (Hl & Hnz & Hz).
        apply (rowpiv_fun (nc s) (T x k)).
        + rewrite <- Hn. apply nz_rowpiv; [exact W'|lia].
        + cbn [rowpiv]. split; [exact Hl|]. split.
          * rewrite Hrowk by (try assumption; lia). exact Hnz.
          * intros b Hb. rewrite Hrowk by lia. now apply Hz.
      - apply nz_ext; try assumption. intros b Hb. now apply Hrowk. }
    splits; try assumption; try reflexivity.
    - intros a Ha. destruct (Nat.eq_dec a k) as [->|Hak]; [exact Hnzk|].
      apply nz_ext; try assumption. intros b Hb. now apply Hrows.
    - intros jt Et. rewrite Et in Hp. destruct Hp as (_ & _ & Hsz).
      destruct (nz_lt s t jt W Ht Et) as (Hj & Hnz & _).
      assert (E : T x t jt = T s t jt) by (apply Hrows; [assumption|assumption|lia]).
      rewrite E in Hsz. now apply (ll_size_norm L LW).
  Qed.

  (* the loop `for i in (0..t).rev() { self.reduce(i, k) }` *)
  Lemma reduce_rest k : forall t s x, wfs s -> t <= k -> k < nr s -> ech s (S k) -> normal s k ->
    ofold (fun y i => hnf_reduce L y i k) (rev (seq 0 t)) s = Some x ->
    nr x = nr s /\ nc x = nc s /\ step x = step s /\ wfs x /\
    (forall a b, a < nr s -> b < nc s -> a <> k -> T x a b = T s a b) /\
    (forall a, a < nr s -> nz x a = nz s a) /\
    (forall b, b < nc s -> (forall i j, i < t -> nz s i = Some j -> b < j) -> T x k b = T s k b) /\
    (forall i j, i < t -> nz s i = Some j -> (lnormz L (T x k j) < lnormz L (T s i j))%Z).
  Proof.
    induction t as [|t IH]; intros s x W Ht Hk HE HN H.
    - cbn in H. injection H as <-. splits; try reflexivity; try assumption. intros i j Hi. lia.
    - rewrite seq_S, rev_app_distr in H. cbn [rev app plus] in H. rewrite ofold_cons in H.
      destruct (hnf_reduce L s t k) as [x1|] eqn:E1; [|discriminate]. cbn [obind] in H.
      destruct (hnf_reduce_lower s t k x1 W ltac:(lia) Hk HE HN E1) as (Hm1 & Hn1 & Hs1 & W1 & Hr1 & Hz1 & Hk1 & Hsz1).
      assert (HE1 : ech x1 (S k)).
      { intros r Hr. rewrite !Hz1 by lia. now apply HE. }
      assert (HN1 : normal x1 k).
      { intros r j Hr Hj. rewrite Hz1 in Hj by lia.
        destruct (nz_lt s r j W ltac:(lia) Hj) as (Hjn & _).
        rewrite Hr1 by lia. now apply (HN r j). }
      apply IH in H; try assumption; try lia.
      destruct H as (Hm & Hn & Hs & W' & Hr & Hz & Hkk & Hsz).
      rewrite Hm1 in *. rewrite Hn1 in *.
      splits; try congruence.
      + intros a b Ha Hb Hak. rewrite Hr by assumption. now apply Hr1.
      + intros a Ha. rewrite Hz by assumption. now apply Hz1.
      + intros b Hb Hlt. rewrite Hkk; [|exact Hb|].
        * apply Hk1; [exact Hb|]. destruct (nz s t) as [jt|] eqn:Et; [|exact I]. apply (Hlt t jt); [lia|exact Et].
        * intros i j Hi Hj. rewrite Hz1 in Hj by lia. apply (Hlt i j); [lia|exact Hj].
      + intros i j Hi Hj. destruct (Nat.eq_dec i t) as [->|Hne].
        * destruct (nz_lt s t j W ltac:(lia) Hj) as (Hjn & _).
          rewrite Hkk; [now apply Hsz1|exact Hjn|].
          intros i' j' Hi' Hj'. rewrite Hz1 in Hj' by lia.
          pose proof (ech_lt s (S k) HE t i' Hi' ltac:(lia)) as Hok. rewrite Hj', Hj in Hok. exact Hok.
        * destruct (nz_lt s i j W ltac:(lia) Hj) as (Hjn & _).
          rewrite <- (Hr1 i j) by lia. apply Hsz; [lia|]. rewrite Hz1 by lia. exact Hj.
  Qed.

  Lemma hinv_init A fl : wf (length A) (lncols A) A -> hinv (data_new L A fl).
  Proof. intros W. now apply hinv_step1. Qed.

  (* LLLHNFCalc::reduce(k-1, k) at step k = S p: the rows up to p keep pivot columns and norms, row p becomes
     normalised and row k small against the pivot of row p *)
  Lemma hinv_reduce s p s1 : hinv s -> step s = S p -> hnf_reduce L s p (S p) = Some s1 ->
    wfs s1 /\ nr s1 = nr s /\ step s1 = S p /\ S p < nr s1 /\
    ech s1 (S p) /\ normal s1 (S p) /\ small s1 (S p) /\
    (forall j, nz s1 p = Some j -> (lnormz L (T s1 (S p) j) < lnormz L (T s1 p j))%Z).
  Proof.
    intros (W & _ & _ & HE & HN & HS) Ek E1. rewrite Ek in HE, HN, HS. replace (S p - 1) with p in HN by lia.
    destruct (hnf_reduce_spec s p (S p) s1 W E1) as (_ & Hk & Hm1 & Hn1 & Hs1 & W1 & u & q & Hu & HT1 & Hp).
    assert (SC : scaled (S p) (fun a => if a =? p then u else one) s s1).
    { unfold scaled. splits; try assumption; [lia|].
      intros a Ha. split; [destruct (a =? p); [exact Hu|apply unit_one]|].
      intros b Hb. rewrite HT1 by lia. destruct (Nat.eqb_spec a p); [reflexivity|].
      destruct (Nat.eqb_spec a (S p)); [lia|ring]. }
    pose proof (scaled_nz _ _ _ _ SC p ltac:(lia)) as Hnzp.
    splits; try assumption; try congruence.
    - exact (scaled_ech _ _ s s1 SC HE).
    - apply (scaled_normal _ _ s _ SC). intros r j Hr Hj. destruct (Nat.eqb_spec r p) as [->|Hne].
      + rewrite Hj in Hp. apply Hp.
      + replace (rmul o (T s r j) one) with (T s r j) by ring. apply HN; [lia|exact Hj].
    - exact (scaled_small _ _ s s1 SC HS).
    - intros j Hj. destruct (nz_lt s1 p j W1 ltac:(lia) Hj) as (_ & Hnz & _).
      rewrite Hnzp in Hj. rewrite Hj in Hp. destruct Hp as (_ & _ & Hsz). now apply (ll_size_norm L LW).
  Qed.

  (* the ordering rule holds at k = S p: row k is reduced against the rows above it *)
  Lemma hinv_advance s1 p s2 : wfs s1 -> S p < nr s1 -> ech s1 (S (S p)) -> normal s1 (S p) -> small s1 (S p) ->
    (forall j, nz s1 p = Some j -> (lnormz L (T s1 (S p) j) < lnormz L (T s1 p j))%Z) ->
    ofold (fun y i => hnf_reduce L y i (S p)) (rev (seq 0 p)) s1 = Some s2 ->
    wfs s2 /\ nr s2 = nr s1 /\ step s2 = step s1 /\ ech s2 (S (S p)) /\ normal s2 (S p) /\ small s2 (S (S p)).
  Proof.
    intros W1 Hk HE2 HN1 HS1 HSk E2.
    apply (reduce_rest (S p) p s1 s2 W1) in E2; try assumption; try lia.
    destruct E2 as (Hm2 & Hn2 & Hs2 & W2 & Hr2 & Hz2 & Hk2 & Hsz2).
    assert (SC : scaled (S p) (fun _ => one) s1 s2).
    { apply scaled_same; try assumption; [lia|]. intros a b Ha Hb. apply Hr2; lia. }
    splits; try assumption.
    - intros r Hr. rewrite !Hz2 by lia. now apply HE2.
    - exact (same_normal _ s1 s2 SC HN1).
    - intros r r' j Hr Hr' Hj.
      destruct (Nat.eq_dec r' (S p)) as [->|Hne]; [|apply (scaled_small _ _ s1 _ SC HS1); [exact Hr|lia|exact Hj]].
      rewrite Hz2 in Hj by lia. destruct (nz_lt s1 r j W1 ltac:(lia) Hj) as (Hjn & _).
      rewrite (Hr2 r j) by lia. destruct (Nat.eq_dec r p) as [->|Hrp].
      + rewrite Hk2; [now apply HSk|exact Hjn|].
        intros i j' Hi Hj'. pose proof (ech_lt s1 (S (S p)) HE2 p i Hi ltac:(lia)) as Hok'.
        rewrite Hj', Hj in Hok'. exact Hok'.
      + apply Hsz2; [lia|exact Hj].
  Qed.

  (* the ordering rule fails: rows k-1 and k are swapped; the rows above them are untouched *)
  Lemma hinv_swap s1 p s2 : wfs s1 -> ech s1 (S p) -> normal s1 (S p) -> small s1 (S p) ->
    swap L s1 (S p) = Some s2 ->
    wfs s2 /\ nr s2 = nr s1 /\ step s2 = step s1 /\ ech s2 p /\ normal s2 (p - 1) /\ small s2 p.
  Proof.
    intros W1 HE1 HN1 HS1 E2.
    apply swap_spec in E2. destruct E2 as (_ & Hk & Hm2 & Hn2 & Hs2 & W2 & HT2).
    replace (S p - 1) with p in HT2 by lia.
    assert (SC : scaled p (fun _ => one) s1 s2).
    { apply scaled_same; try assumption; [lia|]. intros a b Ha Hb. rewrite HT2 by lia.
      destruct (Nat.eqb_spec a p); [lia|]. destruct (Nat.eqb_spec a (S p)); [lia|reflexivity]. }
    splits; try assumption.
    - apply (scaled_ech _ _ s1 _ SC). intros r Hr. apply HE1. lia.
    - intros r j Hr. apply (same_normal _ s1 _ SC); [|lia]. intros r0 j0 Hr0. apply HN1. lia.
    - apply (scaled_small _ _ s1 _ SC). intros r r' j Hr Hr'. apply HS1; lia.
  Qed.

  Lemma iterate_hinv s s' : hinv s -> hnf_iterate L s = Some s' -> hinv s'.
  Proof.
    intros HI. pose proof HI as (_ & Hst & _).
    cbv beta zeta delta [hnf_iterate].
    destruct (step s) as [|p] eqn:Ek; [lia|]. replace (S p - 1) with p by lia.
    destruct (hnf_reduce L s p (S p)) as [s1|] eqn:E1; [|discriminate]. cbn [obind].
    destruct (hinv_reduce s p s1 HI Ek E1) as (W1 & Hm1 & Hs1 & Hk & HE1 & HN1 & HS1 & HSk).
    destruct (hnf_is_ok L s1 (S p)) as [[|]|] eqn:Eok; [| |discriminate]; cbn [obind].
    - assert (Hok : ok2 (nz s1 p) (nz s1 (S p))).
      { revert Eok. cbv beta zeta delta [hnf_is_ok]. replace (S p - 1) with p by lia.
        destruct (_ || _); [discriminate|].
        destruct (nz s1 p) as [j|], (nz s1 (S p)) as [l|]; cbn [ok2]; try trivial; try discriminate.
        intros H. injection H as H. now apply Nat.ltb_lt. }
      assert (HE2 : ech s1 (S (S p))).
      { intros r Hr. destruct (Nat.eq_dec r p) as [->|]; [exact Hok|apply HE1; lia]. }
      destruct (ofold _ _ s1) as [s2|] eqn:E2; [|discriminate]. cbn [obind].
      intros H. injection H as <-.
      destruct (hinv_advance s1 p s2 W1 Hk HE2 HN1 HS1 HSk E2) as (W2 & Hm2 & Hs2 & HE' & HN' & HS').
      unfold next. rewrite Hs2, Hs1. apply hinv_with_step; try assumption; [lia|left; lia].
    - destruct (swap L s1 (S p)) as [s2|] eqn:E2; [|discriminate]. cbn [obind].
      intros H. injection H as <-.
      destruct (hinv_swap s1 p s2 W1 HE1 HN1 HS1 E2) as (W2 & Hm2 & Hs2 & HE' & HN' & HS').
      unfold back. rewrite Hs2, Hs1. destruct (Nat.ltb_spec 1 (S p)) as [Hp1|Hp1].
      + replace (S p - 1) with p by lia. apply hinv_with_step; try assumption; [lia|left; lia].
      + apply hinv_step1; [exact W2|lia].
  Qed.

  Lemma hnf_loop_hinv fuel s s' : hinv s -> hnf_loop L fuel s = Some s' -> hinv s' /\ nr s' <= step s'.
  Proof. rewrite hnf_loop_eq. apply loop_with_inv. exact iterate_hinv. Qed.

  (* every step keeps well-formedness and the dimensions *)
  Definition dims (m n : nat) (s : lll_data (R := R)) : Prop := wfs s /\ nr s = m /\ nc s = n.

  Lemma dims_kept m n : kept L (dims m n).
  Proof.
    unfold dims. split; [|split; [|split; [|split]]].
    - intros s i u s' (W & Hm & Hn) H. apply mul_row_spec in H. destruct H as (_ & _ & Hm' & Hn' & _ & W' & _).
      splits; [exact W'|congruence|congruence].
    - intros s i k r s' (W & Hm & Hn) H. apply add_row_to_spec in H. destruct H as (_ & _ & Hm' & Hn' & _ & W' & _).
      splits; [exact W'|congruence|congruence].
    - intros s k s' (W & Hm & Hn) H. apply swap_spec in H. destruct H as (_ & _ & Hm' & Hn' & _ & W' & _).
      splits; [exact W'|congruence|congruence].
    - intros s k H. exact H.
    - intros s d l H. exact H.
  Qed.

  (* the state after LLLHNFCalc::process *)
  Definition hfinal (s : lll_data) : Prop :=
    wfs s /\ ech s (nr s) /\ normal s (nr s) /\ small s (nr s).

  Lemma hnf_final_hfinal s s' : hinv s -> nr s <= step s -> hnf_final L s = Some s' -> hfinal s'.
  Proof.
    intros (W & Hst & Hle & HE & HN & HS) Hex. unfold hfinal. cbv beta zeta delta [hnf_final].
    destruct (Nat.ltb_spec 0 (nr s)) as [Hm|Hm].
    - assert (Hstep : step s = nr s) by lia. rewrite Hstep in *.
      destruct (nz s (nr s - 1)) as [j|] eqn:Enz.
      + destruct (nz_lt s (nr s - 1) j W ltac:(lia) Enz) as (Hjn & _).
        change (mget L (target s) (nr s - 1) j) with (T s (nr s - 1) j).
        destruct (reqb_spec o RL (lnunit L (T s (nr s - 1) j)) one) as [Eu|Eu].
        * intros H. injection H as <-. splits; try assumption; try reflexivity.
          intros r j' Hr Hj'. destruct (Nat.eq_dec r (nr s - 1)) as [->|Hne].
          -- rewrite Enz in Hj'. injection Hj' as <-. exact Eu.
          -- apply HN; [lia|exact Hj'].
        * intros H. apply mul_row_spec in H. destruct H as (Hu & _ & Hm' & Hn' & _ & W' & HT).
          assert (SC : scaled (nr s) (fun a => if a =? nr s - 1 then lnunit L (T s (nr s - 1) j) else one) s s').
          { unfold scaled. splits; try assumption.
            intros a Ha. split; [destruct (a =? nr s - 1); [exact Hu|apply unit_one]|].
            intros b Hb. rewrite HT by assumption. destruct (a =? nr s - 1); [reflexivity|ring]. }
          rewrite Hm'. split; [exact W'|]. split; [exact (scaled_ech _ _ s s' SC HE)|].
          split; [|exact (scaled_small _ _ s s' SC HS)].
          apply (scaled_normal _ _ s s' SC). intros r j' Hr Hj'. destruct (Nat.eqb_spec r (nr s - 1)) as [->|Hne].
          -- rewrite Enz in Hj'. injection Hj' as <-. apply (ll_nunit_idem L LW).
          -- replace (rmul o (T s r j') one) with (T s r j') by ring. apply HN; [lia|exact Hj'].
      + intros H. injection H as <-. splits; try assumption; try reflexivity.
        intros r j' Hr Hj'. destruct (Nat.eq_dec r (nr s - 1)) as [->|Hne]; [congruence|].
        apply HN; [lia|exact Hj'].
    - intros H. injection H as <-. assert (E0 : nr s = 0) by lia. rewrite E0.
      split; [exact W|]. split; [intros r Hr; lia|]. split; [intros r j Hr; lia|]. intros r r' j Hr Hr'. lia.
  Qed.

  Lemma hnf_run_hfinal A fl fuel s : wf (length A) (lncols A) A -> hnf_run L A fl fuel = Some s ->
    hfinal s /\ nr s = length A /\ nc s = lncols A.
  Proof.
    intros W. unfold hnf_run, hnf_process.
    destruct (hnf_loop L fuel _) as [s1|] eqn:E; [|discriminate]. cbn [obind]. intros H.
    pose proof (hnf_loop_hinv fuel _ _ (hinv_init A fl W) E) as [HI Hex].
    split; [now apply (hnf_final_hfinal s1)|].
    assert (Hd : dims (length A) (lncols A) s1).
    { apply (kept_hnf_loop L _ (dims_kept _ _) fuel (data_new L A fl) s1); [|exact E].
      unfold dims, wfs, data_new. cbn [nr nc target]. auto. }
    destruct Hd as (_ & Hm1 & Hn1).

    revert H. cbv beta zeta delta [hnf_final]. destruct (_ <? _)%nat; [|intros H; injection H as <-; split; assumption].
    destruct (nz s1 _) as [j|]; [|intros H; injection H as <-; split; assumption].
    destruct (reqb o _ _); [intros H; injection H as <-; split; assumption|].
    intros H. apply mul_row_spec in H. destruct H as (_ & _ & Hm' & Hn' & _). split; congruence.
  Qed.

  (* LLLHNFCalc::result reverses the rows *)
  Lemma fold_swap_rows m n : forall t T0, t <= m / 2 ->
    forall a b, a < m -> b < n ->
    lget o (fold_left (fun (M : lmat R) i => m_swap_rows L m n M i (m - i - 1)) (seq 0 t) T0) a b
    = lget o T0 (if (a <? t) || (m - t <=? a) then m - 1 - a else a) b.
  Proof.
    induction t as [|t IH]; intros T0 Ht a b Ha Hb.
    - cbn [seq fold_left]. destruct (Nat.ltb_spec a 0); [lia|]. destruct (Nat.leb_spec (m - 0) a); [lia|]. reflexivity.
    - pose proof (Nat.mul_div_le m 2 ltac:(lia)) as Hd.
      rewrite seq_S, fold_left_app. cbn [fold_left plus]. rewrite (lget_m_swap_rows L) by assumption.
      rewrite IH; try lia;
        [|destruct (Nat.eqb_spec a t); [lia|]; destruct (Nat.eqb_spec a (m - t - 1)); lia].
      destruct (Nat.eqb_spec a t) as [->|Hat].
      + destruct (Nat.ltb_spec (m - t - 1) t); [lia|]. destruct (Nat.leb_spec (m - t) (m - t - 1)); [lia|].
        destruct (Nat.ltb_spec t (S t)); [|lia]. cbn [orb]. f_equal. lia.
      + destruct (Nat.eqb_spec a (m - t - 1)) as [->|Hat'].
        * destruct (Nat.ltb_spec t t); [lia|]. destruct (Nat.leb_spec (m - t) t); [lia|].
          destruct (Nat.ltb_spec (m - t - 1) (S t)); destruct (Nat.leb_spec (m - S t) (m - t - 1)); cbn [orb]; try lia;
            f_equal; lia.
        * destruct (Nat.ltb_spec a t); destruct (Nat.leb_spec (m - t) a);
            destruct (Nat.ltb_spec a (S t)); destruct (Nat.leb_spec (m - S t) a); cbn [orb]; try lia; reflexivity.
  Qed.

  Lemma hnf_result_fst (s : lll_data (R := R)) : forall l x,
    fst (fst (fold_left (fun (x : lmat R * option (lmat R) * option (lmat R)) (i : nat) =>
        let '(t, p, pinv) := x in
        let j := (nr s - i - 1)%nat in
        (m_swap_rows L (nr s) (nc s) t i j,
         option_map (fun p => m_swap_rows L (nr s) (nr s) p i j) p,
         option_map (fun q => m_swap_cols L (nr s) (nr s) q i j) pinv)) l x))
    = fold_left (fun (M : lmat R) i => m_swap_rows L (nr s) (nc s) M i (nr s - i - 1)) l (fst (fst x)).
  Proof.
    induction l as [|i l IH]; intros x; cbn [fold_left]; [reflexivity|].
    rewrite IH. destruct x as [[t p] q]. reflexivity.
  Qed.

  Lemma hnf_result_rows s a b : a < nr s -> b < nc s ->
    lget o (fst (fst (hnf_result L s))) a b = T s (nr s - 1 - a) b.
  Proof.
    intros Ha Hb. cbv beta zeta delta [hnf_result]. rewrite hnf_result_fst. cbn [fst].
    rewrite fold_swap_rows by (try assumption; lia).
    pose proof (Nat.div_mod_eq (nr s) 2) as Hd. pose proof (Nat.mod_upper_bound (nr s) 2 ltac:(lia)) as Hr.
    destruct (Nat.ltb_spec a (nr s / 2)); destruct (Nat.leb_spec (nr s - nr s / 2) a); cbn [orb]; try reflexivity.
    f_equal. lia.
  Qed.

  (* for the m x n matrix H (as a function): row echelon form with the zero rows last, every pivot normalised,
     zeros below (and left-below) every pivot, and every entry above a pivot of strictly smaller norm *)
  Definition hnf_shape (m n : nat) (H : nat -> nat -> R) : Prop :=
    forall i, i < m ->
      ((forall b, b < n -> H i b = zero) /\ (forall i' b, i < i' -> i' < m -> b < n -> H i' b = zero))
      \/
      (exists j, j < n /\ H i j <> zero /\ (forall b, b < j -> H i b = zero) /\
                 lnunit L (H i j) = one /\
                 (forall i' b, i < i' -> i' < m -> b <= j -> H i' b = zero) /\
                 (forall i', i' < i -> (lnormz L (H i' j) < lnormz L (H i j))%Z)).

  (* in echelon order the rows before r vanish up to (and including) the pivot column of row r, everywhere if row r is zero *)
  Lemma ech_zero_before s K r r' b : wfs s -> K <= nr s -> ech s K -> r' < r -> r < K -> b < nc s ->
    match nz s r with Some j => b <= j | None => True end -> T s r' b = zero.
  Proof.
    intros W HK HE Hr' Hr Hb Hj. pose proof (ech_lt s K HE r r' Hr' Hr) as Hok.
    destruct (nz s r') as [j'|] eqn:Enz'.
    - destruct (nz s r) as [j|]; cbn [ok2] in Hok; [|contradiction].
      destruct (nz_lt s r' j' W ltac:(lia) Enz') as (_ & _ & Hz'). apply Hz'. lia.
    - now apply (nz_none s r' W ltac:(lia) Enz').
  Qed.

  Lemma hfinal_shape s (H : nat -> nat -> R) :
    hfinal s -> (forall a b, a < nr s -> b < nc s -> H a b = T s (nr s - 1 - a) b) ->
    hnf_shape (nr s) (nc s) H.
  Proof.
    intros (W & HE & HN & HS) HH i Hi.
    set (r := nr s - 1 - i). assert (Hr : r < nr s) by (unfold r; lia).
    assert (Hbelow : forall i' b, i < i' -> i' < nr s -> b < nc s ->
              match nz s r with Some j => b <= j | None => True end -> H i' b = zero).
    { intros i' b Hi' Hi'm Hb Hj. rewrite HH by lia.
      apply (ech_zero_before s (nr s) r); try assumption; unfold r; lia. }
    destruct (nz s r) as [j|] eqn:Enz.
    - right. destruct (nz_lt s r j W Hr Enz) as (Hj & Hnz & Hz). exists j.
      split; [exact Hj|]. rewrite !HH by assumption. fold r.
      split; [exact Hnz|]. split; [|split; [|split]].
      + intros b Hb. rewrite HH by lia. fold r. now apply Hz.
      + now apply (HN r j).
      + intros i' b Hi' Hi'm Hb. apply Hbelow; try assumption. lia.
      + intros i' Hi'. rewrite (HH i' j) by lia. apply (HS r (nr s - 1 - i') j); [unfold r; lia|lia|exact Enz].
    - left. split.
      + intros b Hb. rewrite HH by assumption. fold r. now apply (nz_none s r W Hr Enz).
      + intros i' b Hi' Hi'm Hb. now apply Hbelow.
  Qed.

  Theorem lll_hnf_shape A fl fuel H oP oQ :
    wf (length A) (lncols A) A ->
    lll_hnf L A fl fuel = Some (H, oP, oQ) ->
    wf (length A) (lncols A) H /\ hnf_shape (length A) (lncols A) (lget o H).
  Proof.
    intros W. unfold lll_hnf. destruct (hnf_run L A fl fuel) as [s|] eqn:E; [|discriminate]. cbn [obind].
    intros E1. injection E1 as E1.
    destruct (hnf_run_hfinal A fl fuel s W E) as (HF & Hm & Hn).
    assert (EH : H = fst (fst (hnf_result L s))) by now rewrite E1.
    split.
    - rewrite EH. cbv beta zeta delta [hnf_result]. rewrite hnf_result_fst. cbn [fst].
      rewrite <- Hm, <- Hn. destruct HF as (Ws & _).
      generalize (seq 0 (nr s / 2)). intros l. revert Ws. unfold wfs. generalize (target s).
      induction l as [|i l IH]; intros M WM; cbn [fold_left]; [exact WM|]. apply IH. apply wf_lmk.
    - rewrite <- Hm, <- Hn. apply (hfinal_shape s); [exact HF|].
      intros a b Ha Hb. rewrite EH. now apply hnf_result_rows.
  Qed.

  (* soundness of the executable checkers used by the correspondence run *)
  Lemma forallb_seq (f : nat -> bool) a n : forallb f (seq a n) = true <-> forall i, a <= i -> i < a + n -> f i = true.
  Proof.
    rewrite forallb_forall. split.
    - intros H i H1 H2. apply H. apply in_seq. lia.
    - intros H i Hi. apply in_seq in Hi. apply H; lia.
  Qed.

  Lemma hnf_shape_b_sound m n H : wf m n H -> hnf_shape_b L m n H = true -> hnf_shape m n (lget o H).
  Proof.
    intros [Hm Hf] Hb i Hi. unfold hnf_shape_b in Hb. rewrite forallb_seq in Hb. specialize (Hb i ltac:(lia) ltac:(lia)).
    assert (Hrow : forall a, a < m -> match first_nz L (mrow H a) 0 with
                                      | Some j => rowpiv n (lget o H a) (Some j)
                                      | None => rowpiv n (lget o H a) None end).
    { intros a Ha. unfold mrow.
      assert (Hl : length (nth a H []) = n) by (rewrite Forall_forall in Hf; apply Hf, nth_In; lia).
      pose proof (first_nz_rowpiv (nth a H []) 0) as Hx. rewrite Hl in Hx.
      destruct (first_nz L (nth a H []) 0) as [j|]; [|exact Hx]. destruct Hx as [_ Hx]. rewrite Nat.sub_0_r in Hx. exact Hx. }
    pose proof (Hrow i Hi) as Hri.
    destruct (first_nz L (mrow H i) 0) as [j|].
    - right. destruct Hri as (Hj & Hnz & Hz). exists j.
      rewrite !andb_true_iff in Hb. destruct Hb as [[Hb1 Hb2] Hb3].
      split; [exact Hj|]. split; [exact Hnz|]. split; [exact Hz|]. split; [|split].
      + now apply (reqb_eq o RL) in Hb1.
      + intros i' b Hi' Hi'm Hbj. rewrite forallb_seq in Hb2. specialize (Hb2 i' ltac:(lia) ltac:(lia)).
        rewrite forallb_seq in Hb2. specialize (Hb2 b ltac:(lia) ltac:(lia)). now apply (reqb_eq o RL) in Hb2.
      + intros i' Hi'. rewrite forallb_seq in Hb3. specialize (Hb3 i' ltac:(lia) ltac:(lia)). now apply Z.ltb_lt in Hb3.
    - left. split; [exact Hri|]. intros i' b Hi' Hi'm Hbn.
      rewrite forallb_seq in Hb. specialize (Hb i' ltac:(lia) ltac:(lia)).
      pose proof (Hrow i' Hi'm) as Hri'. destruct (first_nz L (mrow H i') 0); [discriminate|]. now apply Hri'.
  Qed.

  Lemma check_trans_sound m n A H P Q : check_trans L m n A H P Q = true ->
    meq m n (lget o H) (mmul o m (lget o P) (lget o A)) /\
    meq m m (mmul o m (lget o P) (lget o Q)) (mid o) /\
    meq m m (mmul o m (lget o Q) (lget o P)) (mid o).
  Proof.
    unfold check_trans, meqb. rewrite !andb_true_iff. intros [[[_ H1] H2] H3].
    apply (leqb_meq o RL) in H1, H2, H3. splits.
    - intros a b Ha Hb. rewrite H1 by assumption. now apply lget_lmul.
    - intros a b Ha Hb. rewrite <- (lget_lmul o m m m) by assumption. rewrite H2 by assumption. now apply lget_lid.
    - intros a b Ha Hb. rewrite <- (lget_lmul o m m m) by assumption. rewrite H3 by assumption. now apply lget_lid.
  Qed.
End Hnf.
