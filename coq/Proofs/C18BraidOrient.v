(* C18 - a braid closure is consistently oriented by "every strand runs downwards": the half-edges of
   crossing k at level k are heads, those at level k+1 are tails; the other end of an edge is found by
   sliding along the vertical segment to the next crossing that touches the position (through the
   gluing of level |w| to level 0 if necessary).  The sign of crossing k for this orientation is the sign
   of letter k. *)
From Coq Require Import List Arith Bool Lia ZArith.
Require Import Yui.Model.Link Yui.Model.Braid Yui.Proofs.C18Base Yui.Proofs.C18Traverse
  Yui.Proofs.C18Components Yui.Proofs.C18Orient Yui.Proofs.C18BraidRows.
Import ListNotations.

Definition braid_o (w : list Z) (p : pos) : bool := negb (slot_out (nth (fst p) w 0%Z) (snd p)).
Definition letter_sign (s : Z) : sign := if (0 <? s)%Z then Pos else Neg.
Definition touchb (w : list Z) (k j : nat) : bool :=
  (j =? idx (nth k w 0%Z)) || (j =? S (idx (nth k w 0%Z))).

Lemma slot_out_pass : forall s j, j < 4 -> slot_out s ((j + 2) mod 4) = negb (slot_out s j).
Proof.
  intros s j Hj. unfold slot_out. destruct (0 <? s)%Z; destruct j as [|[|[|[|j]]]]; try lia; reflexivity.
Qed.
Lemma slot_off_pass : forall s j, j < 4 -> slot_off s ((j + 2) mod 4) = 1 - slot_off s j.
Proof.
  intros s j Hj. unfold slot_off. destruct (0 <? s)%Z; destruct j as [|[|[|[|j]]]]; try lia; reflexivity.
Qed.
Lemma slot_off_le : forall s j, slot_off s j <= 1.
Proof. intros s j. unfold slot_off. destruct (0 <? s)%Z; destruct j as [|[|[|j]]]; lia. Qed.
(* the slot of crossing k at a given level and offset *)
Lemma slot_exists : forall s (out : bool) off, off <= 1 ->
  exists j, j < 4 /\ slot_out s j = out /\ slot_off s j = off.
Proof.
  intros s out off Ho. unfold slot_out, slot_off.
  destruct (0 <? s)%Z; destruct out; destruct off as [|[|off]]; try lia.
  - exists 1; split; [lia|split; reflexivity]. - exists 2; split; [lia|split; reflexivity].
  - exists 0; split; [lia|split; reflexivity]. - exists 3; split; [lia|split; reflexivity].
  - exists 2; split; [lia|split; reflexivity]. - exists 3; split; [lia|split; reflexivity].
  - exists 1; split; [lia|split; reflexivity]. - exists 0; split; [lia|split; reflexivity].
Qed.

Section BraidOrient.
  Variable n : nat.
  Variable w : list Z.
  Variable l : link.
  Variable lb : nat -> nat -> nat.
  Hypothesis D : BraidDiag n w l lb.

  Let m := length w.
  Let Hv : Valid l := bd_valid _ _ _ _ D.
  Local Notation sk k := (nth k w 0%Z).
  Local Notation ik k := (idx (nth k w 0%Z)).

  Lemma bd_InR : forall p, InR l p <-> fst p < m /\ snd p < 4.
  Proof. intros p. unfold InR. rewrite (bd_len _ _ _ _ D). reflexivity. Qed.

  Lemma closure_unresolved : Unresolved l.
  Proof.
    intros i Hi. rewrite (bd_len _ _ _ _ D) in Hi. unfold is_resolved. rewrite (bd_X _ _ _ _ D i Hi). reflexivity.
  Qed.

  Lemma bd_exit : forall k j, k < m -> exit_of l (k, j) = (k, (j + 2) mod 4).
  Proof. intros k j Hk. unfold exit_of. cbn [fst snd]. rewrite (bd_X _ _ _ _ D k Hk). reflexivity. Qed.

  Lemma lb_m : forall j, j < n -> lb m j = j.
  Proof. intros. apply (bd_wrap _ _ _ _ D); auto. Qed.
  Lemma lb_0 : forall j, j < n -> lb 0 j = j.
  Proof. intros. apply (bd_top _ _ _ _ D); auto. Qed.

  Lemma touchb_spec : forall k j, touchb w k j = true <-> j = ik k \/ j = S (ik k).
  Proof. intros. unfold touchb. rewrite orb_true_iff, !Nat.eqb_eq. tauto. Qed.
  Lemma touchb_false : forall k j, touchb w k j = false <-> j <> ik k /\ j <> S (ik k).
  Proof. intros. unfold touchb. rewrite orb_false_iff, !Nat.eqb_neq. tauto. Qed.

  (* the label does not change along a vertical segment without crossings *)
  Lemma lb_keep : forall k j, k < m -> j < n -> touchb w k j = false -> lb (S k) j = lb k j.
  Proof. intros k j Hk Hj T. apply touchb_false in T. apply (bd_keep _ _ _ _ D); tauto. Qed.

  Lemma seg_keep : forall d k j, k + d <= m -> j < n ->
    (forall k', k <= k' < k + d -> touchb w k' j = false) -> lb (k + d) j = lb k j.
  Proof.
    induction d as [|d IH]; intros k j Hk Hj Hno; [f_equal; lia|].
    rewrite Nat.add_succ_r, lb_keep by (auto; try apply Hno; lia).
    apply IH; auto; try lia. intros k' Hk'. apply Hno. lia.
  Qed.

  (* sliding down from level k to the next crossing touching position j, or to the bottom, along with
     anything F that is kept where the position is not touched *)
  Lemma find_down : forall (A : Type) (F : nat -> nat -> A),
    (forall k j, k < m -> j < n -> touchb w k j = false -> F (S k) j = F k j) ->
    forall d k j, k + d = m -> j < n ->
    (exists k', k' < m /\ touchb w k' j = true /\ F k' j = F k j) \/
    ((forall k', k <= k' < m -> touchb w k' j = false) /\ F m j = F k j).
  Proof.
    intros A F F_keep. induction d as [|d IH]; intros k j Hk Hj.
    - right. split; [intros; lia|]. f_equal. lia.
    - destruct (touchb w k j) eqn:T; [left; exists k; split; [lia|auto]|].
      rewrite <- (F_keep k j) by (auto; lia).
      destruct (IH (S k) j ltac:(lia) Hj) as [Found|[Hno E]]; [left; exact Found|].
      right. split; [|exact E].
      intros k' Hk'. destruct (Nat.eq_dec k' k) as [->|N]; auto. apply Hno. lia.
  Qed.

  (* sliding up from level k: the previous crossing touching position j, or the top *)
  Lemma find_up : forall k j, k <= m -> j < n ->
    (exists k', k' < m /\ touchb w k' j = true /\ lb (S k') j = lb k j) \/
    ((forall k', k' < k -> touchb w k' j = false) /\ lb 0 j = lb k j).
  Proof.
    induction k as [|k IH]; intros j Hk Hj.
    - right. split; [intros; lia|]. reflexivity.
    - destruct (touchb w k j) eqn:T; [left; exists k; split; [lia|auto]|].
      rewrite (lb_keep k j) by (auto; lia).
      destruct (IH j ltac:(lia) Hj) as [Found|[Hno E]]; [left; exact Found|].
      right. split; [|exact E].
      intros k' Hk'. destruct (Nat.eq_dec k' k) as [->|N]; auto. apply Hno. lia.
  Qed.

  (* level |w| is glued to level 0, and every position is touched by some crossing: from any level
     there is a next and a previous crossing on the same vertical line *)
  Lemma touch_somewhere : forall j, j < n -> ~ (forall k, k < m -> touchb w k j = false).
  Proof.
    intros j Hj Hno. destruct (bd_touch _ _ _ _ D j Hj) as (k & Hk & T).
    apply touchb_spec in T. rewrite (Hno k Hk) in T. discriminate.
  Qed.
  Lemma next_touch_with : forall (A : Type) (F : nat -> nat -> A),
    (forall k j, k < m -> j < n -> touchb w k j = false -> F (S k) j = F k j) ->
    forall k j, k <= m -> j < n ->
    exists k', k' < m /\ touchb w k' j = true /\ (F k' j = F k j \/ F m j = F k j /\ F k' j = F 0 j).
  Proof.
    intros A F F_keep k j Hk Hj.
    destruct (find_down A F F_keep (m - k) k j ltac:(lia) Hj) as [(k' & B & C & E)|[_ E]]; [eauto 6|].
    destruct (find_down A F F_keep m 0 j eq_refl Hj) as [(k' & B & C & E0)|[Hno _]]; [eauto 7|].
    destruct (touch_somewhere j Hj). intros k' Hk'. apply Hno. lia.
  Qed.
  Lemma next_touch : forall k j, k <= m -> j < n ->
    exists k', k' < m /\ touchb w k' j = true /\ lb k' j = lb k j.
  Proof.
    intros k j Hk Hj. destruct (next_touch_with _ lb lb_keep k j Hk Hj) as (k' & B & C & [E|[E E0]]);
      exists k'; repeat split; auto. rewrite E0, <- E, lb_m, lb_0; auto.
  Qed.
  Lemma prev_touch : forall k j, k <= m -> j < n ->
    exists k', k' < m /\ touchb w k' j = true /\ lb (S k') j = lb k j.
  Proof.
    intros k j Hk Hj. destruct (find_up k j Hk Hj) as [Found|[_ E]]; [exact Found|].
    destruct (find_up m j (le_n m) Hj) as [(k' & A & B & C)|[Hno _]].
    { exists k'. split; [exact A|]. split; [exact B|]. rewrite C, <- E, lb_m, lb_0; auto. }
    destruct (touch_somewhere j Hj). exact Hno.
  Qed.

  (* from a tail at level k+1 slide down, from a head at level k slide up *)
  Lemma other_touch : forall (out : bool) k j, k + b2n out <= m -> j < n ->
    exists k', k' < m /\ touchb w k' j = true /\ lb (k' + b2n (negb out)) j = lb (k + b2n out) j.
  Proof.
    intros [|] k j Hk Hj; cbn [b2n negb] in *.
    - destruct (next_touch (k + 1) j Hk Hj) as (k' & A & B & C). exists k'. rewrite Nat.add_0_r. auto.
    - rewrite Nat.add_0_r in *. destruct (prev_touch k j Hk Hj) as (k' & A & B & C).
      exists k'. rewrite Nat.add_1_r. auto.
  Qed.

  Lemma edge_lab : forall k j, k < m -> j < 4 ->
    edge_at l (k, j) = lb (k + b2n (slot_out (sk k) j)) (ik k + slot_off (sk k) j).
  Proof. intros. apply (bd_edge _ _ _ _ D); auto. Qed.

  (* the half-edge of crossing k' at level (k' + out) and position j *)
  Lemma half_edge_at : forall k' j (out : bool), k' < m -> touchb w k' j = true ->
    exists q, InR l q /\ fst q = k' /\ slot_out (sk k') (snd q) = out /\
              ik k' + slot_off (sk k') (snd q) = j /\ edge_at l q = lb (k' + b2n out) j.
  Proof.
    intros k' j out Hk T. apply touchb_spec in T.
    destruct (slot_exists (sk k') out (j - ik k') ltac:(lia)) as (s & Hs & So & Sf).
    exists (k', s). cbn [fst snd]. split; [apply bd_InR; cbn; auto|]. split; auto. split; auto.
    rewrite edge_lab, So, Sf by auto. split; [lia|f_equal; lia].
  Qed.

  (* every half-edge has a partner with the same label at the opposite kind of level *)
  Lemma partner : forall p, InR l p ->
    exists q, InR l q /\ edge_at l q = edge_at l p /\ braid_o w q = negb (braid_o w p).
  Proof.
    intros [k s] Hp. apply bd_InR in Hp. cbn [fst snd] in Hp. destruct Hp as [Hk Hs].
    pose proof (bd_idx _ _ _ _ D k Hk) as Hi.
    pose proof (slot_off_le (sk k) s) as Hoff.
    set (j := ik k + slot_off (sk k) s).
    assert (Hj : j < n) by (unfold j; lia).
    unfold braid_o. cbn [fst snd]. rewrite (edge_lab k s Hk Hs). fold j.
    destruct (other_touch (slot_out (sk k) s) k j) as (k' & Hk' & T' & E); [destruct (slot_out _ _); cbn; lia|exact Hj|].
    destruct (half_edge_at k' j (negb (slot_out (sk k) s)) Hk' T') as (q & Hq & Fq & Oq & _ & Eq).
    exists q. split; [exact Hq|]. split; [congruence|]. rewrite Fq, Oq. reflexivity.
  Qed.

  Theorem closure_oriented : Oriented l (braid_o w).
  Proof.
    split; [|split].
    - intros [k j] Hp. apply bd_InR in Hp. cbn [fst snd] in Hp. destruct Hp as [Hk Hj].
      rewrite (bd_exit k j Hk). unfold braid_o. cbn [fst snd]. rewrite slot_out_pass by auto. reflexivity.
    - intros p Hp. destruct (partner p Hp) as (q & Hq & Eq & Oq).
      destruct (same_label_cases l Hv p q Hp Hq Eq) as [->| ->]; auto.
      destruct (braid_o w p); discriminate.
    - intros i Hi. unfold braid_o, slot_out. cbn [fst snd]. destruct (0 <? sk i)%Z; reflexivity.
  Qed.

  Lemma braid_sgn_at : forall k, k < m -> sgn_at l (braid_o w) k = letter_sign (sk k).
  Proof.
    intros k Hk. unfold sgn_at, braid_o, letter_sign, slot_out. rewrite (bd_X _ _ _ _ D k Hk).
    cbn [fst snd]. destruct (0 <? sk k)%Z; reflexivity.
  Qed.
End BraidOrient.
