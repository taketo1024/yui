(* C18 - traverse_edges on a valid code: the successor map is a permutation of the 4n half-edges, the
   fuel 4n+1 suffices, and the traversal lists exactly one orbit (followed by the start again). *)
From Coq Require Import List Arith Bool Lia.
Require Import Yui.Model.Link Yui.Proofs.C18Base.
Import ListNotations.

Lemma NoDup_map_local : forall A B (f : A -> B) (l : list A),
  (forall a b, In a l -> In b l -> f a = f b -> a = b) -> NoDup l -> NoDup (map f l).
Proof.
  induction l as [|x l IH]; intros Hinj Hnd; cbn; [constructor|].
  inversion Hnd; subst. constructor.
  - intros Hx. apply in_map_iff in Hx. destruct Hx as [y [E Hy]].
    assert (y = x) by (apply Hinj; cbn; auto). subst. contradiction.
  - apply IH; auto. intros a b Ha Hb. apply Hinj; cbn; auto.
Qed.

(* a sequence whose successor step is injective has no repetition up to t+1 if it has none up to t
   and does not return to its start at t+1 *)
Lemma no_repeat_step : forall (A : Type) (x : nat -> A),
  (forall a b, x (S a) = x (S b) -> x a = x b) ->
  forall t, (forall a b, a <= t -> b <= t -> x a = x b -> a = b) -> x (S t) <> x 0 ->
  forall a b, a <= S t -> b <= S t -> x a = x b -> a = b.
Proof.
  intros A x Hpred t HI E.
  assert (Hone : forall b, b <= t -> x (S t) = x b -> False).
  { intros [|b] Hb Eb; [exact (E Eb)|]. apply Hpred, HI in Eb; lia. }
  intros a b Ha Hb Eab.
  destruct (Nat.eq_dec a (S t)) as [->|Na]; destruct (Nat.eq_dec b (S t)) as [->|Nb]; auto.
  - destruct (Hone b); auto; lia.
  - destruct (Hone a); auto; lia.
  - apply HI; auto; lia.
Qed.

Section Traverse.
  Variable l : link.
  Hypothesis Hv : Valid l.
  Variable start : pos.
  Hypothesis Hs : InR l start.

  Local Notation sg := (sig l).
  Definition orbit_list (m : nat) : list pos := map (fun k => sig l k start) (seq 0 m).
  Definition Inj (k : nat) : Prop := forall a b, a <= k -> b <= k -> sg a start = sg b start -> a = b.

  Lemma orbit_list_InR : forall m p, In p (orbit_list m) -> InR l p.
  Proof.
    intros m p Hp. apply in_map_iff in Hp. destruct Hp as [k [<- _]]. apply sig_InR; auto.
  Qed.
  Lemma Inj_NoDup : forall k, Inj k -> NoDup (orbit_list (S k)).
  Proof.
    intros k HI. apply NoDup_map_local; [|apply seq_NoDup].
    intros a b Ha Hb. apply in_seq in Ha, Hb. apply HI; lia.
  Qed.
  Lemma Inj_bound : forall k, Inj k -> S k <= 4 * length l.
  Proof.
    intros k HI. pose proof (InR_bound l _ (Inj_NoDup k HI) (orbit_list_InR (S k))) as B.
    unfold orbit_list in B. rewrite map_length, seq_length in B. exact B.
  Qed.

  Lemma traverse_loop_valid : forall fuel k,
    Inj k -> 4 * length l + 1 <= fuel + k ->
    exists m, k < m /\ sg m start = start /\ Inj (m - 1) /\
      traverse_loop l start fuel (sg k start) =
      Some (map (fun i => sg i start) (seq k (m - k)) ++ [start]).
  Proof.
    induction fuel as [|fuel IH]; intros k HI Hf.
    - pose proof (Inj_bound k HI). lia.
    - cbn [traverse_loop]. rewrite (succ_sigma l Hv) by (apply sig_InR; auto).
      change (sigma l (sg k start)) with (sg (S k) start).
      destruct (pos_eqb (sg (S k) start) start) eqn:E.
      + apply pos_eqb_spec in E. exists (S k). split; [lia|]. split; [exact E|].
        split; [replace (S k - 1) with k by lia; exact HI|].
        replace (S k - k) with 1 by lia. reflexivity.
      + apply pos_eqb_neq in E.
        assert (HI' : Inj (S k)).
        { refine (no_repeat_step _ (fun a => sg a start) _ k HI E).
          intros a b. apply (sigma_inj l Hv); apply sig_InR; auto. }
        destruct (IH (S k) HI' ltac:(lia)) as (m & Hm & Hc & HIm & Ht).
        exists m. split; [lia|]. split; [exact Hc|]. split; [exact HIm|].
        rewrite Ht. cbn [option_map].
        replace (m - k) with (S (m - S k)) by lia. reflexivity.
  Qed.

  (* the orbit of [start]: period m, listed by traverse_edges *)
  Theorem traverse_valid :
    exists m, 1 <= m /\ m <= 4 * length l /\ sg m start = start /\ NoDup (orbit_list m) /\
              traverse_edges l start = Some (orbit_list m ++ [start]).
  Proof.
    assert (HI0 : Inj 0) by (intros a b Ha Hb _; lia).
    destruct (traverse_loop_valid (4 * length l + 1) 0 HI0 ltac:(lia)) as (m & Hm & Hc & HIm & Ht).
    exists m. split; [lia|].
    split. { pose proof (Inj_bound _ HIm). lia. }
    split; [exact Hc|].
    split. { replace m with (S (m - 1)) by lia. apply Inj_NoDup; auto. }
    unfold traverse_edges. assert (in_range l start = true) as -> by (apply in_range_spec; auto).
    cbn [sig] in Ht. rewrite Ht. rewrite Nat.sub_0_r. reflexivity.
  Qed.

  (* facts about a closed orbit *)
  Variable m : nat.
  Hypothesis Hm : 1 <= m.
  Hypothesis Hc : sg m start = start.

  Lemma orbit_In : forall p, In p (orbit_list m) <-> exists k, k < m /\ p = sg k start.
  Proof.
    intros p. unfold orbit_list. rewrite in_map_iff. split.
    - intros [k [<- Hk]]. apply in_seq in Hk. exists k. split; auto; lia.
    - intros [k [Hk ->]]. exists k. split; auto. apply in_seq. lia.
  Qed.
  Lemma orbit_start : In start (orbit_list m).
  Proof. apply orbit_In. exists 0. split; auto; lia. Qed.
  Lemma sig_period : forall t k, sg (k + t * m) start = sg k start.
  Proof.
    induction t; intros k; [f_equal; lia|].
    replace (k + S t * m) with ((k + t * m) + m) by lia.
    rewrite (sig_add l), Hc. replace (k + t * m) with (k + t * m + 0) by lia.
    rewrite Nat.add_0_r. apply IHt.
  Qed.
  Lemma orbit_sigma_closed : forall p, In p (orbit_list m) -> In (sigma l p) (orbit_list m).
  Proof.
    intros p Hp. apply orbit_In in Hp. destruct Hp as [k [Hk ->]]. apply orbit_In.
    destruct (Nat.eq_dec (S k) m) as [E|N].
    - exists 0. split; [lia|]. cbn [sig]. change (sigma l (sg k start)) with (sg (S k) start).
      rewrite E. exact Hc.
    - exists (S k). split; [lia|]. reflexivity.
  Qed.
  Lemma orbit_pred : forall p, In p (orbit_list m) -> exists q, In q (orbit_list m) /\ sigma l q = p.
  Proof.
    intros p Hp. apply orbit_In in Hp. destruct Hp as [k [Hk ->]].
    destruct k as [|k].
    - exists (sg (m - 1) start). split; [apply orbit_In; exists (m - 1); split; auto; lia|].
      change (sigma l (sg (m - 1) start)) with (sg (S (m - 1)) start).
      replace (S (m - 1)) with m by lia. cbn [sig]. exact Hc.
    - exists (sg k start). split; [apply orbit_In; exists k; split; auto; lia|]. reflexivity.
  Qed.
  Lemma orbit_reach : forall p q, In p (orbit_list m) -> In q (orbit_list m) -> exists d, q = sg d p.
  Proof.
    intros p q Hp Hq. apply orbit_In in Hp, Hq.
    destruct Hp as [a [Ha ->]], Hq as [b [Hb ->]].
    exists (b + m - a). rewrite <- (sig_add l). replace (b + m - a + a) with (b + 1 * m) by lia.
    symmetry. apply sig_period.
  Qed.
  Lemma orbit_sig_closed : forall d p, In p (orbit_list m) -> In (sg d p) (orbit_list m).
  Proof. induction d; intros p Hp; cbn [sig]; auto. apply orbit_sigma_closed; auto. Qed.
End Traverse.
