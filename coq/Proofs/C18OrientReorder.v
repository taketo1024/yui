(* C18 - consequences of the orientation theorem (C18Orient.v):
   * the returned signs are those of an orientation o' that agrees with the given one on every component
     that passes under somewhere;
   * when every component passes under somewhere, the signs are those of the given orientation itself
     ([signs_orientation_unique]: whichever consistent orientation is given, its signs are the ones returned);
   * in that case a reordering of the crossings permutes the sign list accordingly, so the signed
     crossing numbers and the writhe do not change.
   For a component that never passes under the direction chosen by the code depends on the crossing order;
   without planarity (not modelled) the writhe of such a code can change under reordering:
   see [reorder_witness] at the end. *)
From Coq Require Import List Arith Bool Lia ZArith Permutation FinFun Relations.
Require Import Yui.Model.Link Yui.Proofs.C18Base Yui.Proofs.C18Traverse Yui.Proofs.C18Components
  Yui.Proofs.C18Signs Yui.Proofs.C18Main Yui.Proofs.C18Orient.
Import ListNotations.

(* every component passes under at some crossing *)
Definition NoOnlyOver (l : link) : Prop :=
  forall e, In e (edge_labels l) -> exists i, i < length l /\ conn l e (edge_at l (i, 0)).

Theorem signs_orientation_agree : forall l o, Valid l -> Unresolved l -> Oriented l o ->
  exists o', Oriented l o' /\
    (forall p, InR l p -> (exists i, i < length l /\ conn l (edge_at l p) (edge_at l (i, 0))) -> o' p = o p) /\
    crossing_signs l = Some (signs_of l o').
Proof.
  intros l o Hv Hu Ho. destruct (signs_orientation l Hv Hu o Ho) as (rev & Ht & Hun & E).
  exists (oxr l o rev). split; [apply oxr_Oriented; auto|]. split; auto.
  intros p Hp (i & Hi & C). unfold oxr. rewrite (conn_inv l rev Ht _ _ C), (Hun i Hi).
  destruct (o p); reflexivity.
Qed.

Theorem signs_orientation_unique : forall l o, Valid l -> Unresolved l -> Oriented l o -> NoOnlyOver l ->
  crossing_signs l = Some (signs_of l o).
Proof.
  intros l o Hv Hu Ho Hno. destruct (signs_orientation_agree l o Hv Hu Ho) as (o' & _ & Hag & E).
  rewrite E. f_equal. unfold signs_of. apply map_ext_in. intros i Hi. apply in_seq in Hi.
  unfold sgn_at. rewrite (Hag (i, 1)); auto.
  - split; cbn; lia.
  - apply Hno. apply edge_at_in_labels. split; cbn; lia.
Qed.

Lemma count_label_perm : forall e a b, Permutation a b -> count_label e a = count_label e b.
Proof.
  intros e a b H. rewrite !count_label_occ. apply Permutation_count_occ, H.
Qed.
Lemma count_pos_perm : forall a b, Permutation a b -> count_pos a = count_pos b /\ count_neg a = count_neg b.
Proof.
  unfold count_pos, count_neg. intros a b H. induction H; cbn; auto.
  - destruct IHPermutation. destruct x; cbn; auto.
  - destruct x; destruct y; cbn; auto.
  - destruct IHPermutation1, IHPermutation2. split; congruence.
Qed.

Lemma Valid_perm : forall l l', Permutation l l' -> Valid l -> Valid l'.
Proof.
  intros l l' H Hv e He.
  assert (HP : Permutation (edge_labels l) (edge_labels l')) by (apply Permutation_flat_map; auto).
  rewrite <- (count_label_perm e _ _ HP). apply Hv. eapply Permutation_in; [apply Permutation_sym; exact HP|exact He].
Qed.

Section Reorder.
  Variables l l' : link.
  Variable g : nat -> nat.
  Hypothesis Hlen : length l' = length l.
  Hypothesis Hg : bFun (length l) g.
  Hypothesis Hinj : bInjective (length l) g.
  Hypothesis Hnth : forall x, x < length l -> cross_at l' x = cross_at l (g x).
  Hypothesis Hv : Valid l.
  Hypothesis Hv' : Valid l'.

  Definition phi (p : pos) : pos := (g (fst p), snd p).

  Lemma Hsurj : bSurjective (length l) g.
  Proof. apply bInjective_bSurjective; auto. Qed.

  Lemma phi_InR : forall p, InR l' p -> InR l (phi p).
  Proof. intros [i j] [A B]. cbn in *. split; cbn; auto. apply Hg. lia. Qed.
  Lemma phi_edge : forall p, InR l' p -> edge_at l' p = edge_at l (phi p).
  Proof. intros [i j] [A B]. unfold edge_at, phi. cbn in *. rewrite Hnth by lia. reflexivity. Qed.
  Lemma phi_inj : forall p q, InR l' p -> InR l' q -> phi p = phi q -> p = q.
  Proof.
    intros [i j] [i' j'] [A _] [A' _] E. cbn in *. unfold phi in E. cbn in E. inversion E; subst.
    f_equal. apply Hinj; auto; lia.
  Qed.
  Lemma phi_surj : forall r, InR l r -> exists p, InR l' p /\ phi p = r.
  Proof.
    intros [i j] [A B]. cbn in *. destruct (Hsurj i A) as (x & Hx & <-).
    exists (x, j). split; [split; cbn; auto; lia|reflexivity].
  Qed.
  Lemma phi_exit : forall p, InR l' p -> phi (exit_of l' p) = exit_of l (phi p).
  Proof. intros [i j] [A B]. unfold exit_of, phi. cbn in *. rewrite Hnth by lia. reflexivity. Qed.
  Lemma phi_tau : forall p, InR l' p -> phi (tau l' p) = tau l (phi p).
  Proof.
    intros p Hp. pose proof (tau_InR l' Hv' p Hp) as Ht.
    destruct (same_label_cases l Hv (phi p) (phi (tau l' p)) (phi_InR p Hp) (phi_InR _ Ht)) as [E|E]; auto.
    - rewrite <- !phi_edge by auto. apply (tau_label l' Hv'); auto.
    - exfalso. apply phi_inj in E; auto. apply (tau_neq l' Hv' p Hp); auto.
  Qed.

  Lemma thru_reorder : forall e e', thru l' e e' <-> thru l e e'.
  Proof.
    intros e e'. split.
    - intros (r & Hr & E1 & E2). exists (phi r). split; [apply phi_InR; auto|].
      rewrite <- phi_exit, <- !phi_edge by (auto; apply exit_InR; auto). auto.
    - intros (r & Hr & E1 & E2). destruct (phi_surj r Hr) as (r' & Hr' & <-). exists r'. split; auto.
      rewrite <- phi_exit, <- !phi_edge in * by (auto; apply exit_InR; auto). auto.
  Qed.
  Lemma conn_reorder : forall e e', conn l' e e' <-> conn l e e'.
  Proof.
    intros e e'. split; intros C; induction C;
      try (apply rt_step; apply thru_reorder; auto; fail); try apply rt_refl; eapply rt_trans; eauto.
  Qed.
  Lemma labels_reorder : forall e, In e (edge_labels l') <-> In e (edge_labels l).
  Proof.
    intros e. split; intros He; apply in_labels_edge_at in He; destruct He as [r [Hr <-]].
    - rewrite phi_edge by auto. apply edge_at_in_labels, phi_InR; auto.
    - destruct (phi_surj r Hr) as (r' & Hr' & <-). rewrite <- phi_edge by auto. apply edge_at_in_labels; auto.
  Qed.

  Variable o : pos -> bool.
  Hypothesis Ho : Oriented l o.

  Lemma Oriented_reorder : Oriented l' (fun p => o (phi p)).
  Proof.
    destruct Ho as (H1 & H2 & H3). split; [|split].
    - intros p Hp. rewrite phi_exit by auto. apply H1, phi_InR; auto.
    - intros p Hp. rewrite phi_tau by auto. apply H2, phi_InR; auto.
    - intros i Hi. unfold phi. cbn. apply H3. apply Hg. lia.
  Qed.
  Lemma Unresolved_reorder : Unresolved l -> Unresolved l'.
  Proof. intros Hu i Hi. rewrite Hnth by lia. apply Hu. apply Hg. lia. Qed.
  Lemma NoOnlyOver_reorder : NoOnlyOver l -> NoOnlyOver l'.
  Proof.
    intros Hno e He. apply labels_reorder in He. destruct (Hno e He) as (i & Hi & C).
    destruct (Hsurj i Hi) as (x & Hx & <-). exists x. split; [lia|].
    apply conn_reorder. rewrite (phi_edge (x, 0)) by (split; cbn; lia). exact C.
  Qed.
  Lemma sgn_at_reorder : forall i, i < length l -> sgn_at l' (fun p => o (phi p)) i = sgn_at l o (g i).
  Proof. intros i Hi. unfold sgn_at, phi. cbn [fst snd]. rewrite Hnth by lia. reflexivity. Qed.

  Lemma signs_reorder_perm : Permutation (signs_of l o) (signs_of l' (fun p => o (phi p))).
  Proof.
    unfold signs_of. rewrite Hlen.
    rewrite (map_ext_in (sgn_at l' (fun p => o (phi p))) (fun i => sgn_at l o (g i)))
      by (intros i Hi; apply in_seq in Hi; apply sgn_at_reorder; lia).
    rewrite <- (map_map g (sgn_at l o)). apply Permutation_map. apply Permutation_sym.
    apply NoDup_Permutation_bis.
    - apply NoDup_map_local; [|apply seq_NoDup]. intros a b Ha Hb. apply in_seq in Ha, Hb. apply Hinj; lia.
    - rewrite map_length. lia.
    - intros x Hx. apply in_map_iff in Hx. destruct Hx as [a [<- Ha]]. apply in_seq in Ha.
      apply in_seq. pose proof (Hg a ltac:(lia)). lia.
  Qed.
End Reorder.

(* reordering the crossings of a consistently oriented code in which every component passes under *)
Theorem signs_reorder : forall l l' o, Valid l -> Unresolved l -> Oriented l o -> NoOnlyOver l ->
  Permutation l l' ->
  exists sg sg', crossing_signs l = Some sg /\ crossing_signs l' = Some sg' /\ Permutation sg sg' /\
    signed_crossing_nums l' = signed_crossing_nums l /\ writhe l' = writhe l.
Proof.
  intros l l' o Hv Hu Ho Hno HP.
  pose proof (Valid_perm l l' HP Hv) as Hv'.
  destruct (proj1 (Permutation_nth l l' dummy_c) HP) as (Hlen & g & Hg & Hinj & Hnth).
  cbn zeta in *.
  pose proof (Oriented_reorder l l' g Hlen Hg Hinj Hnth Hv Hv' o Ho) as Ho'.
  pose proof (Unresolved_reorder l l' g Hlen Hg Hnth Hu) as Hu'.
  pose proof (NoOnlyOver_reorder l l' g Hlen Hg Hinj Hnth Hno) as Hno'.
  pose proof (signs_orientation_unique l o Hv Hu Ho Hno) as E.
  pose proof (signs_orientation_unique l' _ Hv' Hu' Ho' Hno') as E'.
  pose proof (signs_reorder_perm l l' g Hlen Hg Hinj Hnth o) as PS.
  exists (signs_of l o), (signs_of l' (fun p => o (phi g p))).
  split; auto. split; auto. split; auto.
  destruct (count_pos_perm _ _ PS) as [C1 C2].
  assert (SN : signed_crossing_nums l' = signed_crossing_nums l).
  { unfold signed_crossing_nums. rewrite E, E'. cbn [option_map]. rewrite C1, C2. reflexivity. }
  split; auto. unfold writhe. rewrite SN. reflexivity.
Qed.

(* a knot diagram (one component, at least one crossing) has no component that only passes over *)
Lemma knot_NoOnlyOver : forall l c, Valid l -> components l = Some [c] -> 0 < length l -> NoOnlyOver l.
Proof.
  intros l c Hv E Hl. destruct (components_valid l Hv) as (cs & E' & _ & _ & Cov & Cl).
  rewrite E in E'. inversion E'; subst cs; clear E'.
  assert (Hin : forall e, In e (edge_labels l) -> In e (pedges c)).
  { intros e He. apply Cov in He. cbn in He. rewrite app_nil_r in He. exact He. }
  intros e He. exists 0. split; auto.
  apply (Cl c ltac:(cbn; auto) e (Hin e He)). apply Hin. apply edge_at_in_labels. split; cbn; lia.
Qed.

(* Without planarity the hypothesis cannot be dropped: a valid, consistently oriented (non-planar) code
   with a component that only passes over (edges 3,4,5), whose writhe changes when two crossings are
   exchanged. *)
Definition reorder_witness : link := [mkX X 0 3 1 4; mkX X 1 5 2 4; mkX X 2 3 0 5].
Definition reorder_witness' : link := [mkX X 1 5 2 4; mkX X 0 3 1 4; mkX X 2 3 0 5].
Example reorder_witness_values :
  valid reorder_witness = true /\ Permutation reorder_witness reorder_witness' /\
  writhe reorder_witness = Some 1%Z /\ writhe reorder_witness' = Some (-1)%Z.
Proof. split; [reflexivity|]. split; [apply perm_swap|]. split; vm_compute; reflexivity. Qed.
