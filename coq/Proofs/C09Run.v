(* C09 - the transformation invariant through every procedure of SnfCalc (eliminate_col / row,
   eliminate_at, eliminate_step, eliminate_all, diag_normalize, preprocess, process) and for the
   result of snf, for every fuel policy and every flag subset. *)
From Coq Require Import ZArith List Bool Arith Lia Ring.
Require Import Yui.Base.Ring Yui.Base.MatF Yui.Base.MatL Yui.Model.Snf Yui.Proofs.C09Mat Yui.Proofs.C09Inv.
Import ListNotations.

Lemma ofold_inv {S : Type} (I : S -> Prop) (f : nat -> S -> option S) l s s' :
  (forall k x x', In k l -> I x -> f k x = Some x' -> I x') -> I s -> ofold f l s = Some s' -> I s'.
Proof.
  revert s. induction l as [|k r IH]; intros s Hf Hs H; cbn in H.
  - now inversion H; subst.
  - destruct (f k s) as [s1|] eqn:E; [|discriminate].
    apply (IH s1); [intros; eapply Hf; eauto; now right| |exact H].
    eapply Hf; eauto. now left.
Qed.

(* the contract of the preprocessing step (C10's theorem for lll_hnf): H = P*A with P invertible,
   the transformation matrices being returned exactly when requested *)
Definition pre_ok {R : Type} (D : euc_dict R) : Prop :=
  match ed_pre D with
  | None => True
  | Some f =>
    forall m n b1 b2 (A H : lmat R) op opi,
      wf m n A -> f m n b1 b2 A = Some (H, op, opi) ->
      wf m n H /\
      exists P Pi, wf m m P /\ wf m m Pi /\ tracked b1 op P /\ tracked b2 opi Pi /\
        meq m n (lget (ed_ring D) H) (mmul (ed_ring D) m (lget (ed_ring D) P) (lget (ed_ring D) A)) /\
        meq m m (mmul (ed_ring D) m (lget (ed_ring D) P) (lget (ed_ring D) Pi)) (mid (ed_ring D)) /\
        meq m m (mmul (ed_ring D) m (lget (ed_ring D) Pi) (lget (ed_ring D) P)) (mid (ed_ring D))
  end.

Section Run.
  Context {R : Type} (D : euc_dict R) (SL : snf_laws D) (fp : fuel_policy R).
  Let o := ed_ring D.
  Let L : ring_laws o := sl_ring D SL.
  Add Ring Rring : (ring_theory_of_laws o L).

  Local Notation "0" := (rzero o).
  Local Notation "1" := (rone o).
  Local Infix "+" := (radd o).
  Local Infix "*" := (rmul o).
  Local Notation "- x" := (rneg o x).
  Local Notation get := (lget o).

  Variables m n : nat.
  Variable A : lmat R.
  Variables f1 f2 f3 f4 : bool.
  Local Notation SI := (SInv D m n A f1 f2 f3 f4).

  Lemma gcdx_det x y d s t :
    snf_gcdx D x y = Some (d, s, t) ->
    s * rdiv (ed_euc D) x d + - (t * - rdiv (ed_euc D) y d) = 1.
  Proof.
    intros G. destruct (snf_gcdx_spec D SL _ _ _ _ _ G) as (_ & _ & _ & _ & H). fold o in H.
    etransitivity; [|exact H]. ring.
  Qed.

  Lemma elim_col_body_inv i j i1 sm sm' :
    i < m -> i1 < m -> SI (fst sm) -> elim_col_body D i j i1 sm = Some sm' -> SI (fst sm').
  Proof.
    intros Hi Hi1 HS. unfold elim_col_body. cbv zeta.
    destruct ((i1 =? i) || ris_zero (ed_ring D) (mget D (st_t (fst sm)) i1 j)) eqn:C.
    - intros E. now inversion E; subst.
    - apply orb_false_iff in C. destruct C as [C _]. apply Nat.eqb_neq in C.
      destruct (snf_gcdx D _ _) as [[[d sx] ty]|] eqn:G; cbn [sbind]; [|discriminate].
      intros E. inversion E; subst sm'; clear E. cbn [fst].
      apply (SInv_left_elem D SL); try assumption; try lia.
      apply (gcdx_det _ _ _ _ _ G).
  Qed.

  Lemma eliminate_col_inv i j s r :
    i < m -> SI s -> eliminate_col D m i j s = Some r -> SI (fst r).
  Proof.
    intros Hi HS H. unfold eliminate_col in H.
    apply (ofold_inv (fun sm => SI (fst sm)) _ _ _ _ ) in H; [exact H| |exact HS].
    intros k x x' Hk Hx E. apply in_seq in Hk. apply (elim_col_body_inv i j k x x'); try assumption; lia.
  Qed.

  Lemma elim_row_body_inv i j j1 sm sm' :
    j < n -> j1 < n -> SI (fst sm) -> elim_row_body D i j j1 sm = Some sm' -> SI (fst sm').
  Proof.
    intros Hj Hj1 HS. unfold elim_row_body. cbv zeta.
    destruct ((j1 =? j) || ris_zero (ed_ring D) (mget D (st_t (fst sm)) i j1)) eqn:C.
    - intros E. now inversion E; subst.
    - apply orb_false_iff in C. destruct C as [C _]. apply Nat.eqb_neq in C.
      destruct (snf_gcdx D _ _) as [[[d sx] ty]|] eqn:G; cbn [sbind]; [|discriminate].
      intros E. inversion E; subst sm'; clear E. cbn [fst].
      apply (SInv_right_elem D SL); try assumption; try lia.
      apply (gcdx_det _ _ _ _ _ G).
  Qed.

  Lemma eliminate_row_inv i j s r :
    j < n -> SI s -> eliminate_row D n i j s = Some r -> SI (fst r).
  Proof.
    intros Hj HS H. unfold eliminate_row in H.
    apply (ofold_inv (fun sm => SI (fst sm)) _ _ _ _ ) in H; [exact H| |exact HS].
    intros k x x' Hk Hx E. apply in_seq in Hk. apply (elim_row_body_inv i j k x x'); try assumption; lia.
  Qed.

  Lemma eliminate_loop_inv fuel i j s s' :
    i < m -> j < n -> SI s -> eliminate_loop D m n fuel i j s = Some s' -> SI s'.
  Proof.
    intros Hi Hj. revert s. induction fuel as [|f IH]; intros s HS H; cbn [eliminate_loop] in H; [discriminate|].
    destruct (_ || _) in H.
    - destruct (eliminate_col D m i j s) as [r1|] eqn:E1; cbn [sbind] in H; [|discriminate].
      destruct (eliminate_row D n i j (fst r1)) as [r2|] eqn:E2; cbn [sbind] in H; [|discriminate].
      destruct (snd r1 || snd r2); [|discriminate].
      apply (IH (fst r2)); [|exact H].
      apply (eliminate_row_inv i j (fst r1)); try assumption.
      now apply (eliminate_col_inv i j s).
    - now inversion H; subst.
  Qed.

  Lemma eliminate_at_inv i j s s' :
    i < m -> j < n -> SI s -> eliminate_at D fp m n i j s = Some s' -> SI s'.
  Proof.
    intros Hi Hj HS. unfold eliminate_at. cbv zeta.
    destruct (ris_zero _ _); [discriminate|]. now apply eliminate_loop_inv.
  Qed.

  Lemma fold_min_in (T : lmat R) (r : list nat) (b : nat * nat) :
    let res := fold_left (fun best i => let c := row_nz D T i in if c <? snd best then (i, c) else best) r b in
    fst res = fst b \/ In (fst res) r.
  Proof.
    revert b. induction r as [|x r IH]; intros b; cbn [fold_left]; cbv zeta; [now left|].
    set (b' := if row_nz D T x <? snd b then (x, row_nz D T x) else b).
    specialize (IH b'). cbv zeta in IH.
    destruct IH as [E|E]; [|right; now right].
    rewrite E. unfold b'. destruct (row_nz D T x <? snd b); cbn [fst]; [right; now left|now left].
  Qed.

  (* select_pivot returns a row index in [below, m) *)
  Lemma select_pivot_range T below j ip :
    select_pivot D m T below j = Some ip ->
    below <= ip < m /\ ris_zero o (mget D T ip j) = false.
  Proof.
    unfold select_pivot.
    destruct (filter _ _) as [|i0 r] eqn:F; [discriminate|]. intros E. inversion E; subst ip; clear E.
    assert (Hin : forall x, In x (i0 :: r) -> below <= x < m /\ ris_zero o (mget D T x j) = false).
    { intros x Hx. rewrite <- F in Hx. apply filter_In in Hx. destruct Hx as [H1 H2].
      apply in_seq in H1. split; [lia|]. now apply negb_true_iff in H2. }
    pose proof (fold_min_in T r (i0, row_nz D T i0)) as H. cbv zeta in H. cbn [fst] in H.
    destruct H as [-> | H]; apply Hin; [now left|now right].
  Qed.

  Lemma eliminate_step_inv i j s r :
    i < m -> i <= j -> j < n -> SI s -> eliminate_step D fp m n i j s = Some r -> SI (fst r).
  Proof.
    intros Hi Hij Hj HS. unfold eliminate_step. cbv zeta.
    destruct (select_pivot D m (st_t s) i j) as [ip|] eqn:SP.
    2:{ intros E. now inversion E; subst. }
    apply select_pivot_range in SP. destruct SP as [Hip _].
    set (s1 := if i <? ip then s_swap_rows i ip s else s).
    assert (H1 : SI s1).
    { unfold s1. destruct (Nat.ltb_spec i ip); [|exact HS]. apply (SInv_swap_rows D SL); try assumption; lia. }
    set (s2 := if i <? j then s_swap_cols i j s1 else s1).
    assert (H2 : SI s2).
    { unfold s2. destruct (Nat.ltb_spec i j); [|exact H1]. apply (SInv_swap_cols D SL); try assumption; lia. }
    set (v := rnunit (ed_unit D) (mget D (st_t s2) i i)).
    destruct (sl_nunit_inv D SL (mget D (st_t s2) i i)) as [vi Hvi]. fold v in Hvi.
    destruct (SInv_mul_col D SL m n A f1 f2 f3 f4 i v vi s2 Hvi H2) as [s3' [E3 H3]].
    destruct (ris_one (ed_ring D) v).
    - cbn [sbind]. destruct (eliminate_at D fp m n i i s2) as [s4|] eqn:E4; cbn [sbind]; [|discriminate].
      intros E. inversion E; subst r; clear E. cbn [fst].
      apply (eliminate_at_inv i i s2); try assumption; lia.
    - rewrite E3. cbn [sbind]. destruct (eliminate_at D fp m n i i s3') as [s4|] eqn:E4; cbn [sbind]; [|discriminate].
      intros E. inversion E; subst r; clear E. cbn [fst].
      apply (eliminate_at_inv i i s3'); try assumption; lia.
  Qed.

  Lemma eliminate_all_loop_inv k j0 i s s' :
    Nat.add j0 k = n -> i <= j0 -> SI s -> eliminate_all_loop D fp m n (seq j0 k) i s = Some s' -> SI s'.
  Proof.
    revert j0 i s. induction k as [|k IH]; intros j0 i s Hn Hij HS H; cbn [seq eliminate_all_loop] in H.
    - now inversion H; subst.
    - destruct (Nat.leb_spec m i); [now inversion H; subst|].
      destruct (eliminate_step D fp m n i j0 s) as [sb|] eqn:E; cbn [sbind] in H; [|discriminate].
      apply (IH (S j0) (if snd sb then S i else i) (fst sb)); try lia.
      + destruct (snd sb); lia.
      + apply (eliminate_step_inv i j0 s); try assumption; lia.
      + exact H.
  Qed.

  Lemma eliminate_all_inv s s' : SI s -> eliminate_all D fp m n s = Some s' -> SI s'.
  Proof. intros HS H. apply (eliminate_all_loop_inv n 0 0 s s'); try assumption; lia. Qed.

  Lemma diag_step_inv i s r :
    S i < m -> S i < n -> SI s -> diag_normalize_step D i s = Some r -> SI (fst r).
  Proof.
    intros Him Hin HS. unfold diag_normalize_step. cbv zeta.
    destruct (_ || _); [discriminate|].
    destruct (divides _ _ _ _); [intros E; now inversion E; subst|].
    destruct (divides _ _ _ _).
    - intros E. inversion E; subst r; clear E. cbn [fst].
      apply (SInv_swap_cols D SL); try lia. apply (SInv_swap_rows D SL); try lia. exact HS.
    - destruct (snf_gcdx D _ _) as [[[d sx] ty]|] eqn:G; cbn [sbind]; [|discriminate].
      intros E. inversion E; subst r; clear E. cbn [fst].
      apply (SInv_right_elem D SL); try lia.
      + apply (gcdx_det _ _ _ _ _ G).
      + apply (SInv_left_elem D SL); try lia; [|exact HS].
        destruct (snf_gcdx_spec D SL _ _ _ _ _ G) as (_ & _ & _ & _ & H). fold o in H.
        fold o. etransitivity; [|exact H]. ring.
  Qed.

  Lemma diag_pass_inv r is s sb :
    r <= m -> r <= n -> (forall i, In i is -> S i < r) -> SI s -> diag_pass D is s = Some sb -> SI (fst sb).
  Proof.
    intros Hm Hn. revert s. induction is as [|i is IH]; intros s Hin HS H; cbn [diag_pass] in H.
    - now inversion H; subst.
    - destruct (diag_normalize_step D i s) as [sb1|] eqn:E; cbn [sbind] in H; [|discriminate].
      assert (H1 : SI (fst sb1)).
      { apply (diag_step_inv i s); try assumption; specialize (Hin i (or_introl eq_refl)); lia. }
      destruct (snd sb1).
      + apply (IH (fst sb1)); try assumption. intros; apply Hin; now right.
      + now inversion H; subst.
  Qed.

  Lemma diag_outer_inv fuel r s s' :
    r <= m -> r <= n -> SI s -> diag_outer D fuel r s = Some s' -> SI s'.
  Proof.
    intros Hm Hn. revert s. induction fuel as [|f IH]; intros s HS H; cbn [diag_outer] in H; [discriminate|].
    destruct (diag_pass D (seq 0 (r - 1)) s) as [sb|] eqn:E; cbn [sbind] in H; [|discriminate].
    assert (H1 : SI (fst sb)).
    { apply (diag_pass_inv r (seq 0 (r - 1)) s); try assumption. intros i Hi. apply in_seq in Hi. lia. }
    destruct (snd sb); [now inversion H; subst|]. now apply (IH (fst sb)).
  Qed.

  Lemma diag_unit_body_inv i s s' : SI s -> diag_unit_body D i s = Some s' -> SI s'.
  Proof.
    intros HS. unfold diag_unit_body. cbv zeta.
    destruct (ris_one _ _); [intros E; now inversion E; subst|].
    destruct (sl_nunit_inv D SL (mget D (st_t s) i i)) as [vi Hvi].
    destruct (SInv_mul_row D SL m n A f1 f2 f3 f4 i _ vi s Hvi HS) as [s3 [E3 H3]].
    rewrite E3. intros E. now inversion E; subst.
  Qed.

  Lemma first_zero_diag_le T is dflt bound :
    (forall i, In i is -> i <= bound) -> dflt <= bound -> first_zero_diag D T is dflt <= bound.
  Proof.
    induction is as [|i is IH]; intros H Hd; cbn; [exact Hd|].
    destruct (ris_zero _ _); [apply H; now left|]. apply IH; [|exact Hd]. intros; apply H; now right.
  Qed.

  Lemma diag_rank_le T : diag_rank D m n T <= Nat.min m n.
  Proof.
    unfold diag_rank. apply first_zero_diag_le; [|lia]. intros i Hi. apply in_seq in Hi. lia.
  Qed.

  Lemma diag_normalize_inv s s' : SI s -> diag_normalize D fp m n s = Some s' -> SI s'.
  Proof.
    intros HS. unfold diag_normalize. cbv zeta.
    pose proof (diag_rank_le (st_t s)) as Hr.
    destruct (_ =? 0); [intros E; now inversion E; subst|].
    destruct (diag_outer D _ _ s) as [s1|] eqn:E1; cbn [sbind]; [|discriminate].
    intros H. apply (ofold_inv SI) in H; [exact H| |].
    - intros k x x' _ Hx E. now apply (diag_unit_body_inv k x x').
    - apply (diag_outer_inv _ _ s s1) in E1; try assumption; lia.
  Qed.

  (* preprocess, from the initial state *)
  Lemma preprocess_init_inv (Hpre : pre_ok D) s1 :
    wf m n A -> preprocess D m n (init_state D m n A (f1, f2, f3, f4)) = Some s1 -> SI s1.
  Proof.
    intros W. unfold preprocess. unfold pre_ok in Hpre.
    destruct (ed_pre D) as [f|].
    2:{ intros E. inversion E; subst. now apply (SInv_init D SL). }
    destruct (f m n _ _ _) as [[[H op] opi]|] eqn:E; cbn [sbind]; [|discriminate].
    intros E1. inversion E1; subst s1; clear E1.
    cbn [init_state st_t st_p st_pinv st_q st_qinv] in E.
    destruct (Hpre _ _ _ _ _ _ _ _ W E) as (WH & P & Pi & WP & WPi & T1 & T2 & HH & HI1 & HI2).
    apply (SInv_intro D m n A f1 f2 f3 f4 _ P Pi (id_mat D n) (id_mat D n));
      cbn [init_state st_t st_p st_pinv st_q st_qinv]; try assumption; try apply wf_id.
    - unfold tracked in *. rewrite T1. now destruct f1.
    - unfold tracked in *. rewrite T2. now destruct f2.
    - reflexivity.
    - reflexivity.
    - split; [|split; [exact HI1|split; [exact HI2|split; apply (id_id_meq D SL)]]].
      eapply meq_trans; [exact HH|].
      apply (mmul_ext o m m n); [apply meq_refl|].
      apply meq_sym.
      eapply meq_trans; [apply (mmul_ext o n m n (get A) (get A) (get (id_mat D n)) (mid o))|].
      + apply meq_refl.
      + intros x y Hx Hy. now apply get_id.
      + apply (meq_id_r D SL).
  Qed.

  Lemma process_inv (Hpre : pre_ok D) s' :
    wf m n A -> process D fp m n (init_state D m n A (f1, f2, f3, f4)) = Some s' -> SI s'.
  Proof.
    intros W. unfold process.
    destruct (mat_is_zero D _).
    - intros E. inversion E; subst. now apply (SInv_init D SL).
    - destruct (preprocess D m n _) as [s1|] eqn:E1; cbn [sbind]; [|discriminate].
      destruct (eliminate_all D fp m n s1) as [s2|] eqn:E2; cbn [sbind]; [|discriminate].
      intros E3. apply (diag_normalize_inv s2); [|exact E3].
      apply (eliminate_all_inv s1); [|exact E2].
      now apply preprocess_init_inv.
  Qed.
End Run.

Section Result.
  Context {R : Type} (D : euc_dict R) (SL : snf_laws D) (Hpre : pre_ok D).
  Let o := ed_ring D.
  Local Notation get := (lget o).

  (* what a tracked / untracked output matrix looks like *)
  Definition out_is (k : nat) (b : bool) (x : option (dmat R)) (X : lmat R) : Prop :=
    x = if b then Some (mk_dmat k k X) else None.

  Theorem snf_invariant (fp : fuel_policy R) m n (A : lmat R) f1 f2 f3 f4 res :
    wf m n A ->
    snf_with fp D (mk_dmat m n A) (f1, f2, f3, f4) = Some res ->
    exists T P Pi Q Qi,
      sr_d res = mk_dmat m n T /\
      wf m n T /\ wf m m P /\ wf m m Pi /\ wf n n Q /\ wf n n Qi /\
      out_is m f1 (sr_p res) P /\ out_is m f2 (sr_pinv res) Pi /\
      out_is n f3 (sr_q res) Q /\ out_is n f4 (sr_qinv res) Qi /\
      meq m n (get T) (mmul o m (get P) (mmul o n (get A) (get Q))) /\
      meq m m (mmul o m (get P) (get Pi)) (mid o) /\ meq m m (mmul o m (get Pi) (get P)) (mid o) /\
      meq n n (mmul o n (get Q) (get Qi)) (mid o) /\ meq n n (mmul o n (get Qi) (get Q)) (mid o).
  Proof.
    intros W. unfold snf_with, snf_run. cbv zeta. cbn [dm_m dm_n dm_rows].
    destruct (process D fp m n _) as [s|] eqn:E; cbn [sbind]; [|discriminate].
    intros E1. inversion E1; subst res; clear E1.
    apply (process_inv D SL fp m n A f1 f2 f3 f4 Hpre s W) in E.
    destruct E as (P & Pi & Q & Qi & WT & WP & WPi & WQ & WQi & T1 & T2 & T3 & T4 & HT & H1 & H2 & H3 & H4).
    exists (st_t s), P, Pi, Q, Qi. cbn [result_of sr_d sr_p sr_pinv sr_q sr_qinv].
    unfold out_is, tracked in *. rewrite T1, T2, T3, T4.
    repeat (split; [first [assumption | reflexivity | destruct f1; reflexivity | destruct f2; reflexivity | destruct f3; reflexivity | destruct f4; reflexivity]|]).
    assumption.
  Qed.
End Result.
