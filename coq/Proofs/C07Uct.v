(* C07 / C03 - universal coefficients as a theorem about actual ranks modulo a prime (and over Q).
   Part 1: generic facts and the abstract statement.

   [complex_rank_bound]  over an integral domain, d2 * d1 = 0 forces rank d1 + rank d2 <= n (the ranks being the
                         sizes of ANY diagonal forms with non-zero entries), so "n - rank d1 - rank d2" is never a
                         truncated subtraction;
   [hom_zero_prod]       a homomorphism of ring dictionaries maps a complex to a complex;
   [uct_abstract]        d1 : Z^n0 -> Z^n1, d2 : Z^n1 -> Z^n2, d2 * d1 = 0, chain Smith forms diag(a), diag(b) over Z,
                         ANY Smith-type forms of the reduced matrices over F_p, of sizes rp1 and rp2:
                             n1 - rp1 - rp2 = (n1 - r1 - r2) + #{k : p | a_k} + #{k : p | b_k};
   [cnt_div_non_units]   #{k : p | a_k} counts the NON-UNIT factors divisible by p (a unit is prime to p), i.e. the
                         torsion coefficients the homology code lists ([non_units isu (map a (seq 0 r))]);
   [rank_over_Q]         the rank over Q (any Smith-type form over the rationals of the same matrix) is the number of
                         integral invariant factors. *)
From Coq Require Import ZArith Znumtheory Arith List Lia Ring Bool QArith Qcanon.
Require Import Yui.Base.Ring Yui.Base.MatF Yui.Model.Snf.
Require Import Yui.Proofs.C07Algebra Yui.Proofs.C07Rank Yui.Proofs.C09UniqueKer Yui.Proofs.C09UniqueModP.
Require Import Yui.Proofs.C09Inv Yui.Proofs.C09Laws.
Import ListNotations.
Local Close Scope Q_scope.
Local Close Scope Qc_scope.
Local Close Scope Z_scope.

Section RankBound.
  Context {R : Type} (o : ring_ops R) (L : ring_laws o) (Hint : integral o).

  Local Notation "0" := (rzero o).
  Local Notation "1" := (rone o).
  Local Infix "+" := (radd o).
  Local Infix "*" := (rmul o).

  Add Ring RringUct : (ring_theory_of_laws o L).

  (* d1 : n x m,  d2 : k x n *)
  Theorem complex_rank_bound n m k (d1 d2 : mat R) r1 a r2 b :
    meq k m (mmul o n d2 d1) (mzero o) ->
    smith_form o n m d1 r1 a -> smith_form o k n d2 r2 b -> (r1 + r2 <= n)%nat.
  Proof.
    intros Hdd [P1 [Pi1 [Q1 [Qi1 [HP1 [HQ1 [He1 [Hnz1 Hr1]]]]]]]] [P2 [Pi2 [Q2 [Qi2 [HP2 [HQ2 [He2 [Hnz2 Hr2]]]]]]]].
    pose proof (form_smith o n m d1 r1 a P1 Pi1 Q1 Qi1 HP1 HQ1 He1 Hnz1 Hr1) as S1.
    pose proof (form_smith o k n d2 r2 b P2 Pi2 Q2 Qi2 HP2 HQ2 He2 Hnz2 Hr2) as S2.
    destruct (le_lt_dec (r1 + r2) n) as [Hle|Hlt]; [exact Hle|exfalso].
    set (M := mmul o n Qi2 Pi1).
    (* the r2 x r1 corner of M = Q2^-1 P1^-1 vanishes *)
    assert (HM : forall i j, (i < r2)%nat -> (j < r1)%nat -> M i j = 0).
    { intros i j Hi Hj.
      assert (Hik : (i < k)%nat) by lia. assert (Hjm : (j < m)%nat) by lia.
      assert (Z0 : mmul o n (mmul o k P2 d2) (mmul o m d1 Q1) i j = 0).
      { rewrite (mmul_assoc o L). apply (mmul_zero_col o L). intros l Hl.
        rewrite <- (mmul_assoc o L). apply (mmul_zero_row o L). intros l' Hl'. now apply Hdd. }
      assert (E : mmul o n (mmul o k P2 d2) (mmul o m d1 Q1) i j = b i * a j * M i j).
      { unfold M. unfold mmul at 1 4. rewrite <- (sum_scal_l o L). apply (sum_ext o). intros l Hl.
        rewrite (smith_PA_entry o L _ _ _ _ _ _ _ _ _ S2) by assumption.
        rewrite (smith_AQ_entry o L _ _ _ _ _ _ _ _ _ S1) by assumption.
        destruct (Nat.ltb_spec i r2); [|lia]. destruct (Nat.ltb_spec j r1); [|lia].
        unfold dg. rewrite !Nat.eqb_refl.
        destruct (Nat.ltb_spec i r2); [|lia]. destruct (Nat.ltb_spec j r1); [|lia]. cbn [andb]. ring. }
      rewrite E in Z0.
      destruct (proj2 Hint _ _ Z0) as [Z1|Z1]; [|exact Z1].
      destruct (proj2 Hint _ _ Z1) as [Z2|Z2]; [now apply Hnz2 in Z2|now apply Hnz1 in Z2]. }
    (* a non-trivial x supported on [0, r1) killed by the rows r2 .. n-1 of M *)
    destruct (kernel_vector o L Hint (n - r2) r1 (fun i j => M (r2 + i)%nat j) ltac:(lia)) as [x [[j0 [Hj0 Hx0]] Hker]].
    set (xt := fun j => if j <? r1 then x j else 0).
    assert (Hr1n : (r1 <= n)%nat) by lia.
    assert (HMx : forall i, (i < n)%nat -> mvec o n M xt i = 0).
    { intros i Hi. destruct (Nat.lt_ge_cases i r2) as [Hi2|Hi2].
      - apply (sum_zero_ext o L). intros j Hj. unfold xt.
        destruct (Nat.ltb_spec j r1); [rewrite HM by assumption|]; ring.
      - unfold xt. rewrite (mvec_trunc o L) by exact Hr1n.
        replace i with (r2 + (i - r2))%nat by lia. apply Hker. lia. }
    (* but M is invertible: xt = (P1 Q2) M xt = 0 *)
    apply Hx0.
    assert (Hj0n : (j0 < n)%nat) by lia.
    assert (Ex : xt j0 = x j0) by (unfold xt; destruct (Nat.ltb_spec j0 r1); [reflexivity|lia]).
    rewrite <- Ex. rewrite <- (mvec_id o L n xt j0 Hj0n).
    rewrite (mvec_ext_row o _ (mmul o n (mmul o n P1 Q2) M)).
    - rewrite (mvec_mmul o L). apply (mvec_zero o L). exact HMx.
    - intros l Hl. unfold M. rewrite (mmul_assoc o L).
      rewrite (mmul_ext_r o n P1 _ Pi1).
      + symmetry. now apply HP1.
      + intros l' Hl'. apply (mmul_cancel_l o L); [apply HQ2|exact Hl'].
  Qed.
End RankBound.

Section HomZero.
  Context {R R' : Type} (o : ring_ops R) (o' : ring_ops R') (phi : R -> R').
  Hypothesis phi0 : phi (rzero o) = rzero o'.
  Hypothesis phi_add : forall a b, phi (radd o a b) = radd o' (phi a) (phi b).
  Hypothesis phi_mul : forall a b, phi (rmul o a b) = rmul o' (phi a) (phi b).

  Lemma hom_zero_prod n m k (d1 d2 : mat R) :
    meq k m (mmul o n d2 d1) (mzero o) ->
    meq k m (mmul o' n (fun i j => phi (d2 i j)) (fun i j => phi (d1 i j))) (mzero o').
  Proof.
    intros H i j Hi Hj.
    change (mmul o' n (mmap phi d2) (mmap phi d1) i j = mzero o' i j).
    rewrite <- (phi_mmul o o' phi phi0 phi_add phi_mul). rewrite (H i j Hi Hj). exact phi0.
  Qed.
End HomZero.

Lemma filter_map_length {A B} (f : B -> bool) (g : A -> B) l :
  length (filter f (map g l)) = length (filter (fun x => f (g x)) l).
Proof.
  induction l as [|x l IH]; [reflexivity|]. cbn [map filter]. destruct (f (g x)); cbn [length]; now rewrite IH.
Qed.

Lemma filter_filter_implied {A} (f g : A -> bool) l :
  (forall x, In x l -> f x = true -> g x = true) -> filter f (filter g l) = filter f l.
Proof.
  induction l as [|x l IH]; intros H; [reflexivity|]. cbn [filter].
  assert (IH' : filter f (filter g l) = filter f l) by (apply IH; intros y Hy; apply H; now right).
  destruct (g x) eqn:Eg.
  - cbn [filter]. now rewrite IH'.
  - destruct (f x) eqn:Ef; [|exact IH']. rewrite (H x (or_introl eq_refl) Ef) in Eg. discriminate.
Qed.

Section UctZ.
  Open Scope Z_scope.
  Variable p : Z.
  Hypothesis Hp : prime p.

  Let pgt : 1 < p := p_gt_1 p Hp.

  (* [pdiv t]: p divides t *)
  Definition pdiv (t : Z) : bool := t mod p =? 0.

  Lemma pdiv_spec t : pdiv t = true <-> (p | t).
  Proof. unfold pdiv. rewrite Z.eqb_eq. apply Z.mod_divide. lia. Qed.

  Lemma cnt_div_list a r : cnt_div p a r = length (filter pdiv (map a (seq 0 r))).
  Proof. unfold cnt_div. now rewrite filter_map_length. Qed.

  (* a unit is prime to p *)
  Lemma unit_not_pdiv a b : a * b = 1 -> pdiv a = false.
  Proof.
    intros H. destruct (pdiv a) eqn:E; [|reflexivity]. apply pdiv_spec in E.
    assert (D : (p | 1)) by (rewrite <- H; now apply Z.divide_mul_l).
    apply Z.divide_1_r_nonneg in D; lia.
  Qed.

  (* the factors divisible by p are non-units: the count only sees the torsion coefficients *)
  Lemma cnt_div_non_units (isu : Z -> bool) a r :
    (forall x, isu x = true -> exists y, x * y = 1) ->
    cnt_div p a r = length (filter pdiv (filter (fun x => negb (isu x)) (map a (seq 0 r)))).
  Proof.
    intros Hs. rewrite cnt_div_list. f_equal. symmetry. apply filter_filter_implied.
    intros x _ Hx. destruct (isu x) eqn:E; [|reflexivity].
    destruct (Hs x E) as [y Hy]. rewrite (unit_not_pdiv x y Hy) in Hx. discriminate.
  Qed.

  Let Lp : ring_laws (fp_ring p) := fp_ring_laws p Hp.
  Let Ip : integral (fp_ring p) := sl_integral (fp_dict p) (fp_snf_laws p Hp).

  Definition redp (A : mat Z) : mat (fp p) := fun i j => fp_mk p (A i j).

  Theorem uct_abstract n0 n1 n2 (d1 d2 : mat Z) r1 a r2 b rp1 c1 rp2 c2 :
    meq n2 n0 (mmul Z_ring n1 d2 d1) (mzero Z_ring) ->
    smith_form Z_ring n1 n0 d1 r1 a -> (forall k, (S k < r1)%nat -> (a k | a (S k))) ->
    smith_form Z_ring n2 n1 d2 r2 b -> (forall k, (S k < r2)%nat -> (b k | b (S k))) ->
    smith_form (fp_ring p) n1 n0 (redp d1) rp1 c1 ->
    smith_form (fp_ring p) n2 n1 (redp d2) rp2 c2 ->
    (r1 + r2 <= n1)%nat /\ (rp1 + rp2 <= n1)%nat /\
    meq n2 n0 (mmul (fp_ring p) n1 (redp d2) (redp d1)) (mzero (fp_ring p)) /\
    (rp1 + cnt_div p a r1 = r1)%nat /\ (rp2 + cnt_div p b r2 = r2)%nat /\
    (n1 - rp1 - rp2 = (n1 - r1 - r2) + cnt_div p a r1 + cnt_div p b r2)%nat.
  Proof.
    intros Hdd F1 C1 F2 C2 G1 G2.
    pose proof (complex_rank_bound Z_ring Z_ring_laws Z_integral n1 n0 n2 d1 d2 r1 a r2 b Hdd F1 F2) as B.
    pose proof (hom_zero_prod Z_ring (fp_ring p) (fp_mk p) eq_refl (fp_mk_add p) (fp_mk_mul p) n1 n0 n2 d1 d2 Hdd) as Hddp.
    pose proof (complex_rank_bound (fp_ring p) Lp Ip n1 n0 n2 _ _ rp1 c1 rp2 c2 Hddp G1 G2) as Bp.
    destruct (modp_rank p Hp n1 n0 d1 r1 a rp1 c1 F1 C1 G1) as [_ E1].
    destruct (modp_rank p Hp n2 n1 d2 r2 b rp2 c2 F2 C2 G2) as [_ E2].
    repeat split; try assumption. lia.
  Qed.
End UctZ.

Section RankQ.
  Definition z2q (a : Z) : Qc := Q2Qc (inject_Z a).

  Lemma z2q_add a b : z2q (a + b) = Qcplus (z2q a) (z2q b).
  Proof.
    unfold z2q, Qcplus. apply Qc_is_canon. cbn [this Q2Qc]. rewrite !Qred_correct, inject_Z_plus. reflexivity.
  Qed.

  Lemma z2q_mul a b : z2q (a * b) = Qcmult (z2q a) (z2q b).
  Proof.
    unfold z2q, Qcmult. apply Qc_is_canon. cbn [this Q2Qc]. rewrite !Qred_correct, inject_Z_mult. reflexivity.
  Qed.

  Lemma z2q_zero_iff a : z2q a = Q2Qc 0 <-> a = 0%Z.
  Proof.
    split; [|intros ->; reflexivity]. intros H.
    assert (E : Qeq (z2q a) (Q2Qc 0)) by (rewrite H; reflexivity).
    unfold z2q in E. cbn [this Q2Qc] in E. rewrite !Qred_correct in E.
    unfold Qeq, inject_Z in E. cbn [Qnum Qden] in E. lia.
  Qed.

  Definition redq (A : mat Z) : mat Qc := fun i j => z2q (A i j).

  (* the image of an integral Smith-type form is one over Q of the same size *)
  Lemma Q_smith_form m n (A : mat Z) r a :
    smith_form Z_ring m n A r a -> smith_form Q_ring m n (redq A) r (fun k => z2q (a k)).
  Proof.
    intros F. pose proof F as [_ [_ [_ [_ [_ [_ [_ [Hnz _]]]]]]]].
    apply (hom_smith_form Z_ring Q_ring z2q eq_refl eq_refl z2q_add z2q_mul m n A r a r F).
    - lia.
    - intros k Hk E. apply z2q_zero_iff in E. exact (Hnz k Hk E).
    - intros k H1 H2. lia.
  Qed.

  Theorem rank_over_Q m n (A : mat Z) r a rq c :
    smith_form Z_ring m n A r a -> smith_form Q_ring m n (redq A) rq c -> rq = r.
  Proof.
    intros F Fq.
    exact (smith_form_rank_unique Q_ring Q_ring_laws (sl_integral Q_dict Q_snf_laws) m n _ _ _ _ _ Fq (Q_smith_form m n A r a F)).
  Qed.

  (* the Betti number over Q is the integral free rank *)
  Theorem uct_Q n0 n1 n2 (d1 d2 : mat Z) r1 a r2 b rq1 c1 rq2 c2 :
    smith_form Z_ring n1 n0 d1 r1 a -> smith_form Z_ring n2 n1 d2 r2 b ->
    smith_form Q_ring n1 n0 (redq d1) rq1 c1 -> smith_form Q_ring n2 n1 (redq d2) rq2 c2 ->
    (n1 - rq1 - rq2 = n1 - r1 - r2)%nat.
  Proof.
    intros F1 F2 G1 G2.
    now rewrite (rank_over_Q _ _ _ _ _ _ _ F1 G1), (rank_over_Q _ _ _ _ _ _ _ F2 G2).
  Qed.
End RankQ.
