(* C03Big: when does route A (one summand per generator, filed at the minimal q-degree of its terms) give
   the cell-by-cell decomposition?  Generators are given as sums of q-homogeneous cycles. *)
From Coq Require Import List ZArith Bool Lia Permutation.
Require Import Yui.Model.IntoBigraded Yui.Proofs.C03BigTable Yui.Proofs.C03BigGrid.
Import ListNotations.
Open Scope Z_scope.

(* chain_q_deg is a lower bound of the q-degrees of the terms *)
Lemma fold_min_le : forall r q, fold_left Z.min r q <= q /\ forall x, In x r -> fold_left Z.min r q <= x.
Proof.
  induction r as [|y r IH]; intros q.
  - cbn. split; [lia | intros x []].
  - cbn [fold_left]. destruct (IH (Z.min q y)) as [H1 H2]. split; [lia|].
    intros x [<-|Hx]; [lia | apply H2; exact Hx].
Qed.

Lemma chain_q_deg_le : forall qs q, In q qs -> chain_q_deg qs <= q.
Proof.
  intros [|q0 r] q H; [destruct H|]. unfold chain_q_deg. destruct (fold_min_le r q0) as [H1 H2].
  destruct H as [<-|H]; [exact H1 | apply H2; exact H].
Qed.

(* sums that are invariant under permutation *)
Fixpoint qsum (L : list (Z * comp)) : Z := match L with [] => 0 | x :: L' => fst x + qsum L' end.

Lemma qsum_app : forall L1 L2, qsum (L1 ++ L2) = qsum L1 + qsum L2.
Proof. induction L1 as [|x L1 IH]; intros L2; [reflexivity|]. cbn [app qsum]. rewrite IH. lia. Qed.

Lemma qsum_perm : forall L1 L2, Permutation L1 L2 -> qsum L1 = qsum L2.
Proof. intros L1 L2 H. induction H; cbn [qsum]; lia. Qed.

(* pointwise bounds with equal sums are equalities *)
Lemma sum_pointwise : forall (A : Type) (f g : A -> Z) (l : list A),
  Forall (fun a => f a <= g a) l ->
  fold_right (fun a acc => f a + acc) 0 l = fold_right (fun a acc => g a + acc) 0 l ->
  Forall (fun a => f a = g a) l.
Proof.
  intros A f g l H.
  assert (G : forall l, Forall (fun a => f a <= g a) l ->
                        fold_right (fun a acc => f a + acc) 0 l <= fold_right (fun a acc => g a + acc) 0 l).
  { induction 1; cbn [fold_right]; lia. }
  induction H as [|a l Ha H IH]; intros E; [constructor|].
  cbn [fold_right] in E. pose proof (G l H). constructor; [lia | apply IH; lia].
Qed.

Lemma sum_lengths : forall (A B : Type) (f : A -> list B) (l : list A),
  fold_right (fun a acc => Z.of_nat (length (f a)) + acc) 0 l = Z.of_nat (length (flat_map f l)).
Proof.
  intros A B f l. induction l as [|a l IH]; [reflexivity|]. cbn [fold_right flat_map]. rewrite IH, app_length. lia.
Qed.

(* the kind of a generator with one non-trivial component *)
Lemma nontriv_nil_kind : forall d, nontriv d = [] -> dgen_is_free d = false /\ dgen_order d = 1.
Proof.
  induction d as [|[q c] d IH]; intros H; [split; reflexivity|].
  unfold nontriv in H. cbn [filter snd] in H. destruct c; cbn [comp_nontriv] in H; try discriminate.
  destruct (IH H) as [H1 H2]. unfold dgen_is_free, dgen_order in *. cbn [existsb fold_right snd orb]. auto.
Qed.

Lemma nontriv_single_kind : forall d q c, nontriv d = [(q, c)] -> dgen_comp_of_kind (dgen_kind d) = c.
Proof.
  induction d as [|[q' c'] d IH]; intros q c H; [discriminate|].
  unfold nontriv in H. cbn [filter snd] in H. destruct c'; cbn [comp_nontriv] in H.
  - specialize (IH q c H). unfold dgen_kind, dgen_is_free, dgen_order in *. cbn [existsb fold_right snd orb]. exact IH.
  - inversion H as [[Hq Hc Hn]]. unfold dgen_kind, dgen_is_free. cbn [existsb snd orb]. reflexivity.
  - inversion H as [[Hq Hc Hn]]. destruct (nontriv_nil_kind d Hn) as [H1 H2].
    unfold dgen_kind, dgen_is_free, dgen_order in *. cbn [existsb fold_right snd orb]. rewrite H1, H2.
    cbn [dgen_comp_of_kind]. rewrite Z.mul_1_r. reflexivity.
Qed.

Lemma nontriv_incl : forall d x, In x (nontriv d) -> In x d.
Proof. intros d x H. unfold nontriv in H. apply filter_In in H. tauto. Qed.

(* sufficiency: route A then IS the cell-by-cell list *)
Lemma agree_if : forall ds, Forall single_at_min ds -> located_A ds = located_cellwise ds.
Proof.
  intros ds H. induction H as [|d ds [c Hd] H IH]; [reflexivity|].
  unfold located_A, located_cellwise in *. cbn [map flat_map]. rewrite IH, Hd. cbn [app]. f_equal.
  rewrite (nontriv_single_kind d _ c Hd). reflexivity.
Qed.

(* towards the converse [agree_only_if]: the sums of the q-degrees filed by the two routes *)
Lemma qsum_located_A : forall ds,
  qsum (located_A ds) = fold_right (fun d acc => chain_q_deg (map fst d) + acc) 0 ds.
Proof. induction ds as [|d ds IH]; [reflexivity|]. unfold located_A in *. cbn [map qsum fold_right fst]. rewrite IH. reflexivity. Qed.

Lemma qsum_located_cellwise : forall ds,
  qsum (located_cellwise ds) = fold_right (fun d acc => qsum (nontriv d) + acc) 0 ds.
Proof.
  induction ds as [|d ds IH]; [reflexivity|]. unfold located_cellwise in *. cbn [flat_map fold_right].
  rewrite qsum_app, IH. reflexivity.
Qed.

Lemma agree_only_if : forall ds, Forall (fun d => nontriv d <> []) ds ->
  Permutation (located_A ds) (located_cellwise ds) -> Forall single_at_min ds.
Proof.
  intros ds Hwf HP.
  (* each generator has exactly one non-trivial component: there is at least one each, and as many in all
     as there are generators *)
  assert (H1 : Forall (fun d => 1 = Z.of_nat (length (nontriv d))) ds).
  { apply sum_pointwise.
    - eapply Forall_impl; [|exact Hwf]. intros d Hd. cbn beta in Hd. destruct (nontriv d); [congruence | cbn [length]; lia].
    - rewrite sum_lengths. fold (located_cellwise ds). rewrite <- (Permutation_length HP). unfold located_A.
      rewrite map_length. clear. induction ds as [|d ds IH]; [reflexivity|]. cbn [fold_right length]. lia. }
  (* ... and it sits at the minimum *)
  assert (H2 : Forall (fun d => chain_q_deg (map fst d) = qsum (nontriv d)) ds).
  { apply sum_pointwise.
    - rewrite Forall_forall in *. intros d Hd. specialize (H1 d Hd).
      destruct (nontriv d) as [|[q c] [|y r]] eqn:E; cbn [length] in H1; try lia. cbn [qsum fst].
      assert (Hq : In q (map fst d)).
      { apply in_map_iff. exists (q, c). split; [reflexivity|]. apply nontriv_incl. rewrite E. left. reflexivity. }
      pose proof (chain_q_deg_le _ _ Hq). lia.
    - rewrite <- qsum_located_A, <- qsum_located_cellwise. apply qsum_perm. exact HP. }
  rewrite Forall_forall in *. intros d Hd. specialize (H1 d Hd). specialize (H2 d Hd).
  destruct (nontriv d) as [|[q c] [|y r]] eqn:E; cbn [length] in H1; try lia. cbn [qsum fst] in H2.
  exists c. unfold single_at_min. rewrite E. f_equal. f_equal. lia.
Qed.

Lemma agree_iff : forall ds, Forall (fun d => nontriv d <> []) ds ->
  (Permutation (located_A ds) (located_cellwise ds) <-> Forall single_at_min ds).
Proof.
  intros ds Hwf. split.
  - apply agree_only_if. exact Hwf.
  - intros H. rewrite (agree_if ds H). apply Permutation_refl.
Qed.

(* route A on decomposed generators, cell by cell *)
Lemma regroup_erase : forall j ds, regroup chain_q_deg j (erase ds) = cell_of_located j (located_A ds).
Proof.
  intros j ds. induction ds as [|d ds IH]; [reflexivity|].
  change (erase (d :: ds)) with ((dgen_kind d, map fst d) :: erase ds). rewrite regroup_cons, IH.
  unfold located_A. cbn [map]. fold (located_A ds). unfold cell_of_located. cbn [filter flat_map fst snd].
  destruct (chain_q_deg (map fst d) =? j); destruct (dgen_kind d); reflexivity.
Qed.

Lemma regroup_frees_tors : forall j (l : list (list Z)),
  snd (regroup chain_q_deg j (map (fun qs => (GFree, qs)) l)) = [].
Proof.
  intros j l. induction l as [|qs l IH]; [reflexivity|].
  cbn [map]. rewrite regroup_cons. cbn [fst snd]. rewrite IH. destruct (chain_q_deg qs =? j); reflexivity.
Qed.

Lemma regroup_summand_of_dgens : forall j ds,
  regroup chain_q_deg j (tagged (summand_of_dgens ds)) = regroup chain_q_deg j (erase ds).
Proof.
  intros j ds. induction ds as [|d ds IH]; [reflexivity|].
  change (erase (d :: ds)) with ((dgen_kind d, map fst d) :: erase ds). rewrite regroup_cons, <- IH.
  unfold tagged, summand_of_dgens, dgen_kind. cbn [si_free si_tors filter].
  destruct (dgen_is_free d) eqn:E; cbn [negb map app]; [now rewrite regroup_cons|].
  rewrite !regroup_app, regroup_cons, !regroup_frees_tors. cbn [fst snd is_free_b tor_list app].
  rewrite andb_false_r. reflexivity.
Qed.

(* route A's cell (i, j) on a summand given by decomposed generators is cell j of located_A *)
Lemma into_bigraded_located : forall hs i ds j,
  NoDup (map fst hs) -> In (i, summand_of_dgens ds) hs -> same_parity hs ->
  ib_get (i, j) (into_bigraded hs) = cell_of_located j (located_A ds).
Proof.
  intros hs i ds j Hnd Hin Hp.
  rewrite (into_bigraded_cell_parity hs Hp), (gens_at_nodup hs i _ Hnd Hin), regroup_summand_of_dgens.
  apply regroup_erase.
Qed.

Lemma into_bigraded_agrees : forall hs i ds j,
  NoDup (map fst hs) -> In (i, summand_of_dgens ds) hs -> same_parity hs -> Forall single_at_min ds ->
  ib_get (i, j) (into_bigraded hs) = cell_of_located j (located_cellwise ds).
Proof.
  intros hs i ds j Hnd Hin Hp Hs. rewrite (into_bigraded_located hs i ds j Hnd Hin Hp), (agree_if ds Hs). reflexivity.
Qed.

Lemma into_bigraded_agrees_full : forall hs i ds,
  NoDup (map fst hs) -> In (i, summand_of_dgens ds) hs -> same_parity hs -> Forall single_at_min ds ->
  located_A ds = located_cellwise ds /\
  forall j, ib_get (i, j) (into_bigraded hs) = cell_of_located j (located_cellwise ds).
Proof.
  intros hs i ds Hnd Hin Hp Hs. split; [apply agree_if; exact Hs|].
  intros j. apply into_bigraded_agrees; assumption.
Qed.
