(* C07 - universal coefficients as a theorem about actual ranks modulo a prime, and over Q.
   Property theorems only: each is proved by [exact <lemma>] or a short combination of proved lemmas and is
   followed by Print Assumptions; the Examples instantiate the hypotheses on concrete values.

   Setting.  d_in : Z^n0 -> Z^n1 and d_out : Z^n1 -> Z^n2 with d_out * d_in = 0 (matrices n1 x n0 and n2 x n1).
   The integral homology in the middle degree has free rank n1 - r_in - r_out (r = number of invariant factors) and
   its torsion coefficients are the non-unit invariant factors of d_in; the non-unit factors of d_out are the torsion
   of the NEXT homology group (C07_rank_tors).  Over a field F the homology of the base-changed complex has dimension
   n1 - rank_F(d_in) - rank_F(d_out); here rank_F(A) is the size of ANY Smith-type form of A over F
   ([smith_form], Proofs/C07Algebra.v: P A Q = diag(c_0 .. c_(r-1), 0 ..) with P, Q invertible and all c_i <> 0 -
   an invariant of the matrix by C07Rank.smith_form_rank_unique).  Proved here for every prime p:
       n1 - rank_(F_p)(d_in) - rank_(F_p)(d_out)
         = (n1 - r_in - r_out) + #{t in tors(d_in) : p | t} + #{t in tors(d_out) : p | t}
   abstractly (C07_uct), for the output of the mirrored HomologyCalc with ANY snf routine meeting the C09 contract
   (C07_uct_calc), for the run of the same code over F_p on the reduced matrices (C07_uct_calc_fp), and closed for the
   mirror of snf.rs (C07_uct_mirror); over Q the Betti number is the integral free rank (C07_rank_Q, C07_rank_Q_calc, C07_rank_Q_mirror).
   No subtraction is truncated: rank d_in + rank d_out <= n1 over every integral domain (C07_complex_rank_bound).

   Vocabulary: [redp p A] = A mod p entrywise (into [fp p], the model of FF<p>), [redq A] = A in Qc;
   [pdiv p t] = (t mod p =? 0);  [cnt_div p a r] = #{k < r : p | a_k};  [dred p], [dredq]: the same base changes
   of the dense matrices of Model/HomologyCalc.v. *)
From Coq Require Import ZArith Znumtheory Arith List Bool Lia.
From Coq Require Qcanon.
Require Import Yui.Base.Ring Yui.Base.MatF Yui.Base.MatL Yui.Model.HomologyCalc.
Require Yui.Model.Snf.
Require Import Yui.Proofs.C07Algebra Yui.Proofs.C07Calc Yui.Proofs.C09UniqueModP Yui.Proofs.C09Run
  Yui.Proofs.C09Contract Yui.Proofs.C07Uct Yui.Proofs.C07UctCalc.
Require Yui.Proofs.C09Total Yui.Proofs.C09Elim Yui.Proofs.C09Unique Yui.Proofs.C09UniqueCor.
Import ListNotations.
Close Scope Z_scope.

Module SNF := Yui.Model.Snf.

Theorem C07_uct_vocabulary :
  (forall (p : Z) (A : mat Z) (i j : nat), redp p A i j = SNF.fp_mk p (A i j)) /\
  (forall (A : mat Z) (i j : nat), redq A i j = Qcanon.Q2Qc (QArith_base.inject_Z (A i j))) /\
  (forall p t : Z, pdiv p t = (t mod p =? 0)%Z) /\
  (forall (p : Z) (a : nat -> Z) (r : nat),
     cnt_div p a r = length (filter (fun k => (a k mod p =? 0)%Z) (seq 0 r))) /\
  (forall (p : Z) (d : dmat Z), dred p d = mkm (nr d) (nc d) (map (map (SNF.fp_mk p)) (ent d))) /\
  (forall d : dmat Z, dredq d = mkm (nr d) (nc d) (map (map (fun a => Qcanon.Q2Qc (QArith_base.inject_Z a))) (ent d))) /\
  (forall (p : Z) (d : dmat Z) (i j : nat),
     mget (SNF.fp_ring p) (dred p d) i j = SNF.fp_mk p (mget Z_ring d i j)) /\
  (forall (F : Type) (o : ring_ops F) (a : F), field_isu o a = negb (ris_zero o a)).
Proof.
  repeat split; intros; try reflexivity. apply mget_dred.
Qed.
Print Assumptions C07_uct_vocabulary.

(* rank d_in + rank d_out <= n, over every integral domain *)
Theorem C07_complex_rank_bound :
  forall (R : Type) (o : ring_ops R), ring_laws o -> integral o ->
  forall (n m k : nat) (d1 d2 : mat R) (r1 : nat) (a : nat -> R) (r2 : nat) (b : nat -> R),
  meq k m (mmul o n d2 d1) (mzero o) ->
  smith_form o n m d1 r1 a -> smith_form o k n d2 r2 b -> r1 + r2 <= n.
Proof. exact @complex_rank_bound. Qed.
Print Assumptions C07_complex_rank_bound.

Theorem C07_uct :
  forall p : Z, prime p ->
  forall (n0 n1 n2 : nat) (d_in d_out : mat Z)
         (r_in : nat) (a : nat -> Z) (r_out : nat) (b : nat -> Z)
         (rp_in : nat) (c_in : nat -> SNF.fp p) (rp_out : nat) (c_out : nat -> SNF.fp p),
  meq n2 n0 (mmul Z_ring n1 d_out d_in) (mzero Z_ring) ->
  smith_form Z_ring n1 n0 d_in r_in a -> (forall k, S k < r_in -> (a k | a (S k))%Z) ->
  smith_form Z_ring n2 n1 d_out r_out b -> (forall k, S k < r_out -> (b k | b (S k))%Z) ->
  smith_form (SNF.fp_ring p) n1 n0 (redp p d_in) rp_in c_in ->
  smith_form (SNF.fp_ring p) n2 n1 (redp p d_out) rp_out c_out ->
  r_in + r_out <= n1 /\ rp_in + rp_out <= n1 /\
  meq n2 n0 (mmul (SNF.fp_ring p) n1 (redp p d_out) (redp p d_in)) (mzero (SNF.fp_ring p)) /\
  rp_in + cnt_div p a r_in = r_in /\ rp_out + cnt_div p b r_out = r_out /\
  n1 - rp_in - rp_out = (n1 - r_in - r_out) + cnt_div p a r_in + cnt_div p b r_out.
Proof. exact uct_abstract. Qed.
Print Assumptions C07_uct.

(* the factors divisible by p are non-units (a unit is prime to p): the two counts only see the torsion coefficients,
   i.e. the lists [non_units isu (map a (seq 0 r))] that HomologyCalc::result reports *)
Theorem C07_uct_torsion_count :
  forall p : Z, prime p ->
  forall (isu : Z -> bool) (a : nat -> Z) (r : nat),
  (forall x : Z, isu x = true -> exists y : Z, (x * y = 1)%Z) ->
  cnt_div p a r = length (filter (pdiv p) (non_units isu (map a (seq 0 r)))).
Proof. exact cnt_div_non_units. Qed.
Print Assumptions C07_uct_torsion_count.

(* the output of the mirrored HomologyCalc, any snf routine meeting the C09 contract *)
(* two consecutive degrees: (rank, tors) of the degree between d1 and d2, tors' of the next one *)
Theorem C07_uct_calc :
  forall isu : Z -> bool,
  (forall a b : Z, rmul Z_ring a b = rone Z_ring -> isu a = true) ->
  (forall a : Z, isu a = true -> exists b : Z, rmul Z_ring a b = rone Z_ring) ->
  forall snf : dmat Z -> bool -> bool -> bool -> bool -> option (snf_result Z),
  snf_contract Z_ring snf ->
  forall p : Z, prime p ->
  forall (d1 d2 d3 : dmat Z) (wt wt' : bool) (rank : nat) (tors : list Z) (tr : option (trans Z))
         (rank' : nat) (tors' : list Z) (tr' : option (trans Z)),
  mwf d1 -> mwf d2 -> mwf d3 -> zero_prod Z_ring d1 d2 -> zero_prod Z_ring d2 d3 ->
  calculate Z_ring isu snf d1 d2 wt = Some (rank, tors, tr) ->
  calculate Z_ring isu snf d2 d3 wt' = Some (rank', tors', tr') ->
  forall (rp1 : nat) (c1 : nat -> SNF.fp p) (rp2 : nat) (c2 : nat -> SNF.fp p),
  smith_form (SNF.fp_ring p) (nr d1) (nc d1) (redp p (mget Z_ring d1)) rp1 c1 ->
  smith_form (SNF.fp_ring p) (nr d2) (nr d1) (redp p (mget Z_ring d2)) rp2 c2 ->
  rp1 + rp2 <= nr d1 /\
  nr d1 - rp1 - rp2 = rank + length (filter (pdiv p) tors) + length (filter (pdiv p) tors').
Proof. exact calc_uct. Qed.
Print Assumptions C07_uct_calc.

(* the same code over F_p on the reduced matrices: the rank it reports is the one predicted from the integral answer,
   and it reports no torsion *)
Theorem C07_uct_calc_fp :
  forall isu : Z -> bool,
  (forall a b : Z, rmul Z_ring a b = rone Z_ring -> isu a = true) ->
  (forall a : Z, isu a = true -> exists b : Z, rmul Z_ring a b = rone Z_ring) ->
  forall snf : dmat Z -> bool -> bool -> bool -> bool -> option (snf_result Z),
  snf_contract Z_ring snf ->
  forall p : Z, prime p ->
  forall isup : SNF.fp p -> bool,
  (forall a b : SNF.fp p, rmul (SNF.fp_ring p) a b = rone (SNF.fp_ring p) -> isup a = true) ->
  (forall a : SNF.fp p, isup a = true -> exists b : SNF.fp p, rmul (SNF.fp_ring p) a b = rone (SNF.fp_ring p)) ->
  forall snfp : dmat (SNF.fp p) -> bool -> bool -> bool -> bool -> option (snf_result (SNF.fp p)),
  snf_contract (SNF.fp_ring p) snfp ->
  forall (d1 d2 d3 : dmat Z) (wt wt' : bool) (rank : nat) (tors : list Z) (tr : option (trans Z))
         (rank' : nat) (tors' : list Z) (tr' : option (trans Z))
         (wtp : bool) (rankp : nat) (torsp : list (SNF.fp p)) (trp : option (trans (SNF.fp p))),
  mwf d1 -> mwf d2 -> mwf d3 -> zero_prod Z_ring d1 d2 -> zero_prod Z_ring d2 d3 ->
  calculate Z_ring isu snf d1 d2 wt = Some (rank, tors, tr) ->
  calculate Z_ring isu snf d2 d3 wt' = Some (rank', tors', tr') ->
  calculate (SNF.fp_ring p) isup snfp (dred p d1) (dred p d2) wtp = Some (rankp, torsp, trp) ->
  rankp = rank + length (filter (pdiv p) tors) + length (filter (pdiv p) tors') /\ torsp = [].
Proof. exact calc_uct_fp. Qed.
Print Assumptions C07_uct_calc_fp.

(* closed instance: the snf parameter is the mirror of snf.rs (Model/Snf.v through the adapter of C09Contract.v, the
   definition the extracted model runs), is_unit is the dictionary's, over Z with or without a preprocessing step that
   meets its contract [pre_ok] (trivially true for None) and over F_p *)
Theorem C07_uct_mirror :
  forall pre : option (SNF.preproc Z), pre_ok (SNF.Zpre_dict pre) ->
  forall p : Z, prime p ->
  forall (d1 d2 d3 : dmat Z) (wt wt' : bool) (rank : nat) (tors : list Z) (tr : option (trans Z))
         (rank' : nat) (tors' : list Z) (tr' : option (trans Z)),
  mwf d1 -> mwf d2 -> mwf d3 -> zero_prod Z_ring d1 d2 -> zero_prod Z_ring d2 d3 ->
  calculate Z_ring (ris_unit (SNF.ed_unit (SNF.Zpre_dict pre))) (snf_adapter (SNF.Zpre_dict pre)) d1 d2 wt
    = Some (rank, tors, tr) ->
  calculate Z_ring (ris_unit (SNF.ed_unit (SNF.Zpre_dict pre))) (snf_adapter (SNF.Zpre_dict pre)) d2 d3 wt'
    = Some (rank', tors', tr') ->
  (forall (rp1 : nat) (c1 : nat -> SNF.fp p) (rp2 : nat) (c2 : nat -> SNF.fp p),
     smith_form (SNF.fp_ring p) (nr d1) (nc d1) (redp p (mget Z_ring d1)) rp1 c1 ->
     smith_form (SNF.fp_ring p) (nr d2) (nr d1) (redp p (mget Z_ring d2)) rp2 c2 ->
     rp1 + rp2 <= nr d1 /\
     nr d1 - rp1 - rp2 = rank + length (filter (pdiv p) tors) + length (filter (pdiv p) tors')) /\
  (forall (wtp : bool) (rankp : nat) (torsp : list (SNF.fp p)) (trp : option (trans (SNF.fp p))),
     calculate (SNF.fp_ring p) (ris_unit (SNF.ed_unit (SNF.fp_dict p))) (snf_adapter (SNF.fp_dict p))
               (dred p d1) (dred p d2) wtp = Some (rankp, torsp, trp) ->
     rankp = rank + length (filter (pdiv p) tors) + length (filter (pdiv p) tors') /\ torsp = []).
Proof. exact mirror_uct. Qed.
Print Assumptions C07_uct_mirror.

Theorem C07_rank_Q :
  forall (m n : nat) (A : mat Z) (r : nat) (a : nat -> Z) (rq : nat) (c : nat -> Qcanon.Qc),
  smith_form Z_ring m n A r a -> smith_form SNF.Q_ring m n (redq A) rq c -> rq = r.
Proof. exact rank_over_Q. Qed.
Print Assumptions C07_rank_Q.

Theorem C07_rank_Q_calc :
  forall isu : Z -> bool,
  (forall a b : Z, rmul Z_ring a b = rone Z_ring -> isu a = true) ->
  (forall a : Z, isu a = true -> exists b : Z, rmul Z_ring a b = rone Z_ring) ->
  forall snf : dmat Z -> bool -> bool -> bool -> bool -> option (snf_result Z),
  snf_contract Z_ring snf ->
  forall isuq : Qcanon.Qc -> bool,
  (forall a b : Qcanon.Qc, rmul SNF.Q_ring a b = rone SNF.Q_ring -> isuq a = true) ->
  (forall a : Qcanon.Qc, isuq a = true -> exists b : Qcanon.Qc, rmul SNF.Q_ring a b = rone SNF.Q_ring) ->
  forall snfq : dmat Qcanon.Qc -> bool -> bool -> bool -> bool -> option (snf_result Qcanon.Qc),
  snf_contract SNF.Q_ring snfq ->
  forall (d1 d2 : dmat Z) (wt : bool) (rank : nat) (tors : list Z) (tr : option (trans Z)),
  mwf d1 -> mwf d2 -> zero_prod Z_ring d1 d2 ->
  calculate Z_ring isu snf d1 d2 wt = Some (rank, tors, tr) ->
  (forall (rq1 : nat) (c1 : nat -> Qcanon.Qc) (rq2 : nat) (c2 : nat -> Qcanon.Qc),
     smith_form SNF.Q_ring (nr d1) (nc d1) (redq (mget Z_ring d1)) rq1 c1 ->
     smith_form SNF.Q_ring (nr d2) (nr d1) (redq (mget Z_ring d2)) rq2 c2 ->
     rq1 + rq2 <= nr d1 /\ nr d1 - rq1 - rq2 = rank) /\
  (forall (wtq : bool) (rankq : nat) (torsq : list Qcanon.Qc) (trq : option (trans Qcanon.Qc)),
     calculate SNF.Q_ring isuq snfq (dredq d1) (dredq d2) wtq = Some (rankq, torsq, trq) ->
     rankq = rank /\ torsq = []).
Proof. exact calc_rank_Q. Qed.
Print Assumptions C07_rank_Q_calc.

Theorem C07_rank_Q_mirror :
  forall pre : option (SNF.preproc Z), pre_ok (SNF.Zpre_dict pre) ->
  forall (d1 d2 : dmat Z) (wt : bool) (rank : nat) (tors : list Z) (tr : option (trans Z)),
  mwf d1 -> mwf d2 -> zero_prod Z_ring d1 d2 ->
  calculate Z_ring (ris_unit (SNF.ed_unit (SNF.Zpre_dict pre))) (snf_adapter (SNF.Zpre_dict pre)) d1 d2 wt
    = Some (rank, tors, tr) ->
  (forall (rq1 : nat) (c1 : nat -> Qcanon.Qc) (rq2 : nat) (c2 : nat -> Qcanon.Qc),
     smith_form SNF.Q_ring (nr d1) (nc d1) (redq (mget Z_ring d1)) rq1 c1 ->
     smith_form SNF.Q_ring (nr d2) (nr d1) (redq (mget Z_ring d2)) rq2 c2 ->
     rq1 + rq2 <= nr d1 /\ nr d1 - rq1 - rq2 = rank) /\
  (forall (wtq : bool) (rankq : nat) (torsq : list Qcanon.Qc) (trq : option (trans Qcanon.Qc)),
     calculate SNF.Q_ring (ris_unit (SNF.ed_unit SNF.Q_dict)) (snf_adapter SNF.Q_dict) (dredq d1) (dredq d2) wtq
       = Some (rankq, torsq, trq) ->
     rankq = rank /\ torsq = []).
Proof. exact mirror_rank_Q. Qed.
Print Assumptions C07_rank_Q_mirror.

(* exM = U diag(1, 2, 6) V with U, V unimodular: invariant factors 1, 2, 6 *)
Definition exM : lmat Z := [[1; 1; 0]; [1; 3; 2]; [2; 4; 8]]%Z.
Definition ex_d0 : dmat Z := mkm 3 0 [[]; []; []].            (* 0 -> Z^3 *)
Definition ex_d1 : dmat Z := mkm 3 3 exM.                     (* Z^3 -> Z^3 *)
Definition ex_d2 : dmat Z := mkm 1 3 [[0; 0; 0]]%Z.           (* Z^3 -> Z, zero *)
Definition ex_d3 : dmat Z := mkm 0 1 [].                      (* Z -> 0 *)

(* the rank of exM modulo 2 is 1, modulo 3 it is 2, modulo 5 it is 3 - for ANY Smith-type form over F_p *)
Example C07_uct_example_rank :
  (forall rp c, smith_form (SNF.fp_ring 2) 3 3 (redp 2 (lget Z_ring exM)) rp c -> rp = 1) /\
  (forall rp c, smith_form (SNF.fp_ring 3) 3 3 (redp 3 (lget Z_ring exM)) rp c -> rp = 2) /\
  (forall rp c, smith_form (SNF.fp_ring 5) 3 3 (redp 5 (lget Z_ring exM)) rp c -> rp = 3).
Proof.
  assert (W : wf 3 3 exM) by (split; [reflexivity|repeat constructor]).
  destruct (Yui.Proofs.C09Elim.Z_snf_total 3 3 exM false false false false W) as [res [E HS]].
  vm_compute in E. injection E as <-.
  assert (P5 : prime 5%Z).
  { apply prime_intro; [lia|]. intros n Hn.
    assert (C : (n = 1 \/ n = 2 \/ n = 3 \/ n = 4)%Z) by lia.
    destruct C as [-> | [-> | [-> | ->]]]; apply Zgcd_1_rel_prime; reflexivity. }
  split; [|split]; intros rp c F.
  - exact (Yui.Proofs.C09UniqueCor.snf_modp_rank 2 prime_2 None 3 3 exM false false false false _ rp c HS F).
  - exact (Yui.Proofs.C09UniqueCor.snf_modp_rank 3 prime_3 None 3 3 exM false false false false _ rp c HS F).
  - exact (Yui.Proofs.C09UniqueCor.snf_modp_rank 5 P5 None 3 3 exM false false false false _ rp c HS F).
Qed.

Lemma ex_wf : mwf ex_d0 /\ mwf ex_d1 /\ mwf ex_d2 /\ mwf ex_d3.
Proof. repeat split; repeat constructor. Qed.

Lemma ex_zero_prod : zero_prod Z_ring ex_d0 ex_d1 /\ zero_prod Z_ring ex_d1 ex_d2 /\ zero_prod Z_ring ex_d2 ex_d3.
Proof.
  split; [|split]; intros i j Hi Hj; cbn [nr nc ex_d0 ex_d1 ex_d2 ex_d3] in Hi, Hj; try lia.
  destruct i as [|i]; [|lia]. destruct j as [|[|[|j]]]; try lia; reflexivity.
Qed.

(* 0 -> Z^3 -exM-> Z^3 -0-> Z -> 0.  In the degree of the second Z^3: H = Z/2 + Z/6 (rank 0), and the Betti number
   over F_2 is 2, over F_3 it is 1 (torsion of this degree); in the degree of the first Z^3: H = 0, but over F_2 the
   Betti number is again 2 and over F_3 it is 1 (torsion of the next degree) - whatever Smith forms are used *)
Example C07_uct_example :
  calculate Z_ring SNF.Z_is_unit (snf_adapter SNF.Z_dict) ex_d1 ex_d2 false = Some (0, [2; 6]%Z, None) /\
  calculate Z_ring SNF.Z_is_unit (snf_adapter SNF.Z_dict) ex_d0 ex_d1 false = Some (0, [], None) /\
  (forall rp1 c1 rp2 c2,
     smith_form (SNF.fp_ring 2) 3 3 (redp 2 (mget Z_ring ex_d1)) rp1 c1 ->
     smith_form (SNF.fp_ring 2) 1 3 (redp 2 (mget Z_ring ex_d2)) rp2 c2 -> 3 - rp1 - rp2 = 2) /\
  (forall rp1 c1 rp2 c2,
     smith_form (SNF.fp_ring 3) 3 3 (redp 3 (mget Z_ring ex_d1)) rp1 c1 ->
     smith_form (SNF.fp_ring 3) 1 3 (redp 3 (mget Z_ring ex_d2)) rp2 c2 -> 3 - rp1 - rp2 = 1) /\
  (forall rp1 c1 rp2 c2,
     smith_form (SNF.fp_ring 2) 3 0 (redp 2 (mget Z_ring ex_d0)) rp1 c1 ->
     smith_form (SNF.fp_ring 2) 3 3 (redp 2 (mget Z_ring ex_d1)) rp2 c2 -> 3 - rp1 - rp2 = 2) /\
  (forall rp1 c1 rp2 c2,
     smith_form (SNF.fp_ring 3) 3 0 (redp 3 (mget Z_ring ex_d0)) rp1 c1 ->
     smith_form (SNF.fp_ring 3) 3 3 (redp 3 (mget Z_ring ex_d1)) rp2 c2 -> 3 - rp1 - rp2 = 1) /\
  (* the run over F_2 / F_3 of the same code returns, with the predicted rank *)
  option_map (fun x => fst (fst x))
    (calculate (SNF.fp_ring 2) (ris_unit (SNF.ed_unit (SNF.fp_dict 2))) (snf_adapter (SNF.fp_dict 2))
               (dred 2 ex_d1) (dred 2 ex_d2) false) = Some 2 /\
  option_map (fun x => fst (fst x))
    (calculate (SNF.fp_ring 3) (ris_unit (SNF.ed_unit (SNF.fp_dict 3))) (snf_adapter (SNF.fp_dict 3))
               (dred 3 ex_d0) (dred 3 ex_d1) false) = Some 1.
Proof.
  destruct ex_wf as [W0 [W1 [W2 W3]]]. destruct ex_zero_prod as [Z01 [Z12 Z23]].
  assert (E12 : calculate Z_ring SNF.Z_is_unit (snf_adapter SNF.Z_dict) ex_d1 ex_d2 false = Some (0, [2; 6]%Z, None))
    by (vm_compute; reflexivity).
  assert (E01 : calculate Z_ring SNF.Z_is_unit (snf_adapter SNF.Z_dict) ex_d0 ex_d1 false = Some (0, [], None))
    by (vm_compute; reflexivity).
  assert (E23 : calculate Z_ring SNF.Z_is_unit (snf_adapter SNF.Z_dict) ex_d2 ex_d3 false = Some (1, [], None))
    by (vm_compute; reflexivity).
  split; [exact E12|]. split; [exact E01|].
  pose proof (fun p Hp => proj1 (mirror_uct None I p Hp ex_d1 ex_d2 ex_d3 false false _ _ _ _ _ _
                                   W1 W2 W3 Z12 Z23 E12 E23)) as A.
  pose proof (fun p Hp => proj1 (mirror_uct None I p Hp ex_d0 ex_d1 ex_d2 false false _ _ _ _ _ _
                                   W0 W1 W2 Z01 Z12 E01 E12)) as B.
  split; [intros rp1 c1 rp2 c2 F1 F2; exact (proj2 (A 2%Z prime_2 rp1 c1 rp2 c2 F1 F2))|].
  split; [intros rp1 c1 rp2 c2 F1 F2; exact (proj2 (A 3%Z prime_3 rp1 c1 rp2 c2 F1 F2))|].
  split; [intros rp1 c1 rp2 c2 F1 F2; exact (proj2 (B 2%Z prime_2 rp1 c1 rp2 c2 F1 F2))|].
  split; [intros rp1 c1 rp2 c2 F1 F2; exact (proj2 (B 3%Z prime_3 rp1 c1 rp2 c2 F1 F2))|].
  split; vm_compute; reflexivity.
Qed.

(* the Smith-type forms over F_p quantified over above exist (C09_modp_form); e.g. for exM modulo 2 *)
Example C07_uct_example_form :
  exists rp c, smith_form (SNF.fp_ring 2) 3 3 (redp 2 (lget Z_ring exM)) rp c.
Proof.
  assert (W : wf 3 3 exM) by (split; [reflexivity|repeat constructor]).
  destruct (Yui.Proofs.C09Elim.Z_snf_total 3 3 exM false false false false W) as [res [_ HS]].
  destruct (Yui.Proofs.C09Unique.spec_smith_form SNF.Z_dict 3 3 exM false false false false res HS) as [F [C _]].
  cbv zeta in F, C.
  eexists. eexists. exact (modp_smith_form 2 prime_2 3 3 _ _ _ F (proj1 (Yui.Proofs.C09Unique.Z_chain _ _) C)).
Qed.
