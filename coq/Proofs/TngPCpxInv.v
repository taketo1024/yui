(* Invariants of the elimination phase on completely delooped complexes (Model/TngComplex.v): the well-formedness
   [cpx_wf] (distinct keys, in_edges records every edge, edges raise the weight of the state by one, every edge is a
   non-zero multiple of the empty cobordism) together with d d = 0 over Z is preserved by EVERY returning eliminate step,
   hence by every sequence of them.  At the end: the boolean checker [graded_b] and [cpx_wf_check], which gets [cpx_wf] from
   the four checkers. *)
From Coq Require Import List Arith Bool ZArith Lia.
Import ListNotations.
Require Import Yui.Model.Link Yui.Model.Tng Yui.Model.TngCob Yui.Model.TngStack Yui.Model.TngComplex.
Require Import Yui.Proofs.TngPElim Yui.Proofs.TngPElimMat Yui.Proofs.TngPCpx Yui.Proofs.TngPCpxSem Yui.Proofs.TngPCpxScalar.

(* edges raise the weight by one (the homological grading) *)
Definition graded (vs : list vertex) : Prop :=
  forall k l f, edge vs k l = Some f -> key_weight l = S (key_weight k).

Lemma key_ins_In k a ks : In a (key_ins k ks) <-> a = k \/ In a ks.
Proof.
  unfold key_ins. destruct (key_mem k ks) eqn:E.
  - apply key_mem_In in E. split; [now right|]. intros [->|Hi]; assumption.
  - rewrite in_app_iff. cbn [In]. split; [intros [Hi|[<-|[]]]; auto|intros [->|Hi]; auto].
Qed.
Lemma key_del_In k a ks : In a (key_del k ks) <-> In a ks /\ a <> k.
Proof.
  unfold key_del. rewrite filter_In. split; intros [Hi Hn]; (split; [assumption|]).
  - apply negb_true_iff, key_eqb_neq in Hn. assumption.
  - apply negb_true_iff, key_eqb_neq. assumption.
Qed.

(* the in-list of a vertex after an update at k *)
Lemma vin_upd vs k g b w' : keeps_key g -> find_v (upd_v vs k g) b = Some w' ->
  exists w, find_v vs b = Some w /\ vin w' = if key_eqb b k then vin (g w) else vin w.
Proof.
  intros Kg E. rewrite find_v_upd in E by assumption. destruct (key_eqb b k); [|now exists w'].
  destruct (find_v vs b) as [w|]; [|discriminate]. injection E as <-. now exists w.
Qed.

Lemma add_edge_in_complete vs k l f vs' : add_edge vs k l f = Some vs' -> in_complete vs -> in_complete vs'.
Proof.
  intros Ea Ic. pose proof (add_edge_spec _ _ _ _ _ Ea) as (_ & _ & Ee).
  unfold add_edge in Ea. destruct (has_edge vs k l) as [[|]|]; try discriminate.
  destruct (is_nil f); [discriminate|]. destruct (has_key vs l); [|discriminate]. injection Ea as <-.
  intros a b w' g Eg Ew. rewrite Ee in Eg.
  apply vin_upd in Ew; [|now intros v]. destruct Ew as (w1 & Ew & V1).
  apply vin_upd in Ew; [|now intros v]. destruct Ew as (w & Ew & V0).
  assert (V : vin w1 = vin w) by (destruct (key_eqb b k); exact V0). cbn [set_in vin] in V1. rewrite V in V1. rewrite V1.
  destruct (key_eqb_spec b l) as [->|Nb].
  - (* the in-list of l got k *)
    apply key_ins_In. destruct (key_eqb_spec a k) as [->|Na]; [now left|right]. cbn [andb] in Eg. eapply Ic; eassumption.
  - rewrite andb_false_r in Eg. eapply Ic; eassumption.
Qed.

Lemma remove_edge_in_complete vs k l vs' f : remove_edge vs k l = Some (vs', f) -> in_complete vs -> in_complete vs'.
Proof.
  intros Er Ic. pose proof (remove_edge_spec _ _ _ _ _ Er) as (_ & _ & Ee).
  unfold remove_edge in Er. destruct (has_edge vs k l) as [[|]|]; try discriminate.
  destruct (edge vs k l) as [g0|]; [|discriminate]. destruct (has_key vs l); [|discriminate]. injection Er as <- <-.
  intros a b w' g Eg Ew. rewrite Ee in Eg.
  apply vin_upd in Ew; [|now intros v]. destruct Ew as (w1 & Ew & V1).
  apply vin_upd in Ew; [|now intros v]. destruct Ew as (w & Ew & V0).
  assert (V : vin w' = vin w1) by (destruct (key_eqb b k); exact V1). cbn [set_in vin] in V0. rewrite V, V0.
  destruct (key_eqb_spec b l) as [->|Nb].
  - (* the in-list of l lost k *)
    apply key_del_In. destruct (key_eqb_spec a k) as [->|Na]; [discriminate|]. cbn [andb] in Eg.
    split; [eapply Ic; eassumption|assumption].
  - rewrite andb_false_r in Eg. eapply Ic; eassumption.
Qed.

Lemma elim_write_in_complete s q s' : elim_write s q = Some s' -> in_complete s -> in_complete s'.
Proof.
  destruct q as [[l0 l1] f]. unfold elim_write. destruct (has_edge s l0 l1) as [he|]; [|discriminate].
  intros E Ic.
  assert (Ic1 : forall s1, (if he then option_map fst (remove_edge s l0 l1) else Some s) = Some s1 -> in_complete s1).
  { intros s1 E1. destruct he.
    - destruct (remove_edge s l0 l1) as [[s2 g]|] eqn:Er; [|discriminate]. cbn in E1. injection E1 as <-.
      eapply remove_edge_in_complete; eassumption.
    - now injection E1 as <-. }
  destruct (if he then option_map fst (remove_edge s l0 l1) else Some s) as [s1|]; [|discriminate].
  specialize (Ic1 s1 eq_refl). destruct (is_nil f).
  - now injection E as <-.
  - eapply add_edge_in_complete; eassumption.
Qed.

(* edges are only removed, in-lists only lose k *)
Definition shrinks (k : tkey) (s s' : list vertex) : Prop :=
  (forall a b f, edge s' a b = Some f -> edge s a b = Some f) /\
  (forall j w', find_v s' j = Some w' -> exists w, find_v s j = Some w /\ forall a, a <> k -> In a (vin w) -> In a (vin w')).
Lemma shrinks_refl k s : shrinks k s s.
Proof. split; [auto|]. intros j w' E. exists w'. auto. Qed.
Lemma shrinks_trans k s1 s2 s3 : shrinks k s1 s2 -> shrinks k s2 s3 -> shrinks k s1 s3.
Proof.
  intros [E1 V1] [E2 V2]. split; [auto|]. intros j w3 E. destruct (V2 j w3 E) as (w2 & F2 & I2).
  destruct (V1 j w2 F2) as (w1 & F1 & I1). exists w1. split; [assumption|]. auto.
Qed.

Lemma shrinks_del_out k s j :
  shrinks k s (upd_v s j (fun u => set_out u (del_e (vout u) k))) /\
  edge (upd_v s j (fun u => set_out u (del_e (vout u) k))) j k = None.
Proof.
  split; [split|].
  - intros a b f E. rewrite edge_upd_out in E by (now intros u). destruct (key_eqb a j); [|assumption].
    unfold edge. destruct (find_v s a) as [u|]; [|discriminate]. cbn [set_out vout] in E. rewrite find_e_del in E.
    destruct (key_eqb b k); [discriminate|assumption].
  - intros i w' E. rewrite find_v_upd in E by (now intros u). destruct (key_eqb i j).
    + destruct (find_v s i) as [w|]; [|discriminate]. cbn [option_map] in E. injection E as <-. exists w. split; [reflexivity|auto].
    + exists w'. auto.
  - rewrite edge_upd_out by (now intros u). rewrite key_eqb_refl. destruct (find_v s j) as [u|]; [|reflexivity].
    cbn [set_out vout]. rewrite find_e_del. now rewrite key_eqb_refl.
Qed.
Lemma shrinks_del_in k s l : shrinks k s (upd_v s l (fun w => set_in w (key_del k (vin w)))).
Proof.
  split.
  - intros a b f E. now rewrite edge_upd_in in E by (now intros u).
  - intros i w' E. rewrite find_v_upd in E by (now intros u). destruct (key_eqb i l).
    + destruct (find_v s i) as [w|]; [|discriminate]. cbn [option_map] in E. injection E as <-. exists w.
      split; [reflexivity|]. intros a Na Hi. cbn [set_in vin]. apply key_del_In. now split.
    + exists w'. auto.
Qed.
Lemma shrinks_del_v k s : shrinks k s (del_v s k).
Proof.
  split.
  - intros a b f E. unfold edge in *. rewrite find_v_del in E. destruct (key_eqb a k); [discriminate|assumption].
  - intros j w' E. rewrite find_v_del in E. destruct (key_eqb j k); [discriminate|]. exists w'. auto.
Qed.

Lemma remove_vertex_shrinks vs k vs' v :
  remove_vertex vs k = Some (vs', v) ->
  shrinks k vs vs' /\ find_v vs' k = None /\ forall j, In j (vin v) -> edge vs' j k = None.
Proof.
  unfold remove_vertex. destruct (find_v vs k) as [v0|] eqn:Ev; [|discriminate].
  destruct (fold_opt _ (vin v0) (del_v vs k)) as [vs2|] eqn:E2; [|discriminate].
  destruct (fold_opt _ (out_keys v0) vs2) as [vs3|] eqn:E3; [|discriminate]. intros [= <- <-].
  (* the first fold: out-entries k of the predecessors *)
  assert (R2 : shrinks k (del_v vs k) vs2 /\ forall j, In j (vin v0) -> edge vs2 j k = None).
  { revert E2. generalize (del_v vs k) as s0. induction (vin v0) as [|j js IH]; intros s0 E; cbn [fold_opt] in E.
    - injection E as <-. split; [apply shrinks_refl|intros j []].
    - destruct (has_key s0 j); [|discriminate]. destruct (shrinks_del_out k s0 j) as [Sh Nn].
      destruct (IH _ E) as [Sh2 Nn2]. split; [eapply shrinks_trans; eassumption|].
      intros i [<-|Hi]; [|now apply Nn2].
      destruct (edge vs2 j k) as [f|] eqn:Ef; [|reflexivity]. apply (proj1 Sh2) in Ef. congruence. }
  assert (R3 : shrinks k vs2 vs3).
  { revert E3. apply (fold_opt_inv (shrinks k)); [apply shrinks_refl|apply shrinks_trans|].
    intros s l s' E. destruct (has_key s l); [|discriminate]. injection E as <-. apply shrinks_del_in. }
  destruct R2 as [R2 N2]. split; [|split].
  - eapply shrinks_trans; [apply shrinks_del_v|]. eapply shrinks_trans; eassumption.
  - destruct (find_v vs3 k) as [w'|] eqn:Ew; [|reflexivity].
    destruct (proj2 (shrinks_trans _ _ _ _ R2 R3) _ _ Ew) as (w & Fw & _). rewrite find_v_del, key_eqb_refl in Fw. discriminate.
  - intros j Hj. destruct (edge vs3 j k) as [f|] eqn:Ef; [|reflexivity]. apply (proj1 R3) in Ef. rewrite (N2 j Hj) in Ef. discriminate.
Qed.

Lemma remove_vertex_in_complete vs k vs' v :
  remove_vertex vs k = Some (vs', v) -> in_complete vs ->
  in_complete vs' /\ forall a, edge vs' a k = None.
Proof.
  intros Er Ic. pose proof (remove_vertex_spec _ _ _ _ Er) as (Ev & _ & _ & _).
  destruct (remove_vertex_shrinks _ _ _ _ Er) as ([Se Sv] & Nk & Nin). split.
  - intros a b w' f Ef Ew. destruct (Sv _ _ Ew) as (w & Fw & Iw). apply Iw.
    + intros ->. unfold edge in Ef. rewrite Nk in Ef. discriminate.
    + eapply Ic; [apply Se; eassumption|assumption].
  - intros a. destruct (edge vs' a k) as [f|] eqn:Ef; [|reflexivity].
    pose proof (Se _ _ _ Ef) as Ef0. pose proof (Ic _ _ _ _ Ef0 Ev) as Hi. rewrite (Nin a Hi) in Ef. discriminate.
Qed.

Record cpx_wf (vs : list vertex) : Prop := mk_cpx_wf {
  wf_nodup : NoDup (map vkey vs);
  wf_in : in_complete vs;
  wf_graded : graded vs;
  wf_scalar : typed ty_scalar vs;
}.
Definition cpx_dd (vs : list vertex) : Prop :=
  forall x y, In x (map vkey vs) -> In y (map vkey vs) ->
    zsum (map vkey vs) (fun m => zentry vs m y * zentry vs x m)%Z = 0%Z.

Lemma eliminate_in_complete c k0 k1 c' :
  cpx_eliminate c k0 k1 = Some c' -> in_complete (c_verts c) ->
  in_complete (c_verts c') /\ (forall a, edge (c_verts c') a k0 = None) /\ (forall a, edge (c_verts c') a k1 = None).
Proof.
  unfold cpx_eliminate. destruct (edge (c_verts c) k0 k1) as [a|]; [|discriminate].
  destruct (lc_inv a) as [[ainv|]|]; try discriminate.
  destruct (find_v (c_verts c) k1) as [v1|]; [|discriminate].
  destruct (find_v (c_verts c) k0) as [v0|]; [|discriminate].
  destruct (map_opt _ _) as [values|]; [|discriminate].
  match goal with |- context [@fold_opt ?A ?S ?f values ?s0] =>
    destruct (@fold_opt A S f values s0) as [vs1|] eqn:Efold; [|discriminate] end.
  change (fold_opt elim_write values (c_verts c) = Some vs1) in Efold.
  destruct (remove_vertex vs1 k0) as [[vs2 u0]|] eqn:Er0; [|discriminate].
  destruct (remove_vertex vs2 k1) as [[vs3 u1]|] eqn:Er1; [|discriminate]. intros [= <-] Ic. cbn [c_verts set_verts].
  assert (Ic1 : in_complete vs1).
  { revert Ic. revert Efold. generalize (c_verts c) as s0. induction values as [|q values IH]; intros s0 E Ic; cbn [fold_opt] in E.
    - now injection E as <-.
    - destruct (elim_write s0 q) as [s1|] eqn:Ew; [|discriminate]. eapply IH; [eassumption|].
      eapply elim_write_in_complete; eassumption. }
  destruct (remove_vertex_in_complete _ _ _ _ Er0 Ic1) as [Ic2 N0].
  destruct (remove_vertex_in_complete _ _ _ _ Er1 Ic2) as [Ic3 N1].
  split; [assumption|]. split; [|assumption].
  intros x. destruct (edge vs3 x k0) as [f|] eqn:Ef; [|reflexivity].
  destruct (remove_vertex_shrinks _ _ _ _ Er1) as ([Se _] & _ & _). apply Se in Ef. rewrite N0 in Ef. discriminate.
Qed.

Theorem eliminate_wf c k0 k1 c' :
  cpx_eliminate c k0 k1 = Some c' -> cpx_wf (c_verts c) -> cpx_wf (c_verts c').
Proof.
  intros El [Nd Ic Gr Sc].
  destruct (eliminate_in_complete _ _ _ _ El Ic) as (Ic' & D0 & D1).
  destruct (eliminate_scalar c k0 k1 c' Sc Ic El) as (a & ainv & Ea & Einv & _ & _ & Hsc).
  pose proof (eliminate_spec _ _ _ _ El) as (a2 & ainv2 & v0 & v1 & Ea2 & Einv2 & Ev0 & Ev1 & _ & _ & _ & _ & _ & Hk & Ht & Hed & Hval).
  (* an edge of c' joins two remaining vertices *)
  assert (Rem : forall l0 l1 f, edge (c_verts c') l0 l1 = Some f -> l0 <> k0 /\ l0 <> k1 /\ l1 <> k0 /\ l1 <> k1).
  { intros l0 l1 f Ef.
    assert (Nf : forall k, (k = k0 \/ k = k1) -> find_v (c_verts c') k = None).
    { intros k Hkk. specialize (Ht k). destruct Hkk as [-> | ->]; rewrite key_eqb_refl in Ht; rewrite ?orb_true_r in Ht;
        cbn [orb] in Ht; now destruct (find_v (c_verts c') _). }
    repeat split; intros ->.
    - unfold edge in Ef. rewrite (Nf k0) in Ef by now left. discriminate.
    - unfold edge in Ef. rewrite (Nf k1) in Ef by now right. discriminate.
    - rewrite D0 in Ef. discriminate.
    - rewrite D1 in Ef. discriminate. }
  constructor.
  - eapply eliminate_nodup; eassumption.
  - exact Ic'.
  - intros l0 l1 f Ef. destruct (Rem _ _ _ Ef) as (N00 & N01 & N10 & N11). rewrite Hed in Ef by assumption.
    destruct (key_mem l0 (elim_ins k0 v1) && key_mem l1 (elim_outs k1 v0)) eqn:Hm; [|eapply Gr; eassumption].
    destruct (Hval l0 l1 Hm) as [g Eg]. unfold elim_value in Eg.
    destruct (edge (c_verts c) l0 k1) as [b|] eqn:Eb; [|discriminate].
    destruct (edge (c_verts c) k0 l1) as [c0|] eqn:Ec; [|discriminate].
    apply Gr in Eb, Ec, Ea2. lia.
  - intros l0 l1 f Ef. destruct (Rem _ _ _ Ef) as (N00 & N01 & N10 & N11). exact (Hsc l0 l1 f N00 N01 N10 N11 Ef).
Qed.

Theorem eliminate_wf_dd c k0 k1 c' :
  cpx_eliminate c k0 k1 = Some c' -> cpx_wf (c_verts c) -> cpx_dd (c_verts c) ->
  cpx_wf (c_verts c') /\ cpx_dd (c_verts c').
Proof.
  intros El Wf Dd. split; [eapply eliminate_wf; eassumption|].
  exact (eliminate_dd_scalar c k0 k1 c' (wf_scalar _ Wf) (wf_in _ Wf) El Dd).
Qed.

(* any sequence of eliminate steps *)
Fixpoint eliminate_all (c : cpx) (steps : list (tkey * tkey)) : option cpx :=
  match steps with
  | [] => Some c
  | (k0, k1) :: r => match cpx_eliminate c k0 k1 with None => None | Some c1 => eliminate_all c1 r end
  end.

Theorem eliminate_all_wf_dd steps : forall c c',
  eliminate_all c steps = Some c' -> cpx_wf (c_verts c) -> cpx_dd (c_verts c) ->
  cpx_wf (c_verts c') /\ cpx_dd (c_verts c').
Proof.
  induction steps as [|[k0 k1] r IH]; intros c c' E Wf Dd; cbn [eliminate_all] in E.
  - injection E as <-. now split.
  - destruct (cpx_eliminate c k0 k1) as [c1|] eqn:E1; [|discriminate].
    destruct (eliminate_wf_dd _ _ _ _ E1 Wf Dd) as [Wf1 Dd1]. eapply IH; eassumption.
Qed.

Definition graded_b (vs : list vertex) : bool :=
  forallb (fun v => forallb (fun e : tkey * lccob => key_weight (fst e) =? S (key_weight (vkey v))) (vout v)) vs.
Lemma graded_b_sound vs : graded_b vs = true -> graded vs.
Proof.
  intros E k l f Ee. unfold edge in Ee. destruct (find_v vs k) as [u|] eqn:Eu; [|discriminate].
  destruct (find_v_some _ _ _ Eu) as [Hu Hk]. apply find_e_some in Ee.
  unfold graded_b in E. rewrite forallb_forall in E. specialize (E u Hu). rewrite forallb_forall in E.
  specialize (E (l, f) Ee). cbn [fst] in E. apply Nat.eqb_eq in E. now rewrite <- Hk.
Qed.
Lemma cpx_wf_check c :
  nodup_b (map vkey (c_verts c)) = true -> cpx_validate c = Some true -> graded_b (c_verts c) = true ->
  cpx_scalar_b (c_verts c) = true -> cpx_wf (c_verts c).
Proof.
  intros E1 E2 E3 E4. constructor.
  - now apply nodup_b_sound.
  - now apply validate_in_complete.
  - now apply graded_b_sound.
  - now apply cpx_scalar_b_sound.
Qed.
