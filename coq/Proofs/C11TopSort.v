(* C11 - Kahn's algorithm (top_sort mirror): on a finite graph with a rank function it returns every
   vertex, predecessors first; fuel suffices and no weight underflows. *)
From Coq Require Import List Bool Arith Lia Permutation.
Require Import Yui.Model.Pivot Yui.Proofs.C11Base.
Require Import Yui.Base.ListFacts.
Import ListNotations.

Lemma count_nat_app : forall v l1 l2, count_nat v (l1 ++ l2) = count_nat v l1 + count_nat v l2.
Proof. intros v l1 l2. induction l1 as [|x r IH]; cbn [count_nat app]; [reflexivity | rewrite IH; lia]. Qed.

Lemma count_nat_pos : forall v l, 0 < count_nat v l <-> In v l.
Proof.
  intros v l. induction l as [|x r IH]; cbn [count_nat In]; [split; [lia | intros []]|].
  destruct (v =? x) eqn:E.
  - apply Nat.eqb_eq in E. subst. split; [intros _; left; reflexivity | lia].
  - apply Nat.eqb_neq in E. rewrite <- IH. split; [intros H; right; lia | intros [H|H]; [exfalso; apply E; symmetry; exact H | lia]].
Qed.

Lemma count_nat_perm : forall v l l', Permutation l l' -> count_nat v l = count_nat v l'.
Proof.
  intros v l l' H. induction H; cbn [count_nat]; try lia.
Qed.

(* the complement of a duplicate-free sublist *)
Lemma split_perm : forall (V S : list nat), NoDup V -> NoDup S -> incl S V ->
  Permutation V (S ++ filter (fun x => negb (memb x S)) V).
Proof.
  intros V S HV HS Hinc. apply NoDup_Permutation; [exact HV | |].
  - apply NoDup_app_intro; [exact HS | apply NoDup_filter; exact HV |].
    intros x Hx Hf. apply filter_In in Hf. destruct Hf as [_ Hf]. apply negb_true_iff in Hf.
    apply memb_false in Hf. apply Hf. exact Hx.
  - intros x. rewrite in_app_iff, filter_In. split.
    + intros Hx. destruct (memb x S) eqn:E; [left; apply memb_In; exact E | right; split; [exact Hx | reflexivity]].
    + intros [Hx|[Hx _]]; [apply Hinc; exact Hx | exact Hx].
Qed.

Lemma min_rank : forall (f : nat -> nat) (l : list nat), l <> [] -> exists x, In x l /\ forall y, In y l -> f x <= f y.
Proof.
  intros f l. induction l as [|a r IH]; intros Hne; [exfalso; apply Hne; reflexivity|].
  destruct r as [|b r'].
  - exists a. split; [left; reflexivity | intros y [Hy|[]]; subst; lia].
  - destruct IH as [x [Hx Hmin]]; [discriminate|].
    destruct (Nat.le_gt_cases (f a) (f x)) as [Hle|Hgt].
    + exists a. split; [left; reflexivity|]. intros y [Hy|Hy]; [subst; lia | specialize (Hmin y Hy); lia].
    + exists x. split; [right; exact Hx|]. intros y [Hy|Hy]; [subst; lia | apply Hmin; exact Hy].
Qed.

Section Kahn.
Variable tree : list (nat * list nat).
Let V := map fst tree.
Let data := tree_get tree.
Hypothesis HV : NoDup V.
Hypothesis Htgt : forall a b, In a V -> In b (data a) -> In b V.
Variable rk : nat -> nat.
Hypothesis Hrk : forall a b, In a V -> In b (data a) -> rk a < rk b.

Definition inflow (S : list nat) (v : nat) : nat := count_nat v (flat_map data S).

Lemma inflow_cons : forall a S v, inflow (a :: S) v = count_nat v (data a) + inflow S v.
Proof. intros a S v. unfold inflow. cbn [flat_map]. apply count_nat_app. Qed.

Lemma inflow_app : forall S S' v, inflow (S ++ S') v = inflow S v + inflow S' v.
Proof. intros S S' v. unfold inflow. rewrite flat_map_app. apply count_nat_app. Qed.

Lemma inflow_perm : forall S S' v, Permutation S S' -> inflow S v = inflow S' v.
Proof.
  intros S S' v H. induction H.
  - reflexivity.
  - rewrite !inflow_cons. lia.
  - rewrite !inflow_cons. lia.
  - lia.
Qed.

Lemma inflow_pos : forall S v, 0 < inflow S v -> exists a, In a S /\ In v (data a).
Proof.
  intros S v H. unfold inflow in H. apply count_nat_pos in H. apply in_flat_map in H. exact H.
Qed.

Definition rest (S : list nat) : list nat := filter (fun x => negb (memb x S)) V.

Lemma inflow_split : forall S v, NoDup S -> incl S V -> inflow V v = inflow S v + inflow (rest S) v.
Proof.
  intros S v HS Hinc. rewrite (inflow_perm V (S ++ rest S) v (split_perm V S HV HS Hinc)). apply inflow_app.
Qed.

Lemma rest_In : forall S x, In x (rest S) <-> In x V /\ ~ In x S.
Proof.
  intros S x. unfold rest. rewrite filter_In, negb_true_iff, memb_false. reflexivity.
Qed.

Lemma tree_get_head : forall k l r, tree_get ((k, l) :: r) k = l.
Proof. intros k l r. unfold tree_get. cbn [find fst]. rewrite Nat.eqb_refl. reflexivity. Qed.

(* flat_map snd tree = flat_map data V *)
Lemma targets_eq : forall t, NoDup (map fst t) -> flat_map snd t = flat_map (tree_get t) (map fst t).
Proof.
  induction t as [|[k l] r IH]; intros Hnd; [reflexivity|].
  cbn [map fst flat_map snd]. rewrite tree_get_head. f_equal.
  cbn [map fst] in Hnd. inversion Hnd as [|? ? Hk Hr]; subst. rewrite (IH Hr).
  apply flat_map_ext_in. intros a Ha. unfold tree_get. cbn [find fst].
  destruct (k =? a) eqn:E; [|reflexivity]. apply Nat.eqb_eq in E. subst. exfalso. apply Hk. exact Ha.
Qed.

(* newest first: every predecessor of an entry occurs later in the list (was popped earlier) *)
Fixpoint tsorted (res : list nat) : Prop :=
  match res with
  | [] => True
  | b :: r => (forall a, In a V -> In b (data a) -> In a r) /\ tsorted r
  end.

Record Kinv (w : nat -> nat) (queue res : list nat) : Prop := mk_Kinv {
  k_nd : NoDup (res ++ queue);
  k_sub : incl (res ++ queue) V;
  k_w : forall v, w v + inflow res v = inflow V v;
  k_q : forall v, In v V -> (In v queue <-> (w v = 0 /\ ~ In v res));
  k_res0 : forall v, In v res -> w v = 0;
  k_sorted : tsorted res
}.

(* the inner loop over the successors of the popped vertex i *)
Lemma relax_spec : forall i res suf pre w q,
  data i = pre ++ suf -> In i V ->
  NoDup ((i :: res) ++ q) -> incl ((i :: res) ++ q) V ->
  (forall v, w v + inflow res v + count_nat v pre = inflow V v) ->
  (forall v, In v V -> (In v q <-> (w v = 0 /\ ~ In v (i :: res)))) ->
  (forall v, In v (i :: res) -> w v = 0) ->
  exists w' q', kahn_relax suf (w, q) = Some (w', q') /\
    NoDup ((i :: res) ++ q') /\ incl ((i :: res) ++ q') V /\
    (forall v, w' v + inflow (i :: res) v = inflow V v) /\
    (forall v, In v V -> (In v q' <-> (w' v = 0 /\ ~ In v (i :: res)))) /\
    (forall v, In v (i :: res) -> w' v = 0).
Proof.
  intros i res suf. induction suf as [|j suf IH]; intros pre w q Hd Hi Hnd Hsub Hw Hq H0.
  - cbn [kahn_relax]. exists w, q. splits; auto. intros v. rewrite inflow_cons, Hd, app_nil_r. specialize (Hw v). lia.
  - cbn [kahn_relax].
    destruct (NoDup_app_inv _ _ Hnd) as [Hnd1 [Hnd2 Hdis]].
    assert (Hinc1 : incl (i :: res) V) by (intros x Hx; apply Hsub; apply in_or_app; left; exact Hx).
    assert (Hjd : In j (data i)) by (rewrite Hd; apply in_or_app; right; left; reflexivity).
    assert (HjV : In j V) by (eapply Htgt; eassumption).
    (* the weight of j is positive *)
    assert (Hpos : 1 <= w j).
    { pose proof (inflow_split (i :: res) j Hnd1 Hinc1) as Hs. rewrite inflow_cons in Hs.
      rewrite Hd in Hs. rewrite count_nat_app in Hs. cbn [count_nat] in Hs. rewrite Nat.eqb_refl in Hs.
      specialize (Hw j). lia. }
    destruct (w j) as [|k] eqn:Ewj; [lia|].
    assert (Hjnot : ~ In j (i :: res)) by (intros H; apply H0 in H; lia).
    assert (Hjq : ~ In j q) by (intros H; apply (Hq j HjV) in H; lia).
    apply (IH (pre ++ [j])).
    + rewrite <- app_assoc. exact Hd.
    + exact Hi.
    + destruct (k =? 0); [|exact Hnd]. rewrite app_assoc. apply NoDup_snoc; [exact Hnd|].
      intros H. apply in_app_or in H. destruct H as [H|H]; [apply Hjnot; exact H | apply Hjq; exact H].
    + destruct (k =? 0); [|exact Hsub]. rewrite app_assoc. intros x Hx. apply in_app_or in Hx.
      destruct Hx as [Hx|[Hx|[]]]; [apply Hsub; exact Hx | subst; exact HjV].
    + intros v. unfold wt_upd. rewrite count_nat_app. cbn [count_nat]. specialize (Hw v).
      destruct (v =? j) eqn:E.
      * apply Nat.eqb_eq in E. subst v. rewrite Ewj in Hw. lia.
      * lia.
    + intros v Hv. unfold wt_upd. destruct (v =? j) eqn:E.
      * apply Nat.eqb_eq in E. subst v. destruct (k =? 0) eqn:Ek.
        -- apply Nat.eqb_eq in Ek. subst k. split; [intros _; split; [reflexivity | exact Hjnot]|].
           intros _. apply in_or_app. right. left. reflexivity.
        -- apply Nat.eqb_neq in Ek. split; [intros H; exfalso; apply Hjq; exact H | intros [H _]; lia].
      * apply Nat.eqb_neq in E. rewrite <- (Hq v Hv). destruct (k =? 0); [|reflexivity].
        rewrite in_app_iff. cbn [In]. split; [intros [H|[H|[]]]; [exact H | exfalso; apply E; symmetry; exact H] | intros H; left; exact H].
    + intros v Hv. unfold wt_upd. destruct (v =? j) eqn:E; [|apply H0; exact Hv].
      apply Nat.eqb_eq in E. subst v. exfalso. apply Hjnot. exact Hv.
Qed.

Lemma tsorted_push : forall w i q res, Kinv w (i :: q) res -> forall a, In a V -> In i (data a) -> In a res.
Proof.
  intros w i q res K a Ha Hia.
  destruct (NoDup_app_inv _ _ (k_nd _ _ _ K)) as [Hnd1 [Hnd2 Hdis]].
  assert (Hinc : incl res V) by (intros x Hx; apply (k_sub _ _ _ K); apply in_or_app; left; exact Hx).
  assert (HiV : In i V) by (apply (k_sub _ _ _ K); apply in_or_app; right; left; reflexivity).
  assert (Hwi : w i = 0) by (apply (k_q _ _ _ K i HiV); left; reflexivity).
  destruct (in_dec Nat.eq_dec a res) as [Hin|Hnin]; [exact Hin|]. exfalso.
  pose proof (inflow_split res i Hnd1 Hinc) as Hs. pose proof (k_w _ _ _ K i) as Hw.
  assert (Hpos : 0 < inflow (rest res) i).
  { unfold inflow. apply count_nat_pos. apply in_flat_map. exists a. split; [apply rest_In; split; assumption | exact Hia]. }
  lia.
Qed.

Lemma kahn_loop_spec : forall fuel w queue res, Kinv w queue res -> length V - length res < fuel ->
  exists ord, kahn_loop fuel tree w queue res = Some ord /\ Permutation ord V /\ tsorted (rev ord).
Proof.
  induction fuel as [|f IH]; intros w queue res K Hf; [lia|].
  cbn [kahn_loop]. destruct queue as [|i q].
  - (* queue empty: every vertex has been popped *)
    exists (rev res). split; [reflexivity|]. rewrite rev_involutive. split; [|apply (k_sorted _ _ _ K)].
    pose proof (k_nd _ _ _ K) as Hnd. pose proof (k_sub _ _ _ K) as Hsub.
    rewrite app_nil_r in Hnd, Hsub.
    assert (Hall : forall v, In v V -> In v res).
    { intros v0 Hv0. destruct (in_dec Nat.eq_dec v0 res) as [Hin|Hnin]; [exact Hin|]. exfalso.
      assert (Hne : rest res <> []).
      { intros E. assert (H : In v0 (rest res)) by (apply rest_In; split; assumption). rewrite E in H. destruct H. }
      destruct (min_rank rk (rest res) Hne) as [v [Hv Hmin]]. apply rest_In in Hv. destruct Hv as [HvV Hvr].
      assert (Hwv : w v <> 0).
      { intros E. assert (H : In v []) by (apply (k_q _ _ _ K v HvV); split; assumption). destruct H. }
      pose proof (inflow_split res v Hnd Hsub) as Hs. pose proof (k_w _ _ _ K v) as Hw.
      assert (Hpos : 0 < inflow (rest res) v) by lia.
      destruct (inflow_pos _ _ Hpos) as [a [Ha Hva]]. pose proof (Hmin a Ha) as Hle.
      apply rest_In in Ha. destruct Ha as [HaV _]. pose proof (Hrk a v HaV Hva). lia. }
    apply Permutation_trans with res; [apply Permutation_sym, Permutation_rev|].
    apply NoDup_Permutation; [exact Hnd | exact HV |]. intros x. split; [apply Hsub | apply Hall].
  - (* pop i *)
    pose proof (k_nd _ _ _ K) as Hnd. pose proof (k_sub _ _ _ K) as Hsub.
    assert (HiV : In i V) by (apply Hsub; apply in_or_app; right; left; reflexivity).
    assert (Hperm : Permutation (res ++ i :: q) ((i :: res) ++ q)).
    { cbn [app]. apply Permutation_sym, Permutation_middle. }
    destruct (relax_spec i res (data i) [] w q) as [w' [q' [E [R1 [R2 [R3 [R4 R5]]]]]]].
    + reflexivity.
    + exact HiV.
    + eapply Permutation_NoDup; [exact Hperm | exact Hnd].
    + intros x Hx. apply Hsub. eapply Permutation_in; [apply Permutation_sym; exact Hperm | exact Hx].
    + intros v. cbn [count_nat]. pose proof (k_w _ _ _ K v). lia.
    + intros v Hv. pose proof (k_q _ _ _ K v Hv) as Hq. cbn [In] in *.
      destruct (NoDup_app_inv _ _ Hnd) as [_ [Hndq _]]. inversion Hndq as [|? ? Hiq _]; subst.
      split.
      * intros Hin. assert (H : w v = 0 /\ ~ In v res) by (apply Hq; right; exact Hin). destruct H as [H1 H2].
        split; [exact H1|]. intros [H|H]; [subst; apply Hiq; exact Hin | apply H2; exact H].
      * intros [H1 H2]. assert (H : i = v \/ In v q) by (apply Hq; split; [exact H1 | intros H; apply H2; right; exact H]).
        destruct H as [H|H]; [exfalso; apply H2; left; exact H | exact H].
    + intros v [Hv|Hv]; [subst; apply (k_q _ _ _ K v HiV); left; reflexivity | apply (k_res0 _ _ _ K); exact Hv].
    + unfold data in E. rewrite E.
      assert (K' : Kinv w' q' (i :: res)).
      { constructor; auto. cbn [tsorted]. split; [apply (tsorted_push w i q res K) | apply (k_sorted _ _ _ K)]. }
      apply IH; [exact K'|].
      destruct (NoDup_app_inv _ _ R1) as [Hnd1 _].
      assert (Hinc1 : incl (i :: res) V) by (intros x Hx; apply R2; apply in_or_app; left; exact Hx).
      pose proof (NoDup_incl_length Hnd1 Hinc1) as Hlen. cbn [length] in *. lia.
Qed.

(* a valid topological order: a permutation of the vertices with predecessors first *)
Theorem top_sort_spec : forall keys, Permutation keys V ->
  exists ord, top_sort keys tree = Some ord /\ Permutation ord V /\ tsorted (rev ord).
Proof.
  intros keys Hk. unfold top_sort. cbv zeta.
  assert (Htargets : forall v, In v (flat_map snd tree) -> In v V).
  { intros v Hv. rewrite (targets_eq tree HV) in Hv. apply in_flat_map in Hv. destruct Hv as [a [Ha Hv]].
    eapply Htgt; eassumption. }
  assert (Hfa : forallb (fun v => memb v (map fst tree)) (flat_map snd tree) = true).
  { apply forallb_forall. intros v Hv. apply memb_In. apply Htargets. exact Hv. }
  rewrite Hfa. cbn [negb].
  set (w0 := fun v => count_nat v (flat_map snd tree)).
  change (filter (fun v : nat => count_nat v (flat_map snd tree) =? 0) keys) with (filter (fun v => w0 v =? 0) keys).
  assert (Hw0 : forall v, w0 v = inflow V v).
  { intros v. unfold w0, inflow. rewrite (targets_eq tree HV). reflexivity. }
  assert (K : Kinv w0 (filter (fun v => w0 v =? 0) keys) []).
  { assert (Hndk : NoDup keys) by (eapply Permutation_NoDup; [apply Permutation_sym; exact Hk | exact HV]).
    constructor; cbn [app].
    - apply NoDup_filter. exact Hndk.
    - intros x Hx. apply filter_In in Hx. eapply Permutation_in; [exact Hk | apply Hx].
    - intros v. rewrite Hw0. unfold inflow at 2. cbn [flat_map count_nat]. lia.
    - intros v Hv. rewrite filter_In, Nat.eqb_eq. split.
      + intros [_ H]. split; [exact H | intros []].
      + intros [H _]. split; [eapply Permutation_in; [apply Permutation_sym; exact Hk | exact Hv] | exact H].
    - intros v [].
    - exact I. }
  destruct (kahn_loop_spec (S (length keys + length (flat_map snd tree))) w0 _ [] K) as [ord [E [Hp Hs]]].
  { cbn [length]. rewrite (Permutation_length Hk). lia. }
  rewrite E. exists ord. rewrite (Permutation_length Hp).
  assert (Hlen : length V = length tree) by (unfold V; apply map_length).
  rewrite Hlen, Nat.ltb_irrefl. splits; auto.
Qed.

End Kahn.
