(* Ratio against Q of the standard library: exactness of every operation (Qeq), the order is
   Qcompare, all finite histories, and the machine-width instances never wrap (whatever Ratio<i64>
   returns, Ratio<BigInt> returns too). *)
From Coq Require Import ZArith QArith Qabs Bool Lia List.
Require Import Yui.Model.Ints Yui.Model.Ratio Yui.Proofs.C14Ints Yui.Proofs.C14Ratio.
Import ListNotations.
Open Scope Z_scope.

Lemma val_den r : 0 < denom r -> Z.pos (Qden (rt_val r)) = denom r.
Proof. intros H. unfold rt_val. cbn [Qden]. now apply Z2Pos.id. Qed.

Lemma val_num r : Qnum (rt_val r) = numer r.
Proof. reflexivity. Qed.

Lemma val_req x y : 0 < denom x -> 0 < denom y -> (rt_val x == rt_val y)%Q <-> Req x y.
Proof.
  intros Hx Hy. unfold Qeq. rewrite !val_den, !val_num by auto. unfold Req. tauto.
Qed.

(* two canonical values that denote the same rational number are identical *)
Lemma canon_val_inj x y : Canon x -> Canon y -> (rt_val x == rt_val y)%Q -> x = y.
Proof.
  intros Hx Hy E. apply canon_unique; auto. apply val_req; auto; [apply Hx|apply Hy].
Qed.

Lemma canon_eq_iff x y : Canon x -> Canon y -> (rt_eqb x y = true <-> (rt_val x == rt_val y)%Q).
Proof.
  intros Hx Hy. rewrite rt_eqb_eq. split; [intros ->; reflexivity|now apply canon_val_inj].
Qed.

(* n / d as a rational: characterisation by cross-multiplication *)
Lemma qfrac_spec r n d : 0 < denom r -> d <> 0 ->
  ((rt_val r == qfrac n d)%Q <-> numer r * d = n * denom r).
Proof.
  intros Hr Hd. unfold qfrac, Qdiv, Qinv, inject_Z. cbn [Qnum Qden].
  destruct d as [|p|p]; [contradiction| |]; unfold Qeq, Qmult; cbn [Qnum Qden];
    rewrite val_den, val_num by auto; rewrite ?Pos.mul_1_l.
  - rewrite Z.mul_1_r. tauto.
  - change (Z.neg p) with (- Z.pos p). split; intros H; nia.
Qed.

Lemma val_from_int a : (rt_val (rt_from_int a) == inject_Z a)%Q.
Proof. reflexivity. Qed.

Lemma new_exact n d : d <> 0 ->
  exists r, rt_new Big n d = Some r /\ Canon r /\ (rt_val r == qfrac n d)%Q.
Proof.
  intros Hd. destruct (new_spec n d Hd) as (r & Hr & Hc & He). exists r. repeat split; try apply Hc; auto.
  apply qfrac_spec; auto. apply Hc.
Qed.

Lemma add_exact x y : Canon x -> Canon y ->
  exists r, rt_add Big x y = Some r /\ Canon r /\ (rt_val r == rt_val x + rt_val y)%Q.
Proof.
  intros Hx Hy. destruct (add_spec x y Hx Hy) as (r & Hr & Hc & He).
  exists r. split; [exact Hr|split; [exact Hc|]].
  destruct Hx as [Hx _], Hy as [Hy _], Hc as [Hc _].
  unfold Qeq, Qplus. cbn [Qnum Qden]. rewrite Pos2Z.inj_mul, !val_den, !val_num by auto. exact He.
Qed.

Lemma sub_exact x y : Canon x -> Canon y ->
  exists r, rt_sub Big x y = Some r /\ Canon r /\ (rt_val r == rt_val x - rt_val y)%Q.
Proof.
  intros Hx Hy. destruct (sub_spec x y Hx Hy) as (r & Hr & Hc & He).
  exists r. split; [exact Hr|split; [exact Hc|]].
  destruct Hx as [Hx _], Hy as [Hy _], Hc as [Hc _].
  unfold Qeq, Qminus, Qplus, Qopp. cbn [Qnum Qden]. rewrite Pos2Z.inj_mul, !val_den, !val_num by auto.
  rewrite He. ring.
Qed.

Lemma mul_exact x y : Canon x -> Canon y ->
  exists r, rt_mul Big x y = Some r /\ Canon r /\ (rt_val r == rt_val x * rt_val y)%Q.
Proof.
  intros Hx Hy. destruct (mul_spec x y Hx Hy) as (r & Hr & Hc & He).
  exists r. split; [exact Hr|split; [exact Hc|]].
  destruct Hx as [Hx _], Hy as [Hy _], Hc as [Hc _].
  unfold Qeq, Qmult. cbn [Qnum Qden]. rewrite Pos2Z.inj_mul, !val_den, !val_num by auto. exact He.
Qed.

Lemma neg_exact x : Canon x ->
  exists r, rt_neg Big x = Some r /\ Canon r /\ (rt_val r == - rt_val x)%Q.
Proof.
  intros Hx. destruct (neg_spec x Hx) as [Hr Hc]. exists (mkR (- numer x) (denom x)).
  repeat split; try apply Hc; auto.
Qed.

Lemma qinv_cross (q r : Q) : Qnum q <> 0 -> Qnum r * Qnum q = Z.pos (Qden q) * Z.pos (Qden r) -> (r == / q)%Q.
Proof.
  destruct q as [a b], r as [c d]. cbn [Qnum Qden]. intros Ha H.
  unfold Qeq, Qinv. cbn [Qnum Qden]. destruct a as [|p|p]; [contradiction| |]; cbn [Qnum Qden].
  - lia.
  - change (Z.neg b) with (- Z.pos b). change (Z.neg p) with (- Z.pos p) in H. nia.
Qed.

Lemma inv_exact x : Canon x -> numer x <> 0 ->
  exists r, rt_inv Big x = Some (Some r) /\ Canon r /\ (rt_val r == / rt_val x)%Q.
Proof.
  intros Hx Hn. destruct (inv_spec x Hx Hn) as (r & Hr & Hc & He).
  exists r. split; [exact Hr|split; [exact Hc|]].
  apply qinv_cross; [exact Hn|]. rewrite !val_den, !val_num; [exact He|apply Hc|apply Hx].
Qed.

Lemma val_nonzero x : numer x <> 0 -> ~ (rt_val x == 0)%Q.
Proof. intros H E. unfold Qeq in E. cbn in E. lia. Qed.

Lemma div_exact x y : Canon x -> Canon y -> numer y <> 0 ->
  exists r, rt_div Big x y = Some r /\ Canon r /\ (rt_val r == rt_val x / rt_val y)%Q.
Proof.
  intros Hx Hy Hn. unfold rt_div. unfold rt_is_zero at 1. unfold iis_zero.
  apply Z.eqb_neq in Hn as Hn'. rewrite Hn'.
  destruct (inv_exact y Hy Hn) as (i & Hi & Hci & Hei). rewrite Hi. cbn [obind].
  destruct (mul_exact x i Hx Hci) as (r & Hr & Hc & He). exists r. repeat split; try apply Hc; auto.
  rewrite He, Hei. reflexivity.
Qed.

Lemma abs_exact x : Canon x ->
  exists r, rt_abs Big x = Some r /\ Canon r /\ (rt_val r == Qabs (rt_val x))%Q.
Proof.
  intros Hx. destruct (abs_spec x Hx) as [Hr Hc]. exists (mkR (Z.abs (numer x)) (denom x)).
  repeat split; try apply Hc; auto.
Qed.

Lemma cmp_exact x y : 0 < denom x -> 0 < denom y ->
  rt_cmp Big x y = Some (rt_val x ?= rt_val y)%Q.
Proof.
  intros Hx Hy. rewrite cmp_big. unfold Qcompare. now rewrite !val_den, !val_num.
Qed.

Lemma cmp_eq_iff x y : Canon x -> Canon y -> (rt_cmp Big x y = Some Eq <-> x = y).
Proof.
  intros Hx Hy. rewrite cmp_exact by (apply Hx || apply Hy). split.
  - intros H. inversion H as [H1]. apply Qeq_alt in H1. now apply canon_val_inj.
  - intros ->. f_equal. apply Qeq_alt. reflexivity.
Qed.

Lemma cmp_lt_iff x y : 0 < denom x -> 0 < denom y -> (rt_cmp Big x y = Some Lt <-> (rt_val x < rt_val y)%Q).
Proof.
  intros Hx Hy. rewrite cmp_exact by auto. rewrite Qlt_alt. split; [intros H; now inversion H|now intros ->].
Qed.

Lemma cmp_gt_iff x y : 0 < denom x -> 0 < denom y -> (rt_cmp Big x y = Some Gt <-> (rt_val y < rt_val x)%Q).
Proof.
  intros Hx Hy. rewrite cmp_exact by auto. rewrite Qgt_alt. split; [intros H; now inversion H|now intros ->].
Qed.

Lemma cmp_antisym x y : 0 < denom x -> 0 < denom y ->
  exists c, rt_cmp Big x y = Some c /\ rt_cmp Big y x = Some (CompOpp c).
Proof.
  intros Hx Hy. rewrite !cmp_exact by auto. eexists; split; [reflexivity|]. f_equal.
  unfold Qcompare. apply Z.compare_antisym.
Qed.

Lemma cmp_lt_trans x y z : 0 < denom x -> 0 < denom y -> 0 < denom z ->
  rt_cmp Big x y = Some Lt -> rt_cmp Big y z = Some Lt -> rt_cmp Big x z = Some Lt.
Proof.
  intros Hx Hy Hz. rewrite !cmp_lt_iff by auto. apply Qlt_trans.
Qed.

Lemma qfrac_zero_iff n d : d <> 0 -> (Qnum (qfrac n d) = 0 <-> n = 0).
Proof.
  intros Hd. unfold qfrac, Qdiv, Qinv, inject_Z, Qmult. cbn [Qnum Qden].
  destruct d as [|p|p]; [contradiction| |]; cbn [Qnum Qden]; nia.
Qed.

Lemma qnum_zero_proper (p q : Q) : (p == q)%Q -> (Qnum p = 0 <-> Qnum q = 0).
Proof. unfold Qeq. intros H. split; intros E; rewrite E in H; nia. Qed.

Definition step_rel (x : ratio) (o : rt_op) : Prop :=
  match rt_step Big x o, q_step (rt_val x) o with
  | Some y, Some q => Canon y /\ (rt_val y == q)%Q
  | None, None => True
  | _, _ => False
  end.

Lemma step_exact x o : Canon x -> step_rel x o.
Proof.
  intros Hx. unfold step_rel. destruct o as [n d|n d|n d|n d| |]; cbn [rt_step q_step].
  (* the four binary operations first build their operand with Ratio::new *)
  1-4: destruct (Z.eqb_spec d 0) as [->|Ed]; cbn [orb]; [now rewrite new_zero_denom|];
       destruct (new_exact n d Ed) as (y & -> & Hcy & Hvy); cbn [obind].
  - destruct (add_exact x y Hx Hcy) as (r & -> & Hc & Hv). split; auto. now rewrite Hv, Hvy.
  - destruct (sub_exact x y Hx Hcy) as (r & -> & Hc & Hv). split; auto. now rewrite Hv, Hvy.
  - destruct (mul_exact x y Hx Hcy) as (r & -> & Hc & Hv). split; auto. now rewrite Hv, Hvy.
  - assert (Hz : numer y = 0 <-> n = 0).
    { rewrite <- (qfrac_zero_iff n d Ed). rewrite <- val_num. now apply qnum_zero_proper. }
    destruct (Z.eqb_spec n 0) as [En|En].
    + rewrite div_zero; [exact I|tauto].
    + assert (Hny : numer y <> 0) by tauto.
      destruct (div_exact x y Hx Hcy Hny) as (r & -> & Hc & Hv). split; auto. now rewrite Hv, Hvy.
  - destruct (neg_exact x Hx) as (r & -> & Hc & Hv). auto.
  - rewrite val_num. destruct (Z.eqb_spec (numer x) 0) as [En|En].
    + rewrite inv_zero by auto. exact I.
    + destruct (inv_exact x Hx En) as (r & -> & Hc & Hv). cbn [obind]. auto.
Qed.

Lemma q_run_step_proper (p q : Q) o : (p == q)%Q -> (q_run_step p o == q_run_step q o)%Q.
Proof.
  intros E. unfold q_run_step. destruct o as [n d|n d|n d|n d| |]; cbn [q_step].
  - destruct (d =? 0); [exact E|now rewrite E].
  - destruct (d =? 0); [exact E|now rewrite E].
  - destruct (d =? 0); [exact E|now rewrite E].
  - destruct ((d =? 0) || (n =? 0)); [exact E|now rewrite E].
  - now rewrite E.
  - pose proof (qnum_zero_proper p q E) as Hz.
    destruct (Qnum p =? 0) eqn:Ep; destruct (Qnum q =? 0) eqn:Eq.
    + exact E.
    + apply Z.eqb_eq in Ep. apply Z.eqb_neq in Eq. tauto.
    + apply Z.eqb_neq in Ep. apply Z.eqb_eq in Eq. tauto.
    + now rewrite E.
Qed.

Lemma run_step_exact x o : Canon x ->
  Canon (rt_run_step Big x o) /\ (rt_val (rt_run_step Big x o) == q_run_step (rt_val x) o)%Q.
Proof.
  intros Hx. pose proof (step_exact x o Hx) as H. unfold step_rel in H. unfold rt_run_step, q_run_step.
  destruct (rt_step Big x o), (q_step (rt_val x) o); try contradiction; [exact H|split; [exact Hx|reflexivity]].
Qed.

Lemma history_exact ops : forall x q, Canon x -> (rt_val x == q)%Q ->
  Canon (fold_left (rt_run_step Big) ops x) /\
  (rt_val (fold_left (rt_run_step Big) ops x) == fold_left q_run_step ops q)%Q.
Proof.
  induction ops as [|o ops IH]; intros x q Hx E; cbn [fold_left]; [auto|].
  destruct (run_step_exact x o Hx) as [Hc Hv]. apply IH; auto.
  rewrite Hv. now apply q_run_step_proper.
Qed.

(* machine widths: whatever Ratio<iN> returns, Ratio<BigInt> returns *)
Lemma reduce_mono w r : ole (rt_reduce w r) (rt_reduce Big r).
Proof. unfold rt_reduce. ole_mono. Qed.

Lemma new_mono w n d : ole (rt_new w n d) (rt_new Big n d).
Proof. unfold rt_new. apply ole_if; [apply ole_refl|apply reduce_mono]. Qed.

Lemma add_sub_mono w pm x y : (forall a b, ole (pm w a b) (pm Big a b)) ->
  ole (rt_add_sub_assign w pm x y) (rt_add_sub_assign Big pm x y).
Proof.
  intros Hpm. unfold rt_add_sub_assign. cbv zeta.
  ole_mono_with ltac:(first [apply reduce_mono | apply Hpm]).
Qed.

Lemma add_mono w x y : ole (rt_add w x y) (rt_add Big x y).
Proof. apply add_sub_mono. intros; apply iadd_mono. Qed.
Lemma sub_mono w x y : ole (rt_sub w x y) (rt_sub Big x y).
Proof. apply add_sub_mono. intros; apply isub_mono. Qed.

Lemma neg_mono w x : ole (rt_neg w x) (rt_neg Big x).
Proof. unfold rt_neg. apply ole_bind; [apply ineg_mono|intros; apply new_mono]. Qed.

Lemma mul_mono w x y : ole (rt_mul w x y) (rt_mul Big x y).
Proof. unfold rt_mul. cbv zeta. ole_mono. Qed.

Lemma inv_mono w x : ole (rt_inv w x) (rt_inv Big x).
Proof.
  unfold rt_inv. apply ole_if; [apply ole_refl|].
  apply ole_bind; [apply new_mono|intros; apply ole_refl].
Qed.

Lemma div_mono w x y : ole (rt_div w x y) (rt_div Big x y).
Proof.
  unfold rt_div. apply ole_if; [apply ole_refl|].
  apply ole_bind; [apply inv_mono|intros [i|]; [apply mul_mono|apply ole_refl]].
Qed.

Lemma abs_mono w x : ole (rt_abs w x) (rt_abs Big x).
Proof. unfold rt_abs. apply ole_if; [apply neg_mono|apply ole_refl]. Qed.

Lemma cmp_mono w x y : ole (rt_cmp w x y) (rt_cmp Big x y).
Proof. unfold rt_cmp. ole_mono. Qed.

Lemma step_mono w x o : ole (rt_step w x o) (rt_step Big x o).
Proof.
  destruct o; cbn [rt_step];
    try (apply ole_bind; [apply new_mono|intros ?]);
    try apply add_mono; try apply sub_mono; try apply mul_mono; try apply div_mono; try apply neg_mono.
  apply ole_bind; [apply inv_mono|intros; apply ole_refl].
Qed.

(* consequences: a machine-width result is the BigInt result, hence canonical and exact *)
Lemma bounded_of_exact (P : ratio -> Prop) (ow ob : option ratio) r :
  ole ow ob -> (exists r', ob = Some r' /\ Canon r' /\ P r') -> ow = Some r -> Canon r /\ P r.
Proof. intros M (r' & Hr & Hc & Hv) H. apply M in H. rewrite Hr in H. inversion H; subst. auto. Qed.

Lemma bounded_new w n d r : rt_new w n d = Some r -> d <> 0 /\ Canon r /\ (rt_val r == qfrac n d)%Q.
Proof.
  intros H. destruct (Z.eq_dec d 0) as [->|Hd]; [apply new_mono in H; now rewrite new_zero_denom in H|].
  split; [exact Hd|]. exact (bounded_of_exact _ _ _ r (new_mono w n d) (new_exact n d Hd) H).
Qed.

Lemma bounded_add w x y r : Canon x -> Canon y -> rt_add w x y = Some r ->
  Canon r /\ (rt_val r == rt_val x + rt_val y)%Q.
Proof. intros Hx Hy. exact (bounded_of_exact _ _ _ r (add_mono w x y) (add_exact x y Hx Hy)). Qed.

Lemma bounded_sub w x y r : Canon x -> Canon y -> rt_sub w x y = Some r ->
  Canon r /\ (rt_val r == rt_val x - rt_val y)%Q.
Proof. intros Hx Hy. exact (bounded_of_exact _ _ _ r (sub_mono w x y) (sub_exact x y Hx Hy)). Qed.

Lemma bounded_mul w x y r : Canon x -> Canon y -> rt_mul w x y = Some r ->
  Canon r /\ (rt_val r == rt_val x * rt_val y)%Q.
Proof. intros Hx Hy. exact (bounded_of_exact _ _ _ r (mul_mono w x y) (mul_exact x y Hx Hy)). Qed.

Lemma bounded_neg w x r : Canon x -> rt_neg w x = Some r -> Canon r /\ (rt_val r == - rt_val x)%Q.
Proof. intros Hx. exact (bounded_of_exact _ _ _ r (neg_mono w x) (neg_exact x Hx)). Qed.

Lemma bounded_div w x y r : Canon x -> Canon y -> rt_div w x y = Some r ->
  numer y <> 0 /\ Canon r /\ (rt_val r == rt_val x / rt_val y)%Q.
Proof.
  intros Hx Hy H. destruct (Z.eq_dec (numer y) 0) as [E|Hn]; [apply div_mono in H; now rewrite div_zero in H|].
  split; [exact Hn|]. exact (bounded_of_exact _ _ _ r (div_mono w x y) (div_exact x y Hx Hy Hn) H).
Qed.

Lemma bounded_cmp w x y c : 0 < denom x -> 0 < denom y -> rt_cmp w x y = Some c -> c = (rt_val x ?= rt_val y)%Q.
Proof.
  intros Hx Hy H. apply cmp_mono in H. rewrite cmp_exact in H by auto. now inversion H.
Qed.

(* a machine-width history: every accepted step is the step of Q; a panicking step leaves the value *)
Lemma bounded_run_step w x o : Canon x ->
  Canon (rt_run_step w x o) /\
  ((rt_val (rt_run_step w x o) == q_run_step (rt_val x) o)%Q \/ rt_step w x o = None).
Proof.
  intros Hx. unfold rt_run_step. destruct (rt_step w x o) as [y|] eqn:E; [|auto].
  apply step_mono in E. destruct (run_step_exact x o Hx) as [Hc Hv]. unfold rt_run_step in Hc, Hv.
  rewrite E in Hc, Hv. auto.
Qed.

Lemma bounded_history_canon w ops : forall x, Canon x -> Canon (fold_left (rt_run_step w) ops x).
Proof.
  induction ops as [|o ops IH]; intros x Hx; cbn [fold_left]; auto.
  apply IH. now apply bounded_run_step.
Qed.
