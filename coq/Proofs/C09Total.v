(* C09 - the complete specification of one snf call ("whenever the run returns Some"): transformation
   invariant + exit conditions + the zero shortcut of SnfCalc::process, for every ring dictionary with
   [snf_laws], every fuel policy and every flag subset. *)
From Coq Require Import ZArith List Bool Arith Lia Ring.
Require Import Yui.Base.Ring Yui.Base.MatF Yui.Base.MatL Yui.Model.Snf Yui.Proofs.C09Mat Yui.Proofs.C09Inv
  Yui.Proofs.C09Run Yui.Proofs.C09Exit Yui.Proofs.C09Diag.
Import ListNotations.

Section Total.
  Context {R : Type} (D : euc_dict R) (SL : snf_laws D) (Hpre : pre_ok D).
  Let o := ed_ring D.
  Let L : ring_laws o := sl_ring D SL.
  Local Notation get := (lget o).

  (* Mat::is_zero on a well-formed matrix *)
  Lemma mat_is_zero_true m n (A : lmat R) :
    wf m n A -> (forall i j, i < m -> j < n -> get A i j = rzero o) -> mat_is_zero D A = true.
  Proof.
    intros W H. unfold mat_is_zero. apply forallb_forall. intros r Hr.
    apply forallb_forall. intros x Hx.
    destruct (In_nth A r [] Hr) as [i [Hi Ei]].
    destruct (In_nth r x (rzero o) Hx) as [j [Hj Ej]].
    assert (Him : i < m) by (destruct W; lia).
    assert (Hjn : j < n). { pose proof (wf_row m n A i W Him) as E. rewrite Ei in E. lia. }
    apply (ris_zero_true o L). rewrite <- Ej, <- Ei. apply (H i j Him Hjn).
  Qed.

  (* the zero shortcut: nothing is touched *)
  Lemma snf_zero_shortcut (fp : fuel_policy R) m n (A : lmat R) fl :
    mat_is_zero D A = true ->
    snf_with fp D (mk_dmat m n A) fl = Some (result_of m n (init_state D m n A fl)).
  Proof.
    intros Z. unfold snf_with, snf_run. cbv zeta. cbn [dm_m dm_n dm_rows].
    unfold process. destruct fl as [[[f1 f2] f3] f4]. cbn [init_state st_t]. rewrite Z. reflexivity.
  Qed.

  Lemma FInv_init m n (A : lmat R) :
    FInv D m n (get A) (get A) (get (id_mat D m)) (get (id_mat D m)) (get (id_mat D n)) (get (id_mat D n)).
  Proof.
    split; [|repeat split; apply (id_id_meq D SL)].
    apply meq_sym.
    eapply meq_trans; [apply (mmul_ext o m m n (get (id_mat D m)) (mid o) _ (get A))|].
    - intros x y Hx Hy. now apply get_id.
    - eapply meq_trans; [apply (mmul_ext o n m n (get A) (get A) (get (id_mat D n)) (mid o))|].
      + apply meq_refl.
      + intros x y Hx Hy. now apply get_id.
      + apply (meq_id_r D SL).
    - apply (meq_id_l D SL).
  Qed.

  (* the six elementary operations of SnfCalc preserve the state invariant *)
  Lemma SInv_steps m n (A : lmat R) f1 f2 f3 f4 (s : state R) :
    SInv D m n A f1 f2 f3 f4 s ->
    (forall a b c d i j, i <> j -> i < m -> j < m -> radd o (rmul o a d) (rneg o (rmul o b c)) = rone o ->
       SInv D m n A f1 f2 f3 f4 (s_left_elem D a b c d i j s)) /\
    (forall a b c d i j, i <> j -> i < n -> j < n -> radd o (rmul o a d) (rneg o (rmul o b c)) = rone o ->
       SInv D m n A f1 f2 f3 f4 (s_right_elem D a b c d i j s)) /\
    (forall i j, i <> j -> i < m -> j < m -> SInv D m n A f1 f2 f3 f4 (s_swap_rows i j s)) /\
    (forall i j, i <> j -> i < n -> j < n -> SInv D m n A f1 f2 f3 f4 (s_swap_cols i j s)) /\
    (forall i u ui, rinv (ed_unit D) u = Some ui ->
       exists s', s_mul_row D i u s = Some s' /\ SInv D m n A f1 f2 f3 f4 s') /\
    (forall i u ui, rinv (ed_unit D) u = Some ui ->
       exists s', s_mul_col D i u s = Some s' /\ SInv D m n A f1 f2 f3 f4 s').
  Proof.
    intros HS. split; [|split; [|split; [|split; [|split]]]].
    - intros. now apply (SInv_left_elem D SL).
    - intros. now apply (SInv_right_elem D SL).
    - intros. now apply (SInv_swap_rows D SL).
    - intros. now apply (SInv_swap_cols D SL).
    - intros i u ui Hu. now apply (SInv_mul_row D SL m n A f1 f2 f3 f4 i u ui s).
    - intros i u ui Hu. now apply (SInv_mul_col D SL m n A f1 f2 f3 f4 i u ui s).
  Qed.

  (* the specification of one call, as a predicate on (A, flags, result) *)
  Definition snf_spec (m n : nat) (A : lmat R) (f1 f2 f3 f4 : bool) (res : snf_result R) : Prop :=
    exists T P Pi Q Qi : lmat R,
      sr_d res = mk_dmat m n T /\
      wf m n T /\ wf m m P /\ wf m m Pi /\ wf n n Q /\ wf n n Qi /\
      out_is m f1 (sr_p res) P /\ out_is m f2 (sr_pinv res) Pi /\
      out_is n f3 (sr_q res) Q /\ out_is n f4 (sr_qinv res) Qi /\
      (* D = P * A * Q, true inverses *)
      meq m n (get T) (mmul o m (get P) (mmul o n (get A) (get Q))) /\
      meq m m (mmul o m (get P) (get Pi)) (mid o) /\ meq m m (mmul o m (get Pi) (get P)) (mid o) /\
      meq n n (mmul o n (get Q) (get Qi)) (mid o) /\ meq n n (mmul o n (get Qi) (get Q)) (mid o) /\
      (* diagonal, non-zero entries first, normalised, divisibility chain *)
      (let r := snf_rank D res in
       r <= Nat.min m n /\
       (forall k l, k < m -> l < n -> k <> l -> get T k l = rzero o) /\
       (forall k, k < r -> get T k k <> rzero o) /\
       (forall k, r <= k -> k < Nat.min m n -> get T k k = rzero o) /\
       (forall k, k < r -> rnunit (ed_unit D) (get T k k) = rone o) /\
       (forall k, S k < r -> exists q, get T (S k) (S k) = rmul o q (get T k k))) /\
      (* zero input: identity transformations *)
      ((forall i j, i < m -> j < n -> get A i j = rzero o) ->
       P = id_mat D m /\ Pi = id_mat D m /\ Q = id_mat D n /\ Qi = id_mat D n).

  Theorem snf_total_partial (fp : fuel_policy R) m n (A : lmat R) f1 f2 f3 f4 res :
    wf m n A ->
    snf_with fp D (mk_dmat m n A) (f1, f2, f3, f4) = Some res ->
    snf_spec m n A f1 f2 f3 f4 res.
  Proof.
    intros W H.
    pose proof (snf_exit D SL Hpre fp m n A (f1, f2, f3, f4) res W H) as HX. cbv zeta in HX.
    destruct (mat_is_zero D A) eqn:Z.
    - (* zero shortcut: the witnesses are the identity matrices *)
      rewrite (snf_zero_shortcut fp m n A (f1, f2, f3, f4) Z) in H.
      injection H as <-.
      exists A, (id_mat D m), (id_mat D m), (id_mat D n), (id_mat D n).
      cbn [result_of init_state sr_d sr_p sr_pinv sr_q sr_qinv st_t st_p st_pinv st_q st_qinv].
      pose proof (FInv_init m n A) as (F0 & F1 & F2 & F3 & F4).
      split; [reflexivity|]. split; [exact W|].
      do 4 (split; [apply wf_id|]).
      split; [unfold out_is; now destruct f1|]. split; [unfold out_is; now destruct f2|].
      split; [unfold out_is; now destruct f3|]. split; [unfold out_is; now destruct f4|].
      split; [exact F0|]. split; [exact F1|]. split; [exact F2|]. split; [exact F3|]. split; [exact F4|].
      split; [exact HX|]. intros _. repeat split; reflexivity.
    - destruct (snf_invariant D SL Hpre fp m n A f1 f2 f3 f4 res W H)
        as (T & P & Pi & Q & Qi & ET & WT & WP & WPi & WQ & WQi & O1 & O2 & O3 & O4 & HT & H1 & H2 & H3 & H4).
      exists T, P, Pi, Q, Qi.
      rewrite ET in HX. cbn [dm_rows] in HX.
      do 15 (split; [assumption|]).
      split; [exact HX|].
      intros HZ. exfalso. rewrite (mat_is_zero_true m n A W HZ) in Z. discriminate.
  Qed.
End Total.
