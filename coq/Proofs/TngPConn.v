(* Tangle layer, part 7: the components of a glued tangle are exactly the connected components of its segment graph,
   and the normal form is determined by the multiset of segments: same number of components, in the same order,
   each with the same kind (arc / circle) and the same label set. *)
From Coq Require Import List Arith Bool Lia Permutation Sorted Relations.
Import ListNotations.
Require Import Yui.Model.Link Yui.Model.Tng Yui.Proofs.TngPBase Yui.Proofs.TngPSegs Yui.Proofs.TngPDeg
  Yui.Proofs.TngPJoin Yui.Proofs.TngPStep Yui.Proofs.TngPSeq.
Require Import Yui.Base.ListFacts.

Definition adj (S : list (nat * nat)) (u v : nat) : Prop := In (nseg u v) S.
Definition conn (S : list (nat * nat)) : nat -> nat -> Prop := clos_refl_trans nat (adj S).

Lemma adj_sym : forall S u v, adj S u v -> adj S v u.
Proof. intros S u v. unfold adj. rewrite (nseg_sym u v). auto. Qed.
Lemma conn_sym : forall S u v, conn S u v -> conn S v u.
Proof.
  intros S u v Hc. induction Hc.
  - apply rt_step. apply adj_sym; auto.
  - apply rt_refl.
  - eapply rt_trans; eauto.
Qed.
Lemma rt_mono : forall (R R' : nat -> nat -> Prop), (forall a b, R a b -> R' a b) ->
  forall u v, clos_refl_trans nat R u v -> clos_refl_trans nat R' u v.
Proof.
  intros R R' Hi u v Hc. induction Hc; [apply rt_step; auto|apply rt_refl|eapply rt_trans; eauto].
Qed.
Lemma conn_incl : forall S S' u v, incl S S' -> conn S u v -> conn S' u v.
Proof. intros S S' u v Hi. apply rt_mono. intros a b. apply Hi. Qed.

Lemma nseg_inj : forall a b u v, nseg a b = nseg u v -> (a = u /\ b = v) \/ (a = v /\ b = u).
Proof. intros a b u v. unfold nseg. intros E. inversion E. lia. Qed.

Lemma arc_segs_in : forall l s, In s (arc_segs l) -> exists a b, s = nseg a b /\ In a l /\ In b l.
Proof.
  induction l as [|a l IH]; intros s Hs; [contradiction|].
  destruct l as [|b l]; [contradiction|]. rewrite arc_segs_cons2 in Hs. destruct Hs as [<-|Hs].
  - exists a, b. cbn. auto.
  - destruct (IH s Hs) as (u & v & E & Hu & Hv). exists u, v. split; auto. split; right; auto.
Qed.
Lemma segs_in : forall p s, In s (segs p) -> exists a b, s = nseg a b /\ In a (pedges p) /\ In b (pedges p).
Proof.
  intros p s. unfold segs. destruct (pclosed p); [|apply arc_segs_in].
  unfold circ_segs. destruct (pedges p) as [|x l] eqn:El; [contradiction|]. intros Hs.
  destruct (arc_segs_in _ _ Hs) as (a & b & E & Ha & Hb). exists a, b. split; auto.
  split; [apply in_app_or in Ha; destruct Ha as [|[<-|[]]]|apply in_app_or in Hb; destruct Hb as [|[<-|[]]]];
    auto; left; reflexivity.
Qed.
Lemma adj_segs_in : forall p u v, adj (segs p) u v -> In u (pedges p) /\ In v (pedges p).
Proof.
  intros p u v Ha. destruct (segs_in _ _ Ha) as (a & b & E & Hia & Hib).
  destruct (nseg_inj _ _ _ _ E) as [[-> ->]|[-> ->]]; auto.
Qed.

Lemma arc_conn_hd : forall l v, In v l -> conn (arc_segs l) (hd 0 l) v.
Proof.
  induction l as [|a l IH]; intros v Hv; [contradiction|].
  destruct l as [|b l].
  - destruct Hv as [<-|[]]. apply rt_refl.
  - destruct Hv as [<-|Hv]; [apply rt_refl|]. rewrite arc_segs_cons2. cbn [hd].
    eapply rt_trans; [apply rt_step; left; reflexivity|].
    eapply conn_incl; [|apply (IH v Hv)]. intros s Hs. right. auto.
Qed.
Lemma arc_conn : forall l u v, In u l -> In v l -> conn (arc_segs l) u v.
Proof.
  intros l u v Hu Hv. eapply rt_trans; [apply conn_sym; apply arc_conn_hd; auto|apply arc_conn_hd; auto].
Qed.
Lemma comp_conn : forall p u v, In u (pedges p) -> In v (pedges p) -> conn (segs p) u v.
Proof.
  intros p u v Hu Hv. unfold segs. destruct (pclosed p); [|apply arc_conn; auto].
  unfold circ_segs. destruct (pedges p) as [|x l]; [contradiction|].
  apply arc_conn; apply in_or_app; left; auto.
Qed.

Lemma inv_same_comp : forall t c c' a, tng_inv t -> In c t -> In c' t ->
  In a (pedges c) -> In a (pedges c') -> c = c'.
Proof.
  intros t c c' a Hinv Hc Hc' Ha Ha'. destruct (in_split _ _ Hc) as (l1 & l2 & ->).
  apply inv_middle in Hinv. destruct Hinv as (_ & _ & Hd).
  apply in_app_or in Hc'. destruct Hc' as [Hc'|[Hc'|Hc']]; auto; exfalso; apply (Hd a Ha); apply in_verts;
    exists c'; split; auto; apply in_or_app; auto.
Qed.

Lemma comp_closed_adj : forall t c a b, tng_inv t -> In c t -> adj (tsegs t) a b ->
  In a (pedges c) -> In b (pedges c).
Proof.
  intros t c a b Hinv Hc Hadj Ha. unfold adj, tsegs in Hadj. apply in_flat_map in Hadj.
  destruct Hadj as (c' & Hc' & Hs). destruct (adj_segs_in c' a b Hs) as [Ha' Hb'].
  rewrite (inv_same_comp t c c' a Hinv Hc Hc' Ha Ha'). exact Hb'.
Qed.

Theorem components_are_connected_components : forall t u v, tng_inv t -> In u (verts t) ->
  (conn (tsegs t) u v <-> exists c, In c t /\ In u (pedges c) /\ In v (pedges c)).
Proof.
  intros t u v Hinv Hu. split.
  - intros Hc. apply in_verts in Hu. destruct Hu as (c & Hc' & Huc). exists c. split; auto. split; auto.
    revert Huc. induction Hc; intros Huc; auto. eapply comp_closed_adj; eauto.
  - intros (c & Hc & Huc & Hvc). eapply conn_incl; [|apply comp_conn; eauto].
    intros s Hs. unfold tsegs. apply in_flat_map. eauto.
Qed.

Lemma count_notin : forall (l : list nat) v, ~ In v l -> count_occ Nat.eq_dec l v = 0.
Proof. intros. apply count_occ_not_In. auto. Qed.
Lemma count_nodup_in : forall (l : list nat) v, NoDup l -> In v l -> count_occ Nat.eq_dec l v = 1.
Proof.
  intros l v Hn Hi. pose proof (proj1 (NoDup_count_occ Nat.eq_dec l) Hn v).
  pose proof (count_in_ge1 l v Hi). lia.
Qed.

(* inside a glued tangle a label meets the segments of its own component only *)
Lemma deg_in_comp : forall t c v, tng_inv t -> In c t -> In v (pedges c) -> deg (tsegs t) v = deg (segs c) v.
Proof.
  intros t c v Hinv Hc Hv. destruct (in_split _ _ Hc) as (l1 & l2 & ->).
  rewrite (deg_perm _ _ _ (tsegs_middle l1 c l2)), deg_app.
  apply inv_middle in Hinv. destruct Hinv as (_ & [Sr _] & Hd).
  assert (deg (tsegs (l1 ++ l2)) v = 0) as ->; [|lia].
  unfold deg. apply count_notin. intros Hi. apply (Hd _ Hv). apply verts_ends; auto.
Qed.

Lemma deg_simple_arc_end : forall p v, simple p -> pclosed p = false -> is_end p v -> deg (segs p) v = 1.
Proof.
  intros p v [Np Lp] Hc He. rewrite Hc in Lp. pose proof (len2_ne _ Lp) as Hne. unfold deg, segs. rewrite Hc.
  rewrite (count_perm _ _ _ (ends_arc_segs _)), count_occ_app. destruct He as [->| ->].
  - rewrite (count_nodup_in (removelast (pedges p))), (count_notin (tl (pedges p))); [lia| | |].
    + apply NoDup_hd_notin; auto.
    + apply NoDup_removelast; auto.
    + rewrite <- (hd_removelast _ 0 Lp). apply hd_in. apply removelast_ne; auto.
  - rewrite (count_notin (removelast (pedges p))) by (apply NoDup_last_notin; auto).
    rewrite (count_nodup_in (tl (pedges p))); [lia|apply NoDup_tl; auto|].
    destruct (pedges p) as [|a [|b l]]; cbn in Lp; try lia.
    cbn [tl]. rewrite last_cons_ne by discriminate. apply last_In. discriminate.
Qed.

Lemma deg_arc_end : forall t c v, tng_inv t -> In c t -> pclosed c = false -> is_end c v -> deg (tsegs t) v = 1.
Proof.
  intros t c v Hinv Hc Hcc He. pose proof (inv_simple t c Hinv Hc) as Sc.
  rewrite (deg_in_comp t c v Hinv Hc (is_end_in c v Sc He)). apply deg_simple_arc_end; auto.
Qed.

Lemma deg_closed_ge2' : forall t c v, tng_inv t -> In c t -> pclosed c = true -> In v (pedges c) ->
  2 <= deg (tsegs t) v.
Proof.
  intros t c v Hinv Hc Hcc Hv. rewrite (deg_in_comp t c v Hinv Hc Hv).
  apply deg_closed_ge2; auto. apply (inv_simple t c Hinv Hc).
Qed.

Lemma minv_spec : forall p, pedges p <> [] ->
  In (minv p) (pedges p) /\ (forall y, In y (pedges p) -> minv p <= y).
Proof.
  intros p Hne. unfold minv, p_min_edge, list_min. destruct (pedges p) as [|x r]; [contradiction|].
  apply fold_min_spec.
Qed.
Lemma minv_same_set : forall p q, pedges p <> [] -> pedges q <> [] ->
  (forall v, In v (pedges p) <-> In v (pedges q)) -> minv p = minv q.
Proof.
  intros p q Hp Hq Hs. destruct (minv_spec p Hp) as [I1 L1]. destruct (minv_spec q Hq) as [I2 L2].
  apply Nat.le_antisymm; [apply L1; apply Hs; auto|apply L2; apply Hs; auto].
Qed.

Definition same_comp (c1 c2 : path) : Prop :=
  pclosed c1 = pclosed c2 /\ (forall v, In v (pedges c1) <-> In v (pedges c2)).

Lemma same_comp_sym : forall a b, same_comp a b -> same_comp b a.
Proof. intros a b [H1 H2]. split; auto. intros v. symmetry. auto. Qed.

(* the labels of the component of u are those connected to u: a matter of the segments only *)
Lemma comp_labels_incl : forall t1 t2 c1 c2 u, tng_inv t1 -> tng_inv t2 -> incl (tsegs t1) (tsegs t2) ->
  In c1 t1 -> In c2 t2 -> In u (pedges c1) -> In u (pedges c2) -> incl (pedges c1) (pedges c2).
Proof.
  intros t1 t2 c1 c2 u I1 I2 Hi Hc1 Hc2 Hu1 Hu2 v Hv.
  assert (Hc : conn (tsegs t2) u v).
  { eapply conn_incl; [exact Hi|]. apply components_are_connected_components; eauto. apply in_verts; eauto. }
  apply components_are_connected_components in Hc; [|auto|apply in_verts; eauto].
  destruct Hc as (c & Hc0 & Huc & Hvc). rewrite (inv_same_comp t2 c2 c u I2 Hc2 Hc0 Hu2 Huc). exact Hvc.
Qed.

(* so is the kind: the labels of a circle have degree 2, the first label of an arc has degree 1 *)
Lemma comp_kind : forall t1 t2 c1 c2, tng_inv t1 -> tng_inv t2 -> Permutation (tsegs t1) (tsegs t2) ->
  In c1 t1 -> In c2 t2 -> (forall v, In v (pedges c1) <-> In v (pedges c2)) ->
  pclosed c1 = true -> pclosed c2 = true.
Proof.
  intros t1 t2 c1 c2 I1 I2 Hp Hc1 Hc2 Hset E1. destruct (pclosed c2) eqn:E2; [reflexivity|exfalso].
  pose proof (hd_in _ (inv_ne t2 I2 c2 Hc2)) as Hw.
  pose proof (deg_arc_end t2 c2 _ I2 Hc2 E2 (or_introl eq_refl)) as D2.
  pose proof (deg_closed_ge2' t1 c1 _ I1 Hc1 E1 (proj2 (Hset _) Hw)) as D1.
  rewrite (deg_perm _ _ _ Hp) in D1. lia.
Qed.

Lemma match_comp : forall t1 t2, tng_inv t1 -> tng_inv t2 -> Permutation (tsegs t1) (tsegs t2) ->
  forall c1, In c1 t1 -> exists c2, In c2 t2 /\ same_comp c1 c2.
Proof.
  intros t1 t2 I1 I2 Hp c1 Hc1. pose proof (Permutation_sym Hp) as Hp'.
  pose proof (hd_in _ (inv_ne t1 I1 c1 Hc1)) as Hu1. set (u := hd 0 (pedges c1)) in *.
  assert (Hv2 : In u (verts t2)).
  { apply verts_ends; [apply I2|]. eapply Permutation_in; [apply Permutation_flat_map; exact Hp|].
    apply verts_ends; [apply I1|]. apply in_verts; eauto. }
  apply in_verts in Hv2. destruct Hv2 as (c2 & Hc2 & Hu2). exists c2. split; [exact Hc2|].
  assert (Hset : forall v, In v (pedges c1) <-> In v (pedges c2)).
  { intros v. split; [apply (comp_labels_incl t1 t2 c1 c2 u)|apply (comp_labels_incl t2 t1 c2 c1 u)]; auto;
      intros s; apply Permutation_in; assumption. }
  split; [|exact Hset]. destruct (pclosed c1) eqn:E1.
  - symmetry. apply (comp_kind t1 t2 c1 c2); auto.
  - destruct (pclosed c2) eqn:E2; [|reflexivity]. rewrite <- E1.
    apply (comp_kind t2 t1 c2 c1); auto. intros v. symmetry. apply Hset.
Qed.

Lemma same_comp_le : forall a b a' b', same_comp a a' -> same_comp b b' ->
  pedges a <> [] -> pedges b <> [] -> pedges a' <> [] -> pedges b' <> [] ->
  comp_le a b = comp_le a' b'.
Proof.
  intros a b a' b' [Ca Sa] [Cb Sb] Na Nb Na' Nb'. unfold comp_le.
  rewrite Ca, Cb, (minv_same_set a a'), (minv_same_set b b'); auto.
Qed.

Lemma comp_le_antisym_same : forall c d, comp_le c d = true -> comp_le d c = true ->
  pclosed c = pclosed d /\ minv c = minv d.
Proof.
  intros c d. unfold comp_le. destruct (pclosed c), (pclosed d); cbn; try discriminate;
    intros H1 H2; apply Nat.leb_le in H1; apply Nat.leb_le in H2; split; auto; lia.
Qed.

Theorem normal_form_match : forall t1 t2, tng_ok t1 -> tng_ok t2 ->
  (forall c1, In c1 t1 -> exists c2, In c2 t2 /\ same_comp c1 c2) ->
  (forall c2, In c2 t2 -> exists c1, In c1 t1 /\ same_comp c1 c2) ->
  Forall2 same_comp t1 t2.
Proof.
  induction t1 as [|c1 r1 IH]; intros t2 [I1 So1] [I2 So2] M12 M21.
  - destruct t2 as [|d2 r2]; [constructor|]. destruct (M21 d2 (or_introl eq_refl)) as (c & [] & _).
  - destruct t2 as [|d2 r2]; [destruct (M12 c1 (or_introl eq_refl)) as (c & [] & _)|].
    pose proof (inv_ne _ I1) as Nall1. pose proof (inv_ne _ I2) as Nall2.
    apply inv_cons in I1. destruct I1 as (S1 & Ir1 & D1).
    apply inv_cons in I2. destruct I2 as (S2 & Ir2 & D2).
    inversion So1 as [|? ? Sr1 Hle1]; subst. inversion So2 as [|? ? Sr2 Hle2]; subst.
    rewrite Forall_forall in Hle1, Hle2.
    assert (Hhead : same_comp c1 d2).
    { destruct (M12 c1 (or_introl eq_refl)) as (c2 & Hc2 & R1).
      destruct (M21 d2 (or_introl eq_refl)) as (d1 & Hd1 & R2).
      destruct Hc2 as [<-|Hc2]; [exact R1|]. exfalso.
      assert (L1 : comp_le c1 d1 = true).
      { destruct Hd1 as [<-|Hd1]; [|apply Hle1; auto]. unfold comp_le. rewrite eqb_reflx. apply Nat.leb_refl. }
      assert (L2 : comp_le d2 c2 = true) by (apply Hle2; auto).
      rewrite (same_comp_le c1 d1 c2 d2 R1 R2 (Nall1 c1 (or_introl eq_refl)) (Nall1 d1 Hd1)
                 (Nall2 c2 (or_intror Hc2)) (Nall2 d2 (or_introl eq_refl))) in L1.
      destruct (comp_le_antisym_same _ _ L1 L2) as [_ Em].
      destruct (minv_spec c2 (Nall2 c2 (or_intror Hc2))) as [Hi2 _].
      destruct (minv_spec d2 (Nall2 d2 (or_introl eq_refl))) as [Hi1 _].
      rewrite <- Em in Hi1. apply (D2 _ Hi1). apply in_verts. eauto. }
    constructor; auto. apply IH; try (split; auto).
    + intros c Hc. destruct (M12 c (or_intror Hc)) as (c2 & [<-|Hc2] & R); [exfalso|eauto].
      assert (Hh : In (hd 0 (pedges c)) (pedges c)) by (apply hd_in; apply Nall1; right; auto).
      apply (D1 (hd 0 (pedges c))); [apply Hhead; apply R; auto|apply in_verts; eauto].
    + intros c Hc. destruct (M21 c (or_intror Hc)) as (c' & [<-|Hc'] & R); [exfalso|eauto].
      assert (Hh : In (hd 0 (pedges c)) (pedges c)) by (apply hd_in; apply Nall2; right; auto).
      apply (D2 (hd 0 (pedges c))); [apply Hhead; apply R; auto|apply in_verts; eauto].
Qed.

Theorem normal_form_unique : forall t1 t2, tng_ok t1 -> tng_ok t2 -> Permutation (tsegs t1) (tsegs t2) ->
  Forall2 same_comp t1 t2.
Proof.
  intros t1 t2 O1 O2 Hp. apply normal_form_match; auto.
  - apply match_comp; auto; [apply O1|apply O2].
  - intros c2 Hc2. destruct (match_comp t2 t1 (proj1 O2) (proj1 O1) (Permutation_sym Hp) c2 Hc2) as (c1 & Hc1 & R).
    exists c1. split; auto. apply same_comp_sym; auto.
Qed.
