(* C07 - Homology of any chain complex over a Euclidean domain is computed correctly.
   Property theorems only: each is proved by [exact <lemma>] or a short combination of proved lemmas and is
   followed by Print Assumptions; the Examples instantiate the hypotheses on concrete values.

   Model: Model/HomologyCalc.v (mirror of HomologyCalc::{calculate, process_snf, result, trans}, Trans,
   Summand, ChainComplexBase::homology_at; a Rust panic is None).  The Smith-normal-form routine is a
   parameter [snf] of the model; every theorem is stated for EVERY routine that meets [snf_contract]
   (Proofs/C07Calc.v): the specification that property C09 proves for the mirror of snf.rs
   (D = P*A*Q, P*P^-1 = I = P^-1*P, Q*Q^-1 = I = Q^-1*Q with the untracked matrices existential,
   D diagonal, its non-zero entries first, D_ii | D_(i+1)(i+1), tracked matrices square of the right size
   and absent when their flag is off) plus the zero shortcut of SnfCalc::process (zero input ->
   identity transformations).  The ring is any commutative ring with laws that is an integral domain
   ([ring_laws], [integral] of Base/Ring.v); [isu] is its unit test.

   Notation: d1 : C1 -> C2 is the incoming differential (an n x m matrix, n = nr d1), d2 : C2 -> C3 the
   outgoing one; [zero_prod o d1 d2] is d2 * d1 = 0; [mget o A] is the entry function of a dense matrix and
   all matrix identities are identities of Base/MatF.v ([mmul], [meq], [mid], [mvec]).
   [smith_form o m n A r a]: A is equivalent (by invertible P, Q) to diag(a_0, .., a_(r-1), 0, ..) with
   all a_i <> 0 - "r is the rank of A and a_0 .. a_(r-1) its diagonal form". *)
From Coq Require Import Arith List Bool.
Require Import Yui.Base.Ring Yui.Base.MatF Yui.Base.MatL Yui.Model.HomologyCalc.
Require Import Yui.Proofs.C07Algebra Yui.Proofs.C07Calc.
Import ListNotations.

(* rank = n - rank d_in - rank d_out, and the torsion is the list of the non-unit entries of the diagonal
   form of d_in, in order: the diagonal entries form a divisibility chain, the units come first and the
   t non-units are the last t of the r1 non-zero entries.  (Holds with and without with_trans.) *)
Theorem C07_rank_tors :
  forall (R : Type) (o : ring_ops R), ring_laws o -> integral o ->
  forall isu : R -> bool,
  (forall a b : R, rmul o a b = rone o -> isu a = true) ->
  forall snf : dmat R -> bool -> bool -> bool -> bool -> option (snf_result R),
  (forall a : R, isu a = true -> exists b : R, rmul o a b = rone o) ->
  forall (d1 d2 : dmat R) (wt : bool) (rank : nat) (tors : list R) (tr : option (trans R)),
  snf_contract o snf -> mwf d1 -> mwf d2 -> zero_prod o d1 d2 ->
  calculate o isu snf d1 d2 wt = Some (rank, tors, tr) ->
  nr d1 = nc d2 /\
  exists (r1 r2 : nat) (a b : nat -> R) (t : nat),
    smith_form o (nr d1) (nc d1) (mget o d1) r1 a /\
    smith_form o (nr d2) (nc d2) (mget o d2) r2 b /\
    rank + r1 + r2 = nr d1 /\
    (forall i : nat, S i < r1 -> exists c : R, a (S i) = rmul o (a i) c) /\
    tors = non_units isu (map a (seq 0 r1)) /\
    t = length tors /\ t <= r1 /\ tors = map a (seq (r1 - t) t) /\
    (forall i : nat, i < r1 - t -> isu (a i) = true) /\
    (forall i : nat, r1 - t <= i < r1 -> isu (a i) = false).
Proof. exact @calculate_rank_tors. Qed.
Print Assumptions C07_rank_tors.

(* with_trans = true: the forward matrix p (coordinates) and the backward matrix q (generators) satisfy
   [gens_ok]:  d2 * q = 0,  p * q = I,  and for every chain x the coordinates p * d1 * x of the boundary
   are 0 in the free part and multiples of the corresponding torsion order in the torsion part. *)
Theorem C07_generators :
  forall (R : Type) (o : ring_ops R), ring_laws o -> integral o ->
  forall isu : R -> bool,
  (forall a b : R, rmul o a b = rone o -> isu a = true) ->
  forall snf : dmat R -> bool -> bool -> bool -> bool -> option (snf_result R),
  (forall a : R, isu a = true -> exists b : R, rmul o a b = rone o) ->
  forall (d1 d2 : dmat R) (rank : nat) (tors : list R) (tr : option (trans R)),
  snf_contract o snf -> mwf d1 -> mwf d2 -> zero_prod o d1 d2 ->
  calculate o isu snf d1 d2 true = Some (rank, tors, tr) ->
  exists (t : trans R) (p q : dmat R),
    tr = Some t /\ forward_mat o t = Some p /\ backward_mat o t = Some q /\
    src_dim t = nr d1 /\ tgt_dim t = rank + length tors /\
    gens_ok o d1 d2 rank tors p q.
Proof. exact @calculate_generators. Qed.
Print Assumptions C07_generators.

(* the meaning of [gens_ok], spelt out *)
Theorem C07_gens_ok_meaning :
  forall (R : Type) (o : ring_ops R) (d1 d2 : dmat R) (rank : nat) (tors : list R) (p q : dmat R),
  gens_ok o d1 d2 rank tors p q <->
  (let h := rank + length tors in
   let n := nr d1 in
   nr p = h /\ nc p = n /\ nr q = n /\ nc q = h /\
   meq (nr d2) h (mmul o n (mget o d2) (mget o q)) (mzero o) /\
   meq h h (mmul o n (mget o p) (mget o q)) (mid o) /\
   (forall (x : nat -> R) (i : nat), i < h ->
      let y := mvec o n (mget o p) (mvec o (nc d1) (mget o d1) x) in
      (i < rank -> y i = rzero o) /\
      (rank <= i -> exists c : R, y i = rmul o (nth (i - rank) tors (rzero o)) c))).
Proof. intros. reflexivity. Qed.
Print Assumptions C07_gens_ok_meaning.
