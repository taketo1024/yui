(* C15, integers: truncated division, exact nearest-integer division (int_ext.rs after fix dfe26dc),
   units, and the num-integer extended gcd loop (termination on the computed fuel, Bezout identity,
   agreement with gcd). *)
From Coq Require Import ZArith Lia Bool Znumtheory.
Require Import Yui.Base.Ring Yui.Model.Euclid Yui.Proofs.C15Gcd.
Local Open Scope Z_scope.

Lemma quot_rem_facts a b : b <> 0 ->
  a = b * Z.quot a b + Z.rem a b /\ Z.abs (Z.rem a b) < Z.abs b /\
  (0 <= a -> 0 <= Z.rem a b) /\ (a <= 0 -> Z.rem a b <= 0).
Proof.
  intros Hb. split; [apply Z.quot_rem'|]. split; [now apply Z.rem_bound_abs|].
  split; intros; [now apply Z.rem_nonneg | now apply Z.rem_nonpos].
Qed.

Lemma int_division a b : b <> 0 ->
  exists q r, int_div a b = Some q /\ int_rem a b = Some r /\
    a = q * b + r /\ Z.abs r < Z.abs b /\ (0 <= a -> 0 <= r) /\ (a <= 0 -> r <= 0).
Proof.
  intros Hb. unfold int_div, int_rem. destruct (Z.eqb_spec b 0) as [|_]; [contradiction|].
  destruct (quot_rem_facts a b Hb) as (E & H1 & H2 & H3).
  do 2 eexists. split; [reflexivity|]. split; [reflexivity|]. repeat split; try assumption.
  rewrite E at 1. ring.
Qed.

Lemma int_division_by_zero a : int_div a 0 = None /\ int_rem a 0 = None /\ int_div_round a 0 = None.
Proof. repeat split. Qed.

(* q is the integer nearest to a / b, ties rounded away from zero *)
Definition round_spec (a b q : Z) : Prop :=
  2 * Z.abs (a - q * b) <= Z.abs b /\ (2 * Z.abs (a - q * b) = Z.abs b -> Z.abs a < Z.abs (q * b)).

Lemma int_div_round_spec a b : b <> 0 -> exists q, int_div_round a b = Some q /\ round_spec a b q.
Proof.
  intros Hb. unfold int_div_round, int_div, int_rem, round_spec.
  destruct (Z.eqb_spec b 0) as [|_]; [contradiction|]. cbn [obind].
  destruct (quot_rem_facts a b Hb) as (E & Hr & Hpos & Hneg).
  set (d := Z.quot a b) in *. set (r := Z.rem a b) in *.
  destruct (Z.eqb_spec r 0) as [Hr0|Hr0].
  - exists d. split; [reflexivity|]. split; lia.
  - destruct (Z.ltb_spec 0 r) as [H1|H1]; destruct (Z.ltb_spec 0 b) as [H2|H2];
    match goal with |- context [negb (?x <=? ?y)] => destruct (Z.leb_spec x y) as [H3|H3] end; cbn [negb];
    destruct (Z.ltb_spec a 0) as [H4|H4]; destruct (Z.ltb_spec b 0) as [H5|H5]; cbn [Bool.eqb];
    eexists; (split; [reflexivity|]); split; lia.
Qed.

(* two neighbouring quotients cannot both be nearest: both errors would be ties, a = (2q+1)u with b = 2u, and
   |2q+1| lies strictly below neither |2q| nor |2q+2| *)
Lemma tie_between u b : 2 * Z.abs u <= Z.abs b -> 2 * Z.abs (u - b) <= Z.abs b -> b = 2 * u.
Proof. lia. Qed.

Lemma round_spec_succ a b q : b <> 0 -> round_spec a b q -> round_spec a b (q + 1) -> False.
Proof.
  intros Hb S1 S2.
  assert (E : b = 2 * (a - q * b)).
  { apply tie_between; [apply S1|]. replace (a - q * b - b) with (a - (q + 1) * b) by ring. apply S2. }
  assert (Ea : a = (2 * q + 1) * (a - q * b)) by lia.
  assert (Hu : 0 < Z.abs (a - q * b)) by lia.
  destruct S1 as [_ T1], S2 as [_ T2]. replace (a - (q + 1) * b) with (a - q * b - b) in T2 by ring.
  remember (a - q * b) as u eqn:Eu. clear Eu. subst a b.
  replace (u - 2 * u) with (- u) in T2 by ring. rewrite Z.abs_opp in T2.
  replace (q * (2 * u)) with (2 * q * u) in T1 by ring. replace ((q + 1) * (2 * u)) with ((2 * q + 2) * u) in T2 by ring.
  rewrite !Z.abs_mul in T1, T2. change (Z.abs 2) with 2 in T1, T2.
  specialize (T1 eq_refl). specialize (T2 eq_refl).
  apply Z.mul_lt_mono_pos_r in T1, T2; [lia|assumption..].
Qed.

Lemma round_spec_unique a b q q' : b <> 0 -> round_spec a b q -> round_spec a b q' -> q = q'.
Proof.
  intros Hb S S'.
  assert (Hq : Z.abs (q - q') <= 1).
  { destruct S as [H _], S' as [H' _].
    assert (Hd : Z.abs (q - q') * Z.abs b <= 1 * Z.abs b) by (rewrite <- Z.abs_mul; lia).
    apply Z.mul_le_mono_pos_r in Hd; lia. }
  assert (C : q' = q \/ q' = q + 1 \/ q = q' + 1) by lia.
  destruct C as [->|[->| ->]]; [reflexivity|exfalso..].
  - exact (round_spec_succ a b q Hb S S').
  - exact (round_spec_succ a b q' Hb S' S).
Qed.

(* the form used by the quadratic rings *)
Lemma int_div_round_err a n : 0 < n ->
  exists q, int_div_round a n = Some q /\ - n <= 2 * (a - q * n) <= n.
Proof.
  intros Hn. destruct (int_div_round_spec a n ltac:(lia)) as (q & E & H & _). exists q. split; [assumption|]. lia.
Qed.

Lemma int_div_round_exact c n : n <> 0 -> int_div_round (c * n) n = Some c.
Proof.
  intros Hn. destruct (int_div_round_spec (c * n) n Hn) as (q & E & H). rewrite E. f_equal.
  apply (round_spec_unique (c * n) n q c Hn H). unfold round_spec. replace (c * n - c * n) with 0 by ring.
  cbn. lia.
Qed.

Lemma int_is_unit_spec a : int_is_unit a = true <-> a = 1 \/ a = -1.
Proof. unfold int_is_unit. rewrite orb_true_iff, !Z.eqb_eq. lia. Qed.

Lemma int_unit_laws : unit_laws Z_ring (dict_units int_dict).
Proof.
  apply (unit_laws_of_normal_forms _ Z_ring_laws _ (fun a => 0 <= a)); cbn.
  - intros a b. unfold int_inv. destruct (int_is_unit a) eqn:E; [|discriminate]. intros [= <-].
    apply int_is_unit_spec in E. destruct E as [-> | ->]; reflexivity.
  - intros a. unfold int_inv. destruct (int_is_unit a); split; intros H; eauto; try discriminate.
    destruct H as [b H]; discriminate.
  - intros a b H. apply int_is_unit_spec. destruct (Z.mul_eq_1 a b H); auto.
  - intros a. unfold int_nunit. destruct (Z.ltb_spec a 0); cbn [negb]; (split; [reflexivity|lia]).
  - intros a H. unfold int_nunit. destruct (Z.ltb_spec a 0); [lia|reflexivity].
  - intros a v [-> | ->]%int_is_unit_spec; lia.
Qed.

Lemma int_normalized_abs a : normalized int_dict a = Z.abs a.
Proof.
  unfold normalized, is_one. cbn. unfold int_nunit.
  destruct (Z.ltb_spec a 0) as [H|H]; cbn [negb]; cbn; lia.
Qed.

Lemma int_divides_spec x y :
  exists b, divides int_dict x y = Some b /\ (b = true <-> x <> 0 /\ (x | y)).
Proof.
  unfold divides, is_zero. cbn. unfold int_rem.
  destruct (Z.eqb_spec x 0) as [Zx|NZx].
  - exists false. split; [reflexivity|]. split; [discriminate|]. intros [H _]. contradiction.
  - cbn [obind]. eexists. split; [reflexivity|]. rewrite Z.eqb_eq, Z.rem_divide by assumption. tauto.
Qed.

(* Base/Ring.v instance: truncated division with norm |.| *)
Definition int_euc_ops : euc_ops Z := mk_euc_ops Z Z.quot Z.rem Z.abs_N.
Lemma int_euc_laws : euc_laws Z_ring int_euc_ops.
Proof.
  constructor; cbn; intros a b Hb.
  - rewrite (Z.quot_rem' a b) at 1. ring.
  - pose proof (Z.rem_bound_abs a b Hb). destruct (Z.eq_dec (Z.rem a b) 0); [left; assumption|right]. lia.
Qed.

(* extended gcd (num-integer's loop) *)
Lemma egcd_loop_inv a b : forall fuel r0 r1 s0 s1 t0 t1 d s t,
  r0 = s0 * a + t0 * b -> r1 = s1 * a + t1 * b ->
  egcd_loop fuel r0 r1 s0 s1 t0 t1 = Some (d, s, t) ->
  d = s * a + t * b /\ Z.abs d = Z.gcd r1 r0.
Proof.
  induction fuel as [|f IH]; intros r0 r1 s0 s1 t0 t1 d s t H0 H1 E; cbn [egcd_loop] in E; [discriminate|].
  destruct (Z.eqb_spec r0 0) as [Z0|NZ].
  - injection E as <- <- <-. split; [assumption|]. rewrite Z0. now rewrite Z.gcd_0_r.
  - apply IH in E.
    + destruct E as [E1 E2]. split; [assumption|]. rewrite E2.
      replace (r1 - Z.quot r1 r0 * r0) with (r1 + (- Z.quot r1 r0) * r0) by ring.
      rewrite Z.gcd_add_mult_diag_r. apply Z.gcd_comm.
    + rewrite H0, H1. ring.
    + assumption.
Qed.

Lemma step_rem r1 r0 : r0 <> 0 -> r1 - Z.quot r1 r0 * r0 = Z.rem r1 r0.
Proof. intros H. rewrite Z.rem_eq by assumption. ring. Qed.

(* once |r0| <= |r1| the product |r1|*|r0| at least halves in every step *)
Lemma egcd_loop_ordered : forall f r0 r1 s0 s1 t0 t1,
  Z.abs r0 <= Z.abs r1 -> Z.abs r1 * Z.abs r0 < 2 ^ Z.of_nat f ->
  egcd_loop (S f) r0 r1 s0 s1 t0 t1 <> None.
Proof.
  induction f as [|f IH]; intros r0 r1 s0 s1 t0 t1 Ho Hp; cbn [egcd_loop].
  - destruct (Z.eqb_spec r0 0) as [Z0|NZ]; [discriminate|]. exfalso. cbn in Hp. nia.
  - destruct (Z.eqb_spec r0 0) as [Z0|NZ]; [discriminate|].
    apply IH.
    + rewrite step_rem by assumption. pose proof (Z.rem_bound_abs r1 r0 NZ). lia.
    + rewrite step_rem by assumption.
      pose proof (Z.rem_bound_abs r1 r0 NZ) as Hb.
      assert (Hq1 : 1 <= Z.abs (Z.quot r1 r0)).
      { destruct (Z.eq_dec (Z.quot r1 r0) 0) as [E|]; [|lia].
        pose proof (Z.quot_rem' r1 r0) as Hq. rewrite E in Hq. lia. }
      assert (H2 : 2 * Z.abs (Z.rem r1 r0) <= Z.abs r1).
      { pose proof (Z.quot_rem' (Z.abs r1) (Z.abs r0)) as Ha.
        rewrite Z.quot_abs, Z.rem_abs in Ha by assumption. nia. }
      rewrite Nat2Z.inj_succ, Z.pow_succ_r in Hp by lia. nia.
Qed.

Lemma egcd_loop_total : forall f r0 r1 s0 s1 t0 t1,
  Z.abs r1 * Z.abs r0 < 2 ^ Z.of_nat f -> egcd_loop (S (S f)) r0 r1 s0 s1 t0 t1 <> None.
Proof.
  intros f r0 r1 s0 s1 t0 t1 Hp.
  destruct (Z.le_gt_cases (Z.abs r0) (Z.abs r1)) as [Ho|Ho].
  - apply egcd_loop_ordered; [assumption|]. rewrite Nat2Z.inj_succ, Z.pow_succ_r by lia.
    pose proof (Z.pow_pos_nonneg 2 (Z.of_nat f)). lia.
  - cbn [egcd_loop]. destruct (Z.eqb_spec r0 0) as [Z0|NZ]; [discriminate|].
    (* |r1| < |r0|: the quotient is 0 and the step only swaps *)
    change (egcd_loop (S f) (r1 - Z.quot r1 r0 * r0) r0 (s1 - Z.quot r1 r0 * s0) s0 (t1 - Z.quot r1 r0 * t0) t0 <> None).
    apply egcd_loop_ordered.
    + rewrite step_rem by assumption. pose proof (Z.rem_bound_abs r1 r0 NZ). lia.
    + rewrite step_rem by assumption.
      assert (Z.abs (Z.rem r1 r0) <= Z.abs r1).
      { pose proof (Z.quot_rem' (Z.abs r1) (Z.abs r0)) as Ha.
        rewrite Z.quot_abs, Z.rem_abs in Ha by assumption.
        pose proof (Z.abs_nonneg (Z.quot r1 r0)). nia. }
      nia.
Qed.

Lemma int_gcdx_spec a b :
  exists s t, int_gcdx a b = Some (Z.gcd a b, s, t) /\ s * a + t * b = Z.gcd a b.
Proof.
  unfold int_gcdx, int_fuel.
  set (P := Z.abs a * Z.abs b).
  assert (HP : 0 <= P) by (unfold P; lia).
  assert (Hf : P < 2 ^ Z.of_nat (Z.to_nat (Z.log2 P + 1))).
  { pose proof (Z.log2_nonneg P). rewrite Z2Nat.id by lia.
    destruct (Z.eq_dec P 0) as [->|NZ]; [cbn; lia|].
    pose proof (Z.log2_spec P ltac:(lia)). unfold Z.succ in *. lia. }
  destruct (egcd_loop (S (S (Z.to_nat (Z.log2 P + 1)))) b a 0 1 1 0) as [[[d s] t]|] eqn:E.
  - cbn [obind]. apply (egcd_loop_inv a b) in E; [|ring|ring]. destruct E as [E1 E2].
    pose proof (Z.gcd_nonneg a b).
    destruct (Z.leb_spec 0 d) as [Hd|Hd].
    + exists s, t. split; [|lia]. do 3 f_equal. lia.
    + exists (0 - s), (0 - t). split; [|lia]. do 3 f_equal. lia.
  - exfalso. revert E. apply egcd_loop_total. exact Hf.
Qed.

Lemma int_lcm_gcd a b : int_lcm a b * int_gcd a b = Z.abs (a * b).
Proof.
  unfold int_lcm, int_gcd, Z.lcm.
  pose proof (Z.gcd_nonneg a b) as Hg. set (g := Z.gcd a b) in *.
  destruct (Z.eq_dec g 0) as [Zg|NZg].
  - unfold g in Zg. apply Z.gcd_eq_0 in Zg. destruct Zg as [-> ->]. reflexivity.
  - destruct (Z.gcd_divide_r a b) as [c Hc]. fold g in Hc.
    rewrite Hc at 1. rewrite Z.div_mul by assumption.
    rewrite Hc. rewrite (Z.mul_assoc a c g), (Z.abs_mul (a * c) g), (Z.abs_eq g) by assumption. reflexivity.
Qed.
