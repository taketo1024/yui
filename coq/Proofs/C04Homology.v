(* C04 - passing to homology does not change the graded Euler characteristic (telescoping), for any finite
   bigraded complex given by its dimension table and the ranks of its differentials; and a table whose
   dimensions are the generator counts of the cube has the Euler polynomial of the cube. *)
From Coq Require Import List Arith Bool ZArith Lia.
Require Import Yui.Model.Link Yui.Model.Jones Yui.Proofs.C04Poly Yui.Proofs.C04Euler.
Import ListNotations.
Local Open Scope Z_scope.

(* the boundary term left over by the telescoping sum: +- the rank of the last differential *)
Fixpoint tail_term (sgn prev : Z) (c : column) : Z :=
  match c with [] => sgn * prev | (_, r) :: c' => tail_term (- sgn) r c' end.

Lemma alt_hom_telescope : forall c sgn prev,
  alt_hom sgn prev c = alt_dim sgn c - sgn * prev + tail_term sgn prev c.
Proof.
  induction c as [|[d r] c IH]; intros sgn prev; cbn [alt_hom alt_dim tail_term]; [lia|].
  rewrite IH. lia.
Qed.

Lemma tail_term_last : forall c sgn prev d r, exists s, (s = 1 \/ s = -1) /\
  tail_term sgn prev ((d, r) :: c) = s * sgn * snd (last ((d, r) :: c) (0, 0)).
Proof.
  induction c as [|[d' r'] c IH]; intros sgn prev d r.
  - exists (-1). split; [auto | cbn [tail_term last snd]; lia].
  - destruct (IH (- sgn) r d' r') as (s & Hs & E). exists (- s). split; [lia|].
    change (tail_term sgn prev ((d, r) :: (d', r') :: c)) with (tail_term (- sgn) r ((d', r') :: c)).
    rewrite E. change (last ((d, r) :: (d', r') :: c) (0, 0)) with (last ((d', r') :: c) (0, 0)). lia.
Qed.

(* rank H^i := dim C^i - rank d_i - rank d_(i-1), nothing enters the first degree, the last differential
   is zero: the alternating sums of rank H and of dim coincide *)
Theorem column_euler : forall c sgn, last_rank c = 0 -> alt_hom sgn 0 c = alt_dim sgn c.
Proof.
  intros c sgn H. rewrite alt_hom_telescope. destruct c as [|[d r] c]; [cbn; lia|].
  destruct (tail_term_last c sgn 0 d r) as (s & _ & E). rewrite E.
  unfold last_rank in H. rewrite H. lia.
Qed.

Theorem table_euler : forall sgn tbl, (forall jc, In jc tbl -> last_rank (snd jc) = 0) ->
  euler_of_table (alt_hom sgn 0) tbl = euler_of_table (alt_dim sgn) tbl.
Proof.
  intros sgn. unfold euler_of_table. induction tbl as [|[j c] t IH]; intros H; cbn [fold_right fst snd]; auto.
  rewrite IH by (intros; apply H; cbn; auto). rewrite (column_euler c sgn); auto. apply (H (j, c)). cbn; auto.
Qed.

(* [tbl] lists, for pairwise distinct q-degrees j, the column of (dim, rank) for h = i0, i0+1, ...;
   it is a table of the cube when dim = number of generators in that bidegree and no generator lies
   outside the table *)
Definition dims_match (gens : list (Z * Z)) (i0 : Z) (tbl : list (Z * column)) : Prop :=
  NoDup (map fst tbl) /\
  (forall j c k, In (j, c) tbl -> (k < length c)%nat ->
     fst (nth k c (0, 0)) = Z.of_nat (gen_count gens (i0 + Z.of_nat k) j)) /\
  (forall h j, In (h, j) gens -> exists c, In (j, c) tbl /\ i0 <= h < i0 + Z.of_nat (length c)).

Lemma alt_dim_sum : forall c sgn,
  alt_dim sgn c = zsum (fun k => sgn * sgn_nat k * fst (nth k c (0, 0))) (seq 0 (length c)).
Proof.
  induction c as [|[d r] c IH]; intros sgn; [reflexivity|].
  cbn [alt_dim length seq]. rewrite zsum_cons, IH. cbn [nth fst]. f_equal; [unfold sgn_nat; cbn; lia|].
  rewrite <- seq_shift, zsum_map. apply zsum_ext. intros k _. cbn [nth]. rewrite sgn_nat_S. lia.
Qed.

Lemma gen_count_sum : forall gens i j,
  Z.of_nat (gen_count gens i j) = zsum (fun g => if (fst g =? i) && (snd g =? j) then 1 else 0) gens.
Proof.
  unfold gen_count. induction gens as [|g gens IH]; intros i j; [reflexivity|].
  cbn [filter]. rewrite zsum_cons. destruct ((fst g =? i) && (snd g =? j)); cbn [length]; rewrite <- IH; lia.
Qed.

Lemma zsum_seq_single : forall (f : nat -> Z) n k, (k < n)%nat ->
  zsum (fun i => if (i =? k)%nat then f i else 0) (seq 0 n) = f k.
Proof.
  intros f n k Hk. replace n with (k + S (n - S k))%nat by lia. rewrite seq_app. cbn [seq Nat.add].
  rewrite zsum_single; [rewrite Nat.eqb_refl; reflexivity| |];
    intros i Hi; apply in_seq in Hi; destruct (Nat.eqb_spec i k); auto; lia.
Qed.

Lemma hsign_shift : forall i0 k, hsign (i0 + Z.of_nat k) = hsign i0 * sgn_nat k.
Proof. intros. rewrite hsign_add, hsign_of_nat. reflexivity. Qed.

Theorem cube_table_euler : forall gens i0 tbl, dims_match gens i0 tbl ->
  euler_of_table (alt_dim (hsign i0)) tbl = euler_poly gens.
Proof.
  intros gens i0 tbl (ND & HD & HC). apply canon_ext.
  - apply euler_of_table_canon.
  - apply euler_poly_canon.
  - intros e. rewrite coeff_euler_of_table, coeff_euler_poly.
    (* both sides as sums over the generators *)
    transitivity (zsum (fun jc => zsum (fun g => if (fst jc =? e) && (snd g =? e) &&
                    ((i0 <=? fst g) && (fst g <? i0 + Z.of_nat (length (snd jc)))) then hsign (fst g) else 0) gens) tbl).
    + apply zsum_ext. intros [j c] Hjc. cbn [fst snd].
      destruct (Z.eqb_spec j e) as [->|Ne]; [|rewrite zsum_zero; reflexivity].
      rewrite alt_dim_sum.
      transitivity (zsum (fun k => zsum (fun g => if (fst g =? i0 + Z.of_nat k) && (snd g =? e)
                                       then hsign (fst g) else 0) gens) (seq 0 (length c))).
      * apply zsum_ext. intros k Hk. apply in_seq in Hk. rewrite (HD e c k Hjc ltac:(lia)), gen_count_sum, zsum_scal.
        apply zsum_ext. intros g _. destruct (Z.eqb_spec (fst g) (i0 + Z.of_nat k)) as [->|N]; cbn [andb].
        { rewrite hsign_shift. destruct (snd g =? e); lia. }
        { lia. }
      * rewrite zsum_swap. apply zsum_ext. intros [h q] _. cbn [fst snd andb].
        destruct (Z.eqb_spec q e) as [->|Nq].
        { destruct ((i0 <=? h) && (h <? i0 + Z.of_nat (length c))) eqn:R.
          - apply andb_true_iff in R. destruct R as [R1 R2]. apply Z.leb_le in R1. apply Z.ltb_lt in R2.
            rewrite (zsum_ext _ _ (fun k => if (k =? Z.to_nat (h - i0))%nat then hsign h else 0)).
            + apply (zsum_seq_single (fun _ => hsign h)). lia.
            + intros k _. rewrite andb_true_r.
              destruct (Z.eqb_spec h (i0 + Z.of_nat k)); destruct (Nat.eqb_spec k (Z.to_nat (h - i0))); auto; lia.
          - apply zsum_all_zero. intros k Hk. apply in_seq in Hk.
            destruct (Z.eqb_spec h (i0 + Z.of_nat k)); auto.
            apply andb_false_iff in R. destruct R as [R|R]; [apply Z.leb_gt in R|apply Z.ltb_ge in R]; lia. }
        { apply zsum_all_zero. intros k _. rewrite andb_false_r. reflexivity. }
    + rewrite zsum_swap. apply zsum_ext. intros [h q] Hg. cbn [fst snd].
      destruct (Z.eqb_spec q e) as [->|Nq].
      * (* exactly one column has q-degree e, and h lies in its range *)
        destruct (HC h e Hg) as (c & Hc & Hr).
        apply in_split in Hc. destruct Hc as (t1 & t2 & ->).
        rewrite map_app in ND. cbn [map fst] in ND.
        assert (N : forall j' c', In (j', c') (t1 ++ t2) -> (j' =? e) = false).
        { intros j' c' Hjc. apply Z.eqb_neq. intros E. apply NoDup_remove_2 in ND. apply ND.
          rewrite <- E, <- map_app. apply (in_map fst _ _ Hjc). }
        rewrite zsum_single;
          [|intros [j' c'] Hjc; cbn [fst snd]; rewrite (N j' c') by (apply in_or_app; auto); reflexivity..].
        cbn [fst snd]. rewrite Z.eqb_refl. cbn [andb].
        destruct (Z.leb_spec i0 h); destruct (Z.ltb_spec h (i0 + Z.of_nat (length c))); cbn [andb]; lia.
      * apply zsum_all_zero. intros jc _. rewrite andb_false_r. reflexivity.
Qed.

(* the identity of the property, for the model: every bigraded complex on the generators of the cube *)
Theorem euler_identity : forall l gens J i0 tbl,
  kh_gens l = Some gens -> jones_model l = Some J ->
  dims_match gens i0 tbl -> (forall jc, In jc tbl -> last_rank (snd jc) = 0) ->
  euler_of_table (alt_hom (hsign i0) 0) tbl = J.
Proof.
  intros l gens J i0 tbl Hg HJ Hd Hl.
  rewrite (table_euler (hsign i0) tbl Hl), (cube_table_euler gens i0 tbl Hd).
  pose proof (kh_euler_jones l) as E. unfold kh_euler in E. rewrite Hg, HJ in E. inversion E. reflexivity.
Qed.
