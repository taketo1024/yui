(* C03Big: collect_gen_info is the regrouping of the generators by (homological degree, q_deg). *)
From Coq Require Import List ZArith Bool Lia Permutation.
Require Import Yui.Model.IntoBigraded.
Import ListNotations.
Open Scope Z_scope.

Lemma key_eqb_spec : forall a b : key, key_eqb a b = true <-> a = b.
Proof.
  intros [a1 a2] [b1 b2]. unfold key_eqb. cbn [fst snd]. rewrite andb_true_iff, !Z.eqb_eq.
  split; [intros [-> ->]; reflexivity | intros H; inversion H; auto].
Qed.

Lemma key_eqb_refl : forall a, key_eqb a a = true.
Proof. intros a. apply key_eqb_spec. reflexivity. Qed.

Lemma key_eqb_false : forall a b : key, key_eqb a b = false <-> a <> b.
Proof.
  intros a b. split.
  - intros H E. apply key_eqb_spec in E. congruence.
  - intros H. destruct (key_eqb a b) eqn:E; [apply key_eqb_spec in E; contradiction | reflexivity].
Qed.

Lemma key_eqb_sym : forall a b, key_eqb a b = key_eqb b a.
Proof.
  intros a b. destruct (key_eqb a b) eqn:E.
  - apply key_eqb_spec in E. subst. symmetry. apply key_eqb_refl.
  - symmetry. apply key_eqb_false. apply key_eqb_false in E. congruence.
Qed.

(* an update creates the entry of its key from [init_entry] if need be and touches no other key *)
Lemma tbl_find_update : forall kk k f t,
  tbl_find kk (tbl_update k f t)
  = if key_eqb kk k then Some (f (match tbl_find k t with Some e => e | None => init_entry end)) else tbl_find kk t.
Proof.
  intros kk k f t. induction t as [|[k1 e] t IH]; cbn [tbl_update tbl_find].
  - destruct (key_eqb kk k); reflexivity.
  - destruct (key_eqb k k1) eqn:E1; cbn [tbl_find].
    + apply key_eqb_spec in E1. subst k1. destruct (key_eqb kk k); reflexivity.
    + rewrite IH. destruct (key_eqb kk k1) eqn:E2; [|reflexivity].
      apply key_eqb_spec in E2. subst k1. now rewrite key_eqb_sym, E1.
Qed.

Definition cellv (k : key) (t : table) : cell := cell_of (tbl_find k t).

Definition push_cell (g : gkind) (c : cell) : cell :=
  match g with
  | GFree => (S (fst c), snd c)
  | GTor t => (fst c, snd c ++ [t])
  end.

Lemma cell_of_push : forall idx g e, cell_of (Some (push_gen idx g e)) = push_cell g (cell_of (Some e)).
Proof. intros idx g [[rk ts] ix]. destruct g; reflexivity. Qed.

Lemma cellv_update : forall kk k idx g t,
  cellv kk (tbl_update k (push_gen idx g) t) = if key_eqb kk k then push_cell g (cellv kk t) else cellv kk t.
Proof.
  intros kk k idx g t. unfold cellv. rewrite tbl_find_update. destruct (key_eqb kk k) eqn:E; [|reflexivity].
  apply key_eqb_spec in E. subst kk. destruct (tbl_find k t); apply cell_of_push.
Qed.

Definition locate (i : Z) (gs : list (gkind * list Z)) : list (key * gkind) :=
  map (fun gq => ((i, chain_q_deg (snd gq)), fst gq)) gs.

Definition all_located (hs : list (Z * summand_info)) : list (key * gkind) :=
  flat_map (fun ih => locate (fst ih) (tagged (snd ih))) hs.

Definition gather_step (kk : key) (c : cell) (x : key * gkind) : cell :=
  if key_eqb kk (fst x) then push_cell (snd x) c else c.

Lemma cellv_collect_from : forall kk i gs k t,
  cellv kk (collect_from i k gs t) = fold_left (gather_step kk) (locate i gs) (cellv kk t).
Proof.
  intros kk i gs. induction gs as [|[g qs] gs IH]; intros k t.
  - reflexivity.
  - cbn [collect_from locate map fold_left]. rewrite IH. f_equal.
    rewrite cellv_update. reflexivity.
Qed.

Lemma cellv_collect_gen_info_from : forall kk hs t,
  cellv kk (fold_left (fun t ih => collect_from (fst ih) O (tagged (snd ih)) t) hs t)
  = fold_left (gather_step kk) (all_located hs) (cellv kk t).
Proof.
  intros kk hs. induction hs as [|ih hs IH]; intros t.
  - reflexivity.
  - cbn [fold_left all_located flat_map]. rewrite IH, cellv_collect_from, fold_left_app. reflexivity.
Qed.

Lemma cellv_collect_gen_info : forall kk hs,
  cellv kk (collect_gen_info hs) = fold_left (gather_step kk) (all_located hs) zero_cell.
Proof. intros kk hs. unfold collect_gen_info. rewrite cellv_collect_gen_info_from. reflexivity. Qed.

(* gather = (count of free, orders of torsion) of the selected generators *)
Definition loc_cell (kk : key) (L : list (key * gkind)) : cell :=
  (length (filter (fun x => key_eqb kk (fst x) && is_free_b (snd x)) L),
   flat_map (fun x => if key_eqb kk (fst x) then tor_list (snd x) else []) L).

Lemma gather_from : forall kk L c,
  fold_left (gather_step kk) L c = ((fst c + fst (loc_cell kk L))%nat, snd c ++ snd (loc_cell kk L)).
Proof.
  intros kk L. induction L as [|[k g] L IH]; intros [rk ts].
  - cbn. rewrite Nat.add_0_r, app_nil_r. reflexivity.
  - cbn [fold_left]. rewrite IH. unfold gather_step, loc_cell. cbn [fst snd filter flat_map].
    destruct (key_eqb kk k); cbn [andb].
    + destruct g; cbn [push_cell is_free_b tor_list fst snd length app].
      * f_equal. lia.
      * rewrite <- app_assoc. reflexivity.
    + reflexivity.
Qed.

Lemma gather_zero : forall kk L, fold_left (gather_step kk) L zero_cell = loc_cell kk L.
Proof.
  intros kk L. rewrite gather_from. unfold zero_cell. cbn [fst snd app plus Nat.add].
  symmetry. apply surjective_pairing.
Qed.

(* loc_cell of all_located = regroup of gens_at *)
Lemma regroup_app : forall q_of j g1 g2,
  regroup q_of j (g1 ++ g2)
  = ((fst (regroup q_of j g1) + fst (regroup q_of j g2))%nat, snd (regroup q_of j g1) ++ snd (regroup q_of j g2)).
Proof.
  intros. unfold regroup. cbn [fst snd]. rewrite !filter_app, app_length, flat_map_app. reflexivity.
Qed.

Lemma regroup_cons : forall q_of j g gs,
  regroup q_of j (g :: gs)
  = (((if (q_of (snd g) =? j)%Z && is_free_b (fst g) then 1 else 0) + fst (regroup q_of j gs))%nat,
     (if q_of (snd g) =? j then tor_list (fst g) else []) ++ snd (regroup q_of j gs)).
Proof.
  intros q_of j g gs. unfold regroup. cbn [filter fst snd].
  destruct (q_of (snd g) =? j); cbn [filter flat_map andb]; [|reflexivity]. destruct (is_free_b (fst g)); reflexivity.
Qed.

Lemma loc_cell_cons : forall k x L,
  loc_cell k (x :: L)
  = (((if key_eqb k (fst x) && is_free_b (snd x) then 1 else 0) + fst (loc_cell k L))%nat,
     (if key_eqb k (fst x) then tor_list (snd x) else []) ++ snd (loc_cell k L)).
Proof.
  intros k x L. unfold loc_cell. cbn [filter flat_map fst snd].
  destruct (key_eqb k (fst x) && is_free_b (snd x)); reflexivity.
Qed.

Lemma loc_cell_locate_same : forall i j gs,
  loc_cell (i, j) (locate i gs) = regroup chain_q_deg j gs.
Proof.
  intros i j gs. induction gs as [|[g qs] gs IH]; [reflexivity|].
  cbn [locate map]. fold (locate i gs). rewrite loc_cell_cons, regroup_cons, IH.
  unfold key_eqb. cbn [fst snd]. now rewrite Z.eqb_refl, (Z.eqb_sym j).
Qed.

(* the located generators of one homological degree *)
Definition at_deg (i : Z) (L : list (key * gkind)) : list (key * gkind) := filter (fun x => fst (fst x) =? i) L.

Lemma at_deg_locate_same : forall i gs, at_deg i (locate i gs) = locate i gs.
Proof.
  intros i gs. induction gs as [|[g qs] gs IH]; [reflexivity|].
  change (locate i ((g, qs) :: gs)) with (((i, chain_q_deg qs), g) :: locate i gs).
  unfold at_deg in *. cbn [filter fst snd]. rewrite Z.eqb_refl. f_equal. exact IH.
Qed.

Lemma at_deg_locate_other : forall i i' gs, i' <> i -> at_deg i (locate i' gs) = [].
Proof.
  intros i i' gs H. induction gs as [|[g qs] gs IH]; [reflexivity|].
  change (locate i' ((g, qs) :: gs)) with (((i', chain_q_deg qs), g) :: locate i' gs).
  unfold at_deg in *. cbn [filter fst snd]. apply Z.eqb_neq in H. rewrite H. exact IH.
Qed.

Lemma at_deg_all_located : forall i hs, at_deg i (all_located hs) = locate i (gens_at hs i).
Proof.
  intros i hs. induction hs as [|[i' s] hs IH]; [reflexivity|].
  change (all_located ((i', s) :: hs)) with (locate i' (tagged s) ++ all_located hs).
  change (gens_at ((i', s) :: hs) i) with ((if i' =? i then tagged s else []) ++ gens_at hs i).
  unfold at_deg in *. rewrite filter_app. unfold locate at 2. rewrite map_app.
  apply f_equal2; [|exact IH].
  destruct (i' =? i) eqn:E.
  - apply Z.eqb_eq in E. subst. exact (at_deg_locate_same i (tagged s)).
  - apply Z.eqb_neq in E. exact (at_deg_locate_other i i' (tagged s) E).
Qed.

Lemma loc_cell_at_deg : forall k L, loc_cell k L = loc_cell k (at_deg (fst k) L).
Proof.
  intros k L. induction L as [|x L IH]; [reflexivity|].
  change (at_deg (fst k) (x :: L))
    with (if fst (fst x) =? fst k then x :: at_deg (fst k) L else at_deg (fst k) L).
  destruct (fst (fst x) =? fst k) eqn:E.
  - rewrite !loc_cell_cons, <- IH. reflexivity.
  - rewrite loc_cell_cons, <- IH.
    assert (F : key_eqb k (fst x) = false).
    { apply key_eqb_false. intros H. subst k. rewrite Z.eqb_refl in E. discriminate. }
    rewrite F. cbn [andb]. destruct (loc_cell k L); reflexivity.
Qed.

Lemma loc_cell_all_located : forall i j hs,
  loc_cell (i, j) (all_located hs) = regroup chain_q_deg j (gens_at hs i).
Proof.
  intros i j hs. rewrite (loc_cell_at_deg (i, j)). cbn [fst]. rewrite at_deg_all_located.
  apply loc_cell_locate_same.
Qed.

(* the table entry of (i, j) is the regrouping of the generators of degree i by q_deg; no hypothesis *)
Lemma collect_gen_info_regroup : forall hs i j,
  cell_of (tbl_find (i, j) (collect_gen_info hs)) = regroup chain_q_deg j (gens_at hs i).
Proof.
  intros hs i j. fold (cellv (i, j) (collect_gen_info hs)).
  rewrite cellv_collect_gen_info, gather_zero. apply loc_cell_all_located.
Qed.

(* keys of the table = keys of the located generators *)
Lemma tbl_find_update_some : forall kk k f t,
  (exists e, tbl_find kk (tbl_update k f t) = Some e) <-> (kk = k \/ exists e, tbl_find kk t = Some e).
Proof.
  intros kk k f t. rewrite tbl_find_update. destruct (key_eqb kk k) eqn:E.
  - apply key_eqb_spec in E. split; [auto | intros _; eexists; reflexivity].
  - apply key_eqb_false in E. tauto.
Qed.

Lemma tbl_find_in_keys : forall kk t, (exists e, tbl_find kk t = Some e) <-> In kk (map fst t).
Proof.
  intros kk t. induction t as [|[k1 e1] t IH].
  - cbn. split; [intros [e He]; discriminate | tauto].
  - cbn [tbl_find map fst In]. destruct (key_eqb kk k1) eqn:E.
    + apply key_eqb_spec in E. split; [auto | intros _; eexists; reflexivity].
    + apply key_eqb_false in E. rewrite IH. split; [auto | intros [H|H]; [congruence | exact H]].
Qed.

Lemma keys_collect_from : forall kk i gs k t,
  In kk (map fst (collect_from i k gs t)) <-> In kk (map fst (locate i gs)) \/ In kk (map fst t).
Proof.
  intros kk i gs. induction gs as [|[g qs] gs IH]; intros k t.
  - cbn. tauto.
  - cbn [collect_from locate map fst snd In]. rewrite IH.
    rewrite <- (tbl_find_in_keys kk (tbl_update _ _ _)), tbl_find_update_some, tbl_find_in_keys.
    unfold locate. intuition congruence.
Qed.

Lemma keys_collect_gen_info_from : forall kk hs t,
  In kk (map fst (fold_left (fun t ih => collect_from (fst ih) O (tagged (snd ih)) t) hs t))
  <-> In kk (map fst (all_located hs)) \/ In kk (map fst t).
Proof.
  intros kk hs. induction hs as [|ih hs IH]; intros t.
  - cbn. tauto.
  - cbn [fold_left all_located flat_map]. rewrite IH, keys_collect_from, map_app, in_app_iff.
    fold (all_located hs). tauto.
Qed.

Lemma keys_collect_gen_info : forall kk hs,
  In kk (map fst (collect_gen_info hs)) <-> In kk (map fst (all_located hs)).
Proof.
  intros kk hs. unfold collect_gen_info. rewrite keys_collect_gen_info_from. cbn. tauto.
Qed.

Lemma tbl_update_keys_nodup : forall k f t, NoDup (map fst t) -> NoDup (map fst (tbl_update k f t)).
Proof.
  intros k f t. induction t as [|[k1 e1] t IH]; intros H.
  - cbn. constructor; [intros [] | constructor].
  - cbn [tbl_update]. destruct (key_eqb k k1) eqn:E.
    + exact H.
    + cbn [map fst]. inversion H as [|? ? Hn Hd]; subst. constructor.
      * intros Hin. apply Hn. apply tbl_find_in_keys. apply tbl_find_in_keys in Hin.
        apply tbl_find_update_some in Hin. destruct Hin as [Hin|Hin]; [|exact Hin].
        subst k1. rewrite key_eqb_refl in E. discriminate.
      * apply IH. exact Hd.
Qed.

Lemma collect_from_keys_nodup : forall i gs k t, NoDup (map fst t) -> NoDup (map fst (collect_from i k gs t)).
Proof.
  intros i gs. induction gs as [|[g qs] gs IH]; intros k t H.
  - exact H.
  - cbn [collect_from]. apply IH. apply tbl_update_keys_nodup. exact H.
Qed.

Lemma collect_gen_info_keys_nodup : forall hs, NoDup (map fst (collect_gen_info hs)).
Proof.
  intros hs. unfold collect_gen_info.
  assert (G : forall t, NoDup (map fst t) ->
     NoDup (map fst (fold_left (fun t ih => collect_from (fst ih) O (tagged (snd ih)) t) hs t))).
  { induction hs as [|ih hs IH]; intros t H; [exact H|]. cbn [fold_left]. apply IH.
    apply collect_from_keys_nodup. exact H. }
  apply G. constructor.
Qed.
