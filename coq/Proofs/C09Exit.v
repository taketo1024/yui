(* C09 - exit conditions, part 1: after eliminate_all the target is diagonal with its non-zero
   entries first (read off the loops' exit tests; the frame of already finished rows and columns is
   an invariant of every elementary step). *)
From Coq Require Import ZArith List Bool Arith Lia Ring.
Require Import Yui.Base.Ring Yui.Base.MatF Yui.Base.MatL Yui.Model.Snf Yui.Proofs.C09Mat Yui.Proofs.C09Inv
  Yui.Proofs.C09Run.
Import ListNotations.

(* at most one element satisfies p, and the i-th does: no other does *)
Lemma filter_le1 {X : Type} (p : X -> bool) (l : list X) (d : X) i k :
  length (filter p l) <= 1 -> i < length l -> p (nth i l d) = true -> k < length l -> k <> i ->
  p (nth k l d) = false.
Proof.
  revert i k. induction l as [|x l IH]; intros i k H Hi Hp Hk Hne; cbn in *; [lia|].
  destruct (p x) eqn:Px; cbn in H.
  - assert (E : filter p l = []) by (destruct (filter p l); [reflexivity|cbn in H; lia]).
    destruct i as [|i].
    + destruct k as [|k]; [lia|].
      destruct (p (nth k l d)) eqn:Pk; [|reflexivity].
      assert (In (nth k l d) (filter p l)) by (apply filter_In; split; [apply nth_In; lia|exact Pk]).
      rewrite E in H0. contradiction.
    + assert (In (nth i l d) (filter p l)) by (apply filter_In; split; [apply nth_In; lia|exact Hp]).
      rewrite E in H0. contradiction.
  - destruct i as [|i]; [congruence|]. destruct k as [|k]; [exact Px|].
    apply (IH i k); try assumption; lia.
Qed.

Section Exit.
  Context {R : Type} (D : euc_dict R) (SL : snf_laws D) (fp : fuel_policy R).
  Let o := ed_ring D.
  Let L : ring_laws o := sl_ring D SL.
  Add Ring Rring : (ring_theory_of_laws o L).

  Local Notation "0" := (rzero o).
  Local Notation "1" := (rone o).
  Local Infix "+" := (radd o).
  Local Infix "*" := (rmul o).
  Local Notation "- x" := (rneg o x).
  Local Notation get := (lget o).
  Implicit Types T : lmat R.

  Variables m n : nat.

  Lemma row_nz_le1 T i l :
    wf m n T -> i < m -> i < n -> row_nz D T i <= 1 -> get T i i <> 0 -> l < n -> l <> i -> get T i l = 0.
  Proof.
    intros W Hi Hin H Hp Hl Hne. unfold row_nz in H.
    pose proof (wf_row m n T i W Hi) as Hlen.
    assert (E : negb (ris_zero (ed_ring D) (nth l (nth i T []) 0)) = false).
    { apply (filter_le1 (fun a => negb (ris_zero (ed_ring D) a)) (nth i T []) 0 i l); try assumption; try lia.
      apply negb_true_iff. apply (ris_zero_false o L). exact Hp. }
    apply negb_false_iff in E. now apply (ris_zero_true o L) in E.
  Qed.

  Lemma col_nz_le1 T j k :
    wf m n T -> j < m -> col_nz D T j <= 1 -> get T j j <> 0 -> k < m -> k <> j -> get T k j = 0.
  Proof.
    intros W Hj H Hp Hk Hne. unfold col_nz in H.
    assert (E : (fun r => negb (ris_zero (ed_ring D) (nth j r 0))) (nth k T []) = false).
    { apply (filter_le1 (fun r => negb (ris_zero (ed_ring D) (nth j r 0))) T [] j k); try assumption; try (destruct W; lia).
      apply negb_true_iff. apply (ris_zero_false o L). exact Hp. }
    cbv beta in E. apply negb_false_iff in E. now apply (ris_zero_true o L) in E.
  Qed.

  (* the frame: rows/columns < i are finished, columns lo..hi-1 are zero *)
  Definition Fr (i lo hi : nat) T : Prop :=
    wf m n T /\
    (forall k l, k < i -> l < n -> l <> k -> get T k l = 0) /\
    (forall k l, k < i -> k < n -> l < m -> l <> k -> get T l k = 0) /\
    (forall l k, lo <= l -> l < hi -> l < n -> k < m -> get T k l = 0) /\
    (forall k, k < i -> get T k k <> 0).

  (* T' is T with rows a, b replaced by combinations of rows a, b *)
  Definition RowMix (a b : nat) T T' : Prop :=
    wf m n T' /\ exists c1 c2 c3 c4, forall r k, r < m -> k < n ->
      get T' r k = if r =? b then get T a k * c3 + get T b k * c4
                   else if r =? a then get T a k * c1 + get T b k * c2 else get T r k.
  Definition ColMix (a b : nat) T T' : Prop :=
    wf m n T' /\ exists c1 c2 c3 c4, forall r k, r < m -> k < n ->
      get T' r k = if k =? b then get T r a * c3 + get T r b * c4
                   else if k =? a then get T r a * c1 + get T r b * c2 else get T r k.

  Lemma RowMix_left_elem c1 c2 c3 c4 a b T :
    wf m n T -> a < m -> b < m -> RowMix a b T (m_left_elem D c1 c2 c3 c4 a b T).
  Proof.
    intros W Ha Hb. split; [now apply wf_left_elem|]. exists c1, c2, c3, c4. intros r k Hr Hk.
    now apply (get_left_elem D m n).
  Qed.
  Lemma RowMix_swap a b T : wf m n T -> a < m -> b < m -> RowMix a b T (m_swap_rows a b T).
  Proof.
    intros W Ha Hb. split; [now apply wf_swap_rows|]. exists 0, 1, 1, 0. intros r k Hr Hk.
    rewrite (get_swap_rows D m n) by assumption. unfold swp. fold o.
    ncase0; first [ring | exfalso; congruence].
  Qed.
  Lemma ColMix_right_elem c1 c2 c3 c4 a b T :
    wf m n T -> ColMix a b T (m_right_elem D c1 c2 c3 c4 a b T).
  Proof.
    intros W. split; [now apply wf_right_elem|]. exists c1, c2, c3, c4. intros r k Hr Hk.
    now apply (get_right_elem D m n).
  Qed.

  (* the frame only speaks about i <= m *)
  Lemma Fr_i_le_m i lo hi T : Fr i lo hi T -> i <= m.
  Proof.
    intros (W & _ & _ & _ & F4). destruct (Nat.le_gt_cases i m); [assumption|].
    exfalso. apply (F4 m); [lia|]. now apply (lget_out_row o m n).
  Qed.

  Lemma Fr_rowmix i lo hi a b T T' :
    Fr i lo hi T -> i <= a -> a < m -> i <= b -> b < m -> RowMix a b T T' -> Fr i lo hi T'.
  Proof.
    intros HF Ha Ham Hb Hbm (W' & c1 & c2 & c3 & c4 & HE).
    pose proof (Fr_i_le_m _ _ _ _ HF) as Him. destruct HF as (W & F1 & F2 & F3 & F4).
    split; [exact W'|]. split; [|split; [|split]].
    - intros k l Hk Hl Hne. rewrite HE by lia.
      destruct (Nat.eqb_spec k b); [lia|]. destruct (Nat.eqb_spec k a); [lia|]. now apply F1.
    - intros k l Hk Hkn Hl Hne. rewrite HE by lia.
      destruct (Nat.eqb_spec l b); [|destruct (Nat.eqb_spec l a)].
      + rewrite (F2 k a), (F2 k b) by lia. ring.
      + rewrite (F2 k a), (F2 k b) by lia. ring.
      + now apply F2.
    - intros l k Hl1 Hl2 Hln Hk. rewrite HE by lia.
      destruct (k =? b); [|destruct (k =? a)]; rewrite ?(F3 l a), ?(F3 l b), ?(F3 l k) by lia; ring.
    - intros k Hk. assert (k < m) by lia.
      destruct (Nat.lt_ge_cases k n) as [Hkn|Hkn].
      + rewrite HE by lia. destruct (Nat.eqb_spec k b); [lia|]. destruct (Nat.eqb_spec k a); [lia|]. now apply F4.
      + exfalso. apply (F4 k Hk). now apply (lget_out_col o m n).
  Qed.

  Lemma Fr_colmix i lo hi a b T T' :
    Fr i lo hi T -> i <= a -> i <= b -> (a < lo \/ hi <= a) -> (b < lo \/ hi <= b) ->
    ColMix a b T T' -> Fr i lo hi T'.
  Proof.
    intros HF Ha Hb Hao Hbo (W' & c1 & c2 & c3 & c4 & HE).
    pose proof (Fr_i_le_m _ _ _ _ HF) as Him. destruct HF as (W & F1 & F2 & F3 & F4).
    split; [exact W'|]. split; [|split; [|split]].
    - intros k l Hk Hl Hne. assert (k < m) by lia. rewrite HE by lia.
      assert (Z : forall c, i <= c -> get T k c = 0).
      { intros c Hc. destruct (Nat.lt_ge_cases c n); [apply F1; lia|now apply (lget_out_col o m n)]. }
      destruct (Nat.eqb_spec l b); [|destruct (Nat.eqb_spec l a)].
      + rewrite (Z a), (Z b) by lia. ring.
      + rewrite (Z a), (Z b) by lia. ring.
      + now apply F1.
    - intros k l Hk Hkn Hl Hne. rewrite HE by lia.
      destruct (Nat.eqb_spec k b); [lia|]. destruct (Nat.eqb_spec k a); [lia|]. now apply F2.
    - intros l k Hl1 Hl2 Hln Hk. rewrite HE by lia.
      destruct (Nat.eqb_spec l b); [lia|]. destruct (Nat.eqb_spec l a); [lia|]. now apply F3.
    - intros k Hk. assert (k < m) by lia.
      destruct (Nat.lt_ge_cases k n) as [Hkn|Hkn].
      + rewrite HE by lia. destruct (Nat.eqb_spec k b); [lia|]. destruct (Nat.eqb_spec k a); [lia|]. now apply F4.
      + exfalso. apply (F4 k Hk). now apply (lget_out_col o m n).
  Qed.

  Lemma Fr_range i lo hi lo' hi' T :
    Fr i lo hi T -> (forall l, lo' <= l < hi' -> lo <= l < hi) -> Fr i lo' hi' T.
  Proof.
    intros (W & F1 & F2 & F3 & F4) H. repeat (split; try assumption).
    intros l k H1 H2 H3 H4. apply F3; try assumption; apply H; lia.
  Qed.

  (* state of the elimination at (i, i): frame, zero columns i+1..j, non-zero pivot *)
  Definition EA (i j : nat) T : Prop := Fr i (S i) (S j) T /\ get T i i <> 0.

  Lemma elim_col_body_EA i j i1 sm sm' :
    i < m -> i < n -> i1 < m -> EA i j (st_t (fst sm)) ->
    elim_col_body D i i i1 sm = Some sm' -> EA i j (st_t (fst sm')).
  Proof.
    intros Hi Hin Hi1 [HF HP]. unfold elim_col_body. cbv zeta.
    destruct ((i1 =? i) || ris_zero (ed_ring D) (mget D (st_t (fst sm)) i1 i)) eqn:C.
    - intros E. inversion E; subst. now split.
    - apply orb_false_iff in C. destruct C as [C1 C2]. apply Nat.eqb_neq in C1.
      apply (ris_zero_false o L) in C2. rewrite mget_lget in C2.
      assert (Hgt : i < i1).
      { destruct (Nat.lt_ge_cases i i1); [assumption|]. exfalso. apply C2.
        destruct HF as (_ & F1 & _). apply F1; lia. }
      destruct (snf_gcdx D _ _) as [[[d sx] ty]|] eqn:G; cbn [sbind]; [|discriminate].
      intros E. inversion E; subst sm'; clear E. cbn [fst s_left_elem st_t].
      destruct (snf_gcdx_spec D SL _ _ _ _ _ G) as (Hd & Hbez & _). fold o in Hbez.
      pose proof HF as (W & _).
      split.
      + apply (Fr_rowmix i (S i) (S j) i i1 (st_t (fst sm))); try assumption; try lia.
        now apply RowMix_left_elem.
      + rewrite (get_left_elem D m n) by assumption.
        destruct (Nat.eqb_spec i i1); [lia|]. rewrite Nat.eqb_refl.
        intros E. apply Hd. rewrite Hbez. unfold mget. cbv zeta. fold o. fold o in E.
        etransitivity; [|exact E]. ring.
  Qed.

  Lemma eliminate_col_EA i j s r :
    i < m -> i < n -> EA i j (st_t s) -> eliminate_col D m i i s = Some r -> EA i j (st_t (fst r)).
  Proof.
    intros Hi Hin HS H. unfold eliminate_col in H.
    apply (ofold_inv (fun sm => EA i j (st_t (fst sm))) _ _ _ _ ) in H; [exact H| |exact HS].
    intros k x x' Hk Hx E. apply in_seq in Hk. apply (elim_col_body_EA i j k x x'); try assumption; lia.
  Qed.

  Lemma elim_row_body_EA i j j1 sm sm' :
    i < m -> i < n -> j1 < n -> EA i j (st_t (fst sm)) ->
    elim_row_body D i i j1 sm = Some sm' -> EA i j (st_t (fst sm')).
  Proof.
    intros Hi Hin Hj1 [HF HP]. unfold elim_row_body. cbv zeta.
    destruct ((j1 =? i) || ris_zero (ed_ring D) (mget D (st_t (fst sm)) i j1)) eqn:C.
    - intros E. inversion E; subst. now split.
    - apply orb_false_iff in C. destruct C as [C1 C2]. apply Nat.eqb_neq in C1.
      apply (ris_zero_false o L) in C2. rewrite mget_lget in C2.
      assert (Hgt : i < j1 /\ j < j1).
      { destruct HF as (_ & _ & F2 & F3 & _).
        assert (i < j1).
        { destruct (Nat.lt_ge_cases i j1); [assumption|]. exfalso. apply C2, F2; lia. }
        split; [assumption|].
        destruct (Nat.lt_ge_cases j j1); [assumption|]. exfalso. apply C2, F3; lia. }
      destruct (snf_gcdx D _ _) as [[[d sx] ty]|] eqn:G; cbn [sbind]; [|discriminate].
      intros E. inversion E; subst sm'; clear E. cbn [fst s_right_elem st_t].
      destruct (snf_gcdx_spec D SL _ _ _ _ _ G) as (Hd & Hbez & _). fold o in Hbez.
      pose proof HF as (W & _).
      split.
      + apply (Fr_colmix i (S i) (S j) i j1 (st_t (fst sm))); try assumption; try lia.
        now apply ColMix_right_elem.
      + rewrite (get_right_elem D m n) by assumption.
        destruct (Nat.eqb_spec i j1); [lia|]. rewrite Nat.eqb_refl.
        intros E. apply Hd. rewrite Hbez. unfold mget. cbv zeta. fold o. fold o in E.
        etransitivity; [|exact E]. ring.
  Qed.

  Lemma eliminate_row_EA i j s r :
    i < m -> i < n -> EA i j (st_t s) -> eliminate_row D n i i s = Some r -> EA i j (st_t (fst r)).
  Proof.
    intros Hi Hin HS H. unfold eliminate_row in H.
    apply (ofold_inv (fun sm => EA i j (st_t (fst sm))) _ _ _ _ ) in H; [exact H| |exact HS].
    intros k x x' Hk Hx E. apply in_seq in Hk. apply (elim_row_body_EA i j k x x'); try assumption; lia.
  Qed.

  Lemma eliminate_loop_EA fuel i j s s' :
    i < m -> i < n -> EA i j (st_t s) -> eliminate_loop D m n fuel i i s = Some s' ->
    EA i j (st_t s') /\ row_nz D (st_t s') i <= 1 /\ col_nz D (st_t s') i <= 1.
  Proof.
    intros Hi Hin. revert s. induction fuel as [|f IH]; intros s HS H; cbn [eliminate_loop] in H; [discriminate|].
    destruct ((1 <? row_nz D (st_t s) i) || (1 <? col_nz D (st_t s) i)) eqn:C.
    - destruct (eliminate_col D m i i s) as [r1|] eqn:E1; cbn [sbind] in H; [|discriminate].
      destruct (eliminate_row D n i i (fst r1)) as [r2|] eqn:E2; cbn [sbind] in H; [|discriminate].
      destruct (snd r1 || snd r2); [|discriminate].
      apply (IH (fst r2)); [|exact H].
      apply (eliminate_row_EA i j (fst r1)); try assumption.
      now apply (eliminate_col_EA i j s).
    - inversion H; subst s'. apply orb_false_iff in C. destruct C as [C1 C2].
      apply Nat.ltb_ge in C1, C2. split; [exact HS|split; assumption].
  Qed.

  (* the frame after the pivot (i, i) is finished *)
  Lemma eliminate_at_Fr i j s s' :
    i < m -> i < n -> EA i j (st_t s) -> eliminate_at D fp m n i i s = Some s' ->
    Fr (S i) (S i) (S j) (st_t s').
  Proof.
    intros Hi Hin HS. unfold eliminate_at. cbv zeta.
    destruct (ris_zero _ _); [discriminate|]. intros H.
    apply (eliminate_loop_EA _ i j s s' Hi Hin HS) in H.
    destruct H as ([(W & F1 & F2 & F3 & F4) HP] & Hr & Hc).
    split; [exact W|]. split; [|split; [|split]].
    - intros k l Hk Hl Hne. destruct (Nat.eq_dec k i) as [->|]; [|apply F1; lia].
      now apply (row_nz_le1 (st_t s') i l).
    - intros k l Hk Hkn Hl Hne. destruct (Nat.eq_dec k i) as [->|]; [|apply F2; lia].
      now apply (col_nz_le1 (st_t s') i l).
    - exact F3.
    - intros k Hk. destruct (Nat.eq_dec k i) as [->|]; [exact HP|apply F4; lia].
  Qed.

  Lemma select_pivot_none T below j l :
    select_pivot D m T below j = None -> below <= l -> l < m -> get T l j = 0.
  Proof.
    unfold select_pivot. destruct (filter _ _) as [|i0 r] eqn:F; [|discriminate]. intros _ H1 H2.
    destruct (ris_zero o (mget D T l j)) eqn:Z; [now apply (ris_zero_true o L) in Z|].
    assert (In l (filter (fun i => negb (ris_zero (ed_ring D) (mget D T i j))) (seq below (m - below)))).
    { apply filter_In. split; [apply in_seq; lia|]. fold o. now rewrite Z. }
    rewrite F in H. contradiction.
  Qed.

  Lemma Fr_swap_cols i j T : i < j -> j < n -> Fr i i j T -> Fr i (S i) (S j) (m_swap_cols i j T).
  Proof.
    intros Hij Hj HF. pose proof (Fr_i_le_m _ _ _ _ HF) as Him. destruct HF as (W & F1 & F2 & F3 & F4).
    assert (HE : forall r k, r < m -> k < n -> get (m_swap_cols i j T) r k = get T r (swp i j k)).
    { intros r k Hr Hk. apply (get_swap_cols D m n); try assumption; lia. }
    split; [now apply wf_swap_cols|]. split; [|split; [|split]].
    - intros k l Hk Hl Hne. rewrite HE by lia. unfold swp.
      destruct (Nat.eqb_spec l i); [apply F1; lia|]. destruct (Nat.eqb_spec l j); apply F1; lia.
    - intros k l Hk Hkn Hl Hne. rewrite HE by lia. unfold swp.
      destruct (Nat.eqb_spec k i); [lia|]. destruct (Nat.eqb_spec k j); [lia|]. now apply F2.
    - intros l k Hl1 Hl2 Hln Hk. rewrite HE by lia. unfold swp.
      destruct (Nat.eqb_spec l i); [lia|]. destruct (Nat.eqb_spec l j); apply F3; lia.
    - intros k Hk. assert (k < m) by lia.
      destruct (Nat.lt_ge_cases k n) as [Hkn|Hkn].
      + rewrite HE by lia. unfold swp.
        destruct (Nat.eqb_spec k i); [lia|]. destruct (Nat.eqb_spec k j); [lia|]. now apply F4.
      + exfalso. apply (F4 k Hk). now apply (lget_out_col o m n).
  Qed.

  Lemma Fr_mul_col i lo hi c v T : i <= c -> Fr i lo hi T -> Fr i lo hi (m_mul_col D c v T).
  Proof.
    intros Hc HF. pose proof (Fr_i_le_m _ _ _ _ HF) as Him. destruct HF as (W & F1 & F2 & F3 & F4).
    assert (HE : forall r k, r < m -> k < n ->
               get (m_mul_col D c v T) r k = if k =? c then get T r k * v else get T r k).
    { intros r k Hr Hk. now apply (get_mul_col D m n). }
    split; [now apply wf_mul_col|]. split; [|split; [|split]].
    - intros k l Hk Hl Hne. rewrite HE by lia. rewrite (F1 k l) by assumption. destruct (l =? c); ring.
    - intros k l Hk Hkn Hl Hne. rewrite HE by lia. rewrite (F2 k l) by assumption. destruct (k =? c); ring.
    - intros l k Hl1 Hl2 Hln Hk. rewrite HE by lia. rewrite (F3 l k) by assumption. destruct (l =? c); ring.
    - intros k Hk. assert (k < m) by lia.
      destruct (Nat.lt_ge_cases k n) as [Hkn|Hkn].
      + rewrite HE by lia. destruct (Nat.eqb_spec k c); [lia|]. now apply F4.
      + exfalso. apply (F4 k Hk). now apply (lget_out_col o m n).
  Qed.

  Lemma eliminate_step_Fr i j s r :
    i < m -> i <= j -> j < n -> Fr i i j (st_t s) -> eliminate_step D fp m n i j s = Some r ->
    let i' := if snd r then S i else i in Fr i' i' (S j) (st_t (fst r)).
  Proof.
    intros Hi Hij Hj HF. unfold eliminate_step. cbv zeta.
    destruct (select_pivot D m (st_t s) i j) as [ip|] eqn:SP.
    2:{ intros E. inversion E; subst r; clear E. cbn [fst snd].
        pose proof HF as (W & F1 & F2 & F3 & F4).
        split; [exact W|]. split; [exact F1|]. split; [exact F2|]. split; [|exact F4].
        intros l k Hl1 Hl2 Hln Hk. destruct (Nat.eq_dec l j) as [->|]; [|apply F3; lia].
        destruct (Nat.lt_ge_cases k i); [apply F1; lia|]. now apply (select_pivot_none (st_t s) i j k). }
    apply (select_pivot_range D) in SP. destruct SP as [Hip Hnz].
    apply (ris_zero_false o L) in Hnz. rewrite mget_lget in Hnz.
    pose proof HF as (W & _).
    set (s1 := if i <? ip then s_swap_rows i ip s else s).
    assert (H1 : Fr i i j (st_t s1) /\ get (st_t s1) i j <> 0).
    { unfold s1. destruct (Nat.ltb_spec i ip).
      - cbn [s_swap_rows st_t]. split.
        + apply (Fr_rowmix i i j i ip (st_t s)); try assumption; try lia. apply RowMix_swap; try assumption; lia.
        + rewrite (get_swap_rows D m n) by (try assumption; lia). unfold swp. now rewrite Nat.eqb_refl.
      - assert (ip = i) by lia. subst ip. now split. }
    destruct H1 as [HF1 HP1]. pose proof HF1 as (W1 & _).
    set (s2 := if i <? j then s_swap_cols i j s1 else s1).
    assert (H2 : EA i j (st_t s2)).
    { unfold s2. destruct (Nat.ltb_spec i j).
      - cbn [s_swap_cols st_t]. split; [now apply Fr_swap_cols|].
        rewrite (get_swap_cols D m n) by (try assumption; lia). unfold swp. now rewrite Nat.eqb_refl.
      - assert (j = i) by lia. subst j. split; [|exact HP1].
        apply (Fr_range i i i); [exact HF1|]. intros; lia. }
    set (v := rnunit (ed_unit D) (mget D (st_t s2) i i)).
    destruct (sl_nunit_inv D SL (mget D (st_t s2) i i)) as [vi Hvi]. fold v in Hvi.
    assert (H3 : forall s3, (if ris_one (ed_ring D) v then Some s2 else s_mul_col D i v s2) = Some s3 ->
                            EA i j (st_t s3)).
    { intros s3. destruct (ris_one (ed_ring D) v).
      - intros E. now inversion E; subst.
      - rewrite (s_mul_col_eq D i v vi s2 Hvi). intros E. inversion E; subst s3; clear E. cbn [st_t].
        destruct H2 as [HF2 HP2]. pose proof HF2 as (W2 & _). split; [now apply Fr_mul_col|].
        rewrite (get_mul_col D m n) by (try assumption; lia). rewrite Nat.eqb_refl.
        intros E. destruct (mul_eq_0 D SL _ _ E) as [E1|E1]; [now apply HP2|].
        apply (unit_neq_0 D SL v vi); [|exact E1]. apply (sl_inv D SL). exact Hvi. }
    destruct (if ris_one (ed_ring D) v then Some s2 else s_mul_col D i v s2) as [s3|] eqn:E3; cbn [sbind]; [|discriminate].
    destruct (eliminate_at D fp m n i i s3) as [s4|] eqn:E4; cbn [sbind]; [|discriminate].
    intros E. inversion E; subst r; clear E. cbn [fst snd].
    apply (eliminate_at_Fr i j s3); try assumption; try lia. now apply H3.
  Qed.

  Definition DiagR (r : nat) T : Prop :=
    wf m n T /\ r <= Nat.min m n /\
    (forall k l, k < m -> l < n -> k <> l -> get T k l = 0) /\
    (forall k, k < r -> get T k k <> 0) /\
    (forall k, r <= k -> k < Nat.min m n -> get T k k = 0).

  Lemma DiagR_of_Fr_end i T : i <= n -> Fr i i n T -> DiagR i T.
  Proof.
    intros Hin HF. pose proof (Fr_i_le_m _ _ _ _ HF) as Him. destruct HF as (W & F1 & F2 & F3 & F4).
    split; [exact W|]. split; [lia|]. split; [|split; [exact F4|]].
    - intros k l Hk Hl Hne.
      destruct (Nat.lt_ge_cases k i); [apply F1; lia|].
      destruct (Nat.lt_ge_cases l i); [apply F2; lia|apply F3; lia].
    - intros k Hk1 Hk2. apply F3; lia.
  Qed.

  Lemma DiagR_of_Fr_full j T : m <= j -> j <= n -> Fr m m j T -> DiagR m T.
  Proof.
    intros Hmj Hjn (W & F1 & F2 & F3 & F4).
    split; [exact W|]. split; [lia|]. split; [|split; [exact F4|]].
    - intros k l Hk Hl Hne. apply F1; lia.
    - intros k Hk1 Hk2. lia.
  Qed.

  Lemma eliminate_all_loop_Fr k j0 i s s' :
    Nat.add j0 k = n -> i <= j0 -> Fr i i j0 (st_t s) ->
    eliminate_all_loop D fp m n (seq j0 k) i s = Some s' -> exists r, DiagR r (st_t s').
  Proof.
    revert j0 i s. induction k as [|k IH]; intros j0 i s Hn Hij HF H; cbn [seq eliminate_all_loop] in H.
    - inversion H; subst s'. exists i. apply DiagR_of_Fr_end; [lia|]. now replace n with j0 by lia.
    - destruct (Nat.leb_spec m i).
      + inversion H; subst s'. exists m. pose proof (Fr_i_le_m _ _ _ _ HF). assert (i = m) by lia. subst i.
        apply (DiagR_of_Fr_full j0); try lia. exact HF.
      + destruct (eliminate_step D fp m n i j0 s) as [sb|] eqn:E; cbn [sbind] in H; [|discriminate].
        apply (eliminate_step_Fr i j0 s sb) in E; try assumption; try lia. cbv zeta in E.
        apply (IH (S j0) (if snd sb then S i else i) (fst sb)); try lia; try assumption.
        destruct (snd sb); lia.
  Qed.

  Lemma eliminate_all_diag s s' :
    wf m n (st_t s) -> eliminate_all D fp m n s = Some s' -> exists r, DiagR r (st_t s').
  Proof.
    intros W H. apply (eliminate_all_loop_Fr n 0 0 s s'); try assumption; try lia.
    split; [exact W|]. repeat split; intros; lia.
  Qed.
End Exit.
