(* C18 - the orientation clause.  For a valid code all of whose crossings are unresolved (X / Xm) and
   which is consistently oriented ([Oriented l o]: an assignment head/tail to the half-edges that is
   compatible with the passage through crossings, with the pairing of the two ends of an edge, and with
   the under-strand direction 0 -> 2 of every crossing), [crossing_signs] returns the signs of an
   orientation o' of the same kind: o' = o except that the components in a set [rev] are reversed, and
   a reversed component never passes under (its direction is not constrained by the code).

   Invariant of [sign_loop]: the set [passed] is a union of components, and crossing i carries the sign
   of o' exactly when the label of its over-strand has been passed.  *)
From Coq Require Import List Arith Bool Lia ZArith.
Require Import Yui.Model.Link Yui.Proofs.C18Base Yui.Proofs.C18Traverse Yui.Proofs.C18Components
  Yui.Proofs.C18Signs.
Import ListNotations.

(* o p = true: the oriented strand arrives at the crossing through half-edge p; false: it leaves *)
Definition Oriented (l : link) (o : pos -> bool) : Prop :=
  (forall p, InR l p -> o (exit_of l p) = negb (o p)) /\
  (forall p, InR l p -> o (tau l p) = negb (o p)) /\
  (forall i, i < length l -> o (i, 0) = true).

Definition Unresolved (l : link) : Prop := forall i, i < length l -> is_resolved (cross_at l i) = false.

(* the sign of crossing i for the orientation o: the over-strand arrives through slot 1 or through slot 3 *)
Definition sgn_at (l : link) (o : pos -> bool) (i : nat) : sign :=
  match ct (cross_at l i) with
  | X => if o (i, 1) then Neg else Pos
  | Xm => if o (i, 1) then Pos else Neg
  | _ => Pos
  end.
Definition signs_of (l : link) (o : pos -> bool) : list sign := map (sgn_at l o) (seq 0 (length l)).

(* o with the components selected by rev (a predicate on labels) reversed *)
Definition oxr (l : link) (o : pos -> bool) (rev : nat -> bool) (p : pos) : bool :=
  xorb (o p) (rev (edge_at l p)).

Lemma nth_set_nth : forall A (k i : nat) (x d : A) sg,
  nth i (set_nth k x sg) d = if (i =? k) && (k <? length sg) then x else nth i sg d.
Proof.
  induction k as [|k IH]; intros i x d sg; destruct sg as [|a sg]; cbn [set_nth length].
  - rewrite andb_false_r. reflexivity.
  - destruct i; reflexivity.
  - rewrite andb_false_r. reflexivity.
  - destruct i as [|i]; [reflexivity|]. cbn [nth]. rewrite IH. reflexivity.
Qed.

Lemma visit_sign_length : forall l sg p, length (visit_sign l sg p) = length sg.
Proof. intros. unfold visit_sign. destruct (sign_of _ _); auto. apply set_nth_length. Qed.
Lemma fold_visit_length : forall l ps sg, length (fold_left (visit_sign l) ps sg) = length sg.
Proof. induction ps as [|p ps IH]; intros; cbn; auto. rewrite IH. apply visit_sign_length. Qed.

Lemma fold_visit_unch : forall l i ps sg,
  (forall q, In q ps -> fst q = i -> sign_of (ct (cross_at l i)) (snd q) = None) ->
  nth i (fold_left (visit_sign l) ps sg) None = nth i sg None.
Proof.
  intros l i. induction ps as [|p ps IH]; intros sg H; cbn [fold_left]; auto.
  rewrite IH by (intros; apply H; cbn; auto).
  unfold visit_sign. destruct (sign_of (ct (cross_at l (fst p))) (snd p)) eqn:E; auto.
  rewrite nth_set_nth. destruct (Nat.eqb_spec i (fst p)) as [->|N]; cbn [andb]; auto.
  rewrite (H p) in E by (cbn; auto). discriminate.
Qed.

Lemma fold_visit_keep : forall l i s ps sg,
  (forall q, In q ps -> fst q = i ->
     sign_of (ct (cross_at l i)) (snd q) = None \/ sign_of (ct (cross_at l i)) (snd q) = Some s) ->
  nth i sg None = Some s -> nth i (fold_left (visit_sign l) ps sg) None = Some s.
Proof.
  intros l i s. induction ps as [|p ps IH]; intros sg H E; cbn [fold_left]; auto.
  apply IH; [intros; apply H; cbn; auto|].
  unfold visit_sign. destruct (sign_of (ct (cross_at l (fst p))) (snd p)) eqn:F; auto.
  rewrite nth_set_nth. destruct (Nat.eqb_spec i (fst p)) as [->|N]; cbn [andb]; auto.
  destruct (fst p <? length sg); auto.
  destruct (H p ltac:(cbn; auto) eq_refl) as [G|G]; congruence.
Qed.

Lemma fold_visit_set : forall l i s ps sg, i < length sg ->
  (forall q, In q ps -> fst q = i ->
     sign_of (ct (cross_at l i)) (snd q) = None \/ sign_of (ct (cross_at l i)) (snd q) = Some s) ->
  (exists q, In q ps /\ fst q = i /\ sign_of (ct (cross_at l i)) (snd q) = Some s) ->
  nth i (fold_left (visit_sign l) ps sg) None = Some s.
Proof.
  intros l i s. induction ps as [|p ps IH]; intros sg Hi H (q & Hq & Eq & Sq); [destruct Hq|].
  cbn [fold_left]. destruct Hq as [->|Hq].
  - apply fold_visit_keep; [intros; apply H; cbn; auto|].
    unfold visit_sign. rewrite Eq, Sq. rewrite nth_set_nth, Nat.eqb_refl.
    assert (i <? length sg = true) as -> by (apply Nat.ltb_lt; auto). reflexivity.
  - apply IH; [rewrite visit_sign_length; auto|intros; apply H; cbn; auto|eauto].
Qed.

Lemma mem_eq_iff : forall a b s, (In a s <-> In b s) -> mem a s = mem b s.
Proof.
  intros a b s H. apply eq_true_iff_eq. rewrite !mem_spec. exact H.
Qed.

Lemma sign_of_even : forall t j, j = 0 \/ j = 2 -> sign_of t j = None.
Proof. intros t j [-> | ->]; destruct t; reflexivity. Qed.

Section Orient.
  Variable l : link.
  Hypothesis Hv : Valid l.
  Hypothesis Hu : Unresolved l.
  Variable o : pos -> bool.
  Hypothesis Ho : Oriented l o.

  Lemma ct_unres : forall i, i < length l -> ct (cross_at l i) = X \/ ct (cross_at l i) = Xm.
  Proof.
    intros i Hi. specialize (Hu i Hi). unfold is_resolved in Hu.
    destruct (ct (cross_at l i)); auto; discriminate.
  Qed.
  Lemma exit_13 : forall i, i < length l -> exit_of l (i, 1) = (i, 3) /\ exit_of l (i, 3) = (i, 1).
  Proof. intros i Hi. unfold exit_of. cbn [fst snd]. destruct (ct_unres i Hi) as [-> | ->]; auto. Qed.

  Lemma o_sigma : forall p, InR l p -> o (sigma l p) = o p.
  Proof.
    intros p Hp. destruct Ho as (H1 & H2 & _). unfold sigma.
    rewrite H2 by (apply exit_InR; auto). rewrite H1 by auto. apply negb_involutive.
  Qed.
  Lemma o_sig : forall k p, InR l p -> o (sig l k p) = o p.
  Proof.
    induction k; intros p Hp; cbn [sig]; auto. rewrite o_sigma by (apply sig_InR; auto). auto.
  Qed.

  Lemma thru_13 : forall i, i < length l -> thru l (edge_at l (i, 1)) (edge_at l (i, 3)).
  Proof.
    intros i Hi. exists (i, 1). split; [split; cbn; auto|]. split; auto.
    destruct (exit_13 i Hi) as [-> _]. reflexivity.
  Qed.

  (* the sign recorded when an over-slot is visited in the direction of the orientation o'' *)
  Lemma sign_of_sgn : forall o'' i j, i < length l -> j = 1 \/ j = 3 ->
    o'' (i, j) = true -> o'' (i, 3) = negb (o'' (i, 1)) ->
    sign_of (ct (cross_at l i)) j = Some (sgn_at l o'' i).
  Proof.
    intros o'' i j Hi Hj T E. unfold sgn_at.
    destruct (ct_unres i Hi) as [-> | ->]; destruct Hj as [-> | ->]; cbn [sign_of].
    - rewrite T. reflexivity.
    - rewrite T in E. symmetry in E. apply negb_true_iff in E. rewrite E. reflexivity.
    - rewrite T. reflexivity.
    - rewrite T in E. symmetry in E. apply negb_true_iff in E. rewrite E. reflexivity.
  Qed.

  Definition ovl (i : nat) : nat := edge_at l (i, 1).

  Record Inv (passed : list nat) (sg : list (option sign)) (rev : nat -> bool) : Prop := {
    inv_closed : thru_closed l passed;
    inv_rev_in : forall e, rev e = true -> In e passed;
    inv_rev_thru : forall e e', thru l e e' -> rev e = rev e';
    inv_rev_under : forall i, i < length l -> rev (edge_at l (i, 0)) = false;
    inv_len : length sg = length l;
    inv_sg : forall i, i < length l ->
      nth i sg None = if mem (ovl i) passed then Some (sgn_at l (oxr l o rev) i) else None }.

  Definition AllUnder (passed : list nat) : Prop := forall i, i < length l -> In (edge_at l (i, 0)) passed.

  Lemma oxr_13 : forall rev, (forall e e', thru l e e' -> rev e = rev e') ->
    forall i, i < length l -> oxr l o rev (i, 3) = negb (oxr l o rev (i, 1)).
  Proof.
    intros rev Hr i Hi. unfold oxr. rewrite <- (Hr _ _ (thru_13 i Hi)).
    destruct Ho as (H1 & _ & _). specialize (H1 (i, 1) ltac:(split; cbn; auto)).
    destruct (exit_13 i Hi) as [E _]. rewrite E in H1. rewrite H1.
    destruct (o (i, 1)); destruct (rev (edge_at l (i, 1))); reflexivity.
  Qed.

  Lemma step : forall passed sg rev p, Inv passed sg rev -> InR l p -> ~ In (edge_at l p) passed ->
    (o p = true \/ AllUnder passed) ->
    exists ps rev', traverse_edges l p = Some ps /\
      Inv (map (edge_at l) ps ++ passed) (fold_left (visit_sign l) ps sg) rev' /\
      In (edge_at l p) (map (edge_at l) ps).
  Proof.
    intros passed sg rev p I HpR Hnp Hdir.
    destruct (traverse_valid l Hv p HpR) as (m & Hm & _ & Hc & Hnd & Ht).
    set (O := orbit_list l p m) in *. set (L := map (edge_at l) O).
    set (b := o p). set (rev' := fun e => rev e || (negb b && mem e L)).
    exists (O ++ [p]), rev'. split; [exact Ht|].
    assert (HLc : thru_closed l L) by (apply (labels_thru_closed l Hv p HpR m Hm Hc)).
    assert (HpL : In (edge_at l p) L) by (apply (labels_start l p m Hm)).
    pose proof (labels_fresh l Hv p HpR m Hm passed (inv_closed _ _ _ I) Hnp) as HLp.
    assert (HOR : forall q, In q O -> InR l q) by (intros q Hq; eapply orbit_list_InR; eauto).
    assert (HinP : forall x, In x (map (edge_at l) (O ++ [p]) ++ passed) <-> In x L \/ In x passed).
    { intros x. rewrite map_app, !in_app_iff. cbn [map In]. fold L. split.
      - intros [[A|[<-|[]]]|A]; auto.
      - intros [A|A]; auto. }
    assert (Hps : forall q, In q (O ++ [p]) -> In q O).
    { intros q Hq. apply in_app_iff in Hq. destruct Hq as [Hq|[<-|[]]]; auto.
      apply (orbit_start l p m Hm). }
    assert (Hrt' : forall e e', thru l e e' -> rev' e = rev' e').
    { intros e e' T. unfold rev'. rewrite (inv_rev_thru _ _ _ I e e' T). do 2 f_equal.
      apply mem_eq_iff. split; intros A; [eapply HLc; eauto|].
      eapply HLc; [exact A|]. apply thru_sym; auto. }
    (* every half-edge of the orbit is run through in the direction of the new orientation *)
    assert (Hon : forall q, In q O -> oxr l o rev' q = true).
    { intros q Hq. assert (A : In (edge_at l q) L) by apply (in_map _ _ _ Hq).
      assert (Eo : o q = b).
      { apply (orbit_In l p m Hm) in Hq. destruct Hq as [k [_ ->]]. apply o_sig; auto. }
      assert (R : rev (edge_at l q) = false).
      { destruct (rev (edge_at l q)) eqn:R; auto. destruct (HLp _ A). apply (inv_rev_in _ _ _ I), R. }
      unfold oxr, rev'. rewrite Eo, R, (proj2 (mem_spec _ _) A). destruct b; reflexivity. }
    (* crossings whose over-strand lies on this orbit, and what a visit records there *)
    assert (Hover : forall i j, i < length l -> j = 1 \/ j = 3 -> In (i, j) O ->
      In (ovl i) L /\ sign_of (ct (cross_at l i)) j = Some (sgn_at l (oxr l o rev') i)).
    { intros i j Hi Hj Hq. split; [|apply sign_of_sgn; auto; apply oxr_13; auto].
      assert (In (edge_at l (i, j)) L) as A by (apply in_map; auto).
      destruct Hj as [-> | ->]; [exact A|]. eapply HLc; [exact A|]. apply thru_sym, thru_13; auto. }
    assert (Hrec : forall i j, i < length l -> In (i, j) O ->
      sign_of (ct (cross_at l i)) j = None \/
      In (ovl i) L /\ sign_of (ct (cross_at l i)) j = Some (sgn_at l (oxr l o rev') i)).
    { intros i j Hi Hq. destruct (HOR _ Hq) as [_ Hj].
      destruct (lt_4_cases j Hj) as [->|[->|[->| ->]]];
        [left; apply sign_of_even|right; apply Hover|left; apply sign_of_even|right; apply Hover]; auto. }
    assert (Hwit : forall i, i < length l -> In (ovl i) L -> In (i, 1) O \/ In (i, 3) O).
    { intros i Hi Hin. apply in_map_iff in Hin. destruct Hin as [q [Eq Hq]].
      assert (Hi1 : InR l (i, 1)) by (split; cbn; auto).
      destruct (same_label_cases l Hv (i, 1) q Hi1 (HOR q Hq) Eq) as [-> | ->]; auto.
      right. destruct (orbit_pred l p m Hm Hc _ Hq) as [q' [Hq' Eq']].
      pose proof (sigma_inv l Hv q' (HOR q' Hq')) as SI. rewrite Eq' in SI.
      rewrite (tau_invol l Hv) in SI by auto. destruct (exit_13 i Hi) as [E1 _]. rewrite E1 in SI.
      rewrite SI. exact Hq'. }
    split; [|rewrite map_app; apply in_app_iff; left; exact HpL].
    constructor.
    - intros e e' He T. apply HinP in He. apply HinP. destruct He as [He|He].
      + left. eapply HLc; eauto.
      + right. eapply (inv_closed _ _ _ I); eauto.
    - intros e He. apply HinP. apply orb_true_iff in He. destruct He as [He|He].
      + right. apply (inv_rev_in _ _ _ I); auto.
      + left. apply andb_true_iff in He. apply mem_spec. tauto.
    - exact Hrt'.
    - intros i Hi. unfold rev'. rewrite (inv_rev_under _ _ _ I i Hi). cbn [orb].
      destruct Hdir as [D|D].
      + unfold b. rewrite D. reflexivity.
      + assert (mem (edge_at l (i, 0)) L = false) as ->; [|apply andb_false_r].
        apply mem_false. intros A. apply (HLp _ A). apply D; auto.
    - rewrite fold_visit_length. apply (inv_len _ _ _ I).
    - intros i Hi. destruct (mem (ovl i) L) eqn:ML.
      + apply mem_spec in ML.
        rewrite (proj2 (mem_spec _ _) (proj2 (HinP _) (or_introl ML))).
        apply fold_visit_set.
        * rewrite (inv_len _ _ _ I). exact Hi.
        * intros [i' j] Hq Ei. cbn [fst snd] in *. subst i'.
          destruct (Hrec i j Hi (Hps _ Hq)) as [A|[_ A]]; auto.
        * destruct (Hwit i Hi ML) as [W|W]; [exists (i, 1)|exists (i, 3)];
            (split; [apply in_app_iff; auto|]); (split; [reflexivity|]); apply Hover; auto.
      + rewrite fold_visit_unch.
        * rewrite (inv_sg _ _ _ I i Hi).
          assert (mem (ovl i) (map (edge_at l) (O ++ [p]) ++ passed) = mem (ovl i) passed) as ->.
          { apply eq_true_iff_eq. rewrite !mem_spec, HinP. apply mem_false in ML. tauto. }
          destruct (mem (ovl i) passed); auto. f_equal.
          unfold sgn_at, oxr. fold (ovl i). unfold rev'. rewrite ML, andb_false_r, orb_false_r. reflexivity.
        * intros [i' j] Hq Ei. cbn [fst snd] in *. subst i'.
          destruct (Hrec i j Hi (Hps _ Hq)) as [A|[A _]]; [exact A|].
          apply mem_spec in A. congruence.
  Qed.

  Lemma sign_loop_inv : forall starts passed sg rev, Inv passed sg rev ->
    (forall p, In p starts -> InR l p) ->
    ((forall p, In p starts -> o p = true) \/ AllUnder passed) ->
    exists passed' sg' rev', sign_loop l starts passed sg = Some (passed', sg') /\ Inv passed' sg' rev' /\
      incl passed passed' /\ (forall p, In p starts -> In (edge_at l p) passed').
  Proof.
    induction starts as [|p r IH]; intros passed sg rev I HR Hdir.
    - exists passed, sg, rev. cbn. split; auto. split; auto. split; [apply incl_refl|]. intros p [].
    - assert (HR' : forall q, In q r -> InR l q) by (intros; apply HR; cbn; auto).
      assert (Hdir' : (forall q, In q r -> o q = true) \/ AllUnder passed).
      { destruct Hdir as [D|D]; [left; intros; apply D; cbn; auto|right; exact D]. }
      cbn [sign_loop]. destruct (mem (edge_at l p) passed) eqn:M.
      + apply mem_spec in M.
        destruct (IH passed sg rev I HR' Hdir') as (passed' & sg' & rev' & E & I' & Inc & Cov).
        exists passed', sg', rev'. split; auto. split; auto. split; auto.
        intros q [<-|Hq]; auto.
      + apply mem_false in M.
        destruct (step passed sg rev p I (HR p (or_introl eq_refl)) M) as (ps & rev1 & Ht & I1 & Hp1).
        { destruct Hdir as [D|D]; [left; apply D; cbn; auto|right; exact D]. }
        rewrite Ht.
        assert (Inc1 : incl passed (map (edge_at l) ps ++ passed)) by (apply incl_appr, incl_refl).
        destruct (IH _ _ rev1 I1 HR') as (passed' & sg' & rev' & E & I' & Inc & Cov).
        { destruct Hdir' as [D|D]; [left; exact D|right; intros i Hi; apply Inc1, D; auto]. }
        exists passed', sg', rev'. split; auto. split; auto.
        split; [eapply incl_tran; eauto|].
        intros q [<-|Hq]; auto. apply Inc. apply in_app_iff. auto.
  Qed.

  Lemma crossing_num_unres : crossing_num l = length l.
  Proof.
    unfold crossing_num. assert (H : forall c, In c l -> is_resolved c = false).
    { intros c Hc. apply (In_nth _ _ dummy_c) in Hc. destruct Hc as [i [Hi <-]]. apply Hu; auto. }
    clear -H. induction l as [|c l' IH]; cbn; auto. rewrite (H c) by (cbn; auto). cbn.
    rewrite IH; auto. intros; apply H; cbn; auto.
  Qed.

  Lemma flatten_all_some : forall (f : nat -> sign) n (sg : list (option sign)) k, length sg = n ->
    (forall i, i < n -> nth i sg None = Some (f (k + i))) -> flatten_opt sg = map f (seq k n).
  Proof.
    induction n as [|n IH]; intros sg k HL H; destruct sg as [|a sg]; cbn in HL; try lia; [reflexivity|].
    cbn [seq map]. pose proof (H 0 ltac:(lia)) as H0. cbn in H0. rewrite Nat.add_0_r in H0. subst a.
    unfold flatten_opt. cbn [flat_map app]. f_equal. apply (IH sg (S k)); [lia|].
    intros i Hi. specialize (H (S i) ltac:(lia)). cbn [nth] in H. rewrite H. f_equal. f_equal. lia.
  Qed.

  (* the orientation clause *)
  Theorem signs_orientation :
    exists rev : nat -> bool,
      (forall e e', thru l e e' -> rev e = rev e') /\
      (forall i, i < length l -> rev (edge_at l (i, 0)) = false) /\
      crossing_signs l = Some (signs_of l (oxr l o rev)).
  Proof.
    assert (I0 : Inv [] (repeat None (length l)) (fun _ => false)).
    { constructor; auto.
      - intros e e' [].
      - intros e; discriminate.
      - apply repeat_length.
      - intros i Hi. cbn. apply nth_repeat. }
    destruct (sign_loop_inv (starts_j l 0) [] _ _ I0
                ltac:(intros p Hp; apply (starts_j_InR l 0); auto; lia)
                ltac:(left; intros [i j] Hp; apply starts_j_In in Hp; cbn in Hp; destruct Hp as [Hi ->];
                      destruct Ho as (_ & _ & H3); apply H3; auto))
      as (passed0 & sg0 & rev0 & E0 & I1 & _ & Cov0).
    assert (AU : AllUnder passed0).
    { intros i Hi. apply (Cov0 (i, 0)). apply starts_j_In. cbn. auto. }
    (* whatever happens next, we end in a state where every over label is passed *)
    assert (Fin : exists passed' sg' rev',
      (if unsigned_left l sg0 then sign_loop l (starts_j l 1 ++ starts_j l 2) passed0 sg0 else Some (passed0, sg0))
        = Some (passed', sg') /\ Inv passed' sg' rev' /\ forall i, i < length l -> In (ovl i) passed').
    { destruct (unsigned_left l sg0) eqn:UL.
      - destruct (sign_loop_inv (starts_j l 1 ++ starts_j l 2) passed0 sg0 rev0 I1
                    ltac:(intros p Hp; apply in_app_iff in Hp;
                          destruct Hp as [Hp|Hp]; [apply (starts_j_InR l 1)|apply (starts_j_InR l 2)]; auto; lia)
                    ltac:(right; exact AU))
          as (passed' & sg' & rev' & E1 & I2 & _ & Cov1).
        exists passed', sg', rev'. split; auto. split; auto.
        intros i Hi. apply (Cov1 (i, 1)). apply in_app_iff. left. apply starts_j_In. cbn. auto.
      - exists passed0, sg0, rev0. split; auto. split; auto.
        intros i Hi. unfold unsigned_left in UL.
        assert (A : negb (is_resolved (cross_at l i)) && is_none (nth i sg0 None) = false).
        { destruct (negb (is_resolved (cross_at l i)) && is_none (nth i sg0 None)) eqn:B; auto.
          assert (existsb (fun i => negb (is_resolved (cross_at l i)) && is_none (nth i sg0 None))
                    (seq 0 (length l)) = true); [|congruence].
          apply existsb_exists. exists i. split; auto. apply in_seq. lia. }
        rewrite (Hu i Hi) in A. cbn [negb andb] in A.
        rewrite (inv_sg _ _ _ I1 i Hi) in A.
        destruct (mem (ovl i) passed0) eqn:M; [apply mem_spec; auto|discriminate]. }
    destruct Fin as (passed' & sg' & rev' & E1 & I2 & Cov).
    exists rev'. split; [apply (inv_rev_thru _ _ _ I2)|]. split; [apply (inv_rev_under _ _ _ I2)|].
    unfold crossing_signs. rewrite E0, E1.
    assert (flatten_opt sg' = signs_of l (oxr l o rev')) as ->.
    { unfold signs_of. apply flatten_all_some; [apply (inv_len _ _ _ I2)|].
      intros i Hi. rewrite (inv_sg _ _ _ I2 i Hi).
      assert (mem (ovl i) passed' = true) as -> by (apply mem_spec; auto). reflexivity. }
    unfold signs_of at 1. rewrite map_length, seq_length, crossing_num_unres, Nat.eqb_refl. reflexivity.
  Qed.

  (* o with the components in rev reversed is again an orientation *)
  Lemma oxr_Oriented : forall rev, (forall e e', thru l e e' -> rev e = rev e') ->
    (forall i, i < length l -> rev (edge_at l (i, 0)) = false) -> Oriented l (oxr l o rev).
  Proof.
    intros rev Hr H0. destruct Ho as (H1 & H2 & H3). split; [|split].
    - intros p Hp. unfold oxr. rewrite H1 by auto.
      assert (rev (edge_at l (exit_of l p)) = rev (edge_at l p)) as ->.
      { symmetry. apply Hr. exists p. auto. }
      destruct (o p); destruct (rev (edge_at l p)); reflexivity.
    - intros p Hp. unfold oxr. rewrite H2 by auto. rewrite (tau_label l Hv) by auto.
      destruct (o p); destruct (rev (edge_at l p)); reflexivity.
    - intros i Hi. unfold oxr. rewrite H3, H0 by auto. reflexivity.
  Qed.
End Orient.
