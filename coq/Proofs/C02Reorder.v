(* C02 invariance: reordering the crossings.  Permuting the list of crossings permutes the state
   bits; signs of the differential change, so the cubes are only isomorphic.  Proved here: the multiset
   of (weight, circles) over all states is invariant ([W_perm]), hence the number of generators in every
   cube degree and every local quantum degree is invariant ([count_gens_perm]). *)
From Coq Require Import List Arith Bool ZArith Lia Permutation.
Require Import Yui.Model.KhCube Yui.Model.KhHomology.
Require Import Yui.Base.ListFacts.
Require Import Yui.Proofs.C02Sorted Yui.Proofs.C02Canon Yui.Proofs.C02CubeMap.
Import ListNotations.
Close Scope Z_scope.

(* circles of a crossingless diagram do not depend on the order of its pieces *)
Lemma conn_perm l l' : Permutation l l' -> forall a b, conn l a b -> conn l' a b.
Proof.
  intros P. apply conn_incl.
  - intros e. apply Permutation_in. unfold all_edges. now apply Permutation_flat_map.
  - intros a b H. apply gen_arc. revert H. apply Permutation_in. unfold all_arcs. now apply Permutation_flat_map.
Qed.

Theorem circles_perm l l' : Permutation l l' -> circles l = circles l'.
Proof.
  intros P. apply circles_ext. intros a b. split; apply conn_perm; [exact P|now apply Permutation_sym].
Qed.

Lemma flat_map_cons_perm {A B} (h : A -> B) (t : A -> list B) l :
  Permutation (flat_map (fun a => h a :: t a) l) (map h l ++ flat_map t l).
Proof.
  induction l as [|a l IH]; [constructor|]. cbn [flat_map map app]. constructor.
  rewrite IH. rewrite !app_assoc. apply Permutation_app_tail. apply Permutation_app_comm.
Qed.

Lemma prod_comm_perm {A B C} (G : A -> B -> C) (la : list A) (lb : list B) :
  Permutation (flat_map (fun a => map (fun b => G a b) lb) la) (flat_map (fun b => map (fun a => G a b) la) lb).
Proof.
  induction la as [|a la IH].
  - cbn [flat_map map]. induction lb as [|b lb IHb]; [constructor|exact IHb].
  - cbn [flat_map map]. rewrite (flat_map_cons_perm (fun b => G a b) (fun b => map (fun a => G a b) la) lb).
    now apply Permutation_app_head.
Qed.

Lemma flat_map_perm_pointwise {A B} (f g : A -> list B) l :
  (forall a, In a l -> Permutation (f a) (g a)) -> Permutation (flat_map f l) (flat_map g l).
Proof.
  induction l as [|a l IH]; intros H; [constructor|]. cbn [flat_map].
  apply Permutation_app; [apply H; now left|]. apply IH. intros b Hb. apply H. now right.
Qed.

Lemma flat_map_flat_map {A B C} (f : B -> list C) (g : A -> list B) l :
  flat_map f (flat_map g l) = flat_map (fun a => flat_map f (g a)) l.
Proof. induction l as [|a l IH]; [reflexivity|]. cbn [flat_map]. now rewrite flat_map_app, IH. Qed.

(* all resolutions, as a recursion over the crossings *)
Definition opts (c : crossing) : list (nat * crossing) :=
  if is_resolved c then [(0, c)]
  else [(0, (resolve_type (fst c) false, snd c)); (1, (resolve_type (fst c) true, snd c))].
Definition ext1 (wL : nat * link) (o : nat * crossing) : nat * link := (fst o + fst wL, snd o :: snd wL).

Fixpoint res_all (l : link) : list (nat * link) :=
  match l with
  | [] => [(0, [])]
  | c :: r => flat_map (fun wL => map (ext1 wL) (opts c)) (res_all r)
  end.

Lemma crossing_num_cons c l :
  crossing_num (c :: l) = if is_resolved c then crossing_num l else S (crossing_num l).
Proof. unfold crossing_num. cbn [filter]. now destruct (is_resolved c). Qed.

Lemma flat_map_single {A B} (f : A -> B) l : flat_map (fun a => [f a]) l = map f l.
Proof. induction l as [|a l IH]; [reflexivity|]. cbn [flat_map map app]. now rewrite IH. Qed.

Lemma res_all_spec l :
  map (fun s => (weight s, resolve_by l s)) (all_lists (crossing_num l)) = res_all l.
Proof.
  induction l as [|c l IH]; [reflexivity|]. cbn [res_all]. rewrite <- IH, flat_map_map.
  rewrite crossing_num_cons. unfold opts. cbn [resolve_by].
  destruct (is_resolved c) eqn:Ec.
  - cbn [map]. now rewrite (flat_map_single (fun s => ext1 (weight s, resolve_by l s) (0, c))).
  - cbn [all_lists]. rewrite map_flat_map. apply flat_map_ext. intros s. reflexivity.
Qed.

(* (weight, circles of pre ++ resolution) *)
Definition Fp (pre : link) (wL : nat * link) : nat * partition := (fst wL, circles (pre ++ snd wL)).
Definition shift (d : nat) (wc : nat * partition) : nat * partition := (d + fst wc, snd wc).

Lemma Fp_ext1 pre wL o : Fp pre (ext1 wL o) = shift (fst o) (Fp (pre ++ [snd o]) wL).
Proof. unfold Fp, ext1, shift. cbn [fst snd]. now rewrite <- app_assoc. Qed.

Lemma res_all_perm l l' : Permutation l l' ->
  forall pre, Permutation (map (Fp pre) (res_all l)) (map (Fp pre) (res_all l')).
Proof.
  intros P. induction P as [|x l l' P IH|x y l|l l' l'' P1 IH1 P2 IH2]; intros pre.
  - apply Permutation_refl.
  - cbn [res_all]. rewrite !map_flat_map.
    assert (E : forall l0, Permutation
                  (flat_map (fun wL => map (Fp pre) (map (ext1 wL) (opts x))) (res_all l0))
                  (flat_map (fun o => map (shift (fst o)) (map (Fp (pre ++ [snd o])) (res_all l0))) (opts x))).
    { intros l0.
      rewrite (flat_map_ext _ (fun wL => map (fun o => shift (fst o) (Fp (pre ++ [snd o]) wL)) (opts x)))
        by (intros wL; rewrite map_map; apply map_ext; intros o; apply Fp_ext1).
      rewrite (prod_comm_perm (fun wL o => shift (fst o) (Fp (pre ++ [snd o]) wL)) (res_all l0) (opts x)).
      apply flat_map_perm_pointwise. intros o _. now rewrite map_map. }
    rewrite (E l), (E l'). apply flat_map_perm_pointwise. intros o _. apply Permutation_map. apply IH.
  - cbn [res_all]. rewrite !flat_map_flat_map, !map_flat_map.
    apply flat_map_perm_pointwise. intros wL _. rewrite !flat_map_map, !map_flat_map.
    rewrite (flat_map_ext (fun ox => map (Fp pre) (map (ext1 (ext1 wL ox)) (opts y)))
                          (fun ox => map (fun oy => Fp pre (ext1 (ext1 wL ox) oy)) (opts y)))
      by (intros ox; now rewrite map_map).
    rewrite (prod_comm_perm (fun ox oy => Fp pre (ext1 (ext1 wL ox) oy)) (opts x) (opts y)).
    rewrite (flat_map_ext (fun oy => map (Fp pre) (map (ext1 (ext1 wL oy)) (opts x)))
                          (fun oy => map (fun ox => Fp pre (ext1 (ext1 wL oy) ox)) (opts x)))
      by (intros oy; now rewrite map_map).
    apply flat_map_perm_pointwise. intros oy _.
    rewrite (map_ext (fun ox => Fp pre (ext1 (ext1 wL ox) oy)) (fun ox => Fp pre (ext1 (ext1 wL oy) ox)));
      [apply Permutation_refl|].
    intros ox. unfold Fp, ext1. cbn [fst snd]. f_equal; [lia|].
    apply circles_perm. apply Permutation_app_head. apply perm_swap.
  - eapply Permutation_trans; [apply IH1|apply IH2].
Qed.

(* the multiset of (weight of the state, circles of the resolution) *)
Definition W (l : link) : list (nat * partition) :=
  map (fun s => (weight s, circles (resolve_by l s))) (all_lists (crossing_num l)).

Theorem W_perm l l' : Permutation l l' -> Permutation (W l) (W l').
Proof.
  intros P.
  assert (E : forall l0, W l0 = map (Fp []) (res_all l0)).
  { intros l0. rewrite <- res_all_spec, map_map. reflexivity. }
  rewrite !E. now apply res_all_perm.
Qed.

Lemma crossing_num_perm l l' : Permutation l l' -> crossing_num l = crossing_num l'.
Proof.
  intros P. unfold crossing_num. apply Permutation_length.
  induction P as [|x l l' P IH|x y l|l l' l'' P1 IH1 P2 IH2]; cbn [filter].
  - constructor.
  - destruct (negb (is_resolved x)); [now constructor|exact IH].
  - destruct (negb (is_resolved x)), (negb (is_resolved y)); try apply Permutation_refl. apply perm_swap.
  - eapply Permutation_trans; eassumption.
Qed.

(* selections that see a generator only through the weight of its state and its label *)
Definition sel_wx (sel : vertex * label -> bool) (sf : nat -> label -> bool) : Prop :=
  forall v x, sel (v, x) = sf (weight (v_state v)) x.

Definition cnt (red : option nat) (sf : nat -> label -> bool) (k : nat) (wc : nat * partition) : nat :=
  if fst wc =? k
  then length (filter (sf k) (labels_at (base_index red (snd wc)) (length (snd wc))))
  else 0.

Lemma count_states l red sel sf k (S : list (list bool)) : sel_wx sel sf ->
  length (filter sel (gens_of_weight (map (make_vertex l red) S) k))
  = list_sum (map (cnt red sf k) (map (fun s => (weight s, circles (resolve_by l s))) S)).
Proof.
  intros Hs. unfold gens_of_weight. induction S as [|s S IH]; [reflexivity|].
  cbn [map]. change (list_sum (?a :: ?r)) with (a + list_sum r). rewrite <- IH. clear IH.
  unfold cnt. cbn [filter fst snd]. cbn [make_vertex v_state].
  destruct (Nat.eqb_spec (weight s) k) as [E|_]; [|reflexivity].
  cbn [flat_map]. rewrite filter_app, app_length. f_equal.
  cbn [v_labels]. rewrite filter_map_comm, map_length. f_equal. apply filter_ext.
  intros x. rewrite Hs. cbn [make_vertex v_state]. now rewrite E.
Qed.

Lemma gens_at_build l red h t k :
  gens_at (build_cube l red h t) k
  = if k <=? crossing_num l then gens_of_weight (all_vertices l red) k else [].
Proof.
  unfold gens_at, build_cube. cbn [c_gens]. set (n := crossing_num l).
  destruct (Nat.leb_spec k n) as [Hk|Hk].
  - rewrite (nth_indep _ [] (gens_of_weight (all_vertices l red) 0)) by (rewrite map_length, seq_length; lia).
    rewrite (map_nth (gens_of_weight (all_vertices l red)) (seq 0 (S n)) 0 k). now rewrite seq_nth by lia.
  - apply nth_overflow. rewrite map_length, seq_length. lia.
Qed.

Lemma count_gens_W l red h t k sel sf : sel_wx sel sf ->
  count_gens (build_cube l red h t) k sel
  = if k <=? crossing_num l then list_sum (map (cnt red sf k) (W l)) else 0.
Proof.
  intros Hs. unfold count_gens. rewrite gens_at_build. destruct (k <=? crossing_num l); [|reflexivity].
  unfold all_vertices, W. now apply count_states.
Qed.

Theorem count_gens_perm l l' red h t k sel sf : Permutation l l' -> sel_wx sel sf ->
  count_gens (build_cube l' red h t) k sel = count_gens (build_cube l red h t) k sel.
Proof.
  intros P Hs. rewrite !(count_gens_W _ red h t k sel sf Hs). rewrite <- (crossing_num_perm l l' P).
  destruct (k <=? crossing_num l); [|reflexivity].
  apply Permutation_list_sum. apply Permutation_map. apply Permutation_sym. now apply W_perm.
Qed.

Lemma sel_wx_q q : sel_wx (fun g => Z.eqb (q_local g) q)
  (fun w x => Z.eqb (Z.of_nat (length (filter negb x)) - Z.of_nat (length (filter (fun b => b) x)) + Z.of_nat w)%Z q).
Proof. intros v x. reflexivity. Qed.

Lemma sel_wx_all : sel_wx (fun _ => true) (fun _ _ => true).
Proof. intros v x. reflexivity. Qed.
