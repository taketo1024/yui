(* C04 - the graded Euler characteristic of the cube of resolutions is the state sum:
   sum over generators of (-1)^h q^j  =  jones_model,  for every diagram (as options: the two sides panic
   on the same inputs).  Per vertex: sum over labels of q^deg = (q + q^-1)^circles. *)
From Coq Require Import List Arith Bool ZArith Lia.
Require Import Yui.Model.Link Yui.Model.Jones Yui.Proofs.C04Poly.
Import ListNotations.
Local Open Scope Z_scope.

Definition sgn_nat (n : nat) : Z := if Nat.even n then 1 else -1.

Lemma sgn_nat_S : forall n, sgn_nat (S n) = - sgn_nat n.
Proof. intros. unfold sgn_nat. rewrite Nat.even_succ, <- Nat.negb_even. destruct (Nat.even n); reflexivity. Qed.
Lemma sgn_nat_cases : forall n, sgn_nat n = 1 \/ sgn_nat n = -1.
Proof. intros. unfold sgn_nat. destruct (Nat.even n); auto. Qed.

Lemma hsign_of_nat : forall n, hsign (Z.of_nat n) = sgn_nat n.
Proof.
  induction n as [|n IH]; [reflexivity|].
  rewrite sgn_nat_S, <- IH. unfold hsign. rewrite Nat2Z.inj_succ, Z.even_succ, <- Z.negb_even.
  destruct (Z.even (Z.of_nat n)); reflexivity.
Qed.
Lemma hsign_opp : forall h, hsign (- h) = hsign h.
Proof. intros. unfold hsign. rewrite Z.even_opp. reflexivity. Qed.
Lemma hsign_add : forall a b, hsign (a + b) = hsign a * hsign b.
Proof. intros. unfold hsign. rewrite Z.even_add. destruct (Z.even a), (Z.even b); reflexivity. Qed.
Lemma hsign_gen : forall nn w, hsign (- Z.of_nat nn + Z.of_nat w) = sgn_nat nn * sgn_nat w.
Proof. intros. rewrite hsign_add, hsign_opp, !hsign_of_nat. reflexivity. Qed.

(* (-q)^w is the monomial (-1)^w q^w *)
Lemma ppow_minus_q : forall w, ppow minus_q w = [(Z.of_nat w, sgn_nat w)].
Proof.
  induction w as [|w IH]; [reflexivity|].
  cbn [ppow]. rewrite IH, sgn_nat_S. unfold minus_q, pmul, pscale, padd. cbn [fold_right fst snd map].
  rewrite Nat2Z.inj_succ.
  destruct (sgn_nat_cases w) as [-> | ->]; cbn [Z.eqb Z.mul Z.opp padd_term Pos.mul];
    replace (Z.of_nat w + 1) with (Z.succ (Z.of_nat w)) by lia; reflexivity.
Qed.

(* the prefactor is the monomial (-1)^{n-} q^{n+ - 2 n-} *)
Lemma jones_prefactor_mono : forall np nn,
  jones_prefactor np nn = [(Z.of_nat np - 2 * Z.of_nat nn, sgn_nat nn)].
Proof.
  intros. unfold jones_prefactor, sgn_nat, qpow, pconst, pmul, pscale, padd.
  destruct (Nat.even nn); cbn [Z.eqb fold_right fst snd map padd_term Z.mul Z.add Pos.mul]; reflexivity.
Qed.

(* coefficients of (q + q^-1)^r : the number of labels of each degree *)
Definition lab_count (r : nat) (x : Z) : Z :=
  zsum (fun lab : list bool => if label_deg lab + Z.of_nat r =? x then 1 else 0) (all_states r).

Lemma coeff_q0_mul : forall p x, coeff (pmul q0 p) x = coeff p (x - -1) + coeff p (x - 1).
Proof. intros. rewrite coeff_pmul. unfold q0. rewrite !zsum_cons, zsum_nil. cbn [fst snd]. lia. Qed.

Lemma Zeqb_sub_r : forall a x c, (a =? x - c) = (a + c =? x).
Proof. intros. destruct (Z.eqb_spec a (x - c)), (Z.eqb_spec (a + c) x); auto; lia. Qed.

Lemma coeff_ppow_q0 : forall r x, coeff (ppow q0 r) x = lab_count r x.
Proof.
  induction r as [|r IH]; intros x.
  - unfold lab_count. cbn. destruct x; reflexivity.
  - cbn [ppow]. rewrite coeff_pmul_comm. rewrite coeff_q0_mul. rewrite !IH.
    unfold lab_count. cbn [all_states]. rewrite zsum_flat_map.
    rewrite <- zsum_add.
    transitivity (zsum (fun lab : list bool =>
                    (if label_deg lab + Z.of_nat r =? x - -1 then 1 else 0) +
                    (if label_deg lab + Z.of_nat r =? x - 1 then 1 else 0)) (all_states r)).
    { apply zsum_ext. intros; lia. }
    apply zsum_ext. intros lab _. rewrite !zsum_cons, zsum_nil. cbn [label_deg fold_right].
    fold (label_deg lab). rewrite Nat2Z.inj_succ.
    replace (-2 + label_deg lab + Z.succ (Z.of_nat r)) with (label_deg lab + Z.of_nat r + -1) by lia.
    replace (0 + label_deg lab + Z.succ (Z.of_nat r)) with (label_deg lab + Z.of_nat r + 1) by lia.
    rewrite !Zeqb_sub_r. lia.
Qed.

Lemma all_states_length : forall n s, In s (all_states n) -> length s = n.
Proof.
  induction n as [|n IH]; intros s H; cbn in H.
  - destruct H as [<-|[]]; reflexivity.
  - apply in_flat_map in H. destruct H as [t [Ht [<-|[<-|[]]]]]; cbn; rewrite (IH t); auto.
Qed.

(* one vertex of the cube *)
Lemma vertex_identity : forall np nn s r e,
  sgn_nat nn * coeff (jones_term (weight s) r) (e - (Z.of_nat np - 2 * Z.of_nat nn)) =
  zsum (fun x => if snd x =? e then hsign (fst x) else 0)
       (map (fun lab => (gen_hdeg nn s, gen_qdeg np nn s lab)) (all_states r)).
Proof.
  intros np nn s r e. unfold jones_term. rewrite ppow_minus_q, coeff_pmul_mono, coeff_ppow_q0.
  rewrite zsum_map. cbn [fst snd]. unfold lab_count. rewrite Z.mul_assoc, zsum_scal.
  apply zsum_ext. intros lab Hlab. unfold gen_hdeg, gen_qdeg. rewrite hsign_gen.
  rewrite (all_states_length r lab Hlab).
  destruct (Z.eqb_spec (label_deg lab + Z.of_nat r) (e - (Z.of_nat np - 2 * Z.of_nat nn) - Z.of_nat (weight s)));
  destruct (Z.eqb_spec (Z.of_nat np - 2 * Z.of_nat nn + label_deg lab + Z.of_nat r + Z.of_nat (weight s)) e); lia.
Qed.

Lemma body_vs_gens : forall l np nn states,
  match jones_body l states, kh_gens_loop l np nn states with
  | Some b, Some g => forall e,
      sgn_nat nn * coeff b (e - (Z.of_nat np - 2 * Z.of_nat nn)) = coeff (euler_poly g) e
  | None, None => True
  | _, _ => False
  end.
Proof.
  intros l np nn. induction states as [|s rest IH]; cbn [jones_body kh_gens_loop].
  - intros e. rewrite coeff_nil. cbn. lia.
  - destruct (circles l s) as [r|]; [|exact I].
    destruct (jones_body l rest) as [b|], (kh_gens_loop l np nn rest) as [g|]; try contradiction; auto.
    intros e. rewrite coeff_padd, coeff_euler_poly, zsum_app. rewrite <- (coeff_euler_poly g e), <- IH.
    rewrite Z.mul_add_distr_l. f_equal. apply vertex_identity.
Qed.

(* the generator sum and the state sum coincide, and they are defined on the same inputs *)
Theorem kh_euler_jones : forall l, kh_euler l = jones_model l.
Proof.
  intros l. unfold kh_euler, kh_gens, jones_model.
  destruct (signed_crossing_nums l) as [[np nn]|]; [|reflexivity].
  destruct (64 <? crossing_num l)%nat; [reflexivity|].
  pose proof (body_vs_gens l np nn (all_states (crossing_num l))) as H.
  destruct (jones_body l (all_states (crossing_num l))) as [b|],
           (kh_gens_loop l np nn (all_states (crossing_num l))) as [g|]; try contradiction; auto.
  cbn [option_map]. f_equal. apply canon_ext.
  - apply euler_poly_canon.
  - apply pmul_canon.
  - intros e. rewrite jones_prefactor_mono, coeff_pmul_mono. symmetry. apply H.
Qed.

(* hence every polynomial the model returns is canonical *)
Lemma jones_model_canon : forall l p, jones_model l = Some p -> canon p.
Proof.
  intros l p H. rewrite <- kh_euler_jones in H. unfold kh_euler in H.
  destruct (kh_gens l); inversion H. apply euler_poly_canon.
Qed.

Lemma all_states_count : forall n, length (all_states n) = Nat.pow 2 n.
Proof.
  induction n as [|n IH]; [reflexivity|]. cbn [all_states Nat.pow].
  assert (H : forall (l : list (list bool)),
            length (flat_map (fun t => [false :: t; true :: t]) l) = (2 * length l)%nat).
  { induction l as [|x l IHl]; [reflexivity|]. cbn [flat_map app length]. rewrite IHl. lia. }
  rewrite H, IH. reflexivity.
Qed.
