(* Lemmas about the sparse containers of Model/Triang.v: dense buffers, the denotation [centry]/[entry],
   the CSC invariant, transposition, from_entries. *)
From Coq Require Import Arith List Bool Lia Ring.
Require Import Yui.Base.Ring Yui.Base.MatF Yui.Model.Triang.
Require Import Yui.Base.ListFacts.
Import ListNotations.

Lemma obind_some {A B} (x : option A) (f : A -> option B) b :
  obind x f = Some b <-> exists a, x = Some a /\ f a = Some b.
Proof.
  destruct x as [a|]; cbn; split.
  - intros H. now exists a.
  - intros [a' [E H]]. now injection E as ->.
  - discriminate.
  - intros [a' [E _]]. discriminate.
Qed.

Lemma omap_map {A B} (f : A -> option B) (g : A -> B) l :
  (forall x, In x l -> f x = Some (g x)) -> omap f l = Some (map g l).
Proof.
  induction l as [|x r IH]; intros H; cbn; [reflexivity|].
  rewrite (H x) by now left. cbn. rewrite IH by (intros; apply H; now right). reflexivity.
Qed.

Lemma omap_some_inv {A B} (f : A -> option B) l ys :
  omap f l = Some ys -> length ys = length l /\ forall k x, nth_error l k = Some x ->
    exists y, nth_error ys k = Some y /\ f x = Some y.
Proof.
  revert ys. induction l as [|x r IH]; intros ys H; cbn in H.
  - injection H as <-. split; [reflexivity|]. intros [|k] z Hz; discriminate.
  - apply obind_some in H. destruct H as [y [Hy H]]. apply obind_some in H. destruct H as [ys' [Hys H]].
    injection H as <-. destruct (IH _ Hys) as [Hl Hn]. split; [cbn; now rewrite Hl|].
    intros [|k] z Hz; cbn in *.
    + injection Hz as <-. now exists y.
    + now apply Hn.
Qed.

Lemma combine_map_self {A B} (f : A -> B) l : combine l (map f l) = map (fun x => (x, f x)) l.
Proof. induction l as [|x r IH]; cbn; [reflexivity|]. now rewrite IH. Qed.

Lemma flat_map_singleton {A B} (f : A -> list B) (g : A -> B) l :
  (forall x, In x l -> f x = [g x]) -> flat_map f l = map g l.
Proof.
  induction l as [|x r IH]; intros H; cbn; [reflexivity|].
  rewrite (H x) by now left. cbn. rewrite IH by (intros; apply H; now right). reflexivity.
Qed.

Lemma nth_map_seq_over {A} (f : nat -> A) n j d : n <= j -> nth j (map f (seq 0 n)) d = d.
Proof. intros H. apply nth_overflow. now rewrite map_length, seq_length. Qed.

Lemma find_map_key {B} (f : nat -> B) l j :
  In j l -> find (fun p => fst p =? j) (map (fun j => (j, f j)) l) = Some (j, f j).
Proof.
  induction l as [|x r IH]; intros H; [contradiction|]. cbn.
  destruct (Nat.eqb_spec x j) as [->|Hne]; [reflexivity|].
  destruct H as [H|H]; [contradiction|]. now apply IH.
Qed.

Lemma sorted_strict_head x r : sorted_strict (x :: r) = true -> (forall y, In y r -> x < y) /\ sorted_strict r = true.
Proof.
  revert x. induction r as [|y r IH]; intros x H.
  - split; [intros y []|reflexivity].
  - change (sorted_strict (x :: y :: r)) with ((x <? y) && sorted_strict (y :: r)) in H.
    apply andb_true_iff in H. destruct H as [Hxy Hs]. apply Nat.ltb_lt in Hxy.
    split; [|exact Hs]. intros z [<-|Hz]; [assumption|].
    destruct (IH y Hs) as [Hlt _]. specialize (Hlt z Hz). lia.
Qed.

Lemma sorted_strict_NoDup l : sorted_strict l = true -> NoDup l.
Proof.
  induction l as [|x r IH]; intros H; [constructor|].
  destruct (sorted_strict_head x r H) as [Hlt Hs]. constructor; [|now apply IH].
  intros Hin. specialize (Hlt x Hin). lia.
Qed.

Lemma nat_mem_In x l : nat_mem x l = true <-> In x l.
Proof.
  unfold nat_mem. rewrite existsb_exists. split.
  - intros [y [Hy E]]. apply Nat.eqb_eq in E. now subst.
  - intros H. exists x. split; [assumption|apply Nat.eqb_refl].
Qed.

Lemma nat_ins_In x y l : In y (nat_ins x l) <-> y = x \/ In y l.
Proof.
  induction l as [|z r IH]; cbn [nat_ins].
  - cbn [In]. intuition.
  - destruct (x <? z) eqn:E1; [cbn [In]; intuition|].
    destruct (Nat.eqb_spec x z) as [->|Hne]; cbn [In]; [intuition|].
    rewrite IH. intuition.
Qed.

(* insertion keeps "strictly sorted", hence NoDup *)
Lemma sorted_strict_cons2 x y r : sorted_strict (x :: y :: r) = (x <? y) && sorted_strict (y :: r).
Proof. reflexivity. Qed.

Lemma sorted_strict_cons_intro x l : (forall y, In y l -> x < y) -> sorted_strict l = true -> sorted_strict (x :: l) = true.
Proof.
  intros H Hs. destruct l as [|y r]; [reflexivity|]. rewrite sorted_strict_cons2, Hs.
  replace (x <? y) with true by (symmetry; apply Nat.ltb_lt, H; now left). reflexivity.
Qed.

Lemma sorted_filter_keys {A} (p : nat * A -> bool) (c : list (nat * A)) :
  sorted_strict (map fst c) = true -> sorted_strict (map fst (filter p c)) = true.
Proof.
  induction c as [|e r IH]; intros H; [reflexivity|]. cbn [map] in H.
  destruct (sorted_strict_head _ _ H) as [Hlt Hs]. cbn [filter]. destruct (p e); [|now apply IH].
  cbn [map]. apply sorted_strict_cons_intro; [|now apply IH].
  intros y Hy. apply Hlt. apply in_map_iff in Hy. destruct Hy as [e' [<- He']].
  apply filter_In in He'. apply in_map. tauto.
Qed.

Lemma nat_ins_sorted x l : sorted_strict l = true -> sorted_strict (nat_ins x l) = true.
Proof.
  induction l as [|z r IH]; intros H; [reflexivity|].
  cbn [nat_ins]. destruct (x <? z) eqn:E1.
  - now rewrite sorted_strict_cons2, E1, H.
  - destruct (Nat.eqb_spec x z) as [->|Hne]; [assumption|].
    apply Nat.ltb_ge in E1.
    destruct (sorted_strict_head z r H) as [Hlt Hs]. specialize (IH Hs).
    destruct r as [|w r'].
    + cbn [nat_ins]. rewrite sorted_strict_cons2.
      replace (z <? x) with true by (symmetry; apply Nat.ltb_lt; lia). reflexivity.
    + cbn [nat_ins] in *. destruct (x <? w) eqn:E2.
      * rewrite sorted_strict_cons2.
        replace (z <? x) with true by (symmetry; apply Nat.ltb_lt; lia). exact IH.
      * destruct (Nat.eqb_spec x w) as [->|Hne2]; [exact H|].
        rewrite sorted_strict_cons2.
        assert (z < w) by (apply Hlt; now left).
        replace (z <? w) with true by (symmetry; now apply Nat.ltb_lt). exact IH.
Qed.

Lemma nat_union_sorted l1 l2 : sorted_strict l1 = true -> sorted_strict (nat_union l1 l2) = true.
Proof.
  unfold nat_union. revert l1. induction l2 as [|x r IH]; intros l1 H; cbn; [assumption|].
  apply IH. now apply nat_ins_sorted.
Qed.

Lemma nat_union_In l1 l2 y : In y (nat_union l1 l2) <-> In y l1 \/ In y l2.
Proof.
  unfold nat_union. revert l1. induction l2 as [|x r IH]; intros l1; cbn; [intuition|].
  rewrite IH, nat_ins_In. intuition.
Qed.

Section SparseLemmas.
  Context {R : Type} (o : ring_ops R) (L : ring_laws o).

  Local Notation "0" := (rzero o).
  Local Notation "1" := (rone o).
  Local Infix "+" := (radd o).
  Local Infix "*" := (rmul o).
  Local Notation "- x" := (rneg o x).
  Add Ring Rring : (ring_theory_of_laws o L).

  Lemma rsub_def a b : rsub o a b = a + - b.
  Proof. reflexivity. Qed.

  Lemma length_set_nth (b : list R) i x : length (set_nth b i x) = length b.
  Proof. revert i. induction b as [|y r IH]; intros [|i]; cbn; auto. Qed.

  Lemma vget_set_nth (b : list R) i x k :
    i < length b -> vget o (set_nth b i x) k = if k =? i then x else vget o b k.
  Proof.
    unfold vget. revert i k. induction b as [|y r IH]; intros i k Hi; [cbn in Hi; lia|].
    destruct i as [|i], k as [|k]; cbn; try reflexivity.
    cbn in Hi. apply IH. lia.
  Qed.

  Lemma nth_error_vget (b : list R) i x : nth_error b i = Some x -> vget o b i = x /\ i < length b.
  Proof.
    intros H. split; [now apply nth_error_nth|]. apply nth_error_Some. congruence.
  Qed.

  Lemma nth_error_lt (b : list R) i : i < length b -> nth_error b i = Some (vget o b i).
  Proof.
    intros H. destruct (nth_error b i) eqn:E.
    - apply nth_error_vget in E. destruct E as [<- _]. reflexivity.
    - apply nth_error_None in E. lia.
  Qed.

  Lemma vget_zeros n i : vget o (zeros o n) i = 0.
  Proof.
    unfold vget, zeros. destruct (lt_dec i n) as [H|H].
    - now rewrite nth_repeat.
    - apply nth_overflow. rewrite repeat_length. lia.
  Qed.

  Lemma zeros_intro (b : list R) n : length b = n -> (forall i, i < n -> vget o b i = 0) -> b = zeros o n.
  Proof.
    intros Hl H. apply nth_ext with (d := 0) (d' := 0).
    - unfold zeros. now rewrite repeat_length.
    - intros i Hi. rewrite Hl in Hi. fold (vget o b i). fold (vget o (zeros o n) i).
      now rewrite H, vget_zeros.
  Qed.

  Lemma centry_app (c1 c2 : scol R) i : centry o (c1 ++ c2) i = centry o c1 i + centry o c2 i.
  Proof. induction c1 as [|e r IH]; cbn; [ring|]. rewrite IH. ring. Qed.

  Lemma centry_rev (c : scol R) i : centry o (rev c) i = centry o c i.
  Proof. induction c as [|e r IH]; cbn; [reflexivity|]. rewrite centry_app, IH. cbn. ring. Qed.

  Lemma centry_notin (c : scol R) i : ~ In i (map fst c) -> centry o c i = 0.
  Proof.
    induction c as [|e r IH]; intros H; cbn; [reflexivity|].
    cbn in H. destruct (Nat.eqb_spec (fst e) i) as [E|E]; [exfalso; apply H; now left|].
    rewrite IH by (intros Hi; apply H; now right). ring.
  Qed.

  Lemma centry_zero (c : scol R) i : (forall e, In e c -> fst e = i -> snd e = 0) -> centry o c i = 0.
  Proof.
    induction c as [|e r IH]; intros H; cbn; [reflexivity|].
    rewrite IH by (intros e' He'; apply H; now right).
    destruct (Nat.eqb_spec (fst e) i) as [E|E]; [rewrite (H e (or_introl eq_refl) E)|]; ring.
  Qed.

  Lemma centry_filter (p : nat * R -> bool) (c : scol R) i :
    (forall e, In e c -> fst e = i -> p e = true \/ snd e = 0) -> centry o (filter p c) i = centry o c i.
  Proof.
    induction c as [|e r IH]; intros H; cbn; [reflexivity|].
    specialize (IH (fun e' He' => H e' (or_intror He'))).
    destruct (p e) eqn:Ep; cbn; rewrite IH; [reflexivity|].
    destruct (Nat.eqb_spec (fst e) i) as [E|E]; [|ring].
    destruct (H e (or_introl eq_refl) E) as [Hp|Hz]; [congruence|]. rewrite Hz. ring.
  Qed.

  Lemma centry_filter_nz (c : scol R) i : centry o (filter (nz o) c) i = centry o c i.
  Proof.
    apply centry_filter. intros e _ _. unfold nz, nzb. destruct (ris_zero o (snd e)) eqn:E.
    - right. now apply (ris_zero_true o L).
    - now left.
  Qed.

  Lemma centry_filter_row (c : scol R) i : centry o (filter (fun e => fst e =? i) c) i = centry o c i.
  Proof. apply centry_filter. intros e _ E. left. now apply Nat.eqb_eq. Qed.

  Lemma filter_row_single (c : scol R) j v :
    NoDup (map fst c) -> In (j, v) c -> filter (fun e => fst e =? j) c = [(j, v)].
  Proof.
    induction c as [|e r IH]; intros Hnd Hin; [contradiction|].
    cbn in Hnd. inversion Hnd as [|? ? Hx Hr]; subst. cbn.
    destruct Hin as [->|Hin].
    - cbn. rewrite Nat.eqb_refl. f_equal.
      assert (Hnone : forall l, ~ In j (map fst l) -> filter (fun e : nat * R => fst e =? j) l = []).
      { induction l as [|e' l' IHl]; intros Hn; [reflexivity|]. cbn.
        destruct (Nat.eqb_spec (fst e') j) as [E|E]; [exfalso; apply Hn; now left|].
        apply IHl. intros Hi. apply Hn. now right. }
      now apply Hnone.
    - destruct (Nat.eqb_spec (fst e) j) as [E|E].
      + exfalso. apply Hx. rewrite E. change j with (fst (j, v)). now apply in_map.
      + now apply IH.
  Qed.

  Lemma filter_row_length (c : scol R) i : NoDup (map fst c) -> length (filter (fun e => fst e =? i) c) <= 1.
  Proof.
    induction c as [|e r IH]; intros Hnd; [cbn; lia|].
    cbn in Hnd. inversion Hnd as [|? ? Hx Hr]; subst. cbn.
    destruct (Nat.eqb_spec (fst e) i) as [E|E]; [|now apply IH].
    cbn. assert (filter (fun e0 : nat * R => fst e0 =? i) r = []) as ->; [|cbn; lia].
    clear IH Hr Hnd. induction r as [|e' r' IHr]; [reflexivity|]. cbn.
    destruct (Nat.eqb_spec (fst e') i) as [E'|E'].
    - exfalso. apply Hx. left. congruence.
    - apply IHr. intros Hi. apply Hx. now right.
  Qed.

  Lemma centry_single (c : scol R) j v : filter (fun e => fst e =? j) c = [(j, v)] -> centry o c j = v.
  Proof. intros H. rewrite <- centry_filter_row, H. cbn. rewrite Nat.eqb_refl. ring. Qed.

  Lemma sum_centry_snoc n (f : nat -> R) (c : scol R) j x :
    j < n ->
    sum o n (fun k => f k * centry o (c ++ [(j, x)]) k) = sum o n (fun k => f k * centry o c k) + f j * x.
  Proof.
    intros Hj.
    rewrite (sum_ext o n _ (fun k => f k * centry o c k + (if k =? j then f k * x else 0))).
    - rewrite (sum_add o L), (sum_delta o L) by assumption. reflexivity.
    - intros k _. rewrite centry_app. cbn. rewrite (Nat.eqb_sym j k). destruct (k =? j); ring.
  Qed.

  Lemma col_cases (a : spmat R) j : col a j = [] \/ In (col a j) (cols a).
  Proof.
    unfold col. destruct (lt_dec j (length (cols a))) as [H|H].
    - right. now apply nth_In.
    - left. apply nth_overflow. lia.
  Qed.

  Lemma wf_col_spec (a : spmat R) j :
    wf a = true -> NoDup (map fst (col a j)) /\ forall e, In e (col a j) -> fst e < nrows a.
  Proof.
    intros H. unfold wf in H. apply andb_true_iff in H. destruct H as [_ H].
    rewrite forallb_forall in H. destruct (col_cases a j) as [E|Hin].
    - rewrite E. split; [constructor|intros e []].
    - specialize (H _ Hin). unfold wf_col in H. apply andb_true_iff in H. destruct H as [Hs Hr].
      split; [now apply sorted_strict_NoDup|].
      rewrite forallb_forall in Hr. intros e He. now apply Nat.ltb_lt, Hr.
  Qed.

  Lemma wf_length (a : spmat R) : wf a = true -> length (cols a) = ncols a.
  Proof. intros H. unfold wf in H. apply andb_true_iff in H. now apply Nat.eqb_eq. Qed.

  Lemma in_triplets (a : spmat R) j e : j < ncols a -> In e (col a j) -> In (fst e, j, snd e) (triplets a).
  Proof.
    intros Hj He. unfold triplets. apply in_flat_map. exists j. split; [apply in_seq; lia|].
    apply in_map_iff. now exists e.
  Qed.

  Lemma keys_flat_map_in (f : nat -> scol R) l k :
    (forall j, In j l -> forall e, In e (f j) -> fst e = j) ->
    In k (map fst (flat_map f l)) -> In k l.
  Proof.
    intros Hk Hin. apply in_map_iff in Hin. destruct Hin as [e [<- He]].
    apply in_flat_map in He. destruct He as [j [Hj He]]. now rewrite (Hk j Hj e He).
  Qed.

  Lemma centry_flat_map_keys (f : nat -> scol R) l k :
    NoDup l -> (forall j, In j l -> forall e, In e (f j) -> fst e = j) ->
    centry o (flat_map f l) k = if in_dec Nat.eq_dec k l then centry o (f k) k else 0.
  Proof.
    induction l as [|j r IH]; intros Hnd Hk; cbn [flat_map].
    - destruct (in_dec Nat.eq_dec k []) as [[]|_]. reflexivity.
    - inversion Hnd as [|? ? Hj Hr]; subst. rewrite centry_app.
      assert (Hk' : forall j0, In j0 r -> forall e, In e (f j0) -> fst e = j0)
        by (intros j0 Hj0 e He; apply Hk; [now right|assumption]).
      rewrite (IH Hr Hk').
      destruct (in_dec Nat.eq_dec k (j :: r)) as [Hin|Hnin].
      + destruct Hin as [->|Hin].
        * destruct (in_dec Nat.eq_dec k r) as [Hc|_]; [contradiction|]. ring.
        * destruct (in_dec Nat.eq_dec k r) as [_|Hc]; [|contradiction].
          rewrite (centry_notin (f j)); [ring|].
          intros Hi. apply in_map_iff in Hi. destruct Hi as [e [E He]].
          rewrite (Hk j (or_introl eq_refl) e He) in E. subst. contradiction.
      + destruct (in_dec Nat.eq_dec k r) as [Hc|_]; [exfalso; apply Hnin; now right|].
        rewrite (centry_notin (f j)); [ring|].
        intros Hi. apply in_map_iff in Hi. destruct Hi as [e [E He]].
        rewrite (Hk j (or_introl eq_refl) e He) in E. subst. apply Hnin. now left.
  Qed.

  Lemma filter_flat_map_keys (f : nat -> scol R) l k :
    NoDup l -> (forall j, In j l -> forall e, In e (f j) -> fst e = j) ->
    filter (fun e => fst e =? k) (flat_map f l) = if in_dec Nat.eq_dec k l then f k else [].
  Proof.
    assert (Hall : forall c : scol R, (forall e, In e c -> fst e = k) -> filter (fun e => fst e =? k) c = c).
    { induction c as [|e c IHc]; intros H; [reflexivity|]. cbn.
      rewrite (H e (or_introl eq_refl)), Nat.eqb_refl. f_equal. apply IHc. intros; apply H; now right. }
    assert (Hnone : forall (c : scol R) j, j <> k -> (forall e, In e c -> fst e = j) -> filter (fun e => fst e =? k) c = []).
    { induction c as [|e c IHc]; intros j Hj H; [reflexivity|]. cbn.
      rewrite (H e (or_introl eq_refl)). destruct (Nat.eqb_spec j k); [contradiction|].
      apply (IHc j Hj). intros; apply H; now right. }
    induction l as [|j r IH]; intros Hnd Hk; cbn [flat_map].
    - destruct (in_dec Nat.eq_dec k []) as [[]|_]. reflexivity.
    - inversion Hnd as [|? ? Hj Hr]; subst. rewrite filter_app.
      assert (Hk' : forall j0, In j0 r -> forall e, In e (f j0) -> fst e = j0)
        by (intros j0 Hj0 e He; apply Hk; [now right|assumption]).
      rewrite (IH Hr Hk').
      destruct (in_dec Nat.eq_dec k (j :: r)) as [Hin|Hnin].
      + destruct Hin as [->|Hin].
        * destruct (in_dec Nat.eq_dec k r) as [Hc|_]; [contradiction|].
          rewrite Hall by (apply Hk; now left). now rewrite app_nil_r.
        * destruct (in_dec Nat.eq_dec k r) as [_|Hc]; [|contradiction].
          rewrite (Hnone (f j) j); [reflexivity| |apply Hk; now left]. intros ->. contradiction.
      + destruct (in_dec Nat.eq_dec k r) as [Hc|_]; [exfalso; apply Hnin; now right|].
        rewrite (Hnone (f j) j); [reflexivity| |apply Hk; now left]. intros ->. apply Hnin. now left.
  Qed.

  Lemma NoDup_keys_flat_map (f : nat -> scol R) l :
    NoDup l -> (forall j, In j l -> forall e, In e (f j) -> fst e = j) ->
    (forall j, In j l -> length (f j) <= 1) ->
    NoDup (map fst (flat_map f l)).
  Proof.
    induction l as [|j r IH]; intros Hnd Hk Hl; cbn [flat_map]; [constructor|].
    inversion Hnd as [|? ? Hj Hr]; subst. rewrite map_app. apply NoDup_app_intro.
    - specialize (Hl j (or_introl eq_refl)). destruct (f j) as [|e [|e' t]]; cbn in *; try lia.
      + constructor.
      + constructor; [intros []|constructor].
    - apply IH; [assumption| |intros j0 Hj0; apply Hl; now right].
      intros j0 Hj0 e He; apply Hk; [now right|assumption].
    - intros x Hx Hx'. apply in_map_iff in Hx. destruct Hx as [e [<- He]].
      rewrite (Hk j (or_introl eq_refl) e He) in Hx'.
      apply Hj. apply (keys_flat_map_in f r j); [|assumption].
      intros j0 Hj0 e0 He0; apply Hk; [now right|assumption].
  Qed.

  Definition tr_piece (a : spmat R) (i j : nat) : scol R :=
    map (fun e => (j, snd e)) (filter (fun e => fst e =? i) (col a j)).

  Lemma tr_piece_key a i j e : In e (tr_piece a i j) -> fst e = j.
  Proof. unfold tr_piece. intros H. apply in_map_iff in H. destruct H as [e' [<- _]]. reflexivity. Qed.

  Lemma col_transpose (a : spmat R) i :
    col (sp_transpose a) i = if i <? nrows a then flat_map (tr_piece a i) (seq 0 (ncols a)) else [].
  Proof.
    unfold col, sp_transpose. cbn [cols]. destruct (Nat.ltb_spec i (nrows a)) as [H|H].
    - now rewrite nth_map_seq.
    - now rewrite nth_map_seq_over.
  Qed.

  Lemma centry_tr_piece a i j : centry o (tr_piece a i j) j = centry o (col a j) i.
  Proof.
    unfold tr_piece. induction (col a j) as [|e r IH]; cbn; [reflexivity|].
    destruct (Nat.eqb_spec (fst e) i) as [E|E]; cbn; rewrite IH; [rewrite Nat.eqb_refl|]; ring.
  Qed.

  Lemma entry_transpose (a : spmat R) i j :
    i < nrows a -> j < ncols a -> entry o (sp_transpose a) j i = entry o a i j.
  Proof.
    intros Hi Hj. unfold entry. rewrite col_transpose.
    replace (i <? nrows a) with true by (symmetry; now apply Nat.ltb_lt).
    rewrite centry_flat_map_keys; [|apply seq_NoDup|intros j' _ e He; exact (tr_piece_key _ _ _ _ He)].
    destruct (in_dec Nat.eq_dec j (seq 0 (ncols a))) as [_|Hn]; [apply centry_tr_piece|].
    exfalso. apply Hn. apply in_seq. lia.
  Qed.

  Lemma nrows_transpose (a : spmat R) : nrows (sp_transpose a) = ncols a.
  Proof. reflexivity. Qed.
  Lemma ncols_transpose (a : spmat R) : ncols (sp_transpose a) = nrows a.
  Proof. reflexivity. Qed.

  Lemma transpose_rows (a : spmat R) i e : In e (col (sp_transpose a) i) -> fst e < ncols a.
  Proof.
    rewrite col_transpose. destruct (i <? nrows a); [|intros []].
    intros H. apply in_flat_map in H. destruct H as [j [Hj He]]. rewrite (tr_piece_key _ _ _ _ He).
    apply in_seq in Hj. lia.
  Qed.

  Lemma transpose_NoDup (a : spmat R) i :
    (forall j, NoDup (map fst (col a j))) -> NoDup (map fst (col (sp_transpose a) i)).
  Proof.
    intros H. rewrite col_transpose. destruct (i <? nrows a); [|constructor].
    apply NoDup_keys_flat_map; [apply seq_NoDup|intros j _ e He; exact (tr_piece_key _ _ _ _ He)|].
    intros j _. unfold tr_piece. rewrite map_length. apply filter_row_length, H.
  Qed.

  Lemma transpose_diag (a : spmat R) j v :
    j < nrows a -> j < ncols a ->
    filter (fun e => fst e =? j) (col a j) = [(j, v)] ->
    filter (fun e => fst e =? j) (col (sp_transpose a) j) = [(j, v)].
  Proof.
    intros Hr Hc H. rewrite col_transpose.
    replace (j <? nrows a) with true by (symmetry; now apply Nat.ltb_lt).
    rewrite filter_flat_map_keys; [|apply seq_NoDup|intros j' _ e He; exact (tr_piece_key _ _ _ _ He)].
    destruct (in_dec Nat.eq_dec j (seq 0 (ncols a))) as [_|Hn]; [|exfalso; apply Hn; apply in_seq; lia].
    unfold tr_piece. rewrite H. reflexivity.
  Qed.

  Lemma col_id n j : col (sp_id o n) j = if j <? n then [(j, 1)] else [].
  Proof.
    unfold col, sp_id. cbn [cols]. destruct (Nat.ltb_spec j n).
    - now rewrite nth_map_seq.
    - now rewrite nth_map_seq_over.
  Qed.

  Lemma entry_id n i j : j < n -> entry o (sp_id o n) i j = mid o i j.
  Proof.
    intros Hj. unfold entry, mid. rewrite col_id.
    replace (j <? n) with true by (symmetry; now apply Nat.ltb_lt).
    cbn. rewrite (Nat.eqb_sym j i). destruct (i =? j); ring.
  Qed.

  Lemma col_neg (a : spmat R) j : col (sp_neg o a) j = map (fun e => (fst e, - snd e)) (col a j).
  Proof.
    unfold col, sp_neg. cbn [cols].
    change (@nil (nat * R)) with (map (fun e : nat * R => (fst e, - snd e)) []) at 1.
    apply map_nth.
  Qed.

  Lemma entry_neg (a : spmat R) i j : entry o (sp_neg o a) i j = - entry o a i j.
  Proof.
    unfold entry. rewrite col_neg. induction (col a j) as [|e r IH]; cbn; [ring|].
    rewrite IH. destruct (fst e =? i); ring.
  Qed.

  Fixpoint tsum (es : list (nat * nat * R)) (i j : nat) : R :=
    match es with
    | [] => 0
    | e :: r => (if (fst (fst e) =? i) && (snd (fst e) =? j) then snd e else 0) + tsum r i j
    end.

  Lemma tsum_app es1 es2 i j : tsum (es1 ++ es2) i j = tsum es1 i j + tsum es2 i j.
  Proof. induction es1 as [|e r IH]; cbn; [ring|]. rewrite IH. ring. Qed.

  Lemma centry_ins_entry i v (c : scol R) k :
    centry o (ins_entry o i v c) k = centry o c k + (if i =? k then v else 0).
  Proof.
    induction c as [|[i' v'] r IH]; cbn [ins_entry].
    - cbn. ring.
    - destruct (i <? i'); [cbn; ring|].
      destruct (Nat.eqb_spec i i') as [->|Hne]; cbn.
      + destruct (i' =? k); ring.
      + rewrite IH. ring.
  Qed.

  Lemma centry_coo_col_gen es j (c : scol R) k :
    centry o (fold_left (fun c e => if snd (fst e) =? j then ins_entry o (fst (fst e)) (snd e) c else c) es c) k
    = centry o c k + tsum es k j.
  Proof.
    revert c. induction es as [|e r IH]; intros c; cbn [fold_left tsum]; [ring|].
    rewrite IH. destruct (snd (fst e) =? j).
    - rewrite centry_ins_entry, andb_true_r. ring.
    - rewrite andb_false_r. ring.
  Qed.

  Lemma centry_coo_col es j k : centry o (coo_col o es j) k = tsum es k j.
  Proof. unfold coo_col. rewrite centry_coo_col_gen. cbn. ring. Qed.

  Lemma tsum_filter_nz es i j : tsum (filter (fun e => nzb o (snd e)) es) i j = tsum es i j.
  Proof.
    induction es as [|e r IH]; cbn; [reflexivity|].
    unfold nzb at 1. destruct (ris_zero o (snd e)) eqn:E; cbn; rewrite IH; [|reflexivity].
    apply (ris_zero_true o L) in E. rewrite E. destruct (_ && _); ring.
  Qed.

  Lemma from_entries_spec m n es a :
    from_entries o m n es = Some a ->
    nrows a = m /\ ncols a = n /\ length (cols a) = n /\
    (forall i j, j < n -> entry o a i j = tsum es i j).
  Proof.
    unfold from_entries. destruct (forallb _ _); [|discriminate]. intros H. injection H as <-.
    cbn [nrows ncols cols]. repeat split.
    - now rewrite map_length, seq_length.
    - intros i j Hj. unfold entry, col. cbn [cols]. rewrite nth_map_seq by assumption.
      now rewrite centry_coo_col, tsum_filter_nz.
  Qed.

  Lemma from_entries_some m n es :
    (forall e, In e es -> snd e <> 0 -> fst (fst e) < m /\ snd (fst e) < n) ->
    exists a, from_entries o m n es = Some a.
  Proof.
    intros H. unfold from_entries.
    destruct (forallb _ _) eqn:E; [eexists; reflexivity|].
    exfalso. apply Bool.not_true_iff_false in E. apply E. apply forallb_forall.
    intros e He. apply filter_In in He. destruct He as [He Hz].
    unfold nzb in Hz. apply negb_true_iff, (ris_zero_false o L) in Hz.
    destruct (H e He Hz) as [H1 H2]. apply andb_true_iff. split; now apply Nat.ltb_lt.
  Qed.

  (* tsum of the triplets of a matrix is its entry *)
  Lemma tsum_triplets (a : spmat R) i j : j < ncols a -> tsum (triplets a) i j = entry o a i j.
  Proof.
    intros Hj. unfold triplets, entry.
    assert (G : forall l, NoDup l ->
              tsum (flat_map (fun j0 => map (fun e => (fst e, j0, snd e)) (col a j0)) l) i j
              = if in_dec Nat.eq_dec j l then centry o (col a j) i else 0).
    { induction l as [|j0 r IH]; intros Hnd; cbn [flat_map].
      - destruct (in_dec Nat.eq_dec j []) as [[]|_]. reflexivity.
      - inversion Hnd as [|? ? Hj0 Hr]; subst. rewrite tsum_app, IH by assumption.
        assert (P : tsum (map (fun e : nat * R => (fst e, j0, snd e)) (col a j0)) i j
                    = if j0 =? j then centry o (col a j0) i else 0).
        { induction (col a j0) as [|e c IHc]; cbn; [destruct (j0 =? j); reflexivity|].
          rewrite IHc. destruct (j0 =? j), (fst e =? i); cbn; ring. }
        rewrite P. destruct (in_dec Nat.eq_dec j (j0 :: r)) as [Hin|Hnin].
        + destruct Hin as [->|Hin].
          * rewrite Nat.eqb_refl. destruct (in_dec Nat.eq_dec j r) as [Hc|_]; [contradiction|]. ring.
          * destruct (in_dec Nat.eq_dec j r) as [_|Hc]; [|contradiction].
            destruct (Nat.eqb_spec j0 j) as [->|_]; [contradiction|]. ring.
        + destruct (in_dec Nat.eq_dec j r) as [Hc|_]; [exfalso; apply Hnin; now right|].
          destruct (Nat.eqb_spec j0 j) as [->|_]; [exfalso; apply Hnin; now left|]. ring. }
    rewrite G by apply seq_NoDup.
    destruct (in_dec Nat.eq_dec j (seq 0 (ncols a))) as [_|Hn]; [reflexivity|].
    exfalso. apply Hn. apply in_seq. lia.
  Qed.
End SparseLemmas.
