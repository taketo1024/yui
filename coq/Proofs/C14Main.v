(* The clauses of Properties/C14.v that take an argument beyond collecting lemmas of
   C14Ints / C14Ratio / C14RatioQ / C14Fp / C14Quad / C14Rings, and the F_p histories. *)
From Coq Require Import ZArith QArith Bool Lia List Znumtheory.
Require Import Yui.Base.Ring Yui.Model.Ints Yui.Model.Ratio Yui.Model.Fp Yui.Model.QuadInt.
Require Import Yui.Proofs.C14Ints Yui.Proofs.C14Ratio Yui.Proofs.C14RatioQ Yui.Proofs.C14Fp
               Yui.Proofs.C14Quad Yui.Proofs.C14Rings.
Import ListNotations.
Open Scope Z_scope.

Lemma ratio_pred_spec x : Canon x ->
  (rt_is_zero x = true <-> (rt_val x == 0)%Q) /\ (rt_is_one x = true <-> (rt_val x == 1)%Q) /\
  (rt_is_int x = true <-> denom x = 1).
Proof.
  intros Hx. repeat split.
  - intros H. apply is_zero_spec in H. unfold Qeq. cbn. lia.
  - intros H. apply is_zero_spec. unfold Qeq in H. cbn in H. lia.
  - intros H. apply (is_one_spec x Hx) in H. now subst x.
  - intros H. apply (is_one_spec x Hx). apply canon_val_inj; auto. apply (canon_from_int 1).
  - unfold rt_is_int, iis_one. apply Z.eqb_eq.
  - unfold rt_is_int, iis_one. apply Z.eqb_eq.
Qed.

Lemma ratio_order x y : 0 < denom x -> 0 < denom y ->
  rt_cmp Big x y = Some (rt_val x ?= rt_val y)%Q /\
  (rt_cmp Big x y = Some Lt <-> (rt_val x < rt_val y)%Q) /\
  (rt_cmp Big x y = Some Gt <-> (rt_val y < rt_val x)%Q) /\
  (rt_cmp Big x y = Some Eq <-> (rt_val x == rt_val y)%Q) /\
  (exists c, rt_cmp Big x y = Some c /\ rt_cmp Big y x = Some (CompOpp c)).
Proof.
  intros Hx Hy. split; [now apply cmp_exact|]. split; [now apply cmp_lt_iff|]. split; [now apply cmp_gt_iff|].
  split; [|now apply cmp_antisym].
  rewrite cmp_exact by auto. rewrite Qeq_alt. split; [intros H; now inversion H|now intros ->].
Qed.

Lemma ratio_order_eq x y : Canon x -> Canon y ->
  (rt_cmp Big x y = Some Eq <-> rt_eqb x y = true).
Proof. intros Hx Hy. rewrite rt_eqb_eq. now apply cmp_eq_iff. Qed.

Lemma ratio_order_trans x y z c : 0 < denom x -> 0 < denom y -> 0 < denom z ->
  rt_cmp Big x y = Some c -> rt_cmp Big y z = Some c -> rt_cmp Big x z = Some c.
Proof.
  intros Hx Hy Hz. rewrite !cmp_exact by auto. intros H1 H2. inversion H1 as [E1]. inversion H2 as [E2].
  f_equal. destruct c.
  - rewrite E1. apply Qeq_alt. apply Qeq_alt in E1, E2. rewrite E1. now rewrite E2.
  - rewrite E1. apply Qlt_alt. apply Qlt_alt in E1, E2. eapply Qlt_trans; eauto.
  - rewrite E1. apply Qgt_alt. apply Qgt_alt in E1, E2. eapply Qlt_trans; eauto.
Qed.

Lemma bounded_inv w x oi : Canon x -> rt_inv w x = Some oi ->
  match oi with
  | Some r => numer x <> 0 /\ Canon r /\ (rt_val r == / rt_val x)%Q
  | None => numer x = 0
  end.
Proof.
  intros Hx H. apply inv_mono in H. destruct (Z.eq_dec (numer x) 0) as [E|E].
  - rewrite inv_zero in H by exact E. inversion H. exact E.
  - destruct (inv_exact x Hx E) as (r & Hr & Hc & Hv). rewrite Hr in H. inversion H. auto.
Qed.

(* equality of representatives is congruence modulo p *)
Lemma fp_eq_iff p x y : 0 < p ->
  (ff_new p x = ff_new p y <-> x mod p = y mod p) /\
  (forall a b, InF p a -> InF p b -> (ff_eqb a b = true <-> a mod p = b mod p)).
Proof.
  intros Hp. split.
  - destruct (ff_new_spec p x Hp) as [-> _]. destruct (ff_new_spec p y Hp) as [-> _].
    split; [intros H; now inversion H|now intros ->].
  - intros a b Ha Hb. unfold ff_eqb. rewrite Z.eqb_eq. unfold InF in *. rewrite !Z.mod_small by lia. tauto.
Qed.

(* histories: x op= FF::new(b), x = -x.  Whatever sequence is applied to FF::new(x0), the value is
   FF::new of the same sequence applied to x0 in Z *)
Inductive ff_op := FAdd (b : Z) | FSub (b : Z) | FMul (b : Z) | FNeg.

Definition ff_step (p : Z) (a : Z) (o : ff_op) : option Z :=
  match o with
  | FAdd b => do y <- ff_new p b; ff_add p a y
  | FSub b => do y <- ff_new p b; ff_sub p a y
  | FMul b => do y <- ff_new p b; ff_mul p a y
  | FNeg => ff_neg p a
  end.
Definition z_step (x : Z) (o : ff_op) : Z :=
  match o with FAdd b => x + b | FSub b => x - b | FMul b => x * b | FNeg => - x end.
Fixpoint ff_run (p : Z) (ops : list ff_op) (a : Z) : option Z :=
  match ops with [] => Some a | o :: r => do a' <- ff_step p a o; ff_run p r a' end.

Lemma ff_step_hom p x o : SmallMod p -> ff_step p (x mod p) o = Some (z_step x o mod p).
Proof.
  intros Hp. assert (H0 : 0 < p) by (destruct Hp; lia).
  destruct o as [b|b|b|]; cbn [ff_step z_step]; try (destruct (ff_new_spec p b H0) as [-> _]; cbn [obind]).
  - rewrite ff_add_hom by exact Hp. now apply ff_new_spec.
  - rewrite ff_sub_hom by exact Hp. now apply ff_new_spec.
  - rewrite ff_mul_hom by exact Hp. now apply ff_new_spec.
  - rewrite ff_neg_hom by exact Hp. now apply ff_new_spec.
Qed.

Lemma ff_history p ops : SmallMod p -> forall x,
  ff_run p ops (x mod p) = Some (fold_left z_step ops x mod p) /\ InF p (fold_left z_step ops x mod p).
Proof.
  intros Hp. assert (H0 : 0 < p) by (destruct Hp; lia).
  induction ops as [|o ops IH]; intros x; cbn [ff_run fold_left].
  - split; [reflexivity|]. apply Z.mod_pos_bound. exact H0.
  - rewrite ff_step_hom by exact Hp. cbn [obind]. apply IH.
Qed.

(* division, remainder, gcd, lcm: a returned value is the value over Z; BigInt returns it always *)
Lemma int_euc_exact w a b :
  (forall v, iquot w a b = Some v -> b <> 0 /\ v = Z.quot a b) /\
  (forall v, irem w a b = Some v -> b <> 0 /\ v = Z.rem a b) /\
  (forall v, igcd w a b = Some v -> v = Z.gcd a b) /\
  (forall v, ilcm w a b = Some v -> v = Z.abs (a * Z.quot b (Z.gcd a b))) /\
  (b <> 0 -> iquot Big a b = Some (Z.quot a b)) /\ igcd Big a b = Some (Z.gcd a b) /\
  ilcm Big a b = Some (Z.abs (a * Z.quot b (Z.gcd a b))).
Proof.
  split; [intros v; apply iquot_inv|]. split; [intros v; apply irem_inv|]. split; [intros v; apply igcd_inv|].
  split; [|split; [apply iquot_big|split; [apply igcd_big|apply ilcm_big]]].
  intros v H. apply ilcm_mono in H. rewrite ilcm_big in H. now inversion H.
Qed.

Example ex_canon : Canon (mkR (-3) 7).
Proof. split; [cbn; lia|reflexivity]. Qed.
Example ex_small : SmallMod 46337.
Proof. split; [lia|reflexivity]. Qed.
Example ex_not_small : ~ SmallMod 46349.
Proof. intros [_ H]. vm_compute in H. discriminate. Qed.
