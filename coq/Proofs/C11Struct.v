(* C11 - MatrixStr::new: for the stored triplets of a CSC matrix (sorted by column, then row; positions
   pairwise distinct; indices in range) the structure is well formed, its rows list exactly the
   non-zero entries and its candidate sets exactly the entries satisfying the pivot condition. *)
From Coq Require Import ZArith List Bool Arith Lia Permutation Sorted.
Require Import Yui.Model.Pivot Yui.Proofs.C11Base.
Import ListNotations.

Definition trip := (nat * nat * entry)%type.
Definition t_row (t : trip) : nat := fst (fst t).
Definition t_col (t : trip) : nat := snd (fst t).
Definition t_ent (t : trip) : entry := snd t.

(* order of CscMatrix::triplet_iter: by column, rows ascending inside a column; strict, so no position twice *)
Definition csc_lt (a b : trip) : Prop := t_col a < t_col b \/ (t_col a = t_col b /\ t_row a < t_row b).
Definition csc_sorted (l : list trip) : Prop := StronglySorted csc_lt l.
Definition in_range (nr nc : nat) (l : list trip) : Prop := forall t, In t l -> t_row t < nr /\ t_col t < nc.

(* the row and the column of a triplet in the coordinates of the search *)
Definition s_row (pt : ptype) (t : trip) : nat := match pt with Rows => t_row t | Cols => t_col t end.
Definition s_col (pt : ptype) (t : trip) : nat := match pt with Rows => t_col t | Cols => t_row t end.

Lemma upd_nth_length : forall {A} (l : list A) k f, length (upd_nth l k f) = length l.
Proof. induction l as [|x r IH]; intros [|k] f; cbn [upd_nth length]; try reflexivity. rewrite IH. reflexivity. Qed.

Lemma nth_upd_nth_same : forall {A} (l : list A) k f d, k < length l -> nth k (upd_nth l k f) d = f (nth k l d).
Proof.
  induction l as [|x r IH]; intros [|k] f d H; cbn [length] in H; try lia; cbn [upd_nth nth]; [reflexivity|].
  apply IH. lia.
Qed.

Lemma nth_upd_nth_other : forall {A} (l : list A) k f d i, i <> k -> nth i (upd_nth l k f) d = nth i l d.
Proof.
  induction l as [|x r IH]; intros [|k] f d [|i] H; cbn [upd_nth nth]; try reflexivity; try lia.
  apply IH. lia.
Qed.

Section Build.
Variable pt : ptype.
Variable c : pcond.

Definition keep (i : nat) (t : trip) : bool := e_nz (t_ent t) && (s_row pt t =? i).
Definition keepc (i : nat) (t : trip) : bool := keep i t && cond_ok c (t_ent t).

Lemma keep_true : forall i t, keep i t = true <-> e_nz (t_ent t) = true /\ s_row pt t = i.
Proof. intros i t. unfold keep. now rewrite andb_true_iff, Nat.eqb_eq. Qed.

Lemma keepc_true : forall i t,
  keepc i t = true <-> (e_nz (t_ent t) = true /\ s_row pt t = i) /\ cond_ok c (t_ent t) = true.
Proof. intros i t. unfold keepc. now rewrite andb_true_iff, keep_true. Qed.

(* one step in the coordinates of the search, the same text for both pivot types *)
Lemma str_step_eq : forall M t, str_step pt c M t =
  if negb (e_nz (t_ent t)) then M else
  mk_mstr (m_rows M) (m_cols M)
    (upd_nth (m_ent M) (s_row pt t) (fun l => l ++ [s_col pt t]))
    (if cond_ok c (t_ent t) then upd_nth (m_cand M) (s_row pt t) (fun l => s_col pt t :: l) else m_cand M)
    (upd_nth (m_rw M) (s_row pt t) (fun w => (w + e_w (t_ent t))%Z))
    (upd_nth (m_cw M) (s_col pt t) (fun w => (w + e_w (t_ent t))%Z)).
Proof. intros M [[i0 j0] e]. unfold str_step. destruct pt; reflexivity. Qed.

Lemma str_step_fields : forall M t,
  m_rows (str_step pt c M t) = m_rows M /\ m_cols (str_step pt c M t) = m_cols M /\
  length (m_ent (str_step pt c M t)) = length (m_ent M) /\ length (m_cand (str_step pt c M t)) = length (m_cand M).
Proof.
  intros M t. rewrite str_step_eq. destruct (negb (e_nz (t_ent t))); [splits; reflexivity|].
  cbn [m_rows m_cols m_ent m_cand]. destruct (cond_ok c (t_ent t)); rewrite ?upd_nth_length; splits; reflexivity.
Qed.

Lemma str_step_cols : forall M t i, s_row pt t < length (m_ent M) ->
  cols_in (str_step pt c M t) i = cols_in M i ++ (if keep i t then [s_col pt t] else []).
Proof.
  intros M t i Hlt. rewrite str_step_eq. unfold keep, cols_in.
  destruct (e_nz (t_ent t)); cbn [negb andb m_ent]; [|rewrite app_nil_r; reflexivity].
  destruct (Nat.eqb_spec (s_row pt t) i) as [<-|E].
  - rewrite nth_upd_nth_same by exact Hlt. reflexivity.
  - rewrite nth_upd_nth_other by (intros H; apply E; symmetry; exact H). rewrite app_nil_r. reflexivity.
Qed.

Lemma str_step_cand : forall M t i j, s_row pt t < length (m_cand M) ->
  (In j (nth i (m_cand (str_step pt c M t)) []) <-> In j (nth i (m_cand M) []) \/ (keepc i t = true /\ j = s_col pt t)).
Proof.
  intros M t i j Hlt. rewrite str_step_eq. unfold keepc, keep.
  assert (Hno : forall b, b = false -> In j (nth i (m_cand M) []) <-> In j (nth i (m_cand M) []) \/ (b = true /\ j = s_col pt t)).
  { intros b ->. split; [intros H; left; exact H | intros [H|[H _]]; [exact H | discriminate]]. }
  destruct (e_nz (t_ent t)); cbn [negb andb m_cand]; [|now apply Hno].
  destruct (cond_ok c (t_ent t)); [|apply Hno, andb_false_r].
  destruct (Nat.eqb_spec (s_row pt t) i) as [<-|E]; cbn [andb]; [|rewrite nth_upd_nth_other by (intros H; apply E; symmetry; exact H); now apply Hno].
  rewrite nth_upd_nth_same by exact Hlt. cbn [In].
  split; [intros [H|H]; [right; split; [reflexivity | symmetry; exact H] | left; exact H] | intros [H|[_ H]]; [right; exact H | left; symmetry; exact H]].
Qed.

Lemma fold_str_spec : forall l M, (forall t, In t l -> s_row pt t < length (m_ent M)) -> length (m_cand M) = length (m_ent M) ->
  let M' := fold_left (str_step pt c) l M in
  m_rows M' = m_rows M /\ m_cols M' = m_cols M /\ length (m_ent M') = length (m_ent M) /\
  (forall i, cols_in M' i = cols_in M i ++ map (s_col pt) (filter (keep i) l)) /\
  (forall i j, In j (nth i (m_cand M') []) <-> In j (nth i (m_cand M) []) \/ exists t, In t l /\ keepc i t = true /\ j = s_col pt t).
Proof.
  induction l as [|t r IH]; intros M Hlt Hlen; cbv zeta; cbn [fold_left].
  - splits; auto; [intros i; cbn [filter map]; rewrite app_nil_r; reflexivity|].
    intros i j. split; [intros H; left; exact H | intros [H|[t [[] _]]]; exact H].
  - destruct (str_step_fields M t) as [F1 [F2 [F3 F4]]].
    destruct (IH (str_step pt c M t)) as [I1 [I2 [I3 [I4 I5]]]].
    { intros t' Ht'. rewrite F3. apply Hlt. right. exact Ht'. }
    { rewrite F3, F4. exact Hlen. }
    cbv zeta in *. splits; try congruence.
    + intros i. rewrite I4, str_step_cols by (apply Hlt; left; reflexivity). cbn [filter].
      destruct (keep i t); cbn [map]; rewrite <- app_assoc; reflexivity.
    + intros i j. rewrite I5, str_step_cand by (rewrite Hlen; apply Hlt; left; reflexivity). split.
      * intros [[H|[H1 H2]]|[t' [H1 H2]]]; [left; exact H | right; exists t; split; [left; reflexivity | split; assumption] | right; exists t'; split; [right; exact H1 | exact H2]].
      * intros [H|[t' [[H1|H1] H2]]]; [left; left; exact H | subst t'; left; right; exact H2 | right; exists t'; split; assumption].
Qed.

Lemma sorted_filter_map : forall {A} (R : A -> A -> Prop) (f : A -> nat) (P : A -> bool) l,
  StronglySorted R l -> (forall a b, P a = true -> P b = true -> R a b -> f a < f b) ->
  StronglySorted lt (map f (filter P l)).
Proof.
  intros A R f P l Hs H. induction Hs as [|a l Hl IH Ha]; cbn [filter map]; [constructor|].
  destruct (P a) eqn:Ea; [|exact IH]. cbn [map]. constructor; [exact IH|].
  apply Forall_forall. intros x Hx. apply in_map_iff in Hx. destruct Hx as [b [Eb Hb]]. subst x.
  apply filter_In in Hb. destruct Hb as [Hb1 Hb2]. rewrite Forall_forall in Ha. apply H; auto.
Qed.

Theorem build_str_spec : forall nr nc l, csc_sorted l -> in_range nr nc l ->
  let M := build_str pt c nr nc l in
  wf_str M /\
  m_rows M = match pt with Rows => nr | Cols => nc end /\ m_cols M = match pt with Rows => nc | Cols => nr end /\
  (forall i j, In j (cols_in M i) <-> exists t, In t l /\ e_nz (t_ent t) = true /\ s_row pt t = i /\ s_col pt t = j) /\
  (forall i j, is_cand M i j = true <->
      exists t, In t l /\ e_nz (t_ent t) = true /\ cond_ok c (t_ent t) = true /\ s_row pt t = i /\ s_col pt t = j).
Proof.
  intros nr nc l Hs Hr. unfold build_str.
  set (m := match pt with Rows => nr | Cols => nc end). set (n := match pt with Rows => nc | Cols => nr end).
  assert (Em : (let '(m0, n0) := match pt with Rows => (nr, nc) | Cols => (nc, nr) end in
                fold_left (str_step pt c) l (mk_mstr m0 n0 (repeat [] m0) (repeat [] m0) (repeat 0%Z m0) (repeat 0%Z n0)))
               = fold_left (str_step pt c) l (mk_mstr m n (repeat [] m) (repeat [] m) (repeat 0%Z m) (repeat 0%Z n))).
  { unfold m, n. destruct pt; reflexivity. }
  rewrite Em. clear Em. set (M0 := mk_mstr m n (repeat [] m) (repeat [] m) (repeat 0%Z m) (repeat 0%Z n)).
  assert (Hrow : forall t, In t l -> s_row pt t < m /\ s_col pt t < n).
  { intros t Ht. destruct (Hr t Ht) as [A B]. unfold s_row, s_col, m, n. destruct pt; split; assumption. }
  destruct (fold_str_spec l M0) as [F1 [F2 [F3 [F4 F5]]]].
  { intros t Ht. cbn [M0 m_ent]. rewrite repeat_length. apply Hrow. exact Ht. }
  { cbn [M0 m_ent m_cand]. rewrite !repeat_length. reflexivity. }
  cbv zeta in *. set (M := fold_left (str_step pt c) l M0) in *.
  assert (Hnil : forall i, cols_in M0 i = []).
  { intros i. unfold cols_in. cbn [M0 m_ent]. destruct (Nat.lt_ge_cases i m) as [H|H]; [apply nth_repeat | apply nth_overflow; rewrite repeat_length; exact H]. }
  assert (Hnilc : forall i, nth i (m_cand M0) [] = []).
  { intros i. cbn [M0 m_cand]. destruct (Nat.lt_ge_cases i m) as [H|H]; [apply nth_repeat | apply nth_overflow; rewrite repeat_length; exact H]. }
  assert (Hcols : forall i j, In j (cols_in M i) <-> exists t, In t l /\ e_nz (t_ent t) = true /\ s_row pt t = i /\ s_col pt t = j).
  { intros i j. rewrite F4, Hnil. cbn [app]. rewrite in_map_iff.
    split; intros [t H]; exists t; rewrite filter_In, keep_true in *; tauto. }
  splits.
  - (* wf_str *)
    split; [|split].
    + rewrite F3, F1. cbn [M0 m_ent m_rows]. apply repeat_length.
    + intros i j Hin. apply Hcols in Hin. destruct Hin as [t [Ht [_ [_ E]]]]. rewrite F2. cbn [M0 m_cols]. subst j. apply Hrow. exact Ht.
    + intros i. rewrite F4, Hnil. cbn [app]. apply sorted_filter_map with (R := csc_lt); [exact Hs|].
      intros a b Ka Kb Hab. apply keep_true in Ka, Kb. destruct Ka as [_ Ka]. destruct Kb as [_ Kb].
      unfold csc_lt in Hab. unfold s_row, s_col in *. destruct pt; lia.
  - rewrite F1. reflexivity.
  - rewrite F2. reflexivity.
  - exact Hcols.
  - intros i j. unfold is_cand. rewrite memb_In, F5, Hnilc. split.
    + intros [[]|[t [Ht [Hk E]]]]. apply keepc_true in Hk. destruct Hk as [[K1 K2] K3]. exists t. splits; auto.
    + intros [t [Ht [K1 [K2 [K3 K4]]]]]. right. exists t. split; [exact Ht|]. split; [|symmetry; exact K4].
      apply keepc_true. auto.
Qed.

End Build.
