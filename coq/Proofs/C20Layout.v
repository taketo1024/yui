(* C20: the FORMAT_CLEAN layout can be read back: parse_layout (layout t) = Some t. *)
From Coq Require Import ZArith NArith List Bool Arith Lia ZifyN ZifyBool ZifyNat.
Require Import Yui.Model.Table Yui.Proofs.C20Str.
Import ListNotations.

Lemma rstrip_spaces : forall k, rstrip (spaces k) = [].
Proof.
  induction k as [|k IH]; [reflexivity|].
  unfold spaces in *. cbn [repeat rstrip]. rewrite IH. reflexivity.
Qed.
Lemma spaces_S_app : forall p (r : str), spaces (S p) ++ r = spaces p ++ 32%N :: r.
Proof.
  induction p as [|p IH]; intro r; [reflexivity|].
  unfold spaces in *. cbn [repeat app] in *. f_equal. apply IH.
Qed.
Lemma rstrip_app_nil : forall a b, rstrip b = [] -> rstrip (a ++ b) = rstrip a.
Proof.
  induction a as [|c a IH]; intros b Hb; cbn [app rstrip]; [exact Hb|]. now rewrite IH.
Qed.
Lemma rstrip_id : forall s, s = [] \/ is_space (last s 0%N) = false -> rstrip s = s.
Proof.
  induction s as [|c r IH]; intros H; [reflexivity|].
  destruct H as [H|H]; [discriminate|].
  cbn [rstrip]. destruct r as [|d r'].
  - cbn [rstrip]. cbn [last] in H. now rewrite H.
  - rewrite IH; [reflexivity|]. right. exact H.
Qed.

(* a cell that survives printing and reading: no line break inside, no trailing space *)
Definition okc (s : str) : Prop := (forall c, In c s -> c <> 10%N) /\ rstrip s = s.
(* a title cell: moreover non-empty and without spaces *)
Definition okh (s : str) : Prop := s <> [] /\ (forall c, In c s -> c <> 10%N /\ is_space c = false).

Lemma okh_okc : forall s, okh s -> okc s.
Proof.
  intros s [Hne H]. split; [intros c Hc; now apply H|].
  apply rstrip_id. right.
  destruct (exists_last Hne) as (s' & x & ->). rewrite last_last. apply H, in_or_app. right. now left.
Qed.

(* a row as the concatenation of its segments *)
Fixpoint segs (ws : list nat) (r : list str) : list str :=
  match ws with
  | [] => []
  | w :: ws' =>
      let c := hd [] r in
      match ws' with
      | [] => [32%N :: c ++ [32%N]]
      | _ => (32%N :: c ++ spaces (w - length c) ++ [32%N]) :: segs ws' (tl r)
      end
  end.
Lemma render_row_segs : forall ws r, render_row ws r = concat (segs ws r).
Proof.
  induction ws as [|w ws IH]; intro r; [reflexivity|].
  cbn [render_row segs]. destruct ws as [|w' ws'].
  - cbn [concat]. now rewrite app_nil_r.
  - cbn [concat]. rewrite IH. cbn [app]. now rewrite <- !app_assoc.
Qed.

Inductive lens_ok : list nat -> list str -> Prop :=
| lo_last : forall l s, lens_ok [l] [s]
| lo_cons : forall l ls s sg, l = length s -> lens_ok ls sg -> lens_ok (l :: ls) (s :: sg).

Lemma split_lens_ok : forall lens sg, lens_ok lens sg -> split_lens lens (concat sg) = sg.
Proof.
  induction 1 as [l s | l ls s sg Hl Hok IH].
  - cbn. now rewrite app_nil_r.
  - cbn [split_lens concat]. destruct ls as [|l' ls']; [inversion Hok|].
    subst l. rewrite firstn_app, Nat.sub_diag, firstn_all. cbn [firstn]. rewrite app_nil_r.
    rewrite skipn_app, skipn_all, Nat.sub_diag. cbn [skipn app]. now rewrite IH.
Qed.

Definition fits (ws : list nat) (r : list str) : Prop := Forall2 (fun w c => length c <= w) ws r.

Lemma segs_lens_ok : forall ws r1 r2, ws <> [] -> fits ws r1 -> fits ws r2 ->
  lens_ok (map (@length N) (segs ws r1)) (segs ws r2).
Proof.
  induction ws as [|w ws IH]; intros r1 r2 Hne H1 H2; [congruence|].
  inversion H1 as [|w1 c1 ws1 r1' Hc1 Hr1]; subst. inversion H2 as [|w2 c2 ws2 r2' Hc2 Hr2]; subst.
  cbn [segs hd tl]. destruct ws as [|w' ws'].
  - cbn. constructor.
  - cbn [map]. constructor.
    + cbn [length]. rewrite !app_length. unfold spaces. rewrite !repeat_length. cbn [length]. lia.
    + apply IH; [discriminate | assumption | assumption].
Qed.

Lemma map_cell_of_seg_segs : forall ws r, fits ws r -> Forall okc r -> map cell_of_seg (segs ws r) = r.
Proof.
  induction ws as [|w ws IH]; intros r Hf Hok.
  - inversion Hf. reflexivity.
  - inversion Hf as [|w1 c ws1 r' Hc Hr]; subst. inversion Hok as [|c0 r0 Hokc Hok']; subst.
    cbn [segs hd tl]. destruct Hokc as [_ Hrs].
    destruct ws as [|w' ws'].
    + inversion Hr; subst. cbn [map]. unfold cell_of_seg. cbn [tl].
      rewrite rstrip_app_nil by reflexivity. now rewrite Hrs.
    + cbn [map]. unfold cell_of_seg at 1. cbn [tl].
      rewrite rstrip_app_nil.
      * rewrite Hrs. f_equal. now apply IH.
      * replace (spaces (w - length c) ++ [32%N]) with (spaces (S (w - length c)) ++ []).
        -- rewrite app_nil_r. apply rstrip_spaces.
        -- apply spaces_S_app.
Qed.

(* the title line gives the segment lengths *)
Lemma cut_tok : forall tok rest cur,
  (forall c, In c tok -> is_space c = false) -> rest <> [] ->
  cut_header (tok ++ rest) cur = cut_header rest (length tok + cur).
Proof.
  induction tok as [|a tok IH]; intros rest cur Hns Hne; [reflexivity|].
  cbn [app cut_header length].
  destruct (tok ++ rest) as [|b q] eqn:E.
  - apply app_eq_nil in E. destruct E. contradiction.
  - rewrite (Hns a (or_introl eq_refl)). cbn [andb]. rewrite <- E.
    rewrite IH; [f_equal; lia | intros c Hc; apply Hns; now right | exact Hne].
Qed.
Lemma cut_spaces : forall p rest cur,
  cut_header (spaces p ++ 32%N :: rest) cur = cut_header (32%N :: rest) (p + cur).
Proof.
  induction p as [|p IH]; intros rest cur; [reflexivity|].
  unfold spaces in *. cbn [repeat app].
  set (R := cut_header (32%N :: rest) (S p + cur)). cbn [cut_header].
  destruct (repeat 32%N p ++ 32%N :: rest) as [|b q] eqn:E.
  - destruct p; discriminate.
  - assert (Hb : b = 32%N) by (destruct p; cbn in E; now inversion E).
    subst b. cbn [is_space N.eqb Pos.eqb negb andb]. rewrite <- E, IH. subst R. f_equal; lia.
Qed.

(* a title segment: " tok pad " *)
Definition hseg (s : str) : Prop :=
  exists tok p, s = 32%N :: tok ++ spaces p ++ [32%N] /\ tok <> [] /\ (forall c, In c tok -> is_space c = false).

Lemma cut_header_hsegs : forall sg s,
  hseg s -> Forall hseg sg ->
  cut_header (tl (concat (s :: sg))) 1 = map (@length N) (s :: sg).
Proof.
  induction sg as [|s2 sg IH]; intros s (tok & p & -> & Hne & Hns) Hall.
  - cbn [concat map]. rewrite app_nil_r. cbn [tl].
    rewrite cut_tok by (auto; destruct p; discriminate).
    destruct p as [|p].
    + cbn [spaces repeat app cut_header]. cbn [length]. rewrite app_length. cbn [length]. f_equal; lia.
    + replace (spaces (S p) ++ [32%N]) with (spaces p ++ 32%N :: [32%N]).
      * rewrite cut_spaces. cbn [cut_header]. cbn [is_space N.eqb Pos.eqb negb andb].
        cbn [length]. rewrite !app_length. unfold spaces.
        rewrite repeat_length. cbn [length]. f_equal; lia.
      * symmetry. apply spaces_S_app.
  - inversion Hall as [|x y Hs2 Hsg]; subst.
    pose proof Hs2 as (tok2 & p2 & E2 & Hne2 & Hns2).
    specialize (IH s2 Hs2 Hsg).
    change (concat ((32%N :: tok ++ spaces p ++ [32%N]) :: s2 :: sg))
      with ((32%N :: tok ++ spaces p ++ [32%N]) ++ concat (s2 :: sg)).
    cbn [app tl]. rewrite <- !app_assoc.
    rewrite cut_tok; [| exact Hns | destruct p; discriminate].
    assert (Hc2 : concat (s2 :: sg) = 32%N :: tl (concat (s2 :: sg))).
    { cbn [concat]. rewrite E2. reflexivity. }
    (* the spaces of this segment, its closing space, then the opening space of the next one *)
    replace (spaces p ++ [32%N] ++ concat (s2 :: sg)) with (spaces p ++ 32%N :: concat (s2 :: sg)) by reflexivity.
    rewrite cut_spaces. rewrite Hc2.
    set (rest := tl (concat (s2 :: sg))) in *.
    assert (Hrest : exists b q, rest = b :: q /\ is_space b = false).
    { unfold rest. cbn [concat]. rewrite E2. cbn [app tl].
      destruct tok2 as [|b q]; [congruence|]. exists b, (q ++ (spaces p2 ++ [32%N]) ++ concat sg).
      split; [now rewrite <- app_assoc | apply Hns2; now left]. }
    destruct Hrest as (b & q & Hr & Hb).
    cbn [cut_header]. rewrite Hr. cbn [is_space N.eqb Pos.eqb negb andb].
    rewrite Hb. cbn [negb andb].
    destruct (S (p + (length tok + 1)) =? 0) eqn:E0; [apply Nat.eqb_eq in E0; lia|].
    cbn [negb]. rewrite <- Hr. rewrite IH.
    cbn [map length]. rewrite !app_length. unfold spaces. rewrite repeat_length. cbn [length].
    f_equal; lia.
Qed.

Lemma cut_header_segs : forall s sg,
  hseg s -> Forall hseg sg -> cut_header (concat (s :: sg)) 0 = map (@length N) (s :: sg).
Proof.
  intros s sg Hs Hall. rewrite <- (cut_header_hsegs sg s Hs Hall).
  destruct Hs as (tok & p & -> & Hne & Hns).
  cbn [concat app tl]. destruct tok as [|b q]; [congruence|].
  cbn [app cut_header]. rewrite (Hns b (or_introl eq_refl)). reflexivity.
Qed.

Lemma segs_hseg : forall ws r, fits ws r -> Forall okh r -> Forall hseg (segs ws r).
Proof.
  induction ws as [|w ws IH]; intros r Hf Hok; [constructor|].
  inversion Hf as [|w1 c ws1 r' Hc Hr]; subst. inversion Hok as [|c0 r0 Hokc Hok']; subst.
  cbn [segs hd tl]. destruct Hokc as [Hne Hch].
  destruct ws as [|w' ws'].
  - constructor; [|constructor]. exists c, 0. cbn [spaces repeat app]. repeat split; auto.
    intros x Hx. now apply Hch.
  - constructor; [|now apply IH]. exists c, (w - length c). repeat split; auto.
    intros x Hx. now apply Hch.
Qed.
Lemma segs_nonempty : forall ws r, ws <> [] -> segs ws r <> [].
Proof. intros [|w [|w' ws]] r H; cbn [segs]; congruence. Qed.

Lemma lines_of_app : forall l rest, (forall c, In c l -> c <> 10%N) ->
  lines_of (l ++ 10%N :: rest) = l :: lines_of rest.
Proof.
  induction l as [|c l IH]; intros rest H.
  - cbn [app lines_of]. reflexivity.
  - cbn [app lines_of]. destruct (c =? 10)%N eqn:E.
    + apply N.eqb_eq in E. exfalso. apply (H c); [now left | exact E].
    + rewrite IH by (intros x Hx; apply H; now right). reflexivity.
Qed.
Lemma lines_of_concat : forall (ls : list str), Forall (fun l => forall c, In c l -> c <> 10%N) ls ->
  lines_of (concat (map (fun l => l ++ [10%N]) ls)) = ls.
Proof.
  induction ls as [|l ls IH]; intro H; [reflexivity|].
  inversion H; subst. cbn [map concat]. rewrite <- app_assoc. cbn [app].
  rewrite lines_of_app by assumption. now rewrite IH.
Qed.

Lemma render_row_no_nl : forall ws r, fits ws r -> Forall okc r -> forall c, In c (render_row ws r) -> c <> 10%N.
Proof.
  induction ws as [|w ws IH]; intros r Hf Hok c Hc; [destruct Hc|].
  inversion Hf as [|w1 c1 ws1 r' Hc1 Hr]; subst. inversion Hok as [|c0 r0 Hokc Hok']; subst.
  cbn [render_row hd tl] in Hc. destruct Hokc as [Hnl _].
  assert (Hsp : forall k x, In x (spaces k) -> x <> 10%N).
  { intros k x Hx. unfold spaces in Hx. apply repeat_spec in Hx. subst. discriminate. }
  destruct ws as [|w' ws'].
  - destruct Hc as [<-|Hc]; [discriminate|]. apply in_app_or in Hc. destruct Hc as [Hc|[<-|[]]]; [now apply Hnl | discriminate].
  - destruct Hc as [<-|Hc]; [discriminate|].
    apply in_app_or in Hc. destruct Hc as [Hc|Hc]; [now apply Hnl|].
    apply in_app_or in Hc. destruct Hc as [Hc|Hc]; [now apply (Hsp _ _ Hc)|].
    apply in_app_or in Hc. destruct Hc as [[<-|[]]|Hc]; [discriminate|].
    now apply (IH r').
Qed.

Lemma fits_length : forall ws r, fits ws r -> length ws = length r.
Proof. induction 1; cbn [length]; congruence. Qed.
Lemma fits_self : forall r, fits (map (@length N) r) r.
Proof. induction r as [|c r IH]; cbn [map]; constructor; auto. Qed.
Lemma zip_max_fits1 : forall r acc, length acc = length r \/ acc = [] ->
  fits (zip_max (map (@length N) r) acc) r.
Proof.
  induction r as [|c r IH]; intros acc Hlen.
  - cbn [map zip_max]. destruct Hlen as [H| ->]; [destruct acc; [constructor|discriminate]|constructor].
  - destruct acc as [|y acc].
    + cbn [map zip_max]. apply (fits_self (c :: r)).
    + destruct Hlen as [Hlen|Hlen]; [|discriminate]. cbn [length] in Hlen.
      cbn [map zip_max]. constructor; [lia | apply IH; left; lia].
Qed.
Lemma zip_max_fits2 : forall r acc r', length acc = length r -> fits acc r' ->
  fits (zip_max (map (@length N) r) acc) r'.
Proof.
  induction r as [|c r IH]; intros acc r' Hlen Hf.
  - destruct acc; [exact Hf | discriminate].
  - destruct acc as [|y acc]; [discriminate|]. cbn [length] in Hlen.
    inversion Hf as [|y' c' acc' r'' Hc' Hr'']; subst.
    cbn [map zip_max]. constructor; [lia | apply IH; [lia | exact Hr'']].
Qed.

Lemma col_widths_fits : forall n t, Forall (fun r => length r = n) t ->
  length (col_widths t) = match t with [] => 0 | _ => n end /\ Forall (fits (col_widths t)) t.
Proof.
  intros n. induction t as [|r t IH]; intro Hall; [split; [reflexivity|constructor]|].
  inversion Hall as [|r0 t0 Hr Ht]; subst. destruct (IH Ht) as [Hlen Hfit].
  unfold col_widths in *. cbn [fold_right].
  set (acc := fold_right (fun r acc => zip_max (map (@length N) r) acc) [] t) in *.
  assert (Hacc : length acc = length r \/ acc = []).
  { destruct t as [|r1 t1]; [right; reflexivity | left; exact Hlen]. }
  pose proof (zip_max_fits1 r acc Hacc) as H1.
  split.
  - apply fits_length in H1. rewrite H1. destruct t; reflexivity.
  - constructor; [exact H1|]. destruct t as [|r1 t1]; [constructor|].
    eapply Forall_impl; [|exact Hfit]. intros r' Hr'. now apply zip_max_fits2.
Qed.

(* a table: a title row of title cells and rows of cells, all of the same positive length *)
Definition wf_table (t : list (list str)) : Prop :=
  match t with
  | [] => False
  | h :: rows => h <> [] /\ Forall okh h /\ Forall (fun r => length r = length h /\ Forall okc r) rows
  end.

Lemma wf_table_rows : forall t, wf_table t ->
  exists h rows, t = h :: rows /\ Forall (fun r => length r = length h) t /\ Forall (Forall okc) t.
Proof.
  intros [|h rows] H; [destruct H|]. destruct H as (Hne & Hh & Hrows).
  exists h, rows. split; [reflexivity|]. split.
  - constructor; [reflexivity|]. eapply Forall_impl; [|exact Hrows]. now intros r [H _].
  - constructor; [eapply Forall_impl; [|exact Hh]; apply okh_okc|].
    eapply Forall_impl; [|exact Hrows]. now intros r [_ H].
Qed.

Theorem parse_layout_layout : forall t, wf_table t -> parse_layout (layout t) = Some t.
Proof.
  intros t Hwf. destruct (wf_table_rows t Hwf) as (h & rows & -> & Hlen & Hokc).
  destruct Hwf as (Hne & Hh & _).
  destruct (col_widths_fits (length h) (h :: rows) Hlen) as [Hwl Hfit].
  set (ws := col_widths (h :: rows)) in *.
  assert (Hws : ws <> []) by (destruct ws; [destruct h; [congruence | discriminate] | discriminate]).
  unfold parse_layout, layout. fold ws.
  rewrite <- (map_map (render_row ws) (fun l => l ++ [10%N])).
  rewrite lines_of_concat.
  2:{ apply Forall_forall. intros l Hl. apply in_map_iff in Hl. destruct Hl as (r & <- & Hr).
      rewrite Forall_forall in Hfit, Hokc. apply render_row_no_nl; auto. }
  cbn [map]. f_equal.
  inversion Hfit as [|h0 rows0 Hfh Hfrows]; subst.
  inversion Hokc as [|h0 rows0 Hoh Horows]; subst.
  (* the lengths read from the title line *)
  assert (Hcut : cut_header (render_row ws h) 0 = map (@length N) (segs ws h)).
  { rewrite render_row_segs. pose proof (segs_hseg ws h Hfh Hh) as Hsg.
    destruct (segs ws h) as [|s sg] eqn:E; [exfalso; now apply (segs_nonempty ws h Hws)|].
    inversion Hsg; subst. now apply cut_header_segs. }
  rewrite Hcut.
  assert (Hrow : forall r, fits ws r -> Forall okc r ->
            map cell_of_seg (split_lens (map (@length N) (segs ws h)) (render_row ws r)) = r).
  { intros r Hfr Hor. rewrite render_row_segs, split_lens_ok by (now apply segs_lens_ok).
    now apply map_cell_of_seg_segs. }
  f_equal; [now apply Hrow|].
  rewrite map_map. rewrite <- (map_id rows) at 2. apply map_ext_in. intros r Hr.
  rewrite Forall_forall in Hfrows, Horows. now apply Hrow; auto.
Qed.
