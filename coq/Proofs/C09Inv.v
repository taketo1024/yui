(* C09 - the transformation invariant of SnfCalc:  target = P*A*Q,  P*Pinv = I = Pinv*P,
   Q*Qinv = I = Qinv*Q  holds initially ([SInv_init]) and is kept by each elementary operation, for every
   ring with laws and every flag subset (the induction over a run is in C09Run.v).  Untracked matrices are
   existentially the ones that would have been tracked.  The file also holds the hypotheses on the dictionary,
   [snf_laws], with their first consequences ([mul_eq_0], [snf_gcdx_spec]). *)
From Coq Require Import ZArith List Bool Arith Lia Ring.
Require Import Yui.Base.Ring Yui.Base.MatF Yui.Base.MatL Yui.Model.Snf Yui.Proofs.C09Mat.
Import ListNotations.

Record snf_laws {R : Type} (D : euc_dict R) : Prop := mk_snf_laws {
  sl_ring : ring_laws (ed_ring D);
  sl_integral : integral (ed_ring D);
  (* Ring::inv returns an inverse *)
  sl_inv : forall a b, rinv (ed_unit D) a = Some b -> rmul (ed_ring D) a b = rone (ed_ring D);
  (* normalizing_unit is a unit that inv inverts *)
  sl_nunit_inv : forall a, exists v, rinv (ed_unit D) (rnunit (ed_unit D) a) = Some v;
  (* a * normalizing_unit(a) is normalised *)
  sl_nunit_idem : forall a,
      rnunit (ed_unit D) (rmul (ed_ring D) a (rnunit (ed_unit D) a)) = rone (ed_ring D);
  (* `/` is exact on multiples *)
  sl_div_exact : forall a d, d <> rzero (ed_ring D) -> rdiv (ed_euc D) (rmul (ed_ring D) a d) d = a;
  (* `%` detects divisibility *)
  sl_rem_zero : forall a b, b <> rzero (ed_ring D) -> rrem (ed_euc D) a b = rzero (ed_ring D) ->
      exists q, a = rmul (ed_ring D) q b;
  (* EucRing::gcdx returns a common divisor with Bezout coefficients *)
  sl_gcdx : forall x y d s t, ed_gcdx D x y = Some (d, s, t) ->
      d = radd (ed_ring D) (rmul (ed_ring D) s x) (rmul (ed_ring D) t y) /\
      (exists a, x = rmul (ed_ring D) a d) /\ (exists b, y = rmul (ed_ring D) b d);
}.

Section Inv.
  Context {R : Type} (D : euc_dict R) (SL : snf_laws D).
  Let o := ed_ring D.
  Let L : ring_laws o := sl_ring D SL.
  Add Ring Rring : (ring_theory_of_laws o L).

  Local Notation "0" := (rzero o).
  Local Notation "1" := (rone o).
  Local Infix "+" := (radd o).
  Local Infix "*" := (rmul o).
  Local Notation "- x" := (rneg o x).
  Local Notation get := (lget o).
  Local Notation "A ** B" := (mmul o _ A B) (at level 40, left associativity, only parsing).
  Implicit Types A T P Q : lmat R.

  Lemma mul_eq_0 a b : a * b = 0 -> a = 0 \/ b = 0.
  Proof. apply (proj2 (sl_integral D SL)). Qed.
  Lemma one_neq_0 : 1 <> 0.
  Proof. apply (proj1 (sl_integral D SL)). Qed.

  Lemma mul_cancel_l d a b : d <> 0 -> d * a = d * b -> a = b.
  Proof.
    intros Hd H. assert (E : d * (a + - b) = 0) by (transitivity (d * a + - (d * b)); [ring|rewrite H; ring]).
    destruct (mul_eq_0 _ _ E) as [E1|E1]; [contradiction|].
    transitivity (a + - b + b); [ring|]. rewrite E1. ring.
  Qed.

  Lemma unit_neq_0 u v : u * v = 1 -> u <> 0.
  Proof. intros H E. apply one_neq_0. rewrite <- H, E. ring. Qed.

  (* SnfCalc::gcdx *)
  Lemma snf_gcdx_spec x y d s t :
    snf_gcdx D x y = Some (d, s, t) ->
    d <> 0 /\ d = s * x + t * y /\
    x = rdiv (ed_euc D) x d * d /\ y = rdiv (ed_euc D) y d * d /\
    s * rdiv (ed_euc D) x d + t * rdiv (ed_euc D) y d = 1.
  Proof.
    unfold snf_gcdx. cbv zeta.
    destruct (ed_gcdx D x y) as [[[d0 s0] t0]|] eqn:G; cbn [sbind]; [|discriminate].
    destruct (ris_zero (ed_ring D) d0) eqn:Z; [discriminate|].
    apply (ris_zero_false o L) in Z.
    destruct (sl_gcdx D SL _ _ _ _ _ G) as [Hb [[a' Ha] [b' Hb']]]. fold o in Hb, Ha, Hb'.
    assert (Hxa : rdiv (ed_euc D) x d0 = a').
    { rewrite Ha at 1. now apply (sl_div_exact D SL). }
    assert (Hyb : rdiv (ed_euc D) y d0 = b').
    { rewrite Hb' at 1. now apply (sl_div_exact D SL). }
    assert (Key : forall s1 t1, d0 = s1 * x + t1 * y ->
              s1 * rdiv (ed_euc D) x d0 + t1 * rdiv (ed_euc D) y d0 = 1).
    { intros s1 t1 H. rewrite Hxa, Hyb. apply (mul_cancel_l d0); [exact Z|].
      transitivity (s1 * (a' * d0) + t1 * (b' * d0)); [ring|]. rewrite <- Ha, <- Hb', <- H. ring. }
    destruct (rinv (ed_unit D) (rdiv (ed_euc D) x d0)) as [ai|] eqn:I; intros E; inversion E; subst d s t; clear E.
    - assert (Hd : d0 = ai * x + 0 * y).
      { apply (sl_inv D SL) in I. fold o in I. rewrite Hxa in I.
        transitivity (a' * ai * d0); [rewrite I; ring|]. rewrite Ha. ring. }
      repeat split; try assumption.
      + rewrite Hxa. exact Ha.
      + rewrite Hyb. exact Hb'.
      + now apply Key.
    - repeat split; try assumption.
      + rewrite Hxa. exact Ha.
      + rewrite Hyb. exact Hb'.
      + now apply Key.
  Qed.

  Definition FInv (m n : nat) (A T P Pi Q Qi : mat R) : Prop :=
    meq m n T (mmul o m P (mmul o n A Q)) /\
    meq m m (mmul o m P Pi) (mid o) /\ meq m m (mmul o m Pi P) (mid o) /\
    meq n n (mmul o n Q Qi) (mid o) /\ meq n n (mmul o n Qi Q) (mid o).

  Lemma meq_assoc m p n q (A B C : mat R) : meq m q (mmul o p (mmul o n A B) C) (mmul o n A (mmul o p B C)).
  Proof. intros i j _ _. apply (mmul_assoc o L). Qed.

  Lemma meq_id_l m n (A : mat R) : meq m n (mmul o m (mid o) A) A.
  Proof. intros i j Hi _. now apply (mmul_id_l o L). Qed.
  Lemma meq_id_r m n (A : mat R) : meq m n (mmul o n A (mid o)) A.
  Proof. intros i j _ Hj. now apply (mmul_id_r o L). Qed.

  (* left multiplication by an invertible E *)
  Lemma FInv_left m n (A T P Pi Q Qi T' P' Pi' E E' : mat R) :
    meq m m (mmul o m E E') (mid o) -> meq m m (mmul o m E' E) (mid o) ->
    FInv m n A T P Pi Q Qi ->
    meq m n T' (mmul o m E T) -> meq m m P' (mmul o m E P) -> meq m m Pi' (mmul o m Pi E') ->
    FInv m n A T' P' Pi' Q Qi.
  Proof.
    intros HE1 HE2 (HT & H1 & H2 & H3 & H4) HT' HP' HPi'.
    repeat split; try assumption.
    - (* T' = E T = E (P X) = (E P) X = P' X *)
      eapply meq_trans; [exact HT'|].
      eapply meq_trans; [apply (mmul_ext o m m n); [apply meq_refl|exact HT]|].
      eapply meq_trans; [apply meq_sym, meq_assoc|].
      apply (mmul_ext o m m n); [now apply meq_sym|apply meq_refl].
    - exact (meq_inv_pair o L m E P Pi E' P' Pi' H1 HE1 HP' HPi').
    - exact (meq_inv_pair o L m Pi E' E P Pi' P' HE2 H2 HPi' HP').
  Qed.

  (* right multiplication by an invertible F *)
  Lemma FInv_right m n (A T P Pi Q Qi T' Q' Qi' F F' : mat R) :
    meq n n (mmul o n F F') (mid o) -> meq n n (mmul o n F' F) (mid o) ->
    FInv m n A T P Pi Q Qi ->
    meq m n T' (mmul o n T F) -> meq n n Q' (mmul o n Q F) -> meq n n Qi' (mmul o n F' Qi) ->
    FInv m n A T' P Pi Q' Qi'.
  Proof.
    intros HF1 HF2 (HT & H1 & H2 & H3 & H4) HT' HQ' HQi'.
    repeat split; try assumption.
    - (* T' = T F = (P (A Q)) F = P (A (Q F)) = P (A Q') *)
      eapply meq_trans; [exact HT'|].
      eapply meq_trans; [apply (mmul_ext o n m n); [exact HT|apply meq_refl]|].
      eapply meq_trans; [apply meq_assoc|].
      apply (mmul_ext o m m n); [apply meq_refl|].
      eapply meq_trans; [apply meq_assoc|].
      apply (mmul_ext o n m n); [apply meq_refl|now apply meq_sym].
    - exact (meq_inv_pair o L n Q F F' Qi Q' Qi' HF1 H3 HQ' HQi').
    - exact (meq_inv_pair o L n F' Qi Q F Qi' Q' H4 HF2 HQi' HQ').
  Qed.

  Definition tracked (b : bool) (x : option (lmat R)) (X : lmat R) : Prop := x = if b then Some X else None.

  Lemma tracked_map b x X (f : lmat R -> lmat R) : tracked b x X -> tracked b (option_map f x) (f X).
  Proof. unfold tracked. intros ->. now destruct b. Qed.

  Section Dims.
    Variables m n : nat.
    Variable A : lmat R.
    Variables f1 f2 f3 f4 : bool.

    Definition SInv (s : state R) : Prop :=
      exists P Pi Q Qi,
        wf m n (st_t s) /\ wf m m P /\ wf m m Pi /\ wf n n Q /\ wf n n Qi /\
        tracked f1 (st_p s) P /\ tracked f2 (st_pinv s) Pi /\ tracked f3 (st_q s) Q /\ tracked f4 (st_qinv s) Qi /\
        FInv m n (get A) (get (st_t s)) (get P) (get Pi) (get Q) (get Qi).

    Lemma SInv_intro s P Pi Q Qi :
      wf m n (st_t s) -> wf m m P -> wf m m Pi -> wf n n Q -> wf n n Qi ->
      tracked f1 (st_p s) P -> tracked f2 (st_pinv s) Pi -> tracked f3 (st_q s) Q -> tracked f4 (st_qinv s) Qi ->
      FInv m n (get A) (get (st_t s)) (get P) (get Pi) (get Q) (get Qi) -> SInv s.
    Proof. intros. exists P, Pi, Q, Qi. tauto. Qed.

    Lemma id_id_meq k : meq k k (mmul o k (get (id_mat D k)) (get (id_mat D k))) (mid o).
    Proof.
      eapply meq_trans; [apply (mmul_ext o k k k (get (id_mat D k)) (mid o) (get (id_mat D k)) (mid o))|].
      - intros x y Hx Hy. now apply get_id.
      - intros x y Hx Hy. now apply get_id.
      - apply meq_id_l.
    Qed.

    Lemma SInv_init : wf m n A -> SInv (init_state D m n A (f1, f2, f3, f4)).
    Proof.
      intros W. apply (SInv_intro _ (id_mat D m) (id_mat D m) (id_mat D n) (id_mat D n));
        try apply wf_id; try reflexivity; try exact W.
      split; [|repeat split; apply id_id_meq].
      cbn [st_t init_state].
      apply meq_sym.
      eapply meq_trans; [apply (mmul_ext o m m n (get (id_mat D m)) (mid o) _ (get A))|].
      - intros x y Hx Hy. now apply get_id.
      - eapply meq_trans; [apply (mmul_ext o n m n (get A) (get A) (get (id_mat D n)) (mid o))|].
        + apply meq_refl.
        + intros x y Hx Hy. now apply get_id.
        + apply meq_id_r.
      - apply meq_id_l.
    Qed.

    Lemma SInv_left_elem a b c d i j s :
      i <> j -> i < m -> j < m -> a * d + - (b * c) = 1 ->
      SInv s -> SInv (s_left_elem D a b c d i j s).
    Proof.
      intros Hij Hi Hj Hdet (P & Pi & Q & Qi & WT & WP & WPi & WQ & WQi & T1 & T2 & T3 & T4 & HI).
      apply (SInv_intro _ (m_left_elem D a b c d i j P) (m_right_elem D d (- c) (- b) a i j Pi) Q Qi);
        cbn [s_left_elem st_t st_p st_pinv st_q st_qinv];
        try assumption; try (now apply wf_left_elem); try (now apply wf_right_elem); try (now apply tracked_map).
      destruct (E2_inv D L m a b c d i j Hij Hi Hj Hdet) as [I1 I2].
      eapply (FInv_left m n _ _ _ _ _ _ _ _ _ _ _ I1 I2 HI).
      - intros r k Hr Hk. now apply (left_elem_mmul D L m n).
      - intros r k Hr Hk. now apply (left_elem_mmul D L m m).
      - intros r k Hr Hk. now apply (right_elem_mmul D L m m).
    Qed.

    Lemma SInv_right_elem a b c d i j s :
      i <> j -> i < n -> j < n -> a * d + - (b * c) = 1 ->
      SInv s -> SInv (s_right_elem D a b c d i j s).
    Proof.
      intros Hij Hi Hj Hdet (P & Pi & Q & Qi & WT & WP & WPi & WQ & WQi & T1 & T2 & T3 & T4 & HI).
      apply (SInv_intro _ P Pi (m_right_elem D a b c d i j Q) (m_left_elem D d (- c) (- b) a i j Qi));
        cbn [s_right_elem st_t st_p st_pinv st_q st_qinv];
        try assumption; try (now apply wf_left_elem); try (now apply wf_right_elem); try (now apply tracked_map).
      assert (Hdet' : a * d + - (c * b) = 1) by (rewrite <- Hdet; ring).
      destruct (E2_inv D L n a c b d i j Hij Hi Hj Hdet') as [I1 I2].
      eapply (FInv_right m n _ _ _ _ _ _ _ _ _ _ _ I1 I2 HI).
      - intros r k Hr Hk. now apply (right_elem_mmul D L m n).
      - intros r k Hr Hk. now apply (right_elem_mmul D L n n).
      - intros r k Hr Hk. now apply (left_elem_mmul D L n n).
    Qed.

    Lemma SInv_swap_rows i j s : i <> j -> i < m -> j < m -> SInv s -> SInv (s_swap_rows i j s).
    Proof.
      intros Hij Hi Hj (P & Pi & Q & Qi & WT & WP & WPi & WQ & WQi & T1 & T2 & T3 & T4 & HI).
      apply (SInv_intro _ (m_swap_rows i j P) (m_swap_cols i j Pi) Q Qi);
        cbn [s_swap_rows st_t st_p st_pinv st_q st_qinv];
        try assumption; try (now apply wf_swap_rows); try (now apply wf_swap_cols); try (now apply tracked_map).
      pose proof (E2_swap_inv D L m i j Hij Hi Hj) as I1.
      eapply (FInv_left m n _ _ _ _ _ _ _ _ _ _ _ I1 I1 HI).
      - intros r k Hr Hk. now apply (swap_rows_mmul D L m n).
      - intros r k Hr Hk. now apply (swap_rows_mmul D L m m).
      - intros r k Hr Hk. now apply (swap_cols_mmul D L m m).
    Qed.

    Lemma SInv_swap_cols i j s : i <> j -> i < n -> j < n -> SInv s -> SInv (s_swap_cols i j s).
    Proof.
      intros Hij Hi Hj (P & Pi & Q & Qi & WT & WP & WPi & WQ & WQi & T1 & T2 & T3 & T4 & HI).
      apply (SInv_intro _ P Pi (m_swap_cols i j Q) (m_swap_rows i j Qi));
        cbn [s_swap_cols st_t st_p st_pinv st_q st_qinv];
        try assumption; try (now apply wf_swap_rows); try (now apply wf_swap_cols); try (now apply tracked_map).
      pose proof (E2_swap_inv D L n i j Hij Hi Hj) as I1.
      eapply (FInv_right m n _ _ _ _ _ _ _ _ _ _ _ I1 I1 HI).
      - intros r k Hr Hk. now apply (swap_cols_mmul D L m n).
      - intros r k Hr Hk. now apply (swap_cols_mmul D L n n).
      - intros r k Hr Hk. now apply (swap_rows_mmul D L n n).
    Qed.

    Lemma s_mul_row_eq i u ui s :
      rinv (ed_unit D) u = Some ui ->
      s_mul_row D i u s =
      Some (mk_state (m_mul_row D i u (st_t s)) (option_map (m_mul_row D i u) (st_p s))
                     (option_map (m_mul_col D i ui) (st_pinv s)) (st_q s) (st_qinv s)).
    Proof. intros H. unfold s_mul_row. cbv zeta. rewrite H. now destruct (st_pinv s). Qed.

    Lemma s_mul_col_eq i u ui s :
      rinv (ed_unit D) u = Some ui ->
      s_mul_col D i u s =
      Some (mk_state (m_mul_col D i u (st_t s)) (st_p s) (st_pinv s)
                     (option_map (m_mul_col D i u) (st_q s)) (option_map (m_mul_row D i ui) (st_qinv s))).
    Proof. intros H. unfold s_mul_col. cbv zeta. rewrite H. now destruct (st_qinv s). Qed.

    Lemma SInv_mul_row i u ui s :
      rinv (ed_unit D) u = Some ui -> SInv s -> exists s', s_mul_row D i u s = Some s' /\ SInv s'.
    Proof.
      intros Hinv (P & Pi & Q & Qi & WT & WP & WPi & WQ & WQi & T1 & T2 & T3 & T4 & HI).
      pose proof (sl_inv D SL _ _ Hinv) as Huv. fold o in Huv.
      rewrite (s_mul_row_eq i u ui s Hinv). eexists. split; [reflexivity|].
      apply (SInv_intro _ (m_mul_row D i u P) (m_mul_col D i ui Pi) Q Qi);
        cbn [st_t st_p st_pinv st_q st_qinv];
        try assumption; try (now apply (wf_mul_row D)); try (now apply (wf_mul_col D)); try (now apply tracked_map).
      destruct (Esc_inv D L m u ui i Huv) as [I1 I2].
      eapply (FInv_left m n _ _ _ _ _ _ _ _ _ _ _ I1 I2 HI).
      - intros r k Hr Hk. now apply (mul_row_mmul D L m n).
      - intros r k Hr Hk. now apply (mul_row_mmul D L m m).
      - intros r k Hr Hk. now apply (mul_col_mmul D L m m).
    Qed.

    Lemma SInv_mul_col i u ui s :
      rinv (ed_unit D) u = Some ui -> SInv s -> exists s', s_mul_col D i u s = Some s' /\ SInv s'.
    Proof.
      intros Hinv (P & Pi & Q & Qi & WT & WP & WPi & WQ & WQi & T1 & T2 & T3 & T4 & HI).
      pose proof (sl_inv D SL _ _ Hinv) as Huv. fold o in Huv.
      rewrite (s_mul_col_eq i u ui s Hinv). eexists. split; [reflexivity|].
      apply (SInv_intro _ P Pi (m_mul_col D i u Q) (m_mul_row D i ui Qi));
        cbn [st_t st_p st_pinv st_q st_qinv];
        try assumption; try (now apply (wf_mul_row D)); try (now apply (wf_mul_col D)); try (now apply tracked_map).
      destruct (Esc_inv D L n u ui i Huv) as [I1 I2].
      eapply (FInv_right m n _ _ _ _ _ _ _ _ _ _ _ I1 I2 HI).
      - intros r k Hr Hk. now apply (mul_col_mmul D L m n).
      - intros r k Hr Hk. now apply (mul_col_mmul D L n n).
      - intros r k Hr Hk. now apply (mul_row_mmul D L n n).
    Qed.
  End Dims.
End Inv.
