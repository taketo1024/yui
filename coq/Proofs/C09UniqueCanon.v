(* C09 (uniqueness), part 9: normalised associates are equal, hence the diagonal matrix D returned by SnfCalc
   is a FUNCTION of the input (not only unique up to units) - for Z, Z[i], Z[omega] and every field dictionary.
   [nunit_canon D]: if a <> 0 and both a and u*a (u invertible) are normalised (normalizing_unit = 1) then u*a = a.
   [snf_D_unique]:  two results meeting the contract for the same input - under two dictionaries with the same ring
                    and unit operations (e.g. with and without the LLL preprocessing), any flags, any fuel - have the
                    same D, rank() and factors(). *)
From Coq Require Import ZArith Arith List Lia Ring Bool.
Require Import Yui.Base.Ring Yui.Base.MatF Yui.Base.MatL Yui.Model.Snf.
Require Import Yui.Proofs.C07Algebra Yui.Proofs.C09UniqueKer Yui.Proofs.C09Unique.
Require Import Yui.Proofs.C09Inv Yui.Proofs.C09Total Yui.Proofs.C09Term Yui.Proofs.C09Laws Yui.Proofs.C09Quad.
Import ListNotations.

Definition nunit_canon {R : Type} (D : euc_dict R) : Prop :=
  forall a u v : R,
    rmul (ed_ring D) u v = rone (ed_ring D) -> a <> rzero (ed_ring D) ->
    rnunit (ed_unit D) a = rone (ed_ring D) ->
    rnunit (ed_unit D) (rmul (ed_ring D) u a) = rone (ed_ring D) ->
    rmul (ed_ring D) u a = a.

Theorem snf_D_unique {R : Type} (D D' : euc_dict R) :
  snf_laws D -> bezout (ed_ring D) -> nunit_canon D ->
  ed_ring D' = ed_ring D -> ed_unit D' = ed_unit D ->
  forall m n (A : lmat R) f1 f2 f3 f4 g1 g2 g3 g4 res res',
  snf_spec D m n A f1 f2 f3 f4 res -> snf_spec D' m n A g1 g2 g3 g4 res' ->
  sr_d res = sr_d res' /\ snf_rank D res = snf_rank D' res' /\ snf_factors D res = snf_factors D' res'.
Proof.
  intros SL B CN Eo Eu m n A f1 f2 f3 f4 g1 g2 g3 g4 res res' HS HS'.
  set (o := ed_ring D) in *.
  destruct (spec_smith_form D' m n A g1 g2 g3 g4 res' HS') as [F' [C' Hnu']]. cbv zeta in F', C', Hnu'.
  rewrite Eo in F', C', Hnu'. rewrite Eu in Hnu'. fold o in F', C', Hnu'.
  destruct (spec_smith_form D m n A f1 f2 f3 f4 res HS) as [F [_ Hnu]]. cbv zeta in F, Hnu. fold o in F, Hnu.
  destruct (snf_result_unique D SL m n A f1 f2 f3 f4 res _ _ B HS F' C') as [Er Ha]. fold o in Ha.
  assert (Hd : forall k, (k < snf_rank D' res')%nat ->
                         lget o (dm_rows (sr_d res)) k k = lget o (dm_rows (sr_d res')) k k).
  { intros k Hk. destruct (Ha k Hk) as [u [v [Huv Hb]]].
    destruct F as [_ [_ [_ [_ [_ [_ [_ [Hnz _]]]]]]]].
    rewrite Hb. symmetry. apply (CN _ u v Huv).
    - apply Hnz. rewrite Er. exact Hk.
    - apply Hnu. rewrite Er. exact Hk.
    - fold o. rewrite <- Hb. now apply Hnu'. }
  assert (ED : sr_d res = sr_d res').
  { destruct HS as (T & P & Pi & Q & Qi & ET & WT & _ & _ & _ & _ & _ & _ & _ & _ & _ & _ & _ & _ & _ & HX & _).
    destruct HS' as (T' & P' & Pi' & Q' & Qi' & ET' & WT' & _ & _ & _ & _ & _ & _ & _ & _ & _ & _ & _ & _ & _ & HX' & _).
    cbv zeta in HX, HX'. rewrite Eo in HX'. fold o in HX, HX'.
    rewrite ET, ET' in *. cbn [dm_rows] in *. f_equal.
    destruct HX as (Hr & Hoff & _ & Hz & _ & _). destruct HX' as (Hr' & Hoff' & _ & Hz' & _ & _).
    apply (lmat_ext o m n); [exact WT|exact WT'|].
    intros i j Hi Hj. destruct (Nat.eq_dec i j) as [<-|Hne].
    - destruct (le_lt_dec (snf_rank D' res') i) as [Hge|Hlt].
      + rewrite Hz, Hz'; [reflexivity|exact Hge|lia|lia|lia].
      + now apply Hd.
    - rewrite Hoff, Hoff' by assumption. reflexivity. }
  split; [exact ED|]. split; [exact Er|].
  unfold snf_factors, mget. rewrite ED, Eo. reflexivity.
Qed.

Lemma Z_canon pre : nunit_canon (Zpre_dict pre).
Proof.
  intros a u v Huv Ha H1 H2. cbn in *.
  destruct (Z.mul_eq_1 u v Huv) as [->| ->]; [lia|].
  repeat match goal with
  | H : context[Z.ltb ?x ?y] |- _ => destruct (Z.ltb_spec x y); try discriminate H
  end. lia.
Qed.

(* over Z: any flags, any fuel, with or without the LLL preprocessing *)
Theorem Z_snf_D_unique pre pre' m n (A : lmat Z) f1 f2 f3 f4 g1 g2 g3 g4 res res' :
  snf_spec (Zpre_dict pre) m n A f1 f2 f3 f4 res ->
  snf_spec (Zpre_dict pre') m n A g1 g2 g3 g4 res' ->
  sr_d res = sr_d res' /\ snf_rank (Zpre_dict pre) res = snf_rank (Zpre_dict pre') res' /\
  snf_factors (Zpre_dict pre) res = snf_factors (Zpre_dict pre') res'.
Proof.
  exact (snf_D_unique (Zpre_dict pre) (Zpre_dict pre') (Zpre_snf_laws pre) Z_bezout (Z_canon pre) eq_refl eq_refl
           m n A f1 f2 f3 f4 g1 g2 g3 g4 res res').
Qed.

Section QuadCanon.
  Open Scope Z_scope.

  (* the units of Z[i] (eisen = false) and Z[omega] (eisen = true): their norm is 1 *)
  Lemma quad_units (eisen : bool) (u v : quad) : let t := if eisen then 1 else 0 in
    q_mul t (-1) u v = (1, 0) -> q_norm t (-1) u = 1.
  Proof.
    intros t H. apply (f_equal (q_norm t (-1))) in H. rewrite q_norm_mul in H.
    assert (P : 0 <= q_norm t (-1) u) by apply quad_norm_nonneg.
    replace (q_norm t (-1) (1, 0)) with 1 in H by (unfold q_norm; cbn [fst snd]; ring).
    destruct (Z.mul_eq_1 _ _ H); lia.
  Qed.

  (* a and u*a both in the sector 0 < x, 0 <= y: the sector meets each orbit of the unit group once *)
  Lemma quad_canon_raw (eisen : bool) (a u v : quad) : let t := if eisen then 1 else 0 in
    q_mul t (-1) u v = (1, 0) -> a <> (0, 0) ->
    q_nunit eisen a = (1, 0) -> q_nunit eisen (q_mul t (-1) u a) = (1, 0) -> q_mul t (-1) u a = a.
  Proof.
    intros t Huv Ha H1 H2. apply quad_units in Huv. apply q_nunit_one in H1, H2.
    destruct a as [a1 a2], u as [u1 u2]. unfold q_norm in Huv. unfold q_mul in *. cbn [fst snd] in *.
    assert (Ha' : ~ (a1 = 0 /\ a2 = 0)) by (intros [-> ->]; now apply Ha).
    assert (B1 : -1 <= u1 <= 1) by (destruct eisen; nia).
    assert (B2 : -1 <= u2 <= 1) by (destruct eisen; nia).
    assert (A1 : u1 = -1 \/ u1 = 0 \/ u1 = 1) by lia. assert (A2 : u2 = -1 \/ u2 = 0 \/ u2 = 1) by lia.
    clear B1 B2. destruct eisen, A1 as [->|[->| ->]], A2 as [->|[->| ->]]; f_equal; lia.
  Qed.
End QuadCanon.

Lemma gauss_canon pre : nunit_canon (gausspre_dict pre).
Proof. intros a u v. exact (quad_canon_raw false a u v). Qed.

Lemma eisen_canon pre : nunit_canon (eisenpre_dict pre).
Proof. intros a u v. exact (quad_canon_raw true a u v). Qed.

Lemma field_canon {F : Type} (o : ring_ops F) (finv : F -> F) :
  ring_laws o -> rone o <> rzero o -> (forall a, a <> rzero o -> rmul o a (finv a) = rone o) ->
  nunit_canon (field_dict o finv).
Proof.
  intros L H1 Hinv a u v Huv Ha N1 N2. cbn in *.
  assert (One : forall x, x <> rzero o -> (if ris_zero o x then rone o else finv x) = rone o -> x = rone o).
  { intros x Hx E. rewrite (proj2 (ris_zero_false o L x) Hx) in E.
    rewrite <- (Hinv x Hx), E. rewrite (rmul_comm o L). symmetry. apply (rmul_1_l o L). }
  assert (Hua : rmul o u a <> rzero o).
  { pose proof (field_snf_laws o finv L H1 Hinv) as SL. intros E.
    destruct (mul_eq_0 _ SL u a E) as [E0|E0]; [exact (unit_neq_0 _ SL u v Huv E0)|contradiction]. }
  pose proof (One a Ha N1) as Ea. apply (One _ Hua) in N2. rewrite N2, Ea. reflexivity.
Qed.

Theorem gauss_snf_D_unique pre pre' m n (A : lmat quad) f1 f2 f3 f4 g1 g2 g3 g4 res res' :
  snf_spec (gausspre_dict pre) m n A f1 f2 f3 f4 res -> snf_spec (gausspre_dict pre') m n A g1 g2 g3 g4 res' ->
  sr_d res = sr_d res' /\ snf_rank (gausspre_dict pre) res = snf_rank (gausspre_dict pre') res' /\
  snf_factors (gausspre_dict pre) res = snf_factors (gausspre_dict pre') res'.
Proof.
  exact (snf_D_unique (gausspre_dict pre) (gausspre_dict pre') (gauss_snf_laws pre) (gauss_bezout pre)
           (gauss_canon pre) eq_refl eq_refl m n A f1 f2 f3 f4 g1 g2 g3 g4 res res').
Qed.

Theorem eisen_snf_D_unique pre pre' m n (A : lmat quad) f1 f2 f3 f4 g1 g2 g3 g4 res res' :
  snf_spec (eisenpre_dict pre) m n A f1 f2 f3 f4 res -> snf_spec (eisenpre_dict pre') m n A g1 g2 g3 g4 res' ->
  sr_d res = sr_d res' /\ snf_rank (eisenpre_dict pre) res = snf_rank (eisenpre_dict pre') res' /\
  snf_factors (eisenpre_dict pre) res = snf_factors (eisenpre_dict pre') res'.
Proof.
  exact (snf_D_unique (eisenpre_dict pre) (eisenpre_dict pre') (eisen_snf_laws pre) (eisen_bezout pre)
           (eisen_canon pre) eq_refl eq_refl m n A f1 f2 f3 f4 g1 g2 g3 g4 res res').
Qed.

Theorem field_snf_D_unique {F : Type} (o : ring_ops F) (finv : F -> F) :
  ring_laws o -> rone o <> rzero o -> (forall a, a <> rzero o -> rmul o a (finv a) = rone o) ->
  forall m n (A : lmat F) f1 f2 f3 f4 g1 g2 g3 g4 res res',
  snf_spec (field_dict o finv) m n A f1 f2 f3 f4 res -> snf_spec (field_dict o finv) m n A g1 g2 g3 g4 res' ->
  sr_d res = sr_d res' /\ snf_rank (field_dict o finv) res = snf_rank (field_dict o finv) res' /\
  snf_factors (field_dict o finv) res = snf_factors (field_dict o finv) res'.
Proof.
  intros L H1 Hinv.
  exact (snf_D_unique (field_dict o finv) (field_dict o finv) (field_snf_laws o finv L H1 Hinv)
           (field_bezout o finv L H1 Hinv) (field_canon o finv L H1 Hinv) eq_refl eq_refl).
Qed.

Lemma canon_rings :
  (forall pre, nunit_canon (Zpre_dict pre)) /\
  (forall pre, nunit_canon (gausspre_dict pre)) /\
  (forall pre, nunit_canon (eisenpre_dict pre)) /\
  (forall (F : Type) (o : ring_ops F) (finv : F -> F), ring_laws o -> rone o <> rzero o ->
     (forall a, a <> rzero o -> rmul o a (finv a) = rone o) -> nunit_canon (field_dict o finv)).
Proof. exact (conj Z_canon (conj gauss_canon (conj eisen_canon (@field_canon)))). Qed.
