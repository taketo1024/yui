(* Structural facts behind mirror duality: the cube of the mirror diagram is the cube of the diagram
   with all states complemented. *)
From Coq Require Import List Bool Arith Lia.
Require Import Yui.Model.KhCube.
Import ListNotations.

Lemma mirror_type_invol t : mirror_type (mirror_type t) = t.
Proof. destruct t; reflexivity. Qed.

Lemma mirror_invol l : mirror (mirror l) = l.
Proof.
  unfold mirror. rewrite map_map. rewrite <- (map_id l) at 2. apply map_ext.
  intros [t e]. cbn. now rewrite mirror_type_invol.
Qed.

Lemma is_resolved_mirror c : is_resolved (mirror_type (fst c), snd c) = is_resolved c.
Proof. destruct c as [[] e]; reflexivity. Qed.

Lemma crossing_num_mirror l : crossing_num (mirror l) = crossing_num l.
Proof.
  unfold crossing_num, mirror. induction l as [|c l IH]; [reflexivity|].
  cbn [map filter]. rewrite is_resolved_mirror. destruct (is_resolved c); cbn [negb length]; lia.
Qed.

Lemma resolve_type_mirror t b :
  resolve_type (mirror_type t) b = resolve_type t (negb b).
Proof. destruct t, b; reflexivity. Qed.

(* resolved crossings are not changed by mirroring: V and H are their own mirrors; the state must
   provide a bit for every unresolved crossing (the library asserts equality of the lengths) *)
Lemma resolve_by_mirror l s :
  crossing_num l <= length s ->
  resolve_by (mirror l) s = resolve_by l (map negb s).
Proof.
  revert s. induction l as [|[t e] l IH]; intros s Hs; [reflexivity|].
  cbn [mirror map resolve_by fst snd]. fold (mirror l).
  unfold crossing_num in Hs. cbn [filter] in Hs. fold (crossing_num l) in *.
  destruct t; cbn [is_resolved fst mirror_type negb] in *.
  1, 2: destruct s as [|b s]; cbn [map length] in *; [lia|];
    change (length (filter (fun c => negb (is_resolved c)) l)) with (crossing_num l) in Hs;
    rewrite IH by lia; now destruct b.
  all: now rewrite IH.
Qed.

Lemma circles_mirror l s :
  crossing_num l <= length s ->
  circles (resolve_by (mirror l) s) = circles (resolve_by l (map negb s)).
Proof. intros H. now rewrite resolve_by_mirror. Qed.

Lemma weight_negb s : weight (map negb s) + weight s = length s.
Proof.
  unfold weight. induction s as [|b s IH]; [reflexivity|]. cbn [map filter length].
  destruct b; cbn [negb length]; lia.
Qed.
