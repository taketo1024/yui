(* C16 - Polynomial and linear-combination types form the free algebra they denote.
   Each theorem is proved by [exact <lemma>] and is followed by Print Assumptions; the Examples at the end
   instantiate the hypotheses on concrete values (non-vacuity).

   Models: Model/Lc.v (Lc<X,R>: hash map as association list), Model/Mono.v (Var, Var2, Var3, MultiDeg,
   MultiVar over an exponent dictionary: N = usize with checked subtraction, Z = isize), Model/Poly.v
   (PolyBase, HPoly, straight-line programs over registers).
   Quantification: every commutative ring [o] with [ring_laws o] (Base/Ring.v), every key type with a
   correct boolean equality, every monomial dictionary [m] satisfying [mono_laws m ok] -- proved below
   for Var/Var2/Var3/MultiVar over every exponent type that order-embeds into Z ([exp_laws], proved for
   N and Z).

   Vocabulary (defined in Proofs/C16*.v):
     coeff xeqb o l x      the coefficient the hash map returns (first match, default zero)
     rcoeff xeqb o l x     the coefficient of x in l read as a raw formal sum: the sum of all matching terms
     NoZero o l            keys pairwise distinct and no stored coefficient is zero
     KeysOk ok l           every stored key satisfies ok (MultiVar: the multi-degree is Reduced)
     WF m o ok p           NoZero o p /\ KeysOk ok p
     peq m o p q           forall z, coeff p z = coeff q z
     Reduced e d           MultiDeg: indices strictly increasing and no stored exponent is zero
     ord_laws P cmp        on P: (cmp x y = Eq <-> x = y), cmp y x = CompOpp (cmp x y), Lt is transitive
     additive o h          h x 0 = 0 and h x (r + s) = h x r + h x s   (C16Lc.v)
     op_ok ok p            the program step p only introduces keys satisfying ok   (C16Poly.v)
     fz e eZ a i           the exponent of x_i in a, as an integer; mbound a: an index beyond every stored one;
     lexn n f g            compares f and g at 0, .., n-1, the first difference decides   (C16MDeg.v)
     exp_laws e eZ, mono_laws m ok, any                                                   (C16Mono.v) *)
From Coq Require Import List Bool Arith NArith ZArith Permutation.
Require Import Yui.Base.Ring Yui.Model.Lc Yui.Model.Mono Yui.Model.Poly.
Require Import Yui.Proofs.C16Lc Yui.Proofs.C16Mono Yui.Proofs.C16MDeg Yui.Proofs.C16Poly Yui.Proofs.C16Eval.
Import ListNotations.

Section LcTheorems.
  Context {X R : Type} (xeqb : X -> X -> bool) (o : ring_ops R).
  Context (xeqb_eq : forall x y, xeqb x y = true <-> x = y) (L : ring_laws o).

  (* no zero coefficient, no duplicate key: for every constructor result and after every operation *)
  Theorem C16_lc_no_zero :
    NoZero o ([] : lc X R) /\
    (forall it, NoZero o (from_iter xeqb o it)) /\
    (forall a b, NoZero o a -> NoZero o (add xeqb o a b)) /\
    (forall a b, NoZero o a -> NoZero o (sub xeqb o a b)) /\
    (forall a, NoZero o (neg xeqb o a)) /\
    (forall (a : lc X R) c, NoZero o a -> NoZero o (smul o a c)) /\
    (forall f a b, NoZero o (lc_combine xeqb o f a b)) /\
    (forall p a, NoZero o (filter_gens xeqb o p a)) /\
    (forall f a, NoZero o (map_gens xeqb o f a)) /\
    (forall f a, NoZero o (apply xeqb o f a)).
  Proof.
    exact (conj (@NoZero_nil X R o) (conj (NoZero_from_iter xeqb o xeqb_eq L) (conj (NoZero_add xeqb o xeqb_eq L)
          (conj (NoZero_sub xeqb o xeqb_eq L) (conj (NoZero_neg xeqb o xeqb_eq L) (conj (NoZero_smul o L)
          (conj (NoZero_combine xeqb o xeqb_eq L) (conj (NoZero_filter_gens xeqb o xeqb_eq L)
          (conj (NoZero_map_gens xeqb o xeqb_eq L) (NoZero_apply xeqb o xeqb_eq L)))))))))).
  Qed.

  (* from_iter normalises a raw term list without changing any coefficient *)
  Theorem C16_lc_from_iter : forall it z, coeff xeqb o (from_iter xeqb o it) z = rcoeff xeqb o it z.
  Proof. exact (coeff_from_iter xeqb o xeqb_eq L). Qed.

  Theorem C16_lc_add : forall a b z, NoZero o a -> NoZero o b ->
    coeff xeqb o (add xeqb o a b) z = radd o (coeff xeqb o a z) (coeff xeqb o b z).
  Proof. exact (coeff_add xeqb o xeqb_eq L). Qed.
  Theorem C16_lc_sub : forall a b z, NoZero o a -> NoZero o b ->
    coeff xeqb o (sub xeqb o a b) z = radd o (coeff xeqb o a z) (rneg o (coeff xeqb o b z)).
  Proof. exact (coeff_sub xeqb o xeqb_eq L). Qed.
  Theorem C16_lc_neg : forall a z, NoZero o a -> coeff xeqb o (neg xeqb o a) z = rneg o (coeff xeqb o a z).
  Proof. exact (coeff_neg xeqb o xeqb_eq L). Qed.
  Theorem C16_lc_smul : forall a c z, NoZero o a -> coeff xeqb o (smul o a c) z = rmul o (coeff xeqb o a z) c.
  Proof. exact (coeff_smul xeqb o xeqb_eq L). Qed.

  (* the product over any key map f: coeff (a*b) z = sum over x in supp a, y in supp b with f x y = z *)
  Theorem C16_lc_combine : forall f a b z, NoZero o a -> NoZero o b ->
    coeff xeqb o (lc_combine xeqb o f a b) z =
    rsum o (map (fun x => rsum o (map (fun y => if xeqb (f x y) z then rmul o (coeff xeqb o a x) (coeff xeqb o b y)
                                                 else rzero o) (keys b))) (keys a)).
  Proof. exact (coeff_combine xeqb o xeqb_eq L). Qed.

  Theorem C16_lc_filter_gens : forall p a z, NoZero o a ->
    coeff xeqb o (filter_gens xeqb o p a) z = if p z then coeff xeqb o a z else rzero o.
  Proof. exact (coeff_filter_gens xeqb o xeqb_eq L). Qed.
  (* map_gens f sums the coefficients of all generators with the same image *)
  Theorem C16_lc_map_gens : forall f a z,
    coeff xeqb o (map_gens xeqb o f a) z = lsum o (fun x r => if xeqb (f x) z then r else rzero o) a.
  Proof. exact (coeff_map_gens xeqb o xeqb_eq L). Qed.
  Theorem C16_lc_apply : forall f a z,
    coeff xeqb o (apply xeqb o f a) z =
    lsum o (fun x r => lsum o (fun y s => if xeqb y z then rmul o r s else rzero o) (f x)) a.
  Proof. exact (coeff_apply xeqb o xeqb_eq L). Qed.

  (* observers are those of the mathematical object *)
  Theorem C16_lc_is_zero : forall l, NoZero o l -> (is_zero l = true <-> forall x, coeff xeqb o l x = rzero o).
  Proof. exact (is_zero_iff xeqb o xeqb_eq). Qed.
  Theorem C16_lc_support : forall l, NoZero o l -> forall x, In x (keys l) <-> coeff xeqb o l x <> rzero o.
  Proof. exact (support_keys xeqb o xeqb_eq). Qed.
  Theorem C16_lc_nterms : forall a s, NoZero o a -> NoDup s -> (forall x, In x s <-> coeff xeqb o a x <> rzero o) ->
    nterms a = length s.
  Proof. exact (nterms_support xeqb o xeqb_eq). Qed.
  (* == of the hash maps is equality of the coefficient functions; the stored terms agree up to order *)
  Theorem C16_lc_eq : forall a b, NoZero o a -> NoZero o b ->
    (lc_eqb xeqb o a b = true <-> forall x, coeff xeqb o a x = coeff xeqb o b x).
  Proof. exact (lc_eqb_iff xeqb o xeqb_eq L). Qed.
  Theorem C16_lc_canonical : forall a b, NoZero o a -> NoZero o b ->
    (forall x, coeff xeqb o a x = coeff xeqb o b x) -> Permutation a b.
  Proof. exact (NoZero_perm xeqb o xeqb_eq). Qed.

  (* universal property: an additive functional of the terms only sees the coefficient function *)
  Theorem C16_lc_linear_ext : forall h a b, additive o h ->
    (forall x, rcoeff xeqb o a x = rcoeff xeqb o b x) -> lsum o h a = lsum o h b.
  Proof. exact (lsum_rcoeff_ext xeqb o xeqb_eq L). Qed.
End LcTheorems.
Print Assumptions C16_lc_no_zero.
Print Assumptions C16_lc_from_iter.
Print Assumptions C16_lc_add.
Print Assumptions C16_lc_sub.
Print Assumptions C16_lc_neg.
Print Assumptions C16_lc_smul.
Print Assumptions C16_lc_combine.
Print Assumptions C16_lc_filter_gens.
Print Assumptions C16_lc_map_gens.
Print Assumptions C16_lc_apply.
Print Assumptions C16_lc_is_zero.
Print Assumptions C16_lc_support.
Print Assumptions C16_lc_nterms.
Print Assumptions C16_lc_eq.
Print Assumptions C16_lc_canonical.
Print Assumptions C16_lc_linear_ext.

Section PolyTheorems.
  Context {X R : Type} (m : mono_ops X) (o : ring_ops R) (ok : X -> Prop).
  Context (ML : mono_laws m ok) (L : ring_laws o).
  Notation WF := (WF o ok).
  Notation coeff := (coeff (meqb m) o).
  Infix "==" := (peq m o) (at level 70).

  (* the invariant holds for every constructor result ... *)
  Theorem C16_no_zero_constructors :
    WF [] /\ (forall it, Forall ok (map fst it) -> WF (p_from_iter m o it)) /\
    (forall x r, ok x -> WF (p_from_pair m o x r)) /\ (forall r, WF (p_from_const m o r)) /\ WF (p_one m o).
  Proof.
    exact (conj (WF_nil o ok) (conj (WF_from_iter m o ok ML L) (conj (WF_from_pair m o ok ML L)
          (conj (WF_from_const m o ok ML L) (WF_one m o ok ML L))))).
  Qed.
  (* ... and is preserved by every operation *)
  Theorem C16_no_zero_preserved : forall a b, WF a -> WF b ->
    WF (p_add m o a b) /\ WF (p_sub m o a b) /\ WF (p_neg m o a) /\ (forall c, WF (p_smul o a c)) /\
    WF (p_mul m o a b) /\ WF (p_lc_mul m o a b) /\ (forall n, WF (p_pow m o a n)).
  Proof.
    exact (fun a b Ha Hb => conj (WF_add m o ok ML L a b Ha Hb) (conj (WF_sub m o ok ML L a b Ha Hb)
          (conj (WF_neg m o ok ML L a Ha) (conj (fun c => WF_smul o ok L a c Ha)
          (conj (WF_mul m o ok ML L a b Ha Hb) (conj (WF_lc_mul m o ok ML L a b Ha Hb)
          (fun n => WF_pow m o ok ML L a n Ha))))))).
  Qed.

  (* hence along every finite history: a straight-line program over registers (any mixture of from_iter,
     + - neg, scalar *, the special-cased *, the Lc product, pow, map_gens, filter_gens, apply) keeps every
     register WF, and every register denotes the raw formal expression computed by the same program
     without any accumulation or cleaning *)
  Theorem C16_histories : forall ops regs, Forall (op_ok ok) ops -> Forall WF regs ->
    Forall2 (fun p r => WF p /\ forall z, coeff p z = rcoeff (meqb m) o r z)
            (run m o ops regs) (raw_run m o ops regs).
  Proof. exact (histories m o ok ML L). Qed.

  (* + - neg and scalar multiplication are coefficientwise *)
  Theorem C16_add : forall a b z, WF a -> WF b -> coeff (p_add m o a b) z = radd o (coeff a z) (coeff b z).
  Proof. exact (coeff_p_add m o ok ML L). Qed.
  Theorem C16_sub : forall a b z, WF a -> WF b -> coeff (p_sub m o a b) z = radd o (coeff a z) (rneg o (coeff b z)).
  Proof. exact (coeff_p_sub m o ok ML L). Qed.
  Theorem C16_neg : forall a z, WF a -> coeff (p_neg m o a) z = rneg o (coeff a z).
  Proof. exact (coeff_p_neg m o ok ML L). Qed.
  Theorem C16_smul : forall a c z, WF a -> coeff (p_smul o a c) z = rmul o (coeff a z) c.
  Proof. exact (coeff_p_smul m o ok ML L). Qed.

  (* the product is the convolution over the supports *)
  Theorem C16_mul : forall a b z, WF a -> WF b ->
    coeff (p_mul m o a b) z =
    rsum o (map (fun x => rsum o (map (fun y => if meqb m (mmul m x y) z then rmul o (coeff a x) (coeff b y) else rzero o)
                                      (keys b))) (keys a)).
  Proof. exact (coeff_p_mul m o ok ML L). Qed.
  (* the special cases of *= (rhs one / rhs constant / self constant) equal the general Lc product *)
  Theorem C16_mul_assign_cases : forall a b, WF a -> WF b -> p_mul m o a b == p_lc_mul m o a b.
  Proof. exact (p_mul_spec m o ok ML L). Qed.
  Theorem C16_pow : forall a n, WF a -> p_pow m o a (S n) == p_lc_mul m o (p_pow m o a n) a.
  Proof. exact (pow_S m o ok ML L). Qed.
  Theorem C16_smul_is_mul_const : forall a c, WF a -> p_smul o a c == p_mul m o a (p_from_const m o c).
  Proof. exact (smul_mul_const m o ok ML L). Qed.

  (* == decides equality of the denoted polynomials; equal polynomials store the same terms *)
  Theorem C16_eq : forall a b, WF a -> WF b -> (p_eqb m o a b = true <-> a == b).
  Proof. exact (p_eqb_iff m o ok ML L). Qed.
  Theorem C16_canonical : forall a b, WF a -> WF b -> a == b -> Permutation a b.
  Proof. exact (peq_perm m o ok ML). Qed.

  (* commutative-ring axioms *)
  Theorem C16_add_comm : forall a b, WF a -> WF b -> p_add m o a b == p_add m o b a.
  Proof. exact (add_comm m o ok ML L). Qed.
  Theorem C16_add_assoc : forall a b c, WF a -> WF b -> WF c ->
    p_add m o a (p_add m o b c) == p_add m o (p_add m o a b) c.
  Proof. exact (add_assoc m o ok ML L). Qed.
  Theorem C16_add_zero : forall a, WF a -> p_add m o [] a == a.
  Proof. exact (add_0_l m o ok ML L). Qed.
  (* p + (-p) and p - p are the empty map (not just extensionally zero) *)
  Theorem C16_add_neg : forall a, WF a -> p_add m o a (p_neg m o a) = [] /\ p_sub m o a a = [].
  Proof. exact (add_neg_r m o ok ML L). Qed.
  Theorem C16_sub_is_add_neg : forall a b, WF a -> WF b -> p_sub m o a b == p_add m o a (p_neg m o b).
  Proof. exact (sub_add_neg m o ok ML L). Qed.
  Theorem C16_mul_comm : forall a b, WF a -> WF b -> p_mul m o a b == p_mul m o b a.
  Proof. exact (mul_comm m o ok ML L). Qed.
  Theorem C16_mul_assoc : forall a b c, WF a -> WF b -> WF c ->
    p_mul m o a (p_mul m o b c) == p_mul m o (p_mul m o a b) c.
  Proof. exact (mul_assoc m o ok ML L). Qed.
  Theorem C16_mul_one : forall a, WF a -> p_mul m o a (p_one m o) == a.
  Proof. exact (mul_1_r m o ok ML L). Qed.
  Theorem C16_distrib : forall a b c, WF a -> WF b -> WF c ->
    p_mul m o (p_add m o a b) c == p_add m o (p_mul m o a c) (p_mul m o b c).
  Proof. exact (mul_add_distr_r m o ok ML L). Qed.
  Theorem C16_mul_congruence : forall a a' b b', WF a -> WF a' -> WF b -> WF b' -> a == a' -> b == b' ->
    p_mul m o a b == p_mul m o a' b'.
  Proof. exact (mul_congr m o ok ML L). Qed.

  (* observers *)
  Theorem C16_is_zero : forall a, WF a -> (p_is_zero a = true <-> forall z, coeff a z = rzero o).
  Proof. exact (p_is_zero_iff m o ok ML). Qed.
  Theorem C16_nterms : forall a s, WF a -> NoDup s -> (forall x, In x s <-> coeff a x <> rzero o) ->
    p_nterms a = length s.
  Proof. exact (p_nterms_support m o ok ML). Qed.
  Theorem C16_support : forall a, WF a ->
    NoDup (keys a) /\ (forall x, In x (keys a) <-> coeff a x <> rzero o) /\ Forall ok (keys a) /\
    p_nterms a = length (keys a).
  Proof. exact (p_support m o ok ML). Qed.
  (* lead_term / lead_coeff: the grlex-maximal element of the support (strictly above every other) *)
  Theorem C16_lead_term : forall a, WF a -> a <> [] ->
    let x := p_lead_mono m o a in
    p_lead_coeff m o a = coeff a x /\ coeff a x <> rzero o /\
    forall y, coeff a y <> rzero o -> y <> x -> mcmp_grlex m y x = Lt.
  Proof. exact (lead_term_spec m o ok ML). Qed.
  Theorem C16_lead_term_zero : p_lead_term m o [] = (mone m, rzero o).
  Proof. exact (lead_term_zero m o). Qed.

  (* evaluation at any point (given as a multiplicative evaluation of monomials) is a ring homomorphism *)
  Theorem C16_eval_hom : forall ev : X -> R, ev (mone m) = rone o ->
    (forall x y, ok x -> ok y -> ev (mmul m x y) = rmul o (ev x) (ev y)) ->
    (forall a b, p_eval o ev (p_add m o a b) = radd o (p_eval o ev a) (p_eval o ev b)) /\
    (forall a b, p_eval o ev (p_sub m o a b) = radd o (p_eval o ev a) (rneg o (p_eval o ev b))) /\
    (forall a, p_eval o ev (p_neg m o a) = rneg o (p_eval o ev a)) /\
    (forall a c, p_eval o ev (p_smul o a c) = rmul o (p_eval o ev a) c) /\
    (forall a b, WF a -> WF b -> p_eval o ev (p_mul m o a b) = rmul o (p_eval o ev a) (p_eval o ev b)) /\
    (forall a n, WF a -> p_eval o ev (p_pow m o a n) = npow o (p_eval o ev a) n) /\
    p_eval o ev (p_one m o) = rone o /\ (forall c, p_eval o ev (p_from_const m o c) = c) /\
    (forall a b, WF a -> WF b -> a == b -> p_eval o ev a = p_eval o ev b).
  Proof.
    exact (fun ev e1 em => conj (eval_add m o ok ML L ev) (conj (eval_sub m o ok ML L ev) (conj (eval_neg m o ok ML L ev)
          (conj (eval_smul o L ev) (conj (eval_mul m o ok ML L ev em) (conj (eval_pow m o ok ML L ev e1 em)
          (conj (eval_one m o ok ML L ev e1) (conj (eval_const m o ok ML L ev e1) (eval_congr m o ok ML L ev))))))))).
  Qed.

  (* the monomial orders are total orders compatible with multiplication *)
  Theorem C16_orders :
    ord_laws ok (mcmp_lex m) /\ ord_laws ok (mcmp_grlex m) /\
    (forall x y z, ok x -> ok y -> ok z -> mcmp_lex m (mmul m x z) (mmul m y z) = mcmp_lex m x y) /\
    (forall x y z, ok x -> ok y -> ok z -> mcmp_grlex m (mmul m x z) (mmul m y z) = mcmp_grlex m x y).
  Proof. exact (conj (mlex_ord m ok ML) (conj (mgrlex_ord m ok ML) (conj (mlex_mul m ok ML) (mgrlex_mul m ok ML)))). Qed.
End PolyTheorems.
Print Assumptions C16_no_zero_constructors.
Print Assumptions C16_no_zero_preserved.
Print Assumptions C16_histories.
Print Assumptions C16_add.
Print Assumptions C16_sub.
Print Assumptions C16_neg.
Print Assumptions C16_smul.
Print Assumptions C16_mul.
Print Assumptions C16_mul_assign_cases.
Print Assumptions C16_pow.
Print Assumptions C16_smul_is_mul_const.
Print Assumptions C16_eq.
Print Assumptions C16_canonical.
Print Assumptions C16_add_comm.
Print Assumptions C16_add_assoc.
Print Assumptions C16_add_zero.
Print Assumptions C16_add_neg.
Print Assumptions C16_sub_is_add_neg.
Print Assumptions C16_mul_comm.
Print Assumptions C16_mul_assoc.
Print Assumptions C16_mul_one.
Print Assumptions C16_distrib.
Print Assumptions C16_mul_congruence.
Print Assumptions C16_is_zero.
Print Assumptions C16_nterms.
Print Assumptions C16_support.
Print Assumptions C16_lead_term.
Print Assumptions C16_lead_term_zero.
Print Assumptions C16_eval_hom.
Print Assumptions C16_orders.

(* what [ord_laws] says, spelled out *)
Theorem C16_ord_laws_meaning : forall (A : Type) (P : A -> Prop) (cmp : A -> A -> comparison),
  ord_laws P cmp <->
  ((forall x y, P x -> P y -> (cmp x y = Eq <-> x = y)) /\
   (forall x y, P x -> P y -> cmp y x = CompOpp (cmp x y)) /\
   (forall x y z, P x -> P y -> P z -> cmp x y = Lt -> cmp y z = Lt -> cmp x z = Lt)).
Proof. exact (fun A P cmp => conj (fun H => H) (fun H => H)). Qed.
Print Assumptions C16_ord_laws_meaning.

Theorem C16_exp_usize : exp_laws N_exp Z.of_N.
Proof. exact N_exp_laws. Qed.
Print Assumptions C16_exp_usize.
Theorem C16_exp_isize : exp_laws Z_exp (fun z => z).
Proof. exact Z_exp_laws. Qed.
Print Assumptions C16_exp_isize.

(* Var, Var2, Var3: commutative monoids, lex and grlex total orders compatible with the product, checked
   division sound; every value is valid *)
Theorem C16_var_laws : forall I (e : exp_ops I) eZ, exp_laws e eZ -> mono_laws (var_mono e) any.
Proof. exact (@var_laws). Qed.
Print Assumptions C16_var_laws.
Theorem C16_var2_laws : forall I (e : exp_ops I) eZ, exp_laws e eZ -> mono_laws (var2_mono e) any.
Proof. exact (@var2_laws). Qed.
Print Assumptions C16_var2_laws.
Theorem C16_var3_laws : forall I (e : exp_ops I) eZ, exp_laws e eZ -> mono_laws (var3_mono e) any.
Proof. exact (@var3_laws). Qed.
Print Assumptions C16_var3_laws.
(* MultiVar: the same on reduced multi-degrees *)
Theorem C16_mvar_laws : forall I (e : exp_ops I) eZ, exp_laws e eZ -> mono_laws (mvar_mono e) (Reduced e).
Proof. exact (@mvar_laws). Qed.
Print Assumptions C16_mvar_laws.

(* MultiDeg never stores a zero exponent: constructors and operations return reduced values, which are
   determined by their exponent function (so derived Eq / Hash are those of the multi-degree) *)
Theorem C16_mdeg_reduced : forall I (e : exp_ops I) eZ, exp_laws e eZ ->
  Reduced e [] /\ (forall it, Reduced e (md_from_iter e it)) /\
  (forall a b, Reduced e a -> Reduced e (md_add e a b)) /\
  (forall a b c, Reduced e a -> Reduced e b -> md_sub e a b = Some c -> Reduced e c /\ md_add e c b = a) /\
  (forall a, esigned e = true -> Reduced e a -> Reduced e (md_neg e a) /\ md_add e a (md_neg e a) = []).
Proof.
  exact (fun I e eZ EL => conj (Reduced_nil e) (conj (Reduced_from_iter e eZ EL) (conj (Reduced_add e eZ EL)
        (conj (md_sub_sound e eZ EL) (fun a S => Reduced_neg e eZ EL a S))))).
Qed.
Print Assumptions C16_mdeg_reduced.
Theorem C16_mdeg_add : forall I (e : exp_ops I) eZ, exp_laws e eZ -> forall a b i,
  Reduced e a -> Reduced e b -> md_at e (md_add e a b) i = eadd e (md_at e a i) (md_at e b i).
Proof. exact (@at_add). Qed.
Print Assumptions C16_mdeg_add.
Theorem C16_mdeg_ext : forall I (e : exp_ops I) a b,
  Reduced e a -> Reduced e b -> (forall i, md_at e a i = md_at e b i) -> a = b.
Proof. exact (@mdeg_ext). Qed.
Print Assumptions C16_mdeg_ext.
Theorem C16_mdeg_total : forall I (e : exp_ops I) eZ, exp_laws e eZ -> forall a b,
  Reduced e a -> md_total e (md_add e a b) = eadd e (md_total e a) (md_total e b).
Proof. exact (@total_add). Qed.
Print Assumptions C16_mdeg_total.
(* cmp_lex is the lexicographic comparison of the exponent functions from index 0 upwards *)
Theorem C16_mdeg_cmp_lex : forall I (e : exp_ops I) eZ, exp_laws e eZ -> forall a b n,
  mbound a <= n -> mbound b <= n -> md_cmp_lex e a b = lexn n (fz e eZ a) (fz e eZ b).
Proof. exact (@cmp_lex_lexn). Qed.
Print Assumptions C16_mdeg_cmp_lex.

(* evaluation of Poly / Poly2 / Poly3 (usize exponents) is a ring homomorphism: the hypotheses of
   C16_eval_hom hold for ev1, ev2, ev3 at every point *)
Theorem C16_eval_monomials : forall R (o : ring_ops R), ring_laws o ->
  (forall x, ev1 o x (mone (var_mono N_exp)) = rone o /\
             forall i j, ev1 o x (mmul (var_mono N_exp) i j) = rmul o (ev1 o x i) (ev1 o x j)) /\
  (forall x y, ev2 o x y (mone (var2_mono N_exp)) = rone o /\
               forall i j, ev2 o x y (mmul (var2_mono N_exp) i j) = rmul o (ev2 o x y i) (ev2 o x y j)) /\
  (forall x y z, ev3 o x y z (mone (var3_mono N_exp)) = rone o /\
                 forall i j, ev3 o x y z (mmul (var3_mono N_exp) i j) = rmul o (ev3 o x y z i) (ev3 o x y z j)).
Proof.
  exact (fun R o L => conj (fun x => conj (ev1_one o x) (ev1_mul o L x))
        (conj (fun x y => conj (ev2_one o L x y) (ev2_mul o L x y))
              (fun x y z => conj (ev3_one o L x y z) (ev3_mul o L x y z)))).
Qed.
Print Assumptions C16_eval_monomials.

Theorem C16_hpoly_eq : forall R (o : ring_ops R), ring_laws o -> forall a b,
  h_eqb o a b = true <-> forall k, h_coeff o a k = h_coeff o b k.
Proof. exact (@h_eqb_iff). Qed.
Print Assumptions C16_hpoly_eq.
Theorem C16_hpoly_add : forall R (o : ring_ops R), ring_laws o -> forall a b,
  (forall c, h_add o a b = Some c -> forall k, h_coeff o c k = radd o (h_coeff o a k) (h_coeff o b k)) /\
  (h_add o a b = None <-> hco a <> rzero o /\ hco b <> rzero o /\ hdeg a <> hdeg b).
Proof. exact (fun R o L a b => conj (h_add_spec o L a b) (h_add_none o L a b)). Qed.
Print Assumptions C16_hpoly_add.
Theorem C16_hpoly_ops : forall R (o : ring_ops R), ring_laws o -> forall a b,
  (forall k, h_coeff o (h_neg o a) k = rneg o (h_coeff o a k)) /\
  (forall c, h_sub o a b = Some c -> forall k, h_coeff o c k = radd o (h_coeff o a k) (rneg o (h_coeff o b k))) /\
  (forall c k, h_coeff o (h_smul o a c) k = rmul o (h_coeff o a k) c) /\
  (forall k, h_coeff o (h_mul o a b) k = if (k =? hdeg a + hdeg b)%N then rmul o (hco a) (hco b) else rzero o).
Proof.
  exact (fun R o L a b => conj (h_neg_spec o L a) (conj (h_sub_spec o L a b) (conj (h_smul_spec o L a) (h_mul_spec o L a b)))).
Qed.
Print Assumptions C16_hpoly_ops.

(* rings with laws exist beyond Z *)
Example C16_rings_exist : ring_laws Z_ring /\ ring_laws Gauss_ring.
Proof. exact (conj Z_ring_laws Gauss_ring_laws). Qed.

(* concrete values over Z[x]:  (x+1)(x-1) = x^2 - 1  (the cross terms cancel and are dropped),
   p - p is the empty map, the term count is 2, the leading term is x^2 *)
Example C16_example_univariate :
  let m := var_mono N_exp in
  let a := p_from_iter m Z_ring [(1%N, 1%Z); (0%N, 1%Z)] in
  let b := p_from_iter m Z_ring [(1%N, 1%Z); (0%N, (-1)%Z)] in
  WF Z_ring any a /\ WF Z_ring any b /\
  p_mul m Z_ring a b = [(2%N, 1%Z); (0%N, (-1)%Z)] /\
  p_sub m Z_ring (p_mul m Z_ring a b) (p_mul m Z_ring b a) = [] /\
  p_lead_term m Z_ring (p_mul m Z_ring a b) = (2%N, 1%Z) /\
  eval1 Z_ring (p_mul m Z_ring a b) 5%Z = 24%Z.
Proof.
  cbv zeta. split; [|split].
  - apply (WF_from_iter _ _ _ (var_laws N_exp Z.of_N N_exp_laws) Z_ring_laws). repeat constructor.
  - apply (WF_from_iter _ _ _ (var_laws N_exp Z.of_N N_exp_laws) Z_ring_laws). repeat constructor.
  - vm_compute. repeat split; reflexivity.
Qed.

(* a MultiVar polynomial with isize exponents: x0 * x0^-1 is the constant 1; zero exponents are dropped *)
Example C16_example_multivar :
  let m := mvar_mono Z_exp in
  let x := md_from_iter Z_exp [(0, 1%Z); (3, 0%Z)] in
  let xi := md_from_iter Z_exp [(0, (-1)%Z)] in
  x = [(0, 1%Z)] /\ Reduced Z_exp x /\ mmul m x xi = [] /\
  p_mul m Z_ring (p_from_mono m Z_ring x) (p_from_mono m Z_ring xi) = p_one m Z_ring /\
  md_cmp_grlex Z_exp x xi = Gt.
Proof.
  cbv zeta. split; [reflexivity|]. split; [apply (Reduced_from_iter Z_exp (fun z => z) Z_exp_laws)|].
  vm_compute. repeat split; reflexivity.
Qed.
