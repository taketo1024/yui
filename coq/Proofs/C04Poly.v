(* C04 - semantics of the canonical-list Laurent polynomials of Model/Jones.v: the coefficient function,
   its behaviour under padd_term / padd / pscale / pmul (commutative); [canon] lists (exponents strictly
   increasing, no zero coefficient) are determined by their coefficients; sums over lists ([zsum]); the
   coefficients of [euler_poly] and [euler_of_table]. *)
From Coq Require Import List Arith Bool ZArith Lia.
Require Import Yui.Model.Jones.
Import ListNotations.
Local Open Scope Z_scope.

Definition zsum {A} (f : A -> Z) (l : list A) : Z := fold_right (fun a acc => f a + acc) 0 l.

Lemma zsum_nil : forall A (f : A -> Z), zsum f [] = 0.
Proof. reflexivity. Qed.
Lemma zsum_cons : forall A (f : A -> Z) a l, zsum f (a :: l) = f a + zsum f l.
Proof. reflexivity. Qed.
Lemma zsum_app : forall A (f : A -> Z) l m, zsum f (l ++ m) = zsum f l + zsum f m.
Proof. induction l; intros; cbn [app]; rewrite ?zsum_cons, ?zsum_nil, ?IHl; lia. Qed.
Lemma zsum_ext : forall A (f g : A -> Z) l, (forall a, In a l -> f a = g a) -> zsum f l = zsum g l.
Proof.
  induction l; intros H; auto. rewrite !zsum_cons, (H a), IHl; cbn; auto. intros; apply H; cbn; auto.
Qed.
Lemma zsum_add : forall A (f g : A -> Z) l, zsum (fun a => f a + g a) l = zsum f l + zsum g l.
Proof. induction l; auto. rewrite !zsum_cons, IHl. lia. Qed.
Lemma zsum_scal : forall A (f : A -> Z) c l, c * zsum f l = zsum (fun a => c * f a) l.
Proof. induction l; [cbn; lia|]. rewrite !zsum_cons, <- IHl. lia. Qed.
Lemma zsum_zero : forall A (l : list A), zsum (fun _ => 0) l = 0.
Proof. induction l; cbn; auto. Qed.
Lemma zsum_all_zero : forall A (f : A -> Z) l, (forall a, In a l -> f a = 0) -> zsum f l = 0.
Proof. intros A f l H. rewrite (zsum_ext _ f (fun _ => 0)) by exact H. apply zsum_zero. Qed.
Lemma zsum_single : forall A (f : A -> Z) l1 x l2,
  (forall a, In a l1 -> f a = 0) -> (forall a, In a l2 -> f a = 0) -> zsum f (l1 ++ x :: l2) = f x.
Proof. intros. rewrite zsum_app, zsum_cons, !zsum_all_zero by assumption. apply Z.add_0_r. Qed.
Lemma zsum_map : forall A B (g : A -> B) (f : B -> Z) l, zsum f (map g l) = zsum (fun a => f (g a)) l.
Proof. induction l; auto. cbn [map]. rewrite !zsum_cons, IHl. reflexivity. Qed.
Lemma zsum_flat_map : forall A B (g : A -> list B) (f : B -> Z) l,
  zsum f (flat_map g l) = zsum (fun a => zsum f (g a)) l.
Proof. induction l; auto. cbn [flat_map]. rewrite zsum_app, zsum_cons, IHl. reflexivity. Qed.
Lemma zsum_swap : forall A B (f : A -> B -> Z) l m,
  zsum (fun a => zsum (fun b => f a b) m) l = zsum (fun b => zsum (fun a => f a b) l) m.
Proof.
  induction l; intros m.
  - cbn. rewrite zsum_zero. reflexivity.
  - rewrite zsum_cons, IHl. rewrite <- zsum_add. apply zsum_ext. intros b _. rewrite zsum_cons. reflexivity.
Qed.

(* the coefficient of q^e *)
Definition coeff (p : lpoly) (e : Z) : Z := zsum (fun t => if fst t =? e then snd t else 0) p.

Lemma coeff_nil : forall e, coeff [] e = 0.
Proof. reflexivity. Qed.
Lemma coeff_cons : forall e0 c0 p e, coeff ((e0, c0) :: p) e = (if e0 =? e then c0 else 0) + coeff p e.
Proof. reflexivity. Qed.

Lemma coeff_padd_term : forall e0 c0 p e,
  coeff (padd_term e0 c0 p) e = (if e0 =? e then c0 else 0) + coeff p e.
Proof.
  intros e0 c0. induction p as [|[e' c'] r IH]; intros e; cbn [padd_term].
  - destruct (Z.eqb_spec c0 0) as [->|N]; [rewrite coeff_nil; destruct (e0 =? e); lia|].
    rewrite coeff_cons, coeff_nil. lia.
  - destruct (e0 <? e').
    + destruct (Z.eqb_spec c0 0) as [->|N]; [destruct (e0 =? e); lia|]. rewrite coeff_cons. lia.
    + destruct (Z.eqb_spec e0 e') as [->|Ne].
      * cbn zeta. destruct (Z.eqb_spec (c0 + c') 0) as [Z0|NZ]; rewrite ?coeff_cons; destruct (e' =? e); lia.
      * rewrite !coeff_cons, IH. lia.
Qed.

Lemma coeff_padd : forall p q e, coeff (padd p q) e = coeff p e + coeff q e.
Proof.
  unfold padd. induction p as [|[e0 c0] p IH]; intros q e; cbn [fold_right fst snd].
  - rewrite coeff_nil. lia.
  - rewrite coeff_padd_term, IH, coeff_cons. lia.
Qed.

Lemma coeff_pscale : forall e0 c0 p e, coeff (pscale e0 c0 p) e = c0 * coeff p (e - e0).
Proof.
  intros e0 c0 p e. unfold pscale. destruct (Z.eqb_spec c0 0) as [->|N]; [rewrite coeff_nil; lia|].
  unfold coeff. rewrite zsum_map, zsum_scal. apply zsum_ext. intros [e1 c1] _. cbn [fst snd].
  destruct (Z.eqb_spec (e0 + e1) e); destruct (Z.eqb_spec e1 (e - e0)); lia.
Qed.

Lemma coeff_pmul : forall p q e,
  coeff (pmul p q) e = zsum (fun t => snd t * coeff q (e - fst t)) p.
Proof.
  unfold pmul. induction p as [|[e0 c0] p IH]; intros q e; cbn [fold_right fst snd]; auto.
  rewrite coeff_padd, coeff_pscale, IH, zsum_cons. reflexivity.
Qed.

Lemma coeff_pmul_comm : forall p q e, coeff (pmul p q) e = coeff (pmul q p) e.
Proof.
  intros p q e. rewrite !coeff_pmul.
  transitivity (zsum (fun t1 => zsum (fun t2 => if fst t1 + fst t2 =? e then snd t1 * snd t2 else 0) q) p).
  - apply zsum_ext. intros [e1 c1] _. cbn [fst snd]. unfold coeff. rewrite zsum_scal.
    apply zsum_ext. intros [e2 c2] _. cbn [fst snd].
    destruct (Z.eqb_spec e2 (e - e1)); destruct (Z.eqb_spec (e1 + e2) e); lia.
  - rewrite zsum_swap. apply zsum_ext. intros [e2 c2] _. cbn [fst snd]. unfold coeff. rewrite zsum_scal.
    apply zsum_ext. intros [e1 c1] _. cbn [fst snd].
    destruct (Z.eqb_spec e1 (e - e2)); destruct (Z.eqb_spec (e1 + e2) e); lia.
Qed.

(* multiplication by a monomial *)
Lemma coeff_pmul_mono : forall k c q e, coeff (pmul [(k, c)] q) e = c * coeff q (e - k).
Proof. intros. rewrite coeff_pmul, zsum_cons, zsum_nil. cbn [fst snd]. lia. Qed.

Fixpoint canon_from (lo : Z) (p : lpoly) : Prop :=
  match p with
  | [] => True
  | (e, c) :: r => lo < e /\ c <> 0 /\ canon_from e r
  end.
Definition canon (p : lpoly) : Prop := exists lo, canon_from lo p.

Lemma canon_from_weaken : forall p lo lo', lo' <= lo -> canon_from lo p -> canon_from lo' p.
Proof. destruct p as [|[e c] r]; cbn; auto. intros lo lo' H (A & B & C). repeat split; auto; lia. Qed.

Lemma padd_term_canon_from : forall e0 c0 p lo, lo < e0 -> canon_from lo p -> canon_from lo (padd_term e0 c0 p).
Proof.
  intros e0 c0. induction p as [|[e' c'] r IH]; intros lo Hlo Hc; cbn [padd_term].
  - destruct (Z.eqb_spec c0 0); cbn; auto.
  - cbn in Hc. destruct Hc as (A & B & C).
    destruct (Z.ltb_spec e0 e').
    + destruct (Z.eqb_spec c0 0); cbn; auto 6.
    + destruct (Z.eqb_spec e0 e') as [->|Ne].
      * cbn zeta. destruct (Z.eqb_spec (c0 + c') 0).
        { eapply canon_from_weaken; [|exact C]. lia. }
        { cbn. repeat split; auto. }
      * cbn. repeat split; auto. apply IH; auto. lia.
Qed.
Lemma padd_term_canon : forall e0 c0 p, canon p -> canon (padd_term e0 c0 p).
Proof.
  intros e0 c0 p [lo H]. exists (Z.min lo (e0 - 1)). apply padd_term_canon_from; [lia|].
  eapply canon_from_weaken; [|exact H]. lia.
Qed.
Lemma canon_nil : canon [].
Proof. exists 0. exact I. Qed.
Lemma padd_canon : forall p q, canon q -> canon (padd p q).
Proof.
  unfold padd. induction p as [|[e c] p IH]; intros q H; cbn [fold_right]; auto.
  apply padd_term_canon. apply IH; auto.
Qed.
Lemma pmul_canon : forall p q, canon (pmul p q).
Proof.
  unfold pmul. induction p as [|[e c] p IH]; intros q; cbn [fold_right]; [apply canon_nil|].
  apply padd_canon. apply IH.
Qed.
Lemma euler_poly_canon : forall g, canon (euler_poly g).
Proof.
  unfold euler_poly. induction g as [|[h j] g IH]; cbn [fold_right]; [apply canon_nil|].
  apply padd_term_canon; auto.
Qed.
Lemma euler_of_table_canon : forall f tbl, canon (euler_of_table f tbl).
Proof.
  unfold euler_of_table. induction tbl as [|[j c] t IH]; cbn [fold_right]; [apply canon_nil|].
  apply padd_term_canon; auto.
Qed.

Lemma canon_from_coeff_low : forall p lo e, canon_from lo p -> e <= lo -> coeff p e = 0.
Proof.
  induction p as [|[e1 c1] r IH]; intros lo e H Hle; [reflexivity|].
  cbn in H. destruct H as (A & B & C). rewrite coeff_cons.
  destruct (Z.eqb_spec e1 e); [lia|]. rewrite (IH e1); auto; lia.
Qed.

(* the head of a canonical list is its lowest term *)
Lemma canon_from_head : forall e c r lo, canon_from lo ((e, c) :: r) ->
  coeff ((e, c) :: r) e = c /\ c <> 0 /\ forall e', e' < e -> coeff ((e, c) :: r) e' = 0.
Proof.
  intros e c r lo (A & B & C). split; [|split; [exact B|]].
  - rewrite coeff_cons, Z.eqb_refl, (canon_from_coeff_low r e e); auto; lia.
  - intros e' L. rewrite coeff_cons, (canon_from_coeff_low r e e') by (auto; lia).
    destruct (Z.eqb_spec e e'); lia.
Qed.

Lemma canon_from_ext : forall p q lo, canon_from lo p -> canon_from lo q ->
  (forall e, coeff p e = coeff q e) -> p = q.
Proof.
  induction p as [|[e1 c1] r1 IH]; intros q lo Hp Hq Heq; destruct q as [|[e2 c2] r2]; auto.
  - destruct (canon_from_head _ _ _ _ Hq) as (H & N & _). destruct N. rewrite <- H, <- Heq. reflexivity.
  - destruct (canon_from_head _ _ _ _ Hp) as (H & N & _). destruct N. rewrite <- H, Heq. reflexivity.
  - destruct (canon_from_head _ _ _ _ Hp) as (H1 & N1 & L1).
    destruct (canon_from_head _ _ _ _ Hq) as (H2 & N2 & L2).
    destruct (Z.lt_trichotomy e1 e2) as [L|[E|G]].
    + destruct N1. rewrite <- H1, Heq. apply L2, L.
    + subst e2. assert (c1 = c2) by (rewrite <- H1, <- H2; apply Heq). subst c2.
      f_equal. apply (IH r2 e1); [apply Hp|apply Hq|].
      intros e. specialize (Heq e). rewrite !coeff_cons in Heq. lia.
    + destruct N2. rewrite <- H2, <- Heq. apply L1, G.
Qed.

Theorem canon_ext : forall p q, canon p -> canon q -> (forall e, coeff p e = coeff q e) -> p = q.
Proof.
  intros p q [l1 H1] [l2 H2] Heq. apply (canon_from_ext p q (Z.min l1 l2)); auto;
    eapply canon_from_weaken; eauto; lia.
Qed.

(* coefficient of a sum of signed monomials *)
Lemma coeff_euler_poly : forall g e,
  coeff (euler_poly g) e = zsum (fun x => if snd x =? e then hsign (fst x) else 0) g.
Proof.
  unfold euler_poly. induction g as [|[h j] g IH]; intros e; cbn [fold_right fst snd]; auto.
  rewrite coeff_padd_term, IH, zsum_cons. reflexivity.
Qed.
Lemma coeff_euler_of_table : forall f tbl e,
  coeff (euler_of_table f tbl) e = zsum (fun jc => if fst jc =? e then f (snd jc) else 0) tbl.
Proof.
  unfold euler_of_table. induction tbl as [|[j c] t IH]; intros e; cbn [fold_right fst snd]; auto.
  rewrite coeff_padd_term, IH, zsum_cons. reflexivity.
Qed.
