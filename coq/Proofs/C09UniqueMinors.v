(* C09 (uniqueness), part 7: the invariant factors are the gcds of minors (over Z).
   This file alone uses MathComp / CoqEAL (ssreflect style); everything else of C09 is stdlib style.

   CoqEAL [smith_complements.Smith_gcdr_spec] (axiom-free): over a Euclidean domain, if A is equivalent to
   diag(s) with s a divisibility chain then prod_(i<k) s_i is an associate of the gcd of all k x k minors of A
   (Cauchy-Binet).  Bridge: Z with the ring structure of mathcomp.zify.ssrZ (the operations ARE Z.add, Z.mul) is
   made a CoqEAL euclidDomainType (floor division, norm |.|); a functional matrix A : nat -> nat -> Z becomes
   \matrix_(i < m, j < n) A i j; a [smith_form] with a chain becomes [equivalent .. (diag_mx_seq ..)].

   The final statement is free of MathComp vocabulary except for the determinant:
     [zminor A k f g] = \det of the k x k matrix (A (f i) (g j))_(i,j<k),   f, g : nat -> nat  any index maps,
     [prodn k d]      = d_0 * ... * d_(k-1).
   [minors_spec]: for k <= min m n the product of the first k diagonal entries (0 beyond the rank) divides
   every k x k minor of A, and every common divisor of the k x k minors divides it. *)
Set Warnings "-notation-overridden,-ambiguous-paths,-redundant-canonical-projection,-projection-no-head-constant".
From Coq Require Import ZArith Lia.
From mathcomp Require Import all_ssreflect all_algebra.
From mathcomp Require Import ssrZ zify.
From CoqEAL Require Import ssrcomplements mxstructure minor dvdring similar smith_complements.
Require Import Yui.Base.Ring Yui.Base.MatF Yui.Proofs.C07Algebra Yui.Proofs.C09UniqueKer.
Set Implicit Arguments.
Unset Strict Implicit.
Unset Printing Implicit Defensive.
Import GRing.Theory.
Local Open Scope ring_scope.

(* Z is a Euclidean domain in the sense of CoqEAL *)
Definition Znorm (a : Z) : nat := Z.abs_nat a.
Definition Zediv (a b : Z) : Z * Z := (Z.div a b, Z.modulo a b).

Lemma Znorm_mul (a b : Z) : a != 0 -> (Znorm b <= Znorm (a * b))%nat.
Proof.
move=> /eqP a0; rewrite /Znorm; apply/leP.
change (a * b)%R with (Z.mul a b). rewrite Zabs2Nat.inj_mul.
have H : (1 <= Z.abs_nat a)%coq_nat by change (a <> Z0) in a0; lia.
nia.
Qed.

Lemma ZedivP (a b : Z) : EuclideanDomain.edivr_spec Znorm a b (Zediv a b).
Proof.
rewrite /Zediv; constructor.
  change (a = Z.add (Z.mul (Z.div a b) b) (Z.modulo a b)).
  have := Z_div_mod_eq_full a b; lia.
apply/implyP=> /eqP b0; rewrite /Znorm; apply/ltP.
change (b <> Z0) in b0.
have := Z.mod_bound_or a b b0. lia.
Qed.

Definition Z_euclidMixin := EuclideanDomain.Mixin Znorm_mul ZedivP.
Definition Z_dvdMixin := EuclidDvdMixin Z_euclidMixin.
Canonical Z_dvdRingType := DvdRingType Z Z_dvdMixin.
Definition Z_gcdMixin := EuclidGcdMixin Z_euclidMixin.
Canonical Z_gcdType := GcdDomainType Z Z_gcdMixin.
Definition Z_bezoutMixin := EuclidBezoutMixin Z_euclidMixin.
Canonical Z_bezoutType := BezoutDomainType Z Z_bezoutMixin.
Definition Z_priMixin := EuclidPIDMixin Z_euclidMixin.
Canonical Z_priType := PIDType Z Z_priMixin.
Canonical Z_euclidType := EuclidDomainType Z Z_euclidMixin.

Lemma ZdvdP (a b : Z) : reflect (Z.divide a b) (a %| b).
Proof. by apply: (iffP (dvdrP a b)); case=> x Hx; exists x. Qed.

(* functional matrices as MathComp matrices *)
Definition mx_of (m n : nat) (A : mat Z) : 'M[Z]_(m, n) := \matrix_(i < m, j < n) A i j.

Lemma sum_big n (f : nat -> Z) : sum Z_ring n f = \sum_(k < n) f k.
Proof.
elim: n => [|n IH]; first by rewrite big_ord0.
by rewrite big_ord_recr /= -IH.
Qed.

Lemma mx_of_mul m n p (A B : mat Z) : mx_of m p (mmul Z_ring n A B) = mx_of m n A *m mx_of n p B.
Proof.
apply/matrixP=> i j; rewrite !mxE /mmul sum_big.
by apply: eq_bigr=> k _; rewrite !mxE.
Qed.

Lemma mx_of_ext m n (A B : mat Z) : meq m n A B -> mx_of m n A = mx_of m n B.
Proof. by move=> H; apply/matrixP=> i j; rewrite !mxE; apply: H; apply/ltP. Qed.

Lemma mx_of_id n : mx_of n n (mid Z_ring) = 1%:M.
Proof.
apply/matrixP=> i j; rewrite !mxE /mid.
have -> : (i == j) = (Nat.eqb i j).
  by apply/idP/idP=> [/eqP ->|/Nat.eqb_spec H]; [apply/Nat.eqb_spec|apply/eqP; apply: val_inj].
by case: (Nat.eqb i j).
Qed.

Lemma inv_pair_unit k (P Pi : mat Z) : inv_pair Z_ring k P Pi -> mx_of k k P \in unitmx.
Proof.
case=> H _. have := mx_of_ext H. rewrite mx_of_mul mx_of_id.
by case/mulmx1_unit.
Qed.

Lemma nth_diag r (a : nat -> Z) i : (mkseq a r)`_i = if Nat.ltb i r then a i else 0.
Proof.
case: (Nat.ltb_spec i r) => [/ltP H|/leP H]; first by rewrite nth_mkseq.
by rewrite nth_default // size_mkseq.
Qed.

Lemma form_equivalent m n (A : mat Z) r a :
  smith_form Z_ring m n A r a -> equivalent (mx_of m n A) (diag_mx_seq m n (mkseq a r)).
Proof.
case=> P [Pi [Q [Qi [HP [HQ [He _]]]]]].
split=> //; exists (mx_of m m P); exists (mx_of n n Q).
split; [exact: (inv_pair_unit HP)|exact: (inv_pair_unit HQ)|].
rewrite conform_mx_id -mulmxA -!mx_of_mul (mx_of_ext He).
apply/matrixP=> i j; rewrite !mxE nth_diag.
have -> : Nat.eqb i j = (i == j :> nat).
  by apply/idP/idP=> [/Nat.eqb_spec ->|/eqP ->] //; apply/Nat.eqb_spec.
by case: (i == j :> nat) => /=; [rewrite mulr1n|rewrite mulr0n].
Qed.

Lemma chain_sorted r (a : nat -> Z) : chain Z_ring r a -> sorted %|%R (mkseq a r).
Proof.
move=> C; apply/(sortedP 0)=> i; rewrite size_mkseq => Hi.
rewrite !nth_mkseq //; last exact: ltnW.
by apply/ZdvdP; case: (C i) => [|q Hq]; [apply/ltP|exists q].
Qed.

(* the statement without MathComp vocabulary (except \det) *)
Fixpoint prodn (k : nat) (d : nat -> Z) : Z :=
  match k with O => Zpos xH | S k' => Z.mul (prodn k' d) (d k') end.

Definition zminor (A : mat Z) (k : nat) (f g : nat -> nat) : Z :=
  \det (\matrix_(i < k, j < k) A (f i) (g j)).

Lemma prodn_big k (d : nat -> Z) : prodn k d = \prod_(i < k) d i.
Proof.
elim: k => [|k IH]; first by rewrite big_ord0.
by rewrite big_ord_recr /= -IH.
Qed.

Lemma zminor_minor m n (A : mat Z) k (f0 : 'I_k -> 'I_m) (g0 : 'I_k -> 'I_n) (f g : nat -> nat) :
  (forall i : 'I_k, f i = f0 i) -> (forall j : 'I_k, g j = g0 j) ->
  zminor A k f g = minor f0 g0 (mx_of m n A).
Proof.
move=> Hf Hg; rewrite /zminor /minor; congr (\det _).
by apply/matrixP=> i j; rewrite !mxE Hf Hg.
Qed.

(* the meaning of [zminor] spelt out for k = 1, 2 (1 x 1 and 2 x 2 determinants) *)
Lemma zminor_1 (A : mat Z) f g : zminor A 1 f g = A (f O) (g O).
Proof. by rewrite /zminor det_mx11 mxE. Qed.

Lemma zminor_2 (A : mat Z) f g :
  zminor A 2 f g = Z.sub (Z.mul (A (f 0%nat) (g 0%nat)) (A (f 1%nat) (g 1%nat)))
                         (Z.mul (A (f 1%nat) (g 0%nat)) (A (f 0%nat) (g 1%nat))).
Proof. by rewrite /zminor det2 !mxE. Qed.

Theorem minors_spec m n (A : mat Z) r a k :
  smith_form Z_ring m n A r a -> chain Z_ring r a -> (k <= Nat.min m n)%coq_nat ->
  let pk := prodn k (fun i => if Nat.ltb i r then a i else Z0) in
  (forall f g : nat -> nat,
     (forall i, (i < k)%coq_nat -> (f i < m)%coq_nat) -> (forall j, (j < k)%coq_nat -> (g j < n)%coq_nat) ->
     Z.divide pk (zminor A k f g)) /\
  (forall c : Z,
     (forall f g : nat -> nat,
        (forall i, (i < k)%coq_nat -> (f i < m)%coq_nat) -> (forall j, (j < k)%coq_nat -> (g j < n)%coq_nat) ->
        Z.divide c (zminor A k f g)) ->
     Z.divide c pk).
Proof.
move=> F C Hk pk.
have Hk' : (k <= minn m n)%N by apply/leP; move: Hk; rewrite /minn; case: ltnP => /leP; lia.
have S := Smith_gcdr_spec Hk' (chain_sorted C) (form_equivalent F).
have Epk : pk = \prod_(i < k) (mkseq a r)`_i.
  by rewrite /pk prodn_big; apply: eq_bigr => i _; rewrite nth_diag.
rewrite -Epk in S. move: S; rewrite eqd_def => /andP [S1 S2].
split.
- move=> f g Hf Hg.
  have Hf' : forall i : 'I_k, (f i < m)%N by move=> i; apply/ltP; apply: Hf; apply/ltP.
  have Hg' : forall j : 'I_k, (g j < n)%N by move=> j; apply/ltP; apply: Hg; apply/ltP.
  pose f0 := [ffun i : 'I_k => Ordinal (Hf' i)]; pose g0 := [ffun j : 'I_k => Ordinal (Hg' j)].
  rewrite (@zminor_minor m n A k f0 g0 f g); try by move=> i; rewrite ffunE.
  apply/ZdvdP. apply: (dvdr_trans S1).
  apply: (dvdr_trans (big_dvdr_gcdr _ f0)). exact: (big_dvdr_gcdr _ g0).
- move=> c Hc. apply/ZdvdP. apply: (dvdr_trans _ S2).
  apply: big_gcdrP => f0; apply: big_gcdrP => g0.
  pose f := fun i : nat => if insub i is Some o then val (f0 o) else O.
  pose g := fun j : nat => if insub j is Some o then val (g0 o) else O.
  have Ef : forall i : 'I_k, f i = f0 i by move=> i; rewrite /f valK.
  have Eg : forall j : 'I_k, g j = g0 j by move=> j; rewrite /g valK.
  rewrite -(@zminor_minor m n A k f0 g0 f g Ef Eg). apply/ZdvdP. apply: Hc.
  + by move=> i /ltP Hi; apply/ltP; rewrite (Ef (Ordinal Hi)).
  + by move=> j /ltP Hj; apply/ltP; rewrite (Eg (Ordinal Hj)).
Qed.
