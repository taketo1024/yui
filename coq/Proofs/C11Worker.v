(* C11 - the RowWorker: invariants of init / traverse / update_diff, sufficiency of the fuel of the
   traverse loop, and the conditions under which a worker may commit (DESIGN.md appendix A.1,
   "worker invariant"). *)
From Coq Require Import List Bool Arith Lia Permutation.
Require Import Yui.Model.Pivot Yui.Proofs.C11Base.
Import ListNotations.

Section Worker.
Variable M : mstr.

Lemma st_upd_eq : forall f j v c, st_upd f j v c = if c =? j then v else f c.
Proof. reflexivity. Qed.

Lemma st_occ : forall w j c, w_st (wk_set_occupied w j) c = if c =? j then SOcc else w_st w c.
Proof. reflexivity. Qed.
Lemma queue_occ : forall w j, w_queue (wk_set_occupied w j) = w_queue w.
Proof. reflexivity. Qed.
Lemma queued_occ : forall w j, w_queued (wk_set_occupied w j) = w_queued w.
Proof. reflexivity. Qed.
Lemma row_occ_eq : forall w j, w_row (wk_set_occupied w j) = w_row w.
Proof. reflexivity. Qed.
Lemma ncand_occ : forall w j, w_ncand (wk_set_occupied w j) = if wk_is_candidate w j then w_ncand w - 1 else w_ncand w.
Proof. reflexivity. Qed.
Lemma st_enq : forall w j, w_st (wk_enqueue w j) = w_st w.
Proof. reflexivity. Qed.
Lemma queue_enq : forall w j, w_queue (wk_enqueue w j) = w_queue w ++ [j].
Proof. reflexivity. Qed.
Lemma queued_enq : forall w j, w_queued (wk_enqueue w j) = j :: w_queued w.
Proof. reflexivity. Qed.
Lemma ncand_enq : forall w j, w_ncand (wk_enqueue w j) = w_ncand w.
Proof. reflexivity. Qed.
Lemma row_enq : forall w j, w_row (wk_enqueue w j) = w_row w.
Proof. reflexivity. Qed.
Lemma cand_enq : forall w j c, wk_is_candidate (wk_enqueue w j) c = wk_is_candidate w c.
Proof. reflexivity. Qed.

Lemma is_candidate_true : forall w c, wk_is_candidate w c = true <-> w_st w c = SCand.
Proof. intros w c. unfold wk_is_candidate. destruct (w_st w c); split; intros H; try reflexivity; discriminate. Qed.
Lemma is_occupied_true : forall w c, wk_is_occupied w c = true <-> w_st w c = SOcc.
Proof. intros w c. unfold wk_is_occupied. destruct (w_st w c); split; intros H; try reflexivity; discriminate. Qed.
Lemma has_candidate_true : forall w, wk_has_candidate w = true <-> 0 < w_ncand w.
Proof. intros w. unfold wk_has_candidate. apply Nat.ltb_lt. Qed.

Definition seen (w : worker) (c : nat) : Prop := w_st w c <> SNone.
Definition row_occ (w : worker) (r : nat) : Prop := forall c', In c' (cols_in M r) -> w_st w c' = SOcc.
Definition row_seen (w : worker) : Prop := forall c, In c (cols_in M (w_row w)) -> seen w c.

(* [cnt st n]: n is the number of candidate entries of st *)
Definition cnt (st : nat -> est) (n : nat) : Prop :=
  exists cl, NoDup cl /\ (forall c, In c cl <-> st c = SCand) /\ n = length cl.

Record wk_inv0 (L : plog) (w : worker) : Prop := mk_wk_inv0 {
  wi_cand : forall c, w_st w c = SCand ->
              In c (cols_in M (w_row w)) /\ is_cand M (w_row w) c = true /\ ~ pcol L c;
  wi_count : cnt (w_st w) (w_ncand w);
  wi_queue : forall c, In c (w_queue w) -> pcol L c;
  wi_queued : forall c, In c (w_queued w) -> w_st w c = SOcc
}.

(* every pivot column the worker has seen is waiting in the queue (or in [pend]: dequeued, its row
   being marked) or has had its whole pivot row marked occupied *)
Definition closed_inv (L : plog) (pend : list nat) (w : worker) : Prop :=
  forall c, pcol L c -> seen w c ->
    In c (w_queue w ++ pend) \/ exists r, In (r, c) L /\ row_occ w r.

Definition wk_inv (L : plog) (w : worker) : Prop :=
  wk_inv0 L w /\ (w_ncand w = 0 \/ closed_inv L [] w).

(* monotonicity of the worker state between init and the end of the row *)
Record wk_le (w w' : worker) : Prop := mk_wk_le {
  le_occ : forall c, w_st w c = SOcc -> w_st w' c = SOcc;
  le_seen : forall c, seen w c -> seen w' c;
  le_cand : forall c, w_st w' c = SCand -> w_st w c = SCand;
  le_ncand : w_ncand w' <= w_ncand w;
  le_row : w_row w' = w_row w;
  le_queue : forall c, In c (w_queue w) -> In c (w_queue w')
}.

Lemma wk_le_refl : forall w, wk_le w w.
Proof. intros w. constructor; auto. Qed.

Lemma wk_le_trans : forall a b c, wk_le a b -> wk_le b c -> wk_le a c.
Proof.
  intros a b c [H1 H2 H3 H4 H5 H6] [G1 G2 G3 G4 G5 G6]. constructor; auto; try lia; try congruence.
Qed.

Lemma row_occ_le : forall w w' r, (forall c, w_st w c = SOcc -> w_st w' c = SOcc) -> row_occ w r -> row_occ w' r.
Proof. intros w w' r H Hr c' Hc'. apply H. apply Hr. exact Hc'. Qed.

Lemma filter_neq_length : forall (l : list nat) x, NoDup l -> In x l ->
  S (length (filter (fun c => negb (c =? x)) l)) = length l.
Proof.
  induction l as [|y r IH]; intros x Hnd Hin; [destruct Hin|].
  inversion Hnd as [|? ? Hy Hr]; subst. cbn [filter]. destruct (y =? x) eqn:E; cbn [negb length].
  - apply Nat.eqb_eq in E. subst y. f_equal.
    assert (Hf : filter (fun c => negb (c =? x)) r = r).
    { clear IH Hnd Hr Hin. induction r as [|z r' IH']; [reflexivity|]. cbn [filter].
      destruct (z =? x) eqn:E; cbn [negb].
      - apply Nat.eqb_eq in E. subst. exfalso. apply Hy. left. reflexivity.
      - f_equal. apply IH'. intros H. apply Hy. right. exact H. }
    rewrite Hf. reflexivity.
  - f_equal. apply IH; [exact Hr|]. destruct Hin as [Hin|Hin]; [|exact Hin].
    subst. rewrite Nat.eqb_refl in E. discriminate.
Qed.

Lemma cnt_pos : forall st n c, cnt st n -> st c = SCand -> 0 < n.
Proof.
  intros st n c [cl [_ [Hcl Hn]]] Hc. apply Hcl in Hc. destruct cl; [destruct Hc|]. cbn [length] in Hn. lia.
Qed.

Lemma cnt_zero : forall st c, cnt st 0 -> st c <> SCand.
Proof. intros st c H Hc. pose proof (cnt_pos _ _ _ H Hc). lia. Qed.

Lemma cnt_set_occ : forall st n j, cnt st n ->
  cnt (st_upd st j SOcc) (match st j with SCand => n - 1 | _ => n end).
Proof.
  intros st n j [cl [Hnd [Hcl Hn]]].
  assert (K : st j <> SCand -> cnt (st_upd st j SOcc) n).
  { intros Ej. exists cl. split; [exact Hnd|]. split; [|exact Hn]. intros c. rewrite st_upd_eq, Hcl.
    destruct (Nat.eqb_spec c j) as [->|]; [|reflexivity]. split; [contradiction|discriminate]. }
  destruct (st j) eqn:Ej; [apply K; discriminate| |apply K; discriminate].
  exists (filter (fun c => negb (c =? j)) cl). split; [apply NoDup_filter; exact Hnd|]. split.
  - intros c. rewrite filter_In, st_upd_eq, Hcl. destruct (c =? j); cbn [negb]; split.
    + intros [_ H]. discriminate.
    + discriminate.
    + intros [H _]. exact H.
    + intros H. split; [exact H | reflexivity].
  - assert (Hj : In j cl) by (apply Hcl; exact Ej).
    pose proof (filter_neq_length cl j Hnd Hj). lia.
Qed.

Lemma cnt_set_cand : forall st n j, cnt st n -> st j = SNone -> cnt (st_upd st j SCand) (S n).
Proof.
  intros st n j [cl [Hnd [Hcl Hn]]] Ej. exists (j :: cl). split; [|split].
  - constructor; [|exact Hnd]. intros H. apply Hcl in H. rewrite Ej in H. discriminate.
  - intros c. rewrite st_upd_eq. cbn [In]. rewrite Hcl. destruct (c =? j) eqn:E.
    + apply Nat.eqb_eq in E. subst. split; [reflexivity | left; reflexivity].
    + apply Nat.eqb_neq in E. split; [intros [H|H]; [exfalso; apply E; symmetry; exact H | exact H] | right; assumption].
  - cbn [length]. lia.
Qed.

Lemma ncand_occ_le : forall w j, w_ncand (wk_set_occupied w j) <= w_ncand w.
Proof. intros w j. rewrite ncand_occ. destruct (wk_is_candidate w j); lia. Qed.

Lemma set_occ_le : forall w j, wk_le w (wk_set_occupied w j).
Proof.
  intros w j. constructor.
  - intros c H. rewrite st_occ. destruct (c =? j); [reflexivity | exact H].
  - intros c H. unfold seen. rewrite st_occ. destruct (c =? j); [discriminate | exact H].
  - intros c. rewrite st_occ. destruct (c =? j); [discriminate | intros H; exact H].
  - apply ncand_occ_le.
  - reflexivity.
  - intros c H. exact H.
Qed.

Lemma enq_le : forall w j, wk_le w (wk_enqueue w j).
Proof.
  intros w j. constructor; try (intros c H; exact H); try reflexivity; try (rewrite ncand_enq; lia).
  intros c H. rewrite queue_enq. apply in_or_app. left. exact H.
Qed.

(* occupy an entry; [j] is allowed to be queued already *)
Lemma set_occ_inv0 : forall L w j, wk_inv0 L w -> wk_inv0 L (wk_set_occupied w j).
Proof.
  intros L w j [Hc Hn Hq Hqd]. constructor.
  - intros c. rewrite st_occ, row_occ_eq. destruct (c =? j); [discriminate | apply Hc].
  - rewrite ncand_occ. unfold wk_is_candidate. pose proof (cnt_set_occ _ _ j Hn) as H.
    change (w_st (wk_set_occupied w j)) with (st_upd (w_st w) j SOcc).
    destruct (w_st w j); exact H.
  - rewrite queue_occ. exact Hq.
  - intros c. rewrite queued_occ, st_occ. intros H. destruct (c =? j); [reflexivity | apply Hqd; exact H].
Qed.

(* enqueue and occupy a pivot column; the log may have grown by pivots in column j meanwhile *)
Lemma enq_occ_inv0_log : forall L L' w j, wk_inv0 L w -> pcol L' j ->
  (forall c, pcol L c -> pcol L' c) -> (forall c, pcol L' c -> c <> j -> pcol L c) ->
  wk_inv0 L' (wk_set_occupied (wk_enqueue w j) j).
Proof.
  intros L L' w j [Hc Hn Hq Hqd] Hj Hup Hdn. constructor.
  - intros c. rewrite st_occ, row_occ_eq, st_enq, row_enq. destruct (Nat.eqb_spec c j) as [|E]; [discriminate|].
    intros H. destruct (Hc c H) as [A1 [A2 A3]]. splits; auto.
  - rewrite ncand_occ, cand_enq, ncand_enq. unfold wk_is_candidate. pose proof (cnt_set_occ _ _ j Hn) as H.
    change (w_st (wk_set_occupied (wk_enqueue w j) j)) with (st_upd (w_st w) j SOcc).
    destruct (w_st w j); exact H.
  - rewrite queue_occ, queue_enq. intros c H. apply in_app_or in H.
    destruct H as [H|[H|[]]]; [apply Hup, Hq; exact H | subst; exact Hj].
  - intros c. rewrite queued_occ, queued_enq, st_occ, st_enq. intros H. destruct (c =? j) eqn:E; [reflexivity|].
    destruct H as [H|H]; [subst; rewrite Nat.eqb_refl in E; discriminate | apply Hqd; exact H].
Qed.

Lemma enq_occ_inv0 : forall L w j, wk_inv0 L w -> pcol L j -> wk_inv0 L (wk_set_occupied (wk_enqueue w j) j).
Proof. intros L w j H Hj. apply (enq_occ_inv0_log L L); auto. Qed.

(* closed_inv under occupying an entry that is covered whenever it is a pivot column *)
Lemma set_occ_closed : forall L pend w j, closed_inv L pend w ->
  (pcol L j -> In j (w_queue w ++ pend) \/ exists r, In (r, j) L /\ row_occ w r) ->
  closed_inv L pend (wk_set_occupied w j).
Proof.
  intros L pend w j Hcl Hj c Hpc Hs. rewrite queue_occ.
  assert (Hmono : forall r, row_occ w r -> row_occ (wk_set_occupied w j) r).
  { intros r. apply row_occ_le. apply (le_occ _ _ (set_occ_le w j)). }
  destruct (Nat.eq_dec c j) as [E|E].
  - subst c. destruct (Hj Hpc) as [H|[r [H1 H2]]]; [left; exact H | right; exists r; split; [exact H1 | apply Hmono; exact H2]].
  - assert (Hs' : seen w c).
    { unfold seen in *. rewrite st_occ in Hs. apply Nat.eqb_neq in E. rewrite E in Hs. exact Hs. }
    destruct (Hcl c Hpc Hs') as [H|[r [H1 H2]]]; [left; exact H | right; exists r; split; [exact H1 | apply Hmono; exact H2]].
Qed.

Lemma enq_occ_closed : forall L pend w j, closed_inv L pend w ->
  closed_inv L pend (wk_set_occupied (wk_enqueue w j) j).
Proof.
  intros L pend w j Hcl c Hpc Hs. rewrite queue_occ, queue_enq.
  assert (Hmono : forall r, row_occ w r -> row_occ (wk_set_occupied (wk_enqueue w j) j) r).
  { intros r. apply row_occ_le. intros c0 H0. rewrite st_occ, st_enq. destruct (c0 =? j); [reflexivity | exact H0]. }
  destruct (Nat.eq_dec c j) as [E|E].
  - subst c. left. apply in_or_app. left. apply in_or_app. right. left. reflexivity.
  - assert (Hs' : seen w c).
    { unfold seen in *. rewrite st_occ, st_enq in Hs. apply Nat.eqb_neq in E. rewrite E in Hs. exact Hs. }
    destruct (Hcl c Hpc Hs') as [H|[r [H1 H2]]].
    + left. apply in_app_or in H. apply in_or_app. destruct H as [H|H]; [left; apply in_or_app; left; exact H | right; exact H].
    + right. exists r. split; [exact H1 | apply Hmono; exact H2].
Qed.

(* one iteration of the body of mark_row: `if has_col && !is_queued { enqueue }; set_occupied` *)
Definition visit (L : plog) (w : worker) (j : nat) : worker :=
  wk_set_occupied (if has_col L j && negb (wk_is_queued w j) then wk_enqueue w j else w) j.

Lemma visit_le : forall L w j, wk_le w (visit L w j).
Proof.
  intros L w j. unfold visit. destruct (has_col L j && negb (wk_is_queued w j)).
  - eapply wk_le_trans; [apply enq_le | apply set_occ_le].
  - apply set_occ_le.
Qed.

Lemma visit_inv0 : forall L w j, wk_inv0 L w -> wk_inv0 L (visit L w j).
Proof.
  intros L w j H. unfold visit. destruct (has_col L j && negb (wk_is_queued w j)) eqn:E.
  - apply andb_true_iff in E. destruct E as [E _]. apply has_col_pcol in E. apply enq_occ_inv0; assumption.
  - apply set_occ_inv0. exact H.
Qed.

Lemma visit_closed : forall L pend w j, wk_inv0 L w -> closed_inv L pend w -> closed_inv L pend (visit L w j).
Proof.
  intros L pend w j H0 Hcl. unfold visit. destruct (has_col L j && negb (wk_is_queued w j)) eqn:E.
  - apply enq_occ_closed. exact Hcl.
  - apply set_occ_closed; [exact Hcl|]. intros Hpc. apply has_col_pcol in Hpc. rewrite Hpc in E. cbn [andb] in E.
    apply negb_false_iff in E. unfold wk_is_queued in E. apply memb_In in E.
    apply Hcl; [apply has_col_pcol; exact Hpc|]. unfold seen. rewrite (wi_queued _ _ H0 j E). discriminate.
Qed.

Lemma visit_occ : forall L w j, w_st (visit L w j) j = SOcc.
Proof.
  intros L w j. unfold visit. rewrite st_occ, Nat.eqb_refl. reflexivity.
Qed.

Lemma mark_row_unfold : forall L j cs w,
  wk_mark_row L (j :: cs) w =
  if wk_has_candidate (visit L w j) then wk_mark_row L cs (visit L w j) else visit L w j.
Proof. reflexivity. Qed.

Lemma mark_row_spec : forall L pend cs w, wk_inv0 L w ->
  let w' := wk_mark_row L cs w in
  wk_inv0 L w' /\ (closed_inv L pend w -> closed_inv L pend w') /\ wk_le w w' /\
  (0 < w_ncand w' -> forall c, In c cs -> w_st w' c = SOcc).
Proof.
  intros L pend cs. induction cs as [|j cs IH]; intros w H0.
  - cbn [wk_mark_row]. splits; [exact H0 | intros H; exact H | apply wk_le_refl | intros _ c []].
  - cbv zeta. rewrite mark_row_unfold.
    pose proof (visit_inv0 L w j H0) as H0v.
    destruct (wk_has_candidate (visit L w j)) eqn:Eh.
    + destruct (IH (visit L w j) H0v) as [I1 [I2 [I3 I4]]]. cbv zeta in *. splits.
      * exact I1.
      * intros Hcl. apply I2. apply visit_closed; assumption.
      * eapply wk_le_trans; [apply visit_le | exact I3].
      * intros Hp c [Hc|Hc]; [|apply I4; assumption]. subst c. apply (le_occ _ _ I3). apply visit_occ.
    + splits.
      * exact H0v.
      * intros Hcl. apply visit_closed; assumption.
      * apply visit_le.
      * intros Hp. exfalso. assert (Hh : wk_has_candidate (visit L w j) = true) by (apply has_candidate_true; exact Hp).
        rewrite Hh in Eh. discriminate.
Qed.

Definition unq (L : plog) (w : worker) : nat :=
  length (filter (fun p => negb (wk_is_queued w (snd p))) L).
Definition mu (L : plog) (w : worker) : nat := unq L w + length (w_queue w).

Lemma filter_length_le : forall {A} (f g : A -> bool) l,
  (forall x, g x = true -> f x = true) -> length (filter g l) <= length (filter f l).
Proof.
  intros A f g l H. induction l as [|x r IH]; [cbn; lia|]. cbn [filter].
  destruct (g x) eqn:Eg.
  - rewrite (H x Eg). cbn [length]. lia.
  - destruct (f x); cbn [length]; lia.
Qed.

Lemma filter_length_lt : forall {A} (f g : A -> bool) l x,
  (forall y, g y = true -> f y = true) -> In x l -> f x = true -> g x = false ->
  length (filter g l) < length (filter f l).
Proof.
  intros A f g l x H. induction l as [|y r IH]; intros Hin Hf Hg; [destruct Hin|]. cbn [filter].
  destruct Hin as [Hin|Hin].
  - subst y. rewrite Hf, Hg. cbn [length]. pose proof (filter_length_le f g r H). lia.
  - specialize (IH Hin Hf Hg). destruct (g y) eqn:Eg.
    + rewrite (H y Eg). cbn [length]. lia.
    + destruct (f y); cbn [length]; lia.
Qed.

Lemma mu_visit : forall L w j, mu L (visit L w j) <= mu L w.
Proof.
  intros L w j. unfold visit, mu, unq. destruct (has_col L j && negb (wk_is_queued w j)) eqn:E.
  - apply andb_true_iff in E. destruct E as [E1 E2]. apply negb_true_iff in E2.
    apply has_col_pcol in E1. destruct E1 as [i Hi].
    rewrite queue_occ, queue_enq, app_length. cbn [length].
    assert (Hlt : length (filter (fun p => negb (wk_is_queued (wk_set_occupied (wk_enqueue w j) j) (snd p))) L)
                  < length (filter (fun p => negb (wk_is_queued w (snd p))) L)).
    { apply filter_length_lt with (x := (i, j)).
      - intros [a b]. cbn [snd]. unfold wk_is_queued. rewrite queued_occ, queued_enq. cbn [memb existsb].
        intros H. apply negb_true_iff in H. apply orb_false_iff in H. destruct H as [_ H].
        apply negb_true_iff. exact H.
      - exact Hi.
      - cbn [snd]. rewrite E2. reflexivity.
      - cbn [snd]. unfold wk_is_queued. rewrite queued_occ, queued_enq. cbn [memb existsb]. rewrite Nat.eqb_refl. reflexivity. }
    lia.
  - rewrite queue_occ. unfold wk_is_queued. rewrite queued_occ. lia.
Qed.

Lemma mu_mark_row : forall L cs w, mu L (wk_mark_row L cs w) <= mu L w.
Proof.
  intros L cs. induction cs as [|j cs IH]; intros w; [cbn [wk_mark_row]; lia|].
  rewrite mark_row_unfold. pose proof (mu_visit L w j). destruct (wk_has_candidate (visit L w j)); [|exact H].
  specialize (IH (visit L w j)). lia.
Qed.

Lemma mu_set_queue : forall L w j q, w_queue w = j :: q -> S (mu L (wk_set_queue w q)) = mu L w.
Proof.
  intros L w j q E. unfold mu, unq, wk_set_queue, wk_is_queued. cbn [w_queue w_queued]. rewrite E. cbn [length]. lia.
Qed.

Lemma set_queue_le : forall w j q, w_queue w = j :: q ->
  (forall c, w_st (wk_set_queue w q) c = w_st w c) /\ w_ncand (wk_set_queue w q) = w_ncand w /\
  w_row (wk_set_queue w q) = w_row w /\ w_queued (wk_set_queue w q) = w_queued w /\ w_queue (wk_set_queue w q) = q.
Proof. intros w j q E. splits; reflexivity. Qed.

Lemma traverse_loop_spec : forall L fuel w, wk_inv L w -> mu L w < fuel ->
  exists w', wk_traverse_loop fuel M L w = Some w' /\ wk_inv L w' /\
             (forall c, w_st w c = SOcc -> w_st w' c = SOcc) /\ (forall c, seen w c -> seen w' c) /\
             (forall c, w_st w' c = SCand -> w_st w c = SCand) /\
             w_row w' = w_row w /\ w_queue w' = [].
Proof.
  intros L fuel. induction fuel as [|f IH]; intros w [H0 Hc] Hmu; [lia|].
  cbn [wk_traverse_loop]. destruct (w_queue w) as [|j q] eqn:Eq.
  - exists w. splits; auto. split; assumption.
  - assert (Hpj : pcol L j) by (apply (wi_queue _ _ H0); rewrite Eq; left; reflexivity).
    destruct (row_for_pcol L j Hpj) as [i2 Ei2]. rewrite Ei2. apply row_for_Some in Ei2.
    set (w0 := wk_set_queue w q).
    assert (H00 : wk_inv0 L w0).
    { destruct H0 as [A B C D]. constructor.
      - exact A.
      - exact B.
      - intros c Hin. apply C. rewrite Eq. right. exact Hin.
      - exact D. }
    pose proof (mark_row_spec L [j] (cols_in M i2) w0 H00) as Hm. cbv zeta in Hm.
    set (w1 := wk_mark_row L (cols_in M i2) w0) in *.
    destruct Hm as [H01 [Hcl1 [Hle1 Hocc1]]].
    assert (Hinv1 : wk_inv L w1).
    { split; [exact H01|]. destruct Hc as [Hz|Hcl].
      - left. pose proof (le_ncand _ _ Hle1) as Hn. change (w_ncand w0) with (w_ncand w) in Hn. lia.
      - destruct (Nat.eq_dec (w_ncand w1) 0) as [Hz|Hnz]; [left; exact Hz|]. right.
        assert (Hcl0 : closed_inv L [j] w0).
        { intros c Hpc Hs. destruct (Hcl c Hpc Hs) as [H|H]; [|right; exact H]. left.
          rewrite app_nil_r in H. rewrite Eq in H. change (w_queue w0) with q.
          apply in_or_app. destruct H as [H|H]; [right; left; exact H | left; exact H]. }
        specialize (Hcl1 Hcl0). intros c Hpc Hs. destruct (Hcl1 c Hpc Hs) as [H|H]; [|right; exact H].
        apply in_app_or in H. destruct H as [H|[H|[]]]; [left; rewrite app_nil_r; exact H|].
        subst c. right. exists i2. split; [exact Ei2|]. intros c' Hc'. apply Hocc1; [lia | exact Hc']. }
    assert (Hmu1 : mu L w1 < f).
    { pose proof (mu_mark_row L (cols_in M i2) w0). pose proof (mu_set_queue L w j q Eq). fold w0 in H1. fold w1 in H. lia. }
    destruct (IH w1 Hinv1 Hmu1) as [w' [E' [Hinv' [Ho' [Hs' [Hcd' [Hr' Hq']]]]]]].
    exists w'. splits.
    + exact E'.
    + exact Hinv'.
    + intros c H. apply Ho'. apply (le_occ _ _ Hle1). exact H.
    + intros c H. apply Hs'. apply (le_seen _ _ Hle1). exact H.
    + intros c H. apply (le_cand _ _ Hle1). apply Hcd'. exact H.
    + rewrite Hr'. apply (le_row _ _ Hle1).
    + exact Hq'.
Qed.

Lemma unq_le : forall L w, unq L w <= length L.
Proof.
  intros L w. unfold unq. induction L as [|p r IH]; [cbn; lia|]. cbn [filter].
  destruct (negb (wk_is_queued w (snd p))); cbn [length]; lia.
Qed.

Lemma traverse_spec : forall L w, wk_inv L w ->
  exists w', wk_traverse M L w = Some w' /\ wk_inv L w' /\
             (forall c, w_st w c = SOcc -> w_st w' c = SOcc) /\ (forall c, seen w c -> seen w' c) /\
             (forall c, w_st w' c = SCand -> w_st w c = SCand) /\
             w_row w' = w_row w /\ (0 < w_ncand w' -> w_queue w' = []).
Proof.
  intros L w Hinv. unfold wk_traverse. destruct (wk_has_candidate w) eqn:Eh.
  - destruct (traverse_loop_spec L (S (length L + length (w_queue w))) w Hinv) as [w' [E [H1 [H2 [H3 [H4 [H5 H6]]]]]]].
    { unfold mu. pose proof (unq_le L w). lia. }
    exists w'. splits; auto.
  - exists w. splits; auto. intros Hp. apply has_candidate_true in Hp. rewrite Hp in Eh. discriminate.
Qed.

Lemma clear_inv : forall L i, wk_inv0 L (wk_clear i) /\ closed_inv L [] (wk_clear i).
Proof.
  intros L i. split.
  - constructor; cbn [wk_clear w_st w_queue w_queued w_ncand w_row].
    + intros c H. discriminate.
    + exists []. splits; [constructor | intros c; split; [intros [] | discriminate] | reflexivity].
    + intros c [].
    + intros c [].
  - intros c _ Hs. exfalso. apply Hs. reflexivity.
Qed.

Lemma init_loop_spec : forall L i cs w, NoDup cs ->
  (forall c, In c cs -> w_st w c = SNone) -> (forall c, In c cs -> In c (cols_in M i)) -> w_row w = i ->
  wk_inv0 L w -> closed_inv L [] w ->
  exists w', wk_init_loop M L i cs w = Some w' /\ wk_inv0 L w' /\ closed_inv L [] w' /\ w_row w' = i /\
             (forall c, In c cs -> seen w' c) /\ (forall c, seen w c -> seen w' c).
Proof.
  intros L i cs. induction cs as [|j cs IH]; intros w Hnd Hnone Hsub Hrow H0 Hcl; cbn [wk_init_loop].
  - exists w. splits; auto. intros c [].
  - inversion Hnd as [|? ? Hj Hcs]; subst.
    assert (Hnext : forall w1, (forall c, c <> j -> w_st w1 c = w_st w c) -> seen w1 j ->
              w_row w1 = w_row w -> wk_inv0 L w1 -> closed_inv L [] w1 ->
              exists w', wk_init_loop M L (w_row w) cs w1 = Some w' /\ wk_inv0 L w' /\ closed_inv L [] w' /\
                         w_row w' = w_row w /\ (forall c, In c (j :: cs) -> seen w' c) /\ (forall c, seen w c -> seen w' c)).
    { intros w1 Hsame Hsj Hrow1 H01 Hcl1.
      destruct (IH w1 Hcs) as [w' [E [I1 [I2 [I3 [I4 I5]]]]]]; try assumption.
      - intros c Hc. rewrite Hsame; [apply Hnone; right; exact Hc|]. intros E. subst. apply Hj. exact Hc.
      - intros c Hc. apply Hsub. right. exact Hc.
      - exists w'. splits; try assumption.
        + intros c [Hc|Hc]; [subst; apply I5; exact Hsj | apply I4; exact Hc].
        + intros c Hc. apply I5. destruct (Nat.eq_dec c j) as [E'|E']; [subst; exact Hsj|].
          unfold seen. rewrite Hsame by exact E'. exact Hc. }
    destruct (has_col L j) eqn:Ehc.
    + apply has_col_pcol in Ehc. apply Hnext.
      * intros c Hc. rewrite st_occ, st_enq. apply Nat.eqb_neq in Hc. rewrite Hc. reflexivity.
      * unfold seen. rewrite st_occ, Nat.eqb_refl. discriminate.
      * reflexivity.
      * apply enq_occ_inv0; assumption.
      * apply enq_occ_closed. exact Hcl.
    + apply has_col_false in Ehc. destruct (is_cand M (w_row w) j) eqn:Ecand.
      * unfold wk_set_candidate. rewrite (Hnone j (or_introl eq_refl)).
        apply Hnext.
        -- intros c Hc. cbn [w_st]. rewrite st_upd_eq. apply Nat.eqb_neq in Hc. rewrite Hc. reflexivity.
        -- unfold seen. cbn [w_st]. rewrite st_upd_eq, Nat.eqb_refl. discriminate.
        -- reflexivity.
        -- destruct H0 as [A B C D]. constructor; cbn [w_st w_row w_ncand w_queue w_queued].
           ++ intros c. rewrite st_upd_eq. destruct (c =? j) eqn:E.
              ** apply Nat.eqb_eq in E. subst. intros _. splits; [apply Hsub; left; reflexivity | exact Ecand | exact Ehc].
              ** apply A.
           ++ apply cnt_set_cand; [exact B | apply Hnone; left; reflexivity].
           ++ exact C.
           ++ intros c Hc. rewrite st_upd_eq. destruct (c =? j) eqn:E; [|apply D; exact Hc].
              apply Nat.eqb_eq in E. subst. pose proof (Hnone j (or_introl eq_refl)) as Hn. rewrite (D j Hc) in Hn. discriminate.
        -- intros c Hpc Hs. unfold seen in Hs. cbn [w_st w_queue] in *. rewrite st_upd_eq in Hs.
           destruct (c =? j) eqn:E.
           ++ apply Nat.eqb_eq in E. subst. exfalso. apply Ehc. exact Hpc.
           ++ destruct (Hcl c Hpc Hs) as [H|[r [H1 H2]]]; [left; exact H|]. right. exists r. split; [exact H1|].
              intros c' Hc'. cbn [w_st]. rewrite st_upd_eq. destruct (c' =? j) eqn:E'; [|apply H2; exact Hc'].
              apply Nat.eqb_eq in E'. subst. pose proof (Hnone j (or_introl eq_refl)) as Hn. rewrite (H2 j Hc') in Hn. discriminate.
      * apply Hnext.
        -- intros c Hc. rewrite st_occ. apply Nat.eqb_neq in Hc. rewrite Hc. reflexivity.
        -- unfold seen. rewrite st_occ, Nat.eqb_refl. discriminate.
        -- reflexivity.
        -- apply set_occ_inv0. exact H0.
        -- apply set_occ_closed; [exact Hcl|]. intros Hpc. exfalso. apply Ehc. exact Hpc.
Qed.

Lemma init_spec : forall L i, NoDup (cols_in M i) ->
  exists w, wk_init M L i = Some w /\ wk_inv L w /\ w_row w = i /\ row_seen w.
Proof.
  intros L i Hnd. unfold wk_init. destruct (clear_inv L i) as [H0 Hcl].
  destruct (init_loop_spec L i (cols_in M i) (wk_clear i)) as [w [E [I1 [I2 [I3 [I4 _]]]]]]; auto.
  exists w. splits; auto.
  - split; [exact I1 | right; exact I2].
  - intros c Hc. apply I4. rewrite I3 in Hc. exact Hc.
Qed.

Lemma choose_cand : forall w j, wk_choose M w = Some j -> w_st w j = SCand.
Proof.
  intros w j H. unfold wk_choose in H. apply min_by_In in H. apply filter_In in H.
  apply is_candidate_true. apply H.
Qed.

(* what a worker knows when it has searched: ready to enter the critical section *)
Definition searched_ok (L : plog) (w : worker) (j : nat) : Prop :=
  wk_inv L w /\ row_seen w /\ w_queue w = [] /\ w_st w j = SCand.

Lemma search_spec : forall L w, wk_inv L w -> row_seen w ->
  exists w' c, wk_search M L w = Some (w', c) /\ w_row w' = w_row w /\
    match c with Some j => searched_ok L w' j | None => True end.
Proof.
  intros L w Hinv Hrs. unfold wk_search.
  destruct (traverse_spec L w Hinv) as [w' [E [I1 [I2 [I3 [I4 [I5 I6]]]]]]]. rewrite E.
  exists w', (wk_choose M w'). splits; [reflexivity | exact I5|].
  destruct (wk_choose M w') as [j|] eqn:Ec; [|exact I].
  apply choose_cand in Ec. unfold searched_ok. splits.
  - exact I1.
  - intros c Hc. apply I3. apply Hrs. rewrite <- I5. exact Hc.
  - apply I6. destruct I1 as [I10 _]. eapply cnt_pos; [apply (wi_count _ _ I10) | exact Ec].
  - exact Ec.
Qed.

Lemma pcol_snoc : forall L r c x, pcol (L ++ [(r, c)]) x <-> pcol L x \/ x = c.
Proof.
  intros L r c x. unfold pcol. split.
  - intros [i Hi]. apply in_app_or in Hi. destruct Hi as [Hi|[Hi|[]]]; [left; exists i; exact Hi|].
    inversion Hi. right. reflexivity.
  - intros [[i Hi]| ->]; [exists i|exists r]; apply in_or_app; [left; exact Hi|right; left; reflexivity].
Qed.

Lemma enq_occ_inv0_ext : forall L r w j, wk_inv0 L w ->
  wk_inv0 (L ++ [(r, j)]) (wk_set_occupied (wk_enqueue w j) j).
Proof.
  intros L r w j H. apply (enq_occ_inv0_log L); [exact H|apply pcol_snoc; now right| |]; intros c; rewrite pcol_snoc; tauto.
Qed.

Lemma inv0_ext : forall L r c w, wk_inv0 L w -> w_st w c <> SCand -> wk_inv0 (L ++ [(r, c)]) w.
Proof.
  intros L r c w [Hc Hn Hq Hqd] Hnc. constructor; auto.
  - intros x Hx. destruct (Hc x Hx) as [A1 [A2 A3]]. splits; auto. rewrite pcol_snoc. intros [H| ->]; auto.
  - intros x Hx. apply pcol_snoc. left. apply Hq. exact Hx.
Qed.

Lemma closed_ext : forall L pend r c w, closed_inv L pend w ->
  (seen w c -> In c (w_queue w ++ pend)) -> closed_inv (L ++ [(r, c)]) pend w.
Proof.
  intros L pend r c w Hcl Hc x [i Hi] Hs. apply in_app_or in Hi. destruct Hi as [Hi|[Hi|[]]].
  - destruct (Hcl x (ex_intro _ i Hi) Hs) as [H|[r' [H1 H2]]]; [left; exact H|].
    right. exists r'. split; [apply in_or_app; left; exact H1 | exact H2].
  - inversion Hi; subst. left. apply Hc. exact Hs.
Qed.

Lemma diff_step_spec : forall L w p, wk_inv L w ->
  let w' := wk_diff_step w p in
  wk_inv (L ++ [p]) w' /\ wk_le w w' /\
  length (w_queue w) <= length (w_queue w') /\ (length (w_queue w') = length (w_queue w) -> w' = w).
Proof.
  intros L w [r c] [H0 Hc]. unfold wk_diff_step. cbn [snd].
  destruct (wk_is_candidate w c || wk_is_occupied w c) eqn:E; cbv zeta.
  - splits.
    + split; [apply enq_occ_inv0_ext; exact H0|]. destruct Hc as [Hz|Hcl].
      * left. pose proof (ncand_occ_le (wk_enqueue w c) c) as H. rewrite ncand_enq in H. lia.
      * right. apply closed_ext; [apply enq_occ_closed; exact Hcl|].
        intros _. rewrite queue_occ, queue_enq, app_nil_r. apply in_or_app. right. left. reflexivity.
    + eapply wk_le_trans; [apply enq_le | apply set_occ_le].
    + rewrite queue_occ, queue_enq, app_length. cbn [length]. lia.
    + rewrite queue_occ, queue_enq, app_length. cbn [length]. lia.
  - apply orb_false_iff in E. destruct E as [E1 E2].
    assert (Hns : ~ seen w c).
    { unfold seen. intros H. unfold wk_is_candidate, wk_is_occupied in *. destruct (w_st w c); try discriminate. apply H. reflexivity. }
    splits.
    + split.
      * apply inv0_ext; [exact H0|]. intros H. apply is_candidate_true in H. rewrite H in E1. discriminate.
      * destruct Hc as [Hz|Hcl]; [left; exact Hz | right]. apply closed_ext; [exact Hcl|]. intros H. exfalso. apply Hns. exact H.
    + apply wk_le_refl.
    + lia.
    + reflexivity.
Qed.

Lemma update_diff_spec : forall D L w, wk_inv L w ->
  let w' := wk_update_diff D w in
  wk_inv (L ++ D) w' /\ wk_le w w' /\
  length (w_queue w) <= length (w_queue w') /\ (length (w_queue w') = length (w_queue w) -> w' = w).
Proof.
  induction D as [|p D IH]; intros L w Hinv; cbv zeta.
  - cbn [wk_update_diff fold_left]. rewrite app_nil_r. splits; [exact Hinv | apply wk_le_refl | lia | reflexivity].
  - unfold wk_update_diff. cbn [fold_left]. fold (wk_update_diff D (wk_diff_step w p)).
    destruct (diff_step_spec L w p Hinv) as [S1 [S2 [S3 S4]]]. cbv zeta in *.
    destruct (IH (L ++ [p]) (wk_diff_step w p) S1) as [I1 [I2 [I3 I4]]]. cbv zeta in *.
    rewrite <- app_assoc in I1. cbn [app] in I1. splits.
    + exact I1.
    + eapply wk_le_trans; eassumption.
    + lia.
    + intros Hl. assert (E1 : wk_diff_step w p = w) by (apply S4; lia).
      rewrite I4 by lia. exact E1.
Qed.

Lemma commit_ok : forall P w j, NoDup (map snd P) -> acyclic M P -> searched_ok P w j ->
  ~ pcol P j /\ In j (cols_in M (w_row w)) /\ is_cand M (w_row w) j = true /\
  acyclic M (P ++ [(w_row w, j)]).
Proof.
  intros P w j Hnd Hac [[H0 Hc] [Hrs [Hq Hj]]].
  destruct (wi_cand _ _ H0 j Hj) as [A1 [A2 A3]].
  assert (Hpos : 0 < w_ncand w) by (eapply cnt_pos; [apply (wi_count _ _ H0) | exact Hj]).
  destruct Hc as [Hz|Hcl]; [lia|].
  splits; auto.
  apply acyclic_add with (S := fun c => match w_st w c with SNone => false | _ => negb (c =? j) end); auto.
  - intros c Hin Hne. specialize (Hrs c Hin). unfold seen in Hrs. apply Nat.eqb_neq in Hne. rewrite Hne.
    destruct (w_st w c); [exfalso; apply Hrs; reflexivity | reflexivity | reflexivity].
  - intros r c Hin HS c' Hc'.
    assert (Hs : seen w c) by (unfold seen; destruct (w_st w c); [discriminate | discriminate | discriminate]).
    destruct (Hcl c (ex_intro _ r Hin) Hs) as [H|[r' [H1 H2]]].
    + rewrite Hq in H. destruct H.
    + assert (r = r') by (eapply nodup_snd_fun; eassumption). subst r'.
      rewrite (H2 c' Hc'). destruct (c' =? j) eqn:E; [|reflexivity].
      apply Nat.eqb_eq in E. subst. rewrite (H2 j Hc') in Hj. discriminate.
  - rewrite Hj, Nat.eqb_refl. reflexivity.
Qed.

End Worker.
