(* C02 invariance: for ANY rho injective on the edge labels the unreduced cube of the relabelled
   diagram has the same number of generators in every cube degree and every local quantum degree
   (the circles of a resolution are the images of the original circles, in a possibly different order:
   Proofs/C02Relabel.v; the generator count only depends on the number of circles). *)
From Coq Require Import List Arith Bool ZArith Lia.
Require Import Yui.Model.KhCube Yui.Model.KhHomology.
Require Import Yui.Proofs.C02Sorted Yui.Proofs.C02Canon Yui.Proofs.C02Relabel Yui.Proofs.C02Reorder.
Import ListNotations.
Close Scope Z_scope.

Theorem count_gens_relabel_inj rho l h t k sel sf : inj_on rho (all_edges l) -> sel_wx sel sf ->
  count_gens (build_cube (relabel rho l) None h t) k sel = count_gens (build_cube l None h t) k sel.
Proof.
  intros Hinj Hs. rewrite !(count_gens_W _ None h t k sel sf Hs). rewrite relabel_crossing_num.
  destruct (k <=? crossing_num l); [|reflexivity]. f_equal.
  unfold W. rewrite relabel_crossing_num, !map_map. apply map_ext. intros s.
  unfold cnt. cbn [fst snd base_index]. now rewrite (circles_relabel_length rho l s Hinj).
Qed.
