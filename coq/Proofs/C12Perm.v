(* Index bookkeeping for dir_sum_decomp: offsets = partial sums, positions in a concatenation,
   perm_for_indices. *)
From Coq Require Import Arith List Bool Lia.
Require Import Yui.Model.Triang Yui.Model.Decomp Yui.Proofs.C12Sparse Yui.Proofs.C12UnionFind.
Require Import Yui.Base.ListFacts.
Import ListNotations.

Definition psum (ls : list (list nat)) (k : nat) : nat := length (concat (firstn k ls)).

Lemma psum_0 ls : psum ls 0 = 0.
Proof. reflexivity. Qed.

Lemma psum_cons x r k : psum (x :: r) (S k) = length x + psum r k.
Proof. unfold psum. cbn [firstn concat]. now rewrite app_length. Qed.

Lemma psum_S ls k : k < length ls -> psum ls (S k) = psum ls k + length (nth k ls []).
Proof.
  revert k. induction ls as [|x r IH]; intros k Hk; [cbn in Hk; lia|].
  destruct k as [|k].
  - rewrite psum_cons, !psum_0. cbn. lia.
  - rewrite !psum_cons. cbn [nth length] in *. rewrite IH by lia. lia.
Qed.

Lemma psum_all ls k : length ls <= k -> psum ls k = length (concat ls).
Proof. intros H. unfold psum. now rewrite firstn_all2. Qed.

Lemma psum_mono ls k k' : k <= k' -> psum ls k <= psum ls k'.
Proof.
  revert k k'. induction ls as [|x r IH]; intros k k' H.
  - unfold psum. now rewrite !firstn_nil.
  - destruct k as [|k]; [rewrite psum_0; lia|]. destruct k' as [|k']; [lia|].
    rewrite !psum_cons. specialize (IH k k' ltac:(lia)). lia.
Qed.

Lemma psum_le_total ls k : psum ls k <= length (concat ls).
Proof. rewrite <- (psum_all ls (Nat.max k (length ls))) by lia. apply psum_mono. lia. Qed.

(* fold(vec![0], |res, next| res.push(res.last() + next.len())) *)
Lemma offsets_gen : forall ls init,
  fold_left (fun res next => res ++ [last res 0 + length next]) ls init
  = init ++ map (fun k => last init 0 + psum ls (S k)) (seq 0 (length ls)).
Proof.
  induction ls as [|x r IH]; intros init; cbn [fold_left length seq map]; [now rewrite app_nil_r|].
  rewrite IH, last_last, <- app_assoc. cbn [app]. f_equal. f_equal.
  - rewrite psum_cons, psum_0. lia.
  - rewrite <- seq_shift, map_map. apply map_ext. intros k. rewrite (psum_cons x r (S k)). lia.
Qed.

Lemma offsets_spec ls : offsets ls = map (psum ls) (seq 0 (S (length ls))).
Proof.
  unfold offsets. rewrite offsets_gen. cbn [last]. cbn [seq map]. rewrite psum_0. cbn [app]. f_equal.
  rewrite <- seq_shift, map_map. apply map_ext. intros k. reflexivity.
Qed.

Lemma nth_error_offsets ls k : k <= length ls -> nth_error (offsets ls) k = Some (psum ls k).
Proof.
  intros H. rewrite offsets_spec. rewrite (nth_error_nth' _ 0) by (rewrite map_length, seq_length; lia).
  f_equal. now rewrite nth_map_seq by lia.
Qed.

Lemma concat_nth ls k t : k < length ls -> t < length (nth k ls []) ->
  nth (psum ls k + t) (concat ls) 0 = nth t (nth k ls []) 0.
Proof.
  revert k. induction ls as [|x r IH]; intros k Hk Ht; [cbn in Hk; lia|].
  destruct k as [|k].
  - rewrite psum_0. cbn [concat nth Nat.add] in *. now rewrite app_nth1.
  - rewrite psum_cons. cbn [concat nth length] in *. rewrite app_nth2 by lia.
    replace (length x + psum r k + t - length x) with (psum r k + t) by lia. apply IH; [lia|assumption].
Qed.

Lemma in_concat_pos ls x : In x (concat ls) ->
  exists k t, k < length ls /\ t < length (nth k ls []) /\ nth t (nth k ls []) 0 = x.
Proof.
  induction ls as [|y r IH]; intros H; [contradiction|]. cbn [concat] in H. apply in_app_iff in H.
  destruct H as [H|H].
  - apply In_nth with (d := 0) in H. destruct H as [t [Ht E]]. exists 0, t. cbn. repeat split; [lia|assumption|assumption].
  - destruct (IH H) as [k [t [Hk [Ht E]]]]. exists (S k), t. cbn. repeat split; [lia|assumption|assumption].
Qed.

Lemma nth_in_concat ls k t : k < length ls -> t < length (nth k ls []) -> In (nth t (nth k ls []) 0) (concat ls).
Proof.
  intros Hk Ht. apply in_concat. exists (nth k ls []). split; [now apply nth_In|now apply nth_In].
Qed.

(* NoDup of a concatenation: the same element cannot sit at two different places *)
Lemma NoDup_concat_unique ls k t k' t' : NoDup (concat ls) ->
  k < length ls -> t < length (nth k ls []) -> k' < length ls -> t' < length (nth k' ls []) ->
  nth t (nth k ls []) 0 = nth t' (nth k' ls []) 0 -> k = k' /\ t = t'.
Proof.
  intros Hnd Hk Ht Hk' Ht' E.
  rewrite <- (concat_nth ls k t Hk Ht), <- (concat_nth ls k' t' Hk' Ht') in E.
  assert (B : forall k0 t0, k0 < length ls -> t0 < length (nth k0 ls []) -> psum ls k0 + t0 < length (concat ls)).
  { intros k0 t0 H1 H2. pose proof (psum_S ls k0 H1). pose proof (psum_le_total ls (S k0)). lia. }
  apply (proj1 (NoDup_nth (concat ls) 0) Hnd) in E; [|now apply B|now apply B].
  assert (Hkk : k = k').
  { destruct (lt_eq_lt_dec k k') as [[H|H]|H]; [|assumption|]; exfalso.
    - pose proof (psum_S ls k Hk). pose proof (psum_mono ls (S k) k' ltac:(lia)). lia.
    - pose proof (psum_S ls k' Hk'). pose proof (psum_mono ls (S k') k ltac:(lia)). lia. }
  subst k'. split; [reflexivity|lia].
Qed.

Definition set_step (inv : list nat) (kj : nat * nat) : list nat := nat_set_nth inv (snd kj) (fst kj).

Lemma fold_set_spec : forall (kv : list (nat * nat)) init,
  NoDup (map snd kv) -> (forall e, In e kv -> snd e < length init) ->
  let inv := fold_left set_step kv init in
  length inv = length init /\
  (forall k j, In (k, j) kv -> pget inv j = k) /\
  (forall j, ~ In j (map snd kv) -> pget inv j = pget init j).
Proof.
  induction kv as [|[k0 j0] kv IH]; intros init Hnd Hb; cbn [fold_left].
  - split; [reflexivity|]. split; [intros k j []|reflexivity].
  - cbn [map snd] in Hnd. inversion Hnd as [|? ? Hj0 Hnd']; subst.
    assert (Hj0b : j0 < length init) by (apply (Hb (k0, j0)); now left).
    destruct (IH (set_step init (k0, j0)) Hnd') as [Hl [Hin Hout]].
    { intros e He. unfold set_step. rewrite length_nat_set_nth. apply Hb. now right. }
    split; [rewrite Hl; unfold set_step; apply length_nat_set_nth|]. split.
    + intros k j [E|H]; [|now apply Hin]. injection E as <- <-.
      rewrite (Hout j0 Hj0). unfold set_step. cbn [fst snd]. rewrite pget_nat_set_nth by assumption.
      now rewrite Nat.eqb_refl.
    + intros j Hj. cbn [map snd In] in Hj. rewrite Hout by tauto.
      unfold set_step. cbn [fst snd]. rewrite pget_nat_set_nth by assumption.
      destruct (Nat.eqb_spec j j0); [exfalso; apply Hj; now left|reflexivity].
Qed.

Lemma map_snd_combine {A B} (l1 : list A) (l2 : list B) : length l1 = length l2 -> map snd (combine l1 l2) = l2.
Proof.
  revert l2. induction l1 as [|x r IH]; intros [|y s] H; cbn in *; try reflexivity; try discriminate.
  f_equal. apply IH. lia.
Qed.

Record is_perm (m : nat) (p : list nat) : Prop := {
  ip_len : length p = m;
  ip_range : forall i, i < m -> pget p i < m;
  ip_inj : forall i i', i < m -> i' < m -> pget p i = pget p i' -> i = i';
}.

Lemma perm_spec m idx : NoDup idx -> (forall i, In i idx -> i < m) ->
  exists p, perm_for_indices m idx = Some p /\ is_perm m p /\
    (forall t, t < length idx -> pget p (nth t idx 0) = t) /\
    (forall i, i < m -> ~ In i idx -> length idx <= pget p i).
Proof.
  intros Hnd Hb. unfold perm_for_indices.
  assert (Hchk : forallb (fun i => i <? m) idx = true)
    by (apply forallb_forall; intros i Hi; now apply Nat.ltb_lt, Hb).
  rewrite Hchk.
  set (rest := filter (fun i => negb (nat_mem i idx)) (seq 0 m)).
  set (vec := idx ++ rest).
  assert (Hrest : forall i, In i rest <-> i < m /\ ~ In i idx).
  { intros i. unfold rest. rewrite filter_In, in_seq, negb_true_iff.
    split; intros [H1 H2]; (split; [lia|]).
    - intros Hi. apply nat_mem_In in Hi. congruence.
    - destruct (nat_mem i idx) eqn:E; [apply nat_mem_In in E; contradiction|reflexivity]. }
  assert (Hvnd : NoDup vec).
  { apply NoDup_app_intro; [assumption|apply NoDup_filter, seq_NoDup|]. intros x Hx Hx'. apply Hrest in Hx'. tauto. }
  assert (Hvb : forall i, In i vec <-> i < m).
  { intros i. unfold vec. rewrite in_app_iff, Hrest. split.
    - intros [H|[H _]]; [now apply Hb|assumption].
    - intros H. destruct (in_dec Nat.eq_dec i idx); tauto. }
  assert (Hvl : length vec = m).
  { apply Nat.le_antisymm.
    - rewrite <- (seq_length m 0). apply NoDup_incl_length; [assumption|]. intros i Hi. apply in_seq. apply Hvb in Hi. lia.
    - rewrite <- (seq_length m 0) at 1. apply NoDup_incl_length; [apply seq_NoDup|]. intros i Hi. apply Hvb. apply in_seq in Hi. lia. }
  set (kv := combine (seq 0 (length vec)) vec).
  change (fold_left (fun (inv : list nat) (kj : nat * nat) => nat_set_nth inv (snd kj) (fst kj)) kv (repeat 0 m))
    with (fold_left set_step kv (repeat 0 m)).
  assert (Hsnd : map snd kv = vec) by (unfold kv; apply map_snd_combine; now rewrite seq_length).
  destruct (fold_set_spec kv (repeat 0 m)) as [Hl [Hin _]].
  { now rewrite Hsnd. }
  { intros e He. rewrite repeat_length. apply Hvb. rewrite <- Hsnd. now apply in_map. }
  set (inv := fold_left set_step kv (repeat 0 m)) in *. rewrite repeat_length in Hl.
  assert (Hpos : forall t, t < m -> pget inv (nth t vec 0) = t).
  { intros t Ht. apply Hin. unfold kv.
    replace (t, nth t vec 0) with (nth t (combine (seq 0 (length vec)) vec) (0, 0)).
    - apply nth_In. rewrite combine_length, seq_length. lia.
    - rewrite combine_nth by (now rewrite seq_length). rewrite seq_nth by lia. reflexivity. }
  assert (Hinv : forall i, i < m -> exists t, t < m /\ nth t vec 0 = i).
  { intros i Hi. apply Hvb in Hi. apply In_nth with (d := 0) in Hi. destruct Hi as [t [Ht E]]. exists t. split; [lia|exact E]. }
  assert (Hvalid : forallb (fun i => nat_mem i inv) (seq 0 m) = true).
  { apply forallb_forall. intros t Ht. apply in_seq in Ht. apply nat_mem_In. rewrite <- (Hpos t ltac:(lia)).
    apply nth_In. rewrite Hl. apply Hvb. apply nth_In. lia. }
  rewrite Hvalid. exists inv. split; [reflexivity|]. split; [|split].
  - constructor.
    + exact Hl.
    + intros i Hi. destruct (Hinv i Hi) as [t [Ht Et]]. rewrite <- Et. now rewrite Hpos.
    + intros i i' Hi Hi' E. destruct (Hinv i Hi) as [t [Ht Et]]. destruct (Hinv i' Hi') as [t' [Ht' Et']].
      rewrite <- Et, <- Et' in E. rewrite !Hpos in E by assumption. rewrite <- Et, <- Et'. now rewrite E.
  - intros t Ht. assert (Htm : t < m).
    { rewrite <- Hvl. unfold vec. rewrite app_length. lia. }
    replace (nth t idx 0) with (nth t vec 0) by (unfold vec; now rewrite app_nth1). now apply Hpos.
  - intros i Hi Hni. destruct (Hinv i Hi) as [t [Ht E]]. rewrite <- E, Hpos by assumption.
    destruct (le_lt_dec (length idx) t) as [H|H]; [assumption|]. exfalso. apply Hni. rewrite <- E. unfold vec.
    rewrite app_nth1 by assumption. now apply nth_In.
Qed.
