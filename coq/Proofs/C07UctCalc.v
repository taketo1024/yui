(* C07 - universal coefficients, part 2: the statement for the output of the mirrored HomologyCalc.
   [calc_uct]      (rank, tors) = calculate d1 d2 and (_, tors') = calculate d2 d3 over Z, for ANY snf routine meeting
                   the C09 contract: for ANY Smith-type forms over F_p of d1 mod p and d2 mod p (sizes rp1, rp2)
                       n - rp1 - rp2 = rank + #{t in tors : p | t} + #{t in tors' : p | t};
   [calc_uct_fp]   hence the run of the same code over F_p on the reduced matrices (any snf routine over F_p meeting
                   the contract) reports exactly that rank, and no torsion;
   [mirror_uct]    closed instance: the snf parameter is the mirror of snf.rs over Z (with or without a preprocessing
                   step meeting its contract) and over F_p - the configuration the correspondence run executes;
   [calc_rank_Q], [mirror_rank_Q]  the same against Q: equal ranks, no torsion. *)
From Coq Require Import ZArith Znumtheory Arith List Lia Ring Bool QArith Qcanon.
Require Import Yui.Base.Ring Yui.Base.MatF Yui.Base.MatL Yui.Model.HomologyCalc.
Require Import Yui.Base.ListFacts.
Require Yui.Model.Snf.
Require Import Yui.Proofs.C07Algebra Yui.Proofs.C07Calc Yui.Proofs.C07Rank Yui.Proofs.C09UniqueModP Yui.Proofs.C07Uct.
Require Import Yui.Proofs.C09Inv Yui.Proofs.C09Run Yui.Proofs.C09Laws Yui.Proofs.C09Contract.
Import ListNotations.
Local Close Scope Q_scope.
Local Close Scope Qc_scope.
Local Close Scope Z_scope.

Module SNF := Yui.Model.Snf.
Local Notation fp_ring := SNF.fp_ring.
Local Notation fp := SNF.fp.
Local Notation fp_mk := SNF.fp_mk.

Section BaseChange.
  Context {R R' : Type} (o : ring_ops R) (o' : ring_ops R') (phi : R -> R').
  Hypothesis phi0 : phi (rzero o) = rzero o'.

  Definition dmap (d : dmat R) : dmat R' := mkm (nr d) (nc d) (map (map phi) (ent d)).

  Lemma mget_dmap d i j : mget o' (dmap d) i j = phi (mget o d i j).
  Proof.
    unfold mget, dmap, lget. cbn [ent].
    change (@nil R') with (map phi []). rewrite map_nth. rewrite <- phi0. apply map_nth.
  Qed.

  Lemma mwf_dmap d : mwf d -> mwf (dmap d).
  Proof.
    unfold mwf, wf, dmap. cbn [nr nc ent]. intros [H1 H2]. split; [now rewrite map_length|].
    apply Forall_forall. intros r Hr. apply in_map_iff in Hr. destruct Hr as [r0 [<- Hr0]].
    rewrite map_length. rewrite Forall_forall in H2. now apply H2.
  Qed.
End BaseChange.

(* the same code run over a field on the image of a complex: a rank and no torsion *)
Section FieldRun.
  Context {R F : Type} (o : ring_ops R) (oF : ring_ops F) (LF : ring_laws oF) (IF : integral oF).
  Variables (phi : R -> F) (finv : F -> F).
  Hypothesis phi0 : phi (rzero o) = rzero oF.
  Hypothesis phi_add : forall a b, phi (radd o a b) = radd oF (phi a) (phi b).
  Hypothesis phi_mul : forall a b, phi (rmul o a b) = rmul oF (phi a) (phi b).
  Hypothesis finv_r : forall a, a <> rzero oF -> rmul oF a (finv a) = rone oF.
  Variable isuF : F -> bool.
  Hypothesis isuF_complete : forall a b : F, rmul oF a b = rone oF -> isuF a = true.
  Hypothesis isuF_sound : forall a : F, isuF a = true -> exists b : F, rmul oF a b = rone oF.
  Variable snfF : dmat F -> bool -> bool -> bool -> bool -> option (snf_result F).
  Hypothesis HCF : snf_contract oF snfF.

  Lemma zero_prod_dmap d1 d2 : zero_prod o d1 d2 -> zero_prod oF (dmap phi d1) (dmap phi d2).
  Proof.
    intros H. pose proof (hom_zero_prod o oF phi phi0 phi_add phi_mul (nr d1) (nc d1) (nr d2) _ _ H) as H'.
    intros i j Hi Hj. cbn [dmap nr nc] in Hi, Hj |- *. rewrite <- (H' i j Hi Hj).
    apply (mmul_ext oF (nr d1) (nr d2) (nc d1)); try assumption; intros x y _ _; now apply mget_dmap.
  Qed.

  Lemma field_run d1 d2 wt rankF torsF trF :
    mwf d1 -> mwf d2 -> zero_prod o d1 d2 ->
    calculate oF isuF snfF (dmap phi d1) (dmap phi d2) wt = Some (rankF, torsF, trF) ->
    exists q1 a q2 b,
      smith_form oF (nr d1) (nc d1) (fun i j => phi (mget o d1 i j)) q1 a /\
      smith_form oF (nr d2) (nr d1) (fun i j => phi (mget o d2 i j)) q2 b /\
      (rankF + q1 + q2 = nr d1)%nat /\ torsF = [].
  Proof.
    intros W1 W2 Z12 Hq.
    destruct (calculate_rank_tors oF LF IF isuF isuF_complete snfF isuF_sound _ _ _ _ _ _ HCF
                (mwf_dmap phi d1 W1) (mwf_dmap phi d2 W2) (zero_prod_dmap d1 d2 Z12) Hq)
      as [En [q1 [q2 [a [b [t [G1 [G2 [Hr [_ [Ht _]]]]]]]]]]].
    cbn [dmap nr nc] in En, G1, G2, Hr.
    exists q1, a, q2, b.
    split; [|split; [rewrite En|split; [exact Hr|]]].
    1,2: eapply smith_form_ext; [|eassumption]; intros i j _ _; now apply mget_dmap.
    (* every non-zero element of a field is a unit *)
    rewrite Ht. unfold non_units. apply filter_none. intros x Hx. apply in_map_iff in Hx.
    destruct Hx as [i [<- Hi]]. apply in_seq in Hi. apply negb_false_iff.
    destruct G1 as [_ [_ [_ [_ [_ [_ [_ [Hnz _]]]]]]]].
    apply (isuF_complete (a i) (finv (a i))). apply finv_r. apply Hnz. lia.
  Qed.
End FieldRun.

Lemma zdvd_of_mul (a b : Z) : (exists c, b = rmul Z_ring a c) -> (a | b)%Z.
Proof. intros [c ->]. exists c. cbn [rmul Z_ring]. apply Z.mul_comm. Qed.

Section CalcUct.
  Variable isu : Z -> bool.
  Hypothesis isu_complete : forall a b : Z, rmul Z_ring a b = rone Z_ring -> isu a = true.
  Hypothesis isu_sound : forall a : Z, isu a = true -> exists b : Z, rmul Z_ring a b = rone Z_ring.
  Variable snf : dmat Z -> bool -> bool -> bool -> bool -> option (snf_result Z).
  Hypothesis HC : snf_contract Z_ring snf.

  Variable p : Z.
  Hypothesis Hp : prime p.

  (* what two consecutive calls give: chain Smith forms of d1 and d2 whose non-units are tors and tors' *)
  Lemma calc_two d1 d2 d3 wt wt' rank tors tr rank' tors' tr' :
    mwf d1 -> mwf d2 -> mwf d3 -> zero_prod Z_ring d1 d2 -> zero_prod Z_ring d2 d3 ->
    calculate Z_ring isu snf d1 d2 wt = Some (rank, tors, tr) ->
    calculate Z_ring isu snf d2 d3 wt' = Some (rank', tors', tr') ->
    nr d1 = nc d2 /\
    exists r1 a r2 b,
      smith_form Z_ring (nr d1) (nc d1) (mget Z_ring d1) r1 a /\ (forall k, (S k < r1)%nat -> (a k | a (S k))%Z) /\
      smith_form Z_ring (nr d2) (nr d1) (mget Z_ring d2) r2 b /\ (forall k, (S k < r2)%nat -> (b k | b (S k))%Z) /\
      (rank + r1 + r2 = nr d1)%nat /\
      tors = non_units isu (map a (seq 0 r1)) /\ tors' = non_units isu (map b (seq 0 r2)).
  Proof.
    intros W1 W2 W3 Z12 Z23 H1 H2.
    destruct (calculate_rank_tors Z_ring Z_ring_laws Z_integral isu isu_complete snf isu_sound
                d1 d2 wt rank tors tr HC W1 W2 Z12 H1)
      as [En [r1 [r2 [a [b [t [G1 [G2 [Hr [Hch [Ht _]]]]]]]]]]].
    destruct (calculate_rank_tors Z_ring Z_ring_laws Z_integral isu isu_complete snf isu_sound
                d2 d3 wt' rank' tors' tr' HC W2 W3 Z23 H2)
      as [_ [r1' [r2' [a' [b' [t' [G1' [_ [_ [Hch' [Ht' _]]]]]]]]]]].
    split; [exact En|].
    assert (E2 : r1' = r2).
    { exact (smith_form_rank_unique Z_ring Z_ring_laws Z_integral _ _ _ _ _ _ _ G1' G2). }
    subst r1'. exists r1, a, r2, a'.
    split; [exact G1|]. split; [intros k Hk; apply zdvd_of_mul; now apply Hch|].
    split; [rewrite En; exact G1'|]. split; [intros k Hk; apply zdvd_of_mul; now apply Hch'|].
    split; [exact Hr|]. split; [exact Ht|exact Ht'].
  Qed.

  Theorem calc_uct d1 d2 d3 wt wt' rank tors tr rank' tors' tr' :
    mwf d1 -> mwf d2 -> mwf d3 -> zero_prod Z_ring d1 d2 -> zero_prod Z_ring d2 d3 ->
    calculate Z_ring isu snf d1 d2 wt = Some (rank, tors, tr) ->
    calculate Z_ring isu snf d2 d3 wt' = Some (rank', tors', tr') ->
    forall rp1 c1 rp2 c2,
      smith_form (fp_ring p) (nr d1) (nc d1) (redp p (mget Z_ring d1)) rp1 c1 ->
      smith_form (fp_ring p) (nr d2) (nr d1) (redp p (mget Z_ring d2)) rp2 c2 ->
      (rp1 + rp2 <= nr d1)%nat /\
      (nr d1 - rp1 - rp2 = rank + length (filter (pdiv p) tors) + length (filter (pdiv p) tors'))%nat.
  Proof.
    intros W1 W2 W3 Z12 Z23 H1 H2 rp1 c1 rp2 c2 F1 F2.
    destruct (calc_two d1 d2 d3 wt wt' rank tors tr rank' tors' tr' W1 W2 W3 Z12 Z23 H1 H2)
      as [En [r1 [a [r2 [b [G1 [C1 [G2 [C2 [Hr [Ht Ht']]]]]]]]]]].
    destruct (uct_abstract p Hp (nc d1) (nr d1) (nr d2) (mget Z_ring d1) (mget Z_ring d2) r1 a r2 b rp1 c1 rp2 c2
                Z12 G1 C1 G2 C2 F1 F2) as [B [Bp [_ [_ [_ E]]]]].
    split; [exact Bp|]. rewrite E.
    rewrite (cnt_div_non_units p Hp isu a r1 isu_sound), (cnt_div_non_units p Hp isu b r2 isu_sound).
    fold (non_units isu (map a (seq 0 r1))). fold (non_units isu (map b (seq 0 r2))).
    rewrite <- Ht, <- Ht'. lia.
  Qed.

  (* the same code run over F_p on the reduced matrices *)
  Variable isup : fp p -> bool.
  Hypothesis isup_complete : forall a b : fp p, rmul (fp_ring p) a b = rone (fp_ring p) -> isup a = true.
  Hypothesis isup_sound : forall a : fp p, isup a = true -> exists b : fp p, rmul (fp_ring p) a b = rone (fp_ring p).
  Variable snfp : dmat (fp p) -> bool -> bool -> bool -> bool -> option (snf_result (fp p)).
  Hypothesis HCp : snf_contract (fp_ring p) snfp.

  Let Lp : ring_laws (fp_ring p) := fp_ring_laws p Hp.
  Let Ip : integral (fp_ring p) := sl_integral (SNF.fp_dict p) (fp_snf_laws p Hp).

  Definition dred : dmat Z -> dmat (fp p) := dmap (fp_mk p).

  Lemma mget_dred d i j : mget (fp_ring p) (dred d) i j = fp_mk p (mget Z_ring d i j).
  Proof. apply (mget_dmap Z_ring (fp_ring p) (fp_mk p) eq_refl). Qed.

  Theorem calc_uct_fp d1 d2 d3 wt wt' rank tors tr rank' tors' tr' wtp rankp torsp trp :
    mwf d1 -> mwf d2 -> mwf d3 -> zero_prod Z_ring d1 d2 -> zero_prod Z_ring d2 d3 ->
    calculate Z_ring isu snf d1 d2 wt = Some (rank, tors, tr) ->
    calculate Z_ring isu snf d2 d3 wt' = Some (rank', tors', tr') ->
    calculate (fp_ring p) isup snfp (dred d1) (dred d2) wtp = Some (rankp, torsp, trp) ->
    rankp = (rank + length (filter (pdiv p) tors) + length (filter (pdiv p) tors'))%nat /\ torsp = [].
  Proof.
    intros W1 W2 W3 Z12 Z23 H1 H2 Hq.
    destruct (field_run Z_ring (fp_ring p) Lp Ip (fp_mk p) (SNF.fp_inv p) eq_refl (fp_mk_add p) (fp_mk_mul p)
                (fp_inv_r p Hp) isup isup_complete isup_sound snfp HCp d1 d2 wtp _ _ _ W1 W2 Z12 Hq)
      as [r1 [a [r2 [b [F1 [F2 [Hr Ht]]]]]]].
    destruct (calc_uct d1 d2 d3 wt wt' rank tors tr rank' tors' tr' W1 W2 W3 Z12 Z23 H1 H2 r1 a r2 b F1 F2) as [B E].
    split; [lia|exact Ht].
  Qed.
End CalcUct.

Lemma Z_isu_complete : forall a b : Z, rmul Z_ring a b = rone Z_ring -> SNF.Z_is_unit a = true.
Proof. cbn [rmul rone Z_ring]. intros a b H. apply Z_is_unit_iff. now apply Z.mul_eq_1 in H. Qed.

Lemma Z_isu_sound : forall a : Z, SNF.Z_is_unit a = true -> exists b : Z, rmul Z_ring a b = rone Z_ring.
Proof. intros a H. apply Z_is_unit_iff in H. exists a. destruct H as [-> | ->]; reflexivity. Qed.

Definition field_isu {F} (o : ring_ops F) (a : F) : bool := negb (ris_zero o a).

Section FieldUnits.
  Context {F : Type} (o : ring_ops F) (L : ring_laws o) (Hint : integral o) (finv : F -> F).
  Hypothesis finv_r : forall a, a <> rzero o -> rmul o a (finv a) = rone o.

  Add Ring RringFU : (ring_theory_of_laws o L).

  Lemma field_isu_complete : forall a b : F, rmul o a b = rone o -> field_isu o a = true.
  Proof.
    intros a b H. unfold field_isu, ris_zero. apply negb_true_iff. apply (reqb_false o L). intros E. subst a.
    apply (proj1 Hint). rewrite <- H. ring.
  Qed.

  Lemma field_isu_sound : forall a : F, field_isu o a = true -> exists b : F, rmul o a b = rone o.
  Proof.
    intros a H. exists (finv a). apply finv_r. unfold field_isu, ris_zero in H. apply negb_true_iff in H.
    now apply (reqb_false o L) in H.
  Qed.
End FieldUnits.

(* closed instance: the mirror of snf.rs over Z and over F_p *)
Section Mirror.
  Variable pre : option (SNF.preproc Z).
  Hypothesis Hpre : pre_ok (SNF.Zpre_dict pre).
  Variable p : Z.
  Hypothesis Hp : prime p.

  Let snfZ := snf_adapter (SNF.Zpre_dict pre).
  Let snfP := snf_adapter (SNF.fp_dict p).

  Lemma mirror_contract_Z : snf_contract Z_ring snfZ.
  Proof. exact (snf_adapter_contract (SNF.Zpre_dict pre) (Zpre_snf_laws pre) Hpre). Qed.

  Lemma mirror_contract_fp : snf_contract (fp_ring p) snfP.
  Proof. exact (snf_adapter_contract (SNF.fp_dict p) (fp_snf_laws p Hp) I). Qed.

  Theorem mirror_uct d1 d2 d3 wt wt' rank tors tr rank' tors' tr' :
    mwf d1 -> mwf d2 -> mwf d3 -> zero_prod Z_ring d1 d2 -> zero_prod Z_ring d2 d3 ->
    calculate Z_ring SNF.Z_is_unit snfZ d1 d2 wt = Some (rank, tors, tr) ->
    calculate Z_ring SNF.Z_is_unit snfZ d2 d3 wt' = Some (rank', tors', tr') ->
    (forall rp1 c1 rp2 c2,
      smith_form (fp_ring p) (nr d1) (nc d1) (redp p (mget Z_ring d1)) rp1 c1 ->
      smith_form (fp_ring p) (nr d2) (nr d1) (redp p (mget Z_ring d2)) rp2 c2 ->
      (rp1 + rp2 <= nr d1)%nat /\
      (nr d1 - rp1 - rp2 = rank + length (filter (pdiv p) tors) + length (filter (pdiv p) tors'))%nat) /\
    (forall wtp rankp torsp trp,
      calculate (fp_ring p) (field_isu (fp_ring p)) snfP (dred p d1) (dred p d2) wtp = Some (rankp, torsp, trp) ->
      rankp = (rank + length (filter (pdiv p) tors) + length (filter (pdiv p) tors'))%nat /\ torsp = []).
  Proof.
    intros W1 W2 W3 Z12 Z23 H1 H2. split.
    - exact (calc_uct SNF.Z_is_unit Z_isu_complete Z_isu_sound snfZ mirror_contract_Z p Hp
               d1 d2 d3 wt wt' rank tors tr rank' tors' tr' W1 W2 W3 Z12 Z23 H1 H2).
    - intros wtp rankp torsp trp Hq.
      exact (calc_uct_fp SNF.Z_is_unit Z_isu_complete Z_isu_sound snfZ mirror_contract_Z p Hp
               (field_isu (fp_ring p))
               (field_isu_complete (fp_ring p) (fp_ring_laws p Hp) (sl_integral (SNF.fp_dict p) (fp_snf_laws p Hp)))
               (field_isu_sound (fp_ring p) (fp_ring_laws p Hp) (SNF.fp_inv p) (fp_inv_r p Hp))
               snfP mirror_contract_fp
               d1 d2 d3 wt wt' rank tors tr rank' tors' tr' wtp rankp torsp trp W1 W2 W3 Z12 Z23 H1 H2 Hq).
  Qed.
End Mirror.

(* against Q: the rational Betti number is the integral free rank *)
Section CalcQ.
  Variable isu : Z -> bool.
  Hypothesis isu_complete : forall a b : Z, rmul Z_ring a b = rone Z_ring -> isu a = true.
  Hypothesis isu_sound : forall a : Z, isu a = true -> exists b : Z, rmul Z_ring a b = rone Z_ring.
  Variable snf : dmat Z -> bool -> bool -> bool -> bool -> option (snf_result Z).
  Hypothesis HC : snf_contract Z_ring snf.

  Variable isuq : Qc -> bool.
  Hypothesis isuq_complete : forall a b : Qc, rmul SNF.Q_ring a b = rone SNF.Q_ring -> isuq a = true.
  Hypothesis isuq_sound : forall a : Qc, isuq a = true -> exists b : Qc, rmul SNF.Q_ring a b = rone SNF.Q_ring.
  Variable snfq : dmat Qc -> bool -> bool -> bool -> bool -> option (snf_result Qc).
  Hypothesis HCq : snf_contract SNF.Q_ring snfq.

  Let Iq : integral SNF.Q_ring := sl_integral SNF.Q_dict Q_snf_laws.

  Definition dredq : dmat Z -> dmat Qc := dmap z2q.

  Lemma mget_dredq d i j : mget SNF.Q_ring (dredq d) i j = z2q (mget Z_ring d i j).
  Proof. apply (mget_dmap Z_ring SNF.Q_ring z2q eq_refl). Qed.

  Theorem calc_rank_Q d1 d2 wt rank tors tr :
    mwf d1 -> mwf d2 -> zero_prod Z_ring d1 d2 ->
    calculate Z_ring isu snf d1 d2 wt = Some (rank, tors, tr) ->
    (forall rq1 c1 rq2 c2,
       smith_form SNF.Q_ring (nr d1) (nc d1) (redq (mget Z_ring d1)) rq1 c1 ->
       smith_form SNF.Q_ring (nr d2) (nr d1) (redq (mget Z_ring d2)) rq2 c2 ->
       (rq1 + rq2 <= nr d1)%nat /\ (nr d1 - rq1 - rq2 = rank)%nat) /\
    (forall wtq rankq torsq trq,
       calculate SNF.Q_ring isuq snfq (dredq d1) (dredq d2) wtq = Some (rankq, torsq, trq) ->
       rankq = rank /\ torsq = []).
  Proof.
    intros W1 W2 Z12 H1.
    destruct (calculate_rank_tors Z_ring Z_ring_laws Z_integral isu isu_complete snf isu_sound
                d1 d2 wt rank tors tr HC W1 W2 Z12 H1)
      as [En [r1 [r2 [a [b [t [G1 [G2 [Hr _]]]]]]]]].
    rewrite <- En in G2.
    assert (A : forall rq1 c1 rq2 c2,
       smith_form SNF.Q_ring (nr d1) (nc d1) (redq (mget Z_ring d1)) rq1 c1 ->
       smith_form SNF.Q_ring (nr d2) (nr d1) (redq (mget Z_ring d2)) rq2 c2 ->
       (rq1 + rq2 <= nr d1)%nat /\ (nr d1 - rq1 - rq2 = rank)%nat).
    { intros rq1 c1 rq2 c2 F1 F2.
      rewrite (rank_over_Q _ _ _ _ _ _ _ G1 F1), (rank_over_Q _ _ _ _ _ _ _ G2 F2). lia. }
    split; [exact A|].
    intros wtq rankq torsq trq Hq.
    destruct (field_run Z_ring SNF.Q_ring Q_ring_laws Iq z2q Qcinv eq_refl z2q_add z2q_mul Q_inv_r
                isuq isuq_complete isuq_sound snfq HCq d1 d2 wtq _ _ _ W1 W2 Z12 Hq)
      as [q1 [aq [q2 [bq [F1 [F2 [Hrq Htq]]]]]]].
    destruct (A q1 aq q2 bq F1 F2) as [B E].
    split; [lia|exact Htq].
  Qed.
End CalcQ.

Section MirrorQ.
  Variable pre : option (SNF.preproc Z).
  Hypothesis Hpre : pre_ok (SNF.Zpre_dict pre).

  Theorem mirror_rank_Q d1 d2 wt rank tors tr :
    mwf d1 -> mwf d2 -> zero_prod Z_ring d1 d2 ->
    calculate Z_ring SNF.Z_is_unit (snf_adapter (SNF.Zpre_dict pre)) d1 d2 wt = Some (rank, tors, tr) ->
    (forall rq1 c1 rq2 c2,
       smith_form SNF.Q_ring (nr d1) (nc d1) (redq (mget Z_ring d1)) rq1 c1 ->
       smith_form SNF.Q_ring (nr d2) (nr d1) (redq (mget Z_ring d2)) rq2 c2 ->
       (rq1 + rq2 <= nr d1)%nat /\ (nr d1 - rq1 - rq2 = rank)%nat) /\
    (forall wtq rankq torsq trq,
       calculate SNF.Q_ring (field_isu SNF.Q_ring) (snf_adapter SNF.Q_dict) (dredq d1) (dredq d2) wtq
         = Some (rankq, torsq, trq) ->
       rankq = rank /\ torsq = []).
  Proof.
    exact (calc_rank_Q SNF.Z_is_unit Z_isu_complete Z_isu_sound (snf_adapter (SNF.Zpre_dict pre))
             (mirror_contract_Z pre Hpre)
             (field_isu SNF.Q_ring)
             (field_isu_complete SNF.Q_ring Q_ring_laws (sl_integral SNF.Q_dict Q_snf_laws))
             (field_isu_sound SNF.Q_ring Q_ring_laws Qcinv Q_inv_r)
             (snf_adapter SNF.Q_dict) (snf_adapter_contract SNF.Q_dict Q_snf_laws I) d1 d2 wt rank tors tr).
  Qed.
End MirrorQ.
