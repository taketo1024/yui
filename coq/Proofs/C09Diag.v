(* C09 - exit conditions, part 2: diag_normalize keeps the target diagonal with the same rank, and on
   exit every non-zero diagonal entry is normalised and divides the next one.  [snf_exit]: the exit clauses for a whole run of snf
   (C09Total.v puts them together with the invariant). *)
From Coq Require Import ZArith List Bool Arith Lia Ring.
Require Import Yui.Base.Ring Yui.Base.MatF Yui.Base.MatL Yui.Model.Snf Yui.Proofs.C09Mat Yui.Proofs.C09Inv
  Yui.Proofs.C09Run Yui.Proofs.C09Exit.
Import ListNotations.

Lemma ofold_seq_inv {S : Type} (I : nat -> S -> Prop) (f : nat -> S -> option S) len a s s' :
  (forall k x x', a <= k < a + len -> I k x -> f k x = Some x' -> I (Datatypes.S k) x') ->
  I a s -> ofold f (seq a len) s = Some s' -> I (a + len) s'.
Proof.
  revert a s. induction len as [|len IH]; intros a s Hf Hs H; cbn [seq ofold] in H.
  - inversion H; subst. now rewrite Nat.add_0_r.
  - destruct (f a s) as [s1|] eqn:E; [|discriminate].
    replace (a + Datatypes.S len) with (Datatypes.S a + len) by lia.
    apply (IH (Datatypes.S a) s1); [|apply (Hf a s s1); [lia|exact Hs|exact E]|exact H].
    intros k x x' Hk. apply Hf. lia.
Qed.

(* rewrite [x =? x] to true and every [x =? y] with x <> y provable by lia to false *)
Ltac simp_eqb :=
  repeat first [ rewrite Nat.eqb_refl
               | match goal with |- context [Nat.eqb ?x ?y] => rewrite (proj2 (Nat.eqb_neq x y)) by lia end ].

Section Diag.
  Context {R : Type} (D : euc_dict R) (SL : snf_laws D) (fp : fuel_policy R).
  Let o := ed_ring D.
  Let L : ring_laws o := sl_ring D SL.
  Add Ring Rring : (ring_theory_of_laws o L).

  Local Notation "0" := (rzero o).
  Local Notation "1" := (rone o).
  Local Infix "+" := (radd o).
  Local Infix "*" := (rmul o).
  Local Notation "- x" := (rneg o x).
  Local Notation get := (lget o).
  Implicit Types T : lmat R.

  Variables m n : nat.
  Local Notation DiagR := (DiagR D m n).

  Definition Chain (r : nat) T : Prop := forall k, S k < r -> exists q, get T (S k) (S k) = q * get T k k.
  Definition Normal (r : nat) T : Prop := forall k, k < r -> rnunit (ed_unit D) (get T k k) = 1.

  Lemma first_zero_diag_DiagR r T len a :
    DiagR r T -> Nat.add a len = Nat.min m n -> a <= r ->
    first_zero_diag D T (seq a len) (Nat.min m n) = r.
  Proof.
    intros (W & Hr & _ & Hnz & Hz). revert a. induction len as [|len IH]; intros a Ha Har; cbn [seq first_zero_diag].
    - lia.
    - destruct (ris_zero (ed_ring D) (mget D T a a)) eqn:Z.
      + apply (ris_zero_true o L) in Z. rewrite mget_lget in Z.
        destruct (Nat.lt_ge_cases a r); [|lia]. exfalso. now apply (Hnz a).
      + apply (ris_zero_false o L) in Z. rewrite mget_lget in Z.
        apply IH; [lia|]. destruct (Nat.lt_ge_cases a r); [lia|]. exfalso. apply Z, Hz; lia.
  Qed.

  Lemma diag_rank_DiagR r T : DiagR r T -> diag_rank D m n T = r.
  Proof. intros H. unfold diag_rank. apply (first_zero_diag_DiagR r T); [exact H|lia|lia]. Qed.

  Lemma DiagR_get r T k l :
    DiagR r T -> k < m -> l < n -> get T k l = if k =? l then get T k k else 0.
  Proof.
    intros (W & _ & H & _) Hk Hl. destruct (Nat.eqb_spec k l) as [->|]; [reflexivity|now apply H].
  Qed.

  Lemma divides_true x y : divides o (ed_euc D) x y = true -> x <> 0 /\ exists q, y = q * x.
  Proof.
    unfold divides. intros H. apply andb_true_iff in H. destruct H as [H1 H2].
    apply negb_true_iff in H1. apply (ris_zero_false o L) in H1. apply (ris_zero_true o L) in H2.
    split; [exact H1|]. now apply (sl_rem_zero D SL).
  Qed.

  Lemma DiagR_swap i r T :
    S i < r -> DiagR r T -> DiagR r (m_swap_cols i (S i) (m_swap_rows i (S i) T)).
  Proof.
    intros Hi HD. pose proof HD as (W & Hr & Hoff & Hnz & Hz). fold o in Hoff, Hnz, Hz.
    assert (W1 : wf m n (m_swap_rows i (S i) T)) by (apply wf_swap_rows; try assumption; lia).
    assert (HE : forall a b, a < m -> b < n ->
               get (m_swap_cols i (S i) (m_swap_rows i (S i) T)) a b = get T (swp i (S i) a) (swp i (S i) b)).
    { intros a b Ha Hb. rewrite (get_swap_cols D m n) by (try assumption; lia).
      rewrite (get_swap_rows D m n); try assumption; try lia. reflexivity. }
    split; [now apply wf_swap_cols|]. split; [exact Hr|]. split; [|split].
    - intros k l Hk Hl Hne. rewrite HE by assumption. apply Hoff; unfold swp; ncase0; lia.
    - intros k Hk. rewrite HE by lia. unfold swp.
      destruct (Nat.eqb_spec k i); [apply Hnz; lia|]. destruct (Nat.eqb_spec k (S i)); apply Hnz; lia.
    - intros k Hk1 Hk2. rewrite HE by lia. unfold swp.
      destruct (Nat.eqb_spec k i); [lia|]. destruct (Nat.eqb_spec k (S i)); [lia|]. now apply Hz.
  Qed.

  Lemma DiagR_gcd_step i r T a b d sx ty :
    S i < r -> DiagR r T -> d <> 0 ->
    get T i i = a * d -> get T (S i) (S i) = b * d -> sx * a + ty * b = 1 ->
    let T1 := m_left_elem D 1 1 (- (ty * b)) (sx * a) i (S i) T in
    let T2 := m_right_elem D sx ty (- b) a i (S i) T1 in
    DiagR r T2 /\ get T2 i i = d /\ get T2 (S i) (S i) = a * b * d /\
    (forall k, k < Nat.min m n -> k <> i -> k <> S i -> get T2 k k = get T k k).
  Proof.
    intros Hi HD Hd Hx Hy Hbz T1 T2. pose proof HD as (W & Hr & Hoff & Hnz & Hz). fold o in Hoff, Hnz, Hz.
    assert (Him : S i < m) by lia. assert (Hin : S i < n) by lia.
    assert (W1 : wf m n T1) by (apply wf_left_elem; try assumption; lia).
    assert (W2 : wf m n T2) by now apply wf_right_elem.
    assert (HE : forall r0 k, r0 < m -> k < n ->
      get T2 r0 k =
        if k =? S i then get T1 r0 i * - b + get T1 r0 (S i) * a
        else if k =? i then get T1 r0 i * sx + get T1 r0 (S i) * ty
        else get T1 r0 k).
    { intros r0 k H1 H2. now apply (get_right_elem D m n). }
    assert (HE1 : forall r0 k, r0 < m -> k < n ->
      get T1 r0 k =
        if r0 =? S i then get T i k * - (ty * b) + get T (S i) k * (sx * a)
        else if r0 =? i then get T i k * 1 + get T (S i) k * 1
        else get T r0 k).
    { intros r0 k H1 H2. apply (get_left_elem D m n); try assumption; lia. }
    assert (Ha0 : a <> 0). { intros E. apply (Hnz i); [lia|]. rewrite Hx, E. ring. }
    assert (Hb0 : b <> 0). { intros E. apply (Hnz (S i)); [lia|]. rewrite Hy, E. ring. }
    (* the diagonal as an abstract function: [Hg] must not contain an instance of its own left-hand
       side, otherwise [rewrite !Hg] does not terminate *)
    pose (dg := fun k => get T k k).
    assert (Hg : forall k l, k < m -> l < n -> get T k l = if k =? l then dg k else 0).
    { intros. unfold dg. now apply (DiagR_get r). }
    change (dg i = a * d) in Hx. change (dg (S i) = b * d) in Hy.
    change (forall k, k < r -> dg k <> 0) in Hnz.
    change (forall k, r <= k -> k < Nat.min m n -> dg k = 0) in Hz.
    clearbody dg.
    (* every entry of T2 at once; the two Bezout cases are the corners of the 2x2 block *)
    assert (HF : forall k l, k < m -> l < n ->
      get T2 k l = if k =? l then (if k =? i then d else if k =? S i then a * b * d else dg k) else 0).
    { intros k l Hk Hl. rewrite HE, !HE1, !Hg by lia.
      destruct (Nat.eq_dec l (S i)) as [->|Hl1]; [|destruct (Nat.eq_dec l i) as [->|Hl2]];
        (destruct (Nat.eq_dec k (S i)) as [->|Hk1]; [|destruct (Nat.eq_dec k i) as [->|Hk2]]);
        simp_eqb; try rewrite Hx; try rewrite Hy; fold o.
      all: try ring.
      - transitivity (a * b * d * (sx * a + ty * b)); [ring|]. rewrite Hbz. ring.
      - transitivity ((sx * a + ty * b) * d); [ring|]. rewrite Hbz. ring. }
    assert (Eii : get T2 i i = d) by (rewrite HF by lia; now simp_eqb).
    assert (Ess : get T2 (S i) (S i) = a * b * d) by (rewrite HF by lia; now simp_eqb).
    split; [|split; [exact Eii|split; [exact Ess|]]].
    2:{ intros k Hk Hk1 Hk2. rewrite HF, (Hg k k) by lia. now simp_eqb. }
    split; [exact W2|]. split; [exact Hr|]. split; [|split].
    - intros k l Hk Hl Hne. rewrite HF by assumption. now simp_eqb.
    - intros k Hk. fold o. destruct (Nat.eq_dec k i) as [->|Hk1]; [now rewrite Eii|].
      destruct (Nat.eq_dec k (S i)) as [->|Hk2].
      + rewrite Ess. intros E. destruct (mul_eq_0 D SL _ _ E) as [E1|E1]; [|contradiction].
        destruct (mul_eq_0 D SL _ _ E1); contradiction.
      + rewrite HF by lia. simp_eqb. apply Hnz; lia.
    - intros k Hk1 Hk2. fold o. rewrite HF by lia. simp_eqb. apply Hz; lia.
  Qed.

  (* one step: the rank-r diagonal shape is kept; `true` means nothing changed and x | y *)
  Lemma diag_step_DiagR i r s sb :
    S i < r -> DiagR r (st_t s) -> diag_normalize_step D i s = Some sb ->
    DiagR r (st_t (fst sb)) /\
    (snd sb = true -> fst sb = s /\ divides o (ed_euc D) (get (st_t s) i i) (get (st_t s) (S i) (S i)) = true).
  Proof.
    intros Hi HD. unfold diag_normalize_step. cbv zeta. rewrite !mget_lget. fold o.
    destruct (_ || _); [discriminate|].
    destruct (divides o (ed_euc D) (get (st_t s) i i) (get (st_t s) (S i) (S i))) eqn:D1.
    { intros E. inversion E; subst sb. cbn [fst snd]. split; [exact HD|]. intros _. now split. }
    destruct (divides o (ed_euc D) (get (st_t s) (S i) (S i)) (get (st_t s) i i)) eqn:D2.
    { intros E. inversion E; subst sb. cbn [fst snd s_swap_cols s_swap_rows st_t].
      split; [now apply DiagR_swap|discriminate]. }
    destruct (snf_gcdx D _ _) as [[[d sx] ty]|] eqn:G; cbn [sbind]; [|discriminate].
    intros E. inversion E; subst sb; clear E. cbn [fst snd s_right_elem s_left_elem st_t].
    split; [|discriminate].
    destruct (snf_gcdx_spec D SL _ _ _ _ _ G) as (Hd & Hbez & Hx & Hy & Hone). fold o in Hbez, Hx, Hy, Hone.
    apply (DiagR_gcd_step i r (st_t s) _ _ d sx ty Hi HD Hd Hx Hy Hone).
  Qed.

  Lemma diag_pass_DiagR r is s sb :
    (forall i, In i is -> S i < r) -> DiagR r (st_t s) -> diag_pass D is s = Some sb ->
    DiagR r (st_t (fst sb)) /\
    (snd sb = true -> fst sb = s /\
       forall i, In i is -> divides o (ed_euc D) (get (st_t s) i i) (get (st_t s) (S i) (S i)) = true).
  Proof.
    revert s. induction is as [|i is IH]; intros s Hin HD H; cbn [diag_pass] in H.
    - inversion H; subst sb. cbn [fst snd]. split; [exact HD|]. intros _. split; [reflexivity|]. intros i [].
    - destruct (diag_normalize_step D i s) as [sb1|] eqn:E; cbn [sbind] in H; [|discriminate].
      apply (diag_step_DiagR i r s sb1) in E; [|apply Hin; now left|exact HD]. destruct E as [HD1 Ht].
      destruct (snd sb1) eqn:B.
      + destruct (Ht eq_refl) as [Es Hdiv]. rewrite Es in H.
        apply (IH s) in H; [|intros; apply Hin; now right|exact HD]. destruct H as [HD2 Ht2].
        split; [exact HD2|]. intros B2. destruct (Ht2 B2) as [E2 Hall]. split; [exact E2|].
        intros k [<-|Hk]; [exact Hdiv|now apply Hall].
      + inversion H; subst sb. cbn [fst snd]. split; [exact HD1|discriminate].
  Qed.

  Lemma diag_outer_DiagR fuel r s s' :
    DiagR r (st_t s) -> diag_outer D fuel r s = Some s' ->
    DiagR r (st_t s') /\
    forall i, S i < r -> divides o (ed_euc D) (get (st_t s') i i) (get (st_t s') (S i) (S i)) = true.
  Proof.
    revert s. induction fuel as [|f IH]; intros s HD H; cbn [diag_outer] in H; [discriminate|].
    destruct (diag_pass D (seq 0 (r - 1)) s) as [sb|] eqn:E; cbn [sbind] in H; [|discriminate].
    apply (diag_pass_DiagR r) in E; [|intros i Hi; apply in_seq in Hi; lia|exact HD]. destruct E as [HD1 Ht].
    destruct (snd sb) eqn:B.
    - inversion H; subst s'. destruct (Ht eq_refl) as [-> Hall]. split; [exact HD|].
      intros i Hi. apply Hall. apply in_seq. lia.
    - now apply (IH (fst sb)).
  Qed.

  Lemma DiagR_mul_row k r v vi T :
    v * vi = 1 -> DiagR r T -> DiagR r (m_mul_row D k v T).
  Proof.
    intros Hv (W & Hr & Hoff & Hnz & Hz). fold o in Hoff, Hnz, Hz.
    assert (HE : forall a b, a < m -> b < n ->
               get (m_mul_row D k v T) a b = if a =? k then get T a b * v else get T a b).
    { intros. now apply (get_mul_row D m n). }
    split; [now apply wf_mul_row|]. split; [exact Hr|]. split; [|split].
    - intros a b Ha Hb Hne. fold o. rewrite HE, Hoff by assumption. destruct (a =? k); ring.
    - intros a Ha. fold o. rewrite HE by lia. destruct (a =? k); [|now apply Hnz].
      intros E. destruct (mul_eq_0 D SL _ _ E) as [E1|E1]; [now apply (Hnz a)|].
      now apply (unit_neq_0 D SL v vi).
    - intros a Ha1 Ha2. fold o. rewrite HE by lia. rewrite Hz by assumption. destruct (a =? k); ring.
  Qed.

  Lemma diag_unit_body_spec k r s s' :
    k < r -> DiagR r (st_t s) -> Chain r (st_t s) -> Normal k (st_t s) ->
    diag_unit_body D k s = Some s' ->
    DiagR r (st_t s') /\ Chain r (st_t s') /\ Normal (S k) (st_t s').
  Proof.
    intros Hk HD HC HN. unfold diag_unit_body. cbv zeta. rewrite mget_lget. fold o.
    set (v := rnunit (ed_unit D) (get (st_t s) k k)).
    destruct (ris_one o v) eqn:O.
    - intros E. injection E as <-. split; [exact HD|]. split; [exact HC|].
      intros l Hl. destruct (Nat.eq_dec l k) as [->|]; [|apply HN; lia].
      now apply (ris_one_true o L) in O.
    - destruct (sl_nunit_inv D SL (get (st_t s) k k)) as [vi Hvi]. fold v in Hvi.
      rewrite (s_mul_row_eq D k v vi s Hvi). intros E. inversion E; subst s'; clear E. cbn [st_t].
      pose proof (sl_inv D SL _ _ Hvi) as Hv. fold o in Hv.
      pose proof HD as (W & Hr & Hoff & Hnz & Hz). fold o in Hoff, Hnz, Hz.
      assert (HE : forall a, a < r -> get (m_mul_row D k v (st_t s)) a a =
                                     if a =? k then get (st_t s) a a * v else get (st_t s) a a).
      { intros a Ha. apply (get_mul_row D m n); try assumption; lia. }
      split; [now apply (DiagR_mul_row k r v vi)|]. split.
      + intros l Hl. destruct (HC l Hl) as [q Hq]. rewrite !HE by lia.
        destruct (Nat.eqb_spec (S l) k); destruct (Nat.eqb_spec l k); try lia.
        * exists (q * v). rewrite Hq. ring.
        * exists (q * vi). rewrite Hq.
          transitivity (q * get (st_t s) l l * (v * vi)); [rewrite Hv|]; ring.
        * exists q. exact Hq.
      + intros l Hl. rewrite HE by lia. destruct (Nat.eqb_spec l k) as [->|].
        * apply (sl_nunit_idem D SL).
        * apply HN. lia.
  Qed.

  Lemma diag_unit_loop r s s' :
    DiagR r (st_t s) -> Chain r (st_t s) -> ofold (diag_unit_body D) (seq 0 r) s = Some s' ->
    DiagR r (st_t s') /\ Chain r (st_t s') /\ Normal r (st_t s').
  Proof.
    intros HD HC H.
    apply (ofold_seq_inv (fun k x => DiagR r (st_t x) /\ Chain r (st_t x) /\ Normal k (st_t x))) in H.
    - exact H.
    - intros k x x' Hk (H1 & H2 & H3) E. apply (diag_unit_body_spec k r x x'); try assumption; lia.
    - split; [exact HD|]. split; [exact HC|]. intros k Hk. lia.
  Qed.

  Lemma diag_normalize_exit r s s' :
    DiagR r (st_t s) -> diag_normalize D fp m n s = Some s' ->
    DiagR r (st_t s') /\ Chain r (st_t s') /\ Normal r (st_t s').
  Proof.
    intros HD. unfold diag_normalize. cbv zeta. rewrite (diag_rank_DiagR r) by exact HD.
    destruct (Nat.eqb_spec r 0) as [->|Hr0].
    - intros E. inversion E; subst s'. split; [exact HD|]. split; intros k Hk; lia.
    - destruct (diag_outer D _ r s) as [s1|] eqn:E1; cbn [sbind]; [|discriminate].
      apply (diag_outer_DiagR _ r s s1 HD) in E1. destruct E1 as [HD1 Hdiv].
      apply diag_unit_loop; [exact HD1|].
      intros k Hk. destruct (divides_true _ _ (Hdiv k Hk)) as [_ Hq]. exact Hq.
  Qed.

  Lemma mat_is_zero_get T k l : mat_is_zero D T = true -> get T k l = 0.
  Proof.
    intros H. unfold mat_is_zero in H. rewrite forallb_forall in H. unfold lget.
    destruct (Nat.lt_ge_cases k (length T)) as [Hk|Hk].
    - specialize (H (nth k T []) (nth_In _ _ Hk)). rewrite forallb_forall in H.
      destruct (Nat.lt_ge_cases l (length (nth k T []))) as [Hl|Hl].
      + specialize (H _ (nth_In _ 0 Hl)). now apply (ris_zero_true o L) in H.
      + now apply nth_overflow.
    - rewrite (nth_overflow T) by assumption. now destruct l.
  Qed.

  Lemma process_exit (Hpre : pre_ok D) A fl s' :
    wf m n A -> process D fp m n (init_state D m n A fl) = Some s' ->
    exists r, DiagR r (st_t s') /\ Chain r (st_t s') /\ Normal r (st_t s').
  Proof.
    intros W. unfold process. destruct fl as [[[f1 f2] f3] f4].
    destruct (mat_is_zero D _) eqn:Z.
    - intros E. inversion E; subst s'. cbn [init_state st_t] in *. exists 0%nat.
      split; [|split; intros k Hk; lia].
      split; [exact W|]. split; [lia|]. split; [|split].
      + intros. now apply mat_is_zero_get.
      + intros k Hk. lia.
      + intros. now apply mat_is_zero_get.
    - destruct (preprocess D m n _) as [s1|] eqn:E1; cbn [sbind]; [|discriminate].
      destruct (eliminate_all D fp m n s1) as [s2|] eqn:E2; cbn [sbind]; [|discriminate].
      intros E3.
      assert (W1 : wf m n (st_t s1)).
      { apply (preprocess_init_inv D SL m n A f1 f2 f3 f4 Hpre s1 W) in E1.
        destruct E1 as (P & Pi & Q & Qi & WT & _). exact WT. }
      destruct (eliminate_all_diag D SL fp m n s1 s2 W1 E2) as [r HD].
      exists r. now apply (diag_normalize_exit r s2).
  Qed.
End Diag.

Section Result.
  Context {R : Type} (D : euc_dict R) (SL : snf_laws D) (Hpre : pre_ok D).
  Let o := ed_ring D.
  Local Notation get := (lget o).

  Theorem snf_exit (fp : fuel_policy R) m n (A : lmat R) fl res :
    wf m n A ->
    snf_with fp D (mk_dmat m n A) fl = Some res ->
    let T := dm_rows (sr_d res) in
    let r := snf_rank D res in
    r <= Nat.min m n /\
    (forall k l, k < m -> l < n -> k <> l -> get T k l = rzero o) /\
    (forall k, k < r -> get T k k <> rzero o) /\
    (forall k, r <= k -> k < Nat.min m n -> get T k k = rzero o) /\
    (forall k, k < r -> rnunit (ed_unit D) (get T k k) = rone o) /\
    (forall k, S k < r -> exists q, get T (S k) (S k) = rmul o q (get T k k)).
  Proof.
    intros W. unfold snf_with, snf_run. cbv zeta. cbn [dm_m dm_n dm_rows].
    destruct (process D fp m n _) as [s|] eqn:E; cbn [sbind]; [|discriminate].
    intros E1. inversion E1; subst res; clear E1.
    destruct (process_exit D SL fp m n Hpre A fl s W E) as (r & HD & HC & HN).
    unfold snf_rank. cbn [result_of sr_d dm_m dm_n dm_rows].
    rewrite (diag_rank_DiagR D SL m n r) by exact HD.
    destruct HD as (_ & Hr & Hoff & Hnz & Hz). repeat split; assumption.
  Qed.
End Result.
