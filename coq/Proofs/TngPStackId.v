(* Vertical composition, part 6: tools for the exact computation of Cob::stack on cylinders.
   * the `assert_eq!(b.len(), 1)` / `assert_eq!(t.len(), 1)` of Cob::stack never fire, on ALL inputs;
   * with an empty bottom pool the loop moves the top components to the result one by one;
   * soundness of take_stackable_comps for two predicates closed under links;
   * [stack_comps_compute]: the component stack_comps builds, from the data of the group;
   * cylinders: nbdr_comps, Euler number.
   Also: [stack_loop_run] / [round_of] (a run of the loop under an invariant), [flat_twice] / [flat_nodup] / [all_equal_one]
   (members of a pool with disjoint labels are distinct), [ids_of] (lists of identity cylinders). *)
From Coq Require Import List Arith Bool Lia ZArith Permutation Sorted.
Import ListNotations.
Require Import Yui.Model.Link Yui.Model.Tng Yui.Model.TngCob Yui.Model.TngStack.
Require Import Yui.Proofs.TngPBase Yui.Proofs.TngPSegs Yui.Proofs.TngPDeg Yui.Proofs.TngPJoin Yui.Proofs.TngPStep
  Yui.Proofs.TngPSeq Yui.Proofs.TngPConn Yui.Proofs.TngPMain Yui.Proofs.TngPCob Yui.Proofs.TngPCobDeg
  Yui.Proofs.TngPStackBase Yui.Proofs.TngPStackBfs Yui.Proofs.TngPStackWf Yui.Proofs.TngPStackDeg
  Yui.Proofs.TngPStackAssoc.

Lemma pull_nil : forall sel cs q, pull sel cs [] q = ([], q).
Proof. intros sel. induction cs as [|m r IH]; intros q; cbn [pull find_index]; auto. Qed.

Lemma take_stackable_bot_nil : forall t r, take_stackable [] (t :: r) = Some ([], r, [], [t]).
Proof. intros t r. cbn [take_stackable bfs is_nil andb drain app]. rewrite pull_nil. reflexivity. Qed.

Lemma stack_loop_bot_nil : forall fuel top acc, length top <= fuel -> stack_loop fuel [] top acc = Some (Some (acc ++ top)).
Proof.
  induction fuel as [|f IH]; intros top acc Hl.
  - destruct top; [|cbn in Hl; lia]. cbn. rewrite app_nil_r. reflexivity.
  - destruct top as [|t r]; [cbn; rewrite app_nil_r; reflexivity|].
    cbn [stack_loop is_nil andb]. rewrite take_stackable_bot_nil. cbn [is_nil].
    rewrite IH by (cbn in Hl; lia). rewrite <- app_assoc. reflexivity.
Qed.

(* A run of the loop of Cob::stack that is known in advance: an invariant of the two pools that every round keeps,
   appending a component x with  R bot top = x :: R bot' top'  up to order.  [round_of]: what a round appends for a
   group with a non-empty bottom half. *)
Definition round_of (gb gt : list cobcomp) (x : cobcomp) : Prop :=
  if is_nil gt then gb = [x] else stack_comps gb gt = Some x.

Lemma stack_loop_run : forall (Inv : list cobcomp -> list cobcomp -> Prop) (R : list cobcomp -> list cobcomp -> list cobcomp),
  (forall top, Inv [] top -> Permutation top (R [] top)) ->
  (forall b0 bot1 top bot' top' gb gt, Inv (b0 :: bot1) top -> take_stackable (b0 :: bot1) top = Some (bot', top', gb, gt) ->
     exists x, round_of gb gt x /\ Inv bot' top' /\ Permutation (R (b0 :: bot1) top) (x :: R bot' top')) ->
  forall fuel bot top acc, Inv bot top -> length bot + length top <= fuel ->
  exists out, stack_loop fuel bot top acc = Some (Some out) /\ Permutation out (acc ++ R bot top).
Proof.
  intros Inv R R0 RS. induction fuel as [|f IH]; intros bot top acc I Hl; destruct bot as [|b0 bot1].
  1, 3: exists (acc ++ top); split; [apply stack_loop_bot_nil; exact Hl|apply Permutation_app_head, R0, I].
  - cbn in Hl. lia.
  - cbn [stack_loop is_nil andb].
    destruct (take_stackable (b0 :: bot1) top) as [[[[bot' top'] gb] gt]|] eqn:Et; [|exfalso; eapply take_stackable_some; eauto].
    destruct (RS _ _ _ _ _ _ _ I Et) as (x & Rd & I' & PR).
    destruct (take_stackable_perm _ _ _ _ _ _ Et) as (Pa & Pb & _ & Hhd & _). destruct (Hhd _ _ eq_refl) as (more & ->).
    destruct (IH bot' top' (acc ++ [x]) I') as (out & Eo & Po).
    { apply Permutation_length in Pa, Pb. rewrite app_length in Pa, Pb. cbn [length] in *. lia. }
    exists out. split.
    + unfold round_of in Rd. destruct (is_nil gt); [injection Rd as <- ->|cbn [is_nil]; rewrite Rd]; exact Eo.
    + eapply perm_trans; [exact Po|]. rewrite <- app_assoc. apply Permutation_app_head, Permutation_sym, PR.
Qed.

Lemma drain_nil_q : forall other own pool qo res, drain other own [] pool qo res = (pool, qo, res).
Proof. reflexivity. Qed.

Lemma bfs_no_top : forall fuel bot top qb resb bot' top' gb,
  bfs fuel bot top qb [] resb [] = Some (bot', top', gb, []) -> gb = resb ++ qb.
Proof.
  intros [|f] bot top qb resb bot' top' gb; cbn [bfs].
  - destruct qb; cbn [is_nil andb]; [|discriminate]. intros E. inversion E. rewrite app_nil_r. reflexivity.
  - destruct qb as [|b qb]; cbn [is_nil andb]; [intros E; inversion E; rewrite app_nil_r; reflexivity|].
    destruct (drain csrc ctgt (b :: qb) top [] resb) as [[top1 qt1] resb1] eqn:E1.
    destruct (drain ctgt csrc qt1 bot [] []) as [[bot1 qb1] rest1] eqn:E2. intros E.
    destruct (drain_spec _ _ _ _ _ _ _ _ _ E1) as (p1 & -> & -> & Hp1 & _). cbn [app] in *.
    destruct (drain_spec _ _ _ _ _ _ _ _ _ E2) as (p2 & Eq & -> & Hp2 & _). cbn [app] in *. subst qb1.
    destruct (bfs_perm _ _ _ _ _ _ _ _ _ _ _ E) as (_ & _ & _ & (m2 & M2)). cbn [app] in M2.
    destruct p1; [|discriminate]. cbn [drain] in E2. inversion E2; subst.
    destruct f; cbn [bfs is_nil andb] in E; inversion E; reflexivity.
Qed.

Theorem take_stackable_no_top : forall bot top bot' top' gb, take_stackable bot top = Some (bot', top', gb, []) ->
  (bot = [] /\ top = [] /\ gb = []) \/ exists b r, bot = b :: r /\ gb = [b].
Proof.
  intros [|b bot] [|t top] bot' top' gb.
  - cbn [take_stackable]. intros E. inversion E. left. auto.
  - rewrite take_stackable_bot_nil. discriminate.
  - cbn [take_stackable]. intros E. right. exists b, bot. split; auto. apply bfs_no_top in E. exact E.
  - cbn [take_stackable]. intros E. right. exists b, bot. split; auto. apply bfs_no_top in E. exact E.
Qed.

Theorem take_stackable_no_bot : forall bot top bot' top' gt, take_stackable bot top = Some (bot', top', [], gt) ->
  bot = [] /\ (top = [] /\ gt = [] \/ exists t r, top = t :: r /\ gt = [t]).
Proof.
  intros bot top bot' top' gt E. destruct (take_stackable_perm _ _ _ _ _ _ E) as (_ & _ & _ & Hhd & _).
  destruct bot as [|b r]; [|destruct (Hhd b r eq_refl) as (more & Hm); discriminate]. split; auto.
  destruct top as [|t r]; [cbn in E; inversion E; auto|]. rewrite take_stackable_bot_nil in E. inversion E.
  right. exists t, r. subst. auto.
Qed.

(* Cob::stack panics only inside stack_comps *)
Theorem stack_loop_panics_in_stack_comps : forall fuel bot top acc, stack_loop fuel bot top acc = Some None ->
  exists gb gt, gb <> [] /\ gt <> [] /\ stack_comps gb gt = None.
Proof.
  induction fuel as [|f IH]; intros bot top acc; cbn [stack_loop].
  - destruct (is_nil bot && is_nil top); discriminate.
  - destruct (is_nil bot && is_nil top) eqn:En; [discriminate|].
    destruct (take_stackable bot top) as [[[[bot' top'] gb] gt]|] eqn:Et; [|discriminate].
    destruct (is_nil gt) eqn:Ngt.
    + destruct gt; [|discriminate]. destruct (take_stackable_no_top _ _ _ _ _ Et) as [(-> & -> & _)|(b & r & -> & ->)];
        [discriminate|]. apply IH.
    + destruct (is_nil gb) eqn:Ngb.
      * destruct gb; [|discriminate].
        destruct (take_stackable_no_bot _ _ _ _ _ Et) as (_ & [[_ ->]|(t & r & _ & ->)]); [discriminate|]. apply IH.
      * destruct (stack_comps gb gt) eqn:Ec; [apply IH|]. intros _. exists gb, gt.
        apply is_nil_false in Ngt, Ngb. auto.
Qed.

Theorem take_stackable_sound : forall (Pb Pt : cobcomp -> Prop) bot top bot' top' gb gt,
  take_stackable bot top = Some (bot', top', gb, gt) ->
  (forall b t m, Pb b -> In t top -> In m (ctgt b) -> hit csrc m t = true -> Pt t) ->
  (forall t b m, Pt t -> In b bot -> In m (csrc t) -> hit ctgt m b = true -> Pb b) ->
  (forall b r, bot = b :: r -> Pb b) -> (forall t r, bot = [] -> top = t :: r -> Pt t) ->
  Forall Pb gb /\ Forall Pt gt.
Proof.
  intros Pb Pt [|b bot] top bot' top' gb gt; [destruct top as [|t top]|]; cbn [take_stackable]; intros E L1 L2 Hb Ht.
  - inversion E; subst. split; constructor.
  - apply (bfs_sound Pb Pt _ _ _ _ _ _ _ _ _ _ _ E).
    + intros b t' m Hpb Hin. apply L1; auto. right. exact Hin.
    + intros t' b m _ [].
    + constructor.
    + constructor; [apply (Ht t top); reflexivity|constructor].
  - apply (bfs_sound Pb Pt _ _ _ _ _ _ _ _ _ _ _ E).
    + intros b' t' m Hpb Hin. apply L1; auto.
    + intros t' b' m Hpt Hin. apply L2; auto. right. exact Hin.
    + constructor; [apply (Hb b bot); reflexivity|constructor].
    + constructor.
Qed.

Lemma stack_comps_compute : forall gb gt x0 x1 s t nb g,
  gb <> [] -> gt <> [] -> euls gb = Some x0 -> euls gt = Some x1 ->
  tng_fold_connect (map csrc gb) = Some s -> tng_fold_connect (map ctgt gt) = Some t ->
  (forall dx dy, cc_nbdr (mkCC s t 0 dx dy) = Some nb) ->
  (2 - (x0 + x1 + Z.of_nat nb) + Z.of_nat (arcs_of ctgt gb) = 2 * Z.of_nat g)%Z ->
  stack_comps gb gt = Some (mkCC s t g (sum_nat (map cdx gb) + sum_nat (map cdx gt)) (sum_nat (map cdy gb) + sum_nat (map cdy gt))).
Proof.
  intros gb gt x0 x1 s t nb g Nb Nt E0 E1 Es Et En Eg. unfold stack_comps.
  apply is_nil_false in Nb, Nt. rewrite Nb, Nt. cbn [orb]. unfold euls in E0, E1. rewrite E0, E1, Es, Et, En.
  fold (arcs_of ctgt gb). rewrite Eg.
  assert ((2 * Z.of_nat g <? 0)%Z = false) as -> by (apply Z.ltb_ge; lia).
  assert (Z.even (2 * Z.of_nat g) = true) as -> by (rewrite Z.even_mul; reflexivity). cbn [negb].
  f_equal. f_equal. rewrite Z.mul_comm, Z.div_mul by lia. apply Nat2Z.id.
Qed.

Lemma inv_nodup_paths : forall t, tng_inv t -> NoDup t.
Proof.
  induction t as [|c r IH]; intros Hi; [constructor|]. apply inv_cons in Hi. destruct Hi as (Sc & Ir & Hd).
  constructor; [|apply IH; exact Ir]. intros Hc. pose proof (simple_ne c Sc) as Hne.
  destruct (pedges c) as [|v l] eqn:E; [contradiction|]. apply (Hd v); [left; reflexivity|].
  apply in_verts. exists c. split; auto. rewrite E. left. reflexivity.
Qed.

Lemma flat_twice : forall sel (l1 l2 : list cobcomp) x, tng_inv (flat sel (l1 ++ l2)) -> In x l1 -> In x l2 -> sel x = [].
Proof.
  intros sel l1 l2 x Hi H1 H2. rewrite flat_app in Hi. apply inv_app in Hi. destruct Hi as (I1 & _ & Hd).
  destruct (sel x) as [|m r] eqn:E; [reflexivity|exfalso].
  assert (Hm1 : In m (flat sel l1)) by (eapply flat_in; [exact H1|rewrite E; left; reflexivity]).
  assert (Hm2 : In m (flat sel l2)) by (eapply flat_in; [exact H2|rewrite E; left; reflexivity]).
  pose proof (simple_ne m (inv_simple _ _ I1 Hm1)) as Hne. destruct (pedges m) as [|v l] eqn:Ev; [contradiction|].
  apply (Hd v); apply in_verts; exists m; (split; [assumption|rewrite Ev; left; reflexivity]).
Qed.

Lemma flat_nodup : forall sel (l : list cobcomp), tng_inv (flat sel l) -> (forall x, In x l -> sel x <> []) -> NoDup l.
Proof.
  intros sel. induction l as [|x r IH]; intros Hi Hne; [constructor|]. constructor.
  - intros Hx. apply (Hne x (or_introl eq_refl)). apply (flat_twice sel [x] r x); auto. left. reflexivity.
  - apply IH; [|intros y Hy; apply Hne; right; exact Hy]. unfold flat in *. cbn [flat_map] in Hi. apply inv_app in Hi. tauto.
Qed.

(* all components of a group are one given component: at most one of them *)
Lemma all_equal_one : forall sel (g : list cobcomp) x, tng_inv (flat sel g) -> Forall (eq x) g -> sel x <> [] -> In x g -> g = [x].
Proof.
  intros sel g x Hi Hf Hne Hin. rewrite Forall_forall in Hf.
  destruct g as [|y [|z r]]; [contradiction| |].
  - rewrite (Hf y (or_introl eq_refl)). reflexivity.
  - exfalso. apply Hne. apply (flat_twice sel [y] (z :: r) x); auto.
    + rewrite (Hf y); left; reflexivity.
    + rewrite (Hf z (or_intror (or_introl eq_refl))). left. reflexivity.
Qed.

Definition cyl (p q : path) : cobcomp := mkCC [p] [q] 0 0 0.

Lemma cyl_nbdr : forall p q g dx dy, pclosed p = pclosed q -> (pclosed p = false -> p_connectable q p = true) ->
  cc_nbdr (mkCC [p] [q] g dx dy) = Some (if pclosed p then 2 else 1).
Proof.
  intros p q g dx dy Hc Hcon. unfold cc_nbdr, nbdr_fuel, arc_indices. cbn [csrc ctgt length seq filter nth].
  unfold p_is_arc. rewrite <- Hc. destruct (pclosed p) eqn:Hp; cbn [negb length Nat.eqb].
  - reflexivity.
  - cbn [nb_outer nb_walk length remove_idx filter find nth csrc ctgt Nat.eqb negb]. rewrite (Hcon eq_refl).
    cbn [find remove_idx filter Nat.eqb negb nb_outer]. reflexivity.
Qed.

Lemma arc_self_connectable : forall m, pclosed m = false -> p_connectable m m = true.
Proof. intros m Hc. apply (shares_end_connectable m m (hd 0 (pedges m))); auto; left; reflexivity. Qed.

Lemma id_euler : forall m, cc_euler (cc_id m) = Some (Z.of_nat (tng_euler_num [m])).
Proof.
  intros m. unfold cc_euler, cc_id, cc_plain.
  rewrite (cyl_nbdr m m 0 0 0 eq_refl (arc_self_connectable m)).
  unfold tng_euler_num, p_is_arc. cbn [cgenus filter]. destruct (pclosed m); reflexivity.
Qed.

Definition ids_of (l : list path) : list cobcomp := map cc_id l.

Lemma flat_src_ids : forall l, flat csrc (ids_of l) = l.
Proof. induction l as [|m r IH]; [reflexivity|]. unfold flat, ids_of in *. cbn. rewrite IH. reflexivity. Qed.
Lemma flat_tgt_ids : forall l, flat ctgt (ids_of l) = l.
Proof. induction l as [|m r IH]; [reflexivity|]. unfold flat, ids_of in *. cbn. rewrite IH. reflexivity. Qed.

Lemma ids_data : forall l,
  euls (ids_of l) = Some (Z.of_nat (tng_euler_num l)) /\ arcs_of ctgt (ids_of l) = tng_euler_num l /\
  sum_nat (map cdx (ids_of l)) = 0 /\ sum_nat (map cdy (ids_of l)) = 0.
Proof.
  induction l as [|m r IH]; [repeat split; reflexivity|]. destruct IH as (E & A & X & Y).
  assert (En : tng_euler_num (m :: r) = tng_euler_num [m] + tng_euler_num r) by (apply (euler_num_app [m] r)).
  repeat split.
  - unfold euls, ids_of in *. cbn [map sum_opt]. rewrite (id_euler m), E, En. f_equal. lia.
  - unfold arcs_of, ids_of in *. cbn [map sum_nat fold_right ctgt cc_id cc_plain]. fold (sum_nat (map (fun c => tng_euler_num (ctgt c)) (map cc_id r))).
    rewrite A, En. reflexivity.
  - unfold ids_of in *. cbn [map sum_nat fold_right cdx cc_id cc_plain]. exact X.
  - unfold ids_of in *. cbn [map sum_nat fold_right cdy cc_id cc_plain]. exact Y.
Qed.

Lemma perm_ids_data : forall g l, Permutation g (ids_of l) ->
  euls g = Some (Z.of_nat (tng_euler_num l)) /\ arcs_of ctgt g = tng_euler_num l /\
  sum_nat (map cdx g) = 0 /\ sum_nat (map cdy g) = 0 /\ Permutation (flat csrc g) l /\ Permutation (flat ctgt g) l.
Proof.
  intros g l Hp. destruct (ids_data l) as (E & A & X & Y).
  split; [rewrite (euls_perm _ _ Hp); exact E|]. split; [rewrite (arcs_of_perm _ _ _ Hp); exact A|].
  split; [rewrite (sum_nat_perm _ _ (Permutation_map cdx Hp)); exact X|].
  split; [rewrite (sum_nat_perm _ _ (Permutation_map cdy Hp)); exact Y|].
  split; [rewrite <- (flat_src_ids l); apply flat_perm; exact Hp|rewrite <- (flat_tgt_ids l); apply flat_perm; exact Hp].
Qed.
