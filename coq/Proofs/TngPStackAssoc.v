(* Vertical composition, part 5: the target tangles and the dots of Cob::stack, the well-formedness of the result, and
   the associativity of Cob::stack on the numeric data (degree, Euler number, dots, source and target tangles). *)
From Coq Require Import List Arith Bool Lia ZArith Permutation Sorted.
Import ListNotations.
Require Import Yui.Model.Link Yui.Model.Tng Yui.Model.TngCob Yui.Model.TngStack.
Require Import Yui.Base.ListFacts.
Require Import Yui.Proofs.TngPBase Yui.Proofs.TngPSegs Yui.Proofs.TngPDeg Yui.Proofs.TngPJoin Yui.Proofs.TngPStep
  Yui.Proofs.TngPSeq Yui.Proofs.TngPConn Yui.Proofs.TngPMain Yui.Proofs.TngPCob Yui.Proofs.TngPCobDeg
  Yui.Proofs.TngPStackBase Yui.Proofs.TngPStackBfs Yui.Proofs.TngPStackWf Yui.Proofs.TngPStackDeg.

Lemma sum_nat_perm : forall a b, Permutation a b -> sum_nat a = sum_nat b.
Proof. exact Permutation_list_sum. Qed.
Lemma sum_nat_app : forall a b, sum_nat (a ++ b) = sum_nat a + sum_nat b.
Proof. induction a as [|x a IH]; intros b; cbn; [reflexivity|]. unfold sum_nat in *. rewrite IH. lia. Qed.
Lemma dots_of_app : forall a b, dots_of (a ++ b) = dots_of a + dots_of b.
Proof. intros. unfold dots_of. rewrite !map_app, !sum_nat_app. lia. Qed.
Lemma dots_of_perm : forall a b, Permutation a b -> dots_of a = dots_of b.
Proof.
  intros a b Hp. unfold dots_of. rewrite (sum_nat_perm _ _ (Permutation_map cdx Hp)), (sum_nat_perm _ _ (Permutation_map cdy Hp)).
  reflexivity.
Qed.
Lemma dots_of_single : forall x, dots_of [x] = cdx x + cdy x.
Proof. intros. unfold dots_of. cbn. lia. Qed.

Lemma stack_loop_tgt : forall fuel bot top acc out, stack_wf bot top -> tng_inv (flat ctgt top) ->
  stack_loop fuel bot top acc = Some (Some out) ->
  Permutation (flat ctgt out) (flat ctgt acc ++ flat ctgt top) /\
  dots_of out = dots_of acc + dots_of bot + dots_of top.
Proof.
  intros fuel bot top acc out W I4 E. revert fuel bot top acc out W E I4.
  refine (stack_loop_wf_ind _ _ _).
  - intros acc _. cbn. rewrite app_nil_r. split; [apply Permutation_refl|unfold dots_of; cbn; lia].
  - intros bot top bot' top' gb gt x acc out W Pa Pb Cl G IH I4.
    destruct (flat_sub ctgt top top' gt Pb I4) as [I4' I4g]. destruct (IH I4') as (P & D).
    assert (Hx : Permutation (ctgt x) (flat ctgt gt) /\ cdx x + cdy x = dots_of gb + dots_of gt).
    { destruct G as [(-> & -> & Hx)|[(-> & -> & _)|(_ & _ & Ec)]].
      - rewrite Hx, dots_of_single. split; [constructor|unfold dots_of; cbn; lia].
      - unfold flat. cbn [flat_map]. rewrite app_nil_r, dots_of_single. split; [apply Permutation_refl|unfold dots_of; cbn; lia].
      - destruct (stack_comps_spec _ _ _ Ec) as (_ & _ & x0 & x1 & _ & _ & _ & _ & Etg & Ex & Ey).
        destruct (fold_connect_disjoint (map ctgt gt)) as (r & Er & Pr & _); [rewrite concat_map_flat; exact I4g|].
        rewrite Etg in Er. inversion Er; subst r. rewrite concat_map_flat in Pr. split; [exact Pr|unfold dots_of; lia]. }
    destruct Hx as [Px Dx]. split.
    + eapply perm_trans; [exact P|]. rewrite flat_app. unfold flat at 2. cbn [flat_map]. rewrite app_nil_r.
      eapply perm_trans; [|apply Permutation_app_head, Permutation_sym, flat_perm; exact Pb].
      eapply perm_trans; [apply Permutation_app_tail; apply Permutation_app_head; exact Px|]. rewrite flat_app. perm_app.
    + rewrite D, dots_of_app, dots_of_single, (dots_of_perm _ _ Pa), (dots_of_perm _ _ Pb), !dots_of_app. lia.
Qed.

Theorem cob_stack_tgt : forall a b c, stack_wf a b -> tng_inv (flat ctgt b) -> cob_stack a b = Some c ->
  Permutation (flat ctgt c) (flat ctgt b) /\ dots_of c = dots_of a + dots_of b.
Proof.
  intros a b c W I4. unfold cob_stack, cob_stack_fuel.
  destruct (is_nil a) eqn:Na.
  - destruct a; [|discriminate]. intros E. inversion E; subst c. split; [apply Permutation_refl|unfold dots_of; cbn; lia].
  - destruct (is_nil b) eqn:Nb.
    + destruct b; [|discriminate]. intros E. inversion E; subst c.
      assert (Ha : flat ctgt a = []).
      { destruct (flat ctgt a) as [|m r] eqn:Em; [reflexivity|exfalso].
        destruct (wf_match_bt _ _ W m) as (m' & [] & _). rewrite Em. left. reflexivity. }
      rewrite Ha. split; [constructor|unfold dots_of; cbn; lia].
    + destruct (stack_loop (length a + length b) a b []) as [[out|]|] eqn:El; try discriminate. intros Es.
      destruct (stack_loop_tgt _ _ _ _ _ W I4 El) as (P & D).
      pose proof (cob_sort_perm _ _ Es) as Hp. split.
      * eapply perm_trans; [apply flat_perm; exact Hp|]. exact P.
      * rewrite (dots_of_perm _ _ Hp), D. unfold dots_of at 1. cbn. lia.
Qed.

(* well-formedness only looks at the three tangles up to order *)
Lemma stack_wf_flat : forall a b a' b', stack_wf a b -> tng_inv (flat csrc a') ->
  Permutation (flat ctgt a') (flat ctgt a) -> Permutation (flat csrc b') (flat csrc b) -> stack_wf a' b'.
Proof.
  intros a b a' b' W Is Pt Ps. constructor.
  - exact Is.
  - eapply inv_perm; [apply Permutation_sym; exact Pt|apply (wf_mid_b _ _ W)].
  - eapply inv_perm; [apply Permutation_sym; exact Ps|apply (wf_mid_t _ _ W)].
  - intros m Hm. destruct (wf_match_bt _ _ W m (proj1 (perm_in_iff _ _ m Pt) Hm)) as (m' & Hm' & He).
    exists m'. split; [apply (perm_in_iff _ _ m' Ps); exact Hm'|exact He].
  - intros m' Hm'. destruct (wf_match_tb _ _ W m' (proj1 (perm_in_iff _ _ m' Ps) Hm')) as (m & Hm & He).
    exists m. split; [apply (perm_in_iff _ _ m Pt); exact Hm|exact He].
Qed.

Lemma wf_stack_l : forall a b c ab, stack_wf a b -> stack_wf b c -> cob_stack a b = Some ab -> stack_wf ab c.
Proof.
  intros a b c ab Wab Wbc E.
  destruct (cob_stack_deg _ _ _ Wab E) as (_ & _ & Ps).
  destruct (cob_stack_tgt _ _ _ Wab (wf_mid_b _ _ Wbc) E) as (Pt & _).
  apply (stack_wf_flat b c ab c Wbc); [|exact Pt|apply Permutation_refl].
  eapply inv_perm; [apply Permutation_sym; exact Ps|apply (wf_src _ _ Wab)].
Qed.

Lemma wf_stack_r : forall a b c bc, stack_wf a b -> stack_wf b c -> cob_stack b c = Some bc -> stack_wf a bc.
Proof.
  intros a b c bc Wab Wbc E. destruct (cob_stack_deg _ _ _ Wbc E) as (_ & _ & Ps).
  exact (stack_wf_flat a b a bc Wab (wf_src _ _ Wab) (Permutation_refl _) Ps).
Qed.

Theorem cob_stack_assoc_numeric : forall a b c ab bc l r,
  stack_wf a b -> stack_wf b c -> tng_inv (flat ctgt c) ->
  cob_stack a b = Some ab -> cob_stack b c = Some bc -> cob_stack ab c = Some l -> cob_stack a bc = Some r ->
  cob_deg l = cob_deg r /\ cob_euler l = cob_euler r /\ dots_of l = dots_of r /\
  Permutation (flat csrc l) (flat csrc r) /\ Permutation (flat ctgt l) (flat ctgt r) /\
  cob_deg l = oadd (cob_deg a) (oadd (cob_deg b) (cob_deg c)).
Proof.
  intros a b c ab bc l r Wab Wbc I4 Eab Ebc El Er.
  pose proof (wf_stack_l _ _ _ _ Wab Wbc Eab) as Wl. pose proof (wf_stack_r _ _ _ _ Wab Wbc Ebc) as Wr.
  destruct (cob_stack_deg _ _ _ Wab Eab) as (D1 & U1 & S1). destruct (cob_stack_deg _ _ _ Wbc Ebc) as (D2 & U2 & S2).
  destruct (cob_stack_deg _ _ _ Wl El) as (D3 & U3 & S3). destruct (cob_stack_deg _ _ _ Wr Er) as (D4 & U4 & S4).
  destruct (cob_stack_tgt _ _ _ Wab (wf_mid_b _ _ Wbc) Eab) as (T1 & N1).
  destruct (cob_stack_tgt _ _ _ Wbc I4 Ebc) as (T2 & N2).
  destruct (cob_stack_tgt _ _ _ Wl I4 El) as (T3 & N3).
  assert (I4' : tng_inv (flat ctgt bc)) by (eapply inv_perm; [apply Permutation_sym; exact T2|exact I4]).
  destruct (cob_stack_tgt _ _ _ Wr I4' Er) as (T4 & N4).
  assert (A : tng_euler_num (flat ctgt ab) = tng_euler_num (flat ctgt b)) by (apply euler_num_perm; exact T1).
  split; [|split; [|split; [|split; [|split]]]].
  - rewrite D3, D4, D1, D2. apply oadd_assoc.
  - rewrite U3, U4, U1, U2, A. unfold omap_sub.
    destruct (cob_euler a), (cob_euler b), (cob_euler c); cbn; try reflexivity. f_equal. lia.
  - lia.
  - eapply perm_trans; [exact S3|]. eapply perm_trans; [exact S1|]. apply Permutation_sym. exact S4.
  - eapply perm_trans; [exact T3|]. apply Permutation_sym. eapply perm_trans; [exact T4|]. exact T2.
  - rewrite D3, D1. apply oadd_assoc.
Qed.
