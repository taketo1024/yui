(* C06, the value of the s-type invariant: a definition-level oracle [ss_spec] (Model/KhSs.v) for
   `ss_invariant(l, c, reduced)` of yui-khovanov/src/kh/ss.rs and what is proved about it.

   [ss_spec l c red] works on the cube-of-resolutions complex of the diagram (h = c, t = 0 over Z): the
   dense matrices d^{-1}, d^0 around cube degree n_- (homological degree 0), homology coordinates of H^0
   from the mirror of the homology calculator (C07) with the mirror of snf.rs (C09) as Smith routine,
   Lee's canonical chains of Model/KhLee.v, their free coordinates, d = [div_c] = the largest k with
   c^k | every free coordinate, and ss = 2 d + w - r + 1 (w writhe from the Link model, r the number of
   circles of the Seifert state).  The correspondence run compares the integer `ss_invariant` returns
   (i64 and BigInt, c = 2, 3, reduced and unreduced) with [ss_spec] exactly.

   Proved here, for ALL inputs:
     * [val_c] / [div_c] are exact (the fuel suffices): c^d divides every coordinate, c^(d+1) does not,
       None iff the vector is zero; the value is characterised by that property;
     * [div_c] is invariant under every integer change of coordinates with an integer left inverse;
     * whenever [ss_setup] returns, d^0 d^{-1} = 0, the canonical chains are cycles, rank H^0 is the
       1 / 2 the library asserts and equals dim C^0 - rank d^{-1} - rank d^0, and the coordinates used are
       homology coordinates in the sense of C07 ([gens_ok] and [complete_ok]);
     * the d read off by [ss_spec] is the same in EVERY coordinate system of H^0 with these two
       properties (so it does not depend on the route the Smith normal forms take);
     * [ss_spec] = 2 d + w - r + 1 with d characterised by divisibility of the free coordinates of every
       canonical cycle.
   NOT proved: that the library's route (tangle complexes, delooping, elimination, cycles transported
   through every step) computes the same number - that is what the correspondence run samples - and the
   invariance theorems of the cited paper (diagram independence, mirror, reduced = unreduced, crossing
   change), which stay relations evaluated on samples.  ss even for every knot diagram (needs
   r = n + 1 mod 2, a fact about Seifert surfaces) is not proved; only ss = w - r + 1 mod 2. *)
From Coq Require Import List Arith Bool ZArith Lia.
Require Import Yui.Base.Ring Yui.Base.MatF Yui.Base.MatL.
Require Import Yui.Model.KhCube Yui.Model.HomologyCalc Yui.Model.KhSs.
Require Import Yui.Proofs.C07Algebra Yui.Proofs.C07Calc.
Require Import Yui.Proofs.C06SsDiv Yui.Proofs.C06SsCoords Yui.Proofs.C06SsIndep Yui.Proofs.C06SsMain.
Import ListNotations.
Open Scope Z_scope.

(* cpow c k = c ^ k;  divides_all m v: m divides every entry;  is_zero_vec v: every entry is 0 *)
Theorem C06_ss_vocabulary :
  (forall c k, cpow c k = c ^ Z.of_nat k) /\
  (forall m v, divides_all m v <-> forall a, In a v -> (m | a)) /\
  (forall v, is_zero_vec v <-> forall a, In a v -> a = 0) /\
  (forall U v, mv U v = map (fun r => dot r v) U) /\
  (forall x r y v, dot (x :: r) (y :: v) = x * y + dot r v) /\
  (forall v, dot [] v = 0) /\ (forall r, dot r [] = 0) /\
  (forall tors, tors_nz tors <-> forall s, (s < length tors)%nat -> nth s tors 0 <> 0).
Proof. exact ss_vocabulary. Qed.
Print Assumptions C06_ss_vocabulary.

(* the loop `while a % c == 0 { a /= c; k += 1 }` with the model's fuel computes the exact c-adic valuation *)
Theorem C06_ss_valuation_exact :
  forall c a : Z, 2 <= Z.abs c -> a <> 0 ->
  (cpow c (val_c c a) | a) /\ ~ (cpow c (S (val_c c a)) | a).
Proof. exact val_c_spec. Qed.
Print Assumptions C06_ss_valuation_exact.

(* div_c is well defined: c^d divides every coordinate and c^(d+1) does not; None iff the vector vanishes *)
Theorem C06_ss_div_well_defined :
  forall (c : Z) (v : list Z) (d : nat), 2 <= Z.abs c -> div_c c v = Some d ->
  divides_all (cpow c d) v /\ ~ divides_all (cpow c (S d)) v.
Proof. exact div_c_some. Qed.
Print Assumptions C06_ss_div_well_defined.

Theorem C06_ss_div_none : forall (c : Z) (v : list Z), div_c c v = None <-> is_zero_vec v.
Proof. exact div_c_none. Qed.
Print Assumptions C06_ss_div_none.

Theorem C06_ss_div_characterised :
  forall (c : Z) (v : list Z) (d : nat), 2 <= Z.abs c ->
  (div_c c v = Some d <-> (~ is_zero_vec v /\ divides_all (cpow c d) v /\ ~ divides_all (cpow c (S d)) v)).
Proof. exact div_c_characterised. Qed.
Print Assumptions C06_ss_div_characterised.

(* invariance under an integer change of coordinates U with an integer left inverse V on v
   (U unimodular, V = U^-1): div_c (U v) = div_c v *)
Theorem C06_ss_div_unimodular :
  forall (c : Z) (U V : list (list Z)) (v : list Z), 2 <= Z.abs c ->
  mv V (mv U v) = v -> div_c c (mv U v) = div_c c v.
Proof. exact div_c_unimodular. Qed.
Print Assumptions C06_ss_div_unimodular.

Theorem C06_ss_setup_complex :
  forall (l : link) (c : Z) (red : bool) (D : ss_data), ss_setup l c red = Some D ->
  2 <= Z.abs c /\
  mwf (sd_d1 D) /\ mwf (sd_d2 D) /\ nr (sd_d1 D) = nc (sd_d2 D) /\
  zero_prod Z_ring (sd_d1 D) (sd_d2 D) /\
  (forall z, In z (sd_chains D) ->
     length z = nr (sd_d1 D) /\
     forall i, (i < nr (sd_d2 D))%nat -> mvec Z_ring (nr (sd_d1 D)) (mget Z_ring (sd_d2 D)) (vget Z_ring z) i = 0).
Proof. exact ss_setup_complex. Qed.
Print Assumptions C06_ss_setup_complex.

(* gens_ok / complete_ok: Proofs/C07Calc.v (gens_ok is spelt out in Properties/C07.v: generators are cycles,
   p q = I, boundaries have free coordinates 0 and torsion coordinates multiples of the orders);
   complete_ok, spelt out: *)
Theorem C06_ss_complete_ok_meaning :
  forall (d1 d2 : dmat Z) (rank : nat) (tors : list Z) (p q : dmat Z),
  complete_ok Z_ring d1 d2 rank tors p q <->
  (let h := (rank + length tors)%nat in
   let n := nr d1 in
   forall z : nat -> Z,
     (forall i, (i < nr d2)%nat -> mvec Z_ring n (mget Z_ring d2) z i = 0) ->
     (exists x : nat -> Z, forall i, (i < n)%nat ->
        z i = mvec Z_ring h (mget Z_ring q) (mvec Z_ring n (mget Z_ring p) z) i + mvec Z_ring (nc d1) (mget Z_ring d1) x i) /\
     ((forall i, (i < rank)%nat -> mvec Z_ring n (mget Z_ring p) z i = 0) ->
      (forall s, (s < length tors)%nat -> exists c, mvec Z_ring n (mget Z_ring p) z (rank + s)%nat = nth s tors 0 * c) ->
      exists x : nat -> Z, forall i, (i < n)%nat -> z i = mvec Z_ring (nc d1) (mget Z_ring d1) x i)).
Proof. intros. reflexivity. Qed.
Print Assumptions C06_ss_complete_ok_meaning.

Theorem C06_ss_coordinates :
  forall (l : link) (c : Z) (red : bool) (D : ss_data), ss_setup l c red = Some D ->
  exists p q : dmat Z,
    forward_mat Z_ring (sd_trans D) = Some p /\ backward_mat Z_ring (sd_trans D) = Some q /\
    gens_ok Z_ring (sd_d1 D) (sd_d2 D) (sd_rank D) (sd_tors D) p q /\
    complete_ok Z_ring (sd_d1 D) (sd_d2 D) (sd_rank D) (sd_tors D) p q /\
    tors_nz (sd_tors D).
Proof. exact ss_setup_coordinates_nz. Qed.
Print Assumptions C06_ss_coordinates.

Theorem C06_ss_rank :
  forall (l : link) (c : Z) (red : bool) (D : ss_data), ss_setup l c red = Some D ->
  sd_rank D = (if red then 1 else 2)%nat /\
  exists (r1 r2 : nat) (a b : nat -> Z),
    smith_form Z_ring (nr (sd_d1 D)) (nc (sd_d1 D)) (mget Z_ring (sd_d1 D)) r1 a /\
    smith_form Z_ring (nr (sd_d2 D)) (nc (sd_d2 D)) (mget Z_ring (sd_d2 D)) r2 b /\
    (sd_rank D + r1 + r2 = nr (sd_d1 D))%nat.
Proof. exact ss_setup_rank. Qed.
Print Assumptions C06_ss_rank.

(* the coordinates [ss_spec] reads: the first rank entries of p z *)
Theorem C06_ss_free_coords :
  forall (l : link) (c : Z) (red : bool) (D : ss_data) (z : list Z),
  ss_setup l c red = Some D -> In z (sd_chains D) ->
  exists (p : dmat Z) (v : list Z),
    forward_mat Z_ring (sd_trans D) = Some p /\ free_coords D z = Some v /\
    v = map (fun i => mvec Z_ring (nr (sd_d1 D)) (mget Z_ring p) (vget Z_ring z) i) (seq 0 (sd_rank D)).
Proof. exact ss_free_coords_spec. Qed.
Print Assumptions C06_ss_free_coords.

Theorem C06_ss_route_independent :
  forall (l : link) (c : Z) (red : bool) (D : ss_data) (z v : list Z),
  ss_setup l c red = Some D -> In z (sd_chains D) -> free_coords D z = Some v ->
  forall (tors' : list Z) (p' q' : dmat Z),
    gens_ok Z_ring (sd_d1 D) (sd_d2 D) (sd_rank D) tors' p' q' ->
    complete_ok Z_ring (sd_d1 D) (sd_d2 D) (sd_rank D) tors' p' q' ->
    tors_nz tors' ->
    div_c c (map (fun i => mvec Z_ring (nr (sd_d1 D)) (mget Z_ring p') (vget Z_ring z) i) (seq 0 (sd_rank D)))
    = div_c c v.
Proof. exact ss_div_route_independent. Qed.
Print Assumptions C06_ss_route_independent.

(* the general statement behind it: for any complex d1, d2 over Z and two coordinate systems of its homology,
   an integer divides all free coordinates of a cycle in one system iff it does in the other *)
Theorem C06_ss_free_divisibility_independent :
  forall (d1 d2 : dmat Z) (rank : nat) (tors : list Z) (p q : dmat Z) (tors' : list Z) (p' q' : dmat Z)
         (z : nat -> Z) (m : Z),
  gens_ok Z_ring d1 d2 rank tors p q -> complete_ok Z_ring d1 d2 rank tors p q -> tors_nz tors ->
  gens_ok Z_ring d1 d2 rank tors' p' q' -> complete_ok Z_ring d1 d2 rank tors' p' q' -> tors_nz tors' ->
  (forall i, (i < nr d2)%nat -> mvec Z_ring (nr d1) (mget Z_ring d2) z i = 0) ->
  ((forall i, (i < rank)%nat -> (m | mvec Z_ring (nr d1) (mget Z_ring p) z i)) <->
   (forall i, (i < rank)%nat -> (m | mvec Z_ring (nr d1) (mget Z_ring p') z i))).
Proof. exact free_divisibility_independent. Qed.
Print Assumptions C06_ss_free_divisibility_independent.

Theorem C06_ss_value :
  forall (l : link) (c : Z) (red : bool) (s : Z), ss_spec l c red = Some s ->
  exists (D : ss_data) (d : nat),
    ss_setup l c red = Some D /\ s = 2 * Z.of_nat d + sd_w D - sd_r D + 1 /\
    sd_chains D <> [] /\
    forall z, In z (sd_chains D) ->
      exists v, free_coords D z = Some v /\ ~ is_zero_vec v /\
                divides_all (cpow c d) v /\ ~ divides_all (cpow c (S d)) v.
Proof. exact ss_spec_value. Qed.
Print Assumptions C06_ss_value.

(* ss = w - r + 1 (mod 2) *)
Theorem C06_ss_parity :
  forall (l : link) (c : Z) (red : bool) (s : Z), ss_spec l c red = Some s ->
  exists D : ss_data, ss_setup l c red = Some D /\ (s - (sd_w D - sd_r D + 1)) mod 2 = 0.
Proof. exact ss_spec_parity. Qed.
Print Assumptions C06_ss_parity.

(* the asserts on c: zero and units are rejected *)
Theorem C06_ss_rejects_units :
  forall (l : link) (c : Z) (red : bool), Z.abs c < 2 -> ss_spec l c red = None.
Proof. exact ss_spec_rejects_units. Qed.
Print Assumptions C06_ss_rejects_units.

(* non-vacuity (values as in the library's own tests test_3_1, test_4_1, test_unknot_rm1, test_unknot_rm1_neg) *)
Definition ex_trefoil : link := [(CX, (1, 4, 2, 5)); (CX, (3, 6, 4, 1)); (CX, (5, 2, 6, 3))]%nat.
Definition ex_fig8 : link := [(CX, (4, 2, 5, 1)); (CX, (8, 6, 1, 5)); (CX, (6, 3, 7, 4)); (CX, (2, 7, 3, 8))]%nat.

Example C06_ss_trefoil_left :
  (ss_spec ex_trefoil 2 false, ss_spec ex_trefoil 2 true, ss_spec ex_trefoil 3 false, ss_spec ex_trefoil 3 true)
  = (Some (-2), Some (-2), Some (-2), Some (-2)).
Proof. vm_compute. reflexivity. Qed.

Example C06_ss_trefoil_right :
  (ss_spec (mirror ex_trefoil) 2 false, ss_spec (mirror ex_trefoil) 2 true,
   ss_spec (mirror ex_trefoil) 3 false, ss_spec (mirror ex_trefoil) 3 true)
  = (Some 2, Some 2, Some 2, Some 2).
Proof. vm_compute. reflexivity. Qed.

Example C06_ss_figure_eight :
  (ss_spec ex_fig8 2 false, ss_spec ex_fig8 2 true, ss_spec ex_fig8 3 false, ss_spec (mirror ex_fig8) 3 true)
  = (Some 0, Some 0, Some 0, Some 0).
Proof. vm_compute. reflexivity. Qed.

Example C06_ss_unknot_diagrams :
  (ss_spec [(CX, (0, 0, 1, 1))%nat] 2 false, ss_spec [(CX, (0, 0, 1, 1))%nat] 3 true,
   ss_spec [(CX, (0, 1, 1, 0))%nat] 2 false, ss_spec [(CXm, (0, 1, 1, 0))%nat] 2 true,
   ss_spec [(CX, (1, 3, 2, 2)); (CX, (3, 1, 4, 4))]%nat 2 false)
  = (Some 0, Some 0, Some 0, Some 0, Some 0).
Proof. vm_compute. reflexivity. Qed.

(* the divisibility is not constant: this diagram of the trefoil (w = -3) has d = 1, its mirror (w = 3) d = 0 for c = 2 (unreduced) *)
Example C06_ss_trefoil_divs :
  (option_map (fun D => (sd_rank D, sd_tors D, sd_w D, sd_r D, ss_divs D 2)) (ss_setup ex_trefoil 2 false),
   option_map (fun D => (sd_rank D, sd_w D, sd_r D, ss_divs D 2)) (ss_setup (mirror ex_trefoil) 2 false))
  = (Some (2%nat, [], -3, 2, Some [1%nat; 1%nat]), Some (2%nat, 3, 2, Some [0%nat; 0%nat])).
Proof. vm_compute. reflexivity. Qed.

(* not a knot (Hopf link), c a unit: rejected *)
Example C06_ss_rejected :
  (ss_spec [(CX, (4, 1, 3, 2)); (CX, (2, 3, 1, 4))]%nat 2 false, ss_spec ex_trefoil 1 false, ss_spec ex_trefoil 0 true)
  = (None, None, None).
Proof. vm_compute. reflexivity. Qed.

Example C06_ss_div_example :
  (div_c 2 [12; 0; 8], div_c 3 [12; 0; 8], div_c 2 [0; 0], div_c (-2) [-16; 48]) = (Some 2%nat, Some 0%nat, None, Some 4%nat).
Proof. vm_compute. reflexivity. Qed.

(* a unimodular change of coordinates: U = [[2,1],[1,1]], V = U^-1 = [[1,-1],[-1,2]] *)
Example C06_ss_unimodular_example :
  let U := [[2; 1]; [1; 1]] in let V := [[1; -1]; [-1; 2]] in let v := [4; 12] in
  mv V (mv U v) = v /\ mv U v = [20; 16] /\ div_c 2 (mv U v) = Some 2%nat /\ div_c 2 v = Some 2%nat.
Proof. vm_compute. repeat split; reflexivity. Qed.
