(* QuadInt<I, D> (Model/QuadInt.v): the pairs (a, b) = a + b*omega with the product of qint.rs are the
   ring Z[X] / (X^2 - t X - e), where (t, e) = (1, (D-1)/4) for D = 1 (mod 4) and (0, D) for
   D = 2, 3 (mod 4): the minimal polynomial of omega = (1 + sqrt D)/2 resp. sqrt D.
   - at BigInt width every operation returns the value of the reference operation [qs_*]
     (the two shortcut branches of the product included);
   - at a machine width a returned value is that same value (an overflow is a panic, never a wrap);
   - the reference operations are the ring operations of Z[X]/(X^2 - t X - e): [qsem u] is the
     polynomial a + b X, and the product of two representatives differs from the representative of
     the product by the explicit multiple  b d (X^2 - t X - e);
   - the pairs with these operations satisfy the commutative-ring axioms; conj and norm are the
     conjugation and the (multiplicative) norm. *)
From Coq Require Import ZArith Bool Lia.
Require Import Yui.Base.Ring Yui.Model.Ints Yui.Model.QuadInt Yui.Proofs.C14Ints.
Open Scope Z_scope.

Lemma mod4_cases D : D mod 4 = 0 \/ D mod 4 = 1 \/ D mod 4 = 2 \/ D mod 4 = 3.
Proof. pose proof (Z.mod_pos_bound D 4 ltac:(lia)). lia. Qed.

Lemma quot_e D : D mod 4 = 1 -> Z.quot (D - 1) 4 = (D - 1) / 4.
Proof.
  intros H. pose proof (Z.div_mod D 4 ltac:(lia)) as E.
  replace (D - 1) with (D / 4 * 4) by lia. now rewrite Z.quot_mul, Z.div_mul by lia.
Qed.

Lemma quot_e_neg D : D mod 4 = 1 -> Z.quot (1 - D) 4 = - ((D - 1) / 4).
Proof.
  intros H. pose proof (Z.div_mod D 4 ltac:(lia)) as E.
  replace (1 - D) with (- (D / 4) * 4) by lia. replace (D - 1) with (D / 4 * 4) by lia.
  now rewrite Z.quot_mul, Z.div_mul by lia.
Qed.

(* the coefficients (t, e) of the minimal polynomial X^2 - t X - e of omega; its discriminant t^2 + 4 e is
   D resp. 4 D ([qi_disc]) *)
Lemma qi_poly_1 D : D mod 4 = 1 -> qi_t D = 1 /\ 4 * qi_e D = D - 1.
Proof.
  intros H. unfold qi_t, qi_e. rewrite H. change (1 =? 1) with true. cbv iota. split; [reflexivity|].
  pose proof (Z.div_mod D 4 ltac:(lia)) as E.
  replace (D - 1) with (D / 4 * 4) by lia. rewrite Z.div_mul by lia. lia.
Qed.

Lemma qi_poly_23 D : D mod 4 = 2 \/ D mod 4 = 3 -> qi_t D = 0 /\ qi_e D = D.
Proof.
  intros H. unfold qi_t, qi_e. destruct (D mod 4 =? 1) eqn:E; [apply Z.eqb_eq in E; lia|]. auto.
Qed.

(* what the branches on D.rem_euclid(4) of mul, conj and norm see *)
Lemma qi_class_cases D : D mod 4 <> 0 ->
  ((D mod 4 =? 1) = true /\ qi_t D = 1 /\ qi_e D = (D - 1) / 4 /\
   Z.quot (D - 1) 4 = (D - 1) / 4 /\ Z.quot (1 - D) 4 = - ((D - 1) / 4)) \/
  ((D mod 4 =? 1) = false /\ (D mod 4 =? 2) || (D mod 4 =? 3) = true /\ qi_t D = 0 /\ qi_e D = D).
Proof.
  intros HD. destruct (mod4_cases D) as [E|[E|E]]; [contradiction|left|right].
  - unfold qi_t, qi_e. rewrite E. repeat split; [apply quot_e|apply quot_e_neg]; exact E.
  - destruct (qi_poly_23 D E) as [-> ->].
    repeat split; [apply Z.eqb_neq; lia|apply orb_true_iff; rewrite !Z.eqb_eq; exact E].
Qed.

Lemma qi_disc D : D mod 4 <> 0 ->
  qi_t D * qi_t D + 4 * qi_e D = (if D mod 4 =? 1 then D else 4 * D).
Proof.
  intros H. destruct (mod4_cases D) as [E|[E|E]]; [contradiction| |].
  - destruct (qi_poly_1 D E) as [-> E']. rewrite E. change (1 =? 1) with true. cbv iota. lia.
  - destruct (qi_poly_23 D E) as [-> ->].
    destruct (D mod 4 =? 1) eqn:F; [apply Z.eqb_eq in F; lia|]. lia.
Qed.

(* new: the assertion D % 4 != 0 (Rust's % truncates; D rem 4 = 0 iff D mod 4 = 0) *)
Lemma qi_new_spec D a b : qi_new D a b = if D mod 4 =? 0 then None else Some (a, b).
Proof.
  unfold qi_new.
  assert (E : (Z.rem D 4 =? 0) = (D mod 4 =? 0)).
  { destruct (Z.rem D 4 =? 0) eqn:E1, (D mod 4 =? 0) eqn:E2; try reflexivity.
    - apply Z.eqb_eq in E1. apply Z.eqb_neq in E2. exfalso. apply E2.
      apply Z.rem_divide in E1; [|lia]. apply Z.mod_divide; [lia|exact E1].
    - apply Z.eqb_neq in E1. apply Z.eqb_eq in E2. exfalso. apply E1.
      apply Z.mod_divide in E2; [|lia]. apply Z.rem_divide; [lia|exact E2]. }
  now rewrite E.
Qed.

(* BigInt components: every operation is the reference operation *)
Lemma qi_add_big x y : qi_add Big x y = Some (qs_add x y).
Proof. reflexivity. Qed.
Lemma qi_sub_big x y : qi_sub Big x y = Some (qs_sub x y).
Proof. reflexivity. Qed.
Lemma qi_neg_big x : qi_neg Big x = Some (qs_neg x).
Proof. reflexivity. Qed.

Lemma pair_eq (a b c d : Z) : a = c -> b = d -> (a, b) = (c, d).
Proof. now intros -> ->. Qed.

(* unfolds the checked integer primitives (at width Big they always return) *)
Ltac bigsimp := cbn [obind imul iadd isub ineg ck fitsb].

(* the product, including the shortcut branches  b = 0  and  d = 0  *)
Lemma qi_mul_big D x y : D mod 4 <> 0 -> qi_mul Big D x y = Some (qs_mul (qi_t D) (qi_e D) x y).
Proof.
  intros HD. destruct x as [a b], y as [c d]. unfold qi_mul, qs_mul, qi_class, qi_const. cbn [fst snd].
  destruct (Z.eqb_spec b 0) as [->|_].
  { bigsimp. f_equal. apply pair_eq; ring. }
  destruct (Z.eqb_spec d 0) as [->|_].
  { bigsimp. f_equal. apply pair_eq; ring. }
  destruct (qi_class_cases D HD) as [(-> & -> & -> & -> & _)|(-> & -> & -> & ->)]; bigsimp; f_equal; apply pair_eq; ring.
Qed.

(* for D = 0 (mod 4) - a type that [new] refuses to construct - the general branch is the panic!() *)
Lemma qi_mul_big_bad D x y : D mod 4 = 0 -> snd x <> 0 -> snd y <> 0 -> qi_mul Big D x y = None.
Proof.
  intros HD Hb Hd. unfold qi_mul, qi_class. apply Z.eqb_neq in Hb, Hd. rewrite Hb, Hd, HD. reflexivity.
Qed.

Lemma qi_conj_big D x : D mod 4 <> 0 -> qi_conj Big D x = Some (qs_conj (qi_t D) x).
Proof.
  intros HD. destruct x as [a b]. unfold qi_conj, qs_conj, qi_class. cbn [fst snd].
  destruct (qi_class_cases D HD) as [(-> & -> & _)|(-> & -> & -> & _)]; bigsimp; f_equal; apply pair_eq; ring.
Qed.

Lemma qi_norm_big D x : D mod 4 <> 0 -> qi_norm Big D x = Some (qs_norm (qi_t D) (qi_e D) x).
Proof.
  intros HD. destruct x as [a b]. unfold qi_norm, qs_norm, qi_class, qi_const. cbn [fst snd].
  destruct (qi_class_cases D HD) as [(-> & -> & -> & _ & ->)|(-> & -> & -> & ->)]; bigsimp; f_equal; ring.
Qed.

(* machine widths: whatever QuadInt<iN, D> returns, QuadInt<BigInt, D> returns *)
Lemma qi_add_mono w x y : ole (qi_add w x y) (qi_add Big x y).
Proof. unfold qi_add. ole_mono. Qed.
Lemma qi_sub_mono w x y : ole (qi_sub w x y) (qi_sub Big x y).
Proof. unfold qi_sub. ole_mono. Qed.
Lemma qi_neg_mono w x : ole (qi_neg w x) (qi_neg Big x).
Proof. unfold qi_neg. ole_mono. Qed.
Lemma qi_mul_mono w D x y : ole (qi_mul w D x y) (qi_mul Big D x y).
Proof. unfold qi_mul, qi_const. cbv zeta. ole_mono. Qed.
Lemma qi_conj_mono w D x : ole (qi_conj w D x) (qi_conj Big D x).
Proof. unfold qi_conj. cbv zeta. ole_mono. Qed.
Lemma qi_norm_mono w D x : ole (qi_norm w D x) (qi_norm Big D x).
Proof. unfold qi_norm, qi_const. cbv zeta. ole_mono. Qed.

(* a returned value is the exact value, at every width and for every D *)
Lemma qi_add_exact w x y r : qi_add w x y = Some r -> r = qs_add x y.
Proof. intros H. apply qi_add_mono in H. rewrite qi_add_big in H. now inversion H. Qed.
Lemma qi_sub_exact w x y r : qi_sub w x y = Some r -> r = qs_sub x y.
Proof. intros H. apply qi_sub_mono in H. rewrite qi_sub_big in H. now inversion H. Qed.
Lemma qi_neg_exact w x r : qi_neg w x = Some r -> r = qs_neg x.
Proof. intros H. apply qi_neg_mono in H. rewrite qi_neg_big in H. now inversion H. Qed.

Lemma qi_mul_exact w D x y r : qi_mul w D x y = Some r -> r = qs_mul (qi_t D) (qi_e D) x y.
Proof.
  intros H. apply qi_mul_mono in H. destruct (Z.eq_dec (D mod 4) 0) as [E|E].
  - (* only the shortcut branches return; they do not depend on D *)
    destruct x as [a b], y as [c d]. unfold qi_mul, qi_class in H. cbn [fst snd] in H. unfold qs_mul. cbn [fst snd].
    destruct (Z.eqb_spec b 0) as [->|_].
    { rewrite !imul_big in H. cbn [obind] in H. inversion H. apply pair_eq; ring. }
    destruct (Z.eqb_spec d 0) as [->|_].
    { rewrite !imul_big in H. cbn [obind] in H. inversion H. apply pair_eq; ring. }
    rewrite E in H. discriminate.
  - rewrite qi_mul_big in H by exact E. now inversion H.
Qed.

Lemma qi_conj_exact w D x r : D mod 4 <> 0 -> qi_conj w D x = Some r -> r = qs_conj (qi_t D) x.
Proof. intros HD H. apply qi_conj_mono in H. rewrite qi_conj_big in H by exact HD. now inversion H. Qed.
Lemma qi_norm_exact w D x r : D mod 4 <> 0 -> qi_norm w D x = Some r -> r = qs_norm (qi_t D) (qi_e D) x.
Proof. intros HD H. apply qi_norm_mono in H. rewrite qi_norm_big in H by exact HD. now inversion H. Qed.

(* the exact panic condition of the componentwise operations *)
Lemma qi_add_spec w x y :
  qi_add w x y = if fitsb w (fst x + fst y) && fitsb w (snd x + snd y) then Some (qs_add x y) else None.
Proof.
  unfold qi_add, iadd, ck, qs_add. destruct (fitsb w (fst x + fst y)); cbn [obind andb]; [|reflexivity].
  destruct (fitsb w (snd x + snd y)); reflexivity.
Qed.

(* the reference operations are those of Z[X] / (X^2 - t X - e) *)
(* the polynomial a + b X, as a function of the indeterminate *)
Definition qsem (u : quad) (X : Z) : Z := fst u + snd u * X.

Lemma qsem_inj u v : (forall X, qsem u X = qsem v X) -> u = v.
Proof.
  intros H. pose proof (H 0) as H0. pose proof (H 1) as H1. unfold qsem in *.
  destruct u as [a b], v as [c d]. cbn [fst snd] in *. apply pair_eq; lia.
Qed.

Lemma qsem_add u v X : qsem (qs_add u v) X = qsem u X + qsem v X.
Proof. unfold qsem, qs_add. cbn [fst snd]. ring. Qed.
Lemma qsem_sub u v X : qsem (qs_sub u v) X = qsem u X - qsem v X.
Proof. unfold qsem, qs_sub. cbn [fst snd]. ring. Qed.
Lemma qsem_neg u X : qsem (qs_neg u) X = - qsem u X.
Proof. unfold qsem, qs_neg. cbn [fst snd]. ring. Qed.
Lemma qsem_one X : qsem qi_one X = 1.
Proof. unfold qsem, qi_one. cbn [fst snd]. ring. Qed.
Lemma qsem_zero X : qsem qi_zero X = 0.
Proof. unfold qsem, qi_zero. cbn [fst snd]. ring. Qed.
Lemma qsem_omega X : qsem qi_omega X = X.
Proof. unfold qsem, qi_omega. cbn [fst snd]. ring. Qed.

(* (a + b X)(c + d X) = [representative of the product] + b d (X^2 - t X - e)   in Z[X] *)
Lemma qsem_mul t e u v X :
  qsem u X * qsem v X = qsem (qs_mul t e u v) X + (snd u * snd v) * (X * X - t * X - e).
Proof. unfold qsem, qs_mul. cbn [fst snd]. ring. Qed.

Definition quad_ring (t e : Z) : ring_ops quad :=
  mk_ring_ops quad qi_zero qi_one qs_add qs_neg (qs_mul t e) qi_eqb.

Lemma qi_eqb_eq x y : qi_eqb x y = true <-> x = y.
Proof.
  destruct x as [a b], y as [c d]. unfold qi_eqb. cbn [fst snd].
  rewrite andb_true_iff, !Z.eqb_eq. split; [intros [-> ->]; reflexivity|intros H; inversion H; auto].
Qed.

Lemma quad_ring_laws t e : ring_laws (quad_ring t e).
Proof.
  constructor; cbn [quad_ring rzero rone radd rneg rmul reqb].
  - intros [a b] [c d]. unfold qs_add. cbn [fst snd]. apply pair_eq; ring.
  - intros [a b] [c d] [f g]. unfold qs_add. cbn [fst snd]. apply pair_eq; ring.
  - intros [a b]. unfold qs_add, qi_zero. cbn [fst snd]. apply pair_eq; ring.
  - intros [a b]. unfold qs_add, qs_neg, qi_zero. cbn [fst snd]. apply pair_eq; ring.
  - intros [a b] [c d]. unfold qs_mul. cbn [fst snd]. apply pair_eq; ring.
  - intros [a b] [c d] [f g]. unfold qs_mul. cbn [fst snd]. apply pair_eq; ring.
  - intros [a b]. unfold qs_mul, qi_one. cbn [fst snd]. apply pair_eq; ring.
  - intros [a b] [c d] [f g]. unfold qs_mul, qs_add. cbn [fst snd]. apply pair_eq; ring.
  - apply qi_eqb_eq.
Qed.

Definition gauss_ring : ring_ops quad := quad_ring (qi_t (-1)) (qi_e (-1)).
Definition eisen_ring : ring_ops quad := quad_ring (qi_t (-3)) (qi_e (-3)).

(* the Gaussian and Eisenstein products in closed form *)
Lemma gauss_mul_eq x y :
  rmul gauss_ring x y = (fst x * fst y - snd x * snd y, fst x * snd y + snd x * fst y).
Proof. cbn. unfold qs_mul. apply pair_eq; ring. Qed.
Lemma eisen_mul_eq x y :
  rmul eisen_ring x y = (fst x * fst y - snd x * snd y, fst x * snd y + snd x * fst y + snd x * snd y).
Proof. cbn. unfold qs_mul. apply pair_eq; ring. Qed.

(* subtraction is addition of the negative; is_zero / is_one are comparisons with the constants *)
Lemma qs_sub_add_neg x y : qs_sub x y = qs_add x (qs_neg y).
Proof. unfold qs_sub, qs_add, qs_neg. cbn [fst snd]. apply pair_eq; ring. Qed.
Lemma qi_is_zero_spec x : qi_is_zero x = true <-> x = qi_zero.
Proof. apply (qi_eqb_eq x qi_zero). Qed.
Lemma qi_is_one_spec x : qi_is_one x = true <-> x = qi_one.
Proof. apply (qi_eqb_eq x qi_one). Qed.

Lemma qs_conj_mul t e x : qs_mul t e x (qs_conj t x) = (qs_norm t e x, 0).
Proof. destruct x as [a b]. unfold qs_mul, qs_conj, qs_norm. cbn [fst snd]. apply pair_eq; ring. Qed.

Lemma qs_norm_mul t e x y : qs_norm t e (qs_mul t e x y) = qs_norm t e x * qs_norm t e y.
Proof. destruct x as [a b], y as [c d]. unfold qs_mul, qs_norm. cbn [fst snd]. ring. Qed.

Lemma qs_conj_invol t x : qs_conj t (qs_conj t x) = x.
Proof. destruct x as [a b]. unfold qs_conj. cbn [fst snd]. apply pair_eq; ring. Qed.
