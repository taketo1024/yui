(* The mapping cone of (1 + tau): for a complex (C, d) over a commutative ring of characteristic 2 and a
   chain map tau, the block matrix  D = [[d, 0], [1 + tau, d]]  (acting on C (+) Q C) squares to zero.
   Also: F_2 as a ring dictionary of characteristic 2, and [khi_dims_checked] (the oracle of Model/KhI.v answers only
   after its four boolean checks).  Nothing here relates [cone_rows] of the model to [cone]. *)
From Coq Require Import Arith List Lia Ring Bool.
Require Import Yui.Base.Ring Yui.Base.MatF.
Import ListNotations.

Section Cone.
  Context {R : Type} (o : ring_ops R) (L : ring_laws o).
  Hypothesis char2 : radd o (rone o) (rone o) = rzero o.

  Local Notation "0" := (rzero o).
  Local Notation "1" := (rone o).
  Local Infix "+" := (radd o).
  Local Infix "*" := (rmul o).

  Add Ring Rring : (ring_theory_of_laws o L).

  Lemma double_zero a : a + a = 0.
  Proof. replace (a + a) with ((1 + 1) * a) by ring. rewrite char2. ring. Qed.

  Variable n : nat.
  Variables d tau : mat R.

  Definition cone : mat R := fun i j =>
    if (i <? n)%nat then (if (j <? n)%nat then d i j else 0)
    else (if (j <? n)%nat then madd o (mid o) tau (i - n)%nat j else d (i - n)%nat (j - n)%nat).

  Hypothesis dd : meq n n (mmul o n d d) (mzero o).
  Hypothesis tau_chain : meq n n (mmul o n tau d) (mmul o n d tau).

  Lemma cone_split i j :
    mmul o (n + n)%nat cone cone i j
    = sum o n (fun k => cone i k * cone k j) + sum o n (fun k => cone i (n + k)%nat * cone (n + k)%nat j).
  Proof. unfold mmul. apply sum_split. exact L. Qed.

  Lemma cone_tl i j : (i < n)%nat -> (j < n)%nat -> cone i j = d i j.
  Proof. intros Hi Hj. unfold cone. now rewrite (proj2 (Nat.ltb_lt i n) Hi), (proj2 (Nat.ltb_lt j n) Hj). Qed.
  Lemma cone_tr i k : (i < n)%nat -> cone i (n + k)%nat = 0.
  Proof.
    intros Hi. unfold cone. rewrite (proj2 (Nat.ltb_lt i n) Hi). destruct (Nat.ltb_spec (n + k) n); [lia|reflexivity].
  Qed.
  Lemma cone_bl k j : (j < n)%nat -> cone (n + k)%nat j = madd o (mid o) tau k j.
  Proof.
    intros Hj. unfold cone. destruct (Nat.ltb_spec (n + k) n); [lia|]. rewrite (proj2 (Nat.ltb_lt j n) Hj).
    now replace (n + k - n)%nat with k by lia.
  Qed.
  Lemma cone_br k l : cone (n + k)%nat (n + l)%nat = d k l.
  Proof.
    unfold cone. destruct (Nat.ltb_spec (n + k) n); [lia|]. destruct (Nat.ltb_spec (n + l) n); [lia|].
    replace (n + k - n)%nat with k by lia. now replace (n + l - n)%nat with l by lia.
  Qed.

  Theorem cone_squares_to_zero : meq (n + n)%nat (n + n)%nat (mmul o (n + n)%nat cone cone) (mzero o).
  Proof.
    intros i j Hi Hj. rewrite cone_split. unfold mzero.
    destruct (Nat.ltb_spec i n) as [Hin|Hin]; [|set (i' := (i - n)%nat); replace i with (n + i')%nat by (unfold i'; lia)];
      (destruct (Nat.ltb_spec j n) as [Hjn|Hjn];
       [|set (j' := (j - n)%nat); replace j with (n + j')%nat by (unfold j'; lia)]).
    - (* top-left: d.d *)
      replace 0 with (mmul o n d d i j + 0) by (rewrite (dd i j Hin Hjn); unfold mzero; ring).
      apply f_equal2; [apply sum_ext; intros k Hk; now rewrite !cone_tl|].
      apply (sum_zero_ext o L). intros k Hk. rewrite cone_tr by exact Hin. ring.
    - (* top-right: 0 *)
      replace 0 with (0 + 0) by ring.
      apply f_equal2; apply (sum_zero_ext o L); intros k Hk;
        [rewrite (cone_tr k) by exact Hk|rewrite cone_tr by exact Hin]; ring.
    - (* bottom-left: (1 + tau) d + d (1 + tau) = 2 d + (tau d + d tau) = 0 *)
      assert (Hi' : (i' < n)%nat) by (unfold i'; lia).
      transitivity (mmul o n (madd o (mid o) tau) d i' j + mmul o n d (madd o (mid o) tau) i' j).
      { apply f_equal2; apply sum_ext; intros k Hk; [now rewrite cone_bl, cone_tl|now rewrite cone_br, cone_bl]. }
      rewrite (mmul_add_l o L), (mmul_add_r o L). unfold madd.
      rewrite (mmul_id_l o L) by exact Hi'. rewrite (mmul_id_r o L) by exact Hjn.
      rewrite (tau_chain i' j Hi' Hjn).
      replace (d i' j + mmul o n d tau i' j + (d i' j + mmul o n d tau i' j))
        with ((d i' j + d i' j) + (mmul o n d tau i' j + mmul o n d tau i' j)) by ring.
      rewrite !double_zero. ring.
    - (* bottom-right: d.d *)
      replace 0 with (0 + mmul o n d d i' j')
        by (rewrite (dd i' j') by (unfold i', j'; lia); unfold mzero; ring).
      apply f_equal2; [|apply sum_ext; intros k Hk; now rewrite !cone_br].
      apply (sum_zero_ext o L). intros k Hk. rewrite (cone_tr k) by exact Hk. ring.
  Qed.
End Cone.

(* the field F_2 as a ring dictionary (non-vacuity of the characteristic-2 hypothesis) *)
Definition F2_ring : ring_ops bool := mk_ring_ops bool false true xorb (fun b => b) andb Bool.eqb.

Lemma F2_ring_laws : ring_laws F2_ring.
Proof. exact bool_ring_laws. Qed.

Lemma F2_char2 : radd F2_ring (rone F2_ring) (rone F2_ring) = rzero F2_ring.
Proof. reflexivity. Qed.

(* an answer of [khi_dims] has passed the four per-instance checks *)
Require Import Yui.Model.KhCube Yui.Model.KhHomology Yui.Model.KhI.

Lemma khi_dims_checked ic ds :
  khi_dims ic = Some ds ->
  cube_ok (ic_cube ic) = true /\ tau_defined ic = true /\ tau_involutive ic = true /\ tau_chain_map ic = true.
Proof.
  unfold khi_dims, khi_ok. intros H.
  destruct (cube_ok (ic_cube ic)); [|discriminate].
  destruct (tau_defined ic); [|discriminate].
  destruct (tau_involutive ic); [|discriminate].
  destruct (tau_chain_map ic); [|discriminate]. auto.
Qed.
