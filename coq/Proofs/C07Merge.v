(* C07, composition of coordinate maps, part 2: Summand::merge.
   [summand_ok]: the invariant established by Summand::new (src_dim = number of raw generators, tgt_dim = rank + #tors)
   together with the shape invariant of its Trans.  For such summands  merge  composes the coordinate maps
   (vectorize of the merged summand = vectorize_other . vectorize_self, devectorize = devectorize_self .
   devectorize_other, as identities of matrices and on every vector, panics included), and the clauses of C07
   ([gens_ok] of Proofs/C07Calc.v) are transported from the intermediate coordinates to the original complex. *)
From Coq Require Import Arith List Lia Ring Bool.
Require Import Yui.Base.Ring Yui.Base.MatF Yui.Base.MatL Yui.Model.HomologyCalc Yui.Model.HomologyMerge.
Require Import Yui.Proofs.C07Algebra Yui.Proofs.C07Calc Yui.Proofs.C07MergeTrans.
Import ListNotations.

Section C07Merge.
  Context {R : Type} (o : ring_ops R) (L : ring_laws o).

  Local Notation "0" := (rzero o).
  Local Notation "1" := (rone o).
  Local Infix "+" := (radd o).
  Local Infix "*" := (rmul o).
  Local Notation mg := (mget o).
  Local Notation Ff := (fun t : trans R => fwd_fun o (f_mats t)).
  Local Notation Bf := (fun t : trans R => bwd_fun o (b_mats t)).

  Add Ring Rring07n : (ring_theory_of_laws o L).

  Definition summand_ok (s : summand R) : Prop :=
    src_dim (s_trans s) = s_ngens s /\ tgt_dim (s_trans s) = s_dim s /\ trans_ok (s_trans s).

  Lemma summand_new_ok n r ts t s :
    summand_new n r ts t = Some s -> trans_ok t ->
    summand_ok s /\ s_ngens s = n /\ s_rank s = r /\ s_tors s = ts /\ s_trans s = t.
  Proof.
    unfold summand_new. intros E H.
    destruct ((src_dim t =? n) && (tgt_dim t =? r + length ts)) eqn:G; [|discriminate]. injection E as <-.
    apply andb_true_iff in G. destruct G as [G1 G2]. apply Nat.eqb_eq in G1, G2.
    unfold summand_ok, s_dim. cbn [s_ngens s_rank s_tors s_trans]. repeat split; assumption.
  Qed.

  Lemma summand_generate_ok rank tors t h :
    summand_generate rank tors (Some t) = Some h -> trans_ok t ->
    summand_ok h /\ s_ngens h = src_dim t /\ s_rank h = rank /\ s_tors h = tors /\ s_trans h = t.
  Proof. unfold summand_generate. apply summand_new_ok. Qed.

  Lemma summand_zero_ok : summand_ok (@summand_zero R).
  Proof. unfold summand_ok, summand_zero, s_dim. cbn. repeat split. apply trans_id_ok. Qed.

  Lemma summand_free_ok n : summand_ok (@summand_free R n).
  Proof.
    unfold summand_ok, summand_free, s_dim. cbn [s_trans s_ngens s_rank s_tors length trans_id src_dim tgt_dim].
    repeat split; [lia|apply trans_id_ok].
  Qed.

  Theorem summand_merge_spec s h :
    summand_ok s -> summand_ok h -> s_dim s = s_ngens h ->
    exists s', summand_merge o s h = Some s' /\ summand_ok s' /\
      s_ngens s' = s_ngens s /\ s_rank s' = s_rank h /\ s_tors s' = s_tors h /\
      (length (f_mats (s_trans s')) <= 1)%nat /\ (length (b_mats (s_trans s')) <= 1)%nat /\
      meq (s_dim h) (s_ngens s) (Ff (s_trans s')) (mmul o (s_dim s) (Ff (s_trans h)) (Ff (s_trans s))) /\
      meq (s_ngens s) (s_dim h) (Bf (s_trans s')) (mmul o (s_dim s) (Bf (s_trans s)) (Bf (s_trans h))).
  Proof.
    intros [S1 [S2 S3]] [H1 [H2 H3]] Hd. unfold summand_merge, trans_merge.
    assert (G : tgt_dim (s_trans s) = src_dim (s_trans h)) by congruence.
    destruct (Nat.eqb_spec (tgt_dim (s_trans s)) (src_dim (s_trans h))) as [_|N]; [|contradiction].
    destruct (trans_merged_spec o L _ _ S3 H3 G) as [tu [Etu [Oku [U1 [U2 [UF UB]]]]]].
    rewrite Etu. cbn [obind].
    destruct (trans_reduce_spec o L tu Oku) as [t' [Et' [Ok' [T1 [T2 [T3 [T4 [TF TB]]]]]]]].
    rewrite Et'. cbn [obind]. eexists. split; [reflexivity|].
    unfold summand_ok, s_dim. cbn [s_ngens s_rank s_tors s_trans].
    split; [split; [congruence|split; [unfold s_dim in H2; congruence|exact Ok']]|].
    split; [reflexivity|]. split; [reflexivity|]. split; [reflexivity|]. split; [exact T3|]. split; [exact T4|].
    fold (s_dim h). fold (s_dim s). rewrite U1, U2, S1, H2 in TF, TB. rewrite S1, S2, H2 in UF, UB.
    split.
    - intros i j Hi Hj. rewrite TF by assumption. now apply UF.
    - intros i j Hi Hj. rewrite TB by assumption. now apply UB.
  Qed.

  (* the assertion of merge fails when the dimensions do not match *)
  Theorem summand_merge_none s h :
    summand_ok s -> summand_ok h -> s_dim s <> s_ngens h -> summand_merge o s h = None.
  Proof.
    intros [S1 [S2 S3]] [H1 [H2 H3]] Hd. unfold summand_merge.
    destruct (Nat.eqb_spec (tgt_dim (s_trans s)) (src_dim (s_trans h))) as [E|N]; [|reflexivity].
    exfalso. apply Hd. congruence.
  Qed.

  (* what a successful merge says about its result *)
  Lemma summand_merge_inv s h s' :
    summand_ok s -> summand_ok h -> summand_merge o s h = Some s' ->
    s_dim s = s_ngens h /\ summand_ok s' /\
    s_ngens s' = s_ngens s /\ s_rank s' = s_rank h /\ s_tors s' = s_tors h /\ s_dim s' = s_dim h /\
    meq (s_dim h) (s_ngens s) (Ff (s_trans s')) (mmul o (s_dim s) (Ff (s_trans h)) (Ff (s_trans s))) /\
    meq (s_ngens s) (s_dim h) (Bf (s_trans s')) (mmul o (s_dim s) (Bf (s_trans s)) (Bf (s_trans h))).
  Proof.
    intros Hs Hh E. destruct (Nat.eq_dec (s_dim s) (s_ngens h)) as [Hd|G].
    - destruct (summand_merge_spec s h Hs Hh Hd) as [s'' [E' [Ok' [N1 [N2 [N3 [_ [_ [MF MB]]]]]]]]].
      rewrite E in E'. injection E' as <-. unfold s_dim in *. rewrite N2, N3. tauto.
    - rewrite (summand_merge_none s h Hs Hh G) in E. discriminate.
  Qed.

  (* as an identity of the matrices returned by forward_mat / backward_mat *)
  Theorem summand_merge_mats s h s' :
    summand_ok s -> summand_ok h -> summand_merge o s h = Some s' ->
    exists f b p' q' p q,
      forward_mat o (s_trans s) = Some f /\ backward_mat o (s_trans s) = Some b /\
      forward_mat o (s_trans h) = Some p' /\ backward_mat o (s_trans h) = Some q' /\
      forward_mat o (s_trans s') = Some p /\ backward_mat o (s_trans s') = Some q /\
      nr f = s_dim s /\ nc f = s_ngens s /\ nr b = s_ngens s /\ nc b = s_dim s /\
      nr p' = s_dim h /\ nc p' = s_dim s /\ nr q' = s_dim s /\ nc q' = s_dim h /\
      nr p = s_dim h /\ nc p = s_ngens s /\ nr q = s_ngens s /\ nc q = s_dim h /\
      meq (s_dim h) (s_ngens s) (mg p) (mmul o (s_dim s) (mg p') (mg f)) /\
      meq (s_ngens s) (s_dim h) (mg q) (mmul o (s_dim s) (mg b) (mg q')).
  Proof.
    intros Hs Hh E. destruct (summand_merge_inv s h s' Hs Hh E) as [Hd [Ok' [N1 [_ [_ [Kd [MF MB]]]]]]].
    destruct Hs as [S1 [S2 S3]]. destruct Hh as [H1 [H2 H3]]. destruct Ok' as [K1 [K2 K3]].
    destruct (forward_mat_spec o L _ S3) as [f [Ef [F1 [F2 F3]]]].
    destruct (backward_mat_spec o L _ S3) as [b [Eb [B1 [B2 B3]]]].
    destruct (forward_mat_spec o L _ H3) as [p' [Ep' [P1' [P2' P3']]]].
    destruct (backward_mat_spec o L _ H3) as [q' [Eq' [Q1' [Q2' Q3']]]].
    destruct (forward_mat_spec o L _ K3) as [p [Ep [P1 [P2 P3]]]].
    destruct (backward_mat_spec o L _ K3) as [q [Eq [Q1 [Q2 Q3]]]].
    exists f, b, p', q', p, q.
    rewrite S1, S2 in *. rewrite H1, H2 in *. rewrite K1, K2, Kd, N1 in *.
    repeat (split; [first [assumption|congruence]|]).
    split.
    - intros i j Hi Hj. rewrite P3, MF by assumption.
      unfold mmul. apply (sum_ext o). intros l Hl. rewrite P3', F3 by lia. reflexivity.
    - intros i j Hi Hj. rewrite Q3, MB by assumption.
      unfold mmul. apply (sum_ext o). intros l Hl. rewrite B3, Q3' by lia. reflexivity.
  Qed.

  (* on every chain: vectorize of the merged summand = vectorize_other . vectorize_self (panics included) *)
  Theorem merge_vectorize s h s' :
    summand_ok s -> summand_ok h -> summand_merge o s h = Some s' ->
    forall z, vectorize o s' z = obind (vectorize o s z) (vectorize o h).
  Proof.
    intros Hs Hh E z. destruct (summand_merge_inv s h s' Hs Hh E) as [Hd [Ok' [N1 [_ [_ [Kd [MF _]]]]]]].
    destruct Hs as [S1 [S2 S3]]. destruct Hh as [H1 [H2 H3]]. destruct Ok' as [K1 [K2 K3]].
    unfold vectorize. rewrite N1.
    destruct (Nat.eqb_spec (length z) (s_ngens s)) as [Hz|Hz]; [|reflexivity].
    rewrite (forward_compose o L _ _ _ S3 H3 K3 ltac:(congruence) ltac:(congruence) ltac:(congruence))
      by (rewrite S1, S2, H2; exact MF).
    destruct (forward_spec o L _ z S3 ltac:(congruence)) as [y [-> [Y1 _]]]. cbn [obind].
    replace (length y =? s_ngens h) with true by (symmetry; apply Nat.eqb_eq; congruence). reflexivity.
  Qed.

  (* devectorize of the merged summand = devectorize_self . devectorize_other (panics included) *)
  Theorem merge_devectorize s h s' :
    summand_ok s -> summand_ok h -> summand_merge o s h = Some s' ->
    forall v, devectorize o s' v = obind (devectorize o h v) (devectorize o s).
  Proof.
    intros Hs Hh E v. destruct (summand_merge_inv s h s' Hs Hh E) as [Hd [Ok' [N1 [_ [_ [Kd [_ MB]]]]]]].
    destruct Hs as [S1 [S2 S3]]. destruct Hh as [H1 [H2 H3]]. destruct Ok' as [K1 [K2 K3]].
    unfold devectorize. rewrite Kd.
    destruct (Nat.eqb_spec (length v) (s_dim h)) as [Hv|Hv]; [|reflexivity].
    rewrite (backward_compose o L _ _ _ S3 H3 K3 ltac:(congruence) ltac:(congruence) ltac:(congruence))
      by (rewrite S1, S2, H2; exact MB).
    destruct (backward_spec o L _ v H3 ltac:(congruence)) as [y [-> [Y1 _]]]. cbn [obind].
    replace (length y =? s_dim s) with true by (symmetry; apply Nat.eqb_eq; congruence). reflexivity.
  Qed.

  Theorem merge_gen s h s' :
    summand_ok s -> summand_ok h -> summand_merge o s h = Some s' ->
    forall k, gen o s' k = obind (gen o h k) (devectorize o s).
  Proof.
    intros Hs Hh E k. unfold gen.
    destruct (summand_merge_inv s h s' Hs Hh E) as [_ [_ [_ [_ [_ [-> _]]]]]]. destruct (unit_vec o (s_dim h) k) as [v|]; cbn [obind]; [|reflexivity].
    apply (merge_devectorize s h s' Hs Hh E).
  Qed.

  (* the clauses of C07 are transported along a retraction by chain maps *)
  (* (D1, D2): incoming / outgoing differential of the ORIGINAL complex at the degree in question (n = nr D1);
     (f, b): the coordinate maps of the summand of that degree (f : n -> n', b : n' -> n, f*b = I);
     (d1', d2'): the differentials in the new coordinates; b is a chain map towards the original complex in the
     outgoing direction (D2*b = B0*d2' for some B0) and f a chain map in the incoming direction (f*D1 = d1'*F2 for some
     F2) - for a unimodular change of basis B0 = b_next, F2 = f_prev; for ChainComplexBase::reduced() these are the
     identities of property C08;
     (p', q'): coordinates / generators satisfying the clauses for (d1', d2');
     then p = p'*f, q = b*q' satisfy the clauses for (D1, D2). *)
  Theorem gens_ok_compose (D1 D2 d1' d2' f b p' q' p q : dmat R) rank tors :
    let n := nr D1 in let n' := nr d1' in let h := (rank + length tors)%nat in
    meq n' n' (mmul o n (mg f) (mg b)) (mid o) ->
    (exists B0 : mat R, meq (nr D2) n' (mmul o n (mg D2) (mg b)) (mmul o (nr d2') B0 (mg d2'))) ->
    (exists F2 : mat R, meq n' (nc D1) (mmul o n (mg f) (mg D1)) (mmul o (nc d1') (mg d1') F2)) ->
    gens_ok o d1' d2' rank tors p' q' ->
    nr p = h -> nc p = n -> nr q = n -> nc q = h ->
    meq h n (mg p) (mmul o n' (mg p') (mg f)) ->
    meq n h (mg q) (mmul o n' (mg b) (mg q')) ->
    gens_ok o D1 D2 rank tors p q.
  Proof.
    intros n n' h Hfb [B0 Hcyc] [F2 Hbnd] [G1 [G2 [G3 [G4 [Gc [Gi Gb]]]]]] P1 P2 Q1 Q2 HP HQ.
    fold n' in G2, G3, Gc, Gi, Gb. fold h in G1, G4, Gc, Gi, Gb.
    unfold gens_ok. fold n. fold h.
    split; [exact P1|]. split; [exact P2|]. split; [exact Q1|]. split; [exact Q2|]. split; [|split].
    - (* D2 * (b * q') = (D2 * b) * q' = B0 * (d2' * q') = 0 *)
      intros i j Hi Hj. unfold mzero.
      rewrite (mmul_ext_r o n _ _ (mmul o n' (mg b) (mg q'))) by (intros l Hl; now apply HQ).
      rewrite <- (mmul_assoc o L).
      rewrite (mmul_ext_l o n' _ (mmul o (nr d2') B0 (mg d2'))) by (intros l Hl; now apply Hcyc).
      rewrite (mmul_assoc o L).
      unfold mmul at 1. apply (sum_zero_ext o L). intros l Hl.
      rewrite (Gc l j Hl Hj). unfold mzero. ring.
    - (* (p' * f) * (b * q') = p' * (f * b) * q' = p' * q' = I *)
      intros i j Hi Hj.
      rewrite (mmul_ext_l o n _ (mmul o n' (mg p') (mg f))) by (intros l Hl; now apply HP).
      rewrite (mmul_ext_r o n _ _ (mmul o n' (mg b) (mg q'))) by (intros l Hl; now apply HQ).
      rewrite (mmul_assoc o L).
      rewrite (mmul_ext_r o n' _ _ (mg q')).
      + now apply Gi.
      + intros l Hl. rewrite <- (mmul_assoc o L).
        rewrite (mmul_ext_l o n' _ (mid o)) by (intros k Hk; now apply Hfb).
        now apply (mmul_id_l o L).
    - (* p * D1 * x = p' * (f * D1 * x) = p' * d1' * (F2 * x) *)
      intros x i Hi. cbv zeta.
      assert (E : mvec o n (mg p) (mvec o (nc D1) (mg D1) x) i =
                  mvec o n' (mg p') (mvec o (nc d1') (mg d1') (mvec o (nc D1) F2 x)) i).
      { rewrite (mvec_ext_row o _ (mmul o n' (mg p') (mg f))) by (intros l Hl; now apply HP).
        rewrite (mvec_mmul o L). apply (mvec_ext o). intros l Hl.
        rewrite <- (mvec_mmul o L).
        rewrite (mvec_ext_row o _ (mmul o (nc d1') (mg d1') F2)) by (intros k Hk; now apply Hbnd).
        now rewrite (mvec_mmul o L). }
      rewrite E. exact (Gb (mvec o (nc D1) F2 x) i Hi).
  Qed.

  (* the same for the summand returned by Summand::merge *)
  Theorem summand_merge_gens_ok (D1 D2 d1' d2' : dmat R) s h s' f b :
    summand_ok s -> summand_ok h -> summand_merge o s h = Some s' ->
    s_ngens s = nr D1 -> s_dim s = nr d1' ->
    forward_mat o (s_trans s) = Some f -> backward_mat o (s_trans s) = Some b ->
    meq (nr d1') (nr d1') (mmul o (nr D1) (mg f) (mg b)) (mid o) ->
    (exists B0 : mat R, meq (nr D2) (nr d1') (mmul o (nr D1) (mg D2) (mg b)) (mmul o (nr d2') B0 (mg d2'))) ->
    (exists F2 : mat R, meq (nr d1') (nc D1) (mmul o (nr D1) (mg f) (mg D1)) (mmul o (nc d1') (mg d1') F2)) ->
    (forall p' q', forward_mat o (s_trans h) = Some p' -> backward_mat o (s_trans h) = Some q' ->
                   gens_ok o d1' d2' (s_rank h) (s_tors h) p' q') ->
    exists p q, forward_mat o (s_trans s') = Some p /\ backward_mat o (s_trans s') = Some q /\
                gens_ok o D1 D2 (s_rank s') (s_tors s') p q.
  Proof.
    intros Hs Hh E Hn Hn' Ef Eb Hfb Hcyc Hbnd Hg.
    destruct (summand_merge_mats s h s' Hs Hh E)
      as [f0 [b0 [p' [q' [p [q [Ef0 [Eb0 [Ep' [Eq' [Ep [Eq Sh]]]]]]]]]]]].
    rewrite Ef in Ef0. injection Ef0 as <-. rewrite Eb in Eb0. injection Eb0 as <-.
    destruct Sh as [F1 [F2 [B1 [B2 [P1' [P2' [Q1' [Q2' [P1 [P2 [Q1 [Q2 [MP MQ]]]]]]]]]]]]].
    destruct (summand_merge_inv s h s' Hs Hh E) as [Hd [_ [N1 [N2 [N3 _]]]]].
    exists p, q. split; [exact Ep|]. split; [exact Eq|].
    rewrite N2, N3. unfold s_dim in *.
    apply (gens_ok_compose D1 D2 d1' d2' f b p' q' p q (s_rank h) (s_tors h)); try assumption; try congruence.
    - exact (Hg p' q' Ep' Eq').
    - rewrite <- Hn, <- Hn'. exact MP.
    - rewrite <- Hn, <- Hn'. exact MQ.
  Qed.
End C07Merge.
