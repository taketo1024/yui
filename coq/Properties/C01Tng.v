(* C01 (part): the first layer of Bar-Natan's tangle / cobordism engine (v2) of the library, brought inside the model:
     yui-link/src/link/path.rs, crossing.rs (Crossing::arcs)            Path: arcs / circles as label sequences
     yui-khovanov/src/kh/internal/v2/tng.rs                             TngComp, Tng: gluing of tangles
   Model: Model/Tng.v (mirror, list for Vec, None for a panic); proofs: Proofs/TngP*.v.
   The correspondence run (harness/src/bin/c01tng.rs, vlib/c01tng.py) compares every function of the model with the
   real code on the RAW representation (stored label order of every component).

   Reading of the statements
   * a path [v0; ...; vn] is a walk in the graph whose vertices are the edge labels of the diagram; [segs p] are its
     steps as unordered pairs (min, max) - a circle has the closing step in addition, the one-label circle [e] (a kink)
     is the loop (e, e); [tsegs t] is the multiset of steps of all components of a tangle;
   * [pwf] / [twf]: arcs are not empty (Path::new asserts it, no operation breaks it);
   * [simple p]: no repeated label; an arc has >= 2 labels, a circle >= 1;
   * [tng_inv t]: all components simple, their label sets pairwise disjoint;  [tng_ok t] = [tng_inv t] and
     sorted by TngComp's order (is_circle, min_edge) - THE CANONICAL FORM the code maintains: `normalize` sorts the
     Vec of components by (arc before circle, least label); the orientation / rotation of a component is NOT
     normalised (it depends on the gluing order), which is why TngComp's == is the unoriented equality [unori_eq];
   * [deg_le2 S]: every label lies on at most two step ends;  [labels_le2 xs]: every label occurs at most twice
     among the 4n slots of the crossings (every PD code and every sub-tangle of one);
   * [conn S u v]: u and v are joined by a chain of steps of S. *)
From Coq Require Import List Arith Bool ZArith Permutation Sorted Relations.
Import ListNotations.
Require Import Yui.Model.Link Yui.Model.Tng Yui.Model.TngCob.
Require Import Yui.Proofs.TngPCob Yui.Proofs.TngPCobDeg.
Require Import Yui.Proofs.TngPBase Yui.Proofs.TngPSegs Yui.Proofs.TngPDeg Yui.Proofs.TngPJoin Yui.Proofs.TngPStep
  Yui.Proofs.TngPSeq Yui.Proofs.TngPConn Yui.Proofs.TngPMain Yui.Proofs.TngPUniq Yui.Proofs.TngPEq
  Yui.Proofs.TngPLink.
Require Yui.Proofs.C18Base Yui.Proofs.C18Components.

(* 1. for ALL inputs (malformed ones included): whatever returns preserves the multiset of steps *)

(* Path::connect / TngComp::connect panics exactly when the two paths are not connectable *)
Theorem C01_tng_comp_connect_panics_iff : forall p q,
  p_connect p q = None <-> p_connectable p q = false.
Proof. exact p_connect_none. Qed.
Print Assumptions C01_tng_comp_connect_panics_iff.

(* ... and otherwise the steps of the result are those of the two arguments (in all four gluing cases, with or
   without closing up), and the result is well formed *)
Theorem C01_tng_comp_connect_steps : forall p q r, pwf p -> pwf q -> p_connect p q = Some r ->
  Permutation (segs r) (segs p ++ segs q) /\ pwf r.
Proof. intros p q r Wp Wq E. split; [apply p_connect_segs; auto|eapply p_connect_pwf; eauto]. Qed.
Print Assumptions C01_tng_comp_connect_steps.

(* normalize / Tng::new: a permutation of the components, or a panic *)
Theorem C01_tng_new_is_sorted_permutation : forall cs t, tng_new cs = Some t ->
  Permutation t cs /\ tng_sorted t.
Proof.
  intros cs t E. split; [apply tng_sort_perm; auto|]. unfold tng_new in E. rewrite (tng_sort_eq _ _ E).
  apply isort_sorted.
Qed.
Print Assumptions C01_tng_new_is_sorted_permutation.

(* Tng::append_arc on ANY tangle (also a non-normalised one built by Tng::new) *)
Theorem C01_tng_append_arc_steps : forall t arc t', twf t -> pwf arc -> append_arc t arc = Some t' ->
  Permutation (tsegs t') (tsegs t ++ segs arc) /\ twf t'.
Proof. exact append_arc_segs. Qed.
Print Assumptions C01_tng_append_arc_steps.

(* Tng::connect / Tng::connected *)
Theorem C01_tng_connect_steps : forall t other t', twf t -> twf other -> tng_connect t other = Some t' ->
  Permutation (tsegs t') (tsegs t ++ tsegs other) /\ twf t'.
Proof. exact tng_connect_segs. Qed.
Print Assumptions C01_tng_connect_steps.

(* Tng::from_resolved: panics exactly on an unresolved crossing; otherwise the two strands of the crossing *)
Theorem C01_tng_from_resolved_steps : forall x,
  (is_resolved x = false -> tng_from_resolved x = None) /\
  (forall t, tng_from_resolved x = Some t ->
     is_resolved x = true /\ Permutation (tsegs t) (crossing_segs x) /\ twf t).
Proof. intros x. split; [apply from_resolved_none|apply from_resolved_segs]. Qed.
Print Assumptions C01_tng_from_resolved_steps.

(* gluing crossing by crossing (what TngComplex::append does with the tangle of every vertex) *)
Theorem C01_tng_of_crossings_steps : forall xs t, tng_of_crossings xs = Some t ->
  Permutation (tsegs t) (flat_map crossing_segs xs) /\ twf t.
Proof.
  intros xs t E. destruct (tng_of_crossings_from_segs xs [] t) as [P W]; auto. constructor.
Qed.
Print Assumptions C01_tng_of_crossings_steps.

(* euler_num = number of arcs = (number of labels) - (number of steps), with multiplicities *)
Theorem C01_tng_euler_num : forall t, twf t ->
  length (verts t) = length (tsegs t) + tng_euler_num t.
Proof. exact euler_num_spec. Qed.
Print Assumptions C01_tng_euler_num.

(* 2. no panic and normal form under the degree bound *)

(* connecting two simple arcs that meet at ends only: a simple arc or a simple circle on the union of the labels *)
Theorem C01_tng_comp_connect_simple : forall p q, simple p -> simple q -> p_connectable p q = true ->
  (forall v, In v (pedges p) -> In v (pedges q) -> is_end p v /\ is_end q v) ->
  exists r, p_connect p q = Some r /\ simple r /\
    (forall v, In v (pedges r) <-> In v (pedges p) \/ In v (pedges q)).
Proof. exact connect_simple. Qed.
Print Assumptions C01_tng_comp_connect_simple.

(* one append_arc: no panic (in particular the second match comes after the first: `self.comps[i]` after
   `self.comps.remove(j)` is still the component that was extended), simple disjoint components, sorted *)
Theorem C01_tng_append_arc_normal_form : forall t arc, tng_inv t -> simple arc -> pclosed arc = false ->
  deg_le2 (tsegs t ++ segs arc) ->
  exists t', append_arc t arc = Some t' /\ tng_inv t' /\ tng_sorted t'.
Proof. exact append_arc_inv. Qed.
Print Assumptions C01_tng_append_arc_normal_form.

(* any sequence of append_arc *)
Theorem C01_tng_append_all_normal_form : forall arcs t, tng_ok t -> Forall simple_arc arcs ->
  deg_le2 (tsegs t ++ flat_map segs arcs) ->
  exists t', append_all t arcs = Some t' /\ tng_ok t' /\ Permutation (tsegs t') (tsegs t ++ flat_map segs arcs).
Proof. exact append_all_ok. Qed.
Print Assumptions C01_tng_append_all_normal_form.

(* Tng::connect of two glued tangles *)
Theorem C01_tng_connect_normal_form : forall t other, tng_inv t -> Forall simple other ->
  deg_le2 (tsegs t ++ tsegs other) ->
  exists t', tng_connect t other = Some t' /\ tng_ok t' /\ Permutation (tsegs t') (tsegs t ++ tsegs other).
Proof. exact tng_connect_ok. Qed.
Print Assumptions C01_tng_connect_normal_form.

Theorem C01_tng_from_resolved_normal_form : forall x, is_resolved x = true -> deg_le2 (crossing_segs x) ->
  exists t, tng_from_resolved x = Some t /\ tng_ok t /\ Permutation (tsegs t) (crossing_segs x).
Proof. exact from_resolved_ok. Qed.
Print Assumptions C01_tng_from_resolved_normal_form.

(* the tangle of any list of resolved crossings in which no label occurs more than twice *)
Theorem C01_tng_of_crossings_normal_form : forall xs,
  Forall (fun x => is_resolved x = true) xs -> labels_le2 xs ->
  exists t, tng_of_crossings xs = Some t /\ tng_ok t /\ Permutation (tsegs t) (flat_map crossing_segs xs).
Proof. exact tng_of_crossings_ok. Qed.
Print Assumptions C01_tng_of_crossings_normal_form.

(* 3. the components are exactly the connected components of the union graph *)
Theorem C01_tng_components_are_connected_components : forall t u v, tng_inv t -> In u (verts t) ->
  (conn (tsegs t) u v <-> exists c, In c t /\ In u (pedges c) /\ In v (pedges c)).
Proof. exact components_are_connected_components. Qed.
Print Assumptions C01_tng_components_are_connected_components.

(* for the tangle of a diagram: its labels are the labels of the crossings, and two labels lie on the same
   component iff they are joined by a chain of strands of the resolved crossings *)
Theorem C01_tng_of_crossings_components : forall xs,
  Forall (fun x => is_resolved x = true) xs -> labels_le2 xs ->
  exists t, tng_of_crossings xs = Some t /\ tng_ok t /\
    (forall v, In v (verts t) <-> In v (edge_labels xs)) /\
    (forall u v, In u (edge_labels xs) ->
       (conn (flat_map crossing_segs xs) u v <-> exists c, In c t /\ In u (pedges c) /\ In v (pedges c))).
Proof. exact crossings_components. Qed.
Print Assumptions C01_tng_of_crossings_components.

(* a closed diagram (every label exactly twice) glues to circles only *)
Theorem C01_tng_closed_diagram_circles : forall xs t, Forall (fun x => is_resolved x = true) xs ->
  (forall v, In v (edge_labels xs) -> count_occ Nat.eq_dec (edge_labels xs) v = 2) ->
  tng_of_crossings xs = Some t -> tng_is_closed t = true.
Proof. exact closed_diagram_circles. Qed.
Print Assumptions C01_tng_closed_diagram_circles.

(* relation with the C18 model of yui-link: the strand-through-a-crossing relation used there for
   `Link::components` is the adjacency of the step graph (for all four crossing types) ... *)
Theorem C01_tng_strand_relation : forall l e e',
  Yui.Proofs.C18Components.thru l e e' <-> adj (flat_map crossing_segs l) e e'.
Proof. exact thru_adj. Qed.
Print Assumptions C01_tng_strand_relation.

(* ... hence for a valid, completely resolved PD code (Model/Link.v) the glued tangle consists of circles only, as
   many as `Link::components` returns, with the same label sets *)
Theorem C01_tng_circles_are_link_components : forall l,
  Yui.Proofs.C18Base.Valid l -> Forall (fun x => is_resolved x = true) l ->
  exists cs t, components l = Some cs /\ tng_of_crossings l = Some t /\ tng_ok t /\ tng_is_closed t = true /\
    length cs = length t /\
    (forall c, In c cs -> exists c', In c' t /\ forall e, In e (pedges c) <-> In e (pedges c')) /\
    (forall c', In c' t -> exists c, In c cs /\ forall e, In e (pedges c) <-> In e (pedges c')).
Proof. exact tng_circles_are_link_components. Qed.
Print Assumptions C01_tng_circles_are_link_components.

(* 4. the normal form depends on the multiset of steps only: order independence up to the library's == *)

(* a simple path / cycle is determined by its steps up to reversal (and rotation), and that is what TngComp's ==
   (Path::unori_eq, with its early exits on length and label sum and its index arithmetic mod n) accepts *)
Theorem C01_tng_comp_eq_complete : forall c1 c2, simple c1 -> simple c2 -> pclosed c1 = pclosed c2 ->
  Permutation (segs c1) (segs c2) -> unori_eq c1 c2 = true.
Proof. exact same_segs_unori_eq. Qed.
Print Assumptions C01_tng_comp_eq_complete.

(* two tangles in normal form with the same steps: same number of components, in the same order, same kind, same
   label sets, and equal under the derived Tng == *)
Theorem C01_tng_normal_form_unique : forall t1 t2, tng_ok t1 -> tng_ok t2 ->
  Permutation (tsegs t1) (tsegs t2) ->
  Forall2 same_comp t1 t2 /\ tng_eqb t1 t2 = true.
Proof. intros t1 t2 O1 O2 Hp. split; [apply normal_form_unique|apply normal_form_eqb]; auto. Qed.
Print Assumptions C01_tng_normal_form_unique.

(* arcs appended in any order *)
Theorem C01_tng_append_order_independent : forall arcs arcs', Permutation arcs arcs' ->
  Forall simple_arc arcs -> deg_le2 (flat_map segs arcs) ->
  exists t1 t2, append_all [] arcs = Some t1 /\ append_all [] arcs' = Some t2 /\
                tng_ok t1 /\ tng_ok t2 /\ tng_eqb t1 t2 = true.
Proof. exact (arcs_order _ normal_form_eqb). Qed.
Print Assumptions C01_tng_append_order_independent.

(* crossings glued in any order *)
Theorem C01_tng_crossing_order_independent : forall xs ys, Permutation xs ys ->
  Forall (fun x => is_resolved x = true) xs -> labels_le2 xs ->
  exists t1 t2, tng_of_crossings xs = Some t1 /\ tng_of_crossings ys = Some t2 /\
                tng_ok t1 /\ tng_ok t2 /\ tng_eqb t1 t2 = true.
Proof. exact (crossings_order _ normal_form_eqb). Qed.
Print Assumptions C01_tng_crossing_order_independent.

(* Tng::connect is commutative up to == *)
Theorem C01_tng_connect_commutative : forall a b, tng_inv a -> tng_inv b -> deg_le2 (tsegs a ++ tsegs b) ->
  exists t1 t2, tng_connect a b = Some t1 /\ tng_connect b a = Some t2 /\
                tng_ok t1 /\ tng_ok t2 /\ tng_eqb t1 t2 = true.
Proof. exact tng_connect_comm_eqb. Qed.
Print Assumptions C01_tng_connect_commutative.

(* gluing two separately built halves = gluing crossing by crossing (the divide-and-conquer of the builder) *)
Theorem C01_tng_connect_halves : forall xs ys, Forall (fun x => is_resolved x = true) (xs ++ ys) ->
  labels_le2 (xs ++ ys) ->
  exists ta tb t1 t2, tng_of_crossings xs = Some ta /\ tng_of_crossings ys = Some tb /\
    tng_connect ta tb = Some t1 /\ tng_of_crossings (xs ++ ys) = Some t2 /\ tng_ok t1 /\ tng_eqb t1 t2 = true.
Proof. exact tng_connect_halves_eqb. Qed.
Print Assumptions C01_tng_connect_halves.

(* 5. cobordisms (cob.rs, Model/TngCob.v): Euler number and degree under horizontal composition *)
(* [cc_*] = CobComp, [cob_*] = Cob; chi = 2 - 2 genus - nbdr_comps; deg = chi - #endpts/2 - 2 #dots.
   [cob_wf s]: the source tangles of the components are glued tangles and no label lies on more than two of their
   step ends (the components of the cobordisms of one cube edge, before they are connected).
   Vertical composition (Cob::stack, identity and inverse laws, cap_off, part_eval, LcCob): Model/TngStack.v and
   Properties/C01Stack.v.  NOT proved: the topological meaning of nbdr_comps and of the genus formula (that the asserts
   g >= 0, g even never fire). *)

(* the loops of nbdr_comps terminate (the model's fuel is never the reason for None) *)
Theorem C01_cob_nbdr_terminates : forall c, nbdr_fuel c <> None.
Proof. exact nbdr_fuel_sufficient. Qed.
Print Assumptions C01_cob_nbdr_terminates.

(* CobComp::connect, whenever it returns: the genus update makes chi(S u S') = chi(S) + chi(S') - #(shared end
   points) (= chi of the intersection, a union of arcs), the tangles are connected, the dots are added *)
Theorem C01_cob_connect_euler_partial : forall c o r, cc_connect c o = Some r ->
  exists x1 x2, cc_euler c = Some x1 /\ cc_euler o = Some x2 /\
    cc_euler r = Some (x1 + x2 - Z.of_nat (shared_endpts c o))%Z /\
    0 < shared_endpts c o /\
    tng_connect (csrc c) (csrc o) = Some (csrc r) /\ tng_connect (ctgt c) (ctgt o) = Some (ctgt r) /\
    cdx r = cdx c + cdx o /\ cdy r = cdy c + cdy o.
Proof. exact cc_connect_euler. Qed.
Print Assumptions C01_cob_connect_euler_partial.

(* the end points of a glued tangle are the labels of degree 1, and gluing removes the shared ones *)
Theorem C01_tng_endpts_after_gluing : forall t1 t2 t', tng_inv t1 -> tng_inv t2 -> tng_inv t' ->
  Permutation (tsegs t') (tsegs t1 ++ tsegs t2) -> deg_le2 (tsegs t1 ++ tsegs t2) ->
  (forall v, In v (tng_endpts t') <-> deg (tsegs t') v = 1) /\
  length (tng_endpts t') + 2 * length (filter (fun v => mem v (tng_endpts t2)) (tng_endpts t1))
  = length (tng_endpts t1) + length (tng_endpts t2).
Proof.
  intros t1 t2 t' I1 I2 I' Hp Hd. split; [intros v; apply endpts_deg1; auto|apply glued_endpts_length; auto].
Qed.
Print Assumptions C01_tng_endpts_after_gluing.

(* deg is additive under CobComp::connect (whenever it returns; full statement = without that proviso, which needs
   the topological correctness of nbdr_comps) *)
Theorem C01_cob_connect_deg_additive_partial : forall c o r, cc_connect c o = Some r ->
  tng_inv (csrc c) -> tng_inv (csrc o) -> deg_le2 (tsegs (csrc c) ++ tsegs (csrc o)) ->
  exists d1 d2, cc_deg c = Some d1 /\ cc_deg o = Some d2 /\ cc_deg r = Some (d1 + d2)%Z /\
    tng_ok (csrc r) /\ Permutation (tsegs (csrc r)) (tsegs (csrc c) ++ tsegs (csrc o)).
Proof. exact cc_connect_deg. Qed.
Print Assumptions C01_cob_connect_deg_additive_partial.

(* Cob::connect / Cob::connected (every component of `b` absorbs the components of `a` it touches): the degree of
   the result is the sum of the degrees (None = some nbdr_comps panics) *)
Theorem C01_cob_connect_cobs_deg_additive_partial : forall a b c, cob_wf (a ++ b) -> cob_connect a b = Some c ->
  cob_wf c /\
  cob_deg c = match cob_deg a, cob_deg b with Some x, Some y => Some (x + y)%Z | _, _ => None end.
Proof. exact cob_connect_deg. Qed.
Print Assumptions C01_cob_connect_cobs_deg_additive_partial.

Theorem C01_cob_connect_comp_deg_additive_partial : forall s c r, cob_wf (c :: s) -> cob_connect_comp s c = Some r ->
  cob_wf r /\
  cob_deg r = match cob_deg s, cc_deg c with Some x, Some y => Some (x + y)%Z | _, _ => None end.
Proof. exact cob_connect_comp_deg. Qed.
Print Assumptions C01_cob_connect_comp_deg_additive_partial.

(* invertible components: inv is an involution; cylinders have degree 0 *)
Theorem C01_cob_inv_involutive : forall c c', cc_inv c = Some c' ->
  cc_is_invertible c' = true /\ cc_inv c' = Some c.
Proof. exact cc_inv_involutive. Qed.
Print Assumptions C01_cob_inv_involutive.

Theorem C01_cob_cylinder_degree : forall p q,
  (pclosed p = true /\ pclosed q = true) \/
  (pclosed p = false /\ pclosed q = false /\ p_connectable q p = true /\ hd 0 (pedges p) <> last (pedges p) 0) ->
  cc_is_invertible (cc_plain [p] [q] 0) = true /\
  cc_nbdr (cc_plain [p] [q] 0) = Some (if pclosed p then 2 else 1) /\
  cc_euler (cc_plain [p] [q] 0) = Some (if pclosed p then 0 else 1)%Z /\
  cc_deg (cc_plain [p] [q] 0) = Some 0%Z.
Proof. exact cc_cylinder_deg. Qed.
Print Assumptions C01_cob_cylinder_degree.

(* 6. examples (non-vacuity) and the corner cases of the real code that the model mirrors *)

(* the trefoil [1,4,2,5],[3,6,4,1],[5,2,6,3] resolved V, H, V: hypotheses of the theorems hold, one circle *)
Definition ex_xs : list crossing := [mkX V 1 4 2 5; mkX H 3 6 4 1; mkX V 5 2 6 3].
Example C01_tng_example_trefoil :
  Forall (fun x => is_resolved x = true) ex_xs /\ labels_le2 ex_xs /\
  tng_of_crossings ex_xs = Some [mkP [3; 6; 2; 4; 1; 5] true] /\
  tng_of_crossings (rev ex_xs) = Some [mkP [4; 1; 5; 3; 6; 2] true] /\
  tng_eqb [mkP [3; 6; 2; 4; 1; 5] true] [mkP [4; 1; 5; 3; 6; 2] true] = true.
Proof.
  split; [repeat constructor|]. split; [|repeat split; reflexivity].
  intros v. do 7 (destruct v as [|v]; [cbn; repeat constructor|]). cbn. repeat constructor.
Qed.

(* an open tangle: two of the three crossings *)
Example C01_tng_example_open :
  tng_of_crossings [mkX V 1 4 2 5; mkX H 3 6 4 1] = Some [mkP [2; 4; 1; 5] false; mkP [3; 6] false] /\
  tng_euler_num [mkP [2; 4; 1; 5] false; mkP [3; 6] false] = 2.
Proof. split; reflexivity. Qed.

(* the empty circle: arc[1].connect(arc[1]) is the circle with no label; sorting it next to another circle
   panics (min_edge of an empty path) *)
Example C01_tng_example_empty_circle :
  p_connect (mkP [1] false) (mkP [1] false) = Some (mkP [] true) /\
  append_arc [mkP [1] false] (mkP [1] false) = Some [mkP [] true] /\
  tng_connect [mkP [] true] [mkP [5] true] = None.
Proof. repeat split; reflexivity. Qed.

(* append_arc on a NON-normalised tangle (Tng::new of connectable arcs): the second match precedes the first,
   `self.comps[i]` after `remove(j)` is another component, and the call panics.  Unreachable from glued tangles
   (C01_tng_append_arc_normal_form). *)
Example C01_tng_example_index_shift :
  tng_new [mkP [0; 1] false; mkP [1; 2] false; mkP [5; 6] false] = Some [mkP [0; 1] false; mkP [1; 2] false; mkP [5; 6] false] /\
  append_arc [mkP [0; 1] false; mkP [1; 2] false; mkP [5; 6] false] (mkP [2; 5] false) = None /\
  append_arc [mkP [1; 2] false; mkP [5; 6] false] (mkP [2; 5] false) = Some [mkP [1; 2; 5; 6] false].
Proof. repeat split; reflexivity. Qed.

(* the unit test `connect_incr_genus` of cob.rs: two parallel strands joined twice gain a handle *)
Definition ex_c0 := cc_plain [mkP [1; 2] false; mkP [3; 4] false] [mkP [1; 2] false; mkP [3; 4] false] 0.
Example C01_cob_example_incr_genus :
  exists c1 c2, cc_connect ex_c0 (cc_id (mkP [1; 3] false)) = Some c1 /\ cgenus c1 = 1 /\ cc_euler c1 = Some (-1)%Z /\
    cc_connect c1 (cc_id (mkP [2; 4] false)) = Some c2 /\ cgenus c2 = 1 /\ cc_euler c2 = Some (-2)%Z /\
    cc_deg ex_c0 = Some (-2)%Z /\ cc_deg c2 = Some (-2)%Z.
Proof.
  (* the two results written out: left as existential variables they are instantiated with unevaluated terms, and
     every later conjunct evaluates the gluing again without sharing *)
  exists (mkCC [mkP [4; 3; 1; 2] false] [mkP [4; 3; 1; 2] false] 1 0 0),
         (mkCC [mkP [4; 3; 1; 2] true] [mkP [4; 3; 1; 2] true] 1 0 0).
  repeat split; reflexivity.
Qed.
