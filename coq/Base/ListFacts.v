(* Facts about the standard list functions that several parts of the development use and the standard
   library of this Coq version does not have. *)
From Coq Require Import Arith List Lia Bool Permutation.
Import ListNotations.

(* membership test by [Nat.eqb] *)

Lemma existsb_eqb_In e l : existsb (Nat.eqb e) l = true <-> In e l.
Proof.
  rewrite existsb_exists. split.
  - intros [x [Hx E]]. apply Nat.eqb_eq in E. now subst.
  - intros H. exists e. split; [exact H|apply Nat.eqb_refl].
Qed.

Lemma existsb_eqb_not_In e l : existsb (Nat.eqb e) l = false <-> ~ In e l.
Proof. rewrite <- existsb_eqb_In. now destruct (existsb _ l). Qed.

(* a boolean test for duplicates, given by its two equations *)
Lemma nodupb_spec (nd : list nat -> bool) :
  nd [] = true -> (forall x r, nd (x :: r) = negb (existsb (Nat.eqb x) r) && nd r) ->
  forall l, nd l = true <-> NoDup l.
Proof.
  intros E0 E1. induction l as [|x r IH]; [split; [constructor|trivial]|].
  rewrite E1, andb_true_iff, negb_true_iff, existsb_eqb_not_In, IH. split.
  - intros [H1 H2]. now constructor.
  - intros H. inversion H; now subst.
Qed.

(* filter *)

Lemma filter_all {A} (f : A -> bool) l : (forall x, In x l -> f x = true) -> filter f l = l.
Proof.
  induction l as [|x l IH]; intros H; cbn [filter]; [reflexivity|].
  rewrite (H x (or_introl eq_refl)). f_equal. apply IH. intros y Hy. apply H. now right.
Qed.

Lemma filter_none {A} (f : A -> bool) l : (forall x, In x l -> f x = false) -> filter f l = [].
Proof.
  induction l as [|x l IH]; intros H; cbn [filter]; [reflexivity|].
  rewrite (H x (or_introl eq_refl)). apply IH. intros y Hy. apply H. now right.
Qed.

Lemma filter_map_comm {A B} (f : B -> bool) (g : A -> B) l :
  filter f (map g l) = map g (filter (fun x => f (g x)) l).
Proof. induction l as [|x l IH]; [reflexivity|]. cbn [map filter]. destruct (f (g x)); cbn [map]; now rewrite IH. Qed.

Lemma filter_split_length {A} (f : A -> bool) l :
  length l = length (filter f l) + length (filter (fun x => negb (f x)) l).
Proof. induction l as [|x l IH]; [reflexivity|]. cbn [filter]. destruct (f x); cbn [negb length]; lia. Qed.

Lemma filter_perm {A} (f : A -> bool) a b : Permutation a b -> Permutation (filter f a) (filter f b).
Proof.
  intros Hp. induction Hp as [|x a b _ IH|x y a|a b c _ IH1 _ IH2]; cbn [filter].
  - constructor.
  - destruct (f x); [constructor|]; exact IH.
  - destruct (f x), (f y); try apply perm_swap; reflexivity.
  - exact (perm_trans IH1 IH2).
Qed.

Lemma perm_in_iff {A} (a b : list A) v : Permutation a b -> (In v a <-> In v b).
Proof. intros Hp. split; apply Permutation_in; [exact Hp|exact (Permutation_sym Hp)]. Qed.

(* flat_map *)

Lemma flat_map_ext_in {A B} (f g : A -> list B) l : (forall x, In x l -> f x = g x) -> flat_map f l = flat_map g l.
Proof.
  induction l as [|x l IH]; intros H; [reflexivity|]. cbn [flat_map].
  rewrite (H x (or_introl eq_refl)), IH; [reflexivity|]. intros y Hy. apply H. now right.
Qed.

(* nth *)

Lemma nth_map_seq {A} (f : nat -> A) s n d i : i < n -> nth i (map f (seq s n)) d = f (s + i).
Proof.
  intros H. rewrite nth_indep with (d' := f 0) by now rewrite map_length, seq_length.
  now rewrite map_nth, seq_nth.
Qed.

Lemma nth_firstn_lt {A} (l : list A) n i d : i < n -> nth i (firstn n l) d = nth i l d.
Proof.
  revert n i. induction l as [|x l IH]; intros n i H.
  - rewrite firstn_nil. reflexivity.
  - destruct n as [|n]; [lia|]. cbn [firstn]. destruct i as [|i]; cbn [nth]; [reflexivity|].
    apply IH. lia.
Qed.

(* NoDup *)

Lemma NoDup_app_intro {A} (a b : list A) :
  NoDup a -> NoDup b -> (forall x, In x a -> ~ In x b) -> NoDup (a ++ b).
Proof.
  induction a as [|x a IH]; intros Ha Hb H; cbn [app]; [exact Hb|].
  inversion Ha as [|? ? Hx Ha']; subst. constructor.
  - rewrite in_app_iff. intros [Hi|Hi]; [contradiction|]. apply (H x); [now left|exact Hi].
  - apply IH; [exact Ha'|exact Hb|]. intros y Hy. apply H. now right.
Qed.

Lemma NoDup_app_inv {A} (a b : list A) :
  NoDup (a ++ b) -> NoDup a /\ NoDup b /\ (forall x, In x a -> ~ In x b).
Proof.
  induction a as [|x a IH]; cbn [app]; intros H.
  - split; [constructor|]. split; [exact H|intros x []].
  - inversion H as [|? ? Hx H']; subst. destruct (IH H') as (Ha & Hb & Hd). rewrite in_app_iff in Hx.
    split; [constructor; [tauto|exact Ha]|]. split; [exact Hb|].
    intros y [<-|Hy]; [tauto|now apply Hd].
Qed.

Lemma NoDup_map_filter {A B} (f : A -> B) p l : NoDup (map f l) -> NoDup (map f (filter p l)).
Proof.
  induction l as [|x l IH]; intros H; [constructor|]. cbn [map] in H. inversion H as [|? ? Hx Hl]; subst.
  cbn [filter]. destruct (p x); [|now apply IH]. cbn [map]. constructor; [|now apply IH].
  intros Hi. apply Hx. apply in_map_iff in Hi as [y [E Hy]]. apply filter_In in Hy as [Hy _].
  apply in_map_iff. now exists y.
Qed.

(* last *)

Lemma last_cons_ne {A} (x : A) l d : l <> [] -> last (x :: l) d = last l d.
Proof. destruct l; [contradiction|reflexivity]. Qed.

Lemma last_indep {A} (l : list A) d d' : l <> [] -> last l d = last l d'.
Proof.
  induction l as [|x l IH]; intros Hl; [contradiction|].
  destruct l as [|y l]; [reflexivity|]. rewrite !(last_cons_ne x) by discriminate. now apply IH.
Qed.

Lemma last_app_ne {A} (a b : list A) d : b <> [] -> last (a ++ b) d = last b d.
Proof.
  intros Hb. induction a as [|x a IH]; [reflexivity|].
  cbn [app]. rewrite last_cons_ne; [exact IH|]. destruct a; [exact Hb|discriminate].
Qed.

Lemma last_In {A} (l : list A) d : l <> [] -> In (last l d) l.
Proof.
  induction l as [|x l IH]; intros Hl; [contradiction|].
  destruct l as [|y l]; [now left|]. right. rewrite last_cons_ne by discriminate. now apply IH.
Qed.

(* minimum of a list by [fold_right] *)

Lemma fold_min_spec r x :
  In (fold_right Nat.min x r) (x :: r) /\ forall y, In y (x :: r) -> fold_right Nat.min x r <= y.
Proof.
  induction r as [|z r [Hin Hle]]; cbn [fold_right].
  - split; [now left|]. intros y [<-|[]]. lia.
  - split.
    + destruct (Nat.min_spec z (fold_right Nat.min x r)) as [[_ ->]|[_ ->]]; [right; now left|].
      destruct Hin as [E|Hin]; [now left|right; now right].
    + intros y [<-|[<-|Hy]]; [specialize (Hle x (or_introl eq_refl))|lia|specialize (Hle y (or_intror Hy))]; lia.
Qed.
