(* C09 - termination of diag_normalize within the default fuel.
   Measure: the sum over k of log2 N(d_0 * ... * d_k) (N = the Euclidean function).  Every pass of the restart
   loop that does not finish replaces (d_i, d_(i+1)) by (d_i', d_(i+1)') with d_i' * d_(i+1)' = d_i * d_(i+1)
   and d_i = c * d_i' for a non-zero non-unit c (swap: d_i' = d_(i+1); gcd step: d_i' = gcd), so exactly one
   prefix product changes, to a proper divisor of itself.
   The file defines the hypotheses [norm_laws] and [gcdx_total] and proves them for the integer and field
   dictionaries ([Zpre_term_laws], [field_term_laws]). *)
From Coq Require Import ZArith NArith List Bool Arith Lia Ring.
Require Import Yui.Base.Ring Yui.Base.MatF Yui.Base.MatL Yui.Model.Snf Yui.Proofs.C09Mat Yui.Proofs.C09Inv
  Yui.Proofs.C09Run Yui.Proofs.C09Exit Yui.Proofs.C09Diag Yui.Proofs.C09Laws.
Import ListNotations.

(* what the termination argument needs of the Euclidean function and of `%` *)
Record norm_laws {R : Type} (D : euc_dict R) : Prop := mk_norm_laws {
  nl_pos : forall a, a <> rzero (ed_ring D) -> (1 <= rnorm (ed_euc D) a)%N;
  nl_double : forall q d, d <> rzero (ed_ring D) -> q <> rzero (ed_ring D) ->
      (forall qi, rmul (ed_ring D) q qi <> rone (ed_ring D)) ->
      (2 * rnorm (ed_euc D) d <= rnorm (ed_euc D) (rmul (ed_ring D) q d))%N;
  nl_rem_mul : forall q b, b <> rzero (ed_ring D) ->
      rrem (ed_euc D) (rmul (ed_ring D) q b) b = rzero (ed_ring D);
  (* `inv` finds every inverse (used by the termination of eliminate_at only) *)
  nl_inv_complete : forall a z, rmul (ed_ring D) a z = rone (ed_ring D) ->
      exists ai, rinv (ed_unit D) a = Some ai;
}.
Definition gcdx_total {R : Type} (D : euc_dict R) : Prop := forall x y, exists r, ed_gcdx D x y = Some r.

Lemma ofold_total {S : Type} (f : nat -> S -> option S) l :
  (forall k x, exists x', f k x = Some x') -> forall s, exists s', ofold f l s = Some s'.
Proof.
  intros Hf. induction l as [|k l IH]; intros s; cbn [ofold]; [eexists; reflexivity|].
  destruct (Hf k s) as [x' ->]. apply IH.
Qed.

Section Term.
  Context {R : Type} (D : euc_dict R) (SL : snf_laws D) (NL : norm_laws D) (GT : gcdx_total D).
  Let o := ed_ring D.
  Let L : ring_laws o := sl_ring D SL.
  Add Ring Rring : (ring_theory_of_laws o L).

  Local Notation "0" := (rzero o).
  Local Notation "1" := (rone o).
  Local Infix "+" := (radd o).
  Local Infix "*" := (rmul o).
  Local Notation "- x" := (rneg o x).
  Local Notation get := (lget o).
  Implicit Types T : lmat R.

  Definition nonunit (c : R) : Prop := forall ci, c * ci <> 1.

  Fixpoint mu_list (acc : R) (l : list R) : nat :=
    match l with
    | [] => O
    | x :: r => Nat.add (esize D (acc * x)) (mu_list (acc * x) r)
    end.

  Lemma prefix_sizes_mu acc l : (mu_list acc l <= prefix_sizes D acc l)%nat.
  Proof.
    revert acc. induction l as [|x l IH]; intros acc; cbn [mu_list prefix_sizes]; [lia|].
    cbv zeta. specialize (IH (rmul (ed_ring D) acc x)). fold o in IH |- *. lia.
  Qed.

  Lemma esize_lt a c : a <> 0 -> c <> 0 -> nonunit c -> esize D a < esize D (c * a).
  Proof.
    intros Ha Hc Hu. unfold esize.
    pose proof (nl_pos D NL a Ha) as H1. pose proof (nl_double D NL c a Ha Hc Hu) as H2. fold o in H2.
    set (x := rnorm (ed_euc D) a) in *. set (y := rnorm (ed_euc D) (c * a)) in *.
    assert (H3 : (N.log2 (2 * x) <= N.log2 y)%N) by (apply N.log2_le_mono; exact H2).
    rewrite N.log2_double in H3 by lia. lia.
  Qed.

  Lemma mu_list_step acc l1 x y x' y' l2 c :
    acc <> 0 -> Forall (fun z => z <> 0) l1 -> x' <> 0 -> c <> 0 -> nonunit c ->
    x = c * x' -> x' * y' = x * y ->
    (mu_list acc (l1 ++ x' :: y' :: l2) < mu_list acc (l1 ++ x :: y :: l2))%nat.
  Proof.
    intros Hacc Hl1 Hx' Hc Hu Ex Exy. revert acc Hacc.
    induction l1 as [|z l1 IH]; intros acc Hacc; cbn [app mu_list].
    - assert (E2 : acc * x' * y' = acc * x * y).
      { transitivity (acc * (x' * y')); [ring|]. rewrite Exy. ring. }
      rewrite E2.
      assert (E1 : acc * x = c * (acc * x')) by (rewrite Ex; ring).
      rewrite E1.
      assert (Hax : acc * x' <> 0).
      { intros E. destruct (mul_eq_0 D SL _ _ E); contradiction. }
      pose proof (esize_lt (acc * x') c Hax Hc Hu). lia.
    - inversion Hl1 as [|? ? Hz Hl1']; subst.
      assert (Haz : acc * z <> 0).
      { intros E. destruct (mul_eq_0 D SL _ _ E); contradiction. }
      specialize (IH Hl1' (acc * z) Haz). lia.
  Qed.

  Variables m n : nat.
  Local Notation DiagR := (DiagR D m n).

  Definition dlist (r : nat) T : list R := diag_entries D T r.
  Definition mu (r : nat) T : nat := mu_list 1 (dlist r T).

  Lemma dlist_split r T i :
    S i < r ->
    dlist r T = map (fun k => get T k k) (seq 0 i) ++
                get T i i :: get T (S i) (S i) :: map (fun k => get T k k) (seq (S (S i)) (r - S (S i))).
  Proof.
    intros Hi. unfold dlist, diag_entries.
    replace r with (i + (2 + (r - S (S i))))%nat at 1 by lia.
    rewrite seq_app, map_app. reflexivity.
  Qed.

  (* one failed step of the pass decreases the measure *)
  Lemma mu_step r T T' i c :
    S i < r -> DiagR r T ->
    (forall k, k < Nat.min m n -> k <> i -> k <> S i -> get T' k k = get T k k) ->
    get T' i i <> 0 -> c <> 0 -> nonunit c ->
    get T i i = c * get T' i i ->
    get T' i i * get T' (S i) (S i) = get T i i * get T (S i) (S i) ->
    (mu r T' < mu r T)%nat.
  Proof.
    intros Hi (W & Hr & Hoff & Hnz & Hz) Hoth Hx' Hc Hu Ex Exy. unfold mu.
    rewrite (dlist_split r T i Hi), (dlist_split r T' i Hi).
    assert (E1 : map (fun k => get T' k k) (seq 0 i) = map (fun k => get T k k) (seq 0 i)).
    { apply map_ext_in. intros k Hk. apply in_seq in Hk. apply Hoth; lia. }
    assert (E2 : map (fun k => get T' k k) (seq (S (S i)) (r - S (S i)))
                 = map (fun k => get T k k) (seq (S (S i)) (r - S (S i)))).
    { apply map_ext_in. intros k Hk. apply in_seq in Hk. apply Hoth; lia. }
    rewrite E1, E2.
    apply (mu_list_step 1 _ _ _ _ _ _ c); try assumption.
    - apply (one_neq_0 D SL).
    - apply Forall_forall. intros z Hz'. apply in_map_iff in Hz'. destruct Hz' as [k [<- Hk]].
      apply in_seq in Hk. apply Hnz. lia.
  Qed.

  Lemma divides_mul x q : x <> 0 -> divides o (ed_euc D) x (q * x) = true.
  Proof.
    intros Hx. unfold divides. apply andb_true_iff. split.
    - apply negb_true_iff. now apply (ris_zero_false o L).
    - apply (ris_zero_true o L). now apply (nl_rem_mul D NL).
  Qed.

  Lemma snf_gcdx_total x y : x <> 0 -> exists d s t, snf_gcdx D x y = Some (d, s, t).
  Proof.
    intros Hx. unfold snf_gcdx. destruct (GT x y) as [[[d s] t] G]. rewrite G. cbn [sbind].
    destruct (sl_gcdx D SL _ _ _ _ _ G) as (_ & [a Ha] & _). fold o in Ha.
    assert (Hd : d <> 0). { intros E. apply Hx. rewrite Ha, E. ring. }
    apply (ris_zero_false (ed_ring D) L) in Hd. rewrite Hd.
    destruct (rinv (ed_unit D) (rdiv (ed_euc D) x d)); do 3 eexists; reflexivity.
  Qed.

  Lemma diag_after_swap r T i k :
    S i < r -> DiagR r T -> k < Nat.min m n ->
    get (m_swap_cols i (S i) (m_swap_rows i (S i) T)) k k = get T (swp i (S i) k) (swp i (S i) k).
  Proof.
    intros Hi (W & Hr & _) Hk.
    assert (W1 : wf m n (m_swap_rows i (S i) T)) by (apply wf_swap_rows; try assumption; lia).
    rewrite (get_swap_cols D m n) by (try assumption; lia).
    rewrite (get_swap_rows D m n); try assumption; try lia. reflexivity.
  Qed.

  (* one step of the pass: never panics; `true` leaves the state alone; `false` decreases the measure *)
  Lemma diag_step_total i r s :
    S i < r -> DiagR r (st_t s) ->
    exists sb, diag_normalize_step D i s = Some sb /\
               DiagR r (st_t (fst sb)) /\
               (snd sb = true -> fst sb = s) /\
               (snd sb = false -> (mu r (st_t (fst sb)) < mu r (st_t s))%nat).
  Proof.
    intros Hi HD. pose proof HD as (W & Hr & Hoff & Hnz & Hz). fold o in Hoff, Hnz, Hz.
    set (x := get (st_t s) i i). set (y := get (st_t s) (S i) (S i)).
    assert (Hx : x <> 0) by (apply Hnz; lia). assert (Hy : y <> 0) by (apply Hnz; lia).
    unfold diag_normalize_step. cbv zeta. rewrite !mget_lget. fold o. fold x. fold y.
    replace (ris_zero o x) with false by (symmetry; now apply (ris_zero_false o L)).
    replace (ris_zero o y) with false by (symmetry; now apply (ris_zero_false o L)).
    cbn [orb].
    destruct (divides o (ed_euc D) x y) eqn:D1.
    { eexists. split; [reflexivity|]. cbn [fst snd]. split; [exact HD|]. split; [reflexivity|discriminate]. }
    destruct (divides o (ed_euc D) y x) eqn:D2.
    { eexists. split; [reflexivity|]. cbn [fst snd s_swap_cols s_swap_rows st_t].
      split; [now apply DiagR_swap|]. split; [discriminate|]. intros _.
      destruct (divides_true D SL _ _ D2) as [_ [q Hq]]. fold o in Hq.
      apply (mu_step r (st_t s) _ i q Hi HD).
      - intros k Hk Hk1 Hk2. rewrite (diag_after_swap r (st_t s) i k Hi HD Hk). unfold swp.
        destruct (Nat.eqb_spec k i); [contradiction|]. destruct (Nat.eqb_spec k (S i)); [contradiction|]. reflexivity.
      - rewrite (diag_after_swap r (st_t s) i i Hi HD) by lia. unfold swp. rewrite Nat.eqb_refl. exact Hy.
      - intros E. apply Hx. rewrite Hq, E. ring.
      - intros qi Hqi. (* q a unit: then x | y *)
        assert (Ey : y = qi * x). { rewrite Hq. transitivity (q * qi * y); [rewrite Hqi|]; ring. }
        rewrite Ey, (divides_mul x qi Hx) in D1. discriminate.
      - rewrite (diag_after_swap r (st_t s) i i Hi HD) by lia. unfold swp. rewrite Nat.eqb_refl. exact Hq.
      - rewrite !(diag_after_swap r (st_t s) i _ Hi HD) by lia. unfold swp.
        rewrite Nat.eqb_refl. destruct (Nat.eqb_spec (S i) i); [lia|]. rewrite Nat.eqb_refl.
        fold x. fold y. ring. }
    destruct (snf_gcdx_total x y Hx) as (d & sx & ty & G). rewrite G. cbn [sbind].
    eexists. split; [reflexivity|]. cbn [fst snd s_right_elem s_left_elem st_t].
    destruct (snf_gcdx_spec D SL _ _ _ _ _ G) as (Hd & Hbez & Hxa & Hyb & Hone). fold o in Hbez, Hxa, Hyb, Hone.
    set (a := rdiv (ed_euc D) x d) in *. set (b := rdiv (ed_euc D) y d) in *.
    destruct (DiagR_gcd_step D SL m n i r (st_t s) a b d sx ty Hi HD Hd Hxa Hyb Hone) as (HD2 & Eii & Ess & Eoth).
    fold o in Eii, Ess, Eoth. clearbody a b.
    split; [exact HD2|]. split; [discriminate|]. intros _.
    apply (mu_step r (st_t s) _ i a Hi HD).
    - exact Eoth.
    - rewrite Eii. exact Hd.
    - intros E. apply Hx. rewrite Hxa, E. ring.
    - intros ai Hai. (* a a unit: then x | y *)
      assert (Ey : y = b * ai * x).
      { rewrite Hyb, Hxa. transitivity (b * d * (a * ai)); [rewrite Hai|]; ring. }
      rewrite Ey, (divides_mul x (b * ai) Hx) in D1. discriminate.
    - rewrite Eii. exact Hxa.
    - rewrite Eii, Ess. fold x. fold y. rewrite Hxa, Hyb. ring.
  Qed.

  Lemma diag_pass_total r is s :
    (forall i, In i is -> S i < r) -> DiagR r (st_t s) ->
    exists sb, diag_pass D is s = Some sb /\
               DiagR r (st_t (fst sb)) /\
               (snd sb = false -> (mu r (st_t (fst sb)) < mu r (st_t s))%nat).
  Proof.
    induction is as [|i is IH]; intros Hin HD; cbn [diag_pass].
    - eexists. split; [reflexivity|]. cbn [fst snd]. split; [exact HD|discriminate].
    - destruct (diag_step_total i r s (Hin i (or_introl eq_refl)) HD) as (sb1 & E & HD1 & Ht & Hf).
      rewrite E. cbn [sbind]. destruct (snd sb1) eqn:B.
      + rewrite (Ht eq_refl). apply IH; [|exact HD]. intros; apply Hin; now right.
      + eexists. split; [reflexivity|]. cbn [fst snd]. split; [exact HD1|]. intros _. now apply Hf.
  Qed.

  Lemma diag_outer_total fuel : forall r s,
    DiagR r (st_t s) -> (mu r (st_t s) < fuel)%nat -> exists s', diag_outer D fuel r s = Some s'.
  Proof.
    induction fuel as [|f IH]; intros r s HD Hf; [lia|]. cbn [diag_outer].
    destruct (diag_pass_total r (seq 0 (r - 1)) s) as (sb & E & HD1 & Hlt); [|exact HD|].
    { intros i Hi. apply in_seq in Hi. lia. }
    rewrite E. cbn [sbind]. destruct (snd sb) eqn:B; [eexists; reflexivity|].
    apply IH; [exact HD1|]. specialize (Hlt eq_refl). lia.
  Qed.

  Lemma diag_unit_body_total i s : exists s', diag_unit_body D i s = Some s'.
  Proof.
    unfold diag_unit_body. cbv zeta. destruct (ris_one _ _); [eexists; reflexivity|].
    destruct (sl_nunit_inv D SL (mget D (st_t s) i i)) as [vi Hvi].
    rewrite (s_mul_row_eq D i _ vi s Hvi). eexists; reflexivity.
  Qed.

  Theorem diag_normalize_total r s :
    DiagR r (st_t s) -> exists s', diag_normalize D (default_fuel D) m n s = Some s'.
  Proof.
    intros HD. unfold diag_normalize. cbv zeta. rewrite (diag_rank_DiagR D SL m n r) by exact HD.
    destruct (r =? 0); [eexists; reflexivity|].
    destruct (diag_outer_total (fp_diag (default_fuel D) (diag_entries D (st_t s) r)) r s HD) as [s1 E1].
    { cbn [default_fuel fp_diag]. unfold mu, dlist.
      pose proof (prefix_sizes_mu 1 (diag_entries D (st_t s) r)) as H. fold o. lia. }
    rewrite E1. cbn [sbind]. apply ofold_total. intros k x. apply diag_unit_body_total.
  Qed.
End Term.

Lemma Zpre_term_laws pre : norm_laws (Zpre_dict pre) /\ gcdx_total (Zpre_dict pre).
Proof.
  split.
  - constructor; cbn [Zpre_dict ed_ring ed_euc ed_unit Z_ring Z_euc Z_units rinv rnorm rrem rmul rzero rone].
    + intros a Ha. destruct a; [contradiction|cbn; lia|cbn; lia].
    + intros q d Hd Hq Hu. rewrite Zabs2N.inj_mul.
      assert (2 <= Z.abs_N q)%N.
      { assert (q <> 1%Z) by (intros ->; now apply (Hu 1%Z)).
        assert (q <> (-1)%Z) by (intros ->; now apply (Hu (-1)%Z)).
        assert (2 <= Z.abs q)%Z by lia.
        apply N2Z.inj_le. rewrite N2Z.inj_abs_N. exact H1. }
      nia.
    + intros q b Hb. now apply Z.rem_mul.
    + intros a z Haz. assert (U : Z_is_unit a = true).
      { apply Z_is_unit_iff. destruct (Z.mul_eq_1 a z Haz) as [-> | ->]; [now left|now right]. }
      rewrite U. eexists; reflexivity.
  - intros x y. cbn [Zpre_dict ed_gcdx]. apply Z_gcdx_total.
Qed.

Lemma field_term_laws {F : Type} (o : ring_ops F) (finv : F -> F) :
  ring_laws o -> rone o <> rzero o -> (forall a, a <> rzero o -> rmul o a (finv a) = rone o) ->
  norm_laws (field_dict o finv) /\ gcdx_total (field_dict o finv).
Proof.
  intros L H10 Hinv. split.
  - constructor; cbn [field_dict ed_ring ed_euc ed_unit field_euc field_units rinv rnorm rrem].
    + intros a Ha. apply (ris_zero_false o L) in Ha. rewrite Ha. lia.
    + intros q d _ Hq Hu. exfalso. apply (Hu (finv q)). now apply Hinv.
    + reflexivity.
    + intros a z Haz. destruct (ris_zero o a) eqn:Z; [|eexists; reflexivity].
      apply (reqb_eq o L) in Z. exfalso. exact (unit_neq_0 _ (field_snf_laws o finv L H10 Hinv) a z Haz Z).
  - intros x y. cbn [field_dict ed_gcdx]. unfold generic_gcdx, divides. cbn [field_euc rrem].
    (* every remainder is 0: whichever of x, y is not zero divides the other *)
    replace (ris_zero o (rzero o)) with true by (symmetry; now apply (reqb_eq o L)).
    destruct (ris_zero o x), (ris_zero o y); cbn [negb andb]; eexists; reflexivity.
Qed.
