(* Ring instances used by C12.
   [Z_units] with its laws is the instance that shows the hypotheses of the C12 theorems are satisfiable
   (non-vacuity).  The instances Q, F_7 and Z[i] are plain executable dictionaries: they are only used to
   *run* the ring-generic model in the correspondence check (the theorems quantify over every ring with
   laws and do not mention them); that they compute what Ratio<i64>, FF<7> and GaussInt<i64> compute is
   observed by that check. *)
From Coq Require Import ZArith QArith Bool List Lia.
Require Import Yui.Base.Ring.
Import ListNotations.

(* Z: units are 1 and -1 *)
Definition Z_units : unit_ops Z :=
  mk_unit_ops Z (fun a => (Z.abs a =? 1)%Z)
                (fun a => if (Z.abs a =? 1)%Z then Some a else None)
                (fun a => if (a <? 0)%Z then (-1)%Z else 1%Z).

Lemma Z_unit_laws : unit_laws Z_ring Z_units.
Proof. apply Z_unit_laws_of. intros a. rewrite Z.eqb_eq. lia. Qed.

(* Q: reduced fractions (Qred after every operation) *)
Definition Qc_eqb (a b : Q) : bool := (Qnum a =? Qnum b)%Z && (Qden a =? Qden b)%positive.
Definition Q_ring : ring_ops Q :=
  mk_ring_ops Q (0#1) (1#1) (fun a b => Qred (Qplus a b)) (fun a => Qred (Qopp a))
              (fun a b => Qred (Qmult a b)) Qc_eqb.
Definition Q_units : unit_ops Q :=
  mk_unit_ops Q (fun a => negb (Qnum a =? 0)%Z)
                (fun a => if (Qnum a =? 0)%Z then None else Some (Qred (Qinv a)))
                (fun a => if (Qnum a =? 0)%Z then (1#1) else Qred (Qinv a)).

(* F_7: residues 0..6 *)
Definition F7_ring : ring_ops Z :=
  mk_ring_ops Z 0%Z 1%Z (fun a b => ((a + b) mod 7)%Z) (fun a => ((- a) mod 7)%Z)
              (fun a b => ((a * b) mod 7)%Z) Z.eqb.
Definition F7_inv (a : Z) : Z := ((a * a * a * a * a) mod 7)%Z.          (* a^(p-2) *)
Definition F7_units : unit_ops Z :=
  mk_unit_ops Z (fun a => negb (a =? 0)%Z)
                (fun a => if (a =? 0)%Z then None else Some (F7_inv a))
                (fun a => if (a =? 0)%Z then 1%Z else F7_inv a).

(* Z[i]: pairs (re, im); units 1, -1, i, -i *)
Definition Gi := (Z * Z)%type.
Definition Gi_eqb (a b : Gi) : bool := (fst a =? fst b)%Z && (snd a =? snd b)%Z.
Definition Gi_ring : ring_ops Gi :=
  mk_ring_ops Gi (0, 0)%Z (1, 0)%Z
              (fun a b => (fst a + fst b, snd a + snd b)%Z)
              (fun a => (- fst a, - snd a)%Z)
              (fun a b => (fst a * fst b - snd a * snd b, fst a * snd b + snd a * fst b)%Z)
              Gi_eqb.
Definition Gi_norm (a : Gi) : Z := (fst a * fst a + snd a * snd a)%Z.
Definition Gi_units : unit_ops Gi :=
  mk_unit_ops Gi (fun a => (Gi_norm a =? 1)%Z)
                 (fun a => if (Gi_norm a =? 1)%Z then Some (fst a, - snd a)%Z else None)
                 (fun a => (1, 0)%Z).
