(* C16 (rest): specification of PolyBase<MultiVar>::lead_term_for(k) (Model/Poly.v [lead_term_for]):
   among the stored terms whose exponent of x_k is POSITIVE, the unique maximum for the order
   "exponent of x_k, ties broken by cmp_grlex"; None iff no term has a positive exponent of x_k
   (for isize exponents, terms with a negative exponent of x_k are ignored as well).
   The generic lemma about `Iterator::max_by` is [max_fold] in C16Mono.v. *)
From Coq Require Import List Bool Arith NArith ZArith Lia.
Require Import Yui.Base.Ring Yui.Model.Lc Yui.Model.Mono Yui.Model.Poly.
Require Import Yui.Proofs.C16Lc Yui.Proofs.C16Mono Yui.Proofs.C16MDeg Yui.Proofs.C16Poly.
Import ListNotations.

Section LeadFor.
  Context {I R : Type} (e : exp_ops I) (eZ : I -> Z) (EL : exp_laws e eZ).
  Context (o : ring_ops R).
  Notation mdeg := (@Mono.mdeg I).
  Notation m := (mvar_mono e).
  Notation coeff := (coeff (md_eqb e) o).
  Notation WF := (WF o (Reduced e)).

  (* the comparison max_by uses: exponent of x_k first, then cmp_grlex *)
  Definition cmp_for (k : nat) (x y : mdeg) : comparison :=
    then_with (ecmp e (md_at e x k) (md_at e y k)) (md_cmp_grlex e x y).

  Lemma cmp_for_ord k : ord_laws (Reduced e) (cmp_for k).
  Proof.
    apply (ord_graded (Reduced e) (fun _ => True) (fun x => md_at e x k) _ _ (ecmp_ord e eZ EL) (md_grlex_ord e eZ EL)). auto.
  Qed.

  Theorem lead_term_for_spec (p : lc mdeg R) k : WF p ->
    match lead_term_for e p k with
    | None => forall x, coeff p x <> rzero o -> (eZ (md_at e x k) <= 0)%Z
    | Some (x, c) =>
        c = coeff p x /\ c <> rzero o /\ (0 < eZ (md_at e x k))%Z /\
        forall y, coeff p y <> rzero o -> (0 < eZ (md_at e y k))%Z -> y <> x ->
          (eZ (md_at e y k) < eZ (md_at e x k))%Z \/
          (md_at e y k = md_at e x k /\ md_cmp_grlex e y x = Lt)
    end.
  Proof.
    intros [Np Kp]. unfold lead_term_for.
    set (f := fun t : mdeg * R => match ecmp e (md_at e (fst t) k) (ezero e) with Gt => true | _ => false end).
    assert (Hf : forall t, f t = true <-> (0 < eZ (md_at e (fst t) k))%Z).
    { intros t. unfold f. rewrite (ecmp_Z e eZ EL), (eZ_0 e eZ EL).
      destruct (Z.compare_spec (eZ (md_at e (fst t) k)) 0); split; intros; try lia; try reflexivity; discriminate. }
    pose proof (md_eqb_eq e eZ EL) as xeqb_eq.
    assert (Hin : forall y, coeff p y <> rzero o -> (0 < eZ (md_at e y k))%Z -> In (y, coeff p y) (filter f p)).
    { intros y Hy Hk. apply filter_In. split; [|now apply Hf].
      apply (in_terms_iff (md_eqb e) o xeqb_eq p y (coeff p y) Np). auto. }
    destruct (filter f p) as [|t r] eqn:Ec.
    - intros x Hx. destruct (Z.le_gt_cases (eZ (md_at e x k)) 0) as [H|H]; [assumption|].
      exfalso. apply (Hin x Hx). lia.
    - assert (Hc : forall s, In s (t :: r) -> In s p /\ f s = true) by (intros s Hs; rewrite <- Ec in Hs; now apply filter_In in Hs).
      assert (Hok : forall s, In s p -> Reduced e (fst s)).
      { intros s Hs. apply (KeysOk_in _ p); [assumption|now apply in_map]. }
      assert (Ht : Reduced e (fst t)) by (apply Hok, Hc; now left).
      assert (Hr : Forall (fun t' => Reduced e (fst t')) r).
      { apply Forall_forall. intros s Hs. apply Hok, Hc. now right. }
      destruct (max_fold fst (Reduced e) (cmp_for k) (cmp_for_ord k) r t Ht Hr) as (_ & I1 & I2).
      change (fold_left (maxstep fst (cmp_for k)) r t) with
        (fold_left (fun best t' : mdeg * R =>
           match then_with (ecmp e (md_at e (fst best) k) (md_at e (fst t') k)) (md_cmp_grlex e (fst best) (fst t')) with
           | Gt => best | _ => t' end) r t) in I1, I2.
      set (res := fold_left _ r t) in *. destruct res as [x c] eqn:Eres. cbn [fst snd] in *.
      destruct (Hc _ I1) as [Ip Fx]. apply Hf in Fx. cbn [fst] in Fx.
      apply (in_terms_iff (md_eqb e) o xeqb_eq p x c Np) in Ip as [Ecx Nc].
      split; [now rewrite Ecx|]. split; [assumption|]. split; [assumption|].
      intros y Hy Hk Hyx. specialize (Hin y Hy Hk). specialize (I2 _ Hin). cbn [fst] in I2.
      destruct (cmp_for_ord k) as (OE & _ & _).
      assert (Ry : Reduced e y) by (apply (Hok (y, coeff p y)), Hc, Hin).
      assert (Rx : Reduced e x) by (apply (Hok (x, c)), Hc, I1).
      destruct (cmp_for k y x) eqn:C; [apply OE in C; [contradiction|assumption|assumption]| |congruence].
      unfold cmp_for in C. apply then_with_Lt in C. rewrite (ecmp_Z e eZ EL) in C.
      destruct C as [C|[C C']]; [left; now apply Z.compare_lt_iff|right].
      split; [|assumption]. apply (eZ_inj e eZ EL). now apply Z.compare_eq_iff.
  Qed.
End LeadFor.
