(* C16 (rest) - the observers of the polynomial types that Properties/C16.v does not treat:
   (a) checked monomial division / divides (Var, Var2, Var3, MultiDeg = MultiVar): exact, not only sound;
   (b) PolyBase<MultiVar>::lead_term_for(k);
   (c) Ring::inv / is_unit / normalizing_unit of PolyBase, and is_unit / inv of the monomial types;
   (d) is_const / const_term / is_one, pow (incl. the signed entry points).
   Each theorem is proved by [exact <lemma>] and is followed by Print Assumptions; the Examples at the end
   instantiate the hypotheses on concrete values (non-vacuity).

   Models: Model/Mono.v, Model/Poly.v.  [p_pow_z] (Pow<i32/i64/isize>) is defined in
   Proofs/C16RestPowZ.v (definitions only) as a line-by-line mirror of poly.rs impl_pow_signed.
   Quantification: every exponent dictionary [e] with [exp_laws e eZ] (proved for N = usize, Z = isize in
   Properties/C16.v), every monomial dictionary with [mono_laws] (+ [mono_unit_laws], proved below for the
   four families), every commutative ring with [ring_laws], every unit dictionary with [unit_laws]
   (Base/Ring.v: rinv a = Some b -> a*b = 1; is_unit a <-> rinv a is Some; a*b = 1 -> is_unit a;
   rnunit a is a unit; rnunit (a * rnunit a) = 1; ...).

   Vocabulary (Proofs/C16*.v): WF o ok p = keys distinct, no zero coefficient, every key valid;
   peq m o p q = equal coefficient functions; Reduced e d = MultiDeg invariant; coeff = hash-map lookup. *)
From Coq Require Import List Bool Arith NArith ZArith Lia.
Require Import Yui.Base.Ring Yui.Model.Lc Yui.Model.Mono Yui.Model.Poly.
Require Import Yui.Proofs.C16Lc Yui.Proofs.C16Mono Yui.Proofs.C16MDeg Yui.Proofs.C16Poly.
Require Import Yui.Proofs.C16RestPowZ Yui.Proofs.C16RestMono Yui.Proofs.C16RestMDeg Yui.Proofs.C16RestLead Yui.Proofs.C16RestUnit
               Yui.Proofs.C16RestDomain Yui.Proofs.C16RestPack.
Import ListNotations.

(* Var: x / y = Some z <-> z * y = x;  y.divides(x) <-> the division does not panic;
   it is defined iff the exponent type is signed or deg y <= deg x *)
Theorem C16Rest_var_div : forall I (e : exp_ops I) eZ, exp_laws e eZ -> forall x y : I,
  (forall z, mdiv (var_mono e) x y = Some z <-> mmul (var_mono e) z y = x) /\
  (mdivides (var_mono e) y x = true <-> exists z, mdiv (var_mono e) x y = Some z) /\
  ((exists z, mdiv (var_mono e) x y = Some z) <-> (esigned e = true \/ (eZ y <= eZ x)%Z)).
Proof. exact (@var_div_pack). Qed.
Print Assumptions C16Rest_var_div.

Theorem C16Rest_var2_div : forall I (e : exp_ops I) eZ, exp_laws e eZ -> forall x y : I * I,
  (forall z, mdiv (var2_mono e) x y = Some z <-> mmul (var2_mono e) z y = x) /\
  (mdivides (var2_mono e) y x = true <-> exists z, mdiv (var2_mono e) x y = Some z) /\
  ((exists z, mdiv (var2_mono e) x y = Some z) <->
   (esigned e = true \/ ((eZ (fst y) <= eZ (fst x))%Z /\ (eZ (snd y) <= eZ (snd x))%Z))).
Proof. exact (@var2_div_pack). Qed.
Print Assumptions C16Rest_var2_div.

Theorem C16Rest_var3_div : forall I (e : exp_ops I) eZ, exp_laws e eZ -> forall x y : I * I * I,
  (forall z, mdiv (var3_mono e) x y = Some z <-> mmul (var3_mono e) z y = x) /\
  (mdivides (var3_mono e) y x = true <-> exists z, mdiv (var3_mono e) x y = Some z) /\
  ((exists z, mdiv (var3_mono e) x y = Some z) <->
   (esigned e = true \/ ((eZ (v3_0 y) <= eZ (v3_0 x))%Z /\ (eZ (v3_1 y) <= eZ (v3_1 x))%Z /\ (eZ (v3_2 y) <= eZ (v3_2 x))%Z))).
Proof. exact (@var3_div_pack). Qed.
Print Assumptions C16Rest_var3_div.

(* MultiDeg / MultiVar (on reduced values): the same, the quotient is the pointwise difference and is
   reduced again; all_leq is the pointwise comparison *)
Theorem C16Rest_mvar_div : forall I (e : exp_ops I) eZ, exp_laws e eZ -> forall x y : @mdeg I,
  Reduced e x -> Reduced e y ->
  (forall z, md_sub e x y = Some z <-> Reduced e z /\ md_add e z y = x) /\
  (mdivides (mvar_mono e) y x = true <-> exists z, md_sub e x y = Some z) /\
  ((exists z, md_sub e x y = Some z) <-> (esigned e = true \/ forall i, (eZ (md_at e y i) <= eZ (md_at e x i))%Z)) /\
  (forall z, md_sub e x y = Some z -> forall i, eZ (md_at e z i) = (eZ (md_at e x i) - eZ (md_at e y i))%Z) /\
  (md_all_leq e y x = true <-> forall i, (eZ (md_at e y i) <= eZ (md_at e x i))%Z).
Proof. exact (@mvar_div_pack). Qed.
Print Assumptions C16Rest_mvar_div.

(* consequences for every monomial type with the laws: divides is divisibility, division undoes the
   product, the product is cancellative *)
Theorem C16Rest_div_laws_meaning : forall X (m : mono_ops X) (ok : X -> Prop),
  mono_div_laws m ok <->
  ((forall x y z, ok x -> ok y -> (mdiv m x y = Some z <-> ok z /\ mmul m z y = x)) /\
   (forall x y, ok x -> ok y -> (mdivides m y x = true <-> exists z, mdiv m x y = Some z))).
Proof. exact (fun X m ok => conj (fun H => conj (mdiv_iff m ok H) (mdivides_iff m ok H))
                                 (fun H => mk_mono_div_laws X m ok (proj1 H) (proj2 H))). Qed.
Print Assumptions C16Rest_div_laws_meaning.

Theorem C16Rest_div_laws : forall I (e : exp_ops I) eZ, exp_laws e eZ ->
  mono_div_laws (var_mono e) any /\ mono_div_laws (var2_mono e) any /\ mono_div_laws (var3_mono e) any /\
  mono_div_laws (mvar_mono e) (Reduced e).
Proof.
  exact (fun I e eZ EL => conj (var_div_laws e eZ EL) (conj (var2_div_laws e eZ EL) (conj (var3_div_laws e eZ EL)
        (mvar_div_laws e eZ EL)))).
Qed.
Print Assumptions C16Rest_div_laws.

Theorem C16Rest_div_generic : forall X (m : mono_ops X) (ok : X -> Prop), mono_laws m ok -> mono_div_laws m ok ->
  (forall x y, ok x -> ok y -> (mdivides m y x = true <-> exists z, ok z /\ mmul m z y = x)) /\
  (forall x y, ok x -> ok y -> mdiv m (mmul m x y) y = Some x) /\
  (forall x y z, ok x -> ok y -> ok z -> mmul m x z = mmul m y z -> x = y).
Proof.
  exact (fun X m ok ML DL => conj (mdivides_spec m ok DL) (conj (mdiv_mul m ok ML DL) (mmul_cancel_r m ok ML))).
Qed.
Print Assumptions C16Rest_div_generic.

(* among the terms with a POSITIVE exponent of x_k: the unique maximum for (exponent of x_k, then cmp_grlex);
   None iff no stored term has a positive exponent of x_k *)
Theorem C16Rest_lead_term_for : forall I R (e : exp_ops I) eZ, exp_laws e eZ -> forall (o : ring_ops R), ring_laws o ->
  forall (p : lc (@mdeg I) R) k, WF o (Reduced e) p ->
  match lead_term_for e p k with
  | None => forall x, coeff (md_eqb e) o p x <> rzero o -> (eZ (md_at e x k) <= 0)%Z
  | Some (x, c) =>
      c = coeff (md_eqb e) o p x /\ c <> rzero o /\ (0 < eZ (md_at e x k))%Z /\
      forall y, coeff (md_eqb e) o p y <> rzero o -> (0 < eZ (md_at e y k))%Z -> y <> x ->
        (eZ (md_at e y k) < eZ (md_at e x k))%Z \/
        (md_at e y k = md_at e x k /\ md_cmp_grlex e y x = Lt)
  end.
Proof. exact (fun I R e eZ EL o L => lead_term_for_spec e eZ EL o). Qed.
Print Assumptions C16Rest_lead_term_for.

Theorem C16Rest_unit_laws_meaning : forall X (m : mono_ops X) (ok : X -> Prop),
  mono_unit_laws m ok <->
  ((forall x y, ok x -> minv m x = Some y -> ok y /\ mmul m x y = mone m) /\
   (forall x, ok x -> (mis_unit m x = true <-> exists y, minv m x = Some y)) /\
   (forall x y, ok x -> ok y -> mmul m x y = mone m -> mis_unit m x = true)).
Proof. exact (fun X m ok => conj (fun H => conj (minv_some m ok H) (conj (mis_unit_iff m ok H) (munit_complete m ok H)))
                                 (fun H => mk_mono_unit_laws X m ok (proj1 H) (proj1 (proj2 H)) (proj2 (proj2 H)))). Qed.
Print Assumptions C16Rest_unit_laws_meaning.

(* is_unit / inv of the four monomial families: sound, is_unit <-> inv is Some, complete (every invertible
   monomial is a unit); signed exponents: everything is a unit, inv negates; unsigned: only 1 *)
Theorem C16Rest_mono_units : forall I (e : exp_ops I) eZ, exp_laws e eZ ->
  mono_unit_laws (var_mono e) any /\ mono_unit_laws (var2_mono e) any /\ mono_unit_laws (var3_mono e) any /\
  mono_unit_laws (mvar_mono e) (Reduced e) /\
  (esigned e = true ->
     (forall x, mis_unit (var_mono e) x = true) /\ (forall x, mis_unit (var2_mono e) x = true) /\
     (forall x, mis_unit (var3_mono e) x = true) /\ (forall x, mis_unit (mvar_mono e) x = true) /\
     (forall x, minv (var_mono e) x = Some (eneg e x)) /\
     (forall x, minv (var2_mono e) x = Some (eneg e (fst x), eneg e (snd x))) /\
     (forall x, minv (var3_mono e) x = Some (eneg e (v3_0 x), eneg e (v3_1 x), eneg e (v3_2 x))) /\
     (forall x, minv (mvar_mono e) x = Some (md_neg e x))) /\
  (esigned e = false ->
     (forall x, mis_unit (var_mono e) x = true <-> x = mone (var_mono e)) /\
     (forall x, mis_unit (var2_mono e) x = true <-> x = mone (var2_mono e)) /\
     (forall x, mis_unit (var3_mono e) x = true <-> x = mone (var3_mono e)) /\
     (forall x, mis_unit (mvar_mono e) x = true <-> x = mone (mvar_mono e)) /\
     (forall x, minv (var_mono e) x = if mis_unit (var_mono e) x then Some (mone (var_mono e)) else None) /\
     (forall x, minv (var2_mono e) x = if mis_unit (var2_mono e) x then Some (mone (var2_mono e)) else None) /\
     (forall x, minv (var3_mono e) x = if mis_unit (var3_mono e) x then Some (mone (var3_mono e)) else None) /\
     (forall x, minv (mvar_mono e) x = if mis_unit (mvar_mono e) x then Some (mone (mvar_mono e)) else None)).
Proof. exact (@mono_units_pack). Qed.
Print Assumptions C16Rest_mono_units.

Section PolyUnits.
  Context {X R : Type} (m : mono_ops X) (o : ring_ops R) (ok : X -> Prop).
  Context (ML : mono_laws m ok) (L : ring_laws o) (MU : mono_unit_laws m ok) (u : unit_ops R) (UL : unit_laws o u).
  Notation WF := (WF o ok).
  Notation coeff := (coeff (meqb m) o).
  Infix "==" := (peq m o) (at level 70).

  (* inv: Some exactly on single terms a*x with x and a invertible; the result is a^-1 * x^-1 *)
  Theorem C16Rest_inv_shape : forall p q,
    p_inv m o u p = Some q <->
    exists x a xi ai, p = [(x, a)] /\ minv m x = Some xi /\ rinv u a = Some ai /\ q = p_from_pair m o xi ai.
  Proof. exact (inv_shape m o u). Qed.
  (* inv p = Some q -> p * q = 1 = q * p, as stored values (not only extensionally) *)
  Theorem C16Rest_inv_sound : forall p q, WF p -> p_inv m o u p = Some q ->
    WF q /\ p_mul m o p q = p_one m o /\ p_mul m o q p = p_one m o.
  Proof. exact (inv_sound m o ok ML L MU u UL). Qed.
  Theorem C16Rest_is_unit_iff_inv : forall p, WF p -> (p_is_unit m u p = true <-> exists q, p_inv m o u p = Some q).
  Proof. exact (is_unit_iff_inv m o ok MU u UL). Qed.
  Theorem C16Rest_is_unit_shape : forall p,
    p_is_unit m u p = true <-> exists x a, p = [(x, a)] /\ mis_unit m x = true /\ ris_unit u a = true.
  Proof. exact (is_unit_shape m u). Qed.

  (* over an integral domain is_unit is exactly invertibility in the polynomial ring *)
  Theorem C16Rest_is_unit_iff_invertible : forall p, integral o -> WF p ->
    (p_is_unit m u p = true <-> exists q, WF q /\ p_mul m o p q == p_one m o).
  Proof. exact (is_unit_iff_invertible m o ok ML L MU u UL). Qed.

  (* normalizing_unit p is the constant rnunit(lead_coeff p): a unit; multiplying by it scales every
     coefficient, keeps the leading monomial, and normalises the leading coefficient *)
  Theorem C16Rest_normalizing_unit : forall p, rone o <> rzero o -> WF p ->
    let c := rnunit u (p_lead_coeff m o p) in
    let nu := p_normalizing_unit m o u p in
    nu = [(mone m, c)] /\ WF nu /\ p_is_unit m u nu = true /\
    WF (p_mul m o p nu) /\
    (forall z, coeff (p_mul m o p nu) z = rmul o (coeff p z) c) /\
    p_lead_mono m o (p_mul m o p nu) = p_lead_mono m o p /\
    p_lead_coeff m o (p_mul m o p nu) = rmul o (p_lead_coeff m o p) c /\
    rnunit u (p_lead_coeff m o (p_mul m o p nu)) = rone o.
  Proof. exact (normalizing_unit_spec m o ok ML L MU u UL). Qed.

  (* is_const looks at EVERY monomial of the support (for Laurent polynomials the leading monomial of
     1 + x^-1 is 1, yet the polynomial is not constant) *)
  Theorem C16Rest_is_const : forall p, WF p ->
    (p_is_const m p = true <-> forall x, coeff p x <> rzero o -> x = mone m).
  Proof. exact (is_const_iff m o ok ML). Qed.
  Theorem C16Rest_is_const_shape : forall p, WF p ->
    (p_is_const m p = true <-> p = [] \/ exists c, c <> rzero o /\ p = [(mone m, c)]).
  Proof. exact (is_const_shape m o ok ML). Qed.
  Theorem C16Rest_is_const_from_const : forall p, WF p ->
    (p_is_const m p = true <-> p = p_from_const m o (p_const_term m o p)).
  Proof. exact (is_const_from_const m o ok ML L). Qed.
  Theorem C16Rest_const_term : forall p, p_const_term m o p = coeff p (mone m).
  Proof. exact (const_term_spec m o). Qed.
  Theorem C16Rest_is_one : forall p, WF p -> (p_is_one m o p = true <-> p == p_one m o).
  Proof. exact (is_one_iff m o ok ML L). Qed.

  (* pow is the iterated product *)
  Theorem C16Rest_pow : forall a, WF a ->
    p_pow m o a 0 = p_one m o /\ p_pow m o a 1 == a /\
    (forall n, p_pow m o a (S n) = p_mul m o (p_pow m o a n) a) /\
    (forall n k, p_pow m o a (n + k) == p_mul m o (p_pow m o a n) (p_pow m o a k)).
  Proof.
    exact (fun a Ha => conj (pow_0 m o a) (conj (pow_1 m o ok ML L a Ha) (conj (pow_succ m o a)
          (fun n k => pow_add m o ok ML L a n k Ha)))).
  Qed.
  (* signed exponents: n >= 0 as above; n < 0 panics iff self is not a unit, otherwise the result is the
     inverse of a^(-n) *)
  Theorem C16Rest_pow_signed : forall a, WF a ->
    (forall n, (0 <= n)%Z -> p_pow_z m o u a n = Some (p_pow m o a (Z.to_nat n))) /\
    (forall n, p_pow_z m o u a n = None <-> (n < 0)%Z /\ p_is_unit m u a = false) /\
    (forall n q, (n < 0)%Z -> p_pow_z m o u a n = Some q ->
       WF q /\ p_mul m o (p_pow m o a (Z.to_nat (- n))) q == p_one m o).
  Proof.
    exact (fun a Ha => conj (pow_z_nonneg m o u a) (conj (fun n => pow_z_none m o ok MU u UL a n Ha)
          (fun n q => pow_z_neg m o ok ML L MU u UL a n q Ha))).
  Qed.
End PolyUnits.
Print Assumptions C16Rest_inv_shape.
Print Assumptions C16Rest_inv_sound.
Print Assumptions C16Rest_is_unit_iff_inv.
Print Assumptions C16Rest_is_unit_shape.
Print Assumptions C16Rest_is_unit_iff_invertible.
Print Assumptions C16Rest_normalizing_unit.
Print Assumptions C16Rest_is_const.
Print Assumptions C16Rest_is_const_shape.
Print Assumptions C16Rest_is_const_from_const.
Print Assumptions C16Rest_const_term.
Print Assumptions C16Rest_is_one.
Print Assumptions C16Rest_pow.
Print Assumptions C16Rest_pow_signed.

(* is_unit for the concrete types: ordinary polynomials (usize exponents) -> the constant units;
   Laurent polynomials (isize exponents) -> the single terms with a unit coefficient *)
Theorem C16Rest_units_ordinary : forall I (e : exp_ops I) eZ, exp_laws e eZ ->
  forall R (o : ring_ops R), ring_laws o -> forall u : unit_ops R, unit_laws o u ->
  esigned e = false -> rone o <> rzero o ->
  (forall p, WF o any p -> (p_is_unit (var_mono e) u p = true <-> exists a, ris_unit u a = true /\ p = p_from_const (var_mono e) o a)) /\
  (forall p, WF o any p -> (p_is_unit (var2_mono e) u p = true <-> exists a, ris_unit u a = true /\ p = p_from_const (var2_mono e) o a)) /\
  (forall p, WF o any p -> (p_is_unit (var3_mono e) u p = true <-> exists a, ris_unit u a = true /\ p = p_from_const (var3_mono e) o a)) /\
  (forall p, WF o (Reduced e) p -> (p_is_unit (mvar_mono e) u p = true <-> exists a, ris_unit u a = true /\ p = p_from_const (mvar_mono e) o a)).
Proof. exact (fun I e eZ EL R o L u UL => poly_units_ordinary e eZ EL o L u UL). Qed.
Print Assumptions C16Rest_units_ordinary.

Theorem C16Rest_units_laurent : forall I (e : exp_ops I) eZ, exp_laws e eZ ->
  forall R (u : unit_ops R), esigned e = true ->
  (forall p, p_is_unit (var_mono e) u p = true <-> exists x a, ris_unit u a = true /\ p = [(x, a)]) /\
  (forall p, p_is_unit (var2_mono e) u p = true <-> exists x a, ris_unit u a = true /\ p = [(x, a)]) /\
  (forall p, p_is_unit (var3_mono e) u p = true <-> exists x a, ris_unit u a = true /\ p = [(x, a)]) /\
  (forall p, p_is_unit (mvar_mono e) u p = true <-> exists x a, ris_unit u a = true /\ p = [(x, a)]).
Proof. exact (fun I e eZ EL R u => poly_units_laurent e eZ EL u). Qed.
Print Assumptions C16Rest_units_laurent.

(* the dictionaries the hypotheses quantify over exist: Z with its units {1, -1} is an integral domain with
   unit laws (this is the dictionary the correspondence driver runs) *)
Example C16Rest_dictionaries_exist :
  ring_laws Z_ring /\ integral Z_ring /\ unit_laws Z_ring Z_units /\
  exp_laws N_exp Z.of_N /\ exp_laws Z_exp (fun z => z).
Proof. exact (conj Z_ring_laws (conj Z_integral (conj Z_units_laws (conj N_exp_laws Z_exp_laws)))). Qed.

(* division: x^3 / x^5 panics for usize and is x^-2 for isize; x0^3 x2 / x0^2 x1 panics, / x0^3 = x2 *)
Example C16Rest_example_div :
  mdiv (var_mono N_exp) 3%N 5%N = None /\ mdiv (var_mono N_exp) 5%N 3%N = Some 2%N /\
  mdivides (var_mono N_exp) 3%N 5%N = true /\ mdivides (var_mono N_exp) 5%N 3%N = false /\
  mdiv (var_mono Z_exp) 3%Z 5%Z = Some (-2)%Z /\
  mdiv (var2_mono N_exp) (3, 1)%N (2, 2)%N = None /\ mdiv (var2_mono N_exp) (3, 2)%N (2, 2)%N = Some (1, 0)%N /\
  mdiv (mvar_mono N_exp) [(0, 3%N); (2, 1%N)] [(0, 2%N); (1, 1%N)] = None /\
  mdiv (mvar_mono N_exp) [(0, 3%N); (2, 1%N)] [(0, 3%N)] = Some [(2, 1%N)] /\
  mdivides (mvar_mono N_exp) [(0, 3%N)] [(0, 3%N); (2, 1%N)] = true /\
  mdiv (mvar_mono Z_exp) [(0, 3%Z); (2, 1%Z)] [(0, 3%Z); (1, 5%Z)] = Some [(1, (-5)%Z); (2, 1%Z)].
Proof. vm_compute. repeat split; reflexivity. Qed.

(* a Laurent polynomial in Z[x0^+-1, x1, x2]: 5 x0^2 x1 + 7 x0^2 x2^3 + x0^-4 + 2 x1^9 + 3 x0 x1^8 *)
Example C16Rest_example_lead_term_for :
  let p : lc (@mdeg Z) Z :=
    [([(0, 2%Z); (1, 1%Z)], 5%Z); ([(0, 2%Z); (2, 3%Z)], 7%Z); ([(0, (-4)%Z)], 1%Z); ([(1, 9%Z)], 2%Z);
     ([(0, 1%Z); (1, 8%Z)], 3%Z)] in
  WF Z_ring (Reduced Z_exp) p /\
  lead_term_for Z_exp p 0 = Some ([(0, 2%Z); (2, 3%Z)], 7%Z) /\      (* tie in x0 broken by grlex *)
  lead_term_for Z_exp p 1 = Some ([(1, 9%Z)], 2%Z) /\
  lead_term_for Z_exp p 2 = Some ([(0, 2%Z); (2, 3%Z)], 7%Z) /\
  lead_term_for Z_exp p 3 = None.
Proof.
  cbv zeta. split; [|vm_compute; repeat split; reflexivity].
  split; [split|].
  - cbn. repeat constructor; cbn; intuition discriminate.
  - repeat constructor; cbn; discriminate.
  - unfold KeysOk. cbn. repeat constructor; cbn; try lia; discriminate.
Qed.

(* units: -x^-3 is a unit of Z[x, x^-1] with inverse -x^3; -x^3 is not a unit of Z[x]; 2 is not a unit;
   1 + x^-1 has leading term 1 but is not constant *)
Example C16Rest_example_units :
  p_inv (var_mono Z_exp) Z_ring Z_units [((-3)%Z, (-1)%Z)] = Some [(3%Z, (-1)%Z)] /\
  p_mul (var_mono Z_exp) Z_ring [((-3)%Z, (-1)%Z)] [(3%Z, (-1)%Z)] = p_one (var_mono Z_exp) Z_ring /\
  p_is_unit (var_mono N_exp) Z_units [(3%N, (-1)%Z)] = false /\
  p_is_unit (var_mono N_exp) Z_units [(0%N, (-1)%Z)] = true /\
  p_is_unit (var_mono N_exp) Z_units [(0%N, 2%Z)] = false /\
  p_normalizing_unit (var_mono Z_exp) Z_ring Z_units [(3%Z, (-1)%Z); (2%Z, 4%Z)] = [(0%Z, (-1)%Z)] /\
  p_pow_z (var_mono Z_exp) Z_ring Z_units [(1%Z, (-1)%Z)] (-3) = Some [((-3)%Z, (-1)%Z)] /\
  p_pow_z (var_mono N_exp) Z_ring Z_units [(1%N, 1%Z)] (-1) = None /\
  p_lead_term (var_mono Z_exp) Z_ring [((-1)%Z, 1%Z); (0%Z, 1%Z)] = (0%Z, 1%Z) /\
  p_is_const (var_mono Z_exp) [((-1)%Z, 1%Z); (0%Z, 1%Z)] = false.
Proof. vm_compute. repeat split; reflexivity. Qed.

(* the domain theorem at work: x + 1 has no inverse in Z[x, x^-1] (is_unit computes to false) *)
Example C16Rest_example_not_invertible :
  let m := var_mono Z_exp in
  let p : lc Z Z := [(1%Z, 1%Z); (0%Z, 1%Z)] in
  WF Z_ring any p /\ ~ exists q, WF Z_ring any q /\ peq m Z_ring (p_mul m Z_ring p q) (p_one m Z_ring).
Proof.
  cbv zeta.
  assert (Hp : WF Z_ring any [(1%Z, 1%Z); (0%Z, 1%Z)]).
  { split; [split|]; cbn; repeat constructor; cbn; intuition discriminate. }
  split; [exact Hp|]. intros H.
  apply (C16Rest_is_unit_iff_invertible (var_mono Z_exp) Z_ring any (var_laws Z_exp (fun z => z) Z_exp_laws) Z_ring_laws
           (var_unit_laws Z_exp (fun z => z) Z_exp_laws) Z_units Z_units_laws _ Z_integral Hp) in H.
  discriminate H.
Qed.
