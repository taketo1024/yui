(* C15, fields as Euclidean rings (ratio.rs, ff.rs):  a / b = a * b.inv().unwrap(),  a % b = 0,
   is_unit = !is_zero,  normalizing_unit = 1 for 0 and the inverse otherwise.
   (1) Every dictionary of this shape over a field ([field_laws]) satisfies [euc_dict_laws] with the
       potential 0 / 1, so the generic divides / gcd / gcdx / lcm theorems of C15Gcd.v apply.
   (2) The prime fields F_p of the model ([ff_dict p], carrier = representatives 0 <= a < p inside Z)
       directly: inverse through the extended gcd, exact division, gcd, gcdx, units. *)
From Coq Require Import ZArith Lia Bool Ring Znumtheory.
Require Import Yui.Base.Ring Yui.Model.Euclid Yui.Proofs.C15Gcd Yui.Proofs.C15Int.
Local Open Scope Z_scope.

Record field_laws {K : Type} (o : ring_ops K) (inv : K -> option K) : Prop := mk_field_laws {
  fl_ring : ring_laws o;
  fl_nontrivial : rone o <> rzero o;
  fl_inv_zero : inv (rzero o) = None;
  fl_inv : forall a, a <> rzero o -> exists b, inv a = Some b /\ rmul o a b = rone o;
}.

Definition field_nunit {K} (o : ring_ops K) (inv : K -> option K) (a : K) : K :=
  if reqb o a (rzero o) then rone o else match inv a with Some u => u | None => rone o end.
Definition field_dict {K} (o : ring_ops K) (inv : K -> option K) : euc_dict K :=
  mk_euc_dict K o (f_div o inv) (f_rem o) (f_is_unit o) inv (field_nunit o inv).
Definition field_phi {K} (o : ring_ops K) (a : K) : Z := if reqb o a (rzero o) then 0 else 1.

(* the dictionaries of the model have this shape *)
Lemma ff_dict_shape p : ff_dict p = field_dict (ff_ring p) (ff_inv p).
Proof. reflexivity. Qed.
Lemma ratio_dict_shape :
  d_ring ratio_dict = ratio_ring /\ d_div ratio_dict = f_div ratio_ring r_inv /\
  d_rem ratio_dict = f_rem ratio_ring /\ d_is_unit ratio_dict = f_is_unit ratio_ring /\ d_inv ratio_dict = r_inv /\
  forall x : ratio, (fst x = 0 -> snd x = 1) -> d_nunit ratio_dict x = field_nunit ratio_ring r_inv x.
Proof.
  repeat split. intros [n d] H. cbn [fst snd] in H.
  unfold ratio_dict, r_nunit, field_nunit, ratio_ring, r_is_zero, r_eqb, r_zero.
  cbn [d_nunit reqb rzero rone fst snd].
  destruct (Z.eqb_spec n 0) as [E|E]; cbn [andb]; [|reflexivity]. rewrite (H E). reflexivity.
Qed.

Section FieldProofs.
  Context {K : Type} (o : ring_ops K) (inv : K -> option K) (FL : field_laws o inv).
  Let L : ring_laws o := fl_ring o inv FL.
  Add Ring Kring : (ring_theory_of_laws o L).
  Declare Scope K_scope.
  Notation "0" := (rzero o) : K_scope.
  Notation "1" := (rone o) : K_scope.
  Notation "a + b" := (radd o a b) : K_scope.
  Notation "a * b" := (rmul o a b) : K_scope.
  Delimit Scope K_scope with K.

  Lemma f_zero_reflect a : reflect (a = 0%K) (reqb o a 0%K).
  Proof. apply (reqb_spec o L). Qed.

  Lemma f_inv_some a b : inv a = Some b -> a <> 0%K /\ (a * b)%K = 1%K.
  Proof.
    intros E. destruct (f_zero_reflect a) as [Z|NZ].
    - subst a. rewrite (fl_inv_zero o inv FL) in E. discriminate.
    - split; [assumption|]. destruct (fl_inv o inv FL a NZ) as (b' & E' & H). congruence.
  Qed.

  Lemma f_integral : integral o.
  Proof.
    split; [exact (fl_nontrivial o inv FL)|]. intros a b H.
    destruct (f_zero_reflect a) as [Z|NZ]; [left; assumption|right].
    destruct (fl_inv o inv FL a NZ) as (a' & _ & Ha).
    transitivity ((a * a') * b)%K; [rewrite Ha; ring|].
    transitivity (a' * (a * b))%K; [ring|]. rewrite H. ring.
  Qed.

  Lemma f_mul_nonzero a b : a <> 0%K -> b <> 0%K -> (a * b)%K <> 0%K.
  Proof. intros Ha Hb H. destruct (proj2 f_integral a b H); contradiction. Qed.

  Lemma f_inverse_unique a b c : (a * b)%K = 1%K -> (a * c)%K = 1%K -> b = c.
  Proof.
    intros H1 H2. transitivity ((a * c) * b)%K; [rewrite H2; ring|].
    transitivity ((a * b) * c)%K; [ring|]. rewrite H1. ring.
  Qed.

  Lemma f_inv_one : inv 1%K = Some 1%K.
  Proof.
    destruct (fl_inv o inv FL 1%K (fl_nontrivial o inv FL)) as (w & E & H).
    rewrite E. f_equal. transitivity (1 * w)%K; [ring|exact H].
  Qed.

  Lemma field_nunit_nonzero a : a <> 0%K -> exists u, inv a = Some u /\ field_nunit o inv a = u /\ (a * u)%K = 1%K.
  Proof.
    intros NZ. destruct (fl_inv o inv FL a NZ) as (u & E & H). exists u. unfold field_nunit.
    destruct (f_zero_reflect a) as [Z|_]; [contradiction|]. rewrite E. auto.
  Qed.
  Lemma field_nunit_zero : field_nunit o inv 0%K = 1%K.
  Proof. unfold field_nunit. destruct (f_zero_reflect 0%K) as [_|N]; [reflexivity|contradiction]. Qed.

  Lemma f_mul_one_unit a b : (a * b)%K = 1%K -> f_is_unit o a = true.
  Proof.
    intros H. unfold f_is_unit. destruct (f_zero_reflect a) as [Z|NZ]; [|reflexivity].
    exfalso. apply (fl_nontrivial o inv FL). rewrite <- H, Z. ring.
  Qed.

  (* 0 and 1 are the normal forms of associates *)
  Lemma field_unit_laws : unit_laws o (dict_units (field_dict o inv)).
  Proof.
    apply (unit_laws_of_normal_forms _ L _ (fun a => a = 0%K \/ a = 1%K)); cbn.
    - intros a b E. apply (f_inv_some a b E).
    - intros a. unfold f_is_unit. destruct (f_zero_reflect a) as [Z|NZ]; cbn [negb]; split.
      + discriminate.
      + intros [b E]. apply f_inv_some in E. destruct E as [E _]. contradiction.
      + intros _. destruct (fl_inv o inv FL a NZ) as (b & E & _). eauto.
      + reflexivity.
    - exact f_mul_one_unit.
    - intros a. destruct (f_zero_reflect a) as [Za|NZa].
      + subst a. rewrite field_nunit_zero. split; [apply (f_mul_one_unit 1%K 1%K)|left]; ring.
      + destruct (field_nunit_nonzero a NZa) as (u & _ & -> & H).
        split; [apply (f_mul_one_unit u a); rewrite <- H; ring|right; exact H].
    - intros a [-> | ->]; [apply field_nunit_zero|]. unfold field_nunit.
      destruct (f_zero_reflect 1%K) as [Z|_]; [reflexivity|]. now rewrite f_inv_one.
    - intros a v Hv [-> | ->] Hav; [ring|]. destruct Hav as [E|E]; [|exact E].
      exfalso. unfold f_is_unit in Hv. destruct (f_zero_reflect v) as [|NZ]; [discriminate|]. apply NZ. rewrite <- E. ring.
  Qed.

  Lemma field_phi_cases a : (a = 0%K /\ field_phi o a = 0) \/ (a <> 0%K /\ field_phi o a = 1).
  Proof. unfold field_phi. destruct (f_zero_reflect a); auto. Qed.

  (* a / b = a * b^-1 exactly, a % b = 0 *)
  Lemma field_div_rem a b : b <> 0%K ->
    exists q, f_div o inv a b = Some q /\ f_rem o a b = Some 0%K /\ a = (q * b + 0)%K /\ a = (q * b)%K.
  Proof.
    intros NZ. unfold f_div, f_rem. destruct (f_zero_reflect b) as [Z|_]; [contradiction|].
    destruct (fl_inv o inv FL b NZ) as (i & E & H). rewrite E. cbn [obind].
    eexists. split; [reflexivity|]. split; [reflexivity|].
    assert (A : a = (a * i * b)%K). { transitivity (a * (b * i))%K; [rewrite H; ring|ring]. }
    split; [|exact A]. rewrite A at 1. ring.
  Qed.

  Theorem field_euc_laws : euc_dict_laws (field_dict o inv) (field_phi o).
  Proof.
    constructor; cbn.
    - exact L.
    - exact f_integral.
    - exact field_unit_laws.
    - intros a. destruct (field_phi_cases a) as [[_ ->]|[_ ->]]; lia.
    - intros a H. destruct (field_phi_cases a) as [[E _]|[_ E]]; [assumption|lia].
    - intros b c Hb Hc. destruct (field_phi_cases b) as [[E _]|[_ ->]]; [contradiction|].
      destruct (field_phi_cases (c * b)%K) as [[E _]|[_ ->]]; [|lia].
      exfalso. exact (f_mul_nonzero c b Hc Hb E).
    - intros a. unfold f_div, f_rem. destruct (f_zero_reflect 0%K) as [_|N]; [split; reflexivity|contradiction].
    - intros a b NZ. destruct (field_div_rem a b NZ) as (q & E1 & E2 & E3 & _).
      exists q, 0%K. repeat split; try assumption.
      destruct (field_phi_cases 0%K) as [[_ ->]|[N _]]; [|contradiction].
      destruct (field_phi_cases b) as [[E _]|[_ ->]]; [contradiction|lia].
  Qed.

  (* in a field the generic gcd is 1 unless both arguments vanish (for every good fuel; the loop is not
     entered with a non-zero divisor twice) *)
  Lemma field_gcd_value fuel x y d : good_fuel (field_phi o) fuel y ->
    gcd (field_dict o inv) fuel x y = Some d ->
    d = (if reqb o x 0%K && reqb o y 0%K then 0%K else 1%K).
  Proof.
    intros F E. destruct (gcd_spec _ _ field_euc_laws fuel x y F) as (d' & E' & (G1 & G2 & G3) & N).
    rewrite E in E'. injection E' as <-.
    (* a normalised non-zero element of a field is 1, and d = 0 only if x = y = 0 *)
    assert (D1 : d <> 0%K -> d = 1%K).
    { intros NZd. cbn in N. destruct (field_nunit_nonzero d NZd) as (u & _ & Eu & H). rewrite Eu in N. subst u.
      rewrite <- H. ring. }
    assert (D0 : d = 0%K -> x = 0%K /\ y = 0%K).
    { intros ->. split; now apply (dvd_zero_l _ _ field_euc_laws). }
    destruct (f_zero_reflect x) as [Zx|NZx]; destruct (f_zero_reflect y) as [Zy|NZy]; cbn [andb];
      [|apply D1; intros Z; destruct (D0 Z); contradiction ..].
    subst. apply (dvd_zero_l _ _ field_euc_laws). apply G3; apply (dvd_refl _ _ field_euc_laws).
  Qed.
End FieldProofs.

(* FF<p>: the carrier is the set of representatives 0 <= a < p; p is prime.  (FF<p> multiplies in
   i32, so the Rust type is usable for (p-1)^2 < 2^31 only; the model is over Z.) *)
Definition ff_rep (p a : Z) : Prop := 0 <= a < p.

Section Fp.
  Variable p : Z.
  Hypothesis Pp : prime p.
  Let Hp : 2 <= p := prime_ge_2 p Pp.

  Lemma ff_new_rep a : ff_rep p (ff_new p a).
  Proof. unfold ff_rep, ff_new. apply Z.mod_pos_bound. lia. Qed.
  Lemma ff_new_id a : ff_rep p a -> ff_new p a = a.
  Proof. intros H. unfold ff_new. apply Z.mod_small. exact H. Qed.

  (* the inverse of a non-zero residue exists: assert!(d.is_one()) never fires *)
  Lemma ff_inv_total a : ff_rep p a -> a <> 0 ->
    exists i, ff_inv p a = Some i /\ ff_rep p i /\ ff_mul p a i = 1.
  Proof.
    intros Ha NZ. unfold ff_inv. destruct (Z.eqb_spec a 0) as [|_]; [contradiction|].
    destruct (int_gcdx_spec a p) as (s & t & -> & B). cbn [obind].
    assert (G : Z.gcd a p = 1).
    { apply Zgcd_1_rel_prime. apply rel_prime_le_prime; [assumption|]. unfold ff_rep in Ha. lia. }
    rewrite G in *. cbn [Z.eqb Pos.eqb].
    eexists. split; [reflexivity|]. split; [apply ff_new_rep|].
    unfold ff_mul, ff_new. rewrite Z.mul_mod_idemp_r by lia.
    replace (a * s) with (1 + (- t) * p) by lia. rewrite Z.mod_add by lia. apply Z.mod_small. lia.
  Qed.
  Lemma ff_inv_zero : ff_inv p 0 = None.
  Proof. reflexivity. Qed.

  Lemma ff_division a b : ff_rep p a -> ff_rep p b -> b <> 0 ->
    exists q, d_div (ff_dict p) a b = Some q /\ d_rem (ff_dict p) a b = Some 0 /\ ff_rep p q /\
              a = ff_add p (ff_mul p q b) 0.
  Proof.
    intros Ha Hb NZ. cbn. unfold f_div, f_rem. cbn. destruct (Z.eqb_spec b 0) as [|_]; [contradiction|].
    destruct (ff_inv_total b Hb NZ) as (i & -> & Hi & E). cbn [obind].
    eexists. split; [reflexivity|]. split; [reflexivity|]. split; [apply ff_new_rep|].
    unfold ff_add, ff_mul, ff_new in *. rewrite Z.add_0_r, Z.mod_mod by lia.
    rewrite Z.mul_mod_idemp_l by lia. replace (a * i * b) with (a * (b * i)) by ring.
    rewrite <- Z.mul_mod_idemp_r by lia. rewrite E, Z.mul_1_r. symmetry. apply Z.mod_small. exact Ha.
  Qed.
  Lemma ff_division_by_zero a : d_div (ff_dict p) a 0 = None /\ d_rem (ff_dict p) a 0 = None.
  Proof. split; reflexivity. Qed.

  Lemma ff_normalized a : ff_rep p a -> normalized (ff_dict p) a = if a =? 0 then 0 else 1.
  Proof.
    intros Ha. unfold normalized, is_one. cbn. unfold ff_nunit.
    destruct (Z.eqb_spec a 0) as [Z|NZ]; [subst; reflexivity|].
    destruct (ff_inv_total a Ha NZ) as (i & -> & Hi & M).
    destruct (Z.eqb_spec i 1) as [->|_]; [|exact M].
    unfold ff_mul in M. rewrite Z.mul_1_r in M. rewrite ff_new_id in M; assumption.
  Qed.

  Lemma ff_normalized_nonzero a : ff_rep p a -> a <> 0 -> normalized (ff_dict p) a = 1.
  Proof. intros Ha NZ. rewrite ff_normalized by assumption. destruct (Z.eqb_spec a 0); [contradiction|reflexivity]. Qed.

  Lemma ff_units a : ff_rep p a ->
    (d_is_unit (ff_dict p) a = true <-> a <> 0) /\
    (d_is_unit (ff_dict p) a = true <-> exists i, d_inv (ff_dict p) a = Some i) /\
    (forall i, d_inv (ff_dict p) a = Some i -> ff_rep p i /\ ff_mul p a i = 1) /\
    normalized (ff_dict p) a = (if a =? 0 then 0 else 1).
  Proof.
    intros Ha. rewrite ff_normalized by assumption. cbn. unfold f_is_unit. cbn.
    destruct (Z.eqb_spec a 0) as [Z|NZ]; cbn [negb].
    - subst a. rewrite ff_inv_zero. repeat split; try discriminate; try tauto. intros [i H]. discriminate.
    - destruct (ff_inv_total a Ha NZ) as (i & E & Hi & M). rewrite E.
      split; [tauto|]. split; [split; eauto|]. split; [|reflexivity]. intros j [= <-]. split; assumption.
  Qed.

  Lemma ff_divides x y : divides (ff_dict p) x y = Some (negb (x =? 0)).
  Proof.
    unfold divides, is_zero. cbn. unfold f_rem. cbn. destruct (x =? 0); reflexivity.
  Qed.

  (* gcd = 1 unless both arguments are zero; it never reaches the loop, so every fuel will do *)
  Lemma ff_gcd fuel a b : ff_rep p a -> ff_rep p b ->
    gcd (ff_dict p) fuel a b = Some (if (a =? 0) && (b =? 0) then 0 else 1).
  Proof.
    intros Ha Hb. unfold gcd. rewrite !ff_divides. unfold is_zero. cbn [d_ring ff_dict ff_ring reqb rzero obind].
    destruct (Z.eqb_spec a 0) as [Za|NZa]; destruct (Z.eqb_spec b 0) as [Zb|NZb]; cbn [andb negb].
    1: reflexivity.
    all: now rewrite ff_normalized_nonzero.
  Qed.

  Lemma ff_nunit_mul a : ff_rep p a -> a <> 0 -> ff_mul p a (ff_nunit p a) = 1 /\ ff_rep p (ff_nunit p a).
  Proof.
    intros Ha NZ. unfold ff_nunit. destruct (Z.eqb_spec a 0) as [|_]; [contradiction|].
    destruct (ff_inv_total a Ha NZ) as (i & -> & Hi & M). auto.
  Qed.

  Lemma ff_gcdx fuel a b : ff_rep p a -> ff_rep p b ->
    exists d s t, gcdx (ff_dict p) fuel a b = Some (d, s, t) /\ gcd (ff_dict p) fuel a b = Some d /\
                  ff_rep p s /\ ff_rep p t /\ ff_add p (ff_mul p s a) (ff_mul p t b) = d.
  Proof.
    intros Ha Hb. rewrite ff_gcd by assumption. unfold gcdx. rewrite !ff_divides.
    unfold is_zero. cbn [d_ring d_nunit ff_dict ff_ring reqb rzero rmul obind].
    destruct (Z.eqb_spec a 0) as [Za|NZa]; destruct (Z.eqb_spec b 0) as [Zb|NZb]; cbn [andb negb].
    3, 4: (* a <> 0: the first early return, whatever b is *)
      destruct (ff_nunit_mul a Ha NZa) as [M R]; rewrite M;
      do 3 eexists; (split; [reflexivity|]); (split; [reflexivity|]); (split; [exact R|]); (split; [unfold ff_rep; lia|]);
      unfold ff_add, ff_mul, ff_new in *; rewrite Z.mul_0_l, Z.mod_0_l, Z.add_0_r, Z.mod_mod by lia;
      rewrite Z.mul_comm; exact M.
    - subst. do 3 eexists. split; [reflexivity|]. split; [reflexivity|]. unfold ff_rep.
      split; [lia|]. split; [lia|]. reflexivity.
    - subst a. destruct (ff_nunit_mul b Hb NZb) as [M R]. rewrite M.
      do 3 eexists. split; [reflexivity|]. split; [reflexivity|]. split; [unfold ff_rep; lia|]. split; [exact R|].
      unfold ff_add, ff_mul, ff_new in *. rewrite Z.mul_0_l, Z.mod_0_l, Z.add_0_l, Z.mod_mod by lia.
      rewrite Z.mul_comm. exact M.
  Qed.

  (* lcm = normalized (a * (b / gcd)): 0 when an argument vanishes, else 1 *)
  Lemma ff_lcm fuel a b : ff_rep p a -> ff_rep p b -> ~ (a = 0 /\ b = 0) ->
    lcm (ff_dict p) fuel a b = Some (if (a =? 0) || (b =? 0) then 0 else 1).
  Proof.
    intros Ha Hb NZ. unfold lcm. rewrite ff_gcd by assumption.
    assert (E : (a =? 0) && (b =? 0) = false).
    { destruct (Z.eqb_spec a 0); destruct (Z.eqb_spec b 0); cbn; try reflexivity. exfalso; auto. }
    rewrite E. cbn [obind].
    destruct (ff_division b 1 Hb ltac:(unfold ff_rep; lia) ltac:(lia)) as (q & -> & _ & Hq & Eq). cbn [obind].
    assert (Eqb : q = b).
    { unfold ff_add, ff_mul, ff_new in Eq. rewrite Z.mul_1_r, Z.add_0_r, Z.mod_mod in Eq by lia.
      rewrite Z.mod_small in Eq by exact Hq. congruence. }
    subst q. f_equal. cbn [d_ring ff_dict ff_ring rmul]. rewrite ff_normalized by apply ff_new_rep.
    destruct (Z.eqb_spec a 0) as [Za|NZa]; [subst; cbn [orb]; unfold ff_mul, ff_new; rewrite Z.mul_0_l, Z.mod_0_l by lia; reflexivity|].
    destruct (Z.eqb_spec b 0) as [Zb|NZb]; cbn [orb].
    { subst. unfold ff_mul, ff_new. rewrite Z.mul_0_r, Z.mod_0_l by lia. reflexivity. }
    destruct (Z.eqb_spec (ff_mul p a b) 0) as [Z|_]; [|reflexivity].
    exfalso. unfold ff_mul, ff_new in Z. apply Z.mod_divide in Z; [|lia].
    apply prime_mult in Z; [|assumption]. unfold ff_rep in *.
    destruct Z as [Z|Z]; apply Z.divide_pos_le in Z; lia.
  Qed.
End Fp.
