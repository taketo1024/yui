(* Facts about the complex checker of KhCheck.v: evaluation H -> h, T -> t is a ring homomorphism on the
   polynomial representation (over Z, i.e. modulus 0), what a passing verdict means ([check_complex_ok]), and what
   [p_hom_deg] certifies ([p_hom_deg_spec]). *)
From Coq Require Import List Arith Bool ZArith Lia Ring.
Require Import Yui.Model.KhCheck.
Import ListNotations.
Open Scope Z_scope.

Definition term_val (h t : Z) (e : mono * Z) : Z := snd e * zpow h (fst (fst e)) * zpow t (snd (fst e)).

Lemma p_eval_cons h t e p : p_eval h t (e :: p) = term_val h t e + p_eval h t p.
Proof. reflexivity. Qed.

Lemma mono_eqb_eq a b : mono_eqb a b = true -> a = b.
Proof.
  unfold mono_eqb. rewrite andb_true_iff, !Nat.eqb_eq. destruct a, b. cbn. intros [-> ->]. reflexivity.
Qed.

Lemma cred0 c : cred 0 c = c.
Proof. reflexivity. Qed.

Lemma eval_insert h t e p : p_eval h t (p_insert 0 e p) = term_val h t e + p_eval h t p.
Proof.
  induction p as [|[k c] r IH]; cbn [p_insert]; rewrite ?cred0.
  - destruct (Z.eqb_spec (snd e) 0) as [E|E].
    + unfold term_val. rewrite E. cbn. ring.
    + rewrite p_eval_cons. unfold term_val. cbn [fst snd]. reflexivity.
  - destruct (mono_ltb (fst e) k).
    + destruct (Z.eqb_spec (snd e) 0) as [E|E].
      * unfold term_val at 1. rewrite E. ring.
      * rewrite !p_eval_cons. unfold term_val. cbn [fst snd]. ring.
    + destruct (mono_eqb (fst e) k) eqn:Ek.
      * apply mono_eqb_eq in Ek. cbv zeta.
        destruct (Z.eqb_spec (c + snd e) 0) as [E|E]; rewrite !p_eval_cons; unfold term_val; cbn [fst snd]; rewrite Ek.
        -- replace (snd e) with (- c) by lia. ring.
        -- ring.
      * rewrite !p_eval_cons, IH. ring.
Qed.

Lemma eval_norm h t p : p_eval h t (p_norm 0 p) = p_eval h t p.
Proof.
  induction p as [|e p IH]; [reflexivity|]. unfold p_norm in *. cbn [fold_right].
  rewrite eval_insert, IH. reflexivity.
Qed.

Lemma eval_add h t a b : p_eval h t (p_add 0 a b) = p_eval h t a + p_eval h t b.
Proof.
  induction a as [|e a IH]; [unfold p_add, p_eval; cbn [fold_right]; ring|]. unfold p_add in *. cbn [fold_right].
  rewrite eval_insert, IH, p_eval_cons. ring.
Qed.

Lemma zpow_add b n m : zpow b (n + m) = zpow b n * zpow b m.
Proof. induction n as [|n IH]; cbn [zpow Nat.add]; [ring|]. rewrite IH. ring. Qed.

Lemma eval_scale_mono h t e b : p_eval h t (p_scale_mono 0 e b) = term_val h t e * p_eval h t b.
Proof.
  unfold p_scale_mono. rewrite eval_norm.
  induction b as [|x b IH]; [unfold p_eval; cbn [map fold_right]; ring|]. cbn [map]. rewrite !p_eval_cons, IH.
  unfold term_val. cbn [fst snd]. rewrite !zpow_add. unfold mono in *. ring.
Qed.

Lemma eval_mul h t a b : p_eval h t (p_mul 0 a b) = p_eval h t a * p_eval h t b.
Proof.
  induction a as [|e a IH]; [unfold p_mul, p_eval; cbn [fold_right]; ring|]. unfold p_mul in *. cbn [fold_right].
  rewrite eval_add, eval_scale_mono, IH, p_eval_cons. ring.
Qed.

Lemma eval_neg h t a : p_eval h t (p_neg 0 a) = - p_eval h t a.
Proof.
  unfold p_neg. rewrite eval_norm. induction a as [|e a IH]; [reflexivity|].
  cbn [map]. rewrite !p_eval_cons, IH. unfold term_val. cbn [fst snd]. ring.
Qed.

Lemma check_complex_ok m gr c :
  check_complex m gr c = 0%nat -> shapes_ok c = true /\ dd_zero m c = true /\ (gr = true -> graded c = true).
Proof.
  unfold check_complex.
  destruct (shapes_ok c); cbn [negb]; [|discriminate].
  destruct (dd_zero m c); cbn [negb]; [|discriminate].
  destruct gr; cbn [andb].
  - destruct (graded c); cbn [negb]; [auto|discriminate].
  - intros _. repeat split. discriminate.
Qed.

Lemma p_hom_deg_spec a d : p_hom_deg a = Some d -> forall e, In e a -> mono_qdeg (fst e) = d.
Proof.
  destruct a as [|[k c] r]; [discriminate|]. cbn [p_hom_deg].
  destruct (forallb _ r) eqn:F; [|discriminate]. intros H. inversion H. subst d.
  intros e [<-|Hin]; [reflexivity|]. rewrite forallb_forall in F. specialize (F e Hin). now apply Z.eqb_eq in F.
Qed.
