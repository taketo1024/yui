(* UnionFind of Model/Decomp.v: roots, union, and the relation "same class" as the equivalence closure of
   the united pairs - hence independent of the order of the union calls. *)
From Coq Require Import Arith List Bool Lia Wf_nat.
Require Import Yui.Model.Triang Yui.Model.Decomp Yui.Proofs.C12Sparse.
Import ListNotations.

Definition pget (p : uf) (i : nat) : nat := nth i p 0.

(* every parent pointer points downwards (or to itself): union maintains this, so root terminates *)
Definition uf_ok (p : uf) : Prop := forall i, i < length p -> pget p i <= i.

Lemma nth_error_pget (p : uf) i : i < length p -> nth_error p i = Some (pget p i).
Proof.
  intros H. destruct (nth_error p i) eqn:E.
  - f_equal. symmetry. now apply nth_error_nth.
  - apply nth_error_None in E. lia.
Qed.

Lemma root_total (p : uf) : uf_ok p -> forall x, x < length p ->
  exists r, (forall fuel, x < fuel -> uf_root_f fuel p x = Some r) /\ r <= x /\ pget p r = r.
Proof.
  intros Hok x. induction x as [x IH] using lt_wf_ind. intros Hx.
  destruct (Nat.eq_dec (pget p x) x) as [E|E].
  - exists x. split; [|split; [lia|exact E]]. intros [|f] Hf; [lia|]. cbn [uf_root_f].
    rewrite (nth_error_pget p x Hx), E, Nat.eqb_refl. reflexivity.
  - pose proof (Hok x Hx) as Hle. assert (Hlt : pget p x < x) by lia.
    destruct (IH (pget p x) Hlt ltac:(lia)) as [r [Hr [Hrle Hrr]]].
    exists r. split; [|split; [lia|exact Hrr]]. intros [|f] Hf; [lia|]. cbn [uf_root_f].
    rewrite (nth_error_pget p x Hx). destruct (Nat.eqb_spec (pget p x) x) as [E'|_]; [contradiction|].
    apply Hr. lia.
Qed.

Definition rootv (p : uf) (x : nat) : nat := match uf_root p x with Some r => r | None => 0 end.

Lemma uf_root_rootv p x : uf_ok p -> x < length p -> uf_root p x = Some (rootv p x).
Proof.
  intros Hok Hx. destruct (root_total p Hok x Hx) as [r [Hr _]]. unfold rootv, uf_root.
  now rewrite (Hr (S (length p)) ltac:(lia)).
Qed.

Lemma rootv_fix p x : uf_ok p -> x < length p -> pget p x = x -> rootv p x = x.
Proof.
  intros Hok Hx E. unfold rootv, uf_root. cbn [uf_root_f]. now rewrite (nth_error_pget p x Hx), E, Nat.eqb_refl.
Qed.

Lemma rootv_step p x : uf_ok p -> x < length p -> pget p x <> x -> rootv p x = rootv p (pget p x).
Proof.
  intros Hok Hx E. pose proof (Hok x Hx) as Hle.
  destruct (root_total p Hok (pget p x) ltac:(lia)) as [r [Hr _]].
  unfold rootv at 1, uf_root. cbn [uf_root_f]. rewrite (nth_error_pget p x Hx).
  destruct (Nat.eqb_spec (pget p x) x) as [E'|_]; [contradiction|].
  rewrite (Hr (length p) ltac:(lia)). unfold rootv, uf_root. now rewrite (Hr (S (length p)) ltac:(lia)).
Qed.

Lemma rootv_props p x : uf_ok p -> x < length p ->
  rootv p x <= x /\ pget p (rootv p x) = rootv p x /\ rootv p (rootv p x) = rootv p x.
Proof.
  intros Hok Hx. destruct (root_total p Hok x Hx) as [r [Hr [Hle Hrr]]].
  assert (E : rootv p x = r) by (unfold rootv, uf_root; now rewrite (Hr (S (length p)) ltac:(lia))).
  rewrite E. split; [exact Hle|]. split; [exact Hrr|]. apply rootv_fix; [assumption|lia|exact Hrr].
Qed.

Lemma length_nat_set_nth l i x : length (nat_set_nth l i x) = length l.
Proof. revert i. induction l as [|y r IH]; intros [|i]; cbn; auto. Qed.

Lemma pget_nat_set_nth l i x k : i < length l -> pget (nat_set_nth l i x) k = if k =? i then x else pget l k.
Proof.
  unfold pget. revert i k. induction l as [|y r IH]; intros i k Hi; [cbn in Hi; lia|].
  destruct i as [|i], k as [|k]; cbn; try reflexivity. cbn in Hi. apply IH. lia.
Qed.

(* attaching the root hi below the smaller root lo *)
Lemma link_spec p lo hi : uf_ok p -> lo < hi -> hi < length p -> pget p lo = lo -> pget p hi = hi ->
  let p' := nat_set_nth p hi lo in
  uf_ok p' /\ length p' = length p /\
  forall x, x < length p -> rootv p' x = if rootv p x =? hi then lo else rootv p x.
Proof.
  intros Hok Hlh Hhi Hlo Hhh p'.
  assert (Hlen : length p' = length p) by apply length_nat_set_nth.
  assert (Hget : forall k, pget p' k = if k =? hi then lo else pget p k) by (intros k; now apply pget_nat_set_nth).
  assert (Hok' : uf_ok p').
  { intros k Hk. rewrite Hget. destruct (Nat.eqb_spec k hi) as [->|_]; [lia|]. apply Hok. lia. }
  split; [exact Hok'|]. split; [exact Hlen|].
  intros x. induction x as [x IH] using lt_wf_ind. intros Hx.
  destruct (Nat.eq_dec x hi) as [->|Hne].
  - rewrite (rootv_fix p hi Hok Hhi Hhh), Nat.eqb_refl.
    rewrite (rootv_step p' hi Hok') by (rewrite ?Hlen, ?Hget, ?Nat.eqb_refl; lia).
    rewrite Hget, Nat.eqb_refl. apply rootv_fix; [assumption|lia|].
    rewrite Hget. destruct (Nat.eqb_spec lo hi); [lia|assumption].
  - assert (Hg : pget p' x = pget p x) by (rewrite Hget; destruct (Nat.eqb_spec x hi); [contradiction|reflexivity]).
    destruct (Nat.eq_dec (pget p x) x) as [E|E].
    + rewrite (rootv_fix p x Hok Hx E), (rootv_fix p' x Hok') by (rewrite ?Hlen, ?Hg; assumption).
      destruct (Nat.eqb_spec x hi); [contradiction|reflexivity].
    + pose proof (Hok x Hx) as Hle.
      rewrite (rootv_step p x Hok Hx E), (rootv_step p' x Hok') by (rewrite ?Hlen, ?Hg; assumption).
      rewrite Hg. apply IH; lia.
Qed.

Definition same (p : uf) (x y : nat) : Prop := rootv p x = rootv p y.
Definition merged (p : uf) (i j x y : nat) : Prop :=
  same p x y \/ (same p x i /\ same p j y) \/ (same p x j /\ same p i y).

Lemma union_spec p i j : uf_ok p -> i < length p -> j < length p ->
  exists p', uf_union p i j = Some p' /\ uf_ok p' /\ length p' = length p /\
    forall x y, x < length p -> y < length p -> (same p' x y <-> merged p i j x y).
Proof.
  intros Hok Hi Hj. unfold uf_union.
  rewrite (uf_root_rootv p i Hok Hi), (uf_root_rootv p j Hok Hj). cbn [obind].
  destruct (rootv_props p i Hok Hi) as [Hile [Hifix _]]. destruct (rootv_props p j Hok Hj) as [Hjle [Hjfix _]].
  set (ri := rootv p i) in *. set (rj := rootv p j) in *.
  destruct (Nat.compare_spec ri rj) as [E|Hlt|Hgt].
  - exists p. split; [reflexivity|]. split; [assumption|]. split; [reflexivity|].
    intros x y _ _. unfold merged, same. fold ri rj. split; [now left|].
    intros [H|[[H1 H2]|[H1 H2]]]; congruence.
  - destruct (link_spec p ri rj Hok Hlt ltac:(lia) Hifix Hjfix) as [Hok' [Hlen Hroot]].
    eexists. split; [reflexivity|]. split; [exact Hok'|]. split; [exact Hlen|].
    intros x y Hx Hy. unfold merged, same. fold ri rj. rewrite (Hroot x Hx), (Hroot y Hy).
    destruct (Nat.eqb_spec (rootv p x) rj) as [Ex|Ex], (Nat.eqb_spec (rootv p y) rj) as [Ey|Ey]; split; intros H.
    + left. congruence.
    + reflexivity.
    + right. right. split; congruence.
    + destruct H as [H|[[H1 H2]|[H1 H2]]]; try congruence; lia.
    + right. left. split; congruence.
    + destruct H as [H|[[H1 H2]|[H1 H2]]]; try congruence; lia.
    + now left.
    + destruct H as [H|[[H1 H2]|[H1 H2]]]; congruence.
  - destruct (link_spec p rj ri Hok Hgt ltac:(lia) Hjfix Hifix) as [Hok' [Hlen Hroot]].
    eexists. split; [reflexivity|]. split; [exact Hok'|]. split; [exact Hlen|].
    intros x y Hx Hy. unfold merged, same. fold ri rj. rewrite (Hroot x Hx), (Hroot y Hy).
    destruct (Nat.eqb_spec (rootv p x) ri) as [Ex|Ex], (Nat.eqb_spec (rootv p y) ri) as [Ey|Ey]; split; intros H.
    + left. congruence.
    + reflexivity.
    + right. left. split; congruence.
    + destruct H as [H|[[H1 H2]|[H1 H2]]]; try congruence; lia.
    + right. right. split; congruence.
    + destruct H as [H|[[H1 H2]|[H1 H2]]]; try congruence; lia.
    + now left.
    + destruct H as [H|[[H1 H2]|[H1 H2]]]; congruence.
Qed.

Lemma is_same_spec p i j : uf_ok p -> i < length p -> j < length p ->
  uf_is_same p i j = Some (rootv p i =? rootv p j).
Proof.
  intros Hok Hi Hj. unfold uf_is_same. now rewrite (uf_root_rootv p i Hok Hi), (uf_root_rootv p j Hok Hj).
Qed.

(* a union of two elements of the same class changes nothing *)
Lemma union_same_noop p i j : uf_ok p -> i < length p -> j < length p -> same p i j -> uf_union p i j = Some p.
Proof.
  intros Hok Hi Hj Hs. unfold uf_union. rewrite (uf_root_rootv p i Hok Hi), (uf_root_rootv p j Hok Hj). cbn [obind].
  unfold same in Hs. rewrite Hs, Nat.compare_refl. reflexivity.
Qed.

Lemma uf_new_ok n : uf_ok (uf_new n) /\ length (uf_new n) = n /\ forall x, x < n -> rootv (uf_new n) x = x.
Proof.
  assert (Hl : length (uf_new n) = n) by apply seq_length.
  assert (Hg : forall i, i < n -> pget (uf_new n) i = i) by (intros i Hi; unfold pget, uf_new; now rewrite seq_nth).
  assert (Hok : uf_ok (uf_new n)) by (intros i Hi; rewrite Hl in Hi; rewrite Hg by assumption; lia).
  split; [exact Hok|]. split; [exact Hl|]. intros x Hx. apply rootv_fix; [assumption|lia|now apply Hg].
Qed.

Inductive conn (E : nat -> nat -> Prop) : nat -> nat -> Prop :=
| conn_refl x : conn E x x
| conn_step x y : E x y -> conn E x y
| conn_sym x y : conn E x y -> conn E y x
| conn_trans x y z : conn E x y -> conn E y z -> conn E x z.

Lemma conn_mono (E F : nat -> nat -> Prop) : (forall x y, E x y -> conn F x y) -> forall x y, conn E x y -> conn F x y.
Proof.
  intros H x y C. induction C as [x|x y Hxy|x y _ IH|x y z _ IH1 _ IH2].
  - apply conn_refl.
  - now apply H.
  - now apply conn_sym.
  - now apply conn_trans with y.
Qed.

Definition add_edge (E : nat -> nat -> Prop) (i j : nat) : nat -> nat -> Prop :=
  fun x y => E x y \/ (x = i /\ y = j).

(* [same p] is [conn E] on the carrier 0..n *)
Definition rel_eq (n : nat) (p : uf) (E : nat -> nat -> Prop) : Prop :=
  forall x y, x < n -> y < n -> (same p x y <-> conn E x y).

Definition bounded (n : nat) (E : nat -> nat -> Prop) : Prop := forall x y, E x y -> x < n /\ y < n.

Lemma rel_eq_union n p p' E i j : length p = n -> bounded n E -> i < n -> j < n ->
  rel_eq n p E ->
  (forall x y, x < n -> y < n -> (same p' x y <-> merged p i j x y)) ->
  rel_eq n p' (add_edge E i j).
Proof.
  intros Hn Hb Hi Hj Hrel Hm x y Hx Hy. split.
  - intros H. apply Hm in H; try assumption.
    assert (Hup : forall a b, a < n -> b < n -> same p a b -> conn (add_edge E i j) a b).
    { intros a b Ha Hb' Hs. apply (conn_mono E); [|now apply Hrel]. intros; apply conn_step; now left. }
    assert (Hij : conn (add_edge E i j) i j) by (apply conn_step; now right).
    destruct H as [H|[[H1 H2]|[H1 H2]]].
    + now apply Hup.
    + apply conn_trans with i; [now apply Hup|]. apply conn_trans with j; [exact Hij|now apply Hup].
    + apply conn_trans with j; [now apply Hup|]. apply conn_trans with i; [now apply conn_sym|now apply Hup].
  - intros C.
    assert (G : forall a b, conn (add_edge E i j) a b -> a = b \/ (a < n /\ b < n /\ same p' a b)).
    { intros a b C'. induction C' as [a|a b Hab|a b _ IH|a b c _ IH1 _ IH2].
      - now left.
      - right. destruct Hab as [Hab|[-> ->]].
        + destruct (Hb a b Hab) as [Ha Hb']. split; [assumption|]. split; [assumption|].
          apply Hm; try assumption. left. apply Hrel; try assumption. now apply conn_step.
        + split; [assumption|]. split; [assumption|]. apply Hm; try assumption.
          right. left. split; reflexivity.
      - destruct IH as [->|[Ha [Hb' Hs]]]; [now left|right]. repeat split; try assumption. unfold same in *. congruence.
      - destruct IH1 as [->|[Ha [Hb' Hs1]]]; [exact IH2|].
        destruct IH2 as [<-|[_ [Hc Hs2]]]; [right; now repeat split|].
        right. repeat split; try assumption. unfold same in *. congruence. }
    destruct (G x y C) as [->|[_ [_ H]]]; [reflexivity|exact H].
Qed.

(* adding an edge between two elements that are already connected changes nothing *)
Lemma rel_eq_redundant n p E i j : rel_eq n p E -> i < n -> j < n -> same p i j -> rel_eq n p (add_edge E i j).
Proof.
  intros Hrel Hi Hj Hs x y Hx Hy. rewrite (Hrel x y Hx Hy). split.
  - apply conn_mono. intros; apply conn_step; now left.
  - apply conn_mono. intros a b [H|[-> ->]]; [now apply conn_step|]. now apply Hrel.
Qed.

Lemma rel_eq_ext n p E F : (forall x y, E x y <-> F x y) -> rel_eq n p E -> rel_eq n p F.
Proof.
  intros H Hrel x y Hx Hy. rewrite (Hrel x y Hx Hy). split; apply conn_mono; intros a b Hab; apply conn_step; now apply H.
Qed.

(* two structures with the same classes have the same roots, hence the same groups *)
Lemma same_roots n p1 p2 : uf_ok p1 -> uf_ok p2 -> length p1 = n -> length p2 = n ->
  (forall x y, x < n -> y < n -> (same p1 x y <-> same p2 x y)) ->
  forall x, x < n -> rootv p1 x = rootv p2 x.
Proof.
  intros Hok1 Hok2 Hl1 Hl2 H x Hx.
  destruct (rootv_props p1 x Hok1 ltac:(lia)) as [Hle1 [_ Hrr1]].
  destruct (rootv_props p2 x Hok2 ltac:(lia)) as [Hle2 [_ Hrr2]].
  assert (H12 : rootv p2 x <= rootv p1 x).
  { assert (Hs : same p2 x (rootv p1 x)) by (apply H; [assumption|lia|unfold same; now rewrite Hrr1]).
    unfold same in Hs. rewrite Hs. apply (rootv_props p2 (rootv p1 x) Hok2). lia. }
  assert (H21 : rootv p1 x <= rootv p2 x).
  { assert (Hs : same p1 x (rootv p2 x)) by (apply H; [assumption|lia|unfold same; now rewrite Hrr2]).
    unfold same in Hs. rewrite Hs. apply (rootv_props p1 (rootv p2 x) Hok1). lia. }
  lia.
Qed.

Lemma uf_group_roots p : uf_ok p ->
  uf_group p = Some (let n := length p in
                     let roots := map (rootv p) (seq 0 n) in
                     map (fun r => filter (fun i => nth i roots n =? r) (seq 0 n))
                         (filter (fun r => nat_mem r roots) (seq 0 n))).
Proof.
  intros Hok. unfold uf_group. rewrite (omap_map (uf_root p) (rootv p)).
  - reflexivity.
  - intros x Hx. apply in_seq in Hx. apply uf_root_rootv; [assumption|lia].
Qed.

Lemma uf_group_ext p1 p2 : uf_ok p1 -> uf_ok p2 -> length p1 = length p2 ->
  (forall x, x < length p1 -> rootv p1 x = rootv p2 x) -> uf_group p1 = uf_group p2.
Proof.
  intros Hok1 Hok2 Hl H. rewrite (uf_group_roots p1 Hok1), (uf_group_roots p2 Hok2). cbv zeta. rewrite <- Hl.
  assert (E : map (rootv p1) (seq 0 (length p1)) = map (rootv p2) (seq 0 (length p1))).
  { apply map_ext_in. intros x Hx. apply in_seq in Hx. apply H. lia. }
  now rewrite E.
Qed.

(* a sequence of union calls: the classes are the closure of the united pairs, so the result
   does not depend on the order (nor on repetitions) of the calls ---------- *)
Definition Eof (ps : list (nat * nat)) : nat -> nat -> Prop := fun x y => In (x, y) ps.
Definition union_all (us : list (nat * nat)) (p : uf) : option uf :=
  ofold (fun p e => uf_union p (fst e) (snd e)) us p.

Lemma unions_inv n : forall us p ps, uf_ok p -> length p = n -> bounded n (Eof ps) -> rel_eq n p (Eof ps) ->
  (forall e, In e us -> fst e < n /\ snd e < n) ->
  exists p', union_all us p = Some p' /\ uf_ok p' /\ length p' = n /\ rel_eq n p' (Eof (ps ++ us)).
Proof.
  unfold union_all. induction us as [|[i j] us IH]; intros p ps Hok Hl Hbd Hrel Hb; cbn [ofold].
  - exists p. rewrite app_nil_r. auto.
  - destruct (Hb (i, j) (or_introl eq_refl)) as [Hi Hj]. cbn [fst snd] in *.
    destruct (union_spec p i j Hok) as [p1 [E1 [Hok1 [Hl1 Hm]]]]; try lia. rewrite E1. cbn [obind].
    assert (Hrel1 : rel_eq n p1 (Eof (ps ++ [(i, j)]))).
    { apply (rel_eq_ext n p1 (add_edge (Eof ps) i j)).
      - intros x y. unfold add_edge, Eof. rewrite in_app_iff. cbn [In]. split.
        + intros [H|[-> ->]]; [now left|right; now left].
        + intros [H|[H|[]]]; [now left|]. injection H as <- <-. now right.
      - apply (rel_eq_union n p p1 (Eof ps) i j Hl Hbd Hi Hj Hrel). intros x y Hx Hy. apply Hm; lia. }
    assert (Hbd1 : bounded n (Eof (ps ++ [(i, j)]))).
    { intros x y H. unfold Eof in H. apply in_app_iff in H. destruct H as [H|[H|[]]]; [now apply Hbd|].
      injection H as <- <-. now split. }
    destruct (IH p1 (ps ++ [(i, j)]) Hok1 ltac:(lia) Hbd1 Hrel1 (fun e He => Hb e (or_intror He))) as [p' [E' [H1 [H2 H3]]]].
    exists p'. split; [exact E'|]. split; [assumption|]. split; [assumption|]. now rewrite <- app_assoc in H3.
Qed.

Theorem union_order_indep n us1 us2 :
  (forall e, In e us1 -> fst e < n /\ snd e < n) -> (forall e, In e us1 <-> In e us2) ->
  exists p1 p2, union_all us1 (uf_new n) = Some p1 /\ union_all us2 (uf_new n) = Some p2 /\
    (forall x, x < n -> rootv p1 x = rootv p2 x) /\ uf_group p1 = uf_group p2 /\
    (forall x y, x < n -> y < n -> (same p1 x y <-> conn (Eof us1) x y)).
Proof.
  intros Hb Hin. destruct (uf_new_ok n) as [Hok [Hl Hr]].
  assert (Hrel0 : rel_eq n (uf_new n) (Eof [])).
  { intros x y Hx Hy. unfold same. rewrite (Hr x Hx), (Hr y Hy). split.
    - intros ->. apply conn_refl.
    - intros C. assert (G : forall a b, conn (Eof []) a b -> a = b).
      { intros a b C'. induction C' as [| ? ? [] | |]; congruence. }
      now apply G. }
  assert (Hbd0 : bounded n (Eof [])) by (intros x y []).
  destruct (unions_inv n us1 (uf_new n) [] Hok Hl Hbd0 Hrel0 Hb) as [p1 [E1 [Hok1 [Hl1 Hr1]]]].
  destruct (unions_inv n us2 (uf_new n) [] Hok Hl Hbd0 Hrel0) as [p2 [E2 [Hok2 [Hl2 Hr2]]]].
  { intros e He. apply Hb. now apply Hin. }
  cbn [app] in Hr1, Hr2. exists p1, p2. split; [exact E1|]. split; [exact E2|].
  assert (Hroots : forall x, x < n -> rootv p1 x = rootv p2 x).
  { apply (same_roots n p1 p2 Hok1 Hok2 Hl1 Hl2). intros x y Hx Hy. rewrite (Hr1 x y Hx Hy), (Hr2 x y Hx Hy).
    split; apply conn_mono; intros a b H; apply conn_step; now apply Hin. }
  split; [exact Hroots|]. split; [|exact Hr1].
  apply uf_group_ext; [assumption|assumption|lia|]. rewrite Hl1. exact Hroots.
Qed.
