(* C08 - "the same homology", the Smith-form corollary of one reduction step.
   Property theorems only: each is proved by [exact <lemma>] or a short combination of proved lemmas and is
   followed by Print Assumptions; the Examples instantiate the hypotheses on concrete values.

   Vocabulary: [smith_form o m n A r a] (Proofs/C07Algebra.v, spelt out in C09_unique_vocabulary): A is equivalent, by
   invertible P, Q, to diag(a_0 .. a_(r-1), 0 ..) with all a_k <> 0 - "r is the rank, a the invariant factors" as read
   off by HomologyCalc (C07) from the SNF (C09); [chain], [associates], [bezout] as in Properties/C09Unique.v;
   [lead1 o r ds] = (1, .., 1 (r times), ds_0, ds_1, ..);  [dget o A] = the entry function of a shaped matrix of
   Model/Reducer.v.

   What is proved here, for EVERY commutative ring with 1 <> 0 (integrality only for the uniqueness part):
     C08_sdr_step_smith  pure algebra: if the maps (f1, b1, f2, b2, h) of a step a1 ~> s satisfy the identities of
                         C08_step and the homotopy factors through R^r (h = e1 g2, g2 a1 e1 = 1_r) then every Smith form
                         (k, ds) of s gives the Smith form (r + k, 1^r ++ ds) of a1;
     C08_step_smith      the step of the model (every matrix, every pair of pivot permutations, every r with a
                         triangular leading block and defined Schur data - the hypotheses of C08_step) is such a step:
                         the reduced differential s = sc_s sc and the original a1 have the same invariant factors up to r
                         leading units, and rank(a1) = r + rank(s);
     C08_step_smith_unique   with C09_unique (Bezout integral domain): EVERY chain Smith form (K, Ds) of a1 has
                         K = r + k and Ds_i ~ 1 (i < r), Ds_(r+i) ~ ds_i - the non-unit invariant factors, i.e. the torsion
                         coefficients reported by C07, coincide before and after the step.

   NOT proved (kept as a comment, see C08_homology_invariants below): the lifting to whole scripts. *)
From Coq Require Import Arith List Bool ZArith Lia Permutation.
Require Import Yui.Base.Ring Yui.Base.MatF Yui.Base.MatL Yui.Model.Reducer.
Require Import Yui.Proofs.C08Mat Yui.Proofs.C08Perm Yui.Proofs.C08Tri Yui.Proofs.C08Step Yui.Proofs.C08All
  Yui.Proofs.C08Run.
Require Import Yui.Proofs.C07Algebra Yui.Proofs.C09UniqueKer Yui.Proofs.C09Unique.
Require Import Yui.Proofs.C08HomF Yui.Proofs.C08Hom.
Import ListNotations.

Theorem C08_lead1_meaning : forall (R : Type) (o : ring_ops R) (r : nat) (ds : nat -> R) (i : nat),
  lead1 o r ds i = if i <? r then rone o else ds (i - r).
Proof. intros. reflexivity. Qed.
Print Assumptions C08_lead1_meaning.

(* pure algebra: a step whose homotopy factors through R^r *)
Theorem C08_sdr_step_smith : forall (R : Type) (o : ring_ops R), ring_laws o ->
  forall (r mr nr : nat) (a1 s f1 b1 f2 b2 h e1 g2 : dmat R),
  dr a1 = r + mr -> dc a1 = r + nr -> dwf s -> dr s = mr -> dc s = nr ->
  dr f1 = nr -> dc f1 = r + nr -> dr b1 = r + nr -> dc b1 = nr ->
  dr f2 = mr -> dc f2 = r + mr -> dr b2 = r + mr -> dc b2 = mr ->
  dr e1 = r + nr -> dc e1 = r -> dr g2 = r -> dc g2 = r + mr ->
  dmul o f2 a1 = dmul o s f1 -> dmul o a1 b1 = dmul o b2 s ->                    (* chain maps *)
  dmul o f1 b1 = did o nr -> dmul o f2 b2 = did o mr ->                          (* f b = 1 *)
  dadd o (dmul o b1 f1) (dmul o h a1) = did o (r + nr) ->                        (* b f + h d = 1 *)
  dadd o (dmul o b2 f2) (dmul o a1 h) = did o (r + mr) ->                        (* b f + d h = 1 *)
  dmul o f1 h = dzero o nr (r + mr) -> dmul o h b2 = dzero o (r + nr) mr ->      (* f h = 0, h b = 0 *)
  h = dmul o e1 g2 -> dmul o g2 (dmul o a1 e1) = did o r ->                      (* h factors through R^r *)
  rone o <> rzero o ->
  forall (k : nat) (ds : nat -> R),
  smith_form o mr nr (dget o s) k ds ->
  smith_form o (r + mr) (r + nr) (dget o a1) (r + k) (lead1 o r ds).
Proof. exact @sdr_step_smith. Qed.
Print Assumptions C08_sdr_step_smith.

(* the step of the model (hypotheses of C08_step) *)
Theorem C08_step_smith : forall (R : Type) (o : ring_ops R), ring_laws o -> forall u : unit_ops R, unit_laws o u ->
  forall (a1 : dmat R) (vp vq : list nat) (r : nat) (t : ttype) (sc : schur R),
  rone o <> rzero o ->
  dwf a1 -> is_perm (dr a1) vp -> is_perm (dc a1) vq ->
  tri_ok o t (dblock o (permute o a1 vp vq) 0 0 r r) r ->
  schur_of o u t (permute o a1 vp vq) r = Some sc ->
  forall (k : nat) (ds : nat -> R),
  smith_form o (dr a1 - r) (dc a1 - r) (dget o (sc_s sc)) k ds ->
  smith_form o (dr a1) (dc a1) (dget o a1) (r + k) (lead1 o r ds).
Proof. exact @step_smith. Qed.
Print Assumptions C08_step_smith.

Theorem C08_lead1_chain : forall (R : Type) (o : ring_ops R), ring_laws o ->
  forall (r k : nat) (ds : nat -> R), chain o k ds -> chain o (r + k) (lead1 o r ds).
Proof. exact @lead1_chain. Qed.
Print Assumptions C08_lead1_chain.

(* with the uniqueness of the Smith form (C09_unique): rank and torsion before / after a step *)
Theorem C08_step_smith_unique : forall (R : Type) (o : ring_ops R), ring_laws o -> integral o -> bezout o ->
  forall u : unit_ops R, unit_laws o u ->
  forall (a1 : dmat R) (vp vq : list nat) (r : nat) (t : ttype) (sc : schur R),
  dwf a1 -> is_perm (dr a1) vp -> is_perm (dc a1) vq ->
  tri_ok o t (dblock o (permute o a1 vp vq) 0 0 r r) r ->
  schur_of o u t (permute o a1 vp vq) r = Some sc ->
  forall (k : nat) (ds : nat -> R) (K : nat) (Ds : nat -> R),
  smith_form o (dr a1 - r) (dc a1 - r) (dget o (sc_s sc)) k ds -> chain o k ds ->     (* after the step *)
  smith_form o (dr a1) (dc a1) (dget o a1) K Ds -> chain o K Ds ->                     (* before the step *)
  K = r + k /\
  (forall i, i < r -> associates o (rone o) (Ds i)) /\
  (forall i, i < k -> associates o (ds i) (Ds (r + i))).
Proof.
  intros R o L Hint Bz u UL a1 vp vq r t sc W Hp Hq Htri Hsc k ds K Ds Fs Cs FA CA.
  pose proof (step_smith o L u UL a1 vp vq r t sc (proj1 Hint) W Hp Hq Htri Hsc k ds Fs) as F1.
  destruct (smith_form_unique o L Hint _ _ _ _ _ _ _ Bz F1 FA (lead1_chain o L r k ds Cs) CA) as [E Has].
  split; [now symmetry|]. split; intros i Hi.
  - specialize (Has i ltac:(lia)). unfold lead1 in Has. destruct (Nat.ltb_spec i r); [exact Has|lia].
  - specialize (Has (r + i) ltac:(lia)). unfold lead1 in Has. destruct (Nat.ltb_spec (r + i) r); [lia|].
    replace (r + i - r) with i in Has by lia. exact Has.
Qed.
Print Assumptions C08_step_smith_unique.

(* The lifted statement, NOT proved (what is missing is said below):

   Theorem C08_homology_invariants : forall R o, ring_laws o -> integral o -> bezout o -> forall u, unit_laws o u ->
     forall M N D V0 (shapes of D) st0 supp ops orc st orc',
     is_input o M N D V0 st0 -> run_script o u supp ops st0 orc = Some (st, orc') -> okf st = true ->
     forall p d_in d_out, mats st p = Some d_in -> mats st (S p) = Some d_out ->
     forall (Smith forms (K_in, Ds_in) of D p, (K_out, Ds_out) of D (S p), (k_in, ds_in) of d_in, (k_out, ds_out) of d_out,
             all chains),
       N (S p) - K_in - K_out = dc d_out - k_in - k_out  /\
       the non-unit entries of Ds_in and of ds_in are associates entry by entry.

   Proved: the effect of ONE step on the reduced matrix itself (C08_step_smith, C08_step_smith_unique: rank(a1) =
   r + rank(s), same non-unit invariant factors).  Missing: (a) the same for the two neighbouring differentials
   (a0 = b1 a0' is equivalent to [0; a0'] by V^-1 = [g2 a1; f1] of C08_sdr_step_smith, so rank(a0) = rank(a0') and the
   dimension drops by r; dually a2), (b) the induction over scripts that accumulates (a) and C08_step_smith along the
   run (the invariant "D_p is equivalent to I_k (+) d_p padded by zero rows / columns, with N_p = n_p + k_(p-1) + k_p").
   The homological content (F, B mutually inverse on homology, over any ring, for every script) is C08_homology. *)

(* Z satisfies the hypotheses on the ring (Bezout: C09_bezout_rings) *)
Example C08_hom_ex_ring : ring_laws Z_ring /\ integral Z_ring /\ bezout Z_ring /\ unit_laws Z_ring Z_units.
Proof. exact (conj Z_ring_laws (conj Z_integral (conj Z_bezout Z_units_laws))). Qed.

(* a1 = [3 1; 6 4] with the pivot (0,1) (entry 1): the permuted matrix is [1 3; 4 6], r = 1, the Schur complement is
   s = [6 - 4*3] = [-6]; s has the Smith form (1, (-6)), hence a1 has the Smith form (2, (1, -6)) *)
Example C08_hom_ex_step :
  let a1 := mkD 2 2 [[3; 1]; [6; 4]]%Z in
  exists sc, schur_of Z_ring Z_units Lower (permute Z_ring a1 [0; 1] [1; 0]) 1 = Some sc /\
             sc_s sc = mkD 1 1 [[-6]]%Z /\
             dwf a1 /\ is_perm (dr a1) [0; 1] /\ is_perm (dc a1) [1; 0] /\
             tri_ok Z_ring Lower (dblock Z_ring (permute Z_ring a1 [0; 1] [1; 0]) 0 0 1 1) 1 /\
             smith_form Z_ring 1 1 (dget Z_ring (sc_s sc)) 1 (fun _ => (-6)%Z) /\
             smith_form Z_ring 2 2 (dget Z_ring a1) 2 (lead1 Z_ring 1 (fun _ => (-6)%Z)).
Proof.
  intros a1.
  assert (W : dwf a1) by (apply dwfb_dwf; reflexivity).
  assert (Hp : is_perm (dr a1) [0; 1]) by (apply Permutation_refl).
  assert (Hq : is_perm (dc a1) [1; 0]) by (apply perm_swap).
  assert (Ht : tri_ok Z_ring Lower (dblock Z_ring (permute Z_ring a1 [0; 1] [1; 0]) 0 0 1 1) 1)
    by (apply (tri_okb_ok Z_ring Z_ring_laws); reflexivity).
  destruct (schur_of Z_ring Z_units Lower (permute Z_ring a1 [0; 1] [1; 0]) 1) as [sc|] eqn:E; [|discriminate E].
  exists sc.
  assert (Es : sc_s sc = mkD 1 1 [[-6]]%Z).
  { pose proof E as E'. vm_compute in E'. injection E' as <-. reflexivity. }
  assert (Fs : smith_form Z_ring 1 1 (dget Z_ring (sc_s sc)) 1 (fun _ => (-6)%Z)).
  { rewrite Es. exists (mid Z_ring), (mid Z_ring), (mid Z_ring), (mid Z_ring).
    assert (I1 : inv_pair Z_ring 1 (mid Z_ring) (mid Z_ring)).
    { split; intros i j Hi Hj; destruct i; [|lia| |lia]; destruct j; [|lia| |lia]; reflexivity. }
    split; [exact I1|]. split; [exact I1|]. split; [|split].
    - intros i j Hi Hj. destruct i; [|lia]. destruct j; [|lia]. reflexivity.
    - intros i _. discriminate.
    - reflexivity. }
  repeat (split; [first [reflexivity|assumption]|]).
  refine (step_smith Z_ring Z_ring_laws Z_units Z_units_laws a1 [0; 1] [1; 0] 1 Lower sc _ W Hp Hq Ht E 1 _ Fs).
  discriminate.
Qed.
