(* C18 - resolutions: resolved_by keeps the labels (hence validity) and the length, lowers the number of
   unresolved crossings by |s|, and panics exactly when the state is longer than that number (so a full state
   leaves a crossingless diagram).  Section MapCrossings: resolving commutes with a map of the crossings
   (used for mirror and relabelling in C04). *)
From Coq Require Import List Arith Bool Lia.
Require Import Yui.Model.Link Yui.Proofs.C18Base.
Import ListNotations.

Lemma resolve_c_spec : forall c r, is_resolved c = false ->
  exists c', resolve_c c r = Some c' /\ cedges c' = cedges c /\ is_resolved c' = true.
Proof.
  intros [t a b c d] r Hr. unfold is_resolved in Hr. cbn in Hr.
  destruct t, r; try discriminate; cbn; eauto.
Qed.

Lemma crossing_num_cons : forall c l,
  crossing_num (c :: l) = (if is_resolved c then 0 else 1) + crossing_num l.
Proof. intros. unfold crossing_num. cbn. destruct (is_resolved c); reflexivity. Qed.

Lemma resolve_at_spec : forall l i r,
  (i < crossing_num l ->
     exists l', resolve_at l i r = Some l' /\ edge_labels l' = edge_labels l /\ length l' = length l /\
                S (crossing_num l') = crossing_num l) /\
  (crossing_num l <= i -> resolve_at l i r = None).
Proof.
  induction l as [|c l IH]; intros i r.
  - cbn. split; [lia|auto].
  - rewrite crossing_num_cons. cbn [resolve_at].
    (* c is kept and the i'-th crossing of the tail is resolved *)
    assert (Keep : forall i',
      (i' < crossing_num l ->
         exists l', option_map (cons c) (resolve_at l i' r) = Some l' /\
           edge_labels l' = edge_labels (c :: l) /\ length l' = length (c :: l) /\
           S (crossing_num l') = (if is_resolved c then 0 else 1) + crossing_num l) /\
      (crossing_num l <= i' -> option_map (cons c) (resolve_at l i' r) = None)).
    { intros i'. destruct (IH i' r) as [A B]. split.
      - intros Hi. destruct (A Hi) as (l' & E & EL & LN & CN).
        exists (c :: l'). rewrite E. split; [reflexivity|]. unfold edge_labels in *.
        cbn [flat_map length]. rewrite EL, LN, crossing_num_cons, <- CN, plus_n_Sm. auto.
      - intros Hi. rewrite (B Hi). reflexivity. }
    destruct (is_resolved c) eqn:R.
    + apply Keep.
    + destruct i as [|i].
      * split; [|lia]. intros _.
        destruct (resolve_c_spec c r R) as (c' & E & EC & RC). rewrite E. cbn [option_map].
        exists (c' :: l). split; auto. unfold edge_labels. cbn [flat_map]. rewrite EC.
        split; auto. split; auto. rewrite crossing_num_cons, RC. lia.
      * destruct (Keep i) as [A B]. split; intros Hi; [apply A|apply B]; lia.
Qed.

Theorem resolved_by_spec : forall s l,
  (length s <= crossing_num l ->
     exists l', resolved_by l s = Some l' /\ edge_labels l' = edge_labels l /\ length l' = length l /\
                crossing_num l' = crossing_num l - length s) /\
  (crossing_num l < length s -> resolved_by l s = None).
Proof.
  induction s as [|r s IH]; intros l; cbn [resolved_by length].
  - split; [|lia]. intros _. exists l. repeat split; auto; lia.
  - destruct (resolve_at_spec l 0 r) as [A B]. split.
    + intros Hs. destruct (A ltac:(lia)) as (l1 & E & EL & LN & CN). rewrite E.
      destruct (IH l1) as [A' _]. destruct (A' ltac:(lia)) as (l' & E' & EL' & LN' & CN').
      exists l'. split; auto. split; [congruence|]. split; [congruence|]. lia.
    + intros Hs. destruct (Nat.eq_dec (crossing_num l) 0) as [Z|NZ].
      * rewrite B by lia. reflexivity.
      * destruct (A ltac:(lia)) as (l1 & E & EL & LN & CN). rewrite E.
        destruct (IH l1) as [_ B']. apply B'. lia.
Qed.

(* resolving commutes with a map of the crossings that keeps "resolved" and commutes with resolve_c up to
   a change g of the smoothing (mirror: g = negb; relabelling: g = identity) *)
Section MapCrossings.
  Variables (f : crossing -> crossing) (g : bool -> bool).
  Hypothesis Hres : forall c, is_resolved (f c) = is_resolved c.
  Hypothesis Hc : forall c r, resolve_c (f c) r = option_map f (resolve_c c (g r)).

  Lemma resolve_at_map : forall l i r, resolve_at (map f l) i r = option_map (map f) (resolve_at l i (g r)).
  Proof.
    induction l as [|c l IH]; intros i r; [reflexivity|].
    cbn [map resolve_at]. rewrite Hres. destruct (is_resolved c).
    - rewrite IH. destruct (resolve_at l i (g r)); reflexivity.
    - destruct i as [|i].
      + rewrite Hc. destruct (resolve_c c (g r)); reflexivity.
      + rewrite IH. destruct (resolve_at l i (g r)); reflexivity.
  Qed.
  Lemma resolved_by_map : forall s l, resolved_by (map f l) s = option_map (map f) (resolved_by l (map g s)).
  Proof.
    induction s as [|r s IH]; intros l; [reflexivity|].
    cbn [resolved_by map]. rewrite resolve_at_map.
    destruct (resolve_at l 0 (g r)) as [l1|]; [|reflexivity]. cbn [option_map]. apply IH.
  Qed.
End MapCrossings.

Lemma Valid_labels : forall l l', edge_labels l' = edge_labels l -> Valid l -> Valid l'.
Proof. intros l l' E Hv. unfold Valid in *. rewrite E. exact Hv. Qed.
