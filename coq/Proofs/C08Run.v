(* The chain reducer as a whole: every public operation of the model (reduce_at_spec, reduce_at,
   reduce_all, reduce, scripts of them) preserves the invariant of C08All.v for every oracle stream;
   the initial states satisfy it; consequences (explicit form of the invariant, ChainComplexBase::reduced,
   homology); the one-step identities in one statement ([step_summary]); [schur_of_some]; the unit laws of Z.
   Soundness of the certificate checker is in C08Check.v. *)
From Coq Require Import Arith List Lia Bool Ring Permutation.
Require Import Yui.Base.Ring Yui.Base.MatF Yui.Base.MatL Yui.Model.Reducer.
Require Import Yui.Proofs.C08Mat Yui.Proofs.C08Perm Yui.Proofs.C08Tri Yui.Proofs.C08Block Yui.Proofs.C08Step.
Require Import Yui.Proofs.C08All.
Import ListNotations.

Section Run.
  Context {R : Type} (o : ring_ops R) (L : ring_laws o) (u : unit_ops R) (UL : unit_laws o u).
  Local Notation dmat := (dmat R).
  Local Notation dwf := (@dwf R).
  Local Notation state := (state R).
  Local Notation oracle := (list (list (nat * nat))).

  Context (M : nat) (N : nat -> nat) (D : nat -> dmat) (V0 : nat -> list (list R)).
  Context (HD : forall p, p < M -> dwf (D p) /\ dr (D p) = N (S p) /\ dc (D p) = N p).

  (* the strong deformation retraction, the ghost data quantified *)
  Definition sdr (st : state) : Prop := exists g, Inv o M N D V0 st g.

  (* what every operation preserves from [st] to [st']: the ghost flag is monotone, the retraction is kept while it
     is set, and the same keys hold a Trans *)
  Definition pres (st st' : state) : Prop :=
    (okf st' = true -> okf st = true) /\ (sdr st -> okf st' = true -> sdr st') /\
    (forall q, is_some (trs st' q) = is_some (trs st q)).

  Lemma pres_refl st : pres st st.
  Proof. repeat split; auto. Qed.
  Lemma pres_trans st1 st2 st3 : pres st1 st2 -> pres st2 st3 -> pres st1 st3.
  Proof. intros (A1 & B1 & C1) (A2 & B2 & C2). repeat split; auto. intros q. now rewrite C2. Qed.

  Lemma reduce_with_pres st p a1 pt pivs st' cont :
    mats st p = Some a1 -> reduce_with o u st p a1 pt pivs = Some (st', cont) -> pres st st'.
  Proof.
    intros Ha E. unfold reduce_with in E. cbv zeta in E.
    destruct (perm_order (dr a1) (map fst pivs)) as [vp|] eqn:Evp; [|discriminate]. cbn [obind] in E.
    destruct (perm_order (dc a1) (map snd pivs)) as [vq|] eqn:Evq; [|discriminate]. cbn [obind] in E.
    destruct (length pivs =? 0) eqn:Er.
    { injection E as <- <-. apply pres_refl. }
    set (A' := permute o a1 vp vq) in *. set (r := length pivs) in *. set (t := ttype_of pt) in *.
    destruct (schur_of o u t A' r) as [sc|] eqn:Esc; [|discriminate]. cbn [obind] in E.
    destruct (update_mats o (mats st) p vp vq r (sc_s sc)) as [ms|] eqn:Ems; [|discriminate]. cbn [obind] in E.
    match type of E with obind ?X _ = _ => destruct X as [ts|] eqn:Ets; [|discriminate] end. cbn [obind] in E.
    destruct (update_vecs o (vcs st) p vp vq r sc) as [vs|] eqn:Evs; [|discriminate]. cbn [obind] in E.
    assert (Hts : (trs st p = None /\ trs st (S p) = None /\ ts = trs st) \/
                  (exists t_s t_t, schur_t_src o (dc a1) r sc = Some t_s /\ schur_t_tgt o (dr a1) r sc = Some t_t /\
                                   update_trans o (trs st) p vp vq t_s t_t = Some ts)).
    { destruct (is_some (trs st p) || is_some (trs st (S p))) eqn:Ew.
      - right.
        destruct (schur_t_src o (dc a1) r sc) as [t_s|]; [|discriminate]. cbn [obind] in Ets.
        destruct (schur_t_tgt o (dr a1) r sc) as [t_t|]; [|discriminate]. cbn [obind] in Ets.
        exists t_s, t_t. auto.
      - left. apply orb_false_iff in Ew. destruct Ew as [E1 E2].
        destruct (trs st p); [discriminate|]. destruct (trs st (S p)); [discriminate|].
        injection Ets as <-. auto. }
    injection E as <- <-. split; [|split]; cbn [okf trs].
    - intros H. apply andb_true_iff in H. tauto.
    - intros [g I] H. apply andb_true_iff in H. destruct H as [_ Ht].
      destruct (perm_order_spec _ _ _ Evp) as (Hvp & _). destruct (perm_order_spec _ _ _ Evq) as (Hvq & _).
      exists (g' o g p a1 vp vq r sc).
      apply (step_inv o L u UL M N D V0 HD st g I p a1 Ha vp vq r t sc Hvp Hvq); try assumption.
      now apply (tri_okb_ok o L).
    - intros q. destruct Hts as [(_ & _ & ->)|(t_s & t_t & _ & _ & Eu)]; [reflexivity|].
      destruct (update_trans_spec o _ _ _ _ _ _ _ Eu) as (Ho & Hp1 & Hp2).
      destruct (Nat.eq_dec q p) as [->|Hqp]; [|destruct (Nat.eq_dec q (S p)) as [->|HqS]].
      + destruct (trs st p); [|now rewrite Hp1]. destruct Hp1 as (? & ? & _ & _ & ->). reflexivity.
      + destruct (trs st (S p)); [|now rewrite Hp2]. destruct Hp2 as (? & ? & _ & _ & ->). reflexivity.
      + now rewrite Ho.
  Qed.

  Lemma reduce_at_spec_pres st p pt orc st' cont orc' :
    reduce_at_spec o u st p pt orc = Some (st', cont, orc') -> pres st st'.
  Proof.
    unfold reduce_at_spec. destruct (mats st p) as [a1|] eqn:Ha; [|discriminate].
    destruct (dis_zero o a1). { intros [= <- <- <-]. apply pres_refl. }
    destruct orc as [|pivs rest]; [discriminate|].
    destruct (reduce_with o u st p a1 pt pivs) as [[st1 c1]|] eqn:E; [|discriminate]. cbn [obind].
    intros [= <- <- <-]. eapply reduce_with_pres; eassumption.
  Qed.

  Lemma reduce_at_pres deep p pt orc : forall st st' orc',
    reduce_at o u deep p pt orc st = Some (st', orc') -> pres st st'.
  Proof.
    induction orc as [|pivs rest IH]; intros st st' orc'; cbn [reduce_at];
      destruct (mats st p) as [a1|] eqn:Ha; try discriminate;
      (destruct (dis_zero o a1); [intros [= <- <-]; apply pres_refl|]); [discriminate|].
    destruct (reduce_with o u st p a1 pt pivs) as [[st1 c1]|] eqn:E; [|discriminate]. cbn [obind].
    pose proof (reduce_with_pres _ _ _ _ _ _ _ Ha E) as P1.
    destruct (deep && c1).
    - intros E2. eapply pres_trans; [exact P1|]. eapply IH; eassumption.
    - intros [= <- <-]. exact P1.
  Qed.

  Lemma reduce_seq_pres deep supp : forall orc st st' orc',
    reduce_seq o u deep supp orc st = Some (st', orc') -> pres st st'.
  Proof.
    induction supp as [|p rest IH]; intros orc st st' orc'; cbn [reduce_seq].
    - intros [= <- <-]. apply pres_refl.
    - destruct (reduce_at o u deep p Cols orc st) as [[st1 o1]|] eqn:E; [|discriminate]. cbn [obind].
      intros E2. eapply pres_trans; [eapply reduce_at_pres; eassumption|eapply IH; eassumption].
  Qed.

  Lemma reduce_all_pres deep supp orc st st' orc' :
    reduce_all o u deep supp orc st = Some (st', orc') -> pres st st'.
  Proof.
    unfold reduce_all. destruct (is_done o st supp).
    - intros [= <- <-]. apply pres_refl.
    - apply reduce_seq_pres.
  Qed.

  Lemma reduce_pres supp orc st st' orc' :
    reduce o u supp orc st = Some (st', orc') -> pres st st'.
  Proof.
    unfold reduce. destruct (reduce_all o u false supp orc st) as [[st1 o1]|] eqn:E; [|discriminate]. cbn [obind].
    intros E2. eapply pres_trans; eapply reduce_all_pres; eassumption.
  Qed.

  Lemma run_op_pres supp x st orc st' orc' :
    run_op o u supp x st orc = Some (st', orc') -> pres st st'.
  Proof.
    destruct x as [p pt|p deep|deep]; cbn [run_op].
    - destruct (reduce_at_spec o u st p pt orc) as [[[st1 c1] o1]|] eqn:E; [|discriminate]. cbn [obind].
      intros [= <- <-]. eapply reduce_at_spec_pres; eassumption.
    - apply reduce_at_pres.
    - apply reduce_all_pres.
  Qed.

  Lemma run_script_pres supp ops : forall st orc st' orc',
    run_script o u supp ops st orc = Some (st', orc') -> pres st st'.
  Proof.
    induction ops as [|x rest IH]; intros st orc st' orc'; cbn [run_script].
    - intros [= <- <-]. apply pres_refl.
    - destruct (run_op o u supp x st orc) as [[st1 o1]|] eqn:E; [|discriminate]. cbn [obind].
      intros E2. eapply pres_trans; [eapply run_op_pres; eassumption|eapply IH; eassumption].
  Qed.

  Definition g0 : ghost :=
    mkG N (fun p => did o (N p)) (fun p => did o (N p)) (fun p => dzero o (N p) (N (S p))).

  (* what ChainReducer::new + set_matrix + add_vec build from a complex *)
  Definition is_input (st0 : state) : Prop :=
    (forall p, p < M -> mats st0 p = Some (D p)) /\
    (forall p, M <= p -> mats st0 p = None) /\
    (forall p, S p < M -> dmul o (D (S p)) (D p) = dzero o (N (S (S p))) (N p)) /\
    (forall p t, trs st0 p = Some t -> p < M /\ t = t_id o (N p)) /\
    (forall p, p <= M -> vcs st0 p = V0 p /\ Forall (fun v => length v = N p) (V0 p)).

  Lemma Forall_diag {A} (P : A -> Prop) (Q : A -> A -> Prop) l :
    (forall x, P x -> Q x x) -> Forall P l -> Forall2 Q l l.
  Proof. intros H HF. induction HF; constructor; auto. Qed.

  Lemma init_inv st0 : is_input st0 -> Inv o M N D V0 st0 g0.
  Proof.
    intros (Hm & Hn & Hc & Ht & Hv).
    assert (Hd : forall p d, mats st0 p = Some d -> p < M /\ d = D p).
    { intros p d E. pose proof (some_below _ _ Hn _ _ E) as Hp. rewrite Hm in E by assumption. now injection E. }
    constructor; cbn [g0 gn gF gB gH].
    - intros p Hp. exists (D p). destruct (HD p Hp) as (W & Hr & Hcc). auto.
    - exact Hn.
    - intros p d0 d1 E0 E1. destruct (Hd _ _ E0) as (_ & ->). destruct (Hd _ _ E1) as (Hp & ->).
      destruct (HD p ltac:(lia)) as (_ & _ & ->). destruct (HD (S p) Hp) as (_ & -> & _). now apply Hc.
    - intros p Hp. splits; [dwfs|reflexivity|reflexivity].
    - intros p Hp. splits; [dwfs|reflexivity|reflexivity].
    - intros p Hp. apply (dmul_id_l o L); [dwfs|reflexivity].
    - intros p d E. destruct (Hd _ _ E) as (Hp & ->). destruct (HD p Hp) as (W & Hr & Hcc).
      now rewrite (dmul_id_l o L), (dmul_id_r o L).
    - intros p d E. destruct (Hd _ _ E) as (Hp & ->). destruct (HD p Hp) as (W & Hr & Hcc).
      now rewrite (dmul_id_l o L), (dmul_id_r o L).
    - intros p Hp. splits; [dwfs|reflexivity|reflexivity].
    - intros p Hp. rewrite (dmul_id_l o L) by (dwfs || reflexivity).
      assert (E1 : Hlo o N D g0 p = dzero o (N p) (N p)).
      { destruct p as [|q]; cbn [Hlo g0 gH]; [reflexivity|].
        rewrite (dmul_zero_r o L). destruct (HD q ltac:(lia)) as (_ & -> & _). reflexivity. }
      assert (E2 : Hhi o M N D g0 p = dzero o (N p) (N p)).
      { unfold Hhi. cbn [g0 gH]. destruct (Nat.ltb_spec p M) as [H|H]; [|reflexivity].
        rewrite (dmul_zero_l o L). destruct (HD p H) as (_ & _ & ->). reflexivity. }
      rewrite E1, E2.
      rewrite (dadd_zero_r' o L) by (dwfs || reflexivity).
      apply (dadd_zero_r' o L); (dwfs || reflexivity).
    - intros p t E. destruct (Ht p t E) as (Hp & ->). split; [exact Hp|reflexivity].
    - intros p Hp. destruct (Hv p Hp) as (-> & HF).
      apply (Forall_diag (fun v => length v = N p)); [|exact HF].
      intros v Hl. split; [exact Hl|]. symmetry. apply (dmul_id_l o L); [apply dwf_dmk|exact Hl].
  Qed.

  Theorem run_script_main st0 supp ops orc st orc' :
    is_input st0 ->
    run_script o u supp ops st0 orc = Some (st, orc') -> okf st = true -> sdr st.
  Proof.
    intros Hin E Hok. destruct (run_script_pres _ _ _ _ _ _ E) as (_ & P & _). apply P; [|exact Hok].
    exists g0. now apply init_inv.
  Qed.

  Theorem reduce_main st0 supp orc st orc' :
    is_input st0 -> reduce o u supp orc st0 = Some (st, orc') -> okf st = true -> sdr st.
  Proof.
    intros Hin E Hok. destruct (reduce_pres _ _ _ _ _ E) as (_ & P & _). apply P; [|exact Hok].
    exists g0. now apply init_inv.
  Qed.

  Theorem step_main st p a1 pt pivs st' cont :
    sdr st -> mats st p = Some a1 -> reduce_with o u st p a1 pt pivs = Some (st', cont) ->
    okf st' = true -> sdr st'.
  Proof. intros S Ha E Hok. destruct (reduce_with_pres _ _ _ _ _ _ _ Ha E) as (_ & P & _). now apply P. Qed.

  Theorem step_spec_main st p pt orc st' cont orc' :
    sdr st -> reduce_at_spec o u st p pt orc = Some (st', cont, orc') -> okf st' = true -> sdr st'.
  Proof. intros S E Hok. destruct (reduce_at_spec_pres _ _ _ _ _ _ _ E) as (_ & P & _). now apply P. Qed.

  Lemma tri_inv_dims t a r X : tri_inv o u t a r = Some X -> dr X = r /\ dc X = r.
  Proof.
    destruct t; cbn [tri_inv]; unfold inv_lower.
    - destruct (inv_rows o u (dtrans o a) r r); [|discriminate]. cbn [obind]. intros [= <-]. split; reflexivity.
    - destruct (inv_rows o u a r r); [|discriminate]. cbn [obind]. intros [= <-]. split; reflexivity.
  Qed.

  Lemma Forall2_Forall_l {A B} (P : A -> B -> Prop) (Q : A -> Prop) l l' :
    (forall x y, P x y -> Q x) -> Forall2 P l l' -> Forall Q l.
  Proof. intros H HF. induction HF; constructor; eauto. Qed.

  Lemma nodup_bound n l : NoDup l -> Forall (fun x => x < n) l -> length l <= n.
  Proof.
    intros H1 H2. rewrite <- (seq_length n 0). apply NoDup_incl_length; [exact H1|].
    intros x Hx. rewrite Forall_forall in H2. apply in_seq. specialize (H2 x Hx). lia.
  Qed.

  (* a step never panics on valid pivots *)
  Theorem reduce_with_some st p a1 pt pivs :
    sdr st -> mats st p = Some a1 ->
    NoDup (map fst pivs) -> Forall (fun i => i < dr a1) (map fst pivs) ->
    NoDup (map snd pivs) -> Forall (fun j => j < dc a1) (map snd pivs) ->
    (forall vp vq, perm_order (dr a1) (map fst pivs) = Some vp -> perm_order (dc a1) (map snd pivs) = Some vq ->
       unit_diag o u (dblock o (permute o a1 vp vq) 0 0 (length pivs) (length pivs)) (length pivs)) ->
    exists st' cont, reduce_with o u st p a1 pt pivs = Some (st', cont).
  Proof.
    intros [g I] Ha Hn1 Hf1 Hn2 Hf2 Hu. unfold reduce_with. cbv zeta.
    destruct (perm_order_some _ _ Hn1 Hf1) as [vp Evp]. destruct (perm_order_some _ _ Hn2 Hf2) as [vq Evq].
    rewrite Evp, Evq. cbn [obind]. specialize (Hu vp vq Evp Evq).
    destruct (length pivs =? 0); [eauto|].
    destruct (perm_order_spec _ _ _ Evp) as (Hvp & _). destruct (perm_order_spec _ _ _ Evq) as (Hvq & _).
    pose proof (perm_length _ _ Hvp) as Lvp. pose proof (perm_length _ _ Hvq) as Lvq.
    set (r := length pivs) in *. set (t := ttype_of pt).
    assert (Hrm : r <= dr a1). { unfold r. rewrite <- (map_length fst). now apply nodup_bound. }
    assert (Hrn : r <= dc a1). { unfold r. rewrite <- (map_length snd). now apply nodup_bound. }
    destruct (inv_mat_at _ _ _ _ _ _ _ I p a1 Ha) as (HpM & W1 & Hm & Hn).
    (* the Schur complement *)
    unfold schur_of. rewrite dr_permute, dc_permute.
    destruct (Nat.leb_spec r (dr a1)); [|lia]. destruct (Nat.leb_spec r (dc a1)); [|lia]. cbn [andb].
    destruct (tri_inv_some o u UL t (dblock o (permute o a1 vp vq) 0 0 r r) r eq_refl eq_refl Hu) as [X EX].
    rewrite EX. cbn [obind]. destruct (tri_inv_dims _ _ _ _ EX) as (HXr & HXc).
    match goal with |- context [mkS ?s0 ?ai ?aib ?cai ?c0] => set (sc := mkS s0 ai aib cai c0) end.
    (* each of the three updates succeeds because the shapes recorded in the invariant fit *)
    destruct (update_mats_some o (mats st) p vp vq r (sc_s sc)) as [ms ->].
    { intros p0 a0 -> Ea0. destruct (inv_mat_at _ _ _ _ _ _ _ I p0 a0 Ea0) as (_ & _ & Hr0 & _). congruence. }
    { intros a2 Ea2. destruct (inv_mat_at _ _ _ _ _ _ _ I (S p) a2 Ea2) as (_ & _ & _ & Hc2). congruence. }
    cbn [obind].
    match goal with |- context [obind ?X _] => assert (Etrans : exists ts, X = Some ts) end.
    { destruct (is_some (trs st p) || is_some (trs st (S p))); [|eauto].
      destruct (schur_t_some o (dr a1) (dc a1) r sc) as (t_s & t_t & -> & Hs & -> & Ht);
        [subst sc; cbn [sc_ainvb sc_cainv]; shapes; (assumption || reflexivity) ..|].
      cbn [obind]. apply update_trans_some; try congruence.
      - intros t1 Et1. destruct (inv_trs _ _ _ _ _ _ _ I p t1 Et1) as (_ & ->). cbn [t_tgt]. congruence.
      - intros t2 Et2. destruct (inv_trs _ _ _ _ _ _ _ I (S p) t2 Et2) as (_ & ->). cbn [t_tgt]. congruence. }
    destruct Etrans as [ts ->]. cbn [obind].
    destruct (update_vecs_some o (vcs st) p vp vq r sc) as [vs ->].
    { apply (Forall2_Forall_l _ _ _ _ (fun v v0 H => eq_trans (proj1 H) (eq_sym (eq_trans Lvq Hn)))
               (inv_vcs _ _ _ _ _ _ _ I p ltac:(lia))). }
    { apply (Forall2_Forall_l _ _ _ _ (fun v v0 H => eq_trans (proj1 H) (eq_sym (eq_trans Lvp Hm)))
               (inv_vcs _ _ _ _ _ _ _ I (S p) ltac:(lia))). }
    cbn [obind]. eauto.
  Qed.

  Definition sdr_explicit (st : state) : Prop :=
    exists (n : nat -> nat) (F B H : nat -> dmat),
      (* the current complex: M differentials d_p : n_p -> n_(p+1), and d_(p+1) d_p = 0 *)
      (forall p, p < M -> exists d, mats st p = Some d /\ dwf d /\ dr d = n (S p) /\ dc d = n p) /\
      (forall p, M <= p -> mats st p = None) /\
      (forall p d0 d1, mats st p = Some d0 -> mats st (S p) = Some d1 -> dmul o d1 d0 = dzero o (dr d1) (dc d0)) /\
      (* shapes of F_p : N_p -> n_p, B_p : n_p -> N_p (p <= M), H_p : N_(p+1) -> N_p (p < M) *)
      (forall p, p <= M -> dwf (F p) /\ dr (F p) = n p /\ dc (F p) = N p) /\
      (forall p, p <= M -> dwf (B p) /\ dr (B p) = N p /\ dc (B p) = n p) /\
      (forall p, p < M -> dwf (H p) /\ dr (H p) = N p /\ dc (H p) = N (S p)) /\
      (* F B = 1 *)
      (forall p, p <= M -> dmul o (F p) (B p) = did o (n p)) /\
      (* F and B are chain maps *)
      (forall p d, mats st p = Some d -> dmul o (F (S p)) (D p) = dmul o d (F p)) /\
      (forall p d, mats st p = Some d -> dmul o (D p) (B p) = dmul o (B (S p)) d) /\
      (* B F + D H + H D = 1 on every space of the original complex *)
      (forall p, p <= M ->
         dadd o (dmul o (B p) (F p))
           (dadd o (match p with O => dzero o (N 0) (N 0) | S q => dmul o (D q) (H q) end)
                   (if p <? M then dmul o (H p) (D p) else dzero o (N p) (N p))) = did o (N p)) /\
      (* the stored Trans are (F_p, B_p) *)
      (forall p t, trs st p = Some t -> p < M /\ t = mkT (N p) (n p) (F p) (B p)) /\
      (* the tracked vectors are F applied to the original ones *)
      (forall p, p <= M ->
         Forall2 (fun v v0 => length v = n p /\ vmat o v = dmul o (F p) (vmat o v0)) (vcs st p) (V0 p)).

  Lemma sdr_iff st : sdr st <-> sdr_explicit st.
  Proof.
    split.
    - intros [g [I1 I2 I3 I4 I5 I6 I7 I8 I9 I10 I11 I12]].
      exists (gn g), (gF g), (gB g), (gH g). splits; assumption.
    - intros (n & F & B & H & I1 & I2 & I3 & I4 & I5 & I9 & I6 & I7 & I8 & I10 & I11 & I12).
      exists (mkG n F B H). constructor; assumption.
  Qed.

  (* ChainComplexBase::reduced: the differential seen through the Trans is the reducer's matrix *)
  Lemma reduced_d_eq st p d tp tq :
    sdr st -> mats st p = Some d -> trs st p = Some tp -> trs st (S p) = Some tq ->
    reduced_d o (D p) (Some tp) (Some tq) = Some d.
  Proof.
    intros [g I] Ed Ep Eq. cbn [reduced_d].
    destruct (inv_trs _ _ _ _ _ _ _ I p tp Ep) as (Hp & ->).
    destruct (inv_trs _ _ _ _ _ _ _ I (S p) tq Eq) as (HSp & ->). cbn [t_f t_b].
    destruct (HD p Hp) as (WD & HDr & HDc).
    destruct (inv_F _ _ _ _ _ _ _ I p ltac:(lia)) as (WF & HFr & HFc).
    destruct (inv_F _ _ _ _ _ _ _ I (S p) ltac:(lia)) as (WF2 & HF2r & HF2c).
    destruct (inv_mat_at _ _ _ _ _ _ _ I p d Ed) as (_ & Wd & Hdr & Hdc).
    rewrite <- (dmul_assoc o L) by congruence.
    rewrite (inv_Fc _ _ _ _ _ _ _ I p d Ed).
    rewrite (dmul_assoc o L) by congruence.
    rewrite (inv_FB _ _ _ _ _ _ _ I p ltac:(lia)). f_equal. apply (dmul_id_r o L); congruence.
  Qed.

  (* homology: F and B induce mutually inverse isomorphisms.  X is any matrix of columns of C_p. *)
  Lemma homology_main st : sdr st -> exists (n : nat -> nat) (F B : nat -> dmat),
    forall p d, mats st p = Some d ->
      (* F maps cycles to cycles, B maps cycles to cycles *)
      (forall X, dr X = N p -> dmul o (D p) X = dzero o (N (S p)) (dc X) ->
                 dmul o d (dmul o (F p) X) = dzero o (n (S p)) (dc X)) /\
      (forall Y, dr Y = n p -> dmul o d Y = dzero o (n (S p)) (dc Y) ->
                 dmul o (D p) (dmul o (B p) Y) = dzero o (N (S p)) (dc Y)) /\
      (* boundaries to boundaries *)
      (forall X, dr X = N p -> dmul o (F (S p)) (dmul o (D p) X) = dmul o d (dmul o (F p) X)) /\
      (forall Y, dr Y = n p -> dmul o (B (S p)) (dmul o d Y) = dmul o (D p) (dmul o (B p) Y)) /\
      (* F B = 1 on the reduced complex *)
      (forall Y, dwf Y -> dr Y = n p -> dmul o (F p) (dmul o (B p) Y) = Y) /\
      (* a cycle of the original complex differs from B F of it by a boundary (a cycle of C_0 is anything) *)
      (forall X, dwf X -> dr X = N p -> dmul o (D p) X = dzero o (N (S p)) (dc X) ->
         match p with
         | O => X = dmul o (B 0) (dmul o (F 0) X)
         | S q => exists W, dr W = N q /\ X = dadd o (dmul o (B p) (dmul o (F p) X)) (dmul o (D q) W)
         end).
  Proof.
    intros [g I]. exists (gn g), (gF g), (gB g). intros p d Ed.
    destruct (inv_mat_at _ _ _ _ _ _ _ I p d Ed) as (Hp & Wd & Hdr & Hdc).
    destruct (HD p Hp) as (WD & HDr & HDc).
    destruct (inv_F _ _ _ _ _ _ _ I p ltac:(lia)) as (WF & HFr & HFc).
    destruct (inv_F _ _ _ _ _ _ _ I (S p) ltac:(lia)) as (WF2 & HF2r & HF2c).
    destruct (inv_B _ _ _ _ _ _ _ I p ltac:(lia)) as (WB & HBr & HBc).
    destruct (inv_B _ _ _ _ _ _ _ I (S p) ltac:(lia)) as (WB2 & HB2r & HB2c).
    pose proof (inv_Fc _ _ _ _ _ _ _ I p d Ed) as EF. pose proof (inv_Bc _ _ _ _ _ _ _ I p d Ed) as EB.
    splits.
    - intros X HX E. rewrite <- (dmul_assoc o L) by congruence. rewrite <- EF.
      rewrite (dmul_assoc o L) by congruence. rewrite E. rewrite (dmul_zero_r o L). now rewrite HF2r.
    - intros Y HY E. rewrite <- (dmul_assoc o L) by congruence. rewrite EB.
      rewrite (dmul_assoc o L) by congruence. rewrite E. rewrite (dmul_zero_r o L). now rewrite HB2r.
    - intros X HX. rewrite <- !(dmul_assoc o L) by congruence. now rewrite EF.
    - intros Y HY. rewrite <- !(dmul_assoc o L) by congruence. now rewrite EB.
    - intros Y WY HY. rewrite <- (dmul_assoc o L) by congruence.
      rewrite (inv_FB _ _ _ _ _ _ _ I p ltac:(lia)). now apply (dmul_id_l o L).
    - intros X WX HX E. pose proof (inv_hom _ _ _ _ _ _ _ I p ltac:(lia)) as EH.
      destruct (inv_H _ _ _ _ _ _ _ I p Hp) as (WH & HHr & HHc).
      assert (EX : dmul o (did o (N p)) X = X) by now apply (dmul_id_l o L).
      rewrite <- EH, Hhi_lt in EX by exact Hp.
      assert (Ez : dmul o (dmul o (gH g p) (D p)) X = dzero o (N p) (dc X)).
      { rewrite (dmul_assoc o L) by congruence. rewrite E. rewrite (dmul_zero_r o L). now rewrite HHr. }
      destruct (Hlo_shape o M N D V0 HD st g I p (Nat.lt_le_incl _ _ Hp)) as (HLr & HLc).
      rewrite !(dmul_add_l o L) in EX by (shapes; congruence). rewrite Ez in EX.
      rewrite (dadd_zero_r' o L) in EX by (dwfs || (shapes; congruence)).
      rewrite (dmul_assoc o L) in EX by congruence.
      destruct p as [|q]; cbn [Hlo] in EX.
      + rewrite (dmul_zero_l o L) in EX.
        rewrite (dadd_zero_r' o L) in EX by (dwfs || (shapes; congruence)). now symmetry.
      + destruct (HD q ltac:(lia)) as (WDq & HDqr & HDqc).
        destruct (inv_H _ _ _ _ _ _ _ I q ltac:(lia)) as (WHq & HHqr & HHqc).
        exists (dmul o (gH g q) X). split; [shapes; exact HHqr|].
        rewrite (dmul_assoc o L (D q)) in EX by congruence. now symmetry.
  Qed.
End Run.

(* ChainReducer::from / reduce / ChainComplexBase::reduced *)
Section FromComplex.
  Context {R : Type} (o : ring_ops R) (L : ring_laws o) (u : unit_ops R) (UL : unit_laws o u).
  Local Notation dmat := (dmat R).
  Local Notation dwf := (@dwf R).

  (* a complex C_0 -> .. -> C_(k-1) with ranks [dims] (k >= 1) and differentials [ds] (k - 1 of them) *)
  Definition is_complex (dims : list nat) (ds : list dmat) : Prop :=
    S (length ds) = length dims /\
    (forall p, p < length ds ->
       dwf (nth p ds (dzero o 0 0)) /\ dr (nth p ds (dzero o 0 0)) = nth (S p) dims 0 /\
       dc (nth p ds (dzero o 0 0)) = nth p dims 0) /\
    (forall p, S p < length ds ->
       dmul o (nth (S p) ds (dzero o 0 0)) (nth p ds (dzero o 0 0)) = dzero o (nth (S (S p)) dims 0) (nth p dims 0)).

  (* the reducer's keys: the given differentials, then C_(k-1) -> 0 and 0 -> 0 *)
  Definition all_mats (dims : list nat) (ds : list dmat) : list dmat :=
    ds ++ [dzero o 0 (last dims 0); dzero o 0 0].
  Definition cM (ds : list dmat) : nat := length ds + 2.
  Definition cN (dims : list nat) : nat -> nat := fun p => nth p dims 0.
  Definition cD (dims : list nat) (ds : list dmat) : nat -> dmat := fun p => nth p (all_mats dims ds) (dzero o 0 0).

  Lemma last_nth (l : list nat) : last l 0 = nth (length l - 1) l 0.
  Proof.
    induction l as [|x l IH]; [reflexivity|]. destruct l as [|y l]; [reflexivity|].
    change (last (x :: y :: l) 0) with (last (y :: l) 0). rewrite IH. cbn [length].
    replace (S (S (length l)) - 1) with (S (S (length l) - 1)) by lia. reflexivity.
  Qed.

  Lemma cD_lt dims ds p : p < length ds -> cD dims ds p = nth p ds (dzero o 0 0).
  Proof. intros H. unfold cD, all_mats. now rewrite app_nth1. Qed.
  Lemma cD_a dims ds : cD dims ds (length ds) = dzero o 0 (last dims 0).
  Proof. unfold cD, all_mats. rewrite app_nth2 by lia. now rewrite Nat.sub_diag. Qed.
  Lemma cD_b dims ds : cD dims ds (S (length ds)) = dzero o 0 0.
  Proof. unfold cD, all_mats. rewrite app_nth2 by lia. now replace (S (length ds) - length ds) with 1 by lia. Qed.

  Lemma complex_HD dims ds : is_complex dims ds ->
    forall p, p < cM ds -> dwf (cD dims ds p) /\ dr (cD dims ds p) = cN dims (S p) /\ dc (cD dims ds p) = cN dims p.
  Proof.
    intros (Hl & Hs & Hc) p Hp. unfold cM in Hp. unfold cN.
    destruct (Nat.lt_ge_cases p (length ds)) as [H|H].
    - rewrite cD_lt by assumption. now apply Hs.
    - destruct (Nat.eq_dec p (length ds)) as [->|Hne].
      + rewrite cD_a. split; [dwfs|]. shapes. split.
        * rewrite nth_overflow by lia. reflexivity.
        * rewrite last_nth. f_equal. lia.
      + assert (p = S (length ds)) as -> by lia. rewrite cD_b. split; [dwfs|]. shapes.
        rewrite !nth_overflow by lia. auto.
  Qed.

  Lemma from_complex_input dims ds wt : is_complex dims ds ->
    is_input o (cM ds) (cN dims) (cD dims ds) (fun _ => []) (from_complex o dims ds wt).
  Proof.
    intros HC. pose proof (complex_HD dims ds HC) as HD. destruct HC as (Hl & Hs & Hc).
    assert (Hlen : length (all_mats dims ds) = cM ds).
    { unfold all_mats, cM. rewrite app_length. cbn [length]. lia. }
    unfold is_input, from_complex. cbn [mats trs vcs]. fold (all_mats dims ds). splits.
    - intros p Hp. unfold cD. apply nth_error_nth'. now rewrite Hlen.
    - intros p Hp. apply nth_error_None. now rewrite Hlen.
    - intros p Hp. unfold cM in Hp. unfold cN.
      destruct (Nat.lt_ge_cases (S p) (length ds)) as [H|H].
      + rewrite !cD_lt by lia. now apply Hc.
      + destruct (Nat.eq_dec (S p) (length ds)) as [E|Hne].
        * rewrite E, cD_a. rewrite (dmul_zero_l o L). destruct (HD p ltac:(unfold cM; lia)) as (_ & _ & ->).
          unfold cN. rewrite (@nth_overflow _ dims (S (length ds)) 0) by lia. reflexivity.
        * assert (p = length ds) as -> by lia. rewrite cD_b, cD_a. rewrite (dmul_zero_l o L). shapes.
          rewrite (@nth_overflow _ dims (S (S (length ds))) 0) by lia. rewrite last_nth. do 2 f_equal. lia.
    - intros p t. destruct wt; [|discriminate].
      destruct (nth_error (all_mats dims ds) p) as [d|] eqn:E; [|discriminate]. cbn [option_map]. intros [= <-].
      assert (Hp : p < cM ds). { rewrite <- Hlen. apply nth_error_Some. congruence. }
      split; [exact Hp|]. f_equal.
      assert (Ed : cD dims ds p = d). { unfold cD. now apply nth_error_nth. }
      rewrite <- Ed. now destruct (HD p Hp) as (_ & _ & ->).
    - intros p Hp. split; [reflexivity|constructor].
  Qed.

  (* ChainReducer::reduce(complex, with_trans) *)
  Theorem from_reduce_main dims ds wt supp orc st orc' :
    is_complex dims ds ->
    reduce o u supp orc (from_complex o dims ds wt) = Some (st, orc') -> okf st = true ->
    sdr o (cM ds) (cN dims) (cD dims ds) (fun _ => []) st.
  Proof.
    intros HC E Hok.
    eapply (reduce_main o L u UL (cM ds) (cN dims) (cD dims ds) (fun _ => []) (complex_HD dims ds HC));
      [apply from_complex_input; exact HC|exact E|exact Hok].
  Qed.

  (* ChainComplexBase::reduced: at every key the reducer's Trans is present, the new summand has rank
     ncols(d_p) and maps (F_p, B_p), and the old differential seen through these maps is d_p *)
  Theorem reduced_main dims ds desc orc st orc' :
    is_complex dims ds ->
    reduced o u dims ds desc orc = Some (st, orc') -> okf st = true ->
    sdr o (cM ds) (cN dims) (cD dims ds) (fun _ => []) st /\
    forall p, p < length dims ->
      exists d tp tq, mats st p = Some d /\ trs st p = Some tp /\ trs st (S p) = Some tq /\
                      t_src tp = cN dims p /\ t_tgt tp = dc d /\
                      reduced_d o (cD dims ds p) (trs st p) (trs st (S p)) = Some d.
  Proof.
    intros HC E Hok. unfold reduced in E.
    pose proof (complex_HD dims ds HC) as HD.
    assert (HS : sdr o (cM ds) (cN dims) (cD dims ds) (fun _ => []) st) by (eapply from_reduce_main; eassumption).
    split; [exact HS|]. intros p Hp.
    destruct (reduce_pres o L u UL (cM ds) (cN dims) (cD dims ds) (fun _ => []) HD _ _ _ _ _ E) as (_ & _ & Hk).
    assert (HM : S p < cM ds). { destruct HC as (Hl & _). unfold cM. lia. }
    assert (Hsome : forall q, q < cM ds -> exists t, trs st q = Some t).
    { intros q Hq. specialize (Hk q). unfold from_complex in Hk. cbn [trs] in Hk.
      fold (all_mats dims ds) in Hk.
      destruct (nth_error (all_mats dims ds) q) eqn:En.
      - cbn in Hk. destruct (trs st q) as [t|]; [eauto|discriminate].
      - exfalso. apply nth_error_None in En. unfold all_mats, cM in *. rewrite app_length in En. cbn [length] in En. lia. }
    destruct (Hsome p ltac:(lia)) as [tp Etp]. destruct (Hsome (S p) HM) as [tq Etq].
    destruct HS as [g I].
    destruct (inv_mats _ _ _ _ _ _ _ I p ltac:(lia)) as (d & Ed & Wd & Hdr & Hdc).
    exists d, tp, tq. splits; try assumption.
    - destruct (inv_trs _ _ _ _ _ _ _ I p tp Etp) as (_ & ->). reflexivity.
    - destruct (inv_trs _ _ _ _ _ _ _ I p tp Etp) as (_ & ->). cbn [t_tgt]. now rewrite Hdc.
    - rewrite Etp, Etq. eapply (reduced_d_eq o L _ _ _ (fun _ => []) HD); try eassumption. exists g. exact I.
  Qed.
End FromComplex.

(* the one-step theorem in one piece *)
Section StepSummary.
  Context {R : Type} (o : ring_ops R) (L : ring_laws o) (u : unit_ops R) (UL : unit_laws o u).
  Local Notation dmat := (dmat R).
  Local Notation dwf := (@dwf R).

  Theorem step_summary (a1 : dmat) (vp vq : list nat) (r : nat) (t : ttype) (sc : schur R) :
    dwf a1 -> is_perm (dr a1) vp -> is_perm (dc a1) vq ->
    tri_ok o t (dblock o (permute o a1 vp vq) 0 0 r r) r ->
    schur_of o u t (permute o a1 vp vq) r = Some sc ->
    let m := dr a1 in let n := dc a1 in let s := sc_s sc in
    let f1 := step_f1 o n r vq in let b1 := step_b1 o n r vq sc in
    let f2 := step_f2 o m r vp sc in let b2 := step_b2 o m r vp in
    let h := step_h o m n r vp vq sc in
    (r <= m /\ r <= n /\ dwf s /\ dr s = m - r /\ dc s = n - r) /\
    (* f and b are chain maps between a1 and s; f b = 1; b f + h a1 = 1, b f + a1 h = 1; side conditions *)
    dmul o f2 a1 = dmul o s f1 /\ dmul o a1 b1 = dmul o b2 s /\
    dmul o f1 b1 = did o (n - r) /\ dmul o f2 b2 = did o (m - r) /\
    dadd o (dmul o b1 f1) (dmul o h a1) = did o n /\ dadd o (dmul o b2 f2) (dmul o a1 h) = did o m /\
    dmul o f1 h = dzero o (n - r) m /\ dmul o h b2 = dzero o n (m - r) /\
    (* the incoming differential a0 (a1 a0 = 0) loses the pivot rows: a0' = f1 a0, a0 = b1 a0', s a0' = 0 *)
    (forall a0, dwf a0 -> dr a0 = n -> dmul o a1 a0 = dzero o m (dc a0) ->
       dmul o f1 a0 = reduce_mat_rows o a0 vq r /\ dmul o b1 (reduce_mat_rows o a0 vq r) = a0 /\
       dmul o s (reduce_mat_rows o a0 vq r) = dzero o (m - r) (dc a0)) /\
    (* the outgoing differential a2 (a2 a1 = 0) loses the pivot columns: a2' = a2 b2, a2 = a2' f2, a2' s = 0 *)
    (forall a2, dwf a2 -> dc a2 = m -> dmul o a2 a1 = dzero o (dr a2) n ->
       dmul o (reduce_mat_cols o a2 vp r) f2 = a2 /\ dmul o a2 b2 = reduce_mat_cols o a2 vp r /\
       dmul o (reduce_mat_cols o a2 vp r) s = dzero o (dr a2) (n - r)).
  Proof.
    intros W1 Hp Hq Htri Hsc. cbv zeta.
    pose proof (step_dims o L u UL a1 (dr a1) (dc a1) r vp vq t sc eq_refl eq_refl Hp Hq Htri Hsc)
      as (_ & _ & _ & _ & _ & _ & _ & _ & _ & _ & Hsr & Hsc' & Ws & Hrm & Hrn).
    split; [splits; assumption|]. splits.
    - eapply (step_f_chain o L u UL a1 _ _ r vp vq t sc); stp.
    - eapply (step_b_chain o L u UL a1 _ _ r vp vq t sc); stp.
    - eapply (step_fb_src o L u UL a1 _ _ r vp vq t sc); stp.
    - eapply (step_fb_tgt o L u UL a1 _ _ r vp vq t sc); stp.
    - eapply (step_homotopy_src o L u UL a1 _ _ r vp vq t sc); stp.
    - eapply (step_homotopy_tgt o L u UL a1 _ _ r vp vq t sc); stp.
    - eapply (step_fh o L u UL a1 _ _ r vp vq t sc); stp.
    - eapply (step_hb o L u UL a1 _ _ r vp vq t sc); stp.
    - intros a0 W0 H0 H10. splits.
      + eapply (step_a0_f o L u UL a1 _ _ r vp vq t sc); stp.
      + eapply (step_a0_b o L u UL a1 _ _ r vp vq t sc); stp.
      + eapply (step_complex_src o L u UL a1 _ _ r vp vq t sc); stp.
    - intros a2 W2 H2 H21. splits.
      + eapply (step_a2_f o L u UL a1 _ _ r vp vq t sc); stp.
      + eapply (step_a2_b o L u UL a1 _ _ r vp vq t sc); stp.
      + eapply (step_complex_tgt o L u UL a1 _ _ r vp vq t sc); stp.
  Qed.

  (* the Schur complement is defined (no panic) when the pivots are units *)
  Theorem schur_of_some (t : ttype) (A : dmat) (r : nat) :
    r <= dr A -> r <= dc A -> unit_diag o u (dblock o A 0 0 r r) r ->
    exists sc, schur_of o u t A r = Some sc.
  Proof.
    intros H1 H2 Hu. unfold schur_of.
    destruct (Nat.leb_spec r (dr A)); [|lia]. destruct (Nat.leb_spec r (dc A)); [|lia]. cbn [andb].
    destruct (tri_inv_some o u UL t (dblock o A 0 0 r r) r eq_refl eq_refl Hu) as [X ->]. cbn [obind]. eauto.
  Qed.
End StepSummary.

(* non-vacuity: Z with units 1, -1 is an instance *)
From Coq Require Import ZArith.
Lemma Z_units_laws : unit_laws Z_ring Z_units.
Proof. apply Z_unit_laws_of. intros a. rewrite orb_true_iff, !Z.eqb_eq. tauto. Qed.
