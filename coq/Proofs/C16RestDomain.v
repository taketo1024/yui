(* C16 (rest): over an integral domain, Ring::is_unit of PolyBase is EXACTLY invertibility in the polynomial
   ring: p.is_unit() <-> exists q, p * q = 1.  (Over a ring with zero divisors the code's is_unit is only
   sufficient: 1 + 2x is its own inverse in (Z/4)[x] but is_unit answers false; yui only instantiates
   polynomial rings over Z, Q, F_p, Z[i], Z[w], which are domains.)
   Proof: for any total order on the monomials compatible with the product, the product of the two top
   terms is the top term of the product (no cancellation over a domain); applied to cmp_grlex and to its
   reverse, p * q = 1 forces top(p) = bottom(p), i.e. p is a single term a*x with x and a invertible. *)
From Coq Require Import List Bool Arith NArith ZArith Lia Permutation Ring.
Require Import Yui.Base.Ring Yui.Model.Lc Yui.Model.Mono Yui.Model.Poly.
Require Import Yui.Proofs.C16Lc Yui.Proofs.C16Mono Yui.Proofs.C16Poly Yui.Proofs.C16RestMono.
Require Import Yui.Proofs.C16RestLead Yui.Proofs.C16RestUnit.
Import ListNotations.

Section Domain.
  Context {X R : Type} (m : mono_ops X) (o : ring_ops R) (ok : X -> Prop).
  Context (ML : mono_laws m ok) (L : ring_laws o).

  Add Ring Rd : (ring_theory_of_laws o L).

  Notation "0" := (rzero o).
  Notation "1" := (rone o).
  Infix "+" := (radd o).
  Infix "*" := (rmul o).
  Notation poly := (lc X R).
  Notation xeqb := (meqb m).
  Notation coeff := (coeff xeqb o).
  Notation delta := (delta xeqb o).
  Notation lsum := (@lsum X R o).
  Notation keys := (@keys X R).
  Notation WF := (WF o ok).
  Infix "**" := (mmul m) (at level 40, left associativity).
  Infix "==" := (peq m o) (at level 70).

  Let xeqb_eq : forall x y, xeqb x y = true <-> x = y := meqb_eq m ok ML.

  Lemma supp_ok a z : WF a -> coeff a z <> 0 -> ok z.
  Proof.
    intros Ha Hz. destruct (p_support m o ok ML a Ha) as (_ & Hs & Hk & _). rewrite Forall_forall in Hk. now apply Hk, Hs.
  Qed.

  Section TopTerm.
    Context (c : X -> X -> comparison) (CO : ord_laws ok c).
    Context (CM : forall x y z, ok x -> ok y -> ok z -> c (x ** z) (y ** z) = c x y).

    Definition is_top (a : poly) (x : X) : Prop :=
      coeff a x <> 0 /\ forall y, coeff a y <> 0 -> y <> x -> c y x = Lt.

    Lemma lt_neq x y : ok x -> ok y -> c x y = Lt -> x <> y.
    Proof. intros Hx Hy H E. destruct CO as (OE & _ & _). subst y. rewrite (proj2 (OE x x Hx Hx) eq_refl) in H. discriminate. Qed.

    Lemma CM_l x y z : ok x -> ok y -> ok z -> c (z ** x) (z ** y) = c x y.
    Proof. intros Hx Hy Hz. rewrite (mmul_comm m ok ML z x), (mmul_comm m ok ML z y) by assumption. now apply CM. Qed.

    Lemma top_exists a : WF a -> a <> [] -> exists x, is_top a x.
    Proof.
      intros Ha Hne. destruct a as [|t r]; [congruence|].
      destruct (max_term m o ok ML c t r CO Ha) as (_ & H1 & H2). eexists. split; [exact H1|exact H2].
    Qed.

    (* no product of two terms other than top*top reaches the product of the tops *)
    Lemma top_mul_neq a b x y x' y' : WF a -> WF b -> is_top a x -> is_top b y ->
      coeff a x' <> 0 -> coeff b y' <> 0 -> x' <> x \/ y' <> y -> x' ** y' <> x ** y.
    Proof.
      intros Ha Hb Tx Ty Hx' Hy' N.
      pose proof (supp_ok a x Ha (proj1 Tx)) as Hx. pose proof (supp_ok b y Hb (proj1 Ty)) as Hy.
      pose proof (supp_ok a x' Ha Hx') as Kx'. pose proof (supp_ok b y' Hb Hy') as Ky'.
      apply lt_neq; auto using (mmul_ok m ok ML).
      destruct (xeqb_spec xeqb xeqb_eq x' x) as [->|Nx].
      - destruct N as [N|N]; [congruence|]. rewrite CM_l by assumption. now apply Ty.
      - assert (C1 : c (x' ** y') (x ** y') = Lt) by (rewrite CM by assumption; now apply Tx).
        destruct (xeqb_spec xeqb xeqb_eq y' y) as [->|Ny]; [assumption|]. destruct CO as (_ & _ & OT).
        apply (OT _ (x ** y')); auto using (mmul_ok m ok ML). rewrite CM_l by assumption. now apply Ty.
    Qed.

    (* the coefficient of top(a)*top(b) in a*b is the product of the two top coefficients *)
    Lemma top_coeff a b x y : WF a -> WF b -> is_top a x -> is_top b y ->
      coeff (p_lc_mul m o a b) (x ** y) = coeff a x * coeff b y.
    Proof.
      intros Ha Hb Tx Ty.
      destruct (p_support m o ok ML a Ha) as (Da & Sa & _). destruct (p_support m o ok ML b Hb) as (Db & Sb & _).
      rewrite (coeff_lc_mul_terms m o ok ML L), (coeff_rcoeff xeqb o xeqb_eq L a x Da), (coeff_rcoeff xeqb o xeqb_eq L b y Db).
      unfold rcoeff. rewrite <- (lsum_scal_r o L). apply (lsum_ext_keys o). intros x' r Ix'.
      rewrite <- (lsum_scal_l o L). apply (lsum_ext_keys o). intros y' s Iy'.
      pose proof (top_mul_neq a b x y x' y' Ha Hb Tx Ty (proj1 (Sa x') Ix') (proj1 (Sb y') Iy')) as NE.
      destruct (xeqb_spec xeqb xeqb_eq x' x) as [->|Nx], (xeqb_spec xeqb xeqb_eq y' y) as [->|Ny].
      - now rewrite !(delta_same m o ok ML).
      - rewrite (delta_other m o ok ML y y' s Ny), (delta_other m o ok ML (x ** y)) by auto. ring.
      - rewrite (delta_other m o ok ML x x' r Nx), (delta_other m o ok ML (x ** y)) by auto. ring.
      - rewrite (delta_other m o ok ML x x' r Nx), (delta_other m o ok ML (x ** y)) by auto. ring.
    Qed.

    (* if a*b is the polynomial one, the two top terms multiply to the term one *)
    Lemma top_of_one a b x y : (forall r s, r * s = 0 -> r = 0 \/ s = 0) -> WF a -> WF b -> is_top a x -> is_top b y ->
      (forall z, coeff (p_lc_mul m o a b) z = delta z (mone m) 1) -> x ** y = mone m /\ coeff a x * coeff b y = 1.
    Proof.
      intros Dom Ha Hb Tx Ty El. pose proof (top_coeff a b x y Ha Hb Tx Ty) as T. rewrite El in T.
      destruct (xeqb_spec xeqb xeqb_eq (mone m) (x ** y)) as [Eo|No].
      - rewrite <- Eo, (delta_same m o ok ML) in T. split; congruence.
      - exfalso. rewrite (delta_other m o ok ML _ _ _ No) in T.
        destruct (Dom _ _ (eq_sym T)) as [Z|Z]; [apply (proj1 Tx Z)|apply (proj1 Ty Z)].
    Qed.
  End TopTerm.

  Context (MU : mono_unit_laws m ok) (u : unit_ops R) (UL : unit_laws o u).

  Theorem invertible_is_unit p q : integral o -> WF p -> WF q -> p_mul m o p q == p_one m o -> p_is_unit m u p = true.
  Proof.
    intros [N1 Dom] Hp Hq E.
    assert (Eone : forall z, coeff (p_one m o) z = delta z (mone m) 1) by (intros z; apply (coeff_from_pair m o ok ML L)).
    assert (El : forall z, coeff (p_lc_mul m o p q) z = delta z (mone m) 1).
    { intros z. rewrite <- Eone, <- E. symmetry. now apply (p_mul_spec m o ok ML L). }
    assert (Np : p <> []).
    { intros ->. specialize (El (mone m)). rewrite (lc_mul_nil_l m o ok ML L), (delta_same m o ok ML) in El. congruence. }
    assert (Nq : q <> []).
    { intros ->. specialize (El (mone m)). rewrite (lc_mul_nil_r m o ok ML L), (delta_same m o ok ML) in El. congruence. }
    set (cg := mcmp_grlex m). set (cr := fun x y => mcmp_grlex m y x).
    pose proof (mgrlex_ord m ok ML) as Og. pose proof (mgrlex_mul m ok ML) as Mg.
    pose proof (ord_rev ok _ Og) as Or. fold cr in Or.
    assert (Mr : forall x y z, ok x -> ok y -> ok z -> cr (x ** z) (y ** z) = cr x y) by (intros; unfold cr; now apply Mg).
    destruct (top_exists cg Og p Hp Np) as [x Tx]. destruct (top_exists cg Og q Hq Nq) as [y Ty].
    destruct (top_exists cr Or p Hp Np) as [x' Tx']. destruct (top_exists cr Or q Hq Nq) as [y' Ty'].
    pose proof (supp_ok p x Hp (proj1 Tx)) as Hx. pose proof (supp_ok q y Hq (proj1 Ty)) as Hy.
    destruct (top_of_one cg Og Mg p q x y Dom Hp Hq Tx Ty El) as [Exy Ec].
    destruct (top_of_one cr Or Mr p q x' y' Dom Hp Hq Tx' Ty' El) as [Exy' _].
    assert (Exx : x' = x).
    { destruct (xeqb_spec xeqb xeqb_eq x' x) as [Eq|Nx]; [assumption|]. exfalso.
      apply (top_mul_neq cg Og Mg p q x y x' y' Hp Hq Tx Ty (proj1 Tx') (proj1 Ty') (or_introl Nx)). congruence. }
    destruct Og as (_ & OA & _).
    subst x'.
    assert (Sup : forall z, coeff p z <> 0 -> z = x).
    { intros z Hz. destruct (xeqb_spec xeqb xeqb_eq z x) as [Eq|Nz]; [assumption|]. exfalso.
      pose proof (proj2 Tx z Hz Nz) as C1. pose proof (proj2 Tx' z Hz Nz) as C2. unfold cr in C2. unfold cg in C1.
      rewrite (OA z x (supp_ok p z Hp Hz) Hx), C1 in C2. discriminate. }
    assert (Ep : p = [(x, coeff p x)]).
    { apply (peq_single m o ok ML); try assumption; [apply Tx|]. intros z.
      destruct (xeqb_spec xeqb xeqb_eq x z) as [<-|Nz]; [now rewrite (delta_same m o ok ML)|].
      rewrite (delta_other m o ok ML _ _ _ Nz). destruct (ris_zero_spec o L (coeff p z)) as [Z|NZ]; [assumption|].
      exfalso. apply Nz. symmetry. now apply Sup. }
    rewrite Ep. cbn [p_is_unit]. apply andb_true_iff. split.
    - now apply (munit_complete m ok MU x y).
    - now apply (runit_complete o u UL _ (coeff q y)).
  Qed.

  Theorem is_unit_iff_invertible p : integral o -> WF p ->
    (p_is_unit m u p = true <-> exists q, WF q /\ p_mul m o p q == p_one m o).
  Proof.
    intros Dom Hp. split.
    - intros H. destruct (is_unit_invertible m o ok ML L MU u UL p Hp H) as [q [Hq E]]. exists q. split; [assumption|].
      rewrite E. apply (peq_refl m o).
    - intros [q [Hq E]]. now apply (invertible_is_unit p q).
  Qed.
End Domain.
