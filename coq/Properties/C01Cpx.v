(* C01 (part): the tangle complex of the v2 engine, yui-khovanov/src/kh/internal/v2/tng_complex.rs
     TngComplex: init, append (make_x + connect: connect_vertices, connect_edges with the sign (-1)^deg), deloop,
     eliminate (d - c a^-1 b), validate, evaluation of the edges
   Model: Model/TngComplex.v (mirror on top of Model/TngStack.v's LcCob; association lists for the hash maps, None for
   a panic); proofs: Proofs/TngPElim*.v (the algebra), Proofs/TngPCpx*.v (the mirror).  The correspondence run
   (harness/src/bin/c01tng.rs, case kinds `tc` / `tm`) drives the REAL TngComplex<i64> through its public API and compares
   the whole complex (vertices, raw tangles, in-edges, out-edges with all LcCob terms) with the model after every step.

   PART A.  Gaussian elimination in a NON-COMMUTATIVE setting.  [preadd_ops] / [preadd_laws] = a pre-additive category
   (hom sets abelian groups, composition bilinear and associative, setoid equality on every hom set; NO commutativity of
   the composition; a ring is the one-object case, [ncring_ops] / [ncring_laws] = ring laws without commutativity of the
   multiplication).  The entries of a TngComplex differential are morphisms between different tangles: only composable
   entries are ever multiplied, exactly as here.  Block statements are written out in their components.
   The delooping isomorphism at the level of the Frobenius algebra is Properties/C05Cob.v: C05_deloop_from_to,
   C05_deloop_to_from (circle <-> X-copy + 1-copy with the dotted cup / cap; both composites are identities).

   PART B / C.  The mirror: what one `eliminate` step does, for EVERY complex on which it returns, and - under an
   interpretation of the linear combinations of cobordisms as morphisms of a pre-additive category that respects the
   operations the step uses - that it is the elimination of part A and preserves d d = 0.  That interpretation (the
   category of dotted cobordisms modulo Bar-Natan's local relations; associativity and bilinearity of LcCob's `*`, the
   soundness of part_eval) is a HYPOTHESIS: Model/TngStack.v proves composition laws only numerically, and LcCob is not a
   normal form of that category (neck cutting on open components is never applied: d d = 0 holds syntactically only for
   completely delooped complexes - there it is checked by computation on both sides of the correspondence run).

   PART D.  For complexes all of whose edges are scalar multiples of the empty cobordism (completely delooped and
   evaluated) the hypothesis of part C is DISCHARGED: the interpretation in the ring Z satisfies all laws, so eliminate
   provably is integer Gaussian elimination there and preserves d d = 0, unconditionally. *)
From Coq Require Import List Arith Bool ZArith Lia.
Import ListNotations.
Require Import Yui.Model.Link Yui.Model.Tng Yui.Model.TngCob Yui.Model.TngStack Yui.Model.TngComplex.
Require Import Yui.Proofs.TngPElim Yui.Proofs.TngPElimMat Yui.Proofs.TngPElimEx Yui.Proofs.TngPCpx Yui.Proofs.TngPCpxSem
  Yui.Proofs.TngPCpxScalar Yui.Proofs.TngPCpxInv.

Local Notation "f =~ g" := (peq _ f g) (at level 70, no associativity).
Local Notation "f +' g" := (padd _ f g) (at level 50, left associativity).
Local Notation "-' f" := (pneg _ f) (at level 35, right associativity).
Local Notation "f 'o' g" := (pcomp _ f g) (at level 40, left associativity).

(* A. the elimination lemma, for all pre-additive categories *)
(*                                                                                                      *)
(*        [x ; y]          [a b ; c d]            [z w]                    y         d - c a' b        w  *)
(*     P -------> A (+) B ------------> A' (+) D -------> N    ==>    P -----> B --------------> D -----> N *)

(* the result is a complex again *)
Theorem C01_elim_complex : forall (C : preadd_ops) (L : preadd_laws C) (P A B A' D N : pobj C)
    (a : phom C A A') (b : phom C B A') (c : phom C A D) (d : phom C B D) (a' : phom C A' A)
    (x : phom C P A) (y : phom C P B) (z : phom C A' N) (w : phom C D N),
  a' o a =~ pid C -> a o a' =~ pid C ->
  a o x +' b o y =~ pzero C -> c o x +' d o y =~ pzero C -> z o a +' w o c =~ pzero C -> z o b +' w o d =~ pzero C ->
  (d +' -' (c o a' o b)) o y =~ pzero C /\ w o (d +' -' (c o a' o b)) =~ pzero C.
Proof. exact (@elim_complex). Qed.
Print Assumptions C01_elim_complex.

(* f = (1 on P, [0 1] : A (+) B -> B, [-c a'  1] : A' (+) D -> D, 1 on N) is a chain map old -> new *)
Theorem C01_elim_f_chain : forall (C : preadd_ops) (L : preadd_laws C) (P A B A' D N : pobj C)
    (a : phom C A A') (b : phom C B A') (c : phom C A D) (d : phom C B D) (a' : phom C A' A)
    (x : phom C P A) (y : phom C P B) (z : phom C A' N) (w : phom C D N),
  a' o a =~ pid C -> a o a' =~ pid C -> a o x +' b o y =~ pzero C -> z o a +' w o c =~ pzero C ->
  (pzero C o x +' pid C o y =~ y o pid C) /\
  (-' (c o a') o a +' pid C o c =~ (d +' -' (c o a' o b)) o pzero C) /\
  (-' (c o a') o b +' pid C o d =~ (d +' -' (c o a' o b)) o pid C) /\
  (w o -' (c o a') =~ pid C o z) /\ (w o pid C =~ pid C o w).
Proof. exact (@elim_f_chain). Qed.
Print Assumptions C01_elim_f_chain.

(* g = (1, [-a' b ; 1] : B -> A (+) B, [0 ; 1] : D -> A' (+) D, 1) is a chain map new -> old *)
Theorem C01_elim_g_chain : forall (C : preadd_ops) (L : preadd_laws C) (P A B A' D N : pobj C)
    (a : phom C A A') (b : phom C B A') (c : phom C A D) (d : phom C B D) (a' : phom C A' A)
    (x : phom C P A) (y : phom C P B) (z : phom C A' N) (w : phom C D N),
  a' o a =~ pid C -> a o a' =~ pid C -> a o x +' b o y =~ pzero C -> z o a +' w o c =~ pzero C ->
  (-' (a' o b) o y =~ x o pid C) /\ (pid C o y =~ y o pid C) /\
  (a o -' (a' o b) +' b o pid C =~ pzero C o (d +' -' (c o a' o b))) /\
  (c o -' (a' o b) +' d o pid C =~ pid C o (d +' -' (c o a' o b))) /\
  (z o pzero C +' w o pid C =~ pid C o w).
Proof. exact (@elim_g_chain). Qed.
Print Assumptions C01_elim_g_chain.

(* f g = 1 *)
Theorem C01_elim_fg : forall (C : preadd_ops) (L : preadd_laws C) (A B A' D : pobj C)
    (b : phom C B A') (c : phom C A D) (a' : phom C A' A),
  ((pzero C : phom C A B) o -' (a' o b) +' pid C o pid C =~ pid C) /\
  (-' (c o a') o (pzero C : phom C D A') +' pid C o pid C =~ pid C).
Proof. exact (@elim_fg). Qed.
Print Assumptions C01_elim_fg.

(* g f + h D = 1 on A (+) B and g f + D h = 1 on A' (+) D for the homotopy h = [a' 0 ; 0 0] : A' (+) D -> A (+) B
   (h is zero in all other degrees); the eight components *)
Theorem C01_elim_homotopy : forall (C : preadd_ops) (L : preadd_laws C) (A B A' D : pobj C)
    (a : phom C A A') (b : phom C B A') (c : phom C A D) (d : phom C B D) (a' : phom C A' A),
  a' o a =~ pid C -> a o a' =~ pid C ->
  (-' (a' o b) o (pzero C : phom C A B) +' (a' o a +' (pzero C : phom C D A) o c) =~ pid C) /\
  (-' (a' o b) o pid C +' (a' o b +' (pzero C : phom C D A) o d) =~ pzero C) /\
  ((pid C : phom C B B) o (pzero C : phom C A B) +' ((pzero C : phom C A' B) o a +' (pzero C : phom C D B) o c) =~ pzero C) /\
  ((pid C : phom C B B) o pid C +' ((pzero C : phom C A' B) o b +' (pzero C : phom C D B) o d) =~ pid C) /\
  ((pzero C : phom C D A') o -' (c o a') +' (a o a' +' b o (pzero C : phom C A' B)) =~ pid C) /\
  ((pzero C : phom C D A') o pid C +' (a o (pzero C : phom C D A) +' b o (pzero C : phom C D B)) =~ pzero C) /\
  ((pid C : phom C D D) o -' (c o a') +' (c o a' +' d o (pzero C : phom C A' B)) =~ pzero C) /\
  ((pid C : phom C D D) o pid C +' (c o (pzero C : phom C D A) +' d o (pzero C : phom C D B)) =~ pid C).
Proof. exact (@elim_homotopy). Qed.
Print Assumptions C01_elim_homotopy.

(* f h = 0 and h g = 0: a strong deformation retraction *)
Theorem C01_elim_sdr : forall (C : preadd_ops) (L : preadd_laws C) (A B A' D : pobj C) (a' : phom C A' A),
  ((pzero C : phom C A B) o a' +' pid C o (pzero C : phom C A' B) =~ pzero C) /\
  ((pzero C : phom C A B) o (pzero C : phom C D A) +' pid C o (pzero C : phom C D B) =~ pzero C) /\
  (a' o (pzero C : phom C D A') +' (pzero C : phom C D A) o pid C =~ pzero C) /\
  ((pzero C : phom C A' B) o (pzero C : phom C D A') +' (pzero C : phom C D B) o pid C =~ pzero C).
Proof. exact (@elim_sdr). Qed.
Print Assumptions C01_elim_sdr.

(* matrices over a pre-additive category form a pre-additive category: the blocks may be families of objects *)
Theorem C01_elim_mat_preadd : forall (C : preadd_ops), preadd_laws C -> preadd_laws (mat_ops C).
Proof. exact mat_laws. Qed.
Print Assumptions C01_elim_mat_preadd.

(* a ring without commutativity of the multiplication is a pre-additive category with one object *)
Theorem C01_elim_ring_preadd : forall (R : Type) (ops : ncring_ops R), ncring_laws ops -> preadd_laws (ring_preadd ops).
Proof. exact (@ring_preadd_laws). Qed.
Print Assumptions C01_elim_ring_preadd.

(* hence: block matrices over a non-commutative ring ([ncmat ops m n] = functions nat -> nat -> R read on i < m, j < n;
   [pcomp] = the matrix product sum_j M i j * N j k, [peq] = entrywise equality on the index range) *)
Theorem C01_elim_ncmat : forall (R : Type) (ops : ncring_ops R) (Lo : ncring_laws ops) (r nb nd l k : nat)
    (a : ncmat ops r r) (b : ncmat ops r nb) (c : ncmat ops nd r) (d : ncmat ops nd nb) (a' : ncmat ops r r)
    (x : ncmat ops r l) (y : ncmat ops nb l) (z : ncmat ops k r) (w : ncmat ops k nd),
  a' o a =~ pid (ncmat_ops ops) -> a o a' =~ pid (ncmat_ops ops) ->
  a o x +' b o y =~ pzero (ncmat_ops ops) -> c o x +' d o y =~ pzero (ncmat_ops ops) ->
  z o a +' w o c =~ pzero (ncmat_ops ops) -> z o b +' w o d =~ pzero (ncmat_ops ops) ->
  (d +' -' (c o a' o b)) o y =~ pzero (ncmat_ops ops) /\ w o (d +' -' (c o a' o b)) =~ pzero (ncmat_ops ops).
Proof. exact (@ncmat_elim_complex). Qed.
Print Assumptions C01_elim_ncmat.

(* non-vacuity: 2 x 2 integer matrices are a ring that is not commutative, and there all hypotheses hold for
   a = [1 1 ; 0 1], b = [0 0 ; 1 0], c = [0 1 ; 0 0], d = [1 5 ; 0 7], x, y, z, w as in Proofs/TngPElimEx.v; the new
   differential is [0 5 ; 0 7] <> 0, and c a' b <> b a' c: the order of the factors matters *)
Example C01_elim_example_ring : ncring_laws m2_ops /\ exists u v : m2, m2_mul u v <> m2_mul v u.
Proof. exact (conj m2_laws m2_not_commutative). Qed.
Example C01_elim_example_hyps :
  let C := ncmat_ops m2_ops in
  peq C (pcomp C (cst ex_a') (cst ex_a)) (pid C) /\ peq C (pcomp C (cst ex_a) (cst ex_a')) (pid C) /\
  peq C (padd C (pcomp C (cst ex_a) (cst ex_x)) (pcomp C (cst ex_b) (cst ex_y))) (pzero C) /\
  peq C (padd C (pcomp C (cst ex_c) (cst ex_x)) (pcomp C (cst ex_d) (cst ex_y))) (pzero C) /\
  peq C (padd C (pcomp C (cst ex_z) (cst ex_a)) (pcomp C (cst ex_w) (cst ex_c))) (pzero C) /\
  peq C (padd C (pcomp C (cst ex_z) (cst ex_b)) (pcomp C (cst ex_w) (cst ex_d))) (pzero C).
Proof. exact ex_hyps. Qed.
Example C01_elim_example_result :
  let C := ncmat_ops m2_ops in
  padd C (cst ex_d) (pneg C (pcomp C (pcomp C (cst ex_c) (cst ex_a')) (cst ex_b))) 0 0 = (0, 5, 0, 7)%Z /\
  m2_mul (m2_mul ex_c ex_a') ex_b <> m2_mul (m2_mul ex_b ex_a') ex_c.
Proof. exact ex_new_differential. Qed.

(* the same elimination on a graph of morphisms (the form of the code: vertices, one morphism per ordered pair,
   0 = no edge): if sum_m E(m, y) E(x, m) = 0 for all x, y over the vertex list V, a' is a two-sided inverse of
   E(k0, k1), then E'(x, y) = E(x, y) - E(k0, y) a' E(x, k1) satisfies the same over V' = V without k0, k1
   (the hypotheses NoDup V, k0 <> k1 and "no loops at k0, k1" are stated but not needed: elim_graph_dd) *)
Theorem C01_elim_graph : forall (C : preadd_ops) (L : preadd_laws C) (ob : tkey -> pobj C)
    (E : forall k l : tkey, phom C (ob k) (ob l)) (V : list tkey) (k0 k1 : tkey) (a' : phom C (ob k1) (ob k0)),
  NoDup V -> In k0 V -> In k1 V -> k0 <> k1 ->
  a' o E k0 k1 =~ pid C -> E k0 k1 o a' =~ pid C -> E k0 k0 =~ pzero C -> E k1 k1 =~ pzero C ->
  (forall x y, In x V -> In y V -> lsum C V (fun m => E m y o E x m) =~ pzero C) ->
  forall x y, In x V -> In y V ->
    lsum C (V' V k0 k1) (fun m => E' C ob E k0 k1 a' m y o E' C ob E k0 k1 a' x m) =~ pzero C.
Proof. intros C L ob E V k0 k1 a' _ H0 H1 _ Hl Hr _ _. exact (elim_graph_dd C L ob E V k0 k1 a' H0 H1 Hl Hr). Qed.
Print Assumptions C01_elim_graph.

(* B. the mirror of TngComplex::eliminate, for every complex (no well-formedness assumed) *)

(* whenever eliminate(k0, k1) returns: the edge k0 -> k1 had an inverse; h, t, deg_shift, base_pt, crossings are
   unchanged; exactly the vertices k0 and k1 are removed and no tangle changes; between the remaining vertices exactly
   the entries (l0, l1) with l0 in in_edges(k1) - k0 and l1 in out_edges(k0) - k1 are rewritten, to the value
   [elim_value] = d - (c * a^-1 * b).part_eval(h, t) (or its negative when there was no edge; a zero result is no
   edge), and each of these values was computed without a panic *)
Theorem C01_cpx_eliminate_spec : forall c k0 k1 c',
  cpx_eliminate c k0 k1 = Some c' ->
  exists a ainv v0 v1,
    edge (c_verts c) k0 k1 = Some a /\ lc_inv a = Some (Some ainv) /\
    find_v (c_verts c) k0 = Some v0 /\ find_v (c_verts c) k1 = Some v1 /\
    c_h c' = c_h c /\ c_t c' = c_t c /\ c_shift c' = c_shift c /\ c_base c' = c_base c /\ c_xs c' = c_xs c /\
    map vkey (c_verts c') =
      filter (fun j => negb (key_eqb j k1)) (filter (fun j => negb (key_eqb j k0)) (map vkey (c_verts c))) /\
    (forall j, option_map vtng (find_v (c_verts c') j) =
               if key_eqb j k0 || key_eqb j k1 then None else option_map vtng (find_v (c_verts c) j)) /\
    (forall l0 l1, l0 <> k0 -> l0 <> k1 -> l1 <> k0 -> l1 <> k1 ->
       edge (c_verts c') l0 l1 =
       if key_mem l0 (elim_ins k0 v1) && key_mem l1 (elim_outs k1 v0)
       then match elim_value (c_h c) (c_t c) (c_verts c) k0 k1 ainv l0 l1 with Some f => nz f | None => None end
       else edge (c_verts c) l0 l1) /\
    (forall l0 l1, key_mem l0 (elim_ins k0 v1) && key_mem l1 (elim_outs k1 v0) = true ->
       exists f, elim_value (c_h c) (c_t c) (c_verts c) k0 k1 ainv l0 l1 = Some f).
Proof. exact eliminate_spec. Qed.
Print Assumptions C01_cpx_eliminate_spec.

(* what a returning validate() guarantees (the correspondence run prints `val` after every step on both sides):
   in_edges records every edge, no edge is the zero combination, and every term of an edge k -> l is a cobordism from
   the tangle of k to the tangle of l (Tng ==) *)
Theorem C01_cpx_validate_sound : forall c,
  cpx_validate c = Some true ->
  forall k l f, edge (c_verts c) k l = Some f ->
    exists vk vl, find_v (c_verts c) k = Some vk /\ find_v (c_verts c) l = Some vl /\
      In k (vin vl) /\ f <> [] /\ forall p, In p f -> term_typed (vtng vk) (vtng vl) (fst p).
Proof. exact validate_sound. Qed.
Print Assumptions C01_cpx_validate_sound.

(* the keys of the vertices stay distinct *)
Theorem C01_cpx_eliminate_nodup : forall c k0 k1 c',
  cpx_eliminate c k0 k1 = Some c' -> NoDup (map vkey (c_verts c)) -> NoDup (map vkey (c_verts c')).
Proof. exact eliminate_nodup. Qed.
Print Assumptions C01_cpx_eliminate_nodup.

(* the sign convention of connect_edges: the code computes the sign of D(1, f) from weight(k0) - left.deg_shift.0; this
   is (-1)^(homological degree of k0) = (-1)^(weight(k0) + left.deg_shift.0), as its comment says *)
Theorem C01_cpx_connect_sign : forall (left : cpx) (k0 : tkey),
  sign_of_parity (Z.of_nat (key_weight k0) - fst (c_shift left)) = sign_of_parity (key_deg left k0).
Proof. exact connect_sign_is_degree. Qed.
Print Assumptions C01_cpx_connect_sign.

(* C. eliminate is the elimination of part A *)
(* [sem_laws C ob sem ty h t]: the interpretation [sem k l f] of a linear combination f as a morphism ob k -> ob l and
   the predicate [ty k l f] "f is a morphism from vertex k to vertex l" satisfy, on typed arguments only:
   sem [] = 0; sem (f * g) = sem f o sem g; sem (part_eval f) = sem f; sem (f - g) = sem f - sem g; sem (-f) = - sem f;
   sem (inv a) is a two-sided inverse of sem a; and these operations preserve typedness.
   [Eof C ob sem vs k l] = sem of the edge k -> l, 0 if there is none;  [typed ty vs] = every edge is typed;
   [in_complete vs] = in_edges records every edge (C01_cpx_validate_sound gives it whenever validate() returns). *)

(* the new entries are d - c a^-1 b, entry by entry, and stay typed *)
Theorem C01_cpx_eliminate_entry : forall (C : preadd_ops) (L : preadd_laws C) (ob : tkey -> pobj C)
    (sem : forall k l : tkey, lccob -> phom C (ob k) (ob l)) (ty : tkey -> tkey -> lccob -> Prop) (h t : Z),
  sem_laws C ob sem ty h t ->
  forall c k0 k1 c',
  c_h c = h -> c_t c = t -> typed ty (c_verts c) -> in_complete (c_verts c) ->
  cpx_eliminate c k0 k1 = Some c' ->
  exists a ainv,
    edge (c_verts c) k0 k1 = Some a /\ lc_inv a = Some (Some ainv) /\ ty k1 k0 ainv /\
    sem k1 k0 ainv o sem k0 k1 a =~ pid C /\ sem k0 k1 a o sem k1 k0 ainv =~ pid C /\
    (forall l0 l1, l0 <> k0 -> l0 <> k1 -> l1 <> k0 -> l1 <> k1 ->
       Eof C ob sem (c_verts c') l0 l1 =~
       Eof C ob sem (c_verts c) l0 l1 +'
         -' (Eof C ob sem (c_verts c) k0 l1 o sem k1 k0 ainv o Eof C ob sem (c_verts c) l0 k1)) /\
    (forall l0 l1 f, l0 <> k0 -> l0 <> k1 -> l1 <> k0 -> l1 <> k1 -> edge (c_verts c') l0 l1 = Some f -> ty l0 l1 f).
Proof. exact eliminate_entry. Qed.
Print Assumptions C01_cpx_eliminate_entry.

(* d d = 0 is preserved by every eliminate step that returns (NoDup, k0 <> k1 and the two "no loop" hypotheses
   are stated but not needed: eliminate_dd) *)
Theorem C01_cpx_eliminate_dd : forall (C : preadd_ops) (L : preadd_laws C) (ob : tkey -> pobj C)
    (sem : forall k l : tkey, lccob -> phom C (ob k) (ob l)) (ty : tkey -> tkey -> lccob -> Prop) (h t : Z),
  sem_laws C ob sem ty h t ->
  forall c k0 k1 c',
  c_h c = h -> c_t c = t -> typed ty (c_verts c) -> in_complete (c_verts c) ->
  NoDup (map vkey (c_verts c)) -> k0 <> k1 ->
  edge (c_verts c) k0 k0 = None -> edge (c_verts c) k1 k1 = None ->
  cpx_eliminate c k0 k1 = Some c' ->
  (forall x y, In x (map vkey (c_verts c)) -> In y (map vkey (c_verts c)) ->
     lsum C (map vkey (c_verts c))
       (fun m => Eof C ob sem (c_verts c) m y o Eof C ob sem (c_verts c) x m) =~ pzero C) ->
  forall x y, In x (map vkey (c_verts c')) -> In y (map vkey (c_verts c')) ->
    lsum C (map vkey (c_verts c'))
      (fun m => Eof C ob sem (c_verts c') m y o Eof C ob sem (c_verts c') x m) =~ pzero C.
Proof.
  intros C L ob sem ty h t SL c k0 k1 c' Eh Et Ty Ic _ _ _ _. exact (eliminate_dd C L ob sem ty h t SL c k0 k1 c' Eh Et Ty Ic).
Qed.
Print Assumptions C01_cpx_eliminate_dd.

(* D. the hypothesis discharged: completely delooped complexes *)
(* [scalar f]: f = [] or f = [([], r)] with r <> 0 - a non-zero multiple of the empty cobordism (what part_eval leaves
   of a combination of closed cobordisms); [coef f] its coefficient; [zentry vs k l] = coef of the edge k -> l, 0 if
   there is none; [zsum] = the sum of integers over a list of keys.  The interpretation "coefficient in Z" satisfies
   the laws of part C, by computation with the model's own LcCob operations: *)
Theorem C01_cpx_scalar_sem_laws : forall h t, sem_laws ZC (fun _ => tt) sem_scalar ty_scalar h t.
Proof. exact scalar_sem_laws. Qed.
Print Assumptions C01_cpx_scalar_sem_laws.

(* so, UNCONDITIONALLY: on a complex all of whose edges are scalar, a returning eliminate(k0, k1) has a = +-1,
   rewrites the integer entries to d - c a^-1 b and keeps all remaining edges scalar ... *)
Theorem C01_cpx_eliminate_scalar : forall c k0 k1 c',
  typed ty_scalar (c_verts c) -> in_complete (c_verts c) ->
  cpx_eliminate c k0 k1 = Some c' ->
  exists a ainv,
    edge (c_verts c) k0 k1 = Some a /\ lc_inv a = Some (Some ainv) /\ (coef ainv * coef a = 1)%Z /\
    (forall l0 l1, l0 <> k0 -> l0 <> k1 -> l1 <> k0 -> l1 <> k1 ->
       zentry (c_verts c') l0 l1 =
       (zentry (c_verts c) l0 l1 - zentry (c_verts c) k0 l1 * coef ainv * zentry (c_verts c) l0 k1)%Z) /\
    (forall l0 l1 f, l0 <> k0 -> l0 <> k1 -> l1 <> k0 -> l1 <> k1 -> edge (c_verts c') l0 l1 = Some f -> scalar f).
Proof. exact eliminate_scalar. Qed.
Print Assumptions C01_cpx_eliminate_scalar.

(* ... and preserves d d = 0 over Z (again NoDup, k0 <> k1 and "no loops" are not needed: eliminate_dd_scalar) *)
Theorem C01_cpx_eliminate_dd_scalar : forall c k0 k1 c',
  typed ty_scalar (c_verts c) -> in_complete (c_verts c) ->
  NoDup (map vkey (c_verts c)) -> k0 <> k1 ->
  edge (c_verts c) k0 k0 = None -> edge (c_verts c) k1 k1 = None ->
  cpx_eliminate c k0 k1 = Some c' ->
  (forall x y, In x (map vkey (c_verts c)) -> In y (map vkey (c_verts c)) ->
     zsum (map vkey (c_verts c)) (fun m => zentry (c_verts c) m y * zentry (c_verts c) x m)%Z = 0%Z) ->
  forall x y, In x (map vkey (c_verts c')) -> In y (map vkey (c_verts c')) ->
    zsum (map vkey (c_verts c')) (fun m => zentry (c_verts c') m y * zentry (c_verts c') x m)%Z = 0%Z.
Proof. intros c k0 k1 c' Ty Ic _ _ _ _. exact (eliminate_dd_scalar c k0 k1 c' Ty Ic). Qed.
Print Assumptions C01_cpx_eliminate_dd_scalar.

(* the whole elimination phase.  [cpx_wf vs]: the keys are distinct, in_edges records every edge, every edge raises the
   weight of the state by one (the homological grading), every edge is scalar;  [cpx_dd vs]: sum_m zentry(m, y) *
   zentry(x, m) = 0 for all vertices x, y.  Both are preserved by every returning eliminate step, hence by every
   sequence of such steps
   ([eliminate_all c steps] runs eliminate along a list of pairs): *)
Theorem C01_cpx_eliminate_wf : forall c k0 k1 c',
  cpx_eliminate c k0 k1 = Some c' -> cpx_wf (c_verts c) -> cpx_dd (c_verts c) ->
  cpx_wf (c_verts c') /\ cpx_dd (c_verts c').
Proof. exact eliminate_wf_dd. Qed.
Print Assumptions C01_cpx_eliminate_wf.

Theorem C01_cpx_eliminate_all : forall steps c c',
  eliminate_all c steps = Some c' -> cpx_wf (c_verts c) -> cpx_dd (c_verts c) ->
  cpx_wf (c_verts c') /\ cpx_dd (c_verts c').
Proof. exact eliminate_all_wf_dd. Qed.
Print Assumptions C01_cpx_eliminate_all.

(* examples (non-vacuity), by computation in the model *)
Definition xc (a b c d : nat) : crossing := mkX X a b c d.
Definition K (s l : list bool) : tkey := mkKey s l.
Definition obind {A B} (x : option A) (f : A -> option B) : option B := match x with Some a => f a | None => None end.
Definition deloops (c : cpx) (ks : list tkey) : option cpx :=
  fold_left (fun acc k => obind acc (fun c0 => option_map fst (cpx_deloop c0 k 0))) ks (Some c).
(* the Hopf link [4,1,3,2], [2,3,1,4] over h = t = 0, both crossings appended, every circle delooped, and the first
   invertible edge 00/II -> 01/I eliminated *)
Definition ex_hopf : option cpx :=
  obind (cpx_append (cpx_init 0 0 (0, 0)%Z None) (xc 4 1 3 2)) (fun c1 =>
  obind (cpx_append c1 (xc 2 3 1 4)) (fun c2 =>
  obind (deloops c2 [K [false; false] []; K [false; false] [true]; K [false; false] [false]; K [false; true] [];
                     K [true; false] []; K [true; true] []; K [true; true] [true]; K [true; true] [false]]) (fun c3 =>
  cpx_eliminate c3 (K [false; false] [true; true]) (K [false; true] [true])))).

(* that complex and the next one in normal form, and what holds of them, by computation, each fact once *)
Definition hopf_c : cpx :=
  Eval vm_compute in match ex_hopf with Some c => c | None => cpx_init 0 0 (0, 0)%Z None end.
Definition hopf_c1 : cpx :=
  Eval vm_compute in
    match cpx_eliminate hopf_c (K [false; false] [true; false]) (K [false; true] [false]) with
    | Some c => c
    | None => hopf_c
    end.
Lemma hopf_eq : ex_hopf = Some hopf_c.
Proof. vm_compute. reflexivity. Qed.
Lemma hopf_step : cpx_eliminate hopf_c (K [false; false] [true; false]) (K [false; true] [false]) = Some hopf_c1.
Proof. vm_compute. reflexivity. Qed.
Lemma hopf_validate : cpx_validate hopf_c = Some true.
Proof. vm_compute. reflexivity. Qed.
Lemma hopf_wf : cpx_wf (c_verts hopf_c).
Proof. apply cpx_wf_check; [| exact hopf_validate | |]; vm_compute; reflexivity. Qed.
Lemma hopf_dd : cpx_dd (c_verts hopf_c).
Proof. unfold cpx_dd. apply dd_b_sound. vm_compute. reflexivity. Qed.

(* the next step 00/IX -> 01/X rewrites the entry 00/XI -> 10/X from 1 to 1 - 1 * 1 * 1 = 0 (the edge disappears);
   before and after the step validate() returns, the complex is completely delooped and d d = 0 by computation *)
Example C01_cpx_example_eliminate :
  exists c c',
    ex_hopf = Some c /\ cpx_eliminate c (K [false; false] [true; false]) (K [false; true] [false]) = Some c' /\
    length (c_verts c) = 10 /\ length (c_verts c') = 8 /\
    cpx_validate c = Some true /\ cpx_validate c' = Some true /\
    cpx_is_completely_delooped c = true /\ cpx_dd_check c = Some true /\ cpx_dd_check c' = Some true /\
    edge (c_verts c) (K [false; false] [false; true]) (K [true; false] [false]) = Some [([], 1%Z)] /\
    edge (c_verts c) (K [false; false] [true; false]) (K [true; false] [false]) = Some [([], 1%Z)] /\
    edge (c_verts c) (K [false; false] [false; true]) (K [false; true] [false]) = Some [([], 1%Z)] /\
    edge (c_verts c') (K [false; false] [false; true]) (K [true; false] [false]) = None.
Proof.
  exists hopf_c, hopf_c1. split; [exact hopf_eq|]. split; [exact hopf_step|]. do 2 (split; [reflexivity|]).
  split; [exact hopf_validate|]. vm_compute. repeat split.
Qed.

(* every hypothesis of C01_cpx_eliminate_dd_scalar holds for that complex and that step *)
Example C01_cpx_example_scalar_hyps :
  exists c c',
    ex_hopf = Some c /\ cpx_eliminate c (K [false; false] [true; false]) (K [false; true] [false]) = Some c' /\
    typed ty_scalar (c_verts c) /\ in_complete (c_verts c) /\ NoDup (map vkey (c_verts c)) /\
    K [false; false] [true; false] <> K [false; true] [false] /\
    edge (c_verts c) (K [false; false] [true; false]) (K [false; false] [true; false]) = None /\
    edge (c_verts c) (K [false; true] [false]) (K [false; true] [false]) = None /\
    (forall x y, In x (map vkey (c_verts c)) -> In y (map vkey (c_verts c)) ->
       zsum (map vkey (c_verts c)) (fun m => zentry (c_verts c) m y * zentry (c_verts c) x m)%Z = 0%Z).
Proof.
  exists hopf_c, hopf_c1. split; [exact hopf_eq|]. split; [exact hopf_step|].
  split; [exact (wf_scalar _ hopf_wf)|]. split; [exact (wf_in _ hopf_wf)|]. split; [exact (wf_nodup _ hopf_wf)|].
  split; [discriminate|]. split; [reflexivity|]. split; [reflexivity|]. exact hopf_dd.
Qed.

(* that complex is well formed with d d = 0, and three further eliminate steps (all that are possible) return: the
   result has the four generators of the Khovanov homology of the Hopf link and no edges *)
Example C01_cpx_example_wf :
  exists c c',
    ex_hopf = Some c /\ cpx_wf (c_verts c) /\ cpx_dd (c_verts c) /\
    eliminate_all c [(K [false; false] [true; false], K [false; true] [false]);
                     (K [true; false] [true], K [true; true] [true; false]);
                     (K [true; false] [false], K [true; true] [false; false])] = Some c' /\
    map vkey (c_verts c') = [K [false; false] [false; false]; K [false; false] [false; true];
                             K [true; true] [true; true]; K [true; true] [false; true]] /\
    forallb (fun v => is_nil (vout v)) (c_verts c') = true.
Proof.
  eexists hopf_c, _. split; [exact hopf_eq|]. split; [exact hopf_wf|]. split; [exact hopf_dd|].
  cbn [eliminate_all]. rewrite hopf_step.
  split; [vm_compute; reflexivity|]. vm_compute. split; reflexivity.
Qed.

(* the hypotheses on the interpretation are consistent: the zero category (one morphism between any two objects)
   satisfies them, with every combination typed.  (The intended interpretation is not formalised.) *)
Definition zero_cat : preadd_ops :=
  mk_preadd_ops unit (fun _ _ => unit) (fun _ _ _ _ => True) (fun _ _ => tt) (fun _ _ _ _ => tt) (fun _ _ _ => tt)
    (fun _ => tt) (fun _ _ _ _ _ => tt).
Example C01_cpx_example_sem : preadd_laws zero_cat /\
  forall h t, sem_laws zero_cat (fun _ => tt) (fun _ _ _ => tt) (fun _ _ _ => True) h t.
Proof. split; [constructor; intros; exact I|]. intros h t. constructor; intros; repeat split. Qed.
