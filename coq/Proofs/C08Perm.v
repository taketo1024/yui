(* Permutations produced by perm_order (util::perm_for_indices) and their matrices. *)
From Coq Require Import Arith List Lia Bool Ring Permutation.
Require Import Yui.Base.Ring Yui.Base.MatF Yui.Base.MatL Yui.Model.Reducer Yui.Proofs.C08Mat.
Require Import Yui.Base.ListFacts.
Import ListNotations.

(* a vector listing 0..n-1 in some order *)
Definition is_perm (n : nat) (v : list nat) : Prop := Permutation v (seq 0 n).

Lemma memb_In x l : memb x l = true <-> In x l.
Proof. exact (existsb_eqb_In x l). Qed.

Lemma nodupb_NoDup l : nodupb l = true <-> NoDup l.
Proof. exact (nodupb_spec nodupb eq_refl (fun _ _ => eq_refl) l). Qed.

Lemma perm_order_spec n idx v :
  perm_order n idx = Some v ->
  is_perm n v /\ NoDup idx /\ Forall (fun x => x < n) idx /\ (forall k, k < length idx -> pat v k = nth k idx 0).
Proof.
  unfold perm_order. destruct (forallb _ idx && nodupb idx) eqn:E; [|discriminate].
  intros [= <-]. apply andb_true_iff in E. destruct E as [E1 E2].
  apply nodupb_NoDup in E2. rewrite forallb_forall in E1.
  assert (Hb : Forall (fun x => x < n) idx).
  { apply Forall_forall. intros x Hx. apply Nat.ltb_lt. now apply E1. }
  set (rest := filter (fun i => negb (memb i idx)) (seq 0 n)).
  repeat split; try assumption.
  - unfold is_perm. apply NoDup_Permutation.
    + apply NoDup_app_intro; [exact E2|apply NoDup_filter, seq_NoDup|].
      intros x Hx Hr. unfold rest in Hr. apply filter_In in Hr. destruct Hr as [_ Hr].
      apply negb_true_iff in Hr. apply memb_In in Hx. congruence.
    + apply seq_NoDup.
    + intros x. rewrite in_app_iff, in_seq. split.
      * intros [Hx|Hx].
        -- rewrite Forall_forall in Hb. specialize (Hb x Hx). lia.
        -- unfold rest in Hx. apply filter_In in Hx. destruct Hx as [Hx _]. apply in_seq in Hx. lia.
      * intros Hx. destruct (memb x idx) eqn:Em.
        -- left. now apply memb_In.
        -- right. unfold rest. apply filter_In. split; [apply in_seq; lia|]. now rewrite Em.
  - intros k Hk. unfold pat. now rewrite app_nth1.
Qed.

Lemma perm_order_some n idx :
  NoDup idx -> Forall (fun x => x < n) idx -> exists v, perm_order n idx = Some v.
Proof.
  intros H1 H2. unfold perm_order.
  assert (E : forallb (fun i => i <? n) idx && nodupb idx = true).
  { apply andb_true_iff. split.
    - apply forallb_forall. intros x Hx. rewrite Forall_forall in H2. apply Nat.ltb_lt. now apply H2.
    - now apply nodupb_NoDup. }
  rewrite E. eauto.
Qed.

Section PermFacts.
  Context (n : nat) (v : list nat) (Hv : is_perm n v).

  Lemma perm_length : length v = n.
  Proof. rewrite (Permutation_length Hv). apply seq_length. Qed.

  Lemma perm_lt k : k < n -> pat v k < n.
  Proof.
    intros Hk. unfold pat.
    assert (Hin : In (nth k v 0) v) by (apply nth_In; rewrite perm_length; exact Hk).
    apply (Permutation_in _ Hv) in Hin. apply in_seq in Hin. lia.
  Qed.

  Lemma perm_inj k k' : k < n -> k' < n -> pat v k = pat v k' -> k = k'.
  Proof.
    intros Hk Hk' E.
    assert (Hnd : NoDup v).
    { apply (Permutation_NoDup (Permutation_sym Hv)), seq_NoDup. }
    rewrite (NoDup_nth v 0) in Hnd. apply Hnd; rewrite ?perm_length; assumption.
  Qed.
End PermFacts.

Section PermSum.
  Context {R : Type} (o : ring_ops R) (L : ring_laws o).
  Add Ring Rring3 : (ring_theory_of_laws o L).
  Local Notation r0 := (rzero o).
  Local Notation r1 := (rone o).

  Lemma sum_nth (g : nat -> R) (l : list nat) d :
    sum o (length l) (fun k => g (nth k l d)) = rsum o (map g l).
  Proof.
    induction l as [|x l IH]; cbn [length map rsum]; [reflexivity|].
    rewrite (sum_S_first o L). cbn [nth]. now rewrite IH.
  Qed.

  Lemma rsum_perm (l l' : list R) : Permutation l l' -> rsum o l = rsum o l'.
  Proof.
    induction 1 as [|x l l' H IH|x y l|l l' l'' H1 IH1 H2 IH2]; cbn [rsum].
    - reflexivity.
    - now rewrite IH.
    - ring.
    - now rewrite IH1.
  Qed.

  Lemma sum_seq (g : nat -> R) n : sum o n g = rsum o (map g (seq 0 n)).
  Proof.
    rewrite <- (sum_nth g (seq 0 n) 0), seq_length. apply (sum_ext o). intros k Hk.
    now rewrite seq_nth.
  Qed.

  Lemma sum_reindex n v (g : nat -> R) : is_perm n v -> sum o n (fun k => g (pat v k)) = sum o n g.
  Proof.
    intros Hv. rewrite (sum_seq g). unfold pat.
    rewrite <- (perm_length n v Hv) at 1. rewrite sum_nth.
    apply rsum_perm. now apply Permutation_map.
  Qed.

  Local Notation dmat := (dmat R).

  Lemma dmul_row_perm n v (A : dmat) : is_perm n v -> dr A = n ->
    dmul o (row_perm_mat o v) A = dmk n (dc A) (fun k j => dget o A (pat v k) j).
  Proof.
    intros Hv HA. pose proof (perm_length n v Hv) as Hl.
    unfold dmul, row_perm_mat. shapes. rewrite Hl. apply (dmk_ext o). intros k j Hk Hj.
    rewrite (sum_ext o n _ (fun x => if x =? pat v k then dget o A x j else r0)).
    - apply (sum_delta o L n (pat v k) (fun x => dget o A x j)). now apply perm_lt.
    - intros x Hx. rewrite dget_dmk by assumption. destruct (x =? pat v k); ring.
  Qed.

  Lemma dmul_col_perm n v (A : dmat) : is_perm n v -> dc A = n ->
    dmul o A (col_perm_mat o v) = dmk (dr A) n (fun i k => dget o A i (pat v k)).
  Proof.
    intros Hv HA. pose proof (perm_length n v Hv) as Hl.
    unfold dmul, col_perm_mat. shapes. rewrite Hl, HA. apply (dmk_ext o). intros i k Hi Hk.
    rewrite (sum_ext o n _ (fun x => if x =? pat v k then dget o A i x else r0)).
    - apply (sum_delta o L n (pat v k) (fun x => dget o A i x)). now apply perm_lt.
    - intros x Hx. rewrite dget_dmk by assumption. destruct (x =? pat v k); ring.
  Qed.

  Lemma row_col_perm n v : is_perm n v -> dmul o (row_perm_mat o v) (col_perm_mat o v) = did o n.
  Proof.
    intros Hv. pose proof (perm_length n v Hv) as Hl.
    rewrite (dmul_row_perm n) by (try assumption; unfold col_perm_mat; now shapes).
    unfold col_perm_mat, did. shapes. rewrite Hl. apply (dmk_ext o). intros k j Hk Hj.
    rewrite dget_dmk by (try assumption; now apply perm_lt).
    destruct (Nat.eqb_spec (pat v k) (pat v j)) as [E|E]; destruct (Nat.eqb_spec k j) as [E'|E']; try reflexivity.
    - exfalso. apply E'. now apply (perm_inj n v Hv).
    - subst. contradiction.
  Qed.

  Lemma col_row_perm n v : is_perm n v -> dmul o (col_perm_mat o v) (row_perm_mat o v) = did o n.
  Proof.
    intros Hv. pose proof (perm_length n v Hv) as Hl.
    unfold dmul at 1, did. unfold col_perm_mat at 1 2, row_perm_mat at 1 2. shapes. rewrite Hl.
    apply (dmk_ext o). intros i j Hi Hj.
    transitivity (sum o n (fun x => if (i =? x) && (j =? x) then r1 else r0)).
    - etransitivity; [|apply (sum_reindex n v (fun x => if (i =? x) && (j =? x) then r1 else r0) Hv)].
      apply (sum_ext o). intros k Hk. unfold col_perm_mat, row_perm_mat. rewrite Hl.
      rewrite !dget_dmk by assumption.
      destruct (i =? pat v k); destruct (j =? pat v k); cbn [andb]; ring.
    - rewrite (sum_ext o n _ (fun x => if x =? i then (if j =? x then r1 else r0) else r0)).
      + rewrite (sum_delta o L n i (fun x => if j =? x then r1 else r0)) by assumption.
        rewrite Nat.eqb_sym. reflexivity.
      + intros x Hx. rewrite (Nat.eqb_sym i x). destruct (x =? i); reflexivity.
  Qed.
End PermSum.
