(* C09 (uniqueness), part 1: divisibility in a ring dictionary, the gcd of a finite vector over a Bezout
   domain and PRIMITIVE kernel vectors.

   [rdvd a b]      a divides b:  b = q * a          (the convention of C09_exit and of Z.divide)
   [bezout]        every pair has a common divisor that is a linear combination (a Bezout domain)
   [chain r a]     a_0 | a_1 | ... | a_(r-1)
   [associates]    b = u * a for an invertible u

   [vec_gcd]:      over a Bezout domain the entries x_0 .. x_(n-1) have a common divisor g = sum c_l x_l.
   [prim_kernel]:  a homogeneous system with more unknowns than equations over a Bezout integral domain has a
                   solution whose entries generate the unit ideal (sum cf_l x_l = 1).  The solution itself
                   is the fraction-free one of Proofs/C07Rank.v ([kernel_vector]) divided by its gcd. *)
From Coq Require Import Arith List Lia Ring Bool.
Require Import Yui.Base.Ring Yui.Base.MatF Yui.Proofs.C07Algebra Yui.Proofs.C07Rank.
Import ListNotations.

Section C09UniqueKer.
  Context {R : Type} (o : ring_ops R) (L : ring_laws o) (Hint : integral o).

  Local Notation "0" := (rzero o).
  Local Notation "1" := (rone o).
  Local Infix "+" := (radd o).
  Local Infix "*" := (rmul o).
  Local Notation "- x" := (rneg o x).

  Add Ring RringU1 : (ring_theory_of_laws o L).

  Definition rdvd (a b : R) : Prop := exists q, b = q * a.
  Definition bezout : Prop :=
    forall x y, exists d s t, d = s * x + t * y /\ rdvd d x /\ rdvd d y.
  Definition chain (r : nat) (a : nat -> R) : Prop := forall k, (S k < r)%nat -> rdvd (a k) (a (S k)).
  Definition associates (a b : R) : Prop := exists u v, u * v = 1 /\ b = u * a.

  Lemma rdvd_refl a : rdvd a a.
  Proof. exists 1. ring. Qed.

  Lemma rdvd_trans a b c : rdvd a b -> rdvd b c -> rdvd a c.
  Proof. intros [q ->] [q' ->]. exists (q' * q). ring. Qed.

  Lemma rdvd_zero a : rdvd a 0.
  Proof. exists 0. ring. Qed.

  Lemma rdvd_mul_l a b c : rdvd a b -> rdvd a (c * b).
  Proof. intros [q ->]. exists (c * q). ring. Qed.

  Lemma rdvd_mul_r a b c : rdvd a b -> rdvd a (b * c).
  Proof. intros [q ->]. exists (c * q). ring. Qed.

  Lemma rdvd_add a b c : rdvd a b -> rdvd a c -> rdvd a (b + c).
  Proof. intros [q ->] [q' ->]. exists (q + q'). ring. Qed.

  Lemma rdvd_sum n a f : (forall k, (k < n)%nat -> rdvd a (f k)) -> rdvd a (sum o n f).
  Proof.
    induction n as [|n IH]; intros H; cbn [sum].
    - apply rdvd_zero.
    - apply rdvd_add; [apply IH; intros k Hk; apply H; lia|apply H; lia].
  Qed.

  Lemma chain_le r a i j : chain r a -> (i <= j)%nat -> (j < r)%nat -> rdvd (a i) (a j).
  Proof.
    intros C Hij. induction Hij as [|j Hij IH]; intros Hj.
    - apply rdvd_refl.
    - apply rdvd_trans with (a j); [apply IH; lia|now apply C].
  Qed.

  Lemma mul_cancel_r a b c : a * c = b * c -> c <> 0 -> a = b.
  Proof.
    intros E Hc.
    assert (E' : (a + - b) * c = 0) by (transitivity (a * c + - (b * c)); [ring|rewrite E; ring]).
    destruct (proj2 Hint _ _ E') as [H|H]; [|contradiction].
    transitivity (a + - b + b); [ring|]. rewrite H. ring.
  Qed.

  Lemma rdvd_antisym a b : a <> 0 -> rdvd a b -> rdvd b a -> associates a b.
  Proof.
    intros Ha [q Hq] [q' Hq']. exists q, q'. split; [|exact Hq].
    apply mul_cancel_r with a; [|exact Ha].
    transitivity (q' * (q * a)); [ring|]. rewrite <- Hq, <- Hq'. ring.
  Qed.

  Lemma associates_sym a b : associates a b -> associates b a.
  Proof.
    intros [u [v [Huv ->]]]. exists v, u. split; [rewrite <- Huv; ring|].
    transitivity (u * v * a); [rewrite Huv; ring|ring].
  Qed.

  Lemma associates_rdvd a b : associates a b -> rdvd a b /\ rdvd b a.
  Proof.
    intros [u [v [Huv ->]]]. split; [exists u; reflexivity|]. exists v.
    transitivity (u * v * a); [rewrite Huv; ring|ring].
  Qed.

  Lemma vec_gcd (B : bezout) n (x : nat -> R) :
    exists g (c q : nat -> R),
      g = sum o n (fun l => c l * x l) /\ forall l, (l < n)%nat -> x l = q l * g.
  Proof.
    induction n as [|n IH].
    - exists 0, (fun _ => 0), (fun _ => 0). split; [reflexivity|]. intros l Hl. lia.
    - destruct IH as [g0 [c0 [q0 [Hg0 Hq0]]]].
      destruct (B g0 (x n)) as [d [s [t [Hd [[u Hu] [v Hv]]]]]].
      exists d, (fun l => if l <? n then s * c0 l else t), (fun l => if l <? n then q0 l * u else v).
      split.
      + cbn [sum].
        rewrite (sum_ext o n _ (fun l => s * (c0 l * x l))).
        2:{ intros l Hl. destruct (Nat.ltb_spec l n); [ring|lia]. }
        rewrite (sum_scal_l o L), <- Hg0.
        destruct (Nat.ltb_spec n n); [lia|]. exact Hd.
      + intros l Hl. destruct (Nat.ltb_spec l n) as [Hln|Hln].
        * rewrite (Hq0 l Hln). rewrite Hu at 1. ring.
        * assert (l = n) by lia. subst l. exact Hv.
  Qed.

  Lemma prim_kernel (B : bezout) r c (M : mat R) : (r < c)%nat ->
    exists x cf : nat -> R,
      sum o c (fun l => cf l * x l) = 1 /\
      forall i, (i < r)%nat -> sum o c (fun j => M i j * x j) = 0.
  Proof.
    intros Hrc.
    destruct (kernel_vector o L Hint r c M Hrc) as [x0 [[j0 [Hj0 Hx0]] Hker]].
    destruct (vec_gcd B c x0) as [g [cf [q [Hg Hq]]]].
    assert (Hgnz : g <> 0).
    { intros E. apply Hx0. rewrite (Hq j0 Hj0), E. ring. }
    exists q, cf. split.
    - apply mul_cancel_r with g; [|exact Hgnz].
      rewrite <- (sum_scal_r o L).
      rewrite (sum_ext o c _ (fun l => cf l * x0 l)).
      + rewrite <- Hg. ring.
      + intros l Hl. rewrite (Hq l Hl). ring.
    - intros i Hi. apply mul_cancel_r with g; [|exact Hgnz].
      rewrite <- (sum_scal_r o L).
      rewrite (sum_ext o c _ (fun j => M i j * x0 j)).
      + rewrite (Hker i Hi). ring.
      + intros l Hl. rewrite (Hq l Hl). ring.
  Qed.
End C09UniqueKer.
