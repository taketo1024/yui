(* C11 - the two sequential phases (find_fl_pivots, find_fl_col_pivots) never panic and preserve the
   pivot-set invariant PInv. *)
From Coq Require Import List Bool Arith Lia Permutation Sorted.
Require Import Yui.Model.Pivot Yui.Proofs.C11Base.
Import ListNotations.

Section Seq.
Variable M : mstr.
Hypothesis Hwf : wf_str M.

Lemma remain_rows_In : forall P i, In i (remain_rows M P) -> ~ prow P i /\ i < m_rows M.
Proof.
  intros P i H. unfold remain_rows in H.
  apply (Permutation_in _ (sort_by_perm _ _)) in H. apply filter_In in H. destruct H as [Hs Hf].
  apply in_seq in Hs. apply andb_true_iff in Hf. destruct Hf as [Hf _]. apply negb_true_iff in Hf.
  split; [|lia]. intros Hp. apply has_row_prow in Hp. rewrite Hp in Hf. discriminate.
Qed.

Lemma remain_rows_NoDup : forall P, NoDup (remain_rows M P).
Proof.
  intros P. unfold remain_rows.
  eapply Permutation_NoDup; [apply Permutation_sym, sort_by_perm|].
  apply NoDup_filter. apply seq_NoDup.
Qed.

(* a pass over rows without a pivot: each step keeps Inv and adds at most a pivot in its own row *)
Lemma row_loop : forall {S} (step : S -> nat -> option S) (log : S -> plog) (Inv : S -> Prop),
  (forall s i, Inv s -> ~ prow (log s) i ->
     exists s1, step s i = Some s1 /\ Inv s1 /\
       (forall i', prow (log s1) i' -> prow (log s) i' \/ i' = i) /\ incl (log s) (log s1)) ->
  forall l s, NoDup l -> (forall i, In i l -> ~ prow (log s) i) -> Inv s ->
  exists s', fold_opt step l s = Some s' /\ Inv s' /\
    (forall i, prow (log s') i -> prow (log s) i \/ In i l) /\ incl (log s) (log s').
Proof.
  intros S step log Inv Hstep. induction l as [|i r IH]; intros s Hnd Hfree HI; cbn [fold_opt].
  - exists s. splits; [reflexivity | exact HI | intros i Hi; left; exact Hi | apply incl_refl].
  - inversion Hnd as [|? ? Hi Hr]; subst.
    destruct (Hstep s i HI (Hfree i (or_introl eq_refl))) as [s1 [E1 [HI1 [Hrows1 Hinc1]]]]. rewrite E1.
    destruct (IH s1 Hr) as [s' [E' [HI' [Hrows' Hinc']]]]; [|exact HI1|].
    { intros i' Hi' Hp. destruct (Hrows1 i' Hp) as [Hp'|Heq].
      - apply (Hfree i'); [right; exact Hi' | exact Hp'].
      - subst. apply Hi. exact Hi'. }
    exists s'. split; [exact E'|]. split; [exact HI'|]. split.
    + intros i' Hp. destruct (Hrows' i' Hp) as [Hp1|Hin]; [|right; right; exact Hin].
      destruct (Hrows1 i' Hp1) as [Hp0|Heq]; [left; exact Hp0 | right; left; symmetry; exact Heq].
    + eapply incl_tran; eassumption.
Qed.

Lemma prow_snoc : forall P i j i', prow (P ++ [(i, j)]) i' -> prow P i' \/ i' = i.
Proof.
  intros P i j i' [j' H]. apply in_app_or in H. destruct H as [H|[H|[]]]; [left; exists j'; exact H|].
  inversion H; subst. right. reflexivity.
Qed.

Definition heads_only (P : plog) : Prop := forall i j, In (i, j) P -> head_col_in M i = Some j.

Lemma heads_acyclic : forall P, heads_only P -> acyclic M P.
Proof.
  intros P Hh. exists (fun c => c). intros a b [r [Hin [Hb [Hne _]]]].
  eapply wf_head_lt; [exact Hwf | apply Hh; exact Hin | exact Hb | exact Hne].
Qed.

Lemma fl_step_ok : forall P i, pivots_wf M P /\ heads_only P -> ~ prow P i ->
  exists P1, fl_step M P i = Some P1 /\ (pivots_wf M P1 /\ heads_only P1) /\
    (forall i', prow P1 i' -> prow P i' \/ i' = i) /\ incl P P1.
Proof.
  intros P i [Hpw Hh] Hfree.
  assert (Hsame : exists P1, Some P = Some P1 /\ (pivots_wf M P1 /\ heads_only P1) /\
                    (forall i', prow P1 i' -> prow P i' \/ i' = i) /\ incl P P1).
  { exists P. splits; [reflexivity | assumption | assumption | intros i' Hi'; left; exact Hi' | apply incl_refl]. }
  unfold fl_step. destruct (head_col_in M i) as [j|] eqn:Eh; [|exact Hsame].
  destruct (negb (has_col P j) && is_cand M i j) eqn:Ec; [|exact Hsame].
  apply andb_true_iff in Ec. destruct Ec as [Ec1 Ec2]. apply negb_true_iff in Ec1.
  apply has_col_false in Ec1. rewrite (pset_Some P i j Ec1).
  exists (P ++ [(i, j)]). split; [reflexivity|]. split; [split|split].
  - apply pivots_wf_add; try assumption. apply head_col_In; exact Eh.
  - intros i' j' H. apply in_app_or in H. destruct H as [H|[H|[]]]; [apply Hh; exact H|].
    inversion H; subst. exact Eh.
  - apply prow_snoc.
  - apply incl_appl, incl_refl.
Qed.

(* find_fl_pivots starts from the empty table *)
Lemma find_fl_pivots_ok : exists P1, find_fl_pivots M [] = Some P1 /\ PInv M P1.
Proof.
  unfold find_fl_pivots.
  destruct (row_loop (fl_step M) (fun P => P) _ fl_step_ok (remain_rows M []) []) as [P' [E [[Hpw Hh] _]]].
  - apply remain_rows_NoDup.
  - intros i Hi. apply remain_rows_In in Hi. apply Hi.
  - split; [apply PInv_nil|intros i j []].
  - exists P'. split; [exact E|]. split; [exact Hpw | apply heads_acyclic; exact Hh].
Qed.

Definition occ_ok (P : plog) (occ : list nat) : Prop :=
  forall r c, In (r, c) P -> forall c', In c' (cols_in M r) -> In c' occ.

Lemma occupied_cols_ok : forall P, occ_ok P (occupied_cols M P).
Proof.
  intros P r c Hin c' Hc'. unfold occupied_cols. apply in_flat_map. exists (r, c). split; [exact Hin | exact Hc'].
Qed.

Lemma flc_step_ok : forall st i, PInv M (fst st) /\ occ_ok (fst st) (snd st) -> ~ prow (fst st) i ->
  exists st1, flc_step M st i = Some st1 /\ (PInv M (fst st1) /\ occ_ok (fst st1) (snd st1)) /\
    (forall i', prow (fst st1) i' -> prow (fst st) i' \/ i' = i) /\ incl (fst st) (fst st1).
Proof.
  intros [P occ] i [HP Hocc] Hfree. cbn [fst snd] in *. unfold flc_step.
  destruct (min_by (col_key M) (filter (fun j => negb (memb j occ) && is_cand M i j) (cols_in M i))) as [j|] eqn:Em.
  - apply min_by_In in Em. apply filter_In in Em. destruct Em as [Hji Hf].
    apply andb_true_iff in Hf. destruct Hf as [Hf1 Hcand]. apply negb_true_iff in Hf1. apply memb_false in Hf1.
    destruct HP as [Hpw Hac].
    assert (Hnot : forall r0 c, In (r0, c) P -> ~ In j (cols_in M r0)).
    { intros r0 c Hin Hj. apply Hf1. eapply Hocc; eassumption. }
    assert (Hent : forall r0 c, In (r0, c) P -> In c (cols_in M r0)).
    { intros r0 c Hin. apply Hpw. exact Hin. }
    assert (Hfresh : ~ pcol P j).
    { intros [r0 Hr0]. apply (Hnot r0 j Hr0). apply Hent. exact Hr0. }
    rewrite (pset_Some P i j Hfresh).
    exists (P ++ [(i, j)], cols_in M i ++ occ). cbn [fst snd]. split; [reflexivity|]. split; [split|split].
    + split; [apply pivots_wf_add; assumption | apply acyclic_add_source; assumption].
    + intros r0 c Hin c' Hc'. apply in_app_or in Hin. destruct Hin as [Hin|[Hin|[]]].
      * apply in_or_app. right. eapply Hocc; eassumption.
      * inversion Hin; subst. apply in_or_app. left. exact Hc'.
    + apply prow_snoc.
    + apply incl_appl, incl_refl.
  - exists (P, occ). cbn [fst snd].
    splits; [reflexivity | exact HP | exact Hocc | intros i' Hi'; left; exact Hi' | apply incl_refl].
Qed.

Lemma find_fl_col_pivots_ok : forall P, PInv M P ->
  exists P2, find_fl_col_pivots M P = Some P2 /\ PInv M P2 /\ incl P P2.
Proof.
  intros P HP. unfold find_fl_col_pivots.
  destruct (row_loop (flc_step M) fst _ flc_step_ok (remain_rows M P) (P, occupied_cols M P))
    as [[P' occ'] [E [[HP' _] [_ Hinc]]]].
  - apply remain_rows_NoDup.
  - intros i Hi. apply remain_rows_In in Hi. apply Hi.
  - split; [exact HP|apply occupied_cols_ok].
  - rewrite E. exists P'. splits; [reflexivity | exact HP' | exact Hinc].
Qed.

End Seq.
